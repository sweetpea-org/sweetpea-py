(** Proofs about Hist/BlockState.v (property C19): every public call preserves
    the design of the block and keeps every cache equal to the pure function it
    memoises; hence every later synthesis sees the same design, the same errors
    and returns the same columns. *)
From Coq Require Import ZArith List Bool String Lia.
From SP Require Import Base.Lists Hist.BlockState.
Import ListNotations.
Open Scope Z_scope.


Definition cache_ok (c : option Z) (pure : Z) : Prop := c = None \/ c = Some pure.

Lemma memo_ok : forall c pure, cache_ok c pure -> cache_ok (memo c pure) pure.
Proof.
  intros c pure [H | H]; subst; unfold memo; cbn.
  - right; reflexivity.
  - destruct (negb (pure =? 0)); right; reflexivity.
Qed.

Definition list_cache_ok {A} (c : option (list A)) (pure : list A) : Prop := c = None \/ c = Some pure.

Lemma memo_list_ok : forall A (c : option (list A)) pure, list_cache_ok c pure -> list_cache_ok (memo_list c pure) pure.
Proof.
  intros A c pure [H | H]; subst; cbn.
  - right; reflexivity.
  - destruct pure; right; reflexivity.
Qed.

(** an entry of [_cached_previous_count] is right *)
Definition entry_ok (d : list fdesc) (e : (string * Z) * Z) : Prop :=
  exists fd, find_factor d (fst (fst e)) = Some fd /\ snd e = prev_pure fd (snd (fst e)) /\ 2 <= snd (fst e).

Definition prev_ok (d : list fdesc) (c : prev_cache) : Prop := Forall (entry_ok d) c.

Lemma lookup_ok : forall d c f t n, prev_ok d c -> lookup c f t = Some n ->
  exists fd, find_factor d f = Some fd /\ n = prev_pure fd t /\ 2 <= t.
Proof.
  intros d c f t n H; induction H as [| [[g u] m] r He Hr IH]; cbn; intro L.
  - discriminate.
  - destruct (String.eqb f g && (t =? u)) eqn:E.
    + apply andb_true_iff in E; destruct E as [E1 E2].
      apply String.eqb_eq in E1; apply Z.eqb_eq in E2; subst.
      inversion L; subst. destruct He as [fd [H1 [H2 H3]]]; cbn in *. exists fd; auto.
    + auto.
Qed.

Lemma store_ok : forall d c f t n, prev_ok d c -> entry_ok d ((f, t), n) -> prev_ok d (store c f t n).
Proof.
  intros d c f t n H He; induction H as [| [[g u] m] r Hx Hr IH]; cbn.
  - constructor; [exact He | constructor].
  - destruct (String.eqb f g && (t =? u)) eqn:E.
    + apply andb_true_iff in E; destruct E as [E1 E2].
      apply String.eqb_eq in E1; apply Z.eqb_eq in E2; subst.
      constructor; [exact He | exact Hr].
    + constructor; [exact Hx | exact IH].
Qed.

Lemma prev_pure_one : forall fd, prev_pure fd 1 = 0.
Proof. reflexivity. Qed.

Lemma prev_pure_succ : forall fd t, 1 <= t ->
  prev_pure fd (t + 1) = prev_pure fd t + (if applies fd ((t - 1) / fd_sustain fd + 1) then 1 else 0).
Proof.
  intros fd t Ht; unfold prev_pure.
  replace (t + 1 - 1) with t by lia.
  replace (Z.to_nat t) with (S (Z.to_nat (t - 1))) by lia.
  cbn [prev_count]. rewrite Z2Nat.id by lia. reflexivity.
Qed.

(** one step of the count kept by [fill] *)
Lemma prev_pure_step : forall fd t count, 1 <= t -> count = prev_pure fd t ->
  (if applies fd ((t - 1) / fd_sustain fd + 1) then count + 1 else count) = prev_pure fd (t + 1).
Proof. intros fd t count Ht ->. rewrite prev_pure_succ by lia. destruct (applies fd _); lia. Qed.

Lemma walk_ok : forall d c f fd fuel t t' n, prev_ok d c -> find_factor d f = Some fd ->
  walk c f fuel t = Some (t', n) -> n = prev_pure fd t' /\ 1 <= t'.
Proof.
  intros d c f fd fuel; induction fuel as [| k IH]; intros t t' n Hc Hf W; cbn in W;
    (destruct (t =? 1); [inversion W; subst; split; [reflexivity | lia] |]);
    (destruct (lookup c f t) eqn:L;
     [inversion W; subst; destruct (lookup_ok _ _ _ _ _ Hc L) as [fd' [H1 [H2 H3]]];
      rewrite Hf in H1; inversion H1; subst; split; [reflexivity | lia] |]).
  - discriminate.
  - eapply IH; eauto.
Qed.

Lemma fill_ok : forall d fd fuel c t trial count, prev_ok d c -> find_factor d (fd_name fd) = Some fd ->
  count = prev_pure fd t -> 1 <= t -> prev_ok d (fst (fill c fd fuel t trial count)).
Proof.
  intros d fd fuel; induction fuel as [| k IH]; intros c t trial count Hc Hf Hn Ht; cbn.
  - exact Hc.
  - destruct (t <? trial); [| exact Hc].
    pose proof (prev_pure_step fd t count Ht Hn) as Hstep.
    apply IH; auto; [| lia].
    apply store_ok; [exact Hc |]. exists fd; cbn; repeat split; [exact Hf | exact Hstep | lia].
Qed.

Lemma find_factor_name : forall d f fd, find_factor d f = Some fd -> fd_name fd = f.
Proof.
  induction d as [| x r IH]; cbn; intros f fd H; [discriminate |].
  destruct (String.eqb f (fd_name x)) eqn:E.
  - inversion H; subst. apply String.eqb_eq in E; auto.
  - auto.
Qed.

Lemma prev_request_ok : forall d c f t c' n, prev_ok d c -> prev_request d c f t = Some (c', n) -> prev_ok d c'.
Proof.
  intros d c f t c' n Hc; unfold prev_request.
  destruct (find_factor d f) as [fd |] eqn:Hf; [| discriminate].
  destruct (walk c f (Z.to_nat t) t) as [[t0 n0] |] eqn:W; [| discriminate].
  intro Heq; injection Heq as Heq.
  destruct (walk_ok _ _ _ _ _ _ _ _ Hc Hf W) as [W1 W2].
  replace c' with (fst (fill c fd (Z.to_nat t) t0 t n0)) by (rewrite Heq; reflexivity).
  apply fill_ok; auto. rewrite (find_factor_name _ _ _ Hf); exact Hf.
Qed.

(** the value the real method returns is the pure count, whatever the cache held *)
Lemma fill_value : forall fd fuel c t trial count, count = prev_pure fd t -> 1 <= t -> t <= trial ->
  (Z.to_nat (trial - t) <= fuel)%nat -> snd (fill c fd fuel t trial count) = prev_pure fd trial.
Proof.
  intros fd fuel; induction fuel as [| k IH]; intros c t trial count Hn Ht Hle Hf; cbn.
  - assert (t = trial) by lia. subst; reflexivity.
  - destruct (t <? trial) eqn:E.
    + apply Z.ltb_lt in E. apply IH; try lia. apply prev_pure_step; assumption.
    + apply Z.ltb_ge in E. assert (t = trial) by lia. subst; reflexivity.
Qed.

Lemma walk_le : forall c f fuel t t' n, walk c f fuel t = Some (t', n) -> 1 <= t -> t' <= t /\ (Z.to_nat (t - t') <= fuel)%nat.
Proof.
  intros c f fuel; induction fuel as [| k IH]; intros t t' n W Ht; cbn in W;
    (destruct (t =? 1) eqn:E; [apply Z.eqb_eq in E; inversion W; subst; lia |]);
    (destruct (lookup c f t); [inversion W; subst; lia |]).
  - discriminate.
  - apply Z.eqb_neq in E. destruct (IH _ _ _ W) as [H1 H2]; lia.
Qed.

Lemma prev_request_value : forall d c f t c' n fd, prev_ok d c -> find_factor d f = Some fd -> 1 <= t ->
  prev_request d c f t = Some (c', n) -> n = prev_pure fd t.
Proof.
  intros d c f t c' n fd Hc Hf Ht; unfold prev_request; rewrite Hf.
  destruct (walk c f (Z.to_nat t) t) as [[t0 n0] |] eqn:W; [| discriminate].
  intro Heq; injection Heq as Heq.
  destruct (walk_ok _ _ _ _ _ _ _ _ Hc Hf W) as [W1 W2].
  destruct (walk_le _ _ _ _ _ _ W Ht) as [W3 W4].
  replace n with (snd (fill c fd (Z.to_nat t) t0 t n0)) by (rewrite Heq; reflexivity).
  apply fill_value; auto; lia.
Qed.

Lemma prev_requests_ok : forall d reqs c, prev_ok d c -> prev_ok d (prev_requests d c reqs).
Proof.
  intros d reqs; induction reqs as [| [f t] r IH]; intros c Hc; cbn; [exact Hc |].
  destruct (prev_request d c f t) as [[c' n] |] eqn:E.
  - apply IH. eapply prev_request_ok; eauto.
  - apply IH; exact Hc.
Qed.


Lemma add_err_in : forall e l, In e l -> add_err e l = l.
Proof.
  intros e l H; unfold add_err.
  replace (existsb (String.eqb e) l) with true; [reflexivity |].
  symmetry; apply existsb_exists; exists e; split; [exact H | apply String.eqb_refl].
Qed.

Lemma add_errs_incl : forall es l, incl es l -> add_errs es l = l.
Proof.
  intros es l H. unfold add_errs. apply (fold_left_inv _ (fun acc => acc = l)); [| reflexivity].
  intros acc e He ->. apply add_err_in, H, He.
Qed.


Lemma set_cfs_ok : forall names c i, Forall (fun e => snd e = names) c -> Forall (fun e : Z * list string => snd e = names) (set_cfs c i names).
Proof.
  intros names c i H; induction H as [| [j w] r Hx Hr IH]; cbn.
  - constructor; [reflexivity | constructor].
  - destruct (i =? j); constructor; auto.
Qed.

Lemma record_cfs_ok : forall names n c, Forall (fun e => snd e = names) c ->
  Forall (fun e : Z * list string => snd e = names) (record_cfs c n names).
Proof.
  intros names n c H. unfold record_cfs. apply fold_left_inv; [| exact H].
  intros acc i _ Hacc. apply set_cfs_ok, Hacc.
Qed.

Section Proofs.
  Variable tps_fn : list fdesc -> list (list string) -> Z -> Z.
  Variable excl_fn : list fdesc -> list (list string) -> list Z -> list string.

  Notation step := (step tps_fn excl_fn).
  Notation run := (run tps_fn excl_fn).
  Notation synth := (synth tps_fn excl_fn).

  (** design, crossings, constraint list (and the error set) are those of [s0] *)
  Definition same_design (s0 s : bstate) : Prop :=
    st_design s = st_design s0 /\ st_orig_design s = st_orig_design s0 /\ st_cont s = st_cont s0 /\
    st_crossings s = st_crossings s0 /\ st_constraints s = st_constraints s0 /\
    st_min_trials s = st_min_trials s0 /\ st_errors s = st_errors s0.

  (** every cache is empty or equals the pure function it memoises *)
  Definition caches_ok (s : bstate) : Prop :=
    cache_ok (st_tps s) (tps_pure tps_fn s) /\
    cache_ok (st_vpt s) (vpt_pure (st_design s)) /\
    list_cache_ok (st_simple s) (simple_pure (st_design s)) /\
    prev_ok (st_design s) (st_prev s) /\
    Forall (fun e => snd e = st_cont s) (st_cfs s).

  (** the block was constructed: the messages of [__count_exclusions] are already in [errors] *)
  Definition errors_closed (s : bstate) : Prop :=
    incl (excl_fn (st_design s) (st_crossings s) (st_constraints s)) (st_errors s).

  Definition Inv (s0 s : bstate) : Prop := same_design s0 s /\ caches_ok s /\ errors_closed s.

  (** splits a hypothesis [H : Inv s0 s] into the seven facts of [same_design] ([D1]..[D7]), the five of
      [caches_ok] ([C1]..[C5]) and [E : errors_closed s] *)
  Ltac inv_intro H := destruct H as [[D1 [D2 [D3 [D4 [D5 [D6 D7]]]]]] [[C1 [C2 [C3 [C4 C5]]]] E]].

  Lemma touch_tps_inv : forall s0 s, Inv s0 s -> Inv s0 (touch_tps tps_fn s).
  Proof.
    intros s0 s H; inv_intro H.
    split; [| split]; [repeat split; assumption | | exact E].
    repeat split; try assumption. cbn. apply memo_ok; exact C1.
  Qed.

  Lemma touch_vpt_inv : forall s0 s, Inv s0 s -> Inv s0 (touch_vpt s).
  Proof.
    intros s0 s H; inv_intro H.
    split; [| split]; [repeat split; assumption | | exact E].
    repeat split; try assumption. cbn. apply memo_ok; exact C2.
  Qed.

  Lemma touch_simple_inv : forall s0 s, Inv s0 s -> Inv s0 (touch_simple s).
  Proof.
    intros s0 s H; inv_intro H.
    split; [| split]; [repeat split; assumption | | exact E].
    repeat split; try assumption. cbn. apply memo_list_ok; exact C3.
  Qed.

  Lemma count_exclusions_id : forall s, errors_closed s -> count_exclusions excl_fn s = s.
  Proof.
    intros s E; unfold count_exclusions.
    destruct (st_crossings s) eqn:Cr; [reflexivity |].
    rewrite add_errs_incl.
    - destruct s; reflexivity.
    - unfold errors_closed in E. rewrite Cr in E. exact E.
  Qed.

  Lemma count_exclusions_inv : forall s0 s, Inv s0 s -> Inv s0 (count_exclusions excl_fn s).
  Proof. intros s0 s H. rewrite count_exclusions_id; [exact H | apply H]. Qed.

  Lemma do_reqs_inv : forall s0 s reqs, Inv s0 s -> Inv s0 (do_reqs s reqs).
  Proof.
    intros s0 s reqs H; inv_intro H.
    split; [| split]; [repeat split; assumption | | exact E].
    repeat split; try assumption. cbn. apply prev_requests_ok; exact C4.
  Qed.

  Lemma opt_inv : forall s0 s b f, (forall s, Inv s0 s -> Inv s0 (f s)) -> Inv s0 s -> Inv s0 (opt b f s).
  Proof. intros s0 s [|] f Hf H; cbn; auto. Qed.

  Lemma sample_continuous_inv : forall s0 s n, Inv s0 s -> Inv s0 (sample_continuous s n).
  Proof.
    intros s0 s n H. unfold sample_continuous.
    destruct (st_cont s) eqn:Ct; [exact H |].
    destruct n; [exact H |].
    inv_intro H.
    split; [| split]; [repeat split; cbn; try assumption | | exact E].
    repeat split; try assumption. unfold set_cont_samples; cbn [st_cfs st_cont]. rewrite Ct.
    apply record_cfs_ok. rewrite <- Ct. exact C5.
  Qed.

  (** the state after the backend request of a formula-based synthesis *)
  Lemma mid_inv : forall s0 s tv reqs, Inv s0 s ->
    Inv s0 (do_reqs (opt tv touch_vpt (count_exclusions excl_fn (touch_tps tps_fn s))) reqs).
  Proof.
    intros s0 s tv reqs H. apply do_reqs_inv. apply opt_inv; [intros; apply touch_vpt_inv; assumption |].
    apply count_exclusions_inv, touch_tps_inv, H.
  Qed.

  (** ... and after the tail of [synthesize_trials] *)
  Lemma tail_inv : forall s0 s ts n, Inv s0 s -> Inv s0 (sample_continuous (opt ts touch_simple s) n).
  Proof.
    intros s0 s ts n H. apply sample_continuous_inv. apply opt_inv; [intros; apply touch_simple_inv; assumption | exact H].
  Qed.

  Lemma synth_inv : forall s0 s st raises k tv ts reqs, Inv s0 s -> Inv s0 (fst (synth s st raises k tv ts reqs)).
  Proof.
    intros s0 s st raises k tv ts reqs H. unfold BlockState.synth.
    pose proof (touch_tps_inv s0 s H) as H1. pose proof (mid_inv s0 s tv reqs H) as Hm.
    destruct st; cbv zeta.
    - destruct raises; [exact Hm |]. destruct (fatal _); [exact Hm | apply tail_inv, Hm].
    - destruct (fatal _); destruct raises; cbn [fst]; auto using tail_inv.
    - destruct raises; [exact H1 | apply tail_inv, H1].
  Qed.

  Lemma step_inv : forall s0 s o, Inv s0 s -> Inv s0 (fst (step s o)).
  Proof.
    intros s0 s o H; destruct o; cbn [BlockState.step fst]; try exact H.
    - apply synth_inv; exact H.
    - destruct (st_crossings s) as [| c [| c' r]]; exact H.
    - apply do_reqs_inv. apply opt_inv; [intros; apply touch_vpt_inv; assumption |].
      apply touch_tps_inv; exact H.
  Qed.

  Lemma run_inv : forall ops s0 s, Inv s0 s -> Inv s0 (run ops s).
  Proof.
    intros ops s0 s H. apply (fold_left_inv _ (Inv s0)); [| exact H]. intros a o _. apply step_inv.
  Qed.

  (** C19: any sequence of library calls on a constructed block leaves design, crossings and
      constraint list as they were and every cache equal to the pure function it memoises. *)
  Theorem ops_preserve_meaning : forall s0 ops, Inv s0 s0 -> Inv s0 (run ops s0).
  Proof. intros; apply run_inv; assumption. Qed.


  Lemma columns_fixed : forall s0 s, Inv s0 s -> columns s = columns s0.
  Proof. intros s0 s H; inv_intro H. unfold columns. rewrite D1, D3. reflexivity. Qed.

  (** what a synthesis call returns (refusal by [show_errors], or the number of experiments the
      sampler produced together with the set of columns) is read off the initial block *)
  Lemma synth_out : forall s0 s st k tv ts reqs, Inv s0 s ->
    snd (synth s st false k tv ts reqs) =
    if match st with SSM => false | _ => fatal (st_errors s0) end then ORefused else OCols k (columns s0).
  Proof.
    intros s0 s st k tv ts reqs H. unfold BlockState.synth.
    pose proof (touch_tps_inv s0 s H) as H1. pose proof (mid_inv s0 s tv reqs H) as Hm.
    assert (E1 : st_errors (touch_tps tps_fn s) = st_errors s0) by apply H1.
    assert (E2 : st_errors (do_reqs (opt tv touch_vpt (count_exclusions excl_fn (touch_tps tps_fn s))) reqs) = st_errors s0)
      by apply Hm.
    destruct st; cbv zeta; cbn [snd].
    - rewrite E2. destruct (fatal (st_errors s0)); [reflexivity |]. cbn [snd]. f_equal. apply columns_fixed, tail_inv, Hm.
    - rewrite E1. destruct (fatal (st_errors s0)); [reflexivity |]. cbn [snd]. f_equal. apply columns_fixed, tail_inv, Hm.
    - f_equal. apply columns_fixed, tail_inv, H1.
  Qed.
End Proofs.


Definition ex_design : list fdesc :=
  [ {| fd_name := "f"; fd_hidden := false; fd_nlevels := 2; fd_complex := false; fd_start := 0; fd_stride := 1;
       fd_sustain := 1; fd_active := true |};
    {| fd_name := "g"; fd_hidden := false; fd_nlevels := 2; fd_complex := false; fd_start := 0; fd_stride := 1;
       fd_sustain := 1; fd_active := true |};
    {| fd_name := "t"; fd_hidden := false; fd_nlevels := 2; fd_complex := true; fd_start := 1; fd_stride := 1;
       fd_sustain := 1; fd_active := true |} ]%string.

Definition ex_state : bstate :=
  {| st_design := ex_design; st_orig_design := [("f", false); ("g", false); ("t", false); ("rt", false)]%string;
     st_cont := ["rt"%string]; st_crossings := [["f"; "g"]]%string; st_constraints := [0; 1; 2; 3];
     st_min_trials := 0; st_tps := Some 4; st_vpt := None; st_simple := None; st_prev := []; st_cfs := [];
     st_errors := ["WARNING: crossing incomplete"%string]; st_dist_used := [] |}.

Definition ex_tps (_ : list fdesc) (_ : list (list string)) (_ : Z) : Z := 4.
Definition ex_excl (_ : list fdesc) (_ : list (list string)) (_ : list Z) : list string :=
  ["WARNING: crossing incomplete"%string].

Definition ex_ops : list op :=
  [ Synth SSat false 2 true true [("f", 2); ("g", 2); ("f", 4); ("t", 4)]%string; Print;
    Synth SRandom false 1 false false [("g", 4); ("t", 3)]%string; Mismatch false false []; Tabulate ].

Lemma ex_inv : Inv ex_tps ex_excl ex_state ex_state.
Proof.
  split; [repeat split |]. split.
  - repeat split.
    + right; reflexivity.
    + left; reflexivity.
    + left; reflexivity.
    + constructor.
    + constructor.
  - intros x Hx. exact Hx.
Qed.

Lemma ex_reached :
  Inv ex_tps ex_excl ex_state ex_state /\
  st_prev (run ex_tps ex_excl ex_ops ex_state) =
    [(("f", 2), 1); (("g", 2), 1); (("f", 3), 2); (("f", 4), 3); (("t", 2), 0); (("t", 3), 1); (("t", 4), 2);
     (("g", 3), 2); (("g", 4), 3)]%string /\
  st_vpt (run ex_tps ex_excl ex_ops ex_state) = Some 4 /\
  st_cfs (run ex_tps ex_excl ex_ops ex_state) = [(0, ["rt"%string]); (1, ["rt"%string])] /\
  snd (step ex_tps ex_excl (run ex_tps ex_excl ex_ops ex_state) (Synth SSat false 3 false false [])) =
    OCols 3 ["f"; "g"; "t"; "rt"]%string.
Proof. split; [exact ex_inv |]. vm_compute. repeat split. Qed.
