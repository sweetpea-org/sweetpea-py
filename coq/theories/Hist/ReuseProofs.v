(** Proofs about Hist/Reuse.v (property C18), for the code after /repo commit 88b3d0f
    ([_create] works on private copies of the constraint objects it is given): a construction
    never writes an object that existed before it; every dependency-closed set of blocks gets
    the same summaries in the shared store as when only those blocks are built (the run that
    skips the others is simulated block by block, [sim]).  [wit_prog] is a program on which the code
    before that commit does not have this property (Properties/C18.v evaluates the model on it);
    [ex_shared] evaluates an example with heavy sharing. *)
From Coq Require Import ZArith List Bool Arith Lia.
From SP Require Import Base.Lists Hist.Reuse.
Import ListNotations.
Open Scope Z_scope.

Definition wit_g2 : geom := {| g_trials := 2; g_preamble := 0; g_sustain := [(0, 1)] |}.
Definition wit_g4 : geom := {| g_trials := 4; g_preamble := 0; g_sustain := [(0, 1); (1, 1)] |}.
Definition wit_user : list cobj :=
  [ {| c_kind := KAtMost; c_within := None; c_k := 1; c_trials := 0; c_mtr := None |} ].
(** c = AtMostKInARow(1, (f, "a"));  CrossBlock([f],[f],[c]) (2 trials);  CrossBlock([f,g],[f,g],[c]) (4 trials) *)
Definition wit_prog : list desc :=
  [ {| d_kind := DLeaf; d_geom := wit_g2; d_cs := [0%nat]; d_copied := [false] |};
    {| d_kind := DLeaf; d_geom := wit_g4; d_cs := [0%nat]; d_copied := [false] |} ].

Lemma Forall2_impl_in : forall {A B} (P Q : A -> B -> Prop) (l : list A) (l' : list B),
  (forall a b, In a l -> In b l' -> P a b -> Q a b) -> Forall2 P l l' -> Forall2 Q l l'.
Proof.
  intros A B P Q l l' H F; induction F as [| a b ra rb Hab Hr IH]; constructor.
  - apply H; [left | left |]; auto.
  - apply IH. intros; apply H; [right | right |]; assumption.
Qed.

(** both fail, or both succeed with related results *)
Definition orel {A B} (R : A -> B -> Prop) (x : option A) (y : option B) : Prop :=
  match x, y with Some a, Some b => R a b | None, None => True | _, _ => False end.

(** two computations that stop together: related inputs, and continuations that keep the relation *)
Lemma orel_bind : forall {A B C D} (R : A -> B -> Prop) (Q : C -> D -> Prop) x y (f : A -> option C) (g : B -> option D),
  orel R x y -> (forall a b, x = Some a -> y = Some b -> R a b -> orel Q (f a) (g b)) ->
  orel Q (match x with Some a => f a | None => None end) (match y with Some b => g b | None => None end).
Proof. intros A B C D R Q [a|] [b|] f g H K; try contradiction; [apply K; auto | exact I]. Qed.

Lemma upd_same : forall f i o, upd f i o i = o.
Proof. intros; unfold upd; rewrite Nat.eqb_refl; reflexivity. Qed.

Lemma upd_other : forall f i o j, j <> i -> upd f i o j = f j.
Proof. intros f i o j H; unfold upd. destruct (Nat.eqb j i) eqn:E; [apply Nat.eqb_eq in E; contradiction | reflexivity]. Qed.

Lemma view_set_mtr : forall o m, view (set_mtr o m) = view o.
Proof. reflexivity. Qed.

Lemma write_mtr_view : forall all f cp t id, view (write_mtr f all cp t id) = view (f id).
Proof.
  induction all as [| i r IH]; intros f cp t id; cbn; [reflexivity |].
  rewrite IH. destruct (c_kind (f i)); try reflexivity.
  destruct (match cp with [] => false | b :: _ => b end); [reflexivity |].
  unfold upd. destruct (Nat.eqb id i) eqn:E; [| reflexivity].
  apply Nat.eqb_eq in E; subst. reflexivity.
Qed.

Definition init1 (f : nat -> cobj) (i : nat) (g : geom) : nat -> cobj := upd f i (init_within_block (f i) g).

Lemma init_all_cons : forall f i r g, init_all f (i :: r) g = init_all (init1 f i g) r g.
Proof. reflexivity. Qed.

Lemma init_within_fields : forall o g,
  c_kind (init_within_block o g) = c_kind o /\ c_k (init_within_block o g) = c_k o /\
  c_trials (init_within_block o g) = c_trials o.
Proof. intros o g; unfold init_within_block. destruct (has_within (c_kind o)); [destruct (c_within o) |]; auto. Qed.

Lemma init_within_idem : forall o g, init_within_block (init_within_block o g) g = init_within_block o g.
Proof.
  intros o g; unfold init_within_block.
  destruct (has_within (c_kind o)) eqn:E; [| rewrite E; reflexivity].
  destruct (c_within o) eqn:W; cbn; rewrite E; [rewrite W |]; reflexivity.
Qed.

Lemma init_all_notin : forall all f g id, ~ In id all -> init_all f all g id = f id.
Proof.
  induction all as [| i r IH]; intros f g id H; [reflexivity |].
  rewrite init_all_cons, IH by (intro; apply H; right; assumption).
  unfold init1. apply upd_other. intro; subst; apply H; left; reflexivity.
Qed.

Lemma init_all_in : forall all f g id, In id all -> init_all f all g id = init_within_block (f id) g.
Proof.
  induction all as [| i r IH]; intros f g id H; [destruct H |].
  rewrite init_all_cons. destruct (in_dec Nat.eq_dec id r) as [Hr | Hr].
  - rewrite IH by exact Hr. unfold init1, upd. destruct (Nat.eqb id i) eqn:E; [| reflexivity].
    apply Nat.eqb_eq in E; subst. apply init_within_idem.
  - rewrite init_all_notin by exact Hr. destruct H as [-> | H]; [| contradiction].
    unfold init1. apply upd_same.
Qed.

Lemma init_all_fields : forall all f g id,
  c_kind (init_all f all g id) = c_kind (f id) /\ c_k (init_all f all g id) = c_k (f id) /\
  c_trials (init_all f all g id) = c_trials (f id).
Proof.
  intros all f g id. destruct (in_dec Nat.eq_dec id all) as [H | H].
  - rewrite init_all_in by exact H. apply init_within_fields.
  - rewrite init_all_notin by exact H. auto.
Qed.

Lemma write_mtr_notin : forall all f cp t id, ~ In id all -> write_mtr f all cp t id = f id.
Proof.
  induction all as [| i r IH]; intros f cp t id H; cbn; [reflexivity |].
  rewrite IH by (intro; apply H; right; assumption).
  destruct (c_kind (f i)); try reflexivity.
  destruct (match cp with [] => false | b :: _ => b end); [reflexivity |].
  apply upd_other. intro; subst; apply H; left; reflexivity.
Qed.

Lemma view_eq_fields : forall a b, c_kind a = c_kind b -> c_within a = c_within b -> c_k a = c_k b -> c_trials a = c_trials b ->
  view a = view b.
Proof. intros a b H1 H2 H3 H4; unfold view; rewrite H1, H2, H3, H4; reflexivity. Qed.

Lemma view_inv : forall a b, view a = view b ->
  c_kind a = c_kind b /\ c_within a = c_within b /\ c_k a = c_k b /\ c_trials a = c_trials b.
Proof. intros a b H; unfold view in H; inversion H; auto. Qed.

Lemma init_within_view : forall a b g, view a = view b -> view (init_within_block a g) = view (init_within_block b g).
Proof.
  intros a b g H; destruct (view_inv _ _ H) as [K [W [Kk T]]].
  unfold init_within_block. rewrite <- K, <- W.
  destruct (has_within (c_kind a)); [destruct (c_within a) |]; try exact H;
    apply view_eq_fields; cbn; congruence.
Qed.

Lemma sustain_view : forall n a b, view a = view b ->
  orel (fun a' b' => view a' = view b') (sustain_within_block a n) (sustain_within_block b n).
Proof.
  intros n a b H; destruct (view_inv _ _ H) as [K [W [Kk T]]].
  unfold orel, sustain_within_block. rewrite <- K, <- W.
  destruct (c_kind a) eqn:Ka; try (destruct (c_within a) eqn:Wa); cbn; auto;
    apply view_eq_fields; cbn; congruence.
Qed.

(** [copy_sustain] and [copy_all] are one loop: a new object per entry, made by [op] from the
    entry's object ([sustain_within_block] resp. the identity) *)
Fixpoint copy_gen (op : cobj -> option cobj) (f : nat -> cobj) (nx : nat) (ids : list nat)
  : option ((nat -> cobj) * nat * list nat) :=
  match ids with
  | [] => Some (f, nx, [])
  | i :: r =>
    match op (f i) with
    | None => None
    | Some o =>
      match copy_gen op (upd f nx o) (S nx) r with
      | None => None
      | Some (f', nx', l) => Some (f', nx', nx :: l)
      end
    end
  end.

Lemma copy_sustain_gen : forall ids f nx n,
  copy_sustain f nx ids n = copy_gen (fun o => sustain_within_block o n) f nx ids.
Proof.
  induction ids as [| i r IH]; intros f nx n; cbn; [reflexivity |].
  destruct (sustain_within_block (f i) n); [rewrite IH |]; reflexivity.
Qed.

Lemma copy_all_gen : forall ids f nx, copy_gen Some f nx ids = Some (copy_all f nx ids).
Proof.
  induction ids as [| i r IH]; intros f nx; cbn; [reflexivity |].
  rewrite IH. destruct (copy_all (upd f nx (f i)) (S nx) r) as [[f' nx'] l]. reflexivity.
Qed.

Lemma copy_gen_spec : forall op ids f nx f' nx' l,
  copy_gen op f nx ids = Some (f', nx', l) ->
  nx' = (nx + List.length ids)%nat /\ l = seq nx (List.length ids) /\
  (forall id, (id < nx)%nat -> f' id = f id).
Proof.
  intros op; induction ids as [| i r IH]; intros f nx f' nx' l H; cbn in H.
  - inversion H; subst. repeat split; auto; cbn; lia.
  - destruct (op (f i)) as [o |]; [| discriminate].
    destruct (copy_gen op (upd f nx o) (S nx) r) as [[[f2 nx2] l2] |] eqn:C; [| discriminate].
    inversion H; subst; clear H.
    destruct (IH (upd f nx o) (S nx) f' nx' l2 C) as [A [B Cc]].
    repeat split.
    + cbn; lia.
    + cbn. rewrite B. reflexivity.
    + intros id Hid. rewrite Cc by lia. apply upd_other; lia.
Qed.

Lemma copy_sustain_spec : forall ids f nx n f' nx' l,
  copy_sustain f nx ids n = Some (f', nx', l) ->
  nx' = (nx + List.length ids)%nat /\ l = seq nx (List.length ids) /\
  (forall id, (id < nx)%nat -> f' id = f id).
Proof. intros ids f nx n f' nx' l H. rewrite copy_sustain_gen in H. exact (copy_gen_spec _ _ _ _ _ _ _ H). Qed.

Lemma copy_all_spec : forall ids f nx f' nx' l,
  copy_all f nx ids = (f', nx', l) ->
  nx' = (nx + List.length ids)%nat /\ l = seq nx (List.length ids) /\
  (forall id, (id < nx)%nat -> f' id = f id).
Proof.
  intros ids f nx f' nx' l H. apply (copy_gen_spec Some ids f nx). rewrite copy_all_gen, H. reflexivity.
Qed.

(** the results of two copy loops, as far as a block can see them *)
Definition crel (x y : (nat -> cobj) * nat * list nat) : Prop :=
  Forall2 (fun a b => view (fst (fst x) a) = view (fst (fst y) b)) (snd x) (snd y).

Lemma copy_rel : forall op,
  (forall a b, view a = view b -> orel (fun a' b' => view a' = view b') (op a) (op b)) ->
  forall lF lM fF fM nF nM, Forall2 (fun a b => view (fF a) = view (fM b)) lF lM ->
  Forall (fun i => (i < nF)%nat) lF -> Forall (fun i => (i < nM)%nat) lM ->
  orel crel (copy_gen op fF nF lF) (copy_gen op fM nM lM).
Proof.
  intros op Hop lF. induction lF as [| a ra IH]; intros lM fF fM nF nM H HF HM;
    inversion H as [| ? b ? rb Hab Hr]; subst.
  - constructor.
  - inversion HF as [| ? ? _ HrF]; subst. inversion HM as [| ? ? _ HrM]; subst.
    cbn [copy_gen]. apply (orel_bind _ _ _ _ _ _ (Hop _ _ Hab)). intros oa ob _ _ Sv.
    assert (HF' : Forall (fun i => (i < S nF)%nat) ra) by (eapply Forall_impl; [| exact HrF]; cbn; intros; lia).
    assert (HM' : Forall (fun i => (i < S nM)%nat) rb) by (eapply Forall_impl; [| exact HrM]; cbn; intros; lia).
    assert (R : orel crel (copy_gen op (upd fF nF oa) (S nF) ra) (copy_gen op (upd fM nM ob) (S nM) rb)).
    { apply IH; auto. eapply Forall2_impl_in; [| exact Hr]. intros x y Hx Hy Hv. cbn in Hv.
      rewrite Forall_forall in HrF, HrM.
      rewrite !upd_other; [exact Hv | |]; [specialize (HrM y Hy) | specialize (HrF x Hx)]; lia. }
    apply (orel_bind _ _ _ _ _ _ R). intros [[fF' nF'] cF] [[fM' nM'] cM] CF CM R'.
    constructor; [| exact R']. cbn.
    destruct (copy_gen_spec _ _ _ _ _ _ _ CF) as [_ [_ FF]].
    destruct (copy_gen_spec _ _ _ _ _ _ _ CM) as [_ [_ FM]].
    rewrite FF, FM by lia. rewrite !upd_same. exact Sv.
Qed.

Lemma wf_from_cs : forall nuser ds j d, wf_from nuser j ds = true -> In d ds -> Forall (fun c => (c < nuser)%nat) (d_cs d).
Proof.
  intros nuser ds; induction ds as [| x r IH]; intros j d H Hin; [destruct Hin |].
  cbn in H. apply andb_true_iff in H; destruct H as [H1 H2]. apply andb_true_iff in H1; destruct H1 as [_ H1].
  destruct Hin as [-> | Hin]; [| eapply IH; eauto].
  rewrite Forall_forall. intros c Hc. rewrite forallb_forall in H1. apply Nat.ltb_lt. apply H1; exact Hc.
Qed.

Section Independent.
  Variable user : list cobj.
  Let n := List.length user.

  Definition uobj (c : nat) : cobj := nth c user default_obj.

  (** the user's objects are as they were created *)
  Definition user_ok (s : state) : Prop := forall c, (c < n)%nat -> objs s c = fresh (uobj c).

  (** every [orig_constraints] list holds existing objects *)
  Definition env_ok (s : state) : Prop :=
    forall b l, orig_of (env s) b = Some l -> Forall (fun id => (id < next s)%nat) l.

  Definition good (s : state) : Prop := (n <= next s)%nat /\ user_ok s /\ env_ok s.

  Definition desc_ok (d : desc) : Prop := Forall (fun c => (c < n)%nat) (d_cs d).

  Lemma good_init : good (init_state user).
  Proof.
    split; [cbn; unfold n; lia |]. split.
    - intros c Hc; reflexivity.
    - intros b l H. unfold orig_of in H; cbn in H. destruct b; discriminate.
  Qed.

  Lemma orig_of_app_old : forall e x b, (b < List.length e)%nat -> orig_of (e ++ [x]) b = orig_of e b.
  Proof. intros e x b H; unfold orig_of. rewrite nth_error_app1 by exact H. reflexivity. Qed.

  Lemma orig_of_app_new : forall e x, orig_of (e ++ [x]) (List.length e) = x.
  Proof.
    intros e x; unfold orig_of. rewrite nth_error_app2 by lia. rewrite Nat.sub_diag. cbn. destruct x; reflexivity.
  Qed.

  Lemma orig_of_lt : forall e b l, orig_of e b = Some l -> (b < List.length e)%nat.
  Proof.
    intros e b l H; unfold orig_of in H. destruct (nth_error e b) eqn:E; [| discriminate].
    apply nth_error_Some. rewrite E; discriminate.
  Qed.

  Lemma orig_of_app_cases : forall e x b l, orig_of (e ++ [x]) b = Some l ->
    ((b < List.length e)%nat /\ orig_of e b = Some l) \/ (b = List.length e /\ x = Some l).
  Proof.
    intros e x b l H. destruct (lt_dec b (List.length e)) as [Hl | Hl].
    - left; split; [exact Hl |]. rewrite orig_of_app_old in H by exact Hl. exact H.
    - right. pose proof (orig_of_lt _ _ _ H) as Hb. rewrite app_length in Hb; cbn in Hb.
      assert (b = List.length e) by lia. subst. rewrite orig_of_app_new in H. auto.
  Qed.

  Lemma origs_of_ok : forall s bs l, env_ok s -> origs_of (env s) bs = Some l ->
    Forall (fun id => (id < next s)%nat) l.
  Proof.
    intros s bs; induction bs as [| b r IH]; intros l He H; cbn in H.
    - inversion H; subst; constructor.
    - destruct (orig_of (env s) b) as [lb |] eqn:E1; [| discriminate].
      destruct (origs_of (env s) r) as [lr |] eqn:E2; [| discriminate].
      inversion H; subst. apply Forall_app; split; [apply (He _ _ E1) | apply IH; auto].
  Qed.

  Lemma gather_spec : forall s d f nx given, good s -> desc_ok d -> gather s d = Some (f, nx, given) ->
    (next s <= nx)%nat /\ (forall id, (id < next s)%nat -> f id = objs s id) /\
    Forall (fun id => (id < nx)%nat) given.
  Proof.
    intros s d f nx given [Hn [Hu He]] Hcs H. unfold gather in H.
    assert (Hcs' : Forall (fun id => (id < next s)%nat) (d_cs d)).
    { eapply Forall_impl; [| exact Hcs]. cbn; intros; lia. }
    destruct (d_kind d) as [| i | bs | o i k |].
    - inversion H; subst. repeat split; auto.
    - destruct (orig_of (env s) i) as [l |] eqn:E; [| discriminate]. inversion H; subst.
      repeat split; auto. apply Forall_app; split; [apply (He _ _ E) | exact Hcs'].
    - destruct (origs_of (env s) bs) as [l |] eqn:E; [| discriminate]. inversion H; subst.
      repeat split; auto. apply Forall_app; split; [exact Hcs' | apply (origs_of_ok _ _ _ He E)].
    - destruct (orig_of (env s) o) as [lo |] eqn:Eo; [| discriminate].
      destruct (orig_of (env s) i) as [li |] eqn:Ei; [| discriminate].
      destruct (copy_sustain (objs s) (next s) lo k) as [[[f1 nx1] copies] |] eqn:C; [| discriminate].
      inversion H; subst; clear H.
      destruct (copy_sustain_spec _ _ _ _ _ _ _ C) as [N1 [L1 F1]].
      repeat split.
      + lia.
      + exact F1.
      + apply Forall_app; split; [| apply Forall_app; split].
        * subst copies. apply Forall_forall. intros x Hx. apply in_seq in Hx. lia.
        * eapply Forall_impl; [| exact (He _ _ Ei)]. cbn; intros; lia.
        * eapply Forall_impl; [| exact Hcs']. cbn; intros; lia.
    - discriminate.
  Qed.

  Lemma build_some : forall s d f nx given f0 nx0 all, gather s d = Some (f, nx, given) -> copy_all f nx given = (f0, nx0, all) ->
    build s d = ({| objs := init_all (write_mtr f0 all (d_copied d) (g_trials (d_geom d))) all (d_geom d);
                    next := nx0; env := env s ++ [Some all] |},
                 Some (map (fun i => view (init_all (write_mtr f0 all (d_copied d) (g_trials (d_geom d))) all (d_geom d) i)) all)).
  Proof. intros s d f nx given f0 nx0 all G C. unfold build. rewrite G, C. reflexivity. Qed.

  Lemma build_none : forall s d, gather s d = None ->
    build s d = ({| objs := objs s; next := next s; env := env s ++ [None] |}, None).
  Proof. intros s d G. unfold build. rewrite G. reflexivity. Qed.

  (** one construction: the environment gets one entry, of objects that exist afterwards; the
      store only grows, nothing that existed is written *)
  Lemma build_spec : forall s d, good s -> desc_ok d ->
    exists x, env (fst (build s d)) = env s ++ [x] /\ (next s <= next (fst (build s d)))%nat /\
      (forall id, (id < next s)%nat -> objs (fst (build s d)) id = objs s id) /\
      (forall l, x = Some l -> Forall (fun id => (id < next (fst (build s d)))%nat) l).
  Proof.
    intros s d G D.
    destruct (gather s d) as [[[f nx] given] |] eqn:Ga.
    - destruct (gather_spec _ _ _ _ _ G D Ga) as [Hnx [Hf Hgiven]].
      destruct (copy_all f nx given) as [[f0 nx0] all] eqn:C.
      destruct (copy_all_spec _ _ _ _ _ _ C) as [N0 [L0 F0]].
      rewrite (build_some _ _ _ _ _ _ _ _ Ga C). cbn [fst objs next env]. exists (Some all).
      split; [reflexivity |]. split; [lia |]. split.
      + intros id Hid. assert (Hni : ~ In id all) by (subst all; rewrite in_seq; lia).
        rewrite init_all_notin, write_mtr_notin by exact Hni. rewrite F0 by lia. apply Hf, Hid.
      + intros l [= <-]. subst all. apply Forall_forall. intros x Hx. apply in_seq in Hx. lia.
    - rewrite (build_none _ _ Ga). exists None. cbn. repeat split; auto; discriminate.
  Qed.

  Lemma build_never_writes : forall s d id, good s -> desc_ok d -> (id < next s)%nat ->
    objs (fst (build s d)) id = objs s id.
  Proof. intros s d id G D. destruct (build_spec s d G D) as [x [_ [_ [H _]]]]. apply H. Qed.

  Lemma build_good : forall s d, good s -> desc_ok d -> good (fst (build s d)).
  Proof.
    intros s d G D. destruct (build_spec s d G D) as [x [Ex [Hnext [Hfr Hx]]]]. pose proof G as [Hn [Hu He]].
    split; [lia |]. split.
    - intros c Hc. rewrite Hfr by lia. apply Hu, Hc.
    - intros b l Hb. rewrite Ex in Hb. destruct (orig_of_app_cases _ _ _ _ Hb) as [[_ Ho] | [_ ->]].
      + eapply Forall_impl; [| exact (He _ _ Ho)]. cbn; intros; lia.
      + apply Hx; reflexivity.
  Qed.

  Variable keep : nat -> bool.

  Definition vrel (F M : state) (lF lM : list nat) : Prop :=
    Forall2 (fun a b => view (objs F a) = view (objs M b)) lF lM.

  (** the kept blocks built so far have the same constraint views in both runs *)
  Definition kept_rel (F M : state) : Prop :=
    forall b, keep b = true -> (b < List.length (env F))%nat ->
      orel (vrel F M) (orig_of (env F) b) (orig_of (env M) b).

  Definition sim (F M : state) : Prop :=
    good F /\ good M /\ List.length (env F) = List.length (env M) /\ kept_rel F M.

  Lemma origs_of_rel : forall F M bs, kept_rel F M ->
    Forall (fun b => keep b = true /\ (b < List.length (env F))%nat) bs ->
    orel (vrel F M) (origs_of (env F) bs) (origs_of (env M) bs).
  Proof.
    intros F M bs K H; induction H as [| b r [Hk Hb] Hr IH]; cbn; [constructor |].
    apply (orel_bind _ _ _ _ _ _ (K b Hk Hb)). intros lF lM _ _ R.
    apply (orel_bind _ _ _ _ _ _ IH). intros mF mM _ _ R'. apply Forall2_app; assumption.
  Qed.

  Lemma gather_rel : forall F M d, sim F M -> desc_ok d ->
    Forall (fun b => keep b = true /\ (b < List.length (env F))%nat) (deps d) ->
    orel crel (gather F d) (gather M d).
  Proof.
    intros F M d [GF [GM [L K]]] D Hd. unfold gather, deps in *.
    destruct GF as [HnF [HuF HeF]]. destruct GM as [HnM [HuM HeM]].
    assert (Vcs : forall (fF fM : nat -> cobj), (forall id, (id < next F)%nat -> fF id = objs F id) ->
              (forall id, (id < next M)%nat -> fM id = objs M id) ->
              Forall2 (fun a b => view (fF a) = view (fM b)) (d_cs d) (d_cs d)).
    { intros fF fM EF EM. unfold desc_ok in D. clear - D HuF HuM HnF HnM EF EM.
      induction D as [| c r Hc Hr IH]; constructor; [| exact IH].
      rewrite EF, EM by lia. rewrite HuF, HuM by exact Hc. reflexivity. }
    destruct (d_kind d) as [| i | bs | o i k |]; [| | | | exact I].
    - apply Vcs; auto.
    - inversion Hd as [| ? ? [Hk Hb] _]; subst.
      apply (orel_bind _ _ _ _ _ _ (K i Hk Hb)). intros lF lM _ _ R. apply Forall2_app; [exact R | apply Vcs; auto].
    - apply (orel_bind _ _ _ _ _ _ (origs_of_rel F M bs K Hd)). intros lF lM _ _ R.
      apply Forall2_app; [apply Vcs; auto | exact R].
    - inversion Hd as [| ? ? [Hko Hbo] Hd']; subst. inversion Hd' as [| ? ? [Hki Hbi] _]; subst.
      apply (orel_bind _ _ _ _ _ _ (K o Hko Hbo)). intros loF loM A B Ro.
      apply (orel_bind _ _ _ _ _ _ (K i Hki Hbi)). intros liF liM A2 B2 Ri.
      pose proof (copy_rel _ (sustain_view k) loF loM (objs F) (objs M) (next F) (next M) Ro (HeF _ _ A) (HeM _ _ B)) as R.
      rewrite <- !copy_sustain_gen in R.
      apply (orel_bind _ _ _ _ _ _ R). intros [[fF' nF'] cF] [[fM' nM'] cM] CF CM R'.
      destruct (copy_sustain_spec _ _ _ _ _ _ _ CF) as [_ [_ FF]].
      destruct (copy_sustain_spec _ _ _ _ _ _ _ CM) as [_ [_ FM]].
      apply Forall2_app; [exact R' | apply Forall2_app].
      + pose proof (HeF _ _ A2) as BiF. pose proof (HeM _ _ B2) as BiM. rewrite Forall_forall in BiF, BiM.
        eapply Forall2_impl_in; [| exact Ri]. intros a b Ha Hb Hv. cbn in Hv |- *.
        rewrite FF, FM by auto. exact Hv.
      + apply Vcs; auto.
  Qed.

  Lemma vrel_frame : forall F M F' M' lF lM,
    (forall a, In a lF -> objs F' a = objs F a) -> (forall b, In b lM -> objs M' b = objs M b) ->
    vrel F M lF lM -> vrel F' M' lF lM.
  Proof.
    intros F M F' M' lF lM HF HM H; induction H as [| a b ra rb Hab Hr IH]; [constructor |].
    constructor.
    - rewrite HF, HM by (left; reflexivity). exact Hab.
    - apply IH; intros; [apply HF | apply HM]; right; assumption.
  Qed.

  (** one more block on both sides, nothing that existed written: the simulation goes on when
      the new entries are related (if the block is kept) *)
  Lemma sim_frame : forall F M F' M' x y,
    sim F M -> good F' -> good M' ->
    env F' = env F ++ [x] -> env M' = env M ++ [y] ->
    (forall id, (id < next F)%nat -> objs F' id = objs F id) ->
    (forall id, (id < next M)%nat -> objs M' id = objs M id) ->
    (keep (List.length (env F)) = true -> orel (vrel F' M') x y) ->
    sim F' M'.
  Proof.
    intros F M F' M' x y [GF [GM [L K]]] GF' GM' EF EM FrF FrM New.
    split; [exact GF' |]. split; [exact GM' |]. split; [rewrite EF, EM, !app_length, L; reflexivity |].
    intros b Hk Hb.
    rewrite EF, EM. rewrite EF, app_length in Hb; cbn in Hb.
    destruct (lt_dec b (List.length (env F))) as [Hlt | Hge].
    - rewrite !orig_of_app_old by lia. pose proof (K b Hk Hlt) as R.
      destruct (orig_of (env F) b) as [lF |] eqn:A, (orig_of (env M) b) as [lM |] eqn:B; try contradiction; [| exact I].
      destruct GF as [_ [_ HeF]]. destruct GM as [_ [_ HeM]].
      pose proof (HeF _ _ A) as BF. pose proof (HeM _ _ B) as BM. rewrite Forall_forall in BF, BM.
      eapply vrel_frame; [| | exact R]; intros; [apply FrF | apply FrM]; auto.
    - assert (b = List.length (env F)) by lia. subst b.
      rewrite orig_of_app_new. rewrite L, orig_of_app_new. apply New, Hk.
  Qed.

  Lemma build_sim_keep : forall F M d, sim F M -> desc_ok d ->
    Forall (fun b => keep b = true /\ (b < List.length (env F))%nat) (deps d) ->
    sim (fst (build F d)) (fst (build M d)) /\ snd (build F d) = snd (build M d).
  Proof.
    intros F M d Sm D Hd.
    pose proof Sm as [GF [GM [L K]]].
    pose proof (build_good F d GF D) as GF'. pose proof (build_good M d GM D) as GM'.
    assert (FrF : forall id, (id < next F)%nat -> objs (fst (build F d)) id = objs F id)
      by (intros; apply build_never_writes; auto).
    assert (FrM : forall id, (id < next M)%nat -> objs (fst (build M d)) id = objs M id)
      by (intros; apply build_never_writes; auto).
    pose proof (gather_rel F M d Sm D Hd) as V.
    destruct (gather F d) as [[[fF nF] gF] |] eqn:A, (gather M d) as [[[fM nM] gM] |] eqn:B; try contradiction.
    - destruct (gather_spec _ _ _ _ _ GF D A) as [_ [_ HgF]].
      destruct (gather_spec _ _ _ _ _ GM D B) as [_ [_ HgM]].
      (* the copies are related before initialisation ... *)
      pose proof (copy_rel Some (fun a b H => H) gF gM fF fM nF nM V HgF HgM) as V0.
      rewrite !copy_all_gen in V0.
      destruct (copy_all fF nF gF) as [[f0F n0F] allF] eqn:CF.
      destruct (copy_all fM nM gM) as [[f0M n0M] allM] eqn:CM.
      rewrite (build_some _ _ _ _ _ _ _ _ A CF), (build_some _ _ _ _ _ _ _ _ B CM) in *.
      set (g := d_geom d) in *.
      set (f2F := init_all (write_mtr f0F allF (d_copied d) (g_trials g)) allF g) in *.
      set (f2M := init_all (write_mtr f0M allM (d_copied d) (g_trials g)) allM g) in *.
      cbn [fst snd] in *.
      (* ... and after it *)
      assert (Vall : Forall2 (fun a b => view (f2F a) = view (f2M b)) allF allM).
      { eapply Forall2_impl_in; [| exact V0]. intros a b Ha Hb Hv. cbn in Hv. unfold f2F, f2M.
        rewrite !init_all_in by assumption. apply init_within_view. rewrite !write_mtr_view. exact Hv. }
      split.
      + apply (sim_frame F M _ _ (Some allF) (Some allM) Sm GF' GM');
          [reflexivity | reflexivity | exact FrF | exact FrM | intros _; exact Vall].
      + f_equal. apply (Forall2_map_eq (fun i => view (f2F i)) (fun i => view (f2M i))). exact Vall.
    - rewrite (build_none _ _ A), (build_none _ _ B) in *. cbn [fst snd] in *. split; [| reflexivity].
      apply (sim_frame F M _ _ None None Sm GF' GM');
        [reflexivity | reflexivity | exact FrF | exact FrM | intros _; exact I].
  Qed.

  Lemma build_sim_skip : forall F M d, sim F M -> desc_ok d -> keep (List.length (env F)) = false ->
    sim (fst (build F d)) (fst (build M (skip_of d))).
  Proof.
    intros F M d Sm D Hk. pose proof Sm as [GF [GM [L K]]].
    assert (DM : desc_ok (skip_of d)) by exact (Forall_nil _).
    destruct (build_spec F d GF D) as [x [Ex [_ [FrF _]]]].
    destruct (build_spec M (skip_of d) GM DM) as [y [Ey [_ [FrM _]]]].
    apply (sim_frame F M _ _ x y Sm (build_good F d GF D) (build_good M _ GM DM) Ex Ey FrF FrM).
    intros Hk'. congruence.
  Qed.

  Lemma run_cons : forall s d r, run s (d :: r) =
    (fst (run (fst (build s d)) r), snd (build s d) :: snd (run (fst (build s d)) r)).
  Proof. intros s d r; cbn. destruct (build s d) as [s1 o]. cbn [fst snd]. destruct (run s1 r) as [s2 os]. reflexivity. Qed.

  (** from simulating states on, the run of [ds] and the run that skips the blocks outside [keep]
      give every kept block the same summary ([j] blocks have been built) *)
  Lemma run_sim : forall ds j F M, sim F M -> List.length (env F) = j ->
    wf_from n j ds = true -> closed_from keep j ds = true ->
    forall i, keep (j + i) = true ->
      nth_error (snd (run F ds)) i = nth_error (snd (run M (mask_from keep j ds))) i.
  Proof.
    induction ds as [| d r IH]; intros j F M Sm Hj Hwf Hcl i Hi; [destruct i; reflexivity |].
    assert (D : desc_ok d) by (apply (wf_from_cs n (d :: r) j d Hwf); left; reflexivity).
    cbn [mask_from]. cbn in Hwf, Hcl.
    apply andb_true_iff in Hwf; destruct Hwf as [Hwf1 Hwf]. apply andb_true_iff in Hwf1; destruct Hwf1 as [Hdeps _].
    apply andb_true_iff in Hcl; destruct Hcl as [Hcl1 Hcl].
    rewrite !run_cons. cbn [snd].
    (* one construction on both sides: the simulation goes on, with the same summary if the block is kept *)
    assert (Step : sim (fst (build F d)) (fst (build M (if keep j then d else skip_of d))) /\
                   (keep j = true -> snd (build F d) = snd (build M (if keep j then d else skip_of d)))).
    { destruct (keep j) eqn:Kj.
      - assert (Hd : Forall (fun b => keep b = true /\ (b < List.length (env F))%nat) (deps d)).
        { rewrite Forall_forall. intros b Hb. rewrite forallb_forall in Hcl1, Hdeps. split; [apply Hcl1; exact Hb |].
          specialize (Hdeps b Hb). apply Nat.ltb_lt in Hdeps. lia. }
        destruct (build_sim_keep F M d Sm D Hd) as [Sm' E]. split; [exact Sm' | intros _; exact E].
      - split; [apply build_sim_skip; auto; rewrite Hj; exact Kj | discriminate]. }
    destruct Step as [Sm' E]. destruct i as [| i].
    - cbn. rewrite E; [reflexivity |]. rewrite Nat.add_0_r in Hi. exact Hi.
    - cbn [nth_error]. apply IH with (j := S j); auto.
      + destruct (build_spec F d (proj1 Sm) D) as [y [Ey _]]. rewrite Ey, app_length; cbn; lia.
      + replace (S j + i)%nat with (j + S i)%nat by lia. exact Hi.
  Qed.

  Lemma sim_init : sim (init_state user) (init_state user).
  Proof.
    split; [apply good_init |]. split; [apply good_init |]. split; [reflexivity |].
    intros b _ Hb. cbn in Hb. lia.
  Qed.

  Lemma run_good : forall ds s, good s -> (forall d, In d ds -> desc_ok d) -> good (fst (run s ds)).
  Proof.
    induction ds as [| d r IH]; intros s G Hok; [exact G |].
    rewrite run_cons. cbn [fst]. apply IH.
    - apply build_good; auto. apply Hok; left; reflexivity.
    - intros; apply Hok; right; assumption.
  Qed.
End Independent.

Lemma closure_keeps : forall ds fuel set x, In x set -> In x (closure ds fuel set).
Proof.
  intros ds fuel; induction fuel as [| k IH]; intros set x H; cbn; [exact H |].
  apply IH. apply in_or_app; left; exact H.
Qed.

Lemma keep_of_self : forall ds i, keep_of ds i i = true.
Proof.
  intros ds i; unfold keep_of. apply existsb_exists. exists i. split; [| apply Nat.eqb_refl].
  apply closure_keeps. left; reflexivity.
Qed.

(** the geometry guard under which the statement holds of the code before /repo commit 88b3d0f as well *)
Definition consistent (user : list cobj) (gc : nat -> geom) (ds : list desc) : Prop :=
  forall d, In d ds -> forall c, In c (d_cs d) -> has_within (c_kind (nth c user default_obj)) = true -> d_geom d = gc c.

(** an example with heavy sharing: one AtMostKInARow object in a 2-trial block, in a 4-trial block, and in the
    Repeat of the first; an ExactlyK object on the outer block of a Nest (copied and sustained: geometry and [k]
    doubled) and directly in the 4-trial block; a MinimumTrials object *)
Definition ex_user : list cobj :=
  [ {| c_kind := KAtMost; c_within := None; c_k := 1; c_trials := 0; c_mtr := None |};
    {| c_kind := KExactlyK; c_within := None; c_k := 1; c_trials := 0; c_mtr := None |};
    {| c_kind := KMinTrials; c_within := None; c_k := 0; c_trials := 4; c_mtr := None |} ].
Definition ex_prog : list desc :=
  [ {| d_kind := DLeaf; d_geom := wit_g2; d_cs := [0%nat; 1%nat]; d_copied := [] |};
    {| d_kind := DLeaf; d_geom := wit_g4; d_cs := [0%nat; 1%nat]; d_copied := [] |};
    {| d_kind := DRepeat 0; d_geom := wit_g4; d_cs := [2%nat; 0%nat]; d_copied := [] |};
    {| d_kind := DNest 0 1 2; d_geom := wit_g4; d_cs := []; d_copied := [] |} ].

Lemma ex_shared :
  wf (List.length ex_user) ex_prog = true /\ closed (keep_of ex_prog 3) ex_prog = true /\
  closed (keep_of ex_prog 2) ex_prog = true /\
  shared_summary ex_user ex_prog 1 = Some [(KAtMost, Some wit_g4, 1, 0); (KExactlyK, Some wit_g4, 1, 0)] /\
  shared_summary ex_user ex_prog 2 =
    Some [(KAtMost, Some wit_g2, 1, 0); (KExactlyK, Some wit_g2, 1, 0); (KMinTrials, None, 0, 4); (KAtMost, Some wit_g4, 1, 0)] /\
  shared_summary ex_user ex_prog 3 =
    Some [(KAtMost, Some (gsustain wit_g2 2), 1, 0); (KExactlyK, Some (gsustain wit_g2 2), 2, 0);
          (KAtMost, Some wit_g4, 1, 0); (KExactlyK, Some wit_g4, 1, 0)] /\
  fresh_summary ex_user ex_prog 3 = shared_summary ex_user ex_prog 3.
Proof. vm_compute. repeat split; reflexivity. Qed.
