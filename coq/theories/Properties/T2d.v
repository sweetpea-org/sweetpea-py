(** T2(d): the tie between the documented semantics of a program and the code's reading, for
    programs with WITHIN-TRIAL DERIVED factors.  This is the Stroop shape: design
    [color, text, congruent = WithinTrial(color, text)], the derived factor in the crossing or
    not, constraints on derived levels.  Properties/T2c.v is the same tie for plain factors.

    [derived_input] (Front/DerivedInput.v) is the function "flatten" on the fragment.  It goes
    from the PROGRAM to the [create_input] the constructor hands to [_create].  It *includes*
    what the constructor computes from the block beforehand:
    - the exclusion count of the crossing ([__count_exclusions]: impossible combinations of
      crossed derived levels, Exclude of crossed levels, Exclude of an uncrossed derived level
      via [__excluded_derived]);
    - the generated Derivation constraints ([generate_derivations]);
    - [excluded_derived] ([Exclude.validate]);
    - whether [show_errors()] fails.
    harness/t2_corr.py compare_derived compares [create_flat (derived_input p)] with the flat
    record of the real block (and the ValueError / ZeroDivisionError of the real constructor) on
    every generated program of the fragment.

    PROVED HERE (closed under the global context)
    - [T2d_sem_eqv_t_valid]: the relation [sem_eqv_t] preserves [valid_b].  [sem_eqv_t]
      (Design/SemEqvT.v) is [sem_eqv] up to the order of the accepted tuples of a derived level and
      up to tuples with a "no value yet" cell, for windows of width 1 over non-derived factors.
    - [T2d_checker_sound]: the boolean checker [sem_eqv_tb] (Design/SemEqvTB.v) is sound for it.
    - [T2d_derived_sem_eqv_partial] / [T2d_derived_valid_partial]: whenever the checker accepts,
      the code's reading of the record created from the program has exactly the valid sequences
      of [doc_sem p].  "The checker accepts" is [t2d_check p = Some true]; the driver evaluates
      it on every generated program.
    - [T2d_derived_sem_eqv] / [T2d_derived_valid]: the same conclusion, UNCONDITIONAL under the
      boolean guard [t2d_guard2] (Front/DerivedGuard2.v).
      [t2d_guard2 p] is [t2d_guard p] (below) and three more conditions.
      Every factor of the crossing is a simple factor (the derived factors are outside the
      crossing: the uncrossed-congruency Stroop shape).
      No Exclude names a level of a derived factor.
      [wf_derived]: every tuple of an explicit level's table is the key of a combination of level
      names of the window factors, and every such combination matches exactly one level.
      Covered under this guard: constraints (row kinds on a level or a whole factor, Pin) that
      name derived levels; Exclude of simple levels (crossed or not); weights, else levels,
      MinimumTrials, require_complete_crossing.
      Per run, harness/t2_corr.py derived reports how many generated programs lie inside
      [t2d_guard2] and how many inside [t2d_guard]; the driver prints guard2=.. beside guard=..
      (extract/drv_t2.ml, command t2derived).
    - [T2d_guard_alone_refuted]: [t2d_guard] alone does NOT imply the tie.  The witness is
      [malformed] of Front/DerivedT2Examples.v.  It has a table tuple with three columns for two
      window factors.  Such a tuple never matches the predicate of harness/ir.py (and the code's
      table omits it).  But [enc_table] (zip with the window factors) truncates it to a
      well-shaped tuple that the documented level then accepts.  So [t2d_guard malformed = true]
      and [~ sem_eqv_t].  The generator never produces such a table; [wf_derived] excludes it.

    [t2d_guard] (Front/DerivedGuard.v, boolean) asks:
    - design and crossing list every factor once, and the crossing is not empty;
    - simple factors come before derived ones in the design;
    - every factor has a level and distinct level names;
    - derived factors are WithinTrial over distinct simple factors of the design;
    - no tuple matches two levels;
    - the constructor reports no error: every tuple matches a level, and not (complete crossing
      required and a combination impossible or excluded);
    - [joint_free]: at most one derived factor takes part in the crossing arithmetic;
    - [uncrossed_ok]: an excluded level of an uncrossed derived factor reads crossed factors
      only, or removes no combination.

    NOT PROVED: the part of [t2d_guard] outside [t2d_guard2].  On it the tie is the per-run
    verdict of the checker ([T2d_derived_sem_eqv_partial]), evaluated on every generated
    program with well-formed tables.  Two shapes are left:
    (R1) a derived factor INSIDE the crossing: [impossible] combinations, the multiplicities of
         combinations that contain a derived level ([feasible_combos]: the crossed derived value is the
         [within_value] of the assignment), [trials_required] of a WithinTrial factor (start 0, stride 1:
         = size), [joint_free];
    (R2) an Exclude of a level of an UNCROSSED derived factor: [exclude_hits] through
         [excluded_derived_pred], [fl_excluded_derived] ([derived_excluded_derived]) in
         [is_excluded_combination], the skipped assignments of [feasible_combos], [uncrossed_ok];
    both need, beyond the lemmas proved here, the link [accepts_idx fds f l args] =
    [dl_accepts levels lev (key_of dnames args)] (by [entry_matches] on [derived_levels]), after which
    [tab_mem] / [within_value_some] of Front/DerivedT2Tables.v identify the documented value of the
    derived factor with the level the flat table accepts.  The well-formedness of the tables
    ([wf_derived]) is needed in any case ([T2d_guard_alone_refuted]). *)
From Coq Require Import ZArith List Bool Arith String.
From SP Require Import Design.Sem Design.Flat Design.DocSem Design.SemEqv Design.SemEqvT Design.SemEqvTB Design.SemEqvTBProofs
     Front.CreateFlat Front.DerivedInput Front.DerivedGuard Front.DerivedCheck Front.DerivedT2 Encode.CodeSem
     Front.DerivedGuard2 Front.DerivedT2Final Front.DerivedT2Examples.
Import ListNotations.
Local Open Scope nat_scope.

Theorem T2d_sem_eqv_t_valid : forall S1 S2, sem_eqv_t S1 S2 -> forall s, valid_b S1 s = valid_b S2 s.
Proof. exact sem_eqv_t_valid. Qed.
Print Assumptions T2d_sem_eqv_t_valid.

Theorem T2d_sem_eqv_refines : forall S1 S2, sem_eqv S1 S2 -> sem_eqv_t S1 S2.
Proof. exact sem_eqv_sem_eqv_t. Qed.
Print Assumptions T2d_sem_eqv_refines.

Theorem T2d_checker_sound : forall S1 S2, sem_eqv_tb S1 S2 = true -> sem_eqv_t S1 S2.
Proof. exact sem_eqv_tb_sound. Qed.
Print Assumptions T2d_checker_sound.

Theorem T2d_derived_sem_eqv_partial : forall p ci fb ds,
  derived_input p = Some ci -> create_flat ci = FOk fb -> doc_sem p = Ok ds -> t2d_check p = Some true ->
  sem_eqv_t (code_sem fb) (ds_sem ds).
Proof. exact derived_checked_sem_eqv. Qed.
Print Assumptions T2d_derived_sem_eqv_partial.

Theorem T2d_derived_valid_partial : forall p ci fb ds,
  derived_input p = Some ci -> create_flat ci = FOk fb -> doc_sem p = Ok ds -> t2d_check p = Some true ->
  forall s, valid_b (code_sem fb) s = valid_b (ds_sem ds) s.
Proof. exact derived_checked_valid. Qed.
Print Assumptions T2d_derived_valid_partial.

(** the hypotheses are satisfiable by the Stroop shapes (Front/DerivedT2.v): the derived factor
    outside the crossing with its congruent level excluded and a run constraint on a derived level;
    the derived factor inside a crossing that must be complete *)
Example T2d_stroop_uncrossed : t2d_guard stroop_uncrossed = true /\ t2d_check stroop_uncrossed = Some true.
Proof. exact stroop_uncrossed_ok. Qed.

Example T2d_stroop_crossed : t2d_guard stroop_crossed = true /\ t2d_check stroop_crossed = Some true.
Proof. exact stroop_crossed_ok. Qed.

(** * the unconditional statement under the narrower guard [t2d_guard2] *)
Theorem T2d_derived_sem_eqv : forall p ci fb ds,
  derived_input p = Some ci -> t2d_guard2 p = true -> create_flat ci = FOk fb -> doc_sem p = Ok ds ->
  sem_eqv_t (code_sem fb) (ds_sem ds).
Proof. exact derived_t2. Qed.
Print Assumptions T2d_derived_sem_eqv.

Theorem T2d_derived_valid : forall p ci fb ds,
  derived_input p = Some ci -> t2d_guard2 p = true -> create_flat ci = FOk fb -> doc_sem p = Ok ds ->
  forall s, valid_b (code_sem fb) s = valid_b (ds_sem ds) s.
Proof. exact derived_t2_valid. Qed.
Print Assumptions T2d_derived_valid.

(** [t2d_guard] alone does not imply the tie (a table tuple with a column too many) *)
Theorem T2d_guard_alone_refuted : exists p ci fb ds,
  derived_input p = Some ci /\ t2d_guard p = true /\ create_flat ci = FOk fb /\ doc_sem p = Ok ds /\
  ~ sem_eqv_t (code_sem fb) (ds_sem ds).
Proof. exact guard_alone_refuted. Qed.
Print Assumptions T2d_guard_alone_refuted.

(** the uncrossed-congruency Stroop program (crossing [color, text], congruent outside the crossing,
    an Exclude of a colour, a run constraint on a derived level, MinimumTrials) is inside [t2d_guard2];
    an Exclude of a derived level and a crossed derived factor are outside it *)
Example T2d_stroop_uncrossed2 : t2d_guard2 stroop_uncrossed2 = true /\ t2d_check stroop_uncrossed2 = Some true.
Proof. exact stroop_uncrossed2_ok. Qed.

Example T2d_stroop_outside_guard2 : t2d_guard2 stroop_uncrossed = false /\ t2d_guard2 stroop_crossed = false.
Proof. exact stroop_outside_guard2. Qed.
