(** C04 - RandomGen returns only valid trial sequences.

    Model: Random/Enum.v, a literal model of sweetpea/_internal/sampling_strategy/random.py.  Every run compares it
    with the real [UCSolutionEnumerator] (layer L8: every candidate key of designs with at most 5000 keys).
    Reference semantics: Design/Sem.v through [FragSem.code_sem], which is the [code_sem] of Encode/CodeSem.v.

    Full statement (every design RandomGen accepts, acceptable error 0):

      forall fb k cand, In k (keys_of fb) -> decode_key fb k = Some cand ->
        accepts fb cand = true -> valid_b (code_sem fb) (tseq_of_run fb cand) = true

    What is proved.  The statement holds for the designs of [Frag.frag1] ([C04_accept_sound_partial]) and of
    [Frag.frag2] ([C04_accept_sound_frag2]).  Both are boolean predicates on the flat record.
    [Frag.frag0] lies inside [frag1] ([C04_frag0_in_frag1]) and [frag1] inside [frag2] ([C04_frag1_in_frag2]).

    [frag1] admits:
      - One crossing of non-derived factors with unit level weights and crossing weight 1, no preamble, sustain 1.
        Every other factor is a non-derived free factor.  Every factor is in [act_design].
      - [Exclude] of levels of these factors.  Excluded combinations are filtered out of the crossing
        ([fl_sizes] = number of remaining combinations > 0).  Excluded levels are filtered out of the free factors'
        level lists (one level at least remains).  [fl_exclude] lists exactly the [Exclude] constraints.
      - The user constraints RandomGen enforces by rejection: AtMostKInARow, AtLeastKInARow, ExactlyK,
        ExactlyKInARow, Pin (sustain 1), Sequential.  They are on levels of the design's factors, with a window
        geometry the layout model understands.  The proof goes: accepted => every [potential_sample_conforms]
        holds => the constraint clauses of the reference semantics hold (Random/Frag1Cons.v, with the C17 lemmas of
        Check/MismatchProofs.v).
      - Any number of trials >= 1 (full rounds plus a leftover round).

    [frag2] adds:
      - Weights: weighted levels of the crossed factors and a crossing weight > 0 ([fl_sizes] = sum of the
        combination weights).  A round is a permutation of the multiset of combinations.  It is unranked by the
        memoised [compute_jth_prefix_of_permutations_with_copies] (the C13 refinement theorems of
        Comb/TotalProofs.v).
      - Further crossings (MultiCrossBlock over plain factors, no preamble).  The first crossing with sustain
        count 1 is sampled, at any position ([Frag.main_idx]).  Every other one is enforced by the rejection step
        ([combinations_mismatched_weights] on each repetition), which decides [Sem.crossing_ok]
        (Random/CrossReject.v, Random/Frag2Cross.v).
      - Sustained crossings (Nest).  The other crossings may have a sustain count > 1 (size = sum of weights x
        sustain).  Their factors are free factors for the sampler.  That they keep their level for [sustain] trials
        is enforced by rejection: [Sustain.potential_sample_conforms], and [f1_sustain] of Random/Frag1Cons.v is
        the sustain clause of [Sem.factor_ok].  Guard: the trial count is a multiple of every sustain count
        (otherwise the check indexes past the end of a row), and a Sustain constraint is listed whenever a sustain
        count is not 1.
      - Implied factors: derived factors outside [act_design].  Nothing uses them and RandomGen does not sample
        them; [Block.add_implied_levels] adds their levels to every sample.  Admitted are within-trial factors
        reading factors of [act_design] through a table in which exactly one level accepts every argument tuple.
        The frag2 theorems speak about [FragSem.cand_seq]: the candidate's rows plus the implied rows computed by
        the reference semantics' own [Sem.derive_row].  Without implied factors [cand_seq] is [tseq_of_run]
        ([Frag1Thms.frag1_cand_seq]).
      - Derived factors in the sampled crossing (one crossing then): within-trial factors (width 1) that read plain
        factors of [act_design], crossed or not.  The crossing instances are the level combinations that survive
        [is_excluded_or_inconsistent_combination].  The uncrossed factors a derived factor reads are the source
        factors.  Their level combinations are filtered per instance by the derived predicates
        ([_valid_source_combinations_indices]).  A key carries, besides the permutation of the instances, one index
        into the admitted source combinations per trial.  Every instance must admit a source combination
        ([Frag.sources_ok], decided on the record).  An [Exclude] of a source level is not applied when the word is
        drawn: such candidates are rejected ([Frag0Example.ex7_flat]: 96 keys, 24 accepted).  The number of keys of
        a round has no closed form; it comes from the general counting theorem (Random/KeysCount.v).
      - Derived factors of [act_design] outside the sampled crossing (one crossing then): within-trial factors that
        read drawn factors (plain ones, or derived ones of the crossing) through a table in which exactly one level
        accepts every argument tuple.  RandomGen does not draw them.  After the rounds are combined,
        [fill_in_nonpreamble_uncrossed_derived] computes their rows ([select_level_for_sample]: the first accepting
        level); the model is Random/Frag0Fill.v.  The candidate of a key is [Frag0Decode.cand_row].  Constraints on
        them are enforced by rejection like all others.

    Not covered by [frag2]: derived factors with derived or complex sources; derived factors outside the crossing
    that read other such factors; Exclude on a derived level; transition / window factors; LatinSquare; preambles /
    complex windows (where the sampled crossing itself is checked by rejection); constraints with a sustained
    geometry.  Outside the fragment the property is decided per run by the search of harness/props/c05.py and the
    C04 harness (exhausted RandomGen vs. oracle). *)
From Coq Require Import ZArith List.
From SP Require Import Design.Flat Design.Sem Random.Enum Random.Frag Random.FragSem Random.Frag2Thms Random.Frag1Thms
  Random.Frag0Thms Random.Frag0Example.

Theorem C04_accept_sound_partial : forall (fb : flat), frag1 fb = true ->
  forall (k : key) (cand : candidate),
  In k (keys_of fb) -> decode_key fb k = Some cand -> accepts fb cand = true ->
  valid_b (code_sem fb) (tseq_of_run fb cand) = true.
Proof. exact f1_accept_sound. Qed.
Print Assumptions C04_accept_sound_partial.

Theorem C04_frag0_in_frag1 : forall (fb : flat), frag0 fb = true -> frag1 fb = true.
Proof. exact frag0_frag1. Qed.
Print Assumptions C04_frag0_in_frag1.

(** the hypotheses are satisfiable by non-trivial designs: 108 keys, two rounds;
    and, outside frag0, exclusions + AtMostKInARow + Pin: 32 keys of which 12 are accepted *)
Example C04_example : frag0 ex_flat = true /\ length (keys_of ex_flat) = 108 /\ check_sound ex_flat = true.
Proof. split; [exact ex_frag0 | split; [exact ex_keys | exact (proj1 ex_checks)]]. Qed.
Example C04_example_rejection :
  frag1 ex1_flat = true /\ frag0 ex1_flat = false /\ length (keys_of ex1_flat) = 32 /\
  length (accepted_keys ex1_flat) = 12 /\ check_sound ex1_flat = true.
Proof.
  destruct ex1_frag as (F1 & F0 & _). destruct ex1_keys as (K & A & _).
  split; [exact F1|]. split; [exact F0|]. split; [exact K|]. split; [exact A | exact (proj1 ex1_checks)].
Qed.

(** with weights (fragment [Frag.frag2], which contains [frag1]) *)
Theorem C04_accept_sound_frag2 : forall (fb : flat), frag2 fb = true ->
  forall (k : key) (cand : candidate),
  In k (keys_of fb) -> decode_key fb k = Some cand -> accepts fb cand = true ->
  valid_b (code_sem fb) (cand_seq fb cand) = true.
Proof. exact f2_accept_sound. Qed.
Print Assumptions C04_accept_sound_frag2.

Theorem C04_frag1_in_frag2 : forall (fb : flat), frag1 fb = true -> frag2 fb = true.
Proof. exact frag1_frag2. Qed.
Print Assumptions C04_frag1_in_frag2.

(** a weighted level (a: 2, b: 1), AtMostKInARow and a leftover trial: 96 keys, 32 accepted *)
Example C04_example_weighted :
  frag2 ex3_flat = true /\ frag1 ex3_flat = false /\ length (keys_of ex3_flat) = 96 /\
  length (accepted_keys ex3_flat) = 32 /\ check_sound ex3_flat = true.
Proof. split; [exact ex3_frag2|]. split; [exact ex3_frag1|]. split; [exact ex3_nkeys|]. split; [exact ex3_nacc | exact ex3_sound]. Qed.

(** a second crossing enforced by rejection: 162 keys, 36 accepted = 36 valid *)
Example C04_example_multicross :
  frag2 ex4_flat = true /\ frag1 ex4_flat = false /\ length (keys_of ex4_flat) = 162 /\
  length (accepted_keys ex4_flat) = 36 /\ check_sound ex4_flat = true.
Proof. split; [exact ex4_frag2|]. split; [exact ex4_frag1|]. split; [exact ex4_nkeys|]. split; [exact ex4_nacc | exact ex4_sound]. Qed.

(** an implied factor: the whole sequence of a candidate has its row *)
Example C04_example_implied :
  frag2 ex5_flat = true /\ frag1 ex5_flat = false /\ length (keys_of ex5_flat) = 6 /\ check_sound ex5_flat = true /\
  option_map (cand_seq ex5_flat)
    (decode_key ex5_flat {| k_pre := 0%Z; k_rounds := nil; k_left := Some (4%Z, cons 0%Z (cons 0%Z (cons 0%Z nil)), nil) |})
  = Some (cons (cons (Some 0) (cons (Some 1) (cons (Some 0) nil))) (cons (cons (Some 1) (cons (Some 0) (cons (Some 1) nil))) nil)).
Proof. split; [exact ex5_frag2|]. split; [exact ex5_frag1|]. split; [exact ex5_nkeys|]. split; [exact ex5_sound | exact ex5_decode]. Qed.

(** a derived factor in the sampled crossing (Stroop: color x congruent, the word is a source factor):
    96 keys, all accepted; with Exclude(word, green) 24 of the 96 are accepted *)
Example C04_example_derived :
  frag2 ex6_flat = true /\ has_derived ex6_flat = true /\ length (keys_of ex6_flat) = 96 /\
  length (accepted_keys ex6_flat) = 96 /\ check_sound ex6_flat = true /\
  frag2 ex7_flat = true /\ length (keys_of ex7_flat) = 96 /\ length (accepted_keys ex7_flat) = 24 /\ check_sound ex7_flat = true.
Proof.
  split; [exact ex6_frag2|]. split; [exact ex6_derived|]. split; [exact ex6_nkeys|]. split; [exact ex6_nacc|]. split; [exact ex6_sound|].
  split; [exact ex7_frag2|]. split; [exact ex7_nkeys|]. split; [exact ex7_nacc | exact ex7_sound].
Qed.

(** a nested design: crossings [[task]; [color]] with sustain counts [2; 1]; the second one is sampled, Sustain and the
    task crossing are enforced by rejection: 64 keys, 8 accepted = 8 valid *)
Example C04_example_nested :
  frag2 ex8_flat = true /\ main_idx ex8_flat = 1 /\ length (keys_of ex8_flat) = 64 /\
  length (accepted_keys ex8_flat) = 8 /\ check_sound ex8_flat = true.
Proof. split; [exact ex8_frag2|]. split; [exact ex8_main|]. split; [exact ex8_nkeys|]. split; [exact ex8_nacc | exact ex8_sound]. Qed.

(** a derived factor of [act_design] outside the sampled crossing, with a constraint on it: 24 keys, 12 accepted = 12 valid *)
Example C04_example_uncrossed_derived :
  frag2 ex9_flat = true /\ has_derived ex9_flat = true /\ length (keys_of ex9_flat) = 24 /\
  length (accepted_keys ex9_flat) = 12 /\ check_sound ex9_flat = true.
Proof. split; [exact ex9_frag2|]. split; [exact ex9_derived|]. split; [exact ex9_nkeys|]. split; [exact ex9_nacc | exact ex9_sound]. Qed.
