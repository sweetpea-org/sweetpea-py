(** C01 - Formula-based samplers return only valid trial sequences.

    [C01_sound].  For every flat record in the fragment F1 ([CodeSem.in_f1]),
    every model of the formula the samplers hand to the solver is, on the trial
    variables, the one-hot image of a sequence that is valid for the reference
    semantics [Sem.valid_b (code_sem fb)].  The formula is [full_cnf], that is
    [combine_cnf_with_requests] of the compiled request.

    [onehot fb t q] says two things.  The rows of the act_design factors are
    read off the trial variables of t (no level in the trials before a complex
    window is full).  The rows of the implied factors are the ones
    [SampleGen.decode] adds ([add_implied_levels]): the level whose table
    accepts the decoded levels in its window, and nothing in the trials where
    the factor does not apply.

    The fragment F1 admits the following.
    - act_design: any subset of the design, listed in design order.
    - Factors of act_design: simple, WithinTrial, or with a complex window.  A
      complex window is Transition or Window(width, stride, start) with
      start >= width - 1, over simple or WithinTrial factors of act_design.
      The variables of such a factor follow the grid, one block per trial in
      which it has a level; its Derivation is the complex variant.
    - Factors outside act_design (implied derived factors: no variables, no
      Derivation constraints): a derived factor of simple / WithinTrial
      act_design factors, or of implied factors listed before it that have a
      level in every trial.  Its window is arbitrary (also one that is not yet
      full in the first trials and then reads empty cells).  Exactly one of its
      levels accepts every argument tuple.
    - Sustain counts (Nest / Repeat, with the Sustain constraint): any positive
      count on the simple / WithinTrial factors of act_design.  A WithinTrial
      factor is sustained at most as long as the factors it reads.  Complex
      windows and implied factors have sustain 1.
    - Crossings: any number of crossings and chunks (partial last chunk,
      crossing weights, weighted levels), each starting after its preamble.  A
      crossed factor with a complex window has stride 1 and its first level no
      later than the first crossing trial.
    - Constraint kinds: Consistency, Cross, Derivation, AtMostKInARow,
      AtLeastKInARow, ExactlyKInARow, ExactlyK, Exclude, Pin, Sequential,
      LatinSquare.
      Exclude on a factor with a complex window needs stride 1.
      Pin may name any factor of act_design under any sustain of the geometry;
      its trials lie inside the block.
      Sequential needs a factor without a complex window whose preamble is a
      whole number of its sustain groups.
      LatinSquare needs unsustained factors without a complex window; the
      rotation counter of the code is the digit vector of the segment number.
    - Combinations left out of a crossing: by Exclude constraints on a basic
      level, or on a level of a WithinTrial factor of act_design (expanded into
      the combinations of basic levels that make it true), or by a crossed
      derived level no compatible arguments satisfy.

    [C01_request_exact].  For EVERY backend request (no fragment), the final
    formula has a model extending an assignment of the variables below
    [b_fresh] iff that assignment satisfies the clauses and every cardinality
    request.

    [C01_compile_denotes].  The request itself, read semantically.

    [C01_atleast_window] / [C01_exactly_in_a_row_window].  For every k >= 1 and
    every window length (used inside F1 and valid outside it): the implications
    that AtLeastKInARow / ExactlyKInARow hand to the Tseitin conversion for one
    window hold iff every maximal run of the level in the window has length at
    least k / exactly k. *)
From Coq Require Import ZArith List Bool.
From SP Require Import Base.Sat Design.Flat Design.Sem.
From SP Require Import Logic.Formula.
From SP Require Import Encode.Compile Encode.CodeSem Encode.Generic Encode.F1Kinds Encode.F1Sem
     Encode.CompileProofs Encode.CompileCorollaries Encode.Runs Encode.InARow.

Theorem C01_sound :
  forall (fb : flat) (b : backend) (ok : bool) (n' : Z) (final : cnf) (t : asg),
    in_f1 fb = true -> (0 < T fb)%nat ->
    compile fb = COk b -> full_cnf b = (ok, n', final) ->
    sat t final = true ->
    exists q, onehot fb t q /\ valid_b (code_sem fb) q = true.
Proof. intros fb b ok n' final t HF1 HT Hc. exact (models_are_valid fb HF1 HT b Hc ok n' final t). Qed.
Print Assumptions C01_sound.

Theorem C01_request_exact :
  forall b : backend,
    (1 <= b_fresh b)%Z ->
    Forall (req_ok (b_fresh b - 1)) (b_requests b) ->
    vars_upto (b_fresh b - 1) (b_clauses b) ->
    exists n' final,
      full_cnf b = (true, n', final) /\ (b_fresh b - 1 <= n')%Z /\ vars_upto n' final /\
      (forall s, (exists t, agree_upto (b_fresh b - 1) s t /\ sat t final = true) <-> br_sem s b) /\
      (forall t1 t2, agree_upto (b_fresh b - 1) t1 t2 ->
         sat t1 final = true -> sat t2 final = true -> agree_upto n' t1 t2).
Proof. exact full_cnf_denotes. Qed.
Print Assumptions C01_request_exact.

Theorem C01_compile_denotes :
  forall fb : flat, in_f1 fb = true -> (0 < T fb)%nat ->
  forall b : backend, compile fb = COk b ->
  exists ext,
    (forall s v, ~ (GZ fb < v <= b_fresh b - 1)%Z -> ext s v = s v) /\
    (forall s t, agree_upto (GZ fb) s t -> forall v, (GZ fb < v <= b_fresh b - 1)%Z -> ext s v = ext t v) /\
    forall s, br_sem s b <->
      (forall v, (GZ fb < v <= b_fresh b - 1)%Z -> s v = ext s v) /\
      exists q, onehot fb s q /\ valid_b (code_sem fb) q = true.
Proof. exact compile_denotes. Qed.
Print Assumptions C01_compile_denotes.

Theorem C01_atleast_window :
  forall (k : nat) (vl : list nat) (s : asg),
    (0 < k)%nat -> Forall (fun v => (0 < v)%nat) vl ->
    (eval s (FAnd (atleast_impls k vl (windows (S k) vl))) = true <->
     Forall (fun n => (k <= n)%nat) (bruns (map (fun v => s (zn v)) vl))).
Proof. exact atleast_impls_spec. Qed.
Print Assumptions C01_atleast_window.

Theorem C01_exactly_in_a_row_window :
  forall (k : nat) (vl : list nat) (s : asg),
    (0 < k)%nat -> Forall (fun v => (0 < v)%nat) vl ->
    (eval s (FAnd (match windows k vl with
                   | nil => map (fun v => FNot (fv v)) vl
                   | sub => ekr_impls k sub
                   end)) = true <->
     Forall (fun n => n = k) (bruns (map (fun v => s (zn v)) vl))).
Proof. exact ekr_impls_spec. Qed.
Print Assumptions C01_exactly_in_a_row_window.

(** the hypotheses are satisfiable: a colour x text crossing with a derived
    congruency factor, AtMostKInARow on the derived level and a Pin *)
Example C01_example :
  in_f1 ex_stroop = true /\ (0 < T ex_stroop)%nat /\
  (exists b, compile ex_stroop = COk b) /\ length (all_valid (code_sem ex_stroop)) = 6%nat.
Proof. exact ex_stroop_facts. Qed.

(** ... and by a design with a crossed derived factor (four inconsistent
    combinations left out), Sequential, AtLeastKInARow, ExactlyKInARow *)
Example C01_example_wide :
  in_f1 ex_wide = true /\ (0 < T ex_wide)%nat /\
  length (trial_combinations_of ex_wide (0 :: 1 :: 2 :: nil)%nat) = 4%nat /\
  length (crossing_combos ex_wide (0 :: 1 :: 2 :: nil)%nat) = 8%nat /\
  (exists b, compile ex_wide = COk b /\ b_fresh b = 139%Z) /\
  length (all_valid (code_sem ex_wide)) = 1%nat.
Proof. exact ex_wide_facts. Qed.

(** ... and by a design with an implied derived factor (not in act_design) *)
Example C01_example_implied :
  in_f1 ex_implied = true /\ (0 < T ex_implied)%nat /\ isact ex_implied 2 = false /\
  (exists b, compile ex_implied = COk b /\ b_fresh b = 66%Z) /\
  length (all_valid (code_sem ex_implied)) = 12%nat /\
  hd nil (all_valid (code_sem ex_implied)) =
    ((Some 1 :: Some 1 :: Some 0 :: Some 0 :: nil) :: (Some 1 :: Some 0 :: Some 1 :: Some 0 :: nil) ::
     (Some 0 :: Some 1 :: Some 1 :: Some 0 :: nil) :: nil)%nat.
Proof. exact ex_implied_facts. Qed.

(** ... and by a design with an implied Transition factor (no level in the first trial) *)
Example C01_example_implied_transition :
  in_f1 ex_implied_transition = true /\ (0 < T ex_implied_transition)%nat /\ isact ex_implied_transition 2 = false /\
  (exists b, compile ex_implied_transition = COk b /\ b_fresh b = 66%Z) /\
  length (all_valid (code_sem ex_implied_transition)) = 12%nat /\
  hd nil (all_valid (code_sem ex_implied_transition)) =
    ((Some 1 :: Some 1 :: Some 0 :: Some 0 :: nil) :: (Some 1 :: Some 0 :: Some 1 :: Some 0 :: nil) ::
     (None :: Some 1 :: Some 1 :: Some 1 :: nil) :: nil)%nat.
Proof. exact ex_implied_transition_facts. Qed.

(** ... and by a design whose crossing contains a Transition (complex window in
    act_design, preamble of one trial, complex Derivation) *)
Example C01_example_transition :
  in_f1 ex_transition = true /\ (0 < T ex_transition)%nat /\
  isact ex_transition 1 = true /\ Design.Layout.is_complex ex_transition 1 = true /\
  Encode.LayoutF1.VN ex_transition = 18%nat /\ Encode.LayoutF1.gvar ex_transition 1 1 0 = 11%nat /\
  Encode.LayoutF1.gvar ex_transition 4 1 1 = 18%nat /\
  (exists b, compile ex_transition = COk b /\ b_fresh b = 102%Z) /\
  length (all_valid (code_sem ex_transition)) = 4%nat /\
  hd nil (all_valid (code_sem ex_transition)) =
    ((Some 0 :: Some 1 :: Some 1 :: Some 0 :: Some 0 :: nil) :: (None :: Some 1 :: Some 0 :: Some 1 :: Some 0 :: nil) :: nil)%nat.
Proof. exact ex_transition_facts. Qed.

(** ... and by a Nest: sustained outer factor, the Sustain constraint *)
Example C01_example_nest :
  in_f1 ex_nest = true /\ (0 < T ex_nest)%nat /\ sustain_of ex_nest 0 = 2%nat /\
  (exists b, compile ex_nest = COk b /\ b_fresh b = 84%Z) /\
  length (all_valid (code_sem ex_nest)) = 8%nat /\
  hd nil (all_valid (code_sem ex_nest)) =
    ((Some 1 :: Some 1 :: Some 0 :: Some 0 :: nil) :: (Some 1 :: Some 0 :: Some 1 :: Some 0 :: nil) :: nil)%nat.
Proof. exact ex_nest_facts. Qed.

Example C01_example_latin :
  in_f1 ex_latin = true /\ (0 < T ex_latin)%nat /\
  (exists b, compile ex_latin = COk b /\ b_fresh b = 159%Z) /\
  length (all_valid (code_sem ex_latin)) = 36%nat /\
  hd nil (all_valid (code_sem ex_latin)) =
    ((Some 2 :: Some 1 :: Some 0 :: Some 2 :: Some 1 :: Some 0 :: nil) ::
     (Some 0 :: Some 1 :: Some 0 :: Some 1 :: Some 0 :: Some 1 :: nil) :: nil)%nat.
Proof. exact ex_latin_facts. Qed.
