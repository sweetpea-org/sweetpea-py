(** C17 - The mismatch checker accepts exactly the valid sequences.

    Model: Check/Mismatch.v ([mismatch fb s], the model of
    [sample_mismatch_experiment] on the flat record of a block).  Reference:
    Design/Sem.v.  Each [potential_sample_conforms] of the model is shown to
    compute the corresponding clause of [Sem.constraint_ok] / [Sem.crossing_ok]
    on the same row and the same windows, for rows, windows, k, level numbers
    and trial counts of any size; [Factor.test_trial] / [_trial_arguments] are
    shown to compute the factor-correctness clause of [Sem.factor_ok] (each
    derived cell is a level whose table accepts the window cells, for windows
    of any width, stride and start).  [C17_mismatch_iff_valid_excluded] assembles
    them for the fragment [efrag] of flat records (boolean predicate; designs
    WITH WithinTrial / Transition / Window factors and Exclude constraints on
    crossed levels).  It is the only assembly: [frag] < [nfrag] < [dfrag] <
    [efrag], each fragment lying in the next with the same reference design and
    candidates, so that [C17_mismatch_iff_valid_derived] ([dfrag]: no
    exclusions of crossed levels), [C17_mismatch_iff_valid] ([nfrag]: no
    derived factors) and [C17_mismatch_iff_valid_plain] ([frag]: no sustain)
    are corollaries.  [C17_mismatch_iff_valid_partial]: any design, given the
    correspondence of each component.

    Full statement (not proved in general; kept for reference):
      forall fb s, accepted fb -> in_domain fb s ->
        (no_mismatch fb s = true <-> Sem.valid_b (code_sem fb) (tseq_of s) = true)
    Missing outside [efrag]: derived factors that read a factor absent in some
    trial (a Transition of a Transition: the real predicate is then called on
    [''], outside the flat tables), LatinSquare, ExactlyKMultipleInARow (no
    documented meaning), and crossings whose size is not the total weight of
    the combinations free of excluded levels - combinations made impossible by
    a derivation, or excluded through a derived level that is not itself
    crossed (there the crossing clause alone is refuted,
    [C17_crossing_clause_refuted], and the equivalence would go through the
    derived-factor checks; for Exclude of crossed levels it goes through the
    Exclude check and is proved, [C17_crossing_excluded]).  On the current /repo the
    full statement is moreover false for designs with a weight-desugared hidden
    factor (KeyError: the user-visible sample has no key for the hidden factor)
    - see the search of harness/props/c17.py. *)
From Coq Require Import List Arith Lia.
From SP Require Import Design.Flat Design.Layout Check.Mismatch Check.MismatchProofs Check.CrossingProofs Check.FragmentProofs Check.NestProofs Check.DerivedFrag Check.DerivedProofs Check.ExcludedProofs.
From SP Require Design.Sem.
Import ListNotations.

(** [check_sequence]'s run counting is the reference [runs], for every list and level. *)
Theorem C17_counts_runs : forall l cells, counts l cells = Sem.runs l cells.
Proof. exact counts_runs. Qed.
Print Assumptions C17_counts_runs.

(** AtMostKInARow / AtLeastKInARow / ExactlyK / ExactlyKInARow over the windows of
    [map_block_trial_ranges]: the model returns the value of the reference clause
    (no error: every window ends within the trials since /repo 2f184ec). *)
Theorem C17_kinarow : forall fb s kind k f l wb row ranges ck S (s' : Sem.tseq) f',
  row_of s f = Ok row ->
  length row = fl_trials fb ->
  map_block_trial_ranges fb wb = Some ranges ->
  sem_kind kind k = Some ck ->
  nth f' s' ([] : list Sem.cell) = row ->
  kinarow_conforms fb s kind k f l wb
  = Ok (Sem.constraint_ok S s' {| Sem.k_kind := ck; Sem.k_factor := f'; Sem.k_level := l; Sem.k_windows := ranges |}).
Proof. exact kinarow_conforms_sem. Qed.
Print Assumptions C17_kinarow.

Theorem C17_exclude : forall s f l row S (s' : Sem.tseq) f' ws,
  row_of s f = Ok row -> nth f' s' ([] : list Sem.cell) = row ->
  exclude_conforms s f l
  = Ok (Sem.constraint_ok S s' {| Sem.k_kind := Sem.KExclude; Sem.k_factor := f'; Sem.k_level := l; Sem.k_windows := ws |}).
Proof. exact exclude_conforms_sem. Qed.
Print Assumptions C17_exclude.

(** Pin through [get_trial_numbers]: at least one window has the index in range and
    every pinned trial holds the level. *)
Theorem C17_pin : forall fb s i f l wb row ranges su tn S (s' : Sem.tseq) f',
  row_of s f = Ok row ->
  map_block_trial_ranges fb wb = Some ranges ->
  geometry_sustain fb wb f = su -> 1 <= su ->
  get_trial_numbers fb f i wb = Some tn ->
  (forall t, In t tn -> t < length row) ->
  nth f' s' ([] : list Sem.cell) = row ->
  pin_conforms fb s i f l wb
  = Ok (Sem.constraint_ok S s' {| Sem.k_kind := Sem.KPin i su; Sem.k_factor := f'; Sem.k_level := l; Sem.k_windows := ranges |}).
Proof. exact pin_conforms_sem. Qed.
Print Assumptions C17_pin.

(** Sequential (as of /repo 6ff33e3, level index [((i - preamble) // sustain) % n]):
    the check of the group starts is the reference clause on rows that are
    constant on sustain groups (clause V4, checked by Sustain). *)
Theorem C17_sequential : forall fb s f row first su n S (s' : Sem.tseq) f' fd l0 ws,
  row_of s f = Ok row ->
  length row = fl_trials fb ->
  factor_preamble fb f = Ok first ->
  su_of fb f = su -> 1 <= su ->
  nlev fb f = n -> 1 <= n ->
  (forall t, first <= t < fl_trials fb -> nth t row None = nth (first + ((t - first) / su) * su) row None) ->
  nth f' s' ([] : list Sem.cell) = row ->
  Sem.s_trials S = fl_trials fb ->
  nth_error (Sem.s_factors S) f' = Some fd -> Sem.f_nlevels fd = n ->
  sequential_conforms fb s f
  = Ok (Sem.constraint_ok S s' {| Sem.k_kind := Sem.KSequential first su; Sem.k_factor := f'; Sem.k_level := l0; Sem.k_windows := ws |}).
Proof.
  intros fb s f row first su n S s' f' fd l0 ws Hrow Hlen Hpre <- Hsu1 <- Hn1 Hconst <- HT Hfd Hnl.
  rewrite (sequential_conforms_val fb s f _ first Hrow Hlen Hpre Hsu1 Hn1). f_equal.
  apply (seq_check_sem _ first _ _ S s' f' fd l0 ws Hsu1 Hconst HT Hfd Hnl).
Qed.
Print Assumptions C17_sequential.

(** [combinations_mismatched_weights] = 0 on one chunk iff every allowed combination
    occurs exactly (full chunk) / at most (trailing partial chunk) its multiplicity -
    UNDER the hypothesis that every combination occurring in the chunk is an
    allowed one: the real function only iterates over occurring combinations. *)
Theorem C17_chunk : forall fb s fs (s' : Sem.tseq) fs' a b weight or_less mult,
  rows_agree s s' fs fs' ->
  (forall f', In f' fs' -> b <= length (nth f' s' ([] : list Sem.cell))) ->
  NoDup (map fst mult) ->
  (forall cm, In cm mult -> snd cm = combo_weight fb fs (map Some (fst cm)) * weight) ->
  forallb (fun t => existsb (fun cm => Sem.combo_eqb (fst cm) (Sem.combo_at s' fs' t)) mult) (seq a (b - a)) = true ->
  (or_less = false -> list_sum (map snd mult) = b - a) ->
  exists n, mismatched_weights fb s fs a b weight or_less = Ok n /\
            (n = 0 <-> forallb (fun cm => let c := Sem.count_combo s' fs' (fst cm) a b in
                                          if or_less then c <=? snd cm else c =? snd cm) mult = true).
Proof.
  intros fb s fs s' fs' a b weight or_less mult Hrows Hlen Hnd Hw H1 H4.
  destruct (mismatched_weights_sem fb s fs s' fs' a b weight or_less mult Hrows Hlen Hnd Hw) as [n [E H]].
  exists n. split; [exact E | exact (H H1 H4)].
Qed.
Print Assumptions C17_chunk.

(** The chunk loop of [sample_mismatch_crossing] against [Sem.chunks_ok] (clause V5). *)
Theorem C17_crossing : forall fb s fs (s' : Sem.tseq) fs' size weight mult S first,
  rows_agree s s' fs fs' ->
  (forall f', In f' fs' -> fl_trials fb <= length (nth f' s' ([] : list Sem.cell))) ->
  NoDup (map fst mult) ->
  (forall cm, In cm mult -> snd cm = combo_weight fb fs (map Some (fst cm)) * weight) ->
  (forall t, first <= t < fl_trials fb ->
             existsb (fun cm => Sem.combo_eqb (fst cm) (Sem.combo_at s' fs' t)) mult = true) ->
  list_sum (map snd mult) = size -> 1 <= size ->
  Sem.s_trials S = fl_trials fb ->
  forall fuel start, first <= start -> fl_trials fb - start < fuel ->
  exists n, chunk_loop fb fuel s fs size weight start = Ok n /\
            (n = 0 <-> Sem.chunks_ok fuel S s'
                         {| Sem.c_factors := fs'; Sem.c_first := first; Sem.c_chunk := size; Sem.c_mult := mult |}
                         start = true).
Proof.
  intros fb s fs s' fs' size weight mult S first Hrows Hlen Hnd Hw H1 Hsum Hsize HT fuel start Hs Hf.
  destruct (chunk_loop_sem fb s fs s' fs' size weight mult S first Hrows Hlen Hnd Hw Hsum Hsize HT fuel start Hs Hf)
    as [n [E H]].
  exists n. split; [exact E | exact (H H1)].
Qed.
Print Assumptions C17_crossing.

(** Without that hypothesis the crossing clause alone is false of the model (and of
    the code: CrossBlock([f(a,b,c), g], [f], [Exclude(f,c)], False), f = [a, c] gives
    sample_mismatch_crossing = []): a required combination occurring zero times in
    a full chunk is not counted when an excluded one takes its place.  The whole
    checker still flags the witness, through Exclude. *)
Theorem C17_crossing_clause_refuted :
  exists fb s (s' : Sem.tseq) S c,
    mismatch_crossings fb s = Ok [] /\ Sem.crossing_ok S s' c = false /\
    mismatch fb s = VLists [] [2] [].
Proof.
  exists refute_fb, refute_s, [[Some 0; Some 2]], refute_sem,
         {| Sem.c_factors := [0]; Sem.c_first := 0; Sem.c_chunk := 2; Sem.c_mult := [([0], 1); ([1], 1)] |}.
  vm_compute. auto.
Qed.
Print Assumptions C17_crossing_clause_refuted.

(** The whole checker on the fragment [nfrag] (boolean predicate on the flat
    record): no hidden / derived factors; any sustain counts dividing the trial
    count (Nest), with the Sustain constraint present; constraints among
    AtMost/AtLeast/ExactlyKInARow, ExactlyK, Pin, Sequential, Exclude (on
    uncrossed factors), MinimumTrials; any number of weighted crossings whose
    chunk geometry is consistent.  Candidates: one level per trial for every
    factor ([wf_rowsb]).  [code_sem_n fb] reads the flat record the way the
    checker consumes it.  Unbounded numbers of factors, levels, trials, windows. *)
Theorem C17_mismatch_iff_valid : forall fb rows,
  nfrag fb = true -> wf_rowsb fb rows = true ->
  (no_mismatch fb (cand_of_rows rows) = true <-> Sem.valid_b (code_sem_n fb) rows = true).
Proof.
  intros fb rows H W. rewrite <- (nfrag_code_sem_d fb H).
  apply dfrag_mismatch_iff_valid_b; [apply nfrag_dfrag, H | rewrite nfrag_wf_rowsb_d; assumption].
Qed.
Print Assumptions C17_mismatch_iff_valid.

(** The same for the sustain-free fragment [frag] against [code_sem]: [frag] lies in
    [nfrag], where [code_sem_n] is [code_sem]. *)
Theorem C17_mismatch_iff_valid_plain : forall fb rows,
  frag fb = true -> wf_rowsb fb rows = true ->
  (no_mismatch fb (cand_of_rows rows) = true <-> Sem.valid_b (code_sem fb) rows = true).
Proof.
  intros fb rows H W. rewrite <- (frag_code_sem_n fb H).
  apply C17_mismatch_iff_valid; [apply frag_nfrag, H | exact W].
Qed.
Print Assumptions C17_mismatch_iff_valid_plain.

(** [Sustain.potential_sample_conforms] is clause V4 (cells equal within a sustain
    group) on well-formed rows. *)
Theorem C17_sustain : forall fb rows, nfrag fb = true -> wf_rows fb rows ->
  exists b, sustain_conforms fb (cand_of_rows rows) = Ok b /\ (b = true <-> V4 fb rows).
Proof.
  intros fb rows H W.
  apply sustain_conforms_V4_d; [apply dfrag_dbase, nfrag_dfrag, H | apply nfrag_wf_rows_d; assumption].
Qed.
Print Assumptions C17_sustain.

(** Any design and candidate: if each of the three phases of the model computes
    the corresponding part of [Sem.valid_b], so does the verdict. *)
Theorem C17_mismatch_iff_valid_partial : forall fb s S (s' : Sem.tseq) fsl bs xs,
  (forall p, In p s -> length (snd p) = fl_trials fb) ->
  conversion_ok fb s = true ->
  length s' = length (Sem.s_factors S) ->
  mismatch_factors fb s = Ok fsl ->
  (fsl = [] <-> forallb (fun p => Sem.factor_ok S s' (fst p) (snd p)) (Sem.index_list (Sem.s_factors S)) = true) ->
  map_res (constraint_conforms fb s) (fl_constraints fb) = Ok bs ->
  (forallb (fun b => b) bs = true <-> forallb (Sem.constraint_ok S s') (Sem.s_constraints S) = true) ->
  mismatch_crossings fb s = Ok xs ->
  (xs = [] <-> forallb (Sem.crossing_ok S s') (Sem.s_crossings S) = true) ->
  (no_mismatch fb s = true <-> Sem.valid_b S s' = true).
Proof.
  intros fb s S s' fsl bs xs Hlen Hconv Hls HF HFi HC HCi HX HXi.
  rewrite (no_mismatch_parts fb s fsl bs xs Hlen Hconv HF HC HX), (valid_b_parts S s' Hls). tauto.
Qed.
Print Assumptions C17_mismatch_iff_valid_partial.

(** The hypotheses are satisfiable by a non-trivial object: a weighted 2 x 2
    crossing over 6 trials (multiplicities 2,1,2,1) with an uncrossed 3-level
    factor and AtMostKInARow over two 3-trial windows, ExactlyK, Pin(-1), Exclude,
    AtLeastKInARow, ExactlyKInARow and Sequential. *)
Example C17_example_fragment : frag ex_fb = true /\ nfrag ex_fb = true.
Proof. vm_compute. auto. Qed.
Example C17_example_valid :
  wf_rowsb ex_fb ex_rows_valid = true /\ mismatch ex_fb (cand_of_rows ex_rows_valid) = VLists [] [] [] /\ Sem.valid_b (code_sem ex_fb) ex_rows_valid = true.
Proof. vm_compute. auto. Qed.
Example C17_example_invalid :
  wf_rowsb ex_fb ex_rows_invalid = true /\ mismatch ex_fb (cand_of_rows ex_rows_invalid) = VLists [] [2] [] /\ Sem.valid_b (code_sem ex_fb) ex_rows_invalid = false.
Proof. vm_compute. auto. Qed.

(** The design of the known finding, Nest(CrossBlock([s],[s],[Sequential(s)]),
    CrossBlock([A],[A],[])) as the constructors flatten it (|s| = 3 sustained over
    2 trials, 6 trials), is in the fragment: its valid output s = 0 0 1 1 2 2 is
    accepted (it was flagged before /repo 6ff33e3), the by-trial order 0 0 2 2 1 1
    and an unsustained row are flagged. *)
Example C17_example_nest :
  nfrag nest_fb = true /\
  wf_rowsb nest_fb nest_rows_valid = true /\
  mismatch nest_fb (cand_of_rows nest_rows_valid) = VLists [] [] [] /\
  Sem.valid_b (code_sem_n nest_fb) nest_rows_valid = true /\
  mismatch nest_fb (cand_of_rows nest_rows_by_trial) = VLists [] [2] [] /\
  Sem.valid_b (code_sem_n nest_fb) nest_rows_by_trial = false /\
  mismatch nest_fb (cand_of_rows nest_rows_unsustained) = VLists [] [3] [0] /\
  Sem.valid_b (code_sem_n nest_fb) nest_rows_unsustained = false.
Proof. vm_compute. repeat split. Qed.

(** * Designs with derived factors (fragment [dfrag], Check/DerivedFrag.v)

    [Factor.test_trial] at the first trial of a trial group: the model returns the
    value of the reference clause "the cell is a level whose table accepts the
    window cells" ([gs_cell]: [Sem.accepts] on [Sem.window_args]; no error: the
    predicate is only called on argument tuples of [get_dependent_cross_product]).
    Any window width / stride / start, any sustain count; arguments before the
    first trial are [BeforeStart] on both sides.  [dbase] is the part of [dfrag]
    (and of [efrag]) about factors and sustain counts. *)
Theorem C17_derived_cell : forall fb rows f fd q,
  dbase fb = true -> wf_rows_d fb rows -> nth_error (fl_design fb) f = Some fd ->
  q * su_of fb f < fl_trials fb ->
  test_trial fb (cand_of_rows rows) f fd (q * su_of fb f) (su_of fb f)
  = Ok (gs_cell fb rows f fd (q * su_of fb f)).
Proof. exact test_trial_d. Qed.
Print Assumptions C17_derived_cell.

(** [sample_mismatch_factors] flags exactly the factors with a group start whose cell its table rejects. *)
Theorem C17_factors_derived : forall fb rows, dbase fb = true -> wf_rows_d fb rows ->
  mismatch_factors fb (cand_of_rows rows)
  = Ok (flagged (map (fun p => gs_ok fb rows (fst p) (snd p)) (combine (seq 0 (length (fl_design fb))) (fl_design fb)))).
Proof. exact mismatch_factors_d. Qed.
Print Assumptions C17_factors_derived.

(** The factor clause of the reference semantics (applicability V2, derived levels V3, sustain V4) on a
    candidate of the domain is: cells constant on trial groups, and every group start accepted. *)
Theorem C17_factor_clause : forall fb rows f fd,
  dbase fb = true -> wf_rows_d fb rows -> nth_error (fl_design fb) f = Some fd ->
  (Sem.factor_ok (code_sem_d fb) rows f (dfactor_of fb (f, fd)) = true
   <-> V4f fb rows f /\ gs_ok fb rows f fd = true).
Proof. intros fb rows f fd Hb Hwf. exact (factor_ok_d fb rows (code_sem_d fb) f fd Hb Hwf eq_refl). Qed.
Print Assumptions C17_factor_clause.

(** [Sustain.potential_sample_conforms] with factors that do not apply in every trial. *)
Theorem C17_sustain_derived : forall fb rows, dbase fb = true -> wf_rows_d fb rows ->
  exists b, sustain_conforms fb (cand_of_rows rows) = Ok b /\ (b = true <-> V4 fb rows).
Proof. exact sustain_conforms_V4_d. Qed.
Print Assumptions C17_sustain_derived.

(** The whole checker on the fragment [dfrag]: [nfrag] plus derived factors of any
    window shape (WithinTrial, Transition, Window(width, stride, start)) over factors
    that have a level in every trial, crossed or not (a crossing starts at its
    preamble; every crossed factor has a level from there on), with the generated
    Derivation constraints.  Candidates ([wf_rowsb_d]): one level per trial where the
    factor applies, '' (None) exactly where it does not.  [code_sem_d fb] carries the
    windows and acceptance tables of the flat record. *)
Theorem C17_mismatch_iff_valid_derived : forall fb rows,
  dfrag fb = true -> wf_rowsb_d fb rows = true ->
  (no_mismatch fb (cand_of_rows rows) = true <-> Sem.valid_b (code_sem_d fb) rows = true).
Proof. exact dfrag_mismatch_iff_valid_b. Qed.
Print Assumptions C17_mismatch_iff_valid_derived.

(** ... in particular with within-trial derived factors only (width 1, stride 1, start 0). *)
Theorem C17_mismatch_iff_valid_within : forall fb rows,
  dfrag_w fb = true -> wf_rowsb_d fb rows = true ->
  (no_mismatch fb (cand_of_rows rows) = true <-> Sem.valid_b (code_sem_d fb) rows = true).
Proof.
  intros fb rows H. unfold dfrag_w in H. apply andb_prop in H. apply dfrag_mismatch_iff_valid_b, H.
Qed.
Print Assumptions C17_mismatch_iff_valid_within.

(** [dfrag] contains [nfrag], where the reference design and the candidate domain are those of [nfrag]. *)
Theorem C17_nfrag_dfrag : forall fb, nfrag fb = true -> dfrag fb = true.
Proof. exact nfrag_dfrag. Qed.
Print Assumptions C17_nfrag_dfrag.
Theorem C17_nfrag_code_sem_d : forall fb, nfrag fb = true -> code_sem_d fb = code_sem_n fb.
Proof. exact nfrag_code_sem_d. Qed.
Print Assumptions C17_nfrag_code_sem_d.
Theorem C17_nfrag_wf_rowsb_d : forall fb rows, nfrag fb = true -> wf_rowsb_d fb rows = wf_rowsb fb rows.
Proof. exact nfrag_wf_rowsb_d. Qed.
Print Assumptions C17_nfrag_wf_rowsb_d.

(** The hypotheses are satisfiable beyond [nfrag]: the flat record of the real block
    CrossBlock([color, word, cong, tr], [color, tr], [AtMostKInARow(2, (cong, con))]) with
    cong = WithinTrial(color = word) and tr = Transition(color[-1] = color[0]) (5 trials, tr is ''
    in trial 0, the crossing starts at trial 1): a valid sequence is accepted; a within-trial cell
    and a transition cell their tables reject are flagged as factors; an unbalanced crossing with
    every derived cell right is flagged as crossing. *)
Example C17_example_derived_fragment : nfrag exd_fb = false /\ dfrag exd_fb = true /\ dfrag_w exd_fb = false.
Proof. vm_compute. auto. Qed.
Example C17_example_derived :
  wf_rowsb_d exd_fb exd_rows_valid = true /\
  mismatch exd_fb (cand_of_rows exd_rows_valid) = VLists [] [] [] /\
  Sem.valid_b (code_sem_d exd_fb) exd_rows_valid = true /\
  wf_rowsb_d exd_fb exd_rows_bad_within = true /\
  mismatch exd_fb (cand_of_rows exd_rows_bad_within) = VLists [2] [] [] /\
  Sem.valid_b (code_sem_d exd_fb) exd_rows_bad_within = false /\
  wf_rowsb_d exd_fb exd_rows_bad_transition = true /\
  mismatch exd_fb (cand_of_rows exd_rows_bad_transition) = VLists [3] [] [] /\
  Sem.valid_b (code_sem_d exd_fb) exd_rows_bad_transition = false /\
  wf_rowsb_d exd_fb exd_rows_bad_crossing = true /\
  mismatch exd_fb (cand_of_rows exd_rows_bad_crossing) = VLists [] [] [0] /\
  Sem.valid_b (code_sem_d exd_fb) exd_rows_bad_crossing = false.
Proof. vm_compute. repeat split. Qed.

(** * Exclusions of crossed levels (fragment [efrag], Check/DerivedFrag.v)

    One crossing whose admitted combinations are those free of excluded levels: the
    chunk loop never raises, and ONCE NO EXCLUDED LEVEL OCCURS IN A ROW (what the
    Exclude checks decide on both sides) it flags the crossing iff the reference
    clause fails (every admitted combination with its multiplicity per full chunk, at
    most that in the trailing partial chunk, no other combination). *)
Theorem C17_crossing_excluded : forall fb rows p S, no_hidden fb -> xfrag_x fb p = true -> wf_rows_d fb rows ->
  Sem.s_trials S = fl_trials fb ->
  exists xs, crossing_mismatch fb (cand_of_rows rows) (fst p) (snd p) = Ok xs /\
             (NoExcl fb rows -> (xs = [] <-> Sem.crossing_ok S rows (crossing_sem_x fb p) = true)).
Proof. exact frag_crossing_x. Qed.
Print Assumptions C17_crossing_excluded.

(** The whole checker on the fragment [efrag]: [dfrag] plus Exclude constraints on levels
    of crossed factors (basic or derived), the crossing size of the record being the total
    weight of the remaining combinations.  [code_sem_x fb] lists exactly these as the
    admitted combinations of each crossing. *)
Theorem C17_mismatch_iff_valid_excluded : forall fb rows,
  efrag fb = true -> wf_rowsb_d fb rows = true ->
  (no_mismatch fb (cand_of_rows rows) = true <-> Sem.valid_b (code_sem_x fb) rows = true).
Proof. exact efrag_mismatch_iff_valid_b. Qed.
Print Assumptions C17_mismatch_iff_valid_excluded.

(** [efrag] contains [dfrag], where the reference design is that of [dfrag]. *)
Theorem C17_dfrag_efrag : forall fb, dfrag fb = true -> efrag fb = true.
Proof. exact dfrag_efrag. Qed.
Print Assumptions C17_dfrag_efrag.
Theorem C17_dfrag_code_sem_x : forall fb, dfrag fb = true -> code_sem_x fb = code_sem_d fb.
Proof. exact dfrag_code_sem_x. Qed.
Print Assumptions C17_dfrag_code_sem_x.

(** The hypotheses are satisfiable beyond [dfrag]: the flat record of the real block
    CrossBlock([f(a, b:2, c), g(x, y)], [f, g], [Exclude(f, c)], require_complete_crossing=False)
    (6 trials): a valid sequence is accepted; with the excluded (c, y) in the place of (a, y) the
    crossing check is silent and the Exclude check flags; an unbalanced crossing is flagged. *)
Example C17_example_excluded_fragment : dfrag exx_fb = false /\ efrag exx_fb = true.
Proof. vm_compute. auto. Qed.
Example C17_example_excluded :
  wf_rowsb_d exx_fb exx_rows_valid = true /\
  mismatch exx_fb (cand_of_rows exx_rows_valid) = VLists [] [] [] /\
  Sem.valid_b (code_sem_x exx_fb) exx_rows_valid = true /\
  wf_rowsb_d exx_fb exx_rows_excluded = true /\
  mismatch exx_fb (cand_of_rows exx_rows_excluded) = VLists [] [2] [] /\
  Sem.valid_b (code_sem_x exx_fb) exx_rows_excluded = false /\
  wf_rowsb_d exx_fb exx_rows_unbalanced = true /\
  mismatch exx_fb (cand_of_rows exx_rows_unbalanced) = VLists [] [] [0] /\
  Sem.valid_b (code_sem_x exx_fb) exx_rows_unbalanced = false.
Proof. vm_compute. repeat split. Qed.
