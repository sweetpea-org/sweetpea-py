(** C06 - Exhausting RandomGen yields exactly the valid set; reported count is exact.

    [C06_accepted_exact_partial] / [C06_accepted_exact_frag2]: the valid sequences are exactly the candidates of the
    ACCEPTED keys, one key each (with rejection: constraints by
    [__are_constraints_violated]).
    [C06_count_exact_partial] / [C06_count_exact_frag2]: for designs that need no rejection step ([Frag.rejection_free]:
    only Cross / Consistency / MinimumTrials / Exclude, and one crossing) every key is
    accepted and the number of valid sequences is [possible_keys] = preamble_solution_count *
    solution_count ^ rounds_per_run * leftover_solution_count.  NOTE: the
    property text asks that [metrics['solution_count']] equal the number of
    valid sequences; the code reports [solution_count] (the PER-ROUND count),
    which equals the number of valid sequences only when the sequence is one
    full round with no leftover and no preamble (finding
    `random:solution-count:per-round`, reproduced by the C06 harness).  The
    theorem is about the product the sampler itself uses as [possible_keys].
    [C06_keys_count_partial] / [C06_keys_count_frag2]: the keys RandomGen can draw ([all_keys] of the model) are
    pairwise distinct and there are exactly [possible_keys] of them - the
    condition under which the sampling loop stops ([len(used_keys) ==
    possible_keys]), which c06.py decides at run time on the real enumerator.

    [C06_loop_exhausts]: the [used_keys] / [possible_keys] loop of
    [RandomGen.__sample] over an ARBITRARY finite list of draws (Random/Loop.v):
    if it stops it returned pairwise distinct accepted keys, exactly
    min(requested, number of accepted keys) of them, and all of them when at
    least that many were requested.  Termination holds with probability 1 only
    (every unused key keeps a positive chance of being drawn) and is out of
    scope: the theorem is about every finite run that stops.

    [C06_exhaust_partial] / [C06_exhaust_frag2]: both together on the fragment: asking for at least as many
    sequences as there are keys returns every valid sequence exactly once.

    [Frag0Enum.f0_enum_plain fb] is the enumerator of a design of [frag1] in
    closed form (per-round count = q!/(q-n)! * prod |levels|^n, empty memo
    tables).
    Full statements: every design RandomGen accepts.  The theorems whose name
    ends in _partial are proved for [Frag.frag1] (see Properties/C04.v; it
    contains [Frag.frag0]).  The theorems whose name ends in _frag2 are the same
    with weights ([Frag.frag2], see Properties/C04.v): stated for the enumerator
    [en] the model builds (it always builds one, [C05_enumerates]).
    [C06_keys_count] is the key-count statement for EVERY design: whatever enumerator the
    model builds (derived factors, weights, several crossings, preambles, complex
    windows) and whatever key list it lists for it, the keys are pairwise
    distinct and there are [possible_keys] of them, provided the sequence is at
    least as long as the preamble ([rounds_per_run >= 0]; otherwise Python's
    [solution_count ** rounds_per_run] is not an integer).  The counting code
    ([__count_solutions]: closed forms or [sum_combination_products]) and the
    listing code ([generate_random_samples] draws, modelled by [all_keys]) take
    different paths - without weights even different unrankers; they agree by the
    C13 bijections (Random/KeysCount.v).  [C06_loop_exhausts] is unconditional
    (any key type, any acceptance test). *)
From Coq Require Import ZArith List Bool.
From SP Require Import Design.Flat Design.Sem Random.Enum Random.Frag Random.FragSem Random.Loop
  Random.Frag0Enum Random.Frag2Thms Random.Frag1Thms Random.Frag0Thms Random.Frag0Loop Random.Frag0Example Random.KeysCount.

Theorem C06_accepted_exact_partial : forall (fb : flat), frag1 fb = true -> fl_errors_fail fb = false ->
  NoDup (map (cand_tseq fb) (accepted_keys fb)) /\
  (forall s, In s (map (cand_tseq fb) (accepted_keys fb)) <-> valid_b (code_sem fb) s = true).
Proof. exact f1_accepted_exact. Qed.
Print Assumptions C06_accepted_exact_partial.

Theorem C06_count_exact_partial : forall (fb : flat), frag1 fb = true ->
  fl_errors_fail fb = false -> rejection_free fb = true ->
  make_enumerator fb = ROk (f0_enum_plain fb) /\
  NoDup (map (cand_tseq fb) (keys_of fb)) /\
  (forall s, In s (map (cand_tseq fb) (keys_of fb)) <-> valid_b (code_sem fb) s = true) /\
  Z.of_nat (length (map (cand_tseq fb) (keys_of fb))) = possible_keys fb (f0_enum_plain fb).
Proof. exact f1_count_exact. Qed.
Print Assumptions C06_count_exact_partial.

(** in fragment frag0 nothing is ever rejected *)
Theorem C06_count_exact_frag0 : forall (fb : flat), frag0 fb = true -> fl_errors_fail fb = false ->
  make_enumerator fb = ROk (f0_enum_plain fb) /\
  NoDup (map (cand_tseq fb) (keys_of fb)) /\
  (forall s, In s (map (cand_tseq fb) (keys_of fb)) <-> valid_b (code_sem fb) s = true) /\
  Z.of_nat (length (map (cand_tseq fb) (keys_of fb))) = possible_keys fb (f0_enum_plain fb).
Proof. exact f0_count_exact. Qed.
Print Assumptions C06_count_exact_frag0.

Theorem C06_keys_count_partial : forall (fb : flat), frag1 fb = true -> fl_errors_fail fb = false ->
  make_enumerator fb = ROk (f0_enum_plain fb) /\ Z.of_nat (length (keys_of fb)) = possible_keys fb (f0_enum_plain fb).
Proof. exact f1_keys_count. Qed.
Print Assumptions C06_keys_count_partial.

Theorem C06_keys_distinct_partial : forall (fb : flat), frag1 fb = true -> NoDup (keys_of fb).
Proof. exact f1_keys_nodup. Qed.
Print Assumptions C06_keys_distinct_partial.

Theorem C06_loop_exhausts : forall (K : Type) (eqb : K -> K -> bool),
  (forall a b, eqb a b = true <-> a = b) ->
  forall (accepted : K -> bool) (possible requested : nat) (keys : list K),
  NoDup keys -> length keys = possible ->
  forall (draws res : list K),
  (forall k, In k draws -> In k keys) ->
  sample_loop K eqb accepted possible requested draws nil nil = Some res ->
  NoDup res /\
  (forall k, In k res -> In k keys /\ accepted k = true) /\
  length res = Nat.min requested (accepted_count K accepted keys) /\
  (accepted_count K accepted keys <= requested -> forall k, In k keys -> accepted k = true -> In k res).
Proof. exact loop_exhausts. Qed.
Print Assumptions C06_loop_exhausts.

Theorem C06_exhaust_partial : forall (fb : flat), frag1 fb = true -> fl_errors_fail fb = false ->
  forall (requested : nat) (draws res : list key),
  (forall k, In k draws -> In k (keys_of fb)) ->
  sample_loop key key_eqb (key_accepted fb) (length (keys_of fb)) requested draws nil nil = Some res ->
  length (keys_of fb) <= requested ->
  NoDup (map (cand_tseq fb) res) /\
  (forall s, In s (map (cand_tseq fb) res) <-> valid_b (code_sem fb) s = true).
Proof. exact f1_loop_exhausts. Qed.
Print Assumptions C06_exhaust_partial.

(** non-trivial instances: the example design has 18 per round x 6 leftover = 108
    keys = 108 valid sequences; a run of the loop that redraws a used key *)
Example C06_example :
  frag0 ex_flat = true /\ check_count ex_flat = true /\
  solution_count ex_flat = ROk 18%Z /\ leftover_solution_count ex_flat = ROk 6%Z /\
  length (all_valid (code_sem ex_flat)) = 108.
Proof.
  destruct ex_checks as (_ & _ & _ & N). destruct ex_counts as (S & L & _).
  split; [exact ex_frag0|]. split; [exact N|]. split; [exact S|]. split; [exact L | exact ex_valid_count].
Qed.
Example C06_loop_example :
  sample_loop nat Nat.eqb (fun k => negb (Nat.eqb k 2)) 3 5 (cons 1 (cons 1 (cons 2 (cons 0 nil)))) nil nil
  = Some (cons 1 (cons 0 nil)).
Proof. reflexivity. Qed.
Example C06_example_rejection :
  frag1 ex1_flat = true /\ rejection_free ex1_flat = false /\ length (keys_of ex1_flat) = 32 /\
  length (accepted_keys ex1_flat) = 12 /\ length (all_valid (code_sem ex1_flat)) = 12 /\
  check_accepted_count ex1_flat = true.
Proof.
  destruct ex1_frag as (F1 & _ & R). destruct ex1_keys as (K & A & V). destruct ex1_checks as (_ & _ & _ & N).
  split; [exact F1|]. split; [exact R|]. split; [exact K|]. split; [exact A|]. split; [exact V | exact N].
Qed.

(** with weights (fragment [Frag.frag2]) *)
Theorem C06_accepted_exact_frag2 : forall (fb : flat), frag2 fb = true -> fl_errors_fail fb = false ->
  NoDup (map (cand_fseq fb) (accepted_keys fb)) /\
  (forall s, In s (map (cand_fseq fb) (accepted_keys fb)) <-> valid_b (code_sem fb) s = true).
Proof. exact f2_accepted_exact. Qed.
Print Assumptions C06_accepted_exact_frag2.

Theorem C06_keys_count_frag2 : forall (fb : flat), frag2 fb = true -> forall (en : enumerator),
  make_enumerator fb = ROk en -> fl_errors_fail fb = false ->
  NoDup (keys_of fb) /\ Z.of_nat (length (keys_of fb)) = possible_keys fb en.
Proof. exact f2_keys_count. Qed.
Print Assumptions C06_keys_count_frag2.

Theorem C06_count_exact_frag2 : forall (fb : flat), frag2 fb = true -> forall (en : enumerator),
  make_enumerator fb = ROk en ->
  fl_errors_fail fb = false -> rejection_free fb = true ->
  NoDup (map (cand_fseq fb) (keys_of fb)) /\
  (forall s, In s (map (cand_fseq fb) (keys_of fb)) <-> valid_b (code_sem fb) s = true) /\
  Z.of_nat (length (map (cand_fseq fb) (keys_of fb))) = possible_keys fb en.
Proof. exact f2_count_exact. Qed.
Print Assumptions C06_count_exact_frag2.

Theorem C06_exhaust_frag2 : forall (fb : flat), frag2 fb = true -> fl_errors_fail fb = false ->
  forall (requested : nat) (draws res : list key),
  (forall k, In k draws -> In k (keys_of fb)) ->
  sample_loop key key_eqb (key_accepted fb) (length (keys_of fb)) requested draws nil nil = Some res ->
  length (keys_of fb) <= requested ->
  NoDup (map (cand_fseq fb) res) /\
  (forall s, In s (map (cand_fseq fb) res) <-> valid_b (code_sem fb) s = true).
Proof. exact f2_loop_exhausts. Qed.
Print Assumptions C06_exhaust_frag2.

Example C06_example_weighted :
  frag2 ex3_flat = true /\ frag1 ex3_flat = false /\ enumerates_b ex3_flat = true /\ length (keys_of ex3_flat) = 96 /\
  length (accepted_keys ex3_flat) = 32 /\ length (all_valid (code_sem ex3_flat)) = 32 /\
  check_accepted_count ex3_flat = true.
Proof.
  split; [exact ex3_frag2|]. split; [exact ex3_frag1|]. split; [exact ex3_enum|]. split; [exact ex3_nkeys|]. split; [exact ex3_nacc|].
  split; [exact ex3_nvalid | exact ex3_acount].
Qed.

(** the termination condition of the sampling loop, for every design the model accepts *)
Theorem C06_keys_count : forall (fb : flat) (en : enumerator) (ks : list key),
  make_enumerator fb = ROk en -> all_keys fb en = ROk ks -> (0 <= rounds_per_run fb en)%Z ->
  NoDup ks /\ Z.of_nat (length ks) = possible_keys fb en.
Proof. exact keys_count_general. Qed.
Print Assumptions C06_keys_count.

Example C06_example_multicross :
  frag2 ex4_flat = true /\ rejection_free ex4_flat = false /\ length (keys_of ex4_flat) = 162 /\
  length (accepted_keys ex4_flat) = 36 /\ length (all_valid (code_sem ex4_flat)) = 36 /\
  check_accepted_count ex4_flat = true.
Proof.
  split; [exact ex4_frag2|]. split; [reflexivity|]. split; [exact ex4_nkeys|]. split; [exact ex4_nacc|].
  split; [exact ex4_nvalid | exact ex4_acount].
Qed.

(** a derived factor in the sampled crossing: nothing is rejected, 96 keys = [possible_keys] = 96 valid sequences;
    with an excluded level of the source factor 24 of the 96 keys are accepted *)
Example C06_example_derived :
  frag2 ex6_flat = true /\ has_derived ex6_flat = true /\ rejection_free ex6_flat = true /\
  length (keys_of ex6_flat) = 96 /\ length (all_valid (code_sem ex6_flat)) = 96 /\ check_count ex6_flat = true /\
  frag2 ex7_flat = true /\ rejection_free ex7_flat = false /\ length (accepted_keys ex7_flat) = 24 /\
  length (all_valid (code_sem ex7_flat)) = 24 /\ check_accepted_count ex7_flat = true.
Proof.
  split; [exact ex6_frag2|]. split; [exact ex6_derived|]. split; [exact ex6_rejection_free|]. split; [exact ex6_nkeys|].
  split; [exact ex6_nvalid|]. split; [exact ex6_count|]. split; [exact ex7_frag2|]. split; [exact ex7_rejection_free|].
  split; [exact ex7_nacc|]. split; [exact ex7_nvalid | exact ex7_acount].
Qed.

(** a nested design: 64 keys, 8 accepted = 8 valid sequences *)
Example C06_example_nested :
  frag2 ex8_flat = true /\ rejection_free ex8_flat = false /\ length (keys_of ex8_flat) = 64 /\
  length (accepted_keys ex8_flat) = 8 /\ length (all_valid (code_sem ex8_flat)) = 8 /\ check_accepted_count ex8_flat = true.
Proof.
  split; [exact ex8_frag2|]. split; [reflexivity|]. split; [exact ex8_nkeys|]. split; [exact ex8_nacc|].
  split; [exact ex8_nvalid | exact ex8_acount].
Qed.

(** a derived factor of [act_design] outside the sampled crossing: 24 keys, 12 accepted = 12 valid sequences *)
Example C06_example_uncrossed_derived :
  frag2 ex9_flat = true /\ length (keys_of ex9_flat) = 24 /\ length (accepted_keys ex9_flat) = 12 /\
  length (all_valid (code_sem ex9_flat)) = 12 /\ check_accepted_count ex9_flat = true.
Proof.
  split; [exact ex9_frag2|]. split; [exact ex9_nkeys|]. split; [exact ex9_nacc|]. split; [exact ex9_nvalid | exact ex9_acount].
Qed.
