(** C29 - SMGen either refuses a design or returns valid sequences.

    Model: SM/SMGate.v - the decision logic of sampling_strategy/smgen.py and of the
    structural checks of scattered_map_core.py that precede the search: refusal with
    the unsupported-feature error, crash, or [Accept p] with the parameters of the run
    (level duplication for weights / MinimumTrials, [M], the preamble row,
    [maximum_trials], the resulting column length [p_length], the constraints handed
    to the search core [p_handed] - always none - and the user constraints that are
    neither refused nor handed over [p_ignored]).  Compared with the real SMGen on
    every run by harness/props/c29.py.

    PARTIAL: the randomised backtracker and its [threading.Timer] are not modelled; the
    validity of the sequences it returns is decided per run by the reference oracle,
    and the quantifier over timer interleavings is outside any executable model.

    Totality of the gate.  No constraint object is ever handed to the core, so a design
    may pass only if each of its constraints is realised by the core's own machinery
    ([realised_kind]: Cross = the crossing, Consistency = the shape of the columns,
    Derivation = the derived levels, Reify restricts nothing, MinimumTrials = the weight
    trick, ContinuousConstraint = enforced by the caller on the continuous samples).
    This is FALSE of /repo before commit cac238c: the isinstance chain refused
    AtMostKInARow / AtLeastKInARow / ExactlyK / Exclude / Pin only, and ExactlyKInARow,
    ExactlyKMultipleInARow, Sequential, LatinSquare passed and were ignored.  The programs
    [witness_with k] were replayed on that code, which returned sequences violating the
    constraint (findings smgen:ignored:<Kind>).  Commit cac238c adds the four classes to
    the chain.  The model follows /repo after that commit ([refused_kind]): the programs
    [witness_with k] are refused ([C29_former_witnesses_refused]) and the statement is a
    theorem: [C29_gate_total].  Its
    only exceptions are not user constraints: the internal Sustain (written by Nest; a Nest
    of a crossed outer and an uncrossed inner block has one crossing and passes:
    [C29_gate_sustain_refuted], replayed on the real code) and classes unknown to
    constraint.py.
    Length: [C29_sm_length] holds for plain CrossBlocks whose first non-derived design
    factor is crossed; [C29_sm_length_repeat_refuted], [C29_sm_length_uncrossed_refuted]
    are the failing cases (open findings smgen:length:Repeat, smgen:length:CrossBlock).
    Proofs: SM/SMGateProofs.v. *)
From Coq Require Import List Bool Arith.
From SP Require Import SM.SMGate SM.SMGateProofs.
Import ListNotations.

(** a design with an AtMostKInARow, AtLeastKInARow, ExactlyK, ExactlyKInARow, ExactlyKMultipleInARow,
    LatinSquare, Sequential, Exclude or Pin constraint is refused, with the first such entry *)
Theorem C29_gate_refuses_unsupported : forall s k,
  sm_is_block s = true -> sm_ncrossings s = 1 ->
  In k (sm_constraints s) -> refused_kind k = true ->
  exists k', gate s = Refuse (RConstraint k') /\ refused_kind k' = true /\ In k' (sm_constraints s).
Proof. exact SMGateProofs.gate_refuses_unsupported. Qed.
Print Assumptions C29_gate_refuses_unsupported.

Theorem C29_gate_refuses_multicross : forall s,
  sm_is_block s = true -> sm_ncrossings s <> 1 -> gate s = Refuse RMultiCross.
Proof. exact SMGateProofs.gate_refuses_multicross. Qed.
Print Assumptions C29_gate_refuses_multicross.

(** a derived factor whose first level is neither a Transition nor a WithinTrial window *)
Theorem C29_gate_refuses_window : forall s f,
  sm_is_block s = true -> sm_ncrossings s = 1 ->
  (forall k, In k (sm_constraints s) -> refused_kind k = false) ->
  unsupported_level s = Some f -> gate s = Refuse (RLevel f).
Proof. exact SMGateProofs.gate_refuses_window. Qed.
Print Assumptions C29_gate_refuses_window.

Theorem C29_refused_never_ignored : forall s k, refused_kind k = true -> ignored_by_gate s k = false.
Proof. exact SMGateProofs.refused_never_ignored. Qed.
Print Assumptions C29_refused_never_ignored.

Example C29_refuse_example :
  gate {| sm_is_block := true; sm_ncrossings := 1; sm_constraints := [KCross; KConsistency; KSequential; KPin; KAtMost];
          sm_crossing_weight := 1; sm_trials := 4; sm_design := [plain_factor 2; plain_factor 2]; sm_crossing := [0; 1] |}
  = Refuse (RConstraint KSequential).   (* the first refused entry; KPin before cac238c *)
Proof. reflexivity. Qed.

(** an accepted design: no refused kind, nothing is handed to the core; [p_ignored] = the entries the
    core's machinery does not realise either *)
Theorem C29_gate_hands_nothing : forall s p, gate s = Accept p ->
  sm_ncrossings s = 1 /\ (forall k, In k (sm_constraints s) -> refused_kind k = false) /\
  p_handed p = [] /\ p_ignored p = filter (fun k => negb (realised_kind k)) (sm_constraints s).
Proof. exact SMGateProofs.gate_accept_facts. Qed.
Print Assumptions C29_gate_hands_nothing.

(** the support test lists exactly the user constraint classes *)
Theorem C29_user_kinds_refused : forall k, user_kind k = refused_kind k.
Proof. exact SMGateProofs.user_kind_refused. Qed.
Print Assumptions C29_user_kinds_refused.

(** TOTAL (since cac238c): an accepted design has no user constraint; each of its constraints is
    realised by the core's machinery, or is the internal Sustain, or of an unknown class; what is
    ignored is Sustain / unknown only; without those nothing is ignored *)
Theorem C29_gate_total : forall s p, gate s = Accept p ->
  (forall k, In k (sm_constraints s) -> user_kind k = false /\ (realised_kind k = true \/ k = KSustain \/ k = KOther)) /\
  (forall k, In k (p_ignored p) -> k = KSustain \/ k = KOther) /\
  (~ In KSustain (sm_constraints s) -> ~ In KOther (sm_constraints s) ->
   p_ignored p = [] /\ forall k, ignored_by_gate s k = false).
Proof. exact SMGateProofs.gate_total. Qed.
Print Assumptions C29_gate_total.

Theorem C29_ignored_only_sustain_other : forall s k, ignored_by_gate s k = true -> k = KSustain \/ k = KOther.
Proof. exact SMGateProofs.ignored_only_sustain_other. Qed.
Print Assumptions C29_ignored_only_sustain_other.

(** the programs on which /repo before commit cac238c failed (CrossBlock([f,g],[f,g],[c]), c of kind k)
    are refused, for every user kind; with a realised kind in its place the design is accepted, nothing ignored *)
Theorem C29_former_witnesses_refused : forall k, user_kind k = true -> gate (witness_with k) = Refuse (RConstraint k).
Proof. exact SMGateProofs.witness_with_user_refused. Qed.
Print Assumptions C29_former_witnesses_refused.

Theorem C29_witness_realised_accepted : forall k, realised_kind k = true ->
  exists p, gate (witness_with k) = Accept p /\ p_ignored p = [] /\ p_length p = 4.
Proof. exact SMGateProofs.witness_with_realised_accepted. Qed.
Print Assumptions C29_witness_realised_accepted.

Example C29_gate_total_example :
  exists p, gate (witness_with KMinimumTrials) = Accept p /\ p_handed p = [] /\ p_ignored p = [] /\
            ignored_by_gate (witness_with KMinimumTrials) KMinimumTrials = false.
Proof. eexists. split; [vm_compute; reflexivity|]. repeat split. Qed.

Example C29_former_witness_example : gate (witness_with KExactlyKInARow) = Refuse (RConstraint KExactlyKInARow) /\
  gate (witness_with KSequential) = Refuse (RConstraint KSequential) /\ gate (witness_with KLatin) = Refuse (RConstraint KLatin).
Proof. repeat split. Qed.

(** REFUTED without the Sustain exception: Nest(CrossBlock([f],[f],[]), CrossBlock([g],[],[MinimumTrials(3)]))
    has one crossing and passes the gate; Sustain is not handed to the core and the columns have 2 of
    the 6 documented entries *)
Theorem C29_gate_sustain_refuted : exists s p,
  gate s = Accept p /\ In KSustain (sm_constraints s) /\ ~ In KSustain (p_handed p) /\ In KSustain (p_ignored p) /\
  ignored_by_gate s KSustain = true /\ p_length p = 2 /\ sm_trials s = 6.
Proof. exact SMGateProofs.gate_sustain_refuted. Qed.
Print Assumptions C29_gate_sustain_refuted.

(** length of the returned sequences of an accepted plain CrossBlock: [base_size] is the crossing
    size, [preamble] = 1 iff a transition is crossed; the three arithmetic hypotheses are the
    trial-count and crossing-weight rules of a (single) CrossBlock, checked per program by the
    harness; the last one says that the level duplication hits a crossed factor *)
Theorem C29_sm_length : forall s p, gate s = Accept p ->
  0 < base_size s -> base_size s + preamble s <= sm_trials s ->
  sm_crossing_weight s = (sm_trials s - preamble s + base_size s - 1) / base_size s ->
  (sm_crossing_weight s <= 1 \/
   exists i0, first_primary 0 (sm_design s) = Some i0 /\ count_occ Nat.eq_dec (sm_crossing s) i0 = 1) ->
  p_length p = sm_trials s.
Proof. exact SMGateProofs.sm_length. Qed.
Print Assumptions C29_sm_length.

Example C29_sm_length_example :
  let s := {| sm_is_block := true; sm_ncrossings := 1; sm_constraints := [KCross; KConsistency; KMinimumTrials; KDerivation; KDerivation];
              sm_crossing_weight := 2; sm_trials := 7;
              sm_design := [plain_factor 2; plain_factor 2;
                            {| sf_derived := true; sf_window := WTransition; sf_args := [Some 0]; sf_weights := [1; 1] |}];
              sm_crossing := [1; 2] |} in
  base_size s = 4 /\ preamble s = 1 /\ sm_crossing_weight s = (sm_trials s - preamble s + base_size s - 1) / base_size s /\
  first_primary 0 (sm_design s) = Some 0 /\
  exists p, gate s = Accept p /\ p_M p = 4 /\ p_length p = 5.
Proof. cbn. repeat split. eexists. split; [vm_compute; reflexivity|]. split; reflexivity. Qed.

(** REFUTED without the hypotheses: Repeat keeps crossing weight 1 ... *)
Theorem C29_sm_length_repeat_refuted : exists s p, gate s = Accept p /\ p_length p = 2 /\ sm_trials s = 4.
Proof. exact SMGateProofs.sm_length_repeat_refuted. Qed.
Print Assumptions C29_sm_length_repeat_refuted.

(** ... and the duplication is applied to the first non-derived factor even if it is not crossed *)
Theorem C29_sm_length_uncrossed_refuted : exists s p,
  gate s = Accept p /\ p_length p = 2 /\ sm_trials s = 6 /\
  0 < base_size s /\ base_size s + preamble s <= sm_trials s /\
  sm_crossing_weight s = (sm_trials s - preamble s + base_size s - 1) / base_size s.
Proof. exact SMGateProofs.sm_length_uncrossed_refuted. Qed.
Print Assumptions C29_sm_length_uncrossed_refuted.
