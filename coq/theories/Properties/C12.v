(** C12 - Adder and population-count circuits compute sums.

    Each builder, run from [{| next := n; cls := cs |}] on literals of
    variables 1..n, appends a block [new] with [Defines n n' new ext] (every
    assignment of 1..n has exactly one extension to 1..n' satisfying [new],
    namely [ext s]) and every assignment satisfying [new] gives the output
    variables the stated values. *)
From Coq Require Import ZArith List Bool Lia.
From SP Require Import Base.Sat Base.Bits Core.CnfModel Core.CnfProofs Core.PopCountProofs.
Import ListNotations.
Open Scope Z_scope.

Theorem C12_half_adder : forall n a b,
  0 <= n -> inr n a -> inr n b ->
  exists new ext,
    (forall cs, half_adder a b {| next := n; cls := cs |}
                = ((n + 1, n + 2), {| next := n + 2; cls := cs ++ new |})) /\
    Defines n (n + 2) new ext /\
    forall s, sat s new = true ->
      s (n + 1) = lit_true s a && lit_true s b /\
      s (n + 2) = xorb (lit_true s a) (lit_true s b).
Proof.
  intros n a b Hn Ha Hb.
  destruct (half_adder_spec n a b Hn Ha Hb) as (r & n' & new & ext & R & D & -> & -> & H).
  exists new, ext. split; [exact R|]. split; [exact D|exact H].
Qed.
Print Assumptions C12_half_adder.

Theorem C12_full_adder : forall n a b cin,
  0 <= n -> inr n a -> inr n b -> oinr n cin ->
  exists new ext,
    (forall cs, full_adder a b cin {| next := n; cls := cs |}
                = ((n + 1, n + 2), {| next := n + 2; cls := cs ++ new |})) /\
    Defines n (n + 2) new ext /\
    forall s, sat s new = true ->
      s (n + 1) = maj3 (lit_true s a) (lit_true s b) (olit s cin) /\
      s (n + 2) = xorb (xorb (lit_true s a) (lit_true s b)) (olit s cin).
Proof.
  intros n a b cin Hn Ha Hb Hc.
  destruct (full_adder_spec n a b cin Hn Ha Hb Hc)
    as (r & n' & new & ext & R & D & -> & -> & H).
  exists new, ext. split; [exact R|]. split; [exact D|exact H].
Qed.
Print Assumptions C12_full_adder.

Theorem C12_saturate_adder : forall n a b cin,
  0 <= n -> inr n a -> inr n b -> oinr n cin ->
  exists new ext,
    (forall cs, saturate_adder a b cin {| next := n; cls := cs |}
                = (n + 1, {| next := n + 1; cls := cs ++ new |})) /\
    Defines n (n + 1) new ext /\
    forall s, sat s new = true ->
      s (n + 1) = lit_true s a || lit_true s b || olit s cin.
Proof.
  intros n a b cin Hn Ha Hb Hc.
  destruct (saturate_adder_spec n a b cin Hn Ha Hb Hc)
    as (r & n' & new & ext & R & D & -> & -> & H).
  exists new, ext. split; [exact R|]. split; [exact D|exact H].
Qed.
Print Assumptions C12_saturate_adder.

(** Operands MSB first, of equal width; the sums come back LSB first. *)
Theorem C12_ripple_carry : forall n xs ys,
  0 <= n -> length xs = length ys -> Forall (inr n) xs -> Forall (inr n) ys ->
  exists carry sums n' new ext,
    (forall cs, ripple_carry xs ys {| next := n; cls := cs |}
                = ((carry, sums), {| next := n'; cls := cs ++ new |})) /\
    Defines n n' new ext /\
    n' = n + 2 * Z.of_nat (length xs) /\
    length sums = length xs /\
    Forall (fresh_in n n') sums /\
    match xs with
    | [] => carry = None
    | _ => exists c, carry = Some c /\ fresh_in n n' c
    end /\
    forall s, sat s new = true ->
      lsbv (lits s sums) + 2 ^ Z.of_nat (length xs) * Z.b2z (olit s carry)
      = msbv (lits s xs) + msbv (lits s ys).
Proof.
  intros n xs ys Hn Hl Hx Hy.
  destruct (ripple_carry_spec n xs ys Hn Hl Hx Hy)
    as ([co sums] & n' & new & ext & R & D & H).
  exists co, sums, n', new, ext. split; [exact R|]. split; [exact D|exact H].
Qed.
Print Assumptions C12_ripple_carry.

(** Saturating ripple adder on MSB-first operands of equal width
    [0 < w <= sat_at].  For [w < sat_at] the result has [w+1] bits and is the
    exact sum; for [w = sat_at] it has [w] bits: the low [w-1] bits are the sum
    of the low parts modulo [2^(w-1)], the top bit is the disjunction of the
    two top bits and the carry out of the low parts. *)
Theorem C12_ripple_saturate : forall n xs ys sa,
  0 <= n -> length xs = length ys -> (0 < length xs <= sa)%nat ->
  Forall (inr n) xs -> Forall (inr n) ys ->
  exists out n' new ext,
    (forall cs, ripple_saturate xs ys sa {| next := n; cls := cs |}
                = (Some out, {| next := n'; cls := cs ++ new |})) /\
    Defines n n' new ext /\
    Forall (fresh_in n n') out /\
    if (length xs <? sa)%nat then
      length out = S (length xs) /\
      forall s, sat s new = true ->
        msbv (lits s out) = msbv (lits s xs) + msbv (lits s ys)
    else
      length out = length xs /\
      forall s, sat s new = true ->
        let low := msbv (lits s (tl xs)) + msbv (lits s (tl ys)) in
        let M := 2 ^ (Z.of_nat (length xs) - 1) in
        msbv (lits s (tl out)) = low mod M /\
        lit_true s (hd 0 out)
        = lit_true s (hd 0 xs) || lit_true s (hd 0 ys) || (M <=? low).
Proof.
  intros n xs ys sa Hn Hl Hw Hx Hy.
  destruct (ripple_saturate_spec n xs ys sa Hn Hl Hw Hx Hy)
    as (o & n' & new & ext & R & D & out & -> & Hfr & Hcase).
  exists out, n', new, ext. split; [exact R|]. split; [exact D|]. split; [exact Hfr|].
  destruct (length xs <? sa)%nat; [exact Hcase|].
  destruct Hcase as [Hlo Hsem]. split; [exact Hlo|].
  intros s Hs low M. destruct (Hsem s Hs) as (cr & H1 & H2). fold low in H1. fold M in H1.
  pose proof (msbv_bounds (lits s (tl out))) as B. rewrite lits_length in B.
  assert (Hlt : length (tl out) = (length xs - 1)%nat).
  { clear - Hlo Hw. destruct out; cbn [tl length] in *; lia. }
  rewrite Hlt in B. replace (Z.of_nat (length xs - 1)) with (Z.of_nat (length xs) - 1) in B by (clear - Hw; lia).
  fold M in B. rewrite H2.
  destruct cr; cbn [Z.b2z] in H1; clear - H1 B.
  - replace low with (msbv (lits s (tl out)) + 1 * M) by lia.
    rewrite Z_mod_plus_full, Z.mod_small by lia. split; [reflexivity|].
    f_equal. symmetry. apply Z.leb_le. lia.
  - replace low with (msbv (lits s (tl out))) by lia.
    rewrite Z.mod_small by lia. split; [reflexivity|].
    f_equal. symmetry. apply Z.leb_gt. lia.
Qed.
Print Assumptions C12_ripple_saturate.

(** Population count of a non-empty list of literals (duplicates and negative
    literals allowed; [count] is positional).  With [p = clog2 (length vs)]
    (= ceil(log2 |vs|), the model's [log2_up_nat |vs| |vs| 0]) the result,
    MSB first, has width [wd sa p] (= p+1 for sa = 0, min(p+1, sa) otherwise)
    and value [satv sa N]: exactly [N] when the width is below [sa] (or
    sa = 0); at width [sa] the low [sa-1] bits are [N mod 2^(sa-1)] and the top
    bit says whether [N >= 2^(sa-1)]. *)
Theorem C12_pop_count : forall n vs sa,
  0 <= n -> vs <> [] -> Forall (inr n) vs ->
  exists out n' new ext,
    (forall cs, pop_count vs sa {| next := n; cls := cs |}
                = (Some out, {| next := n'; cls := cs ++ new |})) /\
    Defines n n' new ext /\
    let p := clog2 (length vs) in
    (length vs <= 2 ^ p /\ (p = 0 \/ 2 ^ (p - 1) < length vs))%nat /\
    length out = wd sa p /\ Forall (inr n') out /\
    forall s, sat s new = true ->
      let N := count s vs in
      msbv (lits s out) = satv sa N /\
      ((sa = 0 \/ length out < sa)%nat -> msbv (lits s out) = N) /\
      (length out = sa ->
         msbv (lits s (tl out)) = N mod 2 ^ (Z.of_nat sa - 1) /\
         lit_true s (hd 0 out) = (2 ^ (Z.of_nat sa - 1) <=? N)).
Proof.
  intros n vs sa Hn Hne Hvs.
  destruct (pop_count_spec n vs sa Hn Hne Hvs)
    as (o & n' & new & ext & R & D & out & -> & Hlo & Hro & Hsem).
  exists out, n', new, ext. split; [exact R|]. split; [exact D|].
  intros p. pose proof (clog2_spec (length vs)) as Hp. fold p in Hp.
  split; [exact Hp|]. split; [exact Hlo|]. split; [exact Hro|].
  intros s Hs N. specialize (Hsem s Hs). fold N in Hsem.
  pose proof (count_bounds s vs) as HN. fold N in HN.
  assert (HN2 : 0 <= N <= 2 ^ Z.of_nat p).
  { split; [lia|]. destruct Hp as [Hp _].
    apply Nat2Z.inj_le in Hp. rewrite Nat2Z.inj_pow in Hp. cbn in Hp. lia. }
  split; [exact Hsem|]. split.
  - intros Hc. rewrite Hsem. apply (satv_exact sa p); [assumption|]. fold p in Hlo. lia.
  - intros Hw.
    assert (Hsa : sa <> O).
    { intros ->. fold p in Hlo. rewrite Hlo in Hw. cbn [wd] in Hw. lia. }
    destruct (satv_split sa (lits s out) N) as [E1 E2]; try assumption; try lia.
    { now rewrite lits_length. }
    split.
    + destruct out; exact E1.
    + rewrite <- E2. destruct out; [cbn [length] in Hw; lia|reflexivity].
Qed.
Print Assumptions C12_pop_count.

(** The hypotheses are satisfiable: a 3-bit addition of mixed-sign literals
    over 6 variables. *)
Example C12_ripple_carry_instance :
  0 <= 6 /\ length [1; -2; 3] = length [-4; 5; 6] /\
  Forall (inr 6) [1; -2; 3] /\ Forall (inr 6) [-4; 5; 6] /\
  fst (ripple_carry [1; -2; 3] [-4; 5; 6] {| next := 6; cls := [] |})
  = (Some 11, [8; 10; 12]).
Proof.
  split; [lia|]. split; [reflexivity|].
  split; [repeat constructor; unfold inr; lia|].
  split; [repeat constructor; unfold inr; lia|]. vm_compute. reflexivity.
Qed.

Example C12_gate_instance :
  0 <= 3 /\ inr 3 1 /\ inr 3 (-2) /\ oinr 3 (Some 3) /\
  fst (full_adder 1 (-2) (Some 3) {| next := 3; cls := [] |}) = (4, 5).
Proof.
  split; [lia|]. split; [unfold inr; lia|]. split; [unfold inr; lia|].
  split; [cbn; unfold inr; lia|]. reflexivity.
Qed.

Example C12_pop_count_instance :
  0 <= 5 /\ [1; -2; 3; 3; 5] <> [] /\ Forall (inr 5) [1; -2; 3; 3; 5] /\
  fst (pop_count [1; -2; 3; 3; 5] 3 {| next := 5; cls := [] |}) = Some [29; 28; 26] /\
  fst (ripple_saturate [1; 2] [-3; 4] 2 {| next := 4; cls := [] |}) = Some [7; 6].
Proof.
  split; [lia|]. split; [discriminate|].
  split; [repeat constructor; unfold inr; lia|]. vm_compute. split; reflexivity.
Qed.
