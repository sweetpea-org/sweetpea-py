(** C19 - A block stays usable and unchanged across library calls.

    Model: Hist/BlockState.v - the attributes of a constructed block the seven
    public calls can reach ([design], [orig_design], [continuous_factors],
    [crossings], the constraint list, [min_trials], the caches
    [_trials_per_sample], [_variables_per_trial], [_simple_tuples],
    [_cached_previous_count], [continuous_factor_samples], and [errors]) and
    [step : bstate -> op -> bstate * out] for [synthesize_trials] with every
    strategy class, [print_experiments], [tabulate_experiments],
    [save_experiments_csv], [experiments_to_tuples], [experiments_to_dicts],
    [sample_mismatch_experiment].  The model is parametric in [tps_fn] (the trial
    count as a function of the design) and [excl_fn] (the messages
    [__count_exclusions] computes); the facts of a run that do not depend on the
    block (how many experiments the solver returned, which idempotent caches the
    strategy happened to touch, which variable numbers it requested) are
    parameters of the operations, so every statement holds for all of them.

    [Inv s0 s] = "design, orig_design, continuous factors, crossings, constraint
    list, min_trials and errors of [s] are those of [s0]; every cache of [s] is
    empty or equals the pure function it memoises; the messages of
    [__count_exclusions] are already in [errors] (the block was constructed)".

    What the theorems do not cover (left to the search of harness/props/c19.py,
    which runs the real calls): that the solver behind a strategy finds a
    solution, and that the returned sequences are valid (C01-C09). *)
From Coq Require Import ZArith List Bool String.
From SP Require Import Hist.BlockState Hist.BlockStateProofs.
Import ListNotations.
Open Scope Z_scope.

(** Any sequence of library calls preserves the invariant. *)
Theorem C19_ops_preserve_meaning :
  forall (tps_fn : list fdesc -> list (list string) -> Z -> Z)
         (excl_fn : list fdesc -> list (list string) -> list Z -> list string)
         (s0 : bstate) (ops : list op),
    Inv tps_fn excl_fn s0 s0 -> Inv tps_fn excl_fn s0 (run tps_fn excl_fn ops s0).
Proof. exact ops_preserve_meaning. Qed.
Print Assumptions C19_ops_preserve_meaning.

(** ... from every state satisfying it (one step at a time). *)
Theorem C19_step_preserves_invariant :
  forall tps_fn excl_fn (s0 s : bstate) (o : op),
    Inv tps_fn excl_fn s0 s -> Inv tps_fn excl_fn s0 (fst (step tps_fn excl_fn s o)).
Proof. exact step_inv. Qed.
Print Assumptions C19_step_preserves_invariant.

(** Hence a later synthesis that returns has exactly the number of experiments the
    sampler produced and the column set of the initial design (visible design
    factors, then the continuous factors), whatever calls were made before and
    whatever caches they filled; it is refused by [show_errors] exactly when the
    same call on the untouched block is. *)
Theorem C19_later_synthesis_same_output :
  forall tps_fn excl_fn (s0 s : bstate) st k tv ts reqs tv' ts' reqs',
    Inv tps_fn excl_fn s0 s0 -> Inv tps_fn excl_fn s0 s ->
    snd (synth tps_fn excl_fn s st false k tv ts reqs) = snd (synth tps_fn excl_fn s0 st false k tv' ts' reqs').
Proof.
  intros tps_fn excl_fn s0 s st k tv ts reqs tv' ts' reqs' H0 H.
  rewrite (synth_out tps_fn excl_fn s0 s st k tv ts reqs H), (synth_out tps_fn excl_fn s0 s0 st k tv' ts' reqs' H0).
  reflexivity.
Qed.
Print Assumptions C19_later_synthesis_same_output.

Theorem C19_later_synthesis_same_columns :
  forall tps_fn excl_fn (s0 : bstate) (ops : list op) st k tv ts reqs n cols,
    Inv tps_fn excl_fn s0 s0 ->
    snd (synth tps_fn excl_fn (run tps_fn excl_fn ops s0) st false k tv ts reqs) = OCols n cols ->
    n = k /\ cols = columns s0.
Proof.
  intros tps_fn excl_fn s0 ops st k tv ts reqs n cols H0 H.
  rewrite (synth_out tps_fn excl_fn s0 _ st k tv ts reqs (run_inv tps_fn excl_fn ops s0 s0 H0)) in H.
  destruct (match st with SSM => false | _ => fatal (st_errors s0) end); [discriminate |].
  inversion H; auto.
Qed.
Print Assumptions C19_later_synthesis_same_columns.

(** The conversions and the tabulation write the same columns after any history. *)
Theorem C19_later_conversion_same_keys :
  forall tps_fn excl_fn (s0 : bstate) (ops : list op) (o : op),
    Inv tps_fn excl_fn s0 s0 ->
    (o = Print \/ o = SaveCsv \/ o = ToTuples \/ o = ToDicts \/ o = Tabulate) ->
    snd (step tps_fn excl_fn (run tps_fn excl_fn ops s0) o) = snd (step tps_fn excl_fn s0 o).
Proof.
  intros tps_fn excl_fn s0 ops o H0 Ho.
  destruct (run_inv tps_fn excl_fn ops s0 s0 H0) as [[_ [D2 [_ [D4 _]]]] _].
  destruct Ho as [-> | [-> | [-> | [-> | ->]]]]; cbn [BlockState.step snd]; try (rewrite D2; reflexivity).
  rewrite D4. destruct (st_crossings s0) as [| c [| c' r]]; reflexivity.
Qed.
Print Assumptions C19_later_conversion_same_keys.

(** The variable numbering of every later encoding: [_get_previous_trials_variable_count]
    answers the pure count, whatever earlier calls left in its cache. *)
Theorem C19_later_previous_count_exact :
  forall tps_fn excl_fn (s0 : bstate) (ops : list op) f t fd c' n,
    Inv tps_fn excl_fn s0 s0 -> 1 <= t ->
    find_factor (st_design s0) f = Some fd ->
    prev_request (st_design (run tps_fn excl_fn ops s0)) (st_prev (run tps_fn excl_fn ops s0)) f t = Some (c', n) ->
    n = prev_pure fd t.
Proof.
  intros tps_fn excl_fn s0 ops f t fd c' n H0 Ht Hf R.
  destruct (run_inv tps_fn excl_fn ops s0 s0 H0) as [[D1 _] [[_ [_ [_ [C4 _]]]] _]].
  rewrite D1 in *. eapply prev_request_value; eauto.
Qed.
Print Assumptions C19_later_previous_count_exact.

(** A reachable non-trivial state: a block with two crossed factors, a transition
    factor and a continuous factor; after a formula-based synthesis, a print, a
    RandomGen synthesis, a mismatch check and a tabulation the caches are filled
    (nine entries of [_cached_previous_count], [_variables_per_trial],
    [continuous_factor_samples]) and a further synthesis returns the four columns. *)
Example C19_reachable_state :
  Inv ex_tps ex_excl ex_state ex_state /\
  st_prev (run ex_tps ex_excl ex_ops ex_state) =
    [(("f", 2), 1); (("g", 2), 1); (("f", 3), 2); (("f", 4), 3); (("t", 2), 0); (("t", 3), 1); (("t", 4), 2);
     (("g", 3), 2); (("g", 4), 3)]%string /\
  st_vpt (run ex_tps ex_excl ex_ops ex_state) = Some 4 /\
  st_cfs (run ex_tps ex_excl ex_ops ex_state) = [(0, ["rt"%string]); (1, ["rt"%string])] /\
  snd (step ex_tps ex_excl (run ex_tps ex_excl ex_ops ex_state) (Synth SSat false 3 false false [])) =
    OCols 3 ["f"; "g"; "t"; "rt"]%string.
Proof. exact ex_reached. Qed.
