(** C18 - Reusing factor and constraint objects across blocks does not change meaning.

    Model: Hist/Reuse.v - a store of constraint objects with the mutable fields the
    code has ([within_block : option geometry], [k], [trials],
    [max_trials_required]) and [build : state -> desc -> state * option summary]:
    what constructing a CrossBlock / MultiCrossBlock ([DLeaf]), [Repeat], [Merge],
    [Nest] does to the store: [_create] first makes private shallow copies of the
    constraint objects it is given ([copy.copy], new store entries), which become the
    block's [orig_constraints]; [max_trials_required] ([Block.__validate]) and
    [init_within_block] (set-if-None) are written on the copies; [Repeat] / [Merge]
    hand the inner blocks' initialised copies on, [Nest] copies the outer block's and
    applies [sustain_within_block].  The summary of a block is the kind, geometry, [k]
    and [trials] every constraint of the new block ends up using.
    [run] builds a list of constructions in order on one store;
    [mask keep ds] builds only the blocks of [keep] (the twin of a block from fresh
    objects is [mask (keep_of ds i) ds], its dependency closure);
    [shared_summary] / [fresh_summary] are the summaries of block [i] in the two runs.

    The model follows /repo after commit 88b3d0f, which introduced the private copies.
    The code before that commit made no copies in [_create], and the headline statement
    is false of it: with c = AtMostKInARow(1, (f, "a")) used in CrossBlock([f],[f],[c])
    (2 trials) and then in CrossBlock([f,g],[f,g],[c]) (4 trials), the second block kept
    the 2-trial geometry.  On that code the program gave 16 sequences instead of 12
    (f = b,a,a,b accepted) and a mismatch verdict that differed from the fresh twin's.
    [C18_old_witness_history_independent] is the program on which the code before the
    commit failed.  The correspondence run compares the model with the real constructors
    on every run, and the statement is proved without any condition on sharing. *)
From Coq Require Import ZArith List Bool Arith.
From SP Require Import Hist.Reuse Hist.ReuseProofs.
Import ListNotations.
Open Scope Z_scope.

(** For every sequence of constructions, in any order, and every dependency-closed set [keep] of
    blocks, each kept block gets exactly the summary it gets when only the kept blocks are built
    from fresh objects - however factor and constraint objects are shared. *)
Theorem C18_build_history_independent :
  forall (user : list cobj) (ds : list desc) (keep : nat -> bool) (i : nat),
    wf (List.length user) ds = true -> closed keep ds = true -> keep i = true ->
    nth_error (snd (run (init_state user) ds)) i = nth_error (snd (run (init_state user) (mask keep ds))) i.
Proof.
  intros user ds keep i Hwf Hcl Hk. unfold mask.
  apply (run_sim user keep ds 0%nat (init_state user) (init_state user)); auto. apply sim_init.
Qed.
Print Assumptions C18_build_history_independent.

(** ... in the form the check uses: shared build = fresh twin. *)
Theorem C18_shared_equals_fresh :
  forall (user : list cobj) (ds : list desc) (i : nat),
    wf (List.length user) ds = true -> closed (keep_of ds i) ds = true ->
    shared_summary user ds i = fresh_summary user ds i.
Proof.
  intros user ds i Hwf Hcl. unfold shared_summary, fresh_summary.
  rewrite (C18_build_history_independent user ds (keep_of ds i) i Hwf Hcl (keep_of_self ds i)). reflexivity.
Qed.
Print Assumptions C18_shared_equals_fresh.

(** The invariant behind it: a construction never writes an object that existed before it (the
    store only grows) ... *)
Theorem C18_build_never_writes_store :
  forall (user : list cobj) (s : state) (d : desc) (id : nat),
    good user s -> desc_ok user d -> (id < next s)%nat -> objs (fst (build s d)) id = objs s id.
Proof. exact build_never_writes. Qed.
Print Assumptions C18_build_never_writes_store.

Theorem C18_build_preserves_store_invariant :
  forall (user : list cobj) (s : state) (d : desc),
    good user s -> desc_ok user d -> good user (fst (build s d)).
Proof. exact build_good. Qed.
Print Assumptions C18_build_preserves_store_invariant.

(** ... so after any sequence of constructions the user's objects are as the user created them. *)
Theorem C18_user_objects_never_written :
  forall (user : list cobj) (ds : list desc) (c : nat),
    wf (List.length user) ds = true -> (c < List.length user)%nat ->
    objs (fst (run (init_state user) ds)) c = fresh (nth c user default_obj).
Proof.
  intros user ds c Hwf Hc.
  assert (G : good user (fst (run (init_state user) ds))).
  { apply run_good; [apply good_init |]. intros d Hd. eapply wf_from_cs; eauto. }
  destruct G as [_ [Hu _]]. apply Hu; exact Hc.
Qed.
Print Assumptions C18_user_objects_never_written.

(** The statement restricted to programs in which every constraint object with a
    [within_block] is handed only to constructions of one geometry (the restriction under
    which it holds of /repo before commit 88b3d0f as well) is a special case. *)
Theorem C18_build_history_independent_guarded :
  forall (user : list cobj) (gc : nat -> geom) (ds : list desc) (keep : nat -> bool) (i : nat),
    wf (List.length user) ds = true -> consistent user gc ds -> closed keep ds = true -> keep i = true ->
    nth_error (snd (run (init_state user) ds)) i = nth_error (snd (run (init_state user) (mask keep ds))) i.
Proof. intros user gc ds keep i Hwf _ Hcl Hk. apply C18_build_history_independent; assumption. Qed.
Print Assumptions C18_build_history_independent_guarded.

(** The program on which /repo before commit 88b3d0f failed: the 4-trial block uses the
    4-trial geometry in the shared build as in its fresh twin, and the user's object (store
    entry 0) is untouched; entries 1 and 2 are the two blocks' copies. *)
Theorem C18_old_witness_history_independent :
  wf (List.length wit_user) wit_prog = true /\ closed (keep_of wit_prog 1) wit_prog = true /\
  shared_summary wit_user wit_prog 0 = Some [(KAtMost, Some wit_g2, 1, 0)] /\
  shared_summary wit_user wit_prog 1 = Some [(KAtMost, Some wit_g4, 1, 0)] /\
  fresh_summary wit_user wit_prog 1 = Some [(KAtMost, Some wit_g4, 1, 0)] /\
  store_list (fst (run (init_state wit_user) wit_prog)) =
    [ {| c_kind := KAtMost; c_within := None; c_k := 1; c_trials := 0; c_mtr := None |};
      {| c_kind := KAtMost; c_within := Some wit_g2; c_k := 1; c_trials := 0; c_mtr := None |};
      {| c_kind := KAtMost; c_within := Some wit_g4; c_k := 1; c_trials := 0; c_mtr := None |} ].
Proof. vm_compute. repeat split; reflexivity. Qed.
Print Assumptions C18_old_witness_history_independent.

(** A program with heavy sharing: one AtMostKInARow object in a 2-trial block, in a 4-trial block
    and in the constraint list of a Repeat of the first; an ExactlyK object in both blocks, hence
    (copied and sustained: geometry and [k] doubled) on the outer side of a Nest and, with its own
    geometry, on the inner side; a MinimumTrials object. *)
Example C18_sharing_example :
  wf (List.length ex_user) ex_prog = true /\ closed (keep_of ex_prog 3) ex_prog = true /\
  closed (keep_of ex_prog 2) ex_prog = true /\
  shared_summary ex_user ex_prog 1 = Some [(KAtMost, Some wit_g4, 1, 0); (KExactlyK, Some wit_g4, 1, 0)] /\
  shared_summary ex_user ex_prog 2 =
    Some [(KAtMost, Some wit_g2, 1, 0); (KExactlyK, Some wit_g2, 1, 0); (KMinTrials, None, 0, 4); (KAtMost, Some wit_g4, 1, 0)] /\
  shared_summary ex_user ex_prog 3 =
    Some [(KAtMost, Some (gsustain wit_g2 2), 1, 0); (KExactlyK, Some (gsustain wit_g2 2), 2, 0);
          (KAtMost, Some wit_g4, 1, 0); (KExactlyK, Some wit_g4, 1, 0)] /\
  fresh_summary ex_user ex_prog 3 = shared_summary ex_user ex_prog 3.
Proof. exact ex_shared. Qed.
