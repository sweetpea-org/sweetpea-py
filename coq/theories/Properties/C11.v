(** C11 - Formula-to-CNF conversions preserve meaning.

    Models: Logic/Formula.v ([fm], [nf], [eval], [neval], [cnf_to_json]),
    Logic/Tseitin.v, Logic/Naive.v, Logic/Switching.v (tied to
    sweetpea/_internal/logic.py by harness/props/c11.py on every run).
    Proofs: Logic/TseitinProofs.v, Logic/NaiveProofs.v, Logic/SwitchingProofs.v.

    Leaves are DIMACS literals ([eval s (FVar z) = lit_true s z]).  The calling
    convention of the converters ([next_variable] is a positive variable above
    every variable of the formula) appears as the hypotheses [1 <= nv] and
    [Z.abs z < nv] for every leaf [z]; the harness also probes outside it.

    The models follow /repo after commits 94d9e8e and 9837dd8.
    Before commit 94d9e8e, [to_cnf_naive] / [to_cnf_switching] raised TypeError
    on a negated compound formula ([Not(If(1, 2))], [Not(Or([1, And([2, 3])]))]):
    [__order_clauses] returned the compound formula under a [Not] as the sort
    key and [list.sort] compared it with an int.  The commit makes
    [__order_clauses] return the key [0] for a [Not] over a compound formula.
    Before commit 9837dd8, [to_cnf_switching(Or([]), nv)] raised IndexError
    ([clauses[0]] of an empty list).  The commit makes
    [__distribute_ors_switching] return an empty disjunction unchanged.
    Both failures were replayed on the real code.  The formulas on which the
    code before those commits failed are the inputs of
    [C11_naive_repaired_example] and [C11_switching_repaired_example].
    [C11_naive_total] and [C11_switching_total] carry no precondition: the
    conversions return on every formula and every counter. *)
From Coq Require Import ZArith List Permutation.
From SP Require Import Base.Sat Logic.Formula Logic.Tseitin Logic.Naive Logic.Switching.
From SP Require Import Logic.TseitinProofs Logic.NaiveProofs Logic.SwitchingProofs.
Import ListNotations.
Open Scope Z_scope.

(** ** Tseitin: the clauses are a definitional extension over the reported
    fresh range plus one unit clause asserting the formula.  [defs] are all
    clauses but the last; [Defines (nv-1) (nv'-1) defs ext] says that every
    assignment [s] of the variables below [nv] has exactly one extension
    ([ext s]) to the variables below [nv'] satisfying [defs]; under that
    extension the whole clause list holds iff the formula holds under [s].
    Shared subformulas (cache hits) are covered: the proof's invariant is that
    the cache lists the gates in allocation order, each key's arguments being
    smaller than its variable, and the emitted clauses are exactly those gates. *)
Theorem C11_tseitin : forall f nv cs nv',
  1 <= nv -> (forall z, In z (leaves f) -> z <> 0 /\ Z.abs z < nv) ->
  tseitin f nv = (cs, nv') ->
  exists defs r ext,
    cs = defs ++ [[r]] /\ nv <= nv' /\
    Defines (nv - 1) (nv' - 1) defs ext /\
    (forall s, sat (ext s) cs = eval s f) /\
    (forall c l, In c cs -> In l c ->
       (In l (leaves f) \/ In (- l) (leaves f)) \/ nv <= Z.abs l < nv').
Proof. exact tseitin_correct. Qed.
Print Assumptions C11_tseitin.

(** The same in terms of solutions: restricted to the original variables the
    solutions of the clauses are exactly the models of the formula, and a
    solution is determined by its restriction (each new variable is uniquely
    determined). *)
Theorem C11_tseitin_models : forall f nv cs nv',
  1 <= nv -> (forall z, In z (leaves f) -> z <> 0 /\ Z.abs z < nv) ->
  tseitin f nv = (cs, nv') ->
  (forall s, (exists t, agree_upto (nv - 1) s t /\ sat t cs = true) <-> eval s f = true) /\
  (forall t t', agree_upto (nv - 1) t t' -> sat t cs = true -> sat t' cs = true ->
                agree_upto (nv' - 1) t t') /\
  vars_upto (nv' - 1) cs.
Proof. exact tseitin_models. Qed.
Print Assumptions C11_tseitin_models.

(** [tseitin] is the [cnf_to_json] image of the tree [to_cnf_tseitin] returns
    ([tseitin_tree]), with the same fresh counter, and that tree is an [And] of
    [Or]s of (negated) variables followed by the representative. *)
Theorem C11_tseitin_tree : forall f nv,
  cnf_to_json [fst (tseitin_tree f nv)] = Ok (fst (tseitin f nv)) /\
  snd (tseitin_tree f nv) = snd (tseitin f nv) /\
  exists cls r, fst (tseitin_tree f nv) = NAnd (map (fun c => NOr (map slit_nf c)) cls ++ [NVar r]).
Proof. exact tseitin_json. Qed.
Print Assumptions C11_tseitin_tree.

Example C11_tseitin_example :
  (forall z, In z (leaves ex_fm) -> z <> 0 /\ Z.abs z < 4) /\
  tseitin ex_fm 4 =
    ([[-1; 2; 4]; [1; -4]; [-2; -4]; [3; 5]; [-3; -5]; [6]; [4; 5; 6; -7]; [-4; 7]; [-5; 7]; [-6; 7];
      [4; 7; 8]; [-4; -7; 8]; [4; -7; -8]; [-4; 7; -8]; [8]], 9).
Proof.
  split; [|vm_compute; reflexivity].
  intros z Hz. cbn in Hz. repeat (destruct Hz as [<-|Hz]; [split; [discriminate|reflexivity]|]). destruct Hz.
Qed.

(** ** Naive conversion.  Whenever the conversion returns, the result is
    equivalent to the input under every assignment, mentions only leaves of
    the input, leaves the fresh counter unchanged and is an [And] of literals /
    [Or]s of literals. *)
Theorem C11_naive : forall f nv g nv',
  to_cnf_naive f nv = Ok (g, nv') ->
  nv' = nv /\
  (forall s, neval s g = eval s f) /\
  incl (nleaves g) (leaves f) /\
  is_cnf g = true.
Proof. exact naive_correct. Qed.
Print Assumptions C11_naive.

(** Totality (full statement): on every formula over If/Iff/And/Or/Not and
    integer leaves and for every counter the conversion returns, and the result
    is a CNF equivalent to the input.  No guard is needed: every sort key of
    [__order_clauses] is an int (so the comparisons of [list.sort] cannot
    raise), the binary insertion stays inside the sorted prefix, and the fuel
    of the model's [demorgan] covers the recursion of [__apply_demorgan]. *)
Theorem C11_naive_total : forall f nv,
  exists g, to_cnf_naive f nv = Ok (g, nv) /\
    (forall s, neval s g = eval s f) /\
    incl (nleaves g) (leaves f) /\
    is_cnf g = true.
Proof.
  intros f nv. assert (T : exists g, to_cnf_naive f nv = Ok (g, nv)).
  { unfold to_cnf_naive. destruct (demorgan_fuel_total (elim f)) as [g1 ->]. cbn [rbind].
    destruct (dist_naive_total g1) as [g2 ->]. cbn [rbind]. eauto. }
  destruct T as [g H]. exists g. split; [assumption|]. now destruct (naive_correct _ _ _ _ H) as [_ X].
Qed.
Print Assumptions C11_naive_total.

(** The sort itself never fails: [list.sort(key=__order_clauses)] returns a
    permutation of any list of formulas (negated compound members included). *)
Theorem C11_sort_total : forall l, exists r, pysort l = Ok r /\ Permutation l r.
Proof. intros l. destruct (pysort_total l) as [r H]. exists r. split; [assumption|now apply pysort_perm]. Qed.
Print Assumptions C11_sort_total.

(** The two formulas on which /repo before commit 94d9e8e raised TypeError
    convert. *)
Example C11_naive_repaired_example :
  to_cnf_naive (FNot (FIf (FVar 1) (FVar 2))) 3 = Ok (NAnd [NVar 1; NNot (NVar 2)], 3) /\
  to_cnf_naive (FNot (FOr [FVar 1; FAnd [FVar 2; FVar 3]])) 4 =
    Ok (NAnd [NOr [NNot (NVar 2); NNot (NVar 3)]; NNot (NVar 1)], 4).
Proof. split; vm_compute; reflexivity. Qed.

Example C11_naive_example :
  to_cnf_naive (FIff (FVar 1) (FAnd [FVar 2; FVar (-3)])) 4 =
    Ok (NAnd [NOr [NNot (NVar (-3)); NVar 1; NNot (NVar 2)]; NOr [NVar (-3); NNot (NVar 1)];
              NOr [NNot (NVar 1); NVar 2]], 4).
Proof. vm_compute. reflexivity. Qed.

(** ** Switching conversion.  Whenever it returns: the result is in CNF shape,
    its variables are leaves of the input or lie in the reported fresh range
    [nv, nv'), and an assignment [s] satisfies the input iff it can be changed
    on [nv, nv') into an assignment satisfying the result (same models
    projected to the original variables). *)
Theorem C11_switching : forall f nv g nv',
  1 <= nv -> (forall z, In z (leaves f) -> Z.abs z < nv) ->
  to_cnf_switching f nv = Ok (g, nv') ->
  nv <= nv' /\
  is_cnf g = true /\
  (forall z, In z (nleaves g) -> In z (leaves f) \/ nv <= z < nv') /\
  (forall s, (exists t, (forall v, ~ (nv <= v < nv') -> t v = s v) /\ neval t g = true) <-> eval s f = true).
Proof. exact switching_correct. Qed.
Print Assumptions C11_switching.

(** Totality: on every formula and for every counter (inside the calling
    convention or not) the conversion returns a formula in CNF shape - none of
    the model's error outcomes (TypeError of the sort, IndexError on an empty
    clause list, the [assert] on a negated compound formula, fuel) is
    reachable: [__apply_demorgan] leaves negations on leaves only, and the
    recursion of [__distribute_ors_switching] on the formulas it rebuilds has
    depth at most [size + 3] (each step merges the first two clauses of a
    disjunction; re-distributing an already distributed member adds a
    constant), which the model's fuel [8 * size + 32] covers.  Under the
    calling convention the result is equisatisfiable with the input in the
    strong sense of [C11_switching]. *)
Theorem C11_switching_total : forall f nv,
  exists g nv', to_cnf_switching f nv = Ok (g, nv') /\
    is_cnf g = true /\
    (1 <= nv -> (forall z, In z (leaves f) -> Z.abs z < nv) ->
     nv <= nv' /\
     (forall z, In z (nleaves g) -> In z (leaves f) \/ nv <= z < nv') /\
     (forall s, (exists t, (forall v, ~ (nv <= v < nv') -> t v = s v) /\ neval t g = true) <-> eval s f = true)).
Proof. exact switching_total. Qed.
Print Assumptions C11_switching_total.

(** The formulas on which /repo before commits 94d9e8e and 9837dd8 raised
    TypeError and IndexError convert (an empty disjunction is false: the CNF
    consisting of the empty clause). *)
Example C11_switching_repaired_example :
  to_cnf_switching (FNot (FIf (FVar 1) (FVar 2))) 3 = Ok (NAnd [NVar 1; NNot (NVar 2)], 3) /\
  to_cnf_switching (FOr []) 1 = Ok (NAnd [NOr []], 1).
Proof. split; vm_compute; reflexivity. Qed.

Example C11_switching_example :
  (forall z, In z (leaves (FOr [FAnd [FVar 1; FVar 2]; FAnd [FVar 3; FVar (-4)]; FIf (FVar 1) (FVar 3)])) -> Z.abs z < 5) /\
  to_cnf_switching (FOr [FAnd [FVar 1; FVar 2]; FAnd [FVar 3; FVar (-4)]; FIf (FVar 1) (FVar 3)]) 5 =
    Ok (NAnd [NOr [NVar 1; NNot (NVar 1); NVar 3; NNot (NVar 5)];
              NOr [NNot (NVar 1); NVar 2; NVar 3; NNot (NVar 5)];
              NOr [NVar (-4); NNot (NVar 1); NVar 3; NVar 5];
              NOr [NNot (NVar 1); NVar 3; NVar 3; NVar 5]], 6).
Proof.
  split; [|vm_compute; reflexivity].
  intros z Hz. cbn in Hz. repeat (destruct Hz as [<-|Hz]; [reflexivity|]). destruct Hz.
Qed.
