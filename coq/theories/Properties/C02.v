(** C02 - Exhausting IterateSATGen yields exactly the valid sequences.

    [C02_complete]: in the fragment F1 (CodeSem.in_f1, described in Properties/C01.v) every sequence valid for
    [code_sem fb] is the decoding of a model of the formula handed to the
    solver; [C02_once]: of exactly one (two models with the same sequence agree
    on every variable of the formula).
    [C02_iterate_exhausts]: the iterate-and-block loop of
    core/generate/sample_non_uniform.py ([compute_solutions] + the blocking
    clause [update_file] appends), over an abstract solver that is only assumed
    to return models and to answer UNSAT only for unsatisfiable formulas, for
    every formula, support and count: the returned projections are pairwise
    different, each is the projection of a model, their number is min(count, N)
    and when the loop stops early all N were returned.
    [C02_iterate_compiled]: both together on a compiled F1 design, for every
    support (the samplers use 1..variables_per_sample). *)
From Coq Require Import ZArith List Bool.
Import ListNotations.
From SP Require Import Base.Sat Design.Flat Design.Sem.
From SP Require Import Encode.Compile Encode.CodeSem Encode.F1Sem Encode.CompileCorollaries
     Encode.Iterate Encode.IterateProofs Encode.IterateCompile.

Theorem C02_complete :
  forall (fb : flat) (b : backend) (ok : bool) (n' : Z) (final : cnf) (q : tseq),
    in_f1 fb = true -> (0 < T fb)%nat ->
    compile fb = COk b -> full_cnf b = (ok, n', final) ->
    valid_b (code_sem fb) q = true ->
    exists t, sat t final = true /\ onehot fb t q.
Proof. intros fb b ok n' final q HF1 HT Hc. exact (valid_has_model fb HF1 HT b Hc ok n' final q). Qed.
Print Assumptions C02_complete.

Theorem C02_once :
  forall (fb : flat) (b : backend) (ok : bool) (n' : Z) (final : cnf) (q : tseq) (t1 t2 : asg),
    in_f1 fb = true -> (0 < T fb)%nat ->
    compile fb = COk b -> full_cnf b = (ok, n', final) ->
    sat t1 final = true -> sat t2 final = true -> onehot fb t1 q -> onehot fb t2 q ->
    agree_upto n' t1 t2.
Proof. intros fb b ok n' final q t1 t2 HF1 HT Hc. exact (one_model_per_sequence fb HF1 HT b Hc ok n' final q t1 t2). Qed.
Print Assumptions C02_once.

Theorem C02_iterate_exhausts :
  forall solve : cnf -> option asg,
    (forall f s, solve f = Some s -> sat s f = true) ->
    (forall f, solve f = None -> forall s, sat s f = false) ->
    forall (count : nat) (f : cnf) (support : nat),
      let r := iterate solve count f support in
      NoDup r /\
      (forall sol, In sol r -> exists s, sat s f = true /\ proj support s = sol) /\
      (length r <= count)%nat /\
      ((length r < count)%nat -> forall s, sat s f = true -> In (proj support s) r) /\
      (forall L, NoDup L ->
         (forall sol, In sol L <-> exists s, sat s f = true /\ proj support s = sol) ->
         length r = Nat.min count (length L)).
Proof. exact iterate_exhausts. Qed.
Print Assumptions C02_iterate_exhausts.

Theorem C02_iterate_compiled :
  forall (solve : cnf -> option asg),
    (forall f s, solve f = Some s -> sat s f = true) ->
    (forall f, solve f = None -> forall s, sat s f = false) ->
    forall (fb : flat) (b : backend) (ok : bool) (n' : Z) (final : cnf) (count support : nat),
      in_f1 fb = true -> (0 < T fb)%nat -> compile fb = COk b -> full_cnf b = (ok, n', final) ->
      let r := iterate solve count final support in
      NoDup r /\
      (forall sol, In sol r ->
         exists t q, sat t final = true /\ proj support t = sol /\ onehot fb t q /\ valid_b (code_sem fb) q = true) /\
      ((length r < count)%nat ->
         forall q, valid_b (code_sem fb) q = true ->
           exists t, sat t final = true /\ onehot fb t q /\ In (proj support t) r).
Proof. exact iterate_compiled. Qed.
Print Assumptions C02_iterate_compiled.

(** a concrete solver and run: brute force over two variables on [[1;2]] *)
Example C02_example : iterate (solve_bf 2) 5 [[1; 2]%Z] 2 = [[1; 2]; [1; -2]; [-1; 2]]%Z.
Proof. exact iterate_bf_or. Qed.
