(** C16 - Trial count follows the documented rules; every sequence has that length.

    The theorems are about the executable model of the trial-count arithmetic
    (Front/Trials.v: [trials_required] = MultiCrossBlockRepeat.__trials_required_for_crossing,
    [trials_for_crossings] = _trials_per_sample_for_crossing, [model_min_trials] =
    the MinimumTrials fold and rounding of Block.__init__, [model_trials] =
    trials_per_sample(), [model_preambles] = preamble_sizes) on the flat record
    of a block (Design/Flat.v).  harness/props/c16.py checks on every run that
    the real block computes literally the same numbers on generated designs of
    every shape, that the reported count equals the documented arithmetic
    (docsem.py), and that every sequence returned by every strategy has that
    many entries for every factor.

    Notation (Front/TrialsWf.v, Front/TrialsProofs.v):
      [fstart fb f]   window start of f (0 for a non-derived factor)
      [stride1 fb f]  f's window stride is 1 (the constructors reject other crossed factors)
      [sustain fb f]  f's sustain count (Nest: inner length for outer factors)
      [csustain fb c] crossing_sustain_count(c);  [cstart fb c] = max of [fstart] over c
      [crossing_need fb c S] = cstart * csustain + S
      [wf_trials fb]  one positive crossing size per crossing; every crossing non-empty,
                      its factors of stride 1 and of the crossing's positive sustain count
      [doc_need_own fb]  = max(1, max over crossings of crossing_need(c, size_c))
      [doc_need_post fb] = max(1, max over crossings of crossing_need(c, max size)). *)
From Coq Require Import ZArith List Bool Arith.
From SP Require Import Design.Flat Design.Layout Front.Trials Front.TrialsWf Front.TrialsProofs Front.TrialsExamples.
From SP Require Import Front.CreateFlat Front.CreateWf.
Import ListNotations.

(** The [while] loop: a factor of stride 1, window start [s] and sustain count [su]
    needs [s*su + size] trials for a crossing of [size] > 0 trials ... *)
Theorem C16_trials_required_closed :
  forall (fb : flat) (f size : nat),
    stride1 fb f -> 0 < sustain fb f -> 0 < size ->
    trials_required fb f size = Some (fstart fb f * sustain fb f + size).
Proof. exact trials_required_closed. Qed.
Print Assumptions C16_trials_required_closed.

(** ... and a non-derived factor exactly [size] (also for [size] = 0). *)
Theorem C16_trials_required_simple :
  forall (fb : flat) (f size : nat),
    not_derived fb f -> 0 < sustain fb f -> trials_required fb f size = Some size.
Proof. exact trials_required_simple. Qed.
Print Assumptions C16_trials_required_simple.

(** PARALLEL_START / EQUAL_PREAMBLE: the trial count is the rounded MinimumTrials or
    the largest need of a crossing (preamble groups * sustain + crossing size), at least 1. *)
Theorem C16_trials_formula :
  forall (fb : flat) (m : Z),
    wf_trials fb -> fl_alignment fb <> PostPreamble -> model_min_trials fb = Some m ->
    model_trials fb = Some (Z.max m (Z.of_nat (doc_need_own fb))).
Proof. exact model_trials_own. Qed.
Print Assumptions C16_trials_formula.

(** POST_PREAMBLE: every crossing is measured with the largest crossing size. *)
Theorem C16_trials_formula_post :
  forall (fb : flat) (m : Z),
    wf_trials fb -> fl_alignment fb = PostPreamble -> fl_crossings fb <> [] -> model_min_trials fb = Some m ->
    model_trials fb = Some (Z.max m (Z.of_nat (doc_need_post fb))).
Proof. exact model_trials_post. Qed.
Print Assumptions C16_trials_formula_post.

(** preamble_sizes: window start of the latest-starting crossed factor, in trials *)
Theorem C16_preambles :
  forall fb : flat,
    wf_trials fb ->
    model_preambles fb
    = Some (map (fun c => cstart fb c * csustain fb c) (map fst (combine (fl_crossings fb) (fl_sizes fb)))).
Proof. exact model_preambles_closed. Qed.
Print Assumptions C16_preambles.

(** The trial count is at least every positive MinimumTrials, at least the rounded
    minimum (which is at least the unrounded one), at least what the crossings need, and at least 1. *)
Theorem C16_trials_ge_min :
  forall (fb : flat) (T : Z),
    model_trials fb = Some T ->
    (forall n, In (FMinimumTrials n) (fl_constraints fb) -> (0 < n)%Z -> (n <= T)%Z) /\
    (exists m, model_min_trials fb = Some m /\ (min_trials_raw fb <= m)%Z /\ (m <= T)%Z) /\
    (exists t, trials_for_crossings fb = Some t /\ (Z.of_nat t <= T)%Z /\ (1 <= T)%Z).
Proof. exact model_trials_ge_min. Qed.
Print Assumptions C16_trials_ge_min.

(** [wf_trials] is decided by the executable check [wf_trials_b] that the harness
    runs on the flat record of every accepted design. *)
Theorem C16_wf_check_sound : forall fb : flat, wf_trials_b fb = true -> wf_trials fb.
Proof. exact wf_trials_b_sound. Qed.
Print Assumptions C16_wf_check_sound.

(** [wf_trials] is not only checked on the flat record of every real block: it holds of every record [fb] that
    the model of the constructor ([create_flat], Front/CreateFlat.v: [_create] with [Block.__init__], compared
    field by field with the real block on every run) builds from arguments [ci] satisfying the executable
    condition [input_ok] (Front/CreateWf.v: one exclusion count below the crossing size and one positive sustain
    count per non-empty crossing, crossed factors of stride 1, crossings sharing a factor have equal sustain
    counts, ...).  On such a record the trial count and the preamble sizes follow the documented formulas with
    no well-formedness hypothesis left. *)
Theorem C16_trials_of_created :
  forall (ci : create_input) (fb : flat),
    input_ok ci = true -> create_flat ci = FOk fb ->
    (forall m, fl_alignment fb <> PostPreamble -> model_min_trials fb = Some m ->
       model_trials fb = Some (Z.max m (Z.of_nat (doc_need_own fb)))) /\
    (forall m, fl_alignment fb = PostPreamble -> fl_crossings fb <> [] -> model_min_trials fb = Some m ->
       model_trials fb = Some (Z.max m (Z.of_nat (doc_need_post fb)))) /\
    model_preambles fb
    = Some (map (fun c => cstart fb c * csustain fb c) (map fst (combine (fl_crossings fb) (fl_sizes fb)))).
Proof.
  intros ci fb Hok Hc. pose proof (create_flat_wf_trials ci fb Hok Hc) as Hwf.
  exact (conj (fun m => model_trials_own fb m Hwf)
              (conj (fun m => model_trials_post fb m Hwf) (model_preambles_closed fb Hwf))).
Qed.
Print Assumptions C16_trials_of_created.

(** ... and the fields the constructor stores are those numbers: [preamble_sizes] is, per crossing, the latest
    window start among its factors in trials; [trials_per_sample()] is the larger of the rounded MinimumTrials
    ([min_trials]) and the largest need of a crossing. *)
Theorem C16_created_trial_count :
  forall (ci : create_input) (fb : flat),
    input_ok ci = true -> create_flat ci = FOk fb ->
    fl_preambles fb = map (fun c => cstart fb c * csustain fb c) (fl_crossings fb) /\
    (fl_alignment fb <> PostPreamble -> fl_trials fb = Nat.max (fl_min_trials fb) (doc_need_own fb)) /\
    (fl_alignment fb = PostPreamble -> fl_crossings fb <> [] -> fl_trials fb = Nat.max (fl_min_trials fb) (doc_need_post fb)).
Proof. exact created_fields. Qed.
Print Assumptions C16_created_trial_count.

(** the guard itself, for a created record *)
Theorem C16_wf_of_created :
  forall (ci : create_input) (fb : flat),
    input_ok ci = true -> create_flat ci = FOk fb -> wf_trials_b fb = true /\ wf_trials fb.
Proof. intros ci fb Hok Hc. exact (conj (create_flat_wf_trials_b ci fb Hok Hc) (create_flat_wf_trials ci fb Hok Hc)). Qed.
Print Assumptions C16_wf_of_created.

(** The condition that crossings sharing a factor have equal sustain counts is not enforced by the constructors:
      Merge([Nest(MultiCrossBlock([g, t], [[g, t]], [], alignment=PARALLEL_START), CrossBlock([h], [h], [])),
             MultiCrossBlock([g, t, k], [[t, k]], [], alignment=PARALLEL_START)])
    (t a transition factor on g) is accepted, t keeps the sustain count 1 of the last crossing it occurs in, the
    guard fails and the formula (10 trials, the count of the Nest alone) is not the trial count (9). *)
Example C16_shared_factor_two_sustain_counts_refuted :
  exists ci fb, create_flat ci = FOk fb /\ wf_trials_b fb = false /\ fl_alignment fb <> PostPreamble /\
    fl_trials fb = 9 /\ fl_preambles fb = [1; 0; 1] /\ doc_need_own fb = 10 /\ model_trials fb = Some 9%Z.
Proof. exact create_flat_trials_formula_inconsistent_sustain_refuted. Qed.

(** [input_ok] is met by the arguments of
    MultiCrossBlock([o, i, t], [[o, t], [i]], [MinimumTrials(7), AtMostKInARow(1, i)], mode=WEIGHT, alignment=PARALLEL_START)
    (t a transition factor on o): need 1*1 + 4 = 5, MinimumTrials 7, weights 2 and 4 *)
Example C16_example_created :
  input_ok ex_ok_input = true /\
  exists fb, create_flat ex_ok_input = FOk fb /\ fl_trials fb = 7 /\ doc_need_own fb = 5 /\
             fl_preambles fb = [1; 0] /\ fl_weights fb = [2; 4] /\ model_trials fb = Some 7%Z.
Proof. split; [exact ex_ok_input_ok|]. exists ex_ok_flat. split; [exact (proj2_sig ex_ok_created) | repeat split]. Qed.

(** The hypotheses are met by the flat record of
    Nest(MultiCrossBlock([o, t], [[o, t]], [], alignment=PARALLEL_START), CrossBlock([i], [i], []), [MinimumTrials(11)])
    (t a transition factor on o): need 1*2 + 8 = 10, MinimumTrials 11 rounded to 12. *)
Example C16_example_wf : wf_trials ex_nest /\ fl_alignment ex_nest <> PostPreamble.
Proof. split; [exact ex_nest_wf | discriminate]. Qed.

Example C16_example_numbers :
  trials_required ex_nest 2 8 = Some 10 /\ trials_required ex_nest 1 2 = Some 2 /\
  doc_need_own ex_nest = 10 /\ model_min_trials ex_nest = Some 12%Z /\ model_trials ex_nest = Some 12%Z /\
  model_preambles ex_nest = Some [2; 0].
Proof. repeat split; reflexivity. Qed.

Example C16_example_post :
  wf_trials ex_nest_post /\ fl_crossings ex_nest_post <> [] /\
  doc_need_post ex_nest_post = 10 /\ model_trials ex_nest_post = Some 12%Z.
Proof. split; [exact ex_nest_post_wf | split; [discriminate | split; reflexivity]]. Qed.
