(** C22 - Continuous factors respect their constraints, inputs and windows.

    Model: Out/Continuous.v ([_sample_continuous], [get_window_val],
    [check_constraints], the resample loop [sample_continuous] with explicit
    fuel, the merge of [synthesize_trials]: [synthesize_post]).  The user's
    distribution functions are an arbitrary parameter
    [gen name attempt trial inputs] (the stream of draws, indexed by the attempt
    number); predicates of ContinuousConstraints are arbitrary functions.
    Specification side (written from the documentation):
    Out/ContinuousProofs.v [skipped], [doc_window], [doc_dep_input],
    [value_spec], [experiment_ok]; Out/ContinuousLive.v [attempt] (what one pass
    of the loop body does with the draws of one attempt: [Accept out] /
    [Reject] / [Raise e]), [scan], [well_ordered], [constraints_wf];
    Out/Continuous.v [needed] (the continuous factors a dependent reads).

    SAFETY ([C22_continuous_spec], [C22_window_val_*], [C22_discrete_untouched]):
    "if [synthesize_post] returns [Ok], then ...".

    LIVENESS RELATIVE TO THE DRAWS ([C22_resample_*], [C22_synthesize_live]).
    The Python loop of [Block.sample_continuous] is UNBOUNDED.  It has a counter
    and [max_attempts = 10000000].  Past that it only prints "exceeds max
    attempts" (the [raise RuntimeError] is commented out) and keeps sampling.
    It never raises and never gives up by itself.  So the model's [fuel] is not
    a feature of the code but the bound of whoever runs it (the harness).  The
    model's [Err OutOfFuel] stands for "looping after [fuel] attempts".  A
    genuinely unbounded run is a runtime behaviour the model cannot exhibit.
    What is proved, for every design and every stream of draws:
      - the loop is a function of the stream of verdicts alone ([C22_resample_scan]);
      - if some attempt below the fuel is accepted and no attempt before it
        raises, the loop returns [Ok] - it does not exhaust the fuel - and what it
        returns is the FIRST accepted attempt ([C22_resample_live],
        [C22_resample_first], converse [C22_resample_returns_first]);
      - it gives up iff every attempt below the fuel was rejected
        ([C22_resample_none]), and a rejected attempt really violates a
        constraint at a trial ([C22_reject_sound]);
      - an attempt that raises before any accepted one ends the loop with that
        exception ([C22_resample_raise]); on well-ordered designs with well-formed
        constraints no attempt raises ([C22_attempt_total], [C22_resample_live_wf]).
    Whether an acceptable attempt exists at all depends on the distribution and
    the constraints.  It is a property of the stream, the hypothesis of the
    theorems.  With an unsatisfiable constraint the Python loop runs forever.

    THE DEPENDENCY CHECK [__check_dependency] of the constructor.
    The model follows the check of /repo after two commits.  Commit 91e3c5c is
    "fix: a continuous factor that depends only on discrete factors could not be
    a dependency of a later one".  Commit 97de4ab is "fix: continuous factors
    read through a window were not checked to be in the design".
    The check before them accepted c1 = f(ContinuousFactorWindow([c0], 2))
    declared before c0 or without c0 (KeyError while sampling).  It rejected
    c0 = f(color), c1 = g(c0), although every dependent is an earlier factor of
    the design, which the documentation allows.  Both were reproduced on the
    real code.  The two designs are [C22_example_witnesses_repaired].
    Proved of the check the model follows:
    - [C22_dependency_check_sound]: an accepted design never raises while
      sampling and yields T values per factor.
    - [C22_dependency_check_complete]: every design whose continuous dependents,
      direct or through windows, are earlier continuous factors of the design
      is accepted.
    - [C22_dependency_check_exact]: both together.
    - [C22_dependency_check_empty_window_refuted]: one degenerate input is
      accepted and raises, a window over an empty list of factors (replayed:
      IndexError). *)
From Coq Require Import ZArith List Bool String.
From SP Require Import Out.Continuous Out.ContinuousProofs Out.ContinuousLive Out.ContinuousDeps.
Import ListNotations.
Open Scope Z_scope.

(** For any distribution functions, any predicates, any number of factors,
    trials, experiments and attempts: every returned experiment [m] (paired
    with the discrete sample [tr] it was merged into) has, for the accepted
    attempt [att], exactly [T] values per continuous factor, satisfies every
    ContinuousConstraint predicate at every trial, and each value is the
    distribution function applied to the documented inputs of the same trial of
    the same returned sequence ([doc_dep_input]: the discrete level / the
    continuous value of that trial / the documented window [doc_window] of [m]);
    in cumulative mode the function result is added to the previous value of
    the same sequence (0 before the first trial). *)
Theorem C22_continuous_spec :
  forall (gen : string -> nat -> nat -> list input -> val)
         (T : nat) (fs : list cfactor) (cs : list bconstraint) (fuel : nat)
         (trialss : list dict) (res : list (dict * nat)) (log : list call),
  fs <> [] -> NoDup (map cf_name fs) ->
  synthesize_post gen T fs cs fuel trialss = Ok (res, log) ->
  Forall2
    (fun (tr : dict) (ma : dict * nat) =>
       let m := fst ma in
       exists att, snd ma = S att /\
         (forall f, In f fs -> exists vs, get m (cf_name f) = Some vs /\ List.length vs = T) /\
         (forall c, In c (continuous_constraints cs) -> forall i, (i < T)%nat ->
            cc_pred c (map (fun n => nth i (getd m n) VNaN) (cc_factors c)) = true) /\
         (forall f, In f fs -> forall i, (i < T)%nat ->
            let vs := getd m (cf_name f) in
            let r := gen (cf_name f) att i (map (doc_dep_input tr m i) (cf_deps f)) in
            if cf_cumulative f then add_val (prev_sum vs i) r = Ok (nth i vs VNaN)
            else nth i vs VNaN = r))
    trialss res.
Proof. exact continuous_spec. Qed.
Print Assumptions C22_continuous_spec.

(** [get_window_val] per index, for one factor whose values so far are [l]:
    the result is [doc_window]; it is NaN-filled iff [idx < start] or the
    stride skips [idx] (and then nothing is read); otherwise entry [-k] is the
    value [k] trials earlier in the same sequence, NaN exactly for the positions
    before trial 0, which exist iff [idx < width - 1]; else it is the [width]
    preceding values. *)
Theorem C22_window_val_spec : forall w idx d f l,
  0 <= idx -> get d f = Some l -> idx < Z.of_nat (List.length l) ->
  window_factor w idx d f = Ok (doc_window w idx l) /\
  List.length (doc_window w idx l) = Z.to_nat (w_width w) /\
  (skipped w idx = true <->
   idx < w_start w \/ (1 < w_stride w /\ (idx - w_start w) mod (w_stride w) <> 0)) /\
  (skipped w idx = true ->
   doc_window w idx l = return_nan w /\ forall d' f', window_factor w idx d' f' = Ok (return_nan w)) /\
  (skipped w idx = false -> forall k, 0 <= k < w_width w ->
   nth_error (doc_window w idx l) (Z.to_nat k)
   = Some (- k, if idx - k <? 0 then VNaN else nth (Z.to_nat (idx - k)) l VNaN)) /\
  ((exists k, 0 <= k < w_width w /\ idx - k < 0) <-> idx < w_width w - 1).
Proof.
  intros w idx d f l Hidx Hg Hlt. repeat split.
  - now apply window_factor_total.
  - apply doc_window_length.
  - apply skipped_true_iff.
  - apply skipped_true_iff.
  - now apply doc_window_skipped.
  - intros d' f'. now apply window_factor_skipped.
  - intros Hs k Hk. rewrite doc_window_nth by auto. now rewrite Hs.
  - apply partial_iff; auto.
  - apply partial_iff; auto.
Qed.
Print Assumptions C22_window_val_spec.

(** One dict for a window over a single factor, the list of dicts for several,
    IndexError for a window without factors. *)
Theorem C22_window_val_shape : forall w idx d,
  0 <= idx ->
  (forall f, In f (w_factors w) -> exists l, get d f = Some l /\ idx < Z.of_nat (List.length l)) ->
  get_window_val w idx d =
  match w_factors w with
  | [] => Err IndexError
  | [f] => Ok (IWin (doc_window w idx (getd d f)))
  | fs => Ok (IWins (map (fun f => doc_window w idx (getd d f)) fs))
  end.
Proof. exact window_val_shape. Qed.
Print Assumptions C22_window_val_shape.

(** The merge changes no discrete column: every key that is not the name of a
    continuous factor has the column the sampler produced; if no continuous
    factor is named like a key of the sample, the returned dict is literally
    the sample followed by the continuous columns in design order. *)
Theorem C22_discrete_untouched :
  forall (gen : string -> nat -> nat -> list input -> val)
         (T : nat) (fs : list cfactor) (cs : list bconstraint) (fuel : nat)
         (trialss : list dict) (res : list (dict * nat)) (log : list call),
  NoDup (map cf_name fs) ->
  synthesize_post gen T fs cs fuel trialss = Ok (res, log) ->
  Forall2
    (fun (tr : dict) (ma : dict * nat) =>
       (forall k, ~ In k (map cf_name fs) -> get (fst ma) k = get tr k) /\
       ((forall k, In k (map cf_name fs) -> get tr k = None) ->
        exists out, fst ma = tr ++ out /\ map fst out = map cf_name fs))
    trialss res.
Proof. exact discrete_untouched. Qed.
Print Assumptions C22_discrete_untouched.

(** * The resample loop: liveness relative to the stream of draws *)

(** The loop is a function of the stream of verdicts [fun a => attempt ... a]
    alone: [scan] returns the first attempt that is not rejected. *)
Theorem C22_resample_scan :
  forall (gen : string -> nat -> nat -> list input -> val)
         (T : nat) (trial : dict) (fs : list cfactor) (cs : list bconstraint) (fuel a : nat) (log : list call),
  (match sample_continuous gen T trial fs cs fuel a log with
   | Ok (out, a', _) => Ok (out, a')
   | Err e => Err e
   end) = scan (attempt gen T trial fs cs) fuel a.
Proof. exact resample_scan. Qed.
Print Assumptions C22_resample_scan.

(** Liveness: for every design and draw stream, if some attempt [a + n] with
    [n < fuel] yields values satisfying every constraint and no earlier attempt
    raises, the loop returns [Ok] (it does not exhaust the fuel), and it returns
    the first accepted attempt [a + n0]: everything before it was rejected. *)
Theorem C22_resample_live :
  forall (gen : string -> nat -> nat -> list input -> val)
         (T : nat) (trial : dict) (fs : list cfactor) (cs : list bconstraint) (fuel a : nat) (log : list call),
  (exists n, (n < fuel)%nat /\ (exists out, attempt gen T trial fs cs (a + n) = Accept out) /\
             forall m, (m < n)%nat -> forall e, attempt gen T trial fs cs (a + m) <> Raise e) ->
  exists n0 out log', (n0 < fuel)%nat /\
    attempt gen T trial fs cs (a + n0) = Accept out /\
    (forall m, (m < n0)%nat -> attempt gen T trial fs cs (a + m) = Reject) /\
    sample_continuous gen T trial fs cs fuel a log = Ok (out, S (a + n0), log').
Proof. exact resample_live. Qed.
Print Assumptions C22_resample_live.

(** The first accepted attempt is what the loop returns (so the result is a
    deterministic function of the stream) ... *)
Theorem C22_resample_first :
  forall (gen : string -> nat -> nat -> list input -> val)
         (T : nat) (trial : dict) (fs : list cfactor) (cs : list bconstraint) (fuel a : nat) (log : list call)
         (n : nat) (out : dict),
  (n < fuel)%nat ->
  (forall m, (m < n)%nat -> attempt gen T trial fs cs (a + m) = Reject) ->
  attempt gen T trial fs cs (a + n) = Accept out ->
  exists log', sample_continuous gen T trial fs cs fuel a log = Ok (out, S (a + n), log').
Proof. exact resample_first. Qed.
Print Assumptions C22_resample_first.

(** ... and whatever the loop returns is the first accepted attempt. *)
Theorem C22_resample_returns_first :
  forall (gen : string -> nat -> nat -> list input -> val)
         (T : nat) (trial : dict) (fs : list cfactor) (cs : list bconstraint) (fuel a : nat) (log : list call)
         (out : dict) (a' : nat) (log' : list call),
  sample_continuous gen T trial fs cs fuel a log = Ok (out, a', log') ->
  exists n, (n < fuel)%nat /\ a' = S (a + n) /\ attempt gen T trial fs cs (a + n) = Accept out /\
            forall m, (m < n)%nat -> attempt gen T trial fs cs (a + m) = Reject.
Proof. exact resample_ok_inv. Qed.
Print Assumptions C22_resample_returns_first.

(** The model gives up iff every attempt below the fuel was rejected: if it
    returns "none" no attempt below the fuel was acceptable (nor raised). *)
Theorem C22_resample_none :
  forall (gen : string -> nat -> nat -> list input -> val)
         (T : nat) (trial : dict) (fs : list cfactor) (cs : list bconstraint) (fuel a : nat) (log : list call),
  sample_continuous gen T trial fs cs fuel a log = Err OutOfFuel <->
  forall m, (m < fuel)%nat -> attempt gen T trial fs cs (a + m) = Reject.
Proof. exact resample_none. Qed.
Print Assumptions C22_resample_none.

(** A rejected attempt violates a ContinuousConstraint at some trial of the
    values it sampled: the loop discards nothing acceptable. *)
Theorem C22_reject_sound :
  forall (gen : string -> nat -> nat -> list input -> val)
         (T : nat) (trial : dict) (fs : list cfactor) (cs : list bconstraint) (a : nat),
  NoDup (map cf_name fs) ->
  attempt gen T trial fs cs a = Reject ->
  exists out log c i, _sample_continuous gen T trial fs a [] = Ok (out, log) /\
    In c (continuous_constraints cs) /\ (i < T)%nat /\
    cc_pred c (map (fun n => nth i (getd out n) VNaN) (cc_factors c)) = false.
Proof. exact reject_sound. Qed.
Print Assumptions C22_reject_sound.

(** An attempt that raises before any accepted one ends the loop with that
    exception (as in Python, where it propagates out of [sample_continuous]). *)
Theorem C22_resample_raise :
  forall (gen : string -> nat -> nat -> list input -> val)
         (T : nat) (trial : dict) (fs : list cfactor) (cs : list bconstraint) (fuel a : nat) (log : list call)
         (n : nat) (e : err),
  (n < fuel)%nat ->
  (forall m, (m < n)%nat -> attempt gen T trial fs cs (a + m) = Reject) ->
  attempt gen T trial fs cs (a + n) = Raise e ->
  sample_continuous gen T trial fs cs fuel a log = Err e.
Proof. exact resample_raise. Qed.
Print Assumptions C22_resample_raise.

(** On a well-ordered design (discrete dependents are columns of the sample,
    continuous dependents and the factors of non-empty windows are earlier
    factors) with well-formed constraints (non-empty, over continuous factors of
    the design) no attempt raises - in cumulative mode as long as the function
    returns no string. *)
Theorem C22_attempt_total :
  forall (gen : string -> nat -> nat -> list input -> val)
         (T : nat) (trial : dict) (fs : list cfactor) (cs : list bconstraint) (a : nat),
  NoDup (map cf_name fs) -> well_ordered T trial fs -> constraints_wf fs cs ->
  (forall f, In f fs -> cf_cumulative f = true -> forall a i inp t, gen (cf_name f) a i inp <> VStr t) ->
  forall e, attempt gen T trial fs cs a <> Raise e.
Proof. exact attempt_total. Qed.
Print Assumptions C22_attempt_total.

(** ... hence on such designs: some acceptable attempt below the fuel ->
    the loop returns the first acceptable attempt. *)
Theorem C22_resample_live_wf :
  forall (gen : string -> nat -> nat -> list input -> val)
         (T : nat) (trial : dict) (fs : list cfactor) (cs : list bconstraint) (fuel a : nat) (log : list call),
  NoDup (map cf_name fs) -> well_ordered T trial fs -> constraints_wf fs cs ->
  (forall f, In f fs -> cf_cumulative f = true -> forall a i inp t, gen (cf_name f) a i inp <> VStr t) ->
  (exists n out, (n < fuel)%nat /\ attempt gen T trial fs cs (a + n) = Accept out) ->
  exists n0 out log', (n0 < fuel)%nat /\
    attempt gen T trial fs cs (a + n0) = Accept out /\
    (forall m, (m < n0)%nat -> attempt gen T trial fs cs (a + m) = Reject) /\
    sample_continuous gen T trial fs cs fuel a log = Ok (out, S (a + n0), log').
Proof. exact resample_live_wf. Qed.
Print Assumptions C22_resample_live_wf.

(** The continuous part of [synthesize_trials] returns when, for every sampled
    sequence, every run of [fuel] consecutive attempts holds an accepted one with
    no raising attempt before it. *)
Theorem C22_synthesize_live :
  forall (gen : string -> nat -> nat -> list input -> val)
         (T : nat) (fs : list cfactor) (cs : list bconstraint) (fuel : nat) (trialss : list dict),
  (forall tr a0, In tr trialss ->
     exists n, (n < fuel)%nat /\ (exists out, attempt gen T tr fs cs (a0 + n) = Accept out) /\
               forall m, (m < n)%nat -> forall e, attempt gen T tr fs cs (a0 + m) <> Raise e) ->
  exists res log, synthesize_post gen T fs cs fuel trialss = Ok (res, log).
Proof. exact synth_live. Qed.
Print Assumptions C22_synthesize_live.

(** * The dependency check of the constructor *)

(** EXACTLY what [__check_dependency] accepts: every continuous factor [n] a
    factor needs - a direct ContinuousFactor dependent, or a factor of one of its
    windows ([needed]) - is an earlier continuous factor of the design. *)
Theorem C22_dependency_check_exact : forall fs,
  check_dependency fs = true <->
  forall pre f post d n, fs = pre ++ f :: post -> In d (cf_deps f) -> In n (needed d) ->
    In n (map cf_name pre).
Proof. exact dependency_check_exact. Qed.
Print Assumptions C22_dependency_check_exact.

(** Corollary: a direct continuous dependent of an accepted design is an
    earlier factor of the design. *)
Theorem C22_dependency_check_direct : forall fs pre f post n,
  check_dependency fs = true -> fs = pre ++ f :: post -> In (DCont n) (cf_deps f) ->
  In n (map cf_name pre) \/ n = cf_name f.
Proof. exact dependency_check_partial. Qed.
Print Assumptions C22_dependency_check_direct.

(** SOUND: an accepted design never raises while sampling and yields [T]
    values per factor.  Each hypothesis is necessary: distinct names; no window over an empty list of factors (see
    [C22_dependency_check_empty_window_refuted]); the discrete dependents are
    columns of the sampled trials (the block's design, not this check); in
    cumulative mode the function returns no string. *)
Theorem C22_dependency_check_sound :
  forall (gen : string -> nat -> nat -> list input -> val)
         (T : nat) (trial : dict) (fs : list cfactor) (a : nat) (log : list call),
  NoDup (map cf_name fs) -> check_dependency fs = true ->
  (forall f w, In f fs -> In (DWin w) (cf_deps f) -> w_factors w <> []) ->
  (forall f n, In f fs -> In (DDisc n) (cf_deps f) -> exists l, get trial n = Some l /\ (T <= List.length l)%nat) ->
  (forall f, In f fs -> cf_cumulative f = true -> forall a i inp t, gen (cf_name f) a i inp <> VStr t) ->
  exists out log', _sample_continuous gen T trial fs a log = Ok (out, log') /\
    forall f, In f fs -> exists vs, get out (cf_name f) = Some vs /\ List.length vs = T.
Proof. exact dependency_check_sound. Qed.
Print Assumptions C22_dependency_check_sound.

(** ... and with well-formed constraints no attempt of the resample loop raises
    on an accepted design (so [C22_resample_live] applies with its "no earlier
    attempt raises" hypothesis discharged). *)
Theorem C22_accepted_attempt_total :
  forall (gen : string -> nat -> nat -> list input -> val)
         (T : nat) (trial : dict) (fs : list cfactor) (cs : list bconstraint) (a : nat),
  NoDup (map cf_name fs) -> check_dependency fs = true ->
  (forall f w, In f fs -> In (DWin w) (cf_deps f) -> w_factors w <> []) ->
  (forall f n, In f fs -> In (DDisc n) (cf_deps f) -> exists l, get trial n = Some l /\ (T <= List.length l)%nat) ->
  (forall f, In f fs -> cf_cumulative f = true -> forall a i inp t, gen (cf_name f) a i inp <> VStr t) ->
  constraints_wf fs cs ->
  forall e, attempt gen T trial fs cs a <> Raise e.
Proof. exact accepted_attempt_total. Qed.
Print Assumptions C22_accepted_attempt_total.

(** COMPLETE: every design whose continuous dependents, direct or through windows, are earlier continuous factors of the
    design is accepted. *)
Theorem C22_dependency_check_complete : forall fs,
  (forall pre f post n, fs = pre ++ f :: post -> In (DCont n) (cf_deps f) -> In n (map cf_name pre)) ->
  (forall pre f post w g, fs = pre ++ f :: post -> In (DWin w) (cf_deps f) -> In g (w_factors w) ->
     In g (map cf_name pre)) ->
  check_dependency fs = true.
Proof. exact dependency_check_complete. Qed.
Print Assumptions C22_dependency_check_complete.

(** Statement that is FALSE: "an accepted design never raises while
    sampling" without the hypothesis on windows.  Witness:
    c0 = f(ContinuousFactorWindow([], 2)): accepted, [get_window_val] raises
    IndexError ([outlist[0]]).  Replayed on the code: the CrossBlock is
    constructed, synthesize_trials raises IndexError('list index out of range'). *)
Theorem C22_dependency_check_empty_window_refuted :
  exists fs T trial, NoDup (map cf_name fs) /\ check_dependency fs = true /\
    forall gen a, _sample_continuous gen T trial fs a [] = Err IndexError.
Proof. exact dependency_check_empty_window_refuted. Qed.
Print Assumptions C22_dependency_check_empty_window_refuted.

(** The two designs that the check got wrong before 91e3c5c and 97de4ab: the
    window over a later factor is rejected by the constructor (sampling it would
    raise KeyError); the chain c0 = f(color), c1 = g(c0) is accepted and sampled. *)
Example C22_example_witnesses_repaired :
  (NoDup (map cf_name later_window_design) /\ check_dependency later_window_design = false /\
   forall gen a, _sample_continuous gen 2 [] later_window_design a [] = Err KeyError) /\
  (NoDup (map cf_name chain_design) /\ check_dependency chain_design = true /\
   exists out log, _sample_continuous (fun _ _ _ _ => VNum 1) 2 [("color"%string, [VStr "r"; VStr "b"])]
                                      chain_design O [] = Ok (out, log)).
Proof. split; [exact later_window_design_rejected|exact chain_design_accepted]. Qed.

(** The hypotheses are satisfiable by a non-trivial object: four continuous
    factors (independent; window of width 2; cumulative; discrete + continuous
    dependents), a ContinuousConstraint that rejects the first attempt, two
    experiments of three trials. *)
Example C22_example_runs :
  ex_fs <> [] /\ NoDup (map cf_name ex_fs) /\
  exists log, synthesize_post ex_gen 3 ex_fs ex_cs 5 ex_trials = Ok (ex_result, log).
Proof. split; [discriminate|]. split; [exact ex_names_nodup|exact ex_runs]. Qed.

(** The hypotheses of the liveness / totality / dependency theorems hold of the
    same design: it is well ordered, its constraint is well formed, its functions
    return no string, the dependency check accepts it; on the first sampled
    sequence attempt 0 is rejected and attempt 1 accepted - so with fuel 5 the
    loop returns attempt 1. *)
Example C22_example_live :
  (forall tr, In tr ex_trials -> well_ordered 3 tr ex_fs) /\ constraints_wf ex_fs ex_cs /\
  (forall name a i inp t, ex_gen name a i inp <> VStr t) /\
  check_dependency ex_fs = true /\
  attempt ex_gen 3 (hd [] ex_trials) ex_fs ex_cs 0 = Reject /\
  exists out, attempt ex_gen 3 (hd [] ex_trials) ex_fs ex_cs 1 = Accept out.
Proof.
  split; [exact ex_well_ordered|]. split; [exact ex_constraints_wf|]. split; [exact ex_gen_nostr|].
  split; [exact ex_check_dependency|].
  split; [exact (proj1 ex_attempts)|]. eexists. exact (proj2 ex_attempts).
Qed.

Example C22_example_window :
  (* width 3, stride 2, start 1 over rt = 10, 11, 12, 13 *)
  map (fun idx => get_window_val ex_window idx ex_dict) [0; 1; 2; 3]
  = [ Ok (IWin [(0, VNaN); (-1, VNaN); (-2, VNaN)]);          (* before start *)
      Ok (IWin [(0, VNum 11); (-1, VNum 10); (-2, VNaN)]);    (* reaches before trial 0 *)
      Ok (IWin [(0, VNaN); (-1, VNaN); (-2, VNaN)]);          (* skipped by the stride *)
      Ok (IWin [(0, VNum 13); (-1, VNum 12); (-2, VNum 11)]) ].
Proof. reflexivity. Qed.
