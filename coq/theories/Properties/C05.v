(** C05 - RandomGen samples uniformly: one candidate per valid sequence.

    RandomGen draws a key uniformly from [keys_of fb] (every component of a key
    is an independent uniform draw from a range, model Random/Enum.v, compared
    with the real [UCSolutionEnumerator] on every run: layer L8), decodes it and
    keeps it iff the rejection test accepts.  Uniformity over the valid
    sequences is therefore: the accepted keys and the valid sequences are in
    bijection.

    Full statements (every design RandomGen accepts):

      injectivity:  In k1 (keys_of fb) -> In k2 (keys_of fb) -> decode_key fb k1 = Some c1 ->
                    decode_key fb k2 = Some c2 -> tseq_of_run fb c1 = tseq_of_run fb c2 -> k1 = k2
      completeness: fl_errors_fail fb = false -> valid_b (code_sem fb) s = true ->
                    exists k cand, In k (keys_of fb) /\ decode_key fb k = Some cand /\
                                   accepts fb cand = true /\ tseq_of_run fb cand = s
      (with the C04 statement of Properties/C04.v: accepted candidates are valid)

    What is proved is both statements for the fragment [Frag.frag1] (see
    Properties/C04.v for the fragment and for what is missing):
    [C05_cand_inj_partial] and [C05_accept_complete_partial].  The injectivity
    is the product of the C13 bijections [C13_perm_prefix_bij] (the order of the
    crossing combinations in a round) and [C13_comb_bij] (the levels of each
    independent factor in a round); the theorems of Comb/PermProofs.v and
    Comb/RadixProofs.v are used directly, none is assumed.  With rejection (user
    constraints), the completeness statement says that the key of every valid
    sequence passes the rejection test.  For weighted levels of factors outside
    every crossing the library itself documents a multiplicity > 1 per name-level
    sequence ([designrun.name_multiplicity]); the theorems compare level index
    sequences (the reference semantics [code_sem]), not names.

    [C05_cand_inj_frag2] and [C05_accept_complete_frag2] are the same with
    weights ([Frag.frag2], see Properties/C04.v).  The order of a round is then a
    word with bounded repetitions and the bijection is [C13_prefix_copies_bij].
    The model's memoised unranker is tied to it by [C13_stack_count_refines] /
    [C13_stack_unrank_refines] / [C13_count_dispatch_refines] and the C13
    totality theorems ([C13_count_dispatch_total], [C13_unrank_dispatch_total],
    [C13_stack_unrank_total]): the enumerator and its key list are always
    defined ([C05_enumerates]; [FragSem.enumerates]). *)
From Coq Require Import List.
From SP Require Import Design.Flat Design.Sem Random.Enum Random.Frag Random.FragSem Random.Frag2Thms Random.Frag1Thms
  Random.Frag0Example.

Theorem C05_cand_inj_partial : forall (fb : flat), frag1 fb = true ->
  forall (k1 k2 : key) (c1 c2 : candidate),
  In k1 (keys_of fb) -> In k2 (keys_of fb) ->
  decode_key fb k1 = Some c1 -> decode_key fb k2 = Some c2 ->
  tseq_of_run fb c1 = tseq_of_run fb c2 -> k1 = k2.
Proof. exact f1_cand_inj. Qed.
Print Assumptions C05_cand_inj_partial.

(** the keys themselves are pairwise distinct *)
Theorem C05_keys_nodup_partial : forall (fb : flat), frag1 fb = true -> NoDup (keys_of fb).
Proof. exact f1_keys_nodup. Qed.
Print Assumptions C05_keys_nodup_partial.

Theorem C05_accept_complete_partial : forall (fb : flat), frag1 fb = true ->
  forall (s : tseq), fl_errors_fail fb = false -> valid_b (code_sem fb) s = true ->
  exists (k : key) (cand : candidate),
    In k (keys_of fb) /\ decode_key fb k = Some cand /\ accepts fb cand = true /\ tseq_of_run fb cand = s.
Proof. exact f1_accept_complete. Qed.
Print Assumptions C05_accept_complete_partial.

(** the hypotheses are satisfiable by a non-trivial design: 108 keys, 108 valid sequences *)
Example C05_example :
  frag0 ex_flat = true /\ fl_errors_fail ex_flat = false /\ length (keys_of ex_flat) = 108 /\
  length (all_valid (code_sem ex_flat)) = 108 /\ check_inj ex_flat = true /\ check_complete ex_flat = true.
Proof.
  destruct ex_checks as (_ & I & C & _).
  split; [exact ex_frag0|]. split; [reflexivity|]. split; [exact ex_keys|]. split; [exact ex_valid_count|].
  split; [exact I | exact C].
Qed.
Example C05_example_rejection :
  frag1 ex1_flat = true /\ frag0 ex1_flat = false /\ length (accepted_keys ex1_flat) = 12 /\
  length (all_valid (code_sem ex1_flat)) = 12 /\ check_inj ex1_flat = true /\ check_complete ex1_flat = true.
Proof.
  destruct ex1_frag as (F1 & F0 & _). destruct ex1_keys as (_ & A & V). destruct ex1_checks as (_ & I & C & _).
  split; [exact F1|]. split; [exact F0|]. split; [exact A|]. split; [exact V|]. split; [exact I | exact C].
Qed.

(** with weights (fragment [Frag.frag2]) *)
Theorem C05_cand_inj_frag2 : forall (fb : flat), frag2 fb = true ->
  forall (k1 k2 : key) (c1 c2 : candidate),
  In k1 (keys_of fb) -> In k2 (keys_of fb) ->
  decode_key fb k1 = Some c1 -> decode_key fb k2 = Some c2 ->
  cand_seq fb c1 = cand_seq fb c2 -> k1 = k2.
Proof. exact f2_cand_inj. Qed.
Print Assumptions C05_cand_inj_frag2.

Theorem C05_keys_nodup_frag2 : forall (fb : flat), frag2 fb = true -> NoDup (keys_of fb).
Proof. exact f2_keys_nodup. Qed.
Print Assumptions C05_keys_nodup_frag2.

Theorem C05_accept_complete_frag2 : forall (fb : flat), frag2 fb = true ->
  forall (s : tseq), fl_errors_fail fb = false -> valid_b (code_sem fb) s = true ->
  exists (k : key) (cand : candidate),
    In k (keys_of fb) /\ decode_key fb k = Some cand /\ accepts fb cand = true /\ cand_seq fb cand = s.
Proof. exact f2_accept_complete. Qed.
Print Assumptions C05_accept_complete_frag2.

(** the enumerator and the key list of the model are defined on the whole fragment *)
Theorem C05_enumerates : forall (fb : flat), frag2 fb = true -> enumerates fb.
Proof. exact f2_enumerates. Qed.
Print Assumptions C05_enumerates.
Theorem C05_enumerates_unweighted : forall (fb : flat), frag1 fb = true -> enumerates fb.
Proof. exact f1_enumerates. Qed.
Print Assumptions C05_enumerates_unweighted.
Theorem C05_enumerates_decidable : forall (fb : flat), enumerates_b fb = true -> enumerates fb.
Proof. exact enumerates_b_spec. Qed.
Print Assumptions C05_enumerates_decidable.

Example C05_example_weighted :
  frag2 ex3_flat = true /\ frag1 ex3_flat = false /\ enumerates_b ex3_flat = true /\ length (accepted_keys ex3_flat) = 32 /\
  length (all_valid (code_sem ex3_flat)) = 32 /\ check_inj ex3_flat = true /\ check_complete ex3_flat = true.
Proof.
  split; [exact ex3_frag2|]. split; [exact ex3_frag1|]. split; [exact ex3_enum|]. split; [exact ex3_nacc|]. split; [exact ex3_nvalid|].
  split; [exact ex3_inj | exact ex3_complete].
Qed.

Example C05_example_multicross :
  frag2 ex4_flat = true /\ frag1 ex4_flat = false /\ enumerates_b ex4_flat = true /\ length (accepted_keys ex4_flat) = 36 /\
  length (all_valid (code_sem ex4_flat)) = 36 /\ check_inj ex4_flat = true /\ check_complete ex4_flat = true.
Proof.
  split; [exact ex4_frag2|]. split; [exact ex4_frag1|]. split; [exact ex4_enum|]. split; [exact ex4_nacc|]. split; [exact ex4_nvalid|].
  split; [exact ex4_inj | exact ex4_complete].
Qed.

Example C05_example_implied :
  frag2 ex5_flat = true /\ frag1 ex5_flat = false /\ enumerates_b ex5_flat = true /\ length (keys_of ex5_flat) = 6 /\
  length (all_valid (code_sem ex5_flat)) = 6 /\ check_inj ex5_flat = true /\ check_complete ex5_flat = true.
Proof.
  split; [exact ex5_frag2|]. split; [exact ex5_frag1|]. split; [exact ex5_enum|]. split; [exact ex5_nkeys|]. split; [exact ex5_nvalid|].
  split; [exact ex5_inj | exact ex5_complete].
Qed.

(** a derived factor in the sampled crossing: 96 candidates = 96 valid sequences; with an excluded source level 24 of 96 *)
Example C05_example_derived :
  frag2 ex6_flat = true /\ has_derived ex6_flat = true /\ enumerates_b ex6_flat = true /\ length (keys_of ex6_flat) = 96 /\
  length (all_valid (code_sem ex6_flat)) = 96 /\ check_inj ex6_flat = true /\ check_complete ex6_flat = true /\
  length (accepted_keys ex7_flat) = 24 /\ length (all_valid (code_sem ex7_flat)) = 24 /\ check_complete ex7_flat = true.
Proof.
  split; [exact ex6_frag2|]. split; [exact ex6_derived|]. split; [exact ex6_enum|]. split; [exact ex6_nkeys|]. split; [exact ex6_nvalid|].
  split; [exact ex6_inj|]. split; [exact ex6_complete|]. split; [exact ex7_nacc|]. split; [exact ex7_nvalid | exact ex7_complete].
Qed.

(** a nested design (sustained outer crossing): 8 accepted candidates = 8 valid sequences *)
Example C05_example_nested :
  frag2 ex8_flat = true /\ enumerates_b ex8_flat = true /\ length (accepted_keys ex8_flat) = 8 /\
  length (all_valid (code_sem ex8_flat)) = 8 /\ check_inj ex8_flat = true /\ check_complete ex8_flat = true.
Proof.
  split; [exact ex8_frag2|]. split; [exact ex8_enum|]. split; [exact ex8_nacc|]. split; [exact ex8_nvalid|].
  split; [exact ex8_inj | exact ex8_complete].
Qed.

(** a derived factor of [act_design] outside the sampled crossing: 12 accepted candidates = 12 valid sequences *)
Example C05_example_uncrossed_derived :
  frag2 ex9_flat = true /\ enumerates_b ex9_flat = true /\ length (accepted_keys ex9_flat) = 12 /\
  length (all_valid (code_sem ex9_flat)) = 12 /\ check_inj ex9_flat = true /\ check_complete ex9_flat = true.
Proof.
  split; [exact ex9_frag2|]. split; [exact ex9_enum|]. split; [exact ex9_nacc|]. split; [exact ex9_nvalid|].
  split; [exact ex9_inj | exact ex9_complete].
Qed.
