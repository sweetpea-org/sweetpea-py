(** C24 - Documented block-combinator equivalences hold.

    The theorems are about Front/Create.v, the model of what the constructors
    CrossBlock / MultiCrossBlock / Repeat / Merge / Nest hand to
    MultiCrossBlockRepeat._create as a function of the attributes they read from
    their argument blocks ([binfo]).  [_create] reads nothing else, so equal
    arguments give equal blocks.  A constraint handed to [_create] either carries no
    [within_block] geometry yet (a user's object; [_create] initialises its private copy with
    the new block's geometry, the object itself stays as it is) or carries the geometry of the
    block it comes from ([orig_constraints] of an argument block): for Repeat(b, []) = b and
    Merge([b]) = b the arguments of the two sides differ in exactly that respect
    (C24_repeat_nil_created, C24_merge_singleton_created) while the resulting blocks agree
    (C24_repeat_nil_flat, C24_merge_singleton_flat).  harness/props/c24.py checks on every run that
    the real constructors pass literally what the model says, that the two sides
    of each documented equivalence pass equal arguments wherever the side
    conditions below hold on the real blocks, and that the exhausted solution
    sets of both sides are equal.

    Side conditions and what "equal" means:
      [not_desugared b]      b.design = b.orig_design and b.crossings = b.orig_crossings
                             (no weighted non-derived factor outside every crossing of b);
                             Repeat passes orig_design, Merge passes design
      [aligned b]            b has one sustain count and one weight per crossing (Merge and
                             Nest pass crossing_sustain_counts[:len(crossings)], Repeat all of them;
                             they differ when [_create] dropped an empty crossing of b)
      [same_but_constraints] every field of the arguments except the constraint
                             list, which is equal up to order (Repeat: block's
                             constraints first; Merge: its own first)
      [norm_crossings]       the crossings after [_create] dropped empty ones
      [is_cross_leaf design rcc c b]
                             b is what CrossBlock(design, c, [], rcc) is after
                             [_create] when no weight desugaring happens
    Where a side condition fails the equivalence fails on the real code too
    (c24.py findings): see [C24_repeat_merge_alignment] and [C24_multicross_merge_alignment]. *)
From Coq Require Import ZArith List Bool Arith Permutation.
From SP Require Import Design.Flat Design.Sem Front.Trials Front.TrialsProofs Front.Create Front.CreateProofs Front.CreateSem
  Front.CreateFlat Front.CreateFlatProofs.
Import ListNotations.

(** CrossBlock(design, crossing, cs, rcc) = MultiCrossBlock(design, [crossing], cs, rcc, WEIGHT): identical arguments. *)
Theorem C24_cross_eq_multicross_weight :
  forall design crossing cs rcc,
    create_of (BCross design crossing cs rcc) = create_of (BMulti design [crossing] cs rcc MWeight EqualPreamble).
Proof. exact cross_eq_multicross_weight. Qed.
Print Assumptions C24_cross_eq_multicross_weight.

(** Repeat(block, cs) = Merge([block], cs, REPEAT, EQUAL_PREAMBLE), for a block aligned
    EQUAL_PREAMBLE and built without weight desugaring: same arguments, constraints permuted. *)
Theorem C24_repeat_eq_merge :
  forall b cs,
    bi_multicross b = true -> bi_alignment b = EqualPreamble -> not_desugared b -> aligned b -> NoDup (bi_design b) ->
    exists r m,
      create_of (BRepeat b cs) = COk r /\
      create_of (BMerge [b] cs MRepeat (Some EqualPreamble)) = COk m /\
      same_but_constraints r m /\
      Permutation (ca_constraints r) (ca_constraints m).
Proof. exact repeat_eq_merge. Qed.
Print Assumptions C24_repeat_eq_merge.

(** ... and for a block with any other alignment Repeat builds while the documented Merge call is rejected. *)
Theorem C24_repeat_merge_alignment :
  forall b cs,
    bi_multicross b = true -> bi_alignment b <> EqualPreamble ->
    (exists r, create_of (BRepeat b cs) = COk r /\ ca_alignment r = EqualPreamble) /\
    create_of (BMerge [b] cs MRepeat (Some EqualPreamble)) = CErr EMergeAlignment.
Proof. exact repeat_merge_alignment. Qed.
Print Assumptions C24_repeat_merge_alignment.

(** MultiCrossBlock(design, crossings, cs, rcc, mode, EQUAL_PREAMBLE) =
    Merge([CrossBlock(design, c, [], rcc) for c in crossings], cs, mode, EQUAL_PREAMBLE):
    same arguments once [_create] has dropped empty crossings: the sustain counts and weights are
    all 1 on both sides, one per crossing (MultiCrossBlock) resp. per non-empty crossing (Merge),
    and [_create] only pairs them with the non-empty crossings. *)
Theorem C24_multicross_eq_merge :
  forall design crossings cs rcc mode leaves,
    NoDup design -> crossings <> [] ->
    Forall2 (is_cross_leaf design rcc) crossings leaves ->
    exists m,
      create_of (BMerge leaves cs mode (Some EqualPreamble)) = COk m /\
      let a := create_multi design crossings cs rcc mode EqualPreamble in
      ca_design m = ca_design a /\
      ca_crossings m = norm_crossings a /\ norm_crossings m = norm_crossings a /\
      ca_sustains m = ones (norm_crossings a) /\ ca_sustains a = ones (ca_crossings a) /\
      ca_weights m = onesZ (norm_crossings a) /\ ca_weights a = onesZ (ca_crossings a) /\
      ca_constraints m = ca_constraints a /\ ca_rcc m = ca_rcc a /\
      ca_mode m = ca_mode a /\ ca_alignment m = ca_alignment a.
Proof. exact multicross_eq_merge. Qed.
Print Assumptions C24_multicross_eq_merge.

(** ... and for PARALLEL_START / POST_PREAMBLE the documented Merge call is rejected
    (a CrossBlock is always aligned EQUAL_PREAMBLE). *)
Theorem C24_multicross_merge_alignment :
  forall design crossings cs rcc mode al leaves,
    crossings <> [] -> al <> EqualPreamble ->
    Forall2 (is_cross_leaf design rcc) crossings leaves ->
    create_of (BMerge leaves cs mode (Some al)) = CErr EMergeAlignment.
Proof. exact multicross_merge_alignment. Qed.
Print Assumptions C24_multicross_merge_alignment.

(** the weight a CrossBlock leaf ends up with: 1 (one crossing, no MinimumTrials, T = preamble + size) *)
Theorem C24_cross_leaf_weight :
  forall fb c S su p T,
    fl_crossings fb = [c] -> fl_sizes fb = [S] -> fl_sustains fb = [su] -> fl_preambles fb = [p] ->
    0 < S -> su = 1 -> T = Z.of_nat (p + S) ->
    model_weights fb MWeight T [1%Z] = WOk [1%Z].
Proof. exact single_crossing_weight_one. Qed.
Print Assumptions C24_cross_leaf_weight.

(** Repeat(block, []): the block's own (original) design, crossings, sustain counts, final
    weights and constraints ([ocs]: its [orig_constraints], see C24_repeat_nil_created), in REPEAT
    mode (which keeps the weights) and EQUAL_PREAMBLE. *)
Theorem C24_repeat_nil :
  forall a ocs T P ws,
    exists r, create_of (BRepeat (binfo_of_create true a ocs T P ws) []) = COk r /\
      ca_design r = ca_design a /\ ca_crossings r = norm_crossings a /\ norm_crossings r = norm_crossings a /\
      ca_sustains r = ca_sustains a /\ ca_rcc r = ca_rcc a /\ map snd (ca_constraints r) = ocs /\
      ca_weights r = ws /\ ca_mode r = MRepeat /\ ca_alignment r = EqualPreamble.
Proof. exact repeat_nil_of_create. Qed.
Print Assumptions C24_repeat_nil.

(** Merge([block]): the block's design, crossings, sustain counts and final weights (those of
    its crossings), constraints and alignment. *)
Theorem C24_merge_singleton :
  forall a ocs T P ws mode,
    NoDup (ca_design a) ->
    exists m, create_of (BMerge [binfo_of_create true a ocs T P ws] [] mode None) = COk m /\
      ca_design m = ca_design a /\ ca_crossings m = norm_crossings a /\
      ca_sustains m = firstn (length (norm_crossings a)) (ca_sustains a) /\ ca_rcc m = ca_rcc a /\
      map snd (ca_constraints m) = ocs /\
      ca_weights m = firstn (length (norm_crossings a)) ws /\ ca_mode m = mode /\ ca_alignment m = ca_alignment a.
Proof. exact merge_singleton_of_create. Qed.
Print Assumptions C24_merge_singleton.

(** Which constraints those are.  [_create] works on private copies of the constraint objects it is
    handed (/repo commit 88b3d0f: the objects themselves are never changed, a user's object keeps
    [within_block] = None for ever) and records the new block's geometry [g] = [get_geometry(0)] in
    every copy that carries none yet ([init_within_block]; [created_constraints g a] = the block's
    [orig_constraints]).  So the constraints that Repeat(block, []) / Merge([block]) hand on are the
    ones the block was handed itself, except that an entry without geometry now carries the block's;
    an entry that carried a geometry (even a different one) is handed on unchanged.  The blocks built
    from them have the same [orig_constraints] as the block, whatever their own geometry [g'] is.
    c24.py: layer L1-created ([created_constraints] vs the real [orig_constraints] of every block) and
    L1-equiv-repeat-nil / -merge-single (the recorded arguments of the two sides, constraints related
    by [init_within_block] with the real block's geometry). *)
Theorem C24_init_within_block :
  forall g c,
    c_id (init_within_block g c) = c_id c /\ c_kind (init_within_block g c) = c_kind c /\
    c_param (init_within_block g c) = c_param c /\
    c_wb (init_within_block g c) =
      match c_wb c with
      | Some h => Some h
      | None => if has_within_block (c_kind c) then Some g else None
      end.
Proof. exact init_within_block_spec. Qed.
Print Assumptions C24_init_within_block.

Theorem C24_repeat_nil_created :
  forall a g T P ws,
    exists r, create_of (BRepeat (block_of_create true a g T P ws) []) = COk r /\
      ca_design r = ca_design a /\ ca_crossings r = norm_crossings a /\ norm_crossings r = norm_crossings a /\
      ca_sustains r = ca_sustains a /\ ca_rcc r = ca_rcc a /\
      map snd (ca_constraints r) = map (init_within_block g) (map snd (ca_constraints a)) /\
      ca_weights r = ws /\ ca_mode r = MRepeat /\ ca_alignment r = EqualPreamble /\
      forall g', created_constraints g' r = created_constraints g a.
Proof. exact repeat_nil_of_created. Qed.
Print Assumptions C24_repeat_nil_created.

Theorem C24_merge_singleton_created :
  forall a g T P ws mode,
    NoDup (ca_design a) ->
    exists m, create_of (BMerge [block_of_create true a g T P ws] [] mode None) = COk m /\
      ca_design m = ca_design a /\ ca_crossings m = norm_crossings a /\
      ca_sustains m = firstn (length (norm_crossings a)) (ca_sustains a) /\ ca_rcc m = ca_rcc a /\
      map snd (ca_constraints m) = map (init_within_block g) (map snd (ca_constraints a)) /\
      ca_weights m = firstn (length (norm_crossings a)) ws /\ ca_mode m = mode /\ ca_alignment m = ca_alignment a /\
      forall g', created_constraints g' m = created_constraints g a.
Proof. exact merge_singleton_of_created. Qed.
Print Assumptions C24_merge_singleton_created.

(** a user's Pin(-1) and MinimumTrials(3) given to a CrossBlock of 4 trials: the block is handed the
    objects without geometry; Repeat(block, []) hands on the block's copies, the Pin with the
    geometry of the 4 trials *)
Example C24_example_pin_repeat :
  ca_constraints (create_cross [0; 1] [0; 1] [ex_pin; ex_mint] true) = [(OOwn, ex_pin); (OOwn, ex_mint)] /\
  exists r, create_of (BRepeat ex_pin_block []) = COk r /\
    ca_constraints r = [(OBlock 0, {| c_id := 0; c_kind := KPin; c_param := (-1)%Z; c_wb := Some ex_geometry |});
                        (OBlock 0, ex_mint)].
Proof. exact ex_pin_repeat. Qed.

(** What C24_repeat_nil / C24_merge_singleton leave open is closed by the trial arithmetic:
    REPEAT mode keeps the weights it is given, and trial count, preambles and
    min_trials do not depend on which of PARALLEL_START / EQUAL_PREAMBLE is recorded.
    (For a POST_PREAMBLE block Repeat(block, []) is a different block: c24.py finding
    equiv:repeat-nil:solutions-differ.) *)
Theorem C24_repeat_keeps_weights :
  forall fb T ws, model_weights fb MRepeat T ws = WOk ws.
Proof. exact model_weights_repeat. Qed.
Print Assumptions C24_repeat_keeps_weights.

Theorem C24_alignment_irrelevant :
  forall fb a,
    fl_alignment fb <> PostPreamble -> a <> PostPreamble ->
    model_trials (set_alignment fb a) = model_trials fb /\
    model_preambles (set_alignment fb a) = model_preambles fb /\
    model_min_trials (set_alignment fb a) = model_min_trials fb.
Proof. exact model_trials_alignment. Qed.
Print Assumptions C24_alignment_irrelevant.

(** "The same valid sequences", first without a model of [_create] itself (arguments -> flat
    record; for [create_flat] see below): [denote a] stands for the reference-semantics normal form (Design/Sem.v) of the
    block [_create] builds from the arguments [a] (Encode/CodeSem.v's [code_sem] of its flat
    record).  That [_create] is a function of its arguments is the fact that [denote] is a
    function; the explicit hypothesis [denote_respects] says what else is used: the valid set
    depends on the arguments only through [args_equiv] - design, non-empty crossings with
    their sustain counts and weights, rcc, mode, alignment, and the constraints as a set. *)
Theorem C24_cross_multi_valid :
  forall (denote : create_args -> sem) design crossing cs rcc a b s,
    create_of (BCross design crossing cs rcc) = COk a ->
    create_of (BMulti design [crossing] cs rcc MWeight EqualPreamble) = COk b ->
    valid_b (denote a) s = valid_b (denote b) s.
Proof. exact cross_multi_valid. Qed.
Print Assumptions C24_cross_multi_valid.

Theorem C24_repeat_merge_valid :
  forall (denote : create_args -> sem),
    (forall a b, args_equiv a b -> forall s, valid_b (denote a) s = valid_b (denote b) s) ->
    forall b cs r m s,
      bi_multicross b = true -> bi_alignment b = EqualPreamble -> not_desugared b -> aligned b -> NoDup (bi_design b) ->
      create_of (BRepeat b cs) = COk r -> create_of (BMerge [b] cs MRepeat (Some EqualPreamble)) = COk m ->
      valid_b (denote r) s = valid_b (denote m) s.
Proof. exact repeat_merge_valid. Qed.
Print Assumptions C24_repeat_merge_valid.

Theorem C24_multi_merge_valid :
  forall (denote : create_args -> sem),
    (forall a b, args_equiv a b -> forall s, valid_b (denote a) s = valid_b (denote b) s) ->
    forall design crossings cs rcc mode leaves m s,
      NoDup design -> crossings <> [] ->
      Forall2 (is_cross_leaf design rcc) crossings leaves ->
      create_of (BMerge leaves cs mode (Some EqualPreamble)) = COk m ->
      valid_b (denote (create_multi design crossings cs rcc mode EqualPreamble)) s = valid_b (denote m) s.
Proof. exact multi_merge_valid. Qed.
Print Assumptions C24_multi_merge_valid.

(** the "constraints as a set" part of [denote_respects] is a theorem of the reference semantics *)
Theorem C24_valid_perm_constraints :
  forall S S' s,
    s_trials S = s_trials S' -> s_factors S = s_factors S' -> s_crossings S = s_crossings S' ->
    Permutation (s_constraints S) (s_constraints S') ->
    valid_b S s = valid_b S' s.
Proof. exact valid_perm_constraints. Qed.
Print Assumptions C24_valid_perm_constraints.

(** [denote_respects] is satisfiable by a [denote] that reads the design and every constraint *)
Example C24_example_denote :
  forall a b, args_equiv a b -> forall s, valid_b (ex_denote a) s = valid_b (ex_denote b) s.
Proof. exact ex_denote_respects. Qed.

(** [_create] itself.  Front/CreateFlat.v [create_flat] is a model of [_create] + [Block.__init__]
    as a whole: from the arguments (design as factor descriptions, crossings, counts, weights,
    constraints, rcc, mode, alignment) to the flat record of the block; c16.py compares it field by
    field with the real block on every block of every generated program (layer L1-createflat).
    Inputs it takes from the real block instead of modelling them (they call user predicates): the
    exclusion count of every crossing, the generated Derivation constraints, excluded_derived, the
    error flag; designs that need weight desugaring are outside ([FUnsupported]).
    [input_equiv]: same design, same non-empty crossings with the same counts and weights (further
    counts all 1), constraints a permutation of each other with positive MinimumTrials, the rest equal.
    [flat_equiv]: the same record up to the counts / weights beyond the crossings and the order of
    the constraint and exclusion lists. *)
Theorem C24_create_flat_respects :
  forall a b, input_equiv a b -> fres_equiv (create_flat a) (create_flat b).
Proof. exact create_flat_respects. Qed.
Print Assumptions C24_create_flat_respects.

(** Repeat vs Merge: the block's constraints followed by [own], or [own] followed by the block's *)
Theorem C24_flat_repeat_merge :
  forall ci cb own,
    Forall (fun n => n = 1) (skipn (length (st_crossings ci)) (ci_sustains ci)) ->
    min_trials_positive (cb ++ own) ->
    fres_equiv (create_flat (with_constraints ci (cb ++ own))) (create_flat (with_constraints ci (own ++ cb))).
Proof. exact flat_repeat_merge. Qed.
Print Assumptions C24_flat_repeat_merge.

(** MultiCrossBlock vs Merge of CrossBlocks: all crossings with a count / weight 1 each, or only the
    non-empty ones with theirs *)
Theorem C24_flat_multi_merge :
  forall ci,
    ci_sustains ci = map (fun _ => 1) (ci_crossings ci) -> ci_weights ci = map (fun _ => 1) (ci_crossings ci) ->
    min_trials_positive (ci_constraints ci) ->
    fres_equiv (create_flat ci) (create_flat (drop_empty ci)).
Proof. exact flat_multi_merge. Qed.
Print Assumptions C24_flat_multi_merge.

(** "The same valid sequences", without a hypothesis about [_create]: [sem_of] is the reading of a
    flat record as a normal form (Encode/CodeSem.v [code_sem], checked against the real samplers on
    every run); what remains assumed is that this reading respects [flat_equiv]. *)
Theorem C24_repeat_merge_valid_flat :
  forall (sem_of : flat -> sem),
    (forall x y, flat_equiv x y -> forall s, valid_b (sem_of x) s = valid_b (sem_of y) s) ->
    forall ci cb own x y s,
      Forall (fun n => n = 1) (skipn (length (st_crossings ci)) (ci_sustains ci)) ->
      min_trials_positive (cb ++ own) ->
      create_flat (with_constraints ci (cb ++ own)) = FOk x -> create_flat (with_constraints ci (own ++ cb)) = FOk y ->
      valid_b (sem_of x) s = valid_b (sem_of y) s.
Proof. exact repeat_merge_valid_flat. Qed.
Print Assumptions C24_repeat_merge_valid_flat.

Theorem C24_multi_merge_valid_flat :
  forall (sem_of : flat -> sem),
    (forall x y, flat_equiv x y -> forall s, valid_b (sem_of x) s = valid_b (sem_of y) s) ->
    forall ci x y s,
      ci_sustains ci = map (fun _ => 1) (ci_crossings ci) -> ci_weights ci = map (fun _ => 1) (ci_crossings ci) ->
      min_trials_positive (ci_constraints ci) ->
      create_flat ci = FOk x -> create_flat (drop_empty ci) = FOk y ->
      valid_b (sem_of x) s = valid_b (sem_of y) s.
Proof. exact multi_merge_valid_flat. Qed.
Print Assumptions C24_multi_merge_valid_flat.

(** Repeat(block, []) and Merge([block]) at the level of the flat record.  [again ci fb al]: the
    arguments a constructor passes on for the block [fb] built from [ci] - its filtered crossings, all
    its sustain counts, its final weights in REPEAT mode, its constraints with their [within_block]
    initialised, alignment [al]; [merge_again]: the same with the counts and weights of the actual
    crossings only and the block's own alignment.  Side conditions: constraints about single levels
    (a run-length constraint on a whole factor is deep-copied with a geometry that has lost its
    factor keys: Front/CreateFlat.v [forget_keys]), the block not aligned POST_PREAMBLE (c24.py
    finding equiv:repeat-nil:solutions-differ), equal preamble sizes for Repeat (else it raises, as
    documented). *)
Theorem C24_repeat_nil_flat :
  forall ci fb,
    create_flat ci = FOk fb -> all_level_constraints (ci_constraints ci) ->
    ci_alignment ci <> PostPreamble -> all_eq (fl_preambles fb) = true ->
    create_flat (again ci fb EqualPreamble) = FOk (with_alignment fb EqualPreamble).
Proof. exact repeat_nil_flat. Qed.
Print Assumptions C24_repeat_nil_flat.

Theorem C24_merge_singleton_flat :
  forall ci fb,
    create_flat ci = FOk fb -> all_level_constraints (ci_constraints ci) -> min_trials_positive (ci_constraints ci) ->
    ci_alignment ci <> PostPreamble ->
    Forall (fun n => n = 1) (skipn (length (st_crossings ci)) (ci_sustains ci)) ->
    exists fb', create_flat (merge_again ci fb) = FOk fb' /\ flat_equiv fb fb'.
Proof. exact merge_singleton_flat. Qed.
Print Assumptions C24_merge_singleton_flat.

Example C24_example_again :
  exists fb, create_flat ex_block_input = FOk fb /\ fl_trials fb = 3 /\ fl_alignment fb = ParallelStart /\
    all_level_constraints (ci_constraints ex_block_input) /\ all_eq (fl_preambles fb) = true /\
    create_flat (again ex_block_input fb EqualPreamble) = FOk (with_alignment fb EqualPreamble) /\
    create_flat (merge_again ex_block_input fb) = FOk fb.
Proof. exact ex_block_again. Qed.

Theorem C24_respects_outcome :
  forall a b, input_equiv a b -> forall e, create_flat a = FErr e <-> create_flat b = FErr e.
Proof. exact respects_outcome. Qed.
Print Assumptions C24_respects_outcome.

(** The hypotheses are met by a block with an empty crossing, MinimumTrials(3) and AtMostKInARow(1, A). *)
Example C24_example_create_flat :
  exists fb, create_flat ex_input = FOk fb /\ fl_trials fb = 3 /\ fl_crossings fb = [[0]; [1]] /\ fl_sustains fb = [1; 1; 1] /\
    fl_constraints fb = [FCross; FConsistency; FMinimumTrials 3;
                         FAtMost 1 0 0 (Some {| g_trials := 3; g_preamble := 0; g_sustain := [(0, 1); (1, 1)] |});
                         FAtMost 1 0 1 (Some {| g_trials := 3; g_preamble := 0; g_sustain := [(0, 1); (1, 1)] |})] /\
  exists fb', create_flat (drop_empty ex_input) = FOk fb' /\ fl_sustains fb' = [1; 1] /\ flat_equiv fb fb'.
Proof. exact ex_input_flat. Qed.

(** The hypotheses are met: design [0;1], crossings [[0];[1]], the two CrossBlock leaves. *)
Example C24_example_multicross :
  NoDup [0; 1] /\ Forall2 (is_cross_leaf [0; 1] true) [[0]; [1]] [ex_leaf0; ex_leaf1] /\
  create_of (BMerge [ex_leaf0; ex_leaf1] [] MRepeat (Some EqualPreamble))
  = COk (create_multi [0; 1] [[0]; [1]] [] true MRepeat EqualPreamble) /\
  create_of (BMerge [ex_leaf0; ex_leaf1] [] MRepeat (Some ParallelStart)) = CErr EMergeAlignment.
Proof. split; [exact ex_nodup | split; [exact ex_leaves | split; reflexivity]]. Qed.

Example C24_example_repeat :
  bi_multicross (ex_multi_block EqualPreamble) = true /\ not_desugared (ex_multi_block EqualPreamble) /\
  aligned (ex_multi_block EqualPreamble) /\ NoDup (bi_design (ex_multi_block EqualPreamble)) /\
  create_of (BRepeat (ex_multi_block ParallelStart) []) =
  COk (create_multi [0; 1] [[0]; [1]] [] true MRepeat EqualPreamble) /\
  create_of (BMerge [ex_multi_block ParallelStart] [] MRepeat (Some EqualPreamble)) = CErr EMergeAlignment.
Proof. split; [reflexivity | split; [split; reflexivity | split; [split; reflexivity | split; [exact ex_nodup | split; reflexivity]]]]. Qed.
