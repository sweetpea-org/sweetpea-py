(** C23 - Weighted levels behave as documented.

    The theorems are about Front/Desugar.v, the model of the weight desugaring
    ([_desugar_factors_with_weights], [desugar_weights], [desugar_for_weights]) and of
    the crossing-weight arithmetic ([combination_weight],
    [crossing_size_without_exclusions]).  harness/props/c23.py checks on every run that
    the real code produces literally the design / crossings / weights the model
    produces, and decides the property itself on exhausted solution sets (crossed
    weights against the reference oracle; uncrossed weights against the twin program
    with separately named copies).

    [combo_weights design c]    weight of every combination of crossing [c] (itertools.product order)
    [crossing_size_wo design c] crossing_size_without_exclusions(c)
    [flat_factor f] / [hidden_factor f p]  the two replacements of a desugared factor:
        the non-derived one with [weight] same-named levels per level, and the derived one
        (HiddenName) whose level [n] has the predicate [lambda x: x == n] over the flat factor
    [hidden_accepts n x]        that predicate. *)
From Coq Require Import List Bool Arith String.
From SP Require Import Design.Sem Front.Desugar Front.DesugarProofs Front.NestSem Front.DesugarSem.
Import ListNotations.

(** Crossing size and per-combination multiplicity: a combination's weight is the
    product of its level weights - so a level of weight [w] makes every combination
    containing it count [w] times what it would with weight 1 - and the crossing size
    is the sum of the combination weights. *)
Theorem C23_weight_multiplicity :
  (forall w ws, combination_weight (w :: ws) = w * combination_weight ws) /\
  combination_weight [] = 1 /\
  (forall ws1 w ws2, combination_weight (ws1 ++ w :: ws2) = w * combination_weight (ws1 ++ 1 :: ws2)) /\
  (forall design c, (forall i, In i c -> nth_error design i <> None) ->
     sum_list (combo_weights design c) = crossing_size_wo design c).
Proof.
  exact (conj combination_weight_cons (conj combination_weight_nil (conj weight_scales_combination crossing_size_is_sum))).
Qed.
Print Assumptions C23_weight_multiplicity.

(** Desugaring: the hidden derived factor has exactly the original level names, and every
    level of the flat factor is reported under exactly one of them, the name it copies. *)
Theorem C23_desugar_names :
  forall f p,
    (map fst (wf_levels (hidden_factor f p)) = map fst (wf_levels f)) /\
    (forall l, In l (flat_levels f) ->
       In (fst l) (map fst (wf_levels (hidden_factor f p))) /\
       forall h, In h (map fst (wf_levels (hidden_factor f p))) -> (hidden_accepts h (fst l) = true <-> h = fst l)).
Proof. exact desugar_names. Qed.
Print Assumptions C23_desugar_names.

(** ... and the original level [n] of weight [w] is reported for exactly [w] levels of the
    flat factor: weight w = w separately chosen copies reported under the original name. *)
Theorem C23_desugar_multiplicity :
  forall f n w,
    NoDup (map fst (wf_levels f)) -> In (n, w) (wf_levels f) ->
    List.length (filter (fun l => hidden_accepts n (fst l)) (flat_levels f)) = w.
Proof. exact desugar_multiplicity. Qed.
Print Assumptions C23_desugar_multiplicity.

(** The same in terms of the reference semantics (Design/Sem.v; definitions in Front/DesugarSem.v).
    [S] is the normal form of the design with its weighted factor [f] ([length ws] levels of
    weights [ws]); its desugared normal form is [widen f (list_sum ws) S] - one level per copy -
    and [proj_seq f ws] replaces every copy in row [f] by its original level [orig ws c]
    (c23.py compares [widen] / [orig] with the documented normal form of the twin program with
    separately named copies on every run).  Guard [free_b S f] (boolean): [f] is non-derived with
    sustain count 1, in no crossing, named by no constraint, read by no derived factor, and [S]
    has no LatinSquare constraint. *)

(** every original level [l] has exactly [weight l] copies *)
Theorem C23_copies_of_level :
  forall ws l, List.length (filter (fun c => Nat.eqb (orig ws c) l) (seq 0 (list_sum ws))) = nth l ws 0.
Proof. exact copies_of_level. Qed.
Print Assumptions C23_copies_of_level.

(** a sequence of the desugared form is valid iff its image under the copy -> original map is
    valid for the original form and its copies exist: the map sends valid sequences to valid
    sequences, and every in-range pre-image of a valid sequence is valid *)
Theorem C23_desugared_valid :
  forall S f ws s fd,
    free_b S f = true -> nth_error (s_factors S) f = Some fd -> List.length ws = f_nlevels fd ->
    (valid_b (widen f (list_sum ws) S) s = true <->
     valid_b S (proj_seq f ws s) = true /\ in_range (list_sum ws) (nth f s [])).
Proof. exact desugared_valid. Qed.
Print Assumptions C23_desugared_valid.

(** the fibre over a valid sequence [s] whose row for [f] is [r]: among the rows [w] of copies,
    exactly those with [map (orig ws) w = r] give a valid sequence of the desugared form lying over [s] ... *)
Theorem C23_desugared_fibre :
  forall S f ws s fd r w,
    free_b S f = true -> nth_error (s_factors S) f = Some fd -> List.length ws = f_nlevels fd ->
    valid_b S s = true -> f < List.length s -> nth f s [] = map Some r ->
    In w (all_words (list_sum ws) (List.length r)) ->
    (proj_seq f ws (with_row f w s) = s /\ valid_b (widen f (list_sum ws) S) (with_row f w s) = true
     <-> row_matches ws r w = true).
Proof. exact desugared_fibre. Qed.
Print Assumptions C23_desugared_fibre.

(** ... and there are exactly (product of the weights of the chosen levels) of them: the
    multiplicity a without-replacement sampler shows for the name-level sequence *)
Theorem C23_row_fibre :
  forall ws r,
    List.length (filter (row_matches ws r) (all_words (list_sum ws) (List.length r)))
    = fold_right (fun l acc => nth l ws 0 * acc) 1 r.
Proof. exact row_fibre. Qed.
Print Assumptions C23_row_fibre.

(** The guard is met by W = [w0 x 2, w1] outside the crossing [B] (2 trials): 8 valid sequences,
    18 in the desugared form; w0,w0 has 4 pre-images, w0,w1 has 2, w1,w1 has 1. *)
Example C23_example_sem :
  free_b ex_orig_sem 0 = true /\
  List.length (all_valid ex_orig_sem) = 8 /\ List.length (all_valid (widen 0 (list_sum [2; 1]) ex_orig_sem)) = 18 /\
  map (orig [2; 1]) [0; 1; 2] = [0; 0; 1] /\
  List.length (filter (row_matches [2; 1] [0; 0]) (all_words 3 2)) = 4 /\
  List.length (filter (row_matches [2; 1] [0; 1]) (all_words 3 2)) = 2 /\
  List.length (filter (row_matches [2; 1] [1; 1]) (all_words 3 2)) = 1.
Proof. exact ex_free. Qed.

(** Which factors are desugared: none if no weighted non-derived factor lies outside every
    crossing; and never a factor that is in some crossing. *)
Theorem C23_desugar_noop :
  forall design crossings,
    weighted_positions design crossings = [] -> desugar design crossings = (design, crossings).
Proof. exact desugar_noop. Qed.
Print Assumptions C23_desugar_noop.

Theorem C23_in_a_crossing_not_desugared :
  forall crossings i f c, In c crossings -> In i c -> is_weighted crossings i f = false.
Proof. exact in_a_crossing_not_weighted. Qed.
Print Assumptions C23_in_a_crossing_not_desugared.

(** The full statement of the property - "a weighted non-derived factor that is not in
    every crossing is desugared" - is false of the model, hence of the code
    (c23.py finding weights:some-not-all-crossings): *)
Theorem C23_not_in_every_crossing_refuted :
  exists design crossings i f,
    nth_error design i = Some f /\ wf_derived f = false /\ existsb (fun l => Nat.ltb 1 (snd l)) (wf_levels f) = true /\
    (exists c, In c crossings /\ ~ In i c) /\
    desugar design crossings = (design, crossings).
Proof. exact not_in_every_crossing_refuted. Qed.
Print Assumptions C23_not_in_every_crossing_refuted.

(** A derived factor that the desugaring re-creates (because it reads a desugared factor)
    keeps its name, levels and weights - so a crossed derived factor keeps its crossing
    weights - and every other factor is kept as it is.  (Before /repo commit f3dc07b the
    weights were dropped: c23.py finding weights:derived-weight-dropped.) *)
Theorem C23_desugar_keeps_levels :
  forall design crossings f,
    wf_name (rewrite_derived design crossings f) = wf_name f /\
    wf_levels (rewrite_derived design crossings f) = wf_levels f /\
    wf_name (shift_deps design crossings f) = wf_name f /\
    wf_levels (shift_deps design crossings f) = wf_levels f.
Proof. intros. repeat split. Qed.
Print Assumptions C23_desugar_keeps_levels.

Example C23_example_derived_weights :
  exists f', nth_error (fst (desugar [ex_A; ex_D] [[1]])) (new_pos [ex_A; ex_D] [[1]] 1) = Some f' /\
             wf_name f' = "D"%string /\ wf_levels f' = [("p"%string, 2); ("q"%string, 1)] /\ wf_deps f' = [0] /\
             snd (desugar [ex_A; ex_D] [[1]]) = [[2]].
Proof. exact ex_derived_weights_kept. Qed.

(** The hypotheses are met: A = [a0 x 2, a1] outside the crossing [B]. *)
Example C23_example :
  desugar [ex_A; ex_B] [[1]] = ([hidden_factor ex_A 1; flat_factor ex_A; ex_B], [[2]]) /\
  wf_levels (flat_factor ex_A) = [("a0"%string, 1); ("a0"%string, 1); ("a1"%string, 1)] /\
  NoDup (map fst (wf_levels ex_A)) /\
  combo_weights [ex_A; ex_B] [0; 1] = [2; 2; 2; 1; 1; 1] /\ crossing_size_wo [ex_A; ex_B] [0; 1] = 9.
Proof.
  destruct ex_desugar as [H1 [H2 H3]]. repeat split; try assumption; reflexivity.
Qed.
