(** T2, program side: the documented semantics of a program ([doc_sem], Design/DocSem.v, the
    Gallina mirror of harness/docsem.py that the harness runs beside it on every generated
    program) produces well-formed semantic normal forms and obeys the documented laws of the
    block combinators. *)
From Coq Require Import ZArith List Bool Arith String.
From SP Require Import Design.Sem Design.Flat Design.DocSem Design.DocSemProofs Design.DocSemPlain Design.DocSemWf.
Import ListNotations.
Local Open Scope nat_scope.

(** (a) well-formedness *)
Theorem T2_doc_sem_wf : forall p ds, doc_sem p = Ok ds -> wf_sem (ds_sem ds).
Proof. exact doc_sem_wf. Qed.
Print Assumptions T2_doc_sem_wf.

Theorem T2_doc_sem_block_wf : forall p b ds, doc_sem_block p b = Ok ds ->
  wf_sem (ds_sem ds) /\ ds_T ds = s_trials (ds_sem ds) /\
  List.length (ds_forder ds) = List.length (s_factors (ds_sem ds)).
Proof. exact doc_sem_block_wf. Qed.
Print Assumptions T2_doc_sem_block_wf.

Theorem T2_doc_sem_levels : forall p ds, doc_sem p = Ok ds ->
  forall k, In k (s_constraints (ds_sem ds)) -> level_ok (ds_sem ds) k.
Proof. exact doc_sem_levels. Qed.
Print Assumptions T2_doc_sem_levels.

Theorem T2_doc_sem_sustain_pos : forall p ds, doc_sem p = Ok ds ->
  forall fd, In fd (s_factors (ds_sem ds)) -> 0 < f_sustain fd.
Proof. exact doc_sem_sustain_pos. Qed.
Print Assumptions T2_doc_sem_sustain_pos.

(** a derived factor is listed after the factors it depends on ([Sem.all_valid] fills rows in list order) *)
Theorem T2_doc_sem_deps_before : forall p ds, doc_sem p = Ok ds ->
  forall i fd w, nth_error (s_factors (ds_sem ds)) i = Some fd -> f_derived fd = Some w ->
  forall pd, In pd (w_deps w) -> pd < i.
Proof. exact doc_sem_deps_before. Qed.
Print Assumptions T2_doc_sem_deps_before.

(** the combinations of a crossing: one level per crossed factor, each a level of that factor *)
Theorem T2_doc_sem_mult_shape : forall p ds, doc_sem p = Ok ds ->
  forall c, In c (s_crossings (ds_sem ds)) -> forall im, In im (c_mult c) -> List.length (fst im) = List.length (c_factors c).
Proof. exact doc_sem_mult_shape. Qed.
Print Assumptions T2_doc_sem_mult_shape.

Theorem T2_doc_sem_mult_levels : forall p ds, doc_sem p = Ok ds ->
  forall c, In c (s_crossings (ds_sem ds)) -> forall im, In im (c_mult c) ->
  Forall2 (fun l cf => l < f_nlevels (nth cf (s_factors (ds_sem ds)) dfactor0)) (fst im) (c_factors c).
Proof. exact doc_sem_mult_levels. Qed.
Print Assumptions T2_doc_sem_mult_levels.

(** the acceptance tables: at most one column per dependency, cells name levels of the dependency *)
Theorem T2_doc_sem_tables_shape : forall p ds, doc_sem p = Ok ds ->
  forall fd w, In fd (s_factors (ds_sem ds)) -> f_derived fd = Some w ->
  forall rows, In rows (w_table w) -> forall row, In row rows -> row_ok (s_factors (ds_sem ds)) (w_deps w) row.
Proof. exact doc_sem_tables_shape. Qed.
Print Assumptions T2_doc_sem_tables_shape.

(** (b) CrossBlock(d, c, cs, rcc) = MultiCrossBlock(d, [c], cs, rcc, WEIGHT) *)
Theorem T2_cross_is_multi_weight : forall p d c cs rcc,
  doc_sem_block p (PCross d c cs rcc) = doc_sem_block p (PMulti d [c] cs rcc DWeight EqualPreamble).
Proof. exact cross_is_multi_weight. Qed.
Print Assumptions T2_cross_is_multi_weight.

(** (b) MinimumTrials: the trial count reaches the bound and is monotone in it *)
Theorem T2_minimum_trials_monotone : forall p d crs cs rcc mode al n n' bd bd',
  n <= n' ->
  doc_cross p d crs (PMinimumTrials n :: cs) rcc mode al = Ok bd ->
  doc_cross p d crs (PMinimumTrials n' :: cs) rcc mode al = Ok bd' ->
  n <= b_T bd /\ b_T bd <= b_T bd'.
Proof. exact minimum_trials_monotone. Qed.
Print Assumptions T2_minimum_trials_monotone.

Theorem T2_minimum_trials_cross : forall p d c cs rcc n n' ds ds',
  n <= n' ->
  doc_sem_block p (PCross d c (PMinimumTrials n :: cs) rcc) = Ok ds ->
  doc_sem_block p (PCross d c (PMinimumTrials n' :: cs) rcc) = Ok ds' ->
  n <= s_trials (ds_sem ds) /\ s_trials (ds_sem ds) <= s_trials (ds_sem ds').
Proof. exact minimum_trials_cross. Qed.
Print Assumptions T2_minimum_trials_cross.

(** (b) Repeat(b, []) and Merge([b]) denote what b denotes *)
Theorem T2_repeat_nil_same : forall p b bd ds,
  doc_block p b = Ok bd -> sem_of_block p bd = Ok ds ->
  b_alignment bd = EqualPreamble -> NoDup (b_design bd) ->
  exists ds', doc_sem_block p (PRepeat b []) = Ok ds' /\
              ds_sem ds' = ds_sem ds /\ ds_forder ds' = ds_forder ds /\ ds_T ds' = ds_T ds /\ ds_unsat ds' = ds_unsat ds.
Proof. exact repeat_nil_same. Qed.
Print Assumptions T2_repeat_nil_same.

Theorem T2_merge_one_same : forall p b bd ds,
  doc_block p b = Ok bd -> sem_of_block p bd = Ok ds -> NoDup (b_design bd) ->
  exists ds', doc_sem_block p (PMerge [b] [] DRepeat None) = Ok ds' /\
              ds_sem ds' = ds_sem ds /\ ds_forder ds' = ds_forder ds /\ ds_T ds' = ds_T ds /\ ds_unsat ds' = ds_unsat ds.
Proof. exact merge_one_same. Qed.
Print Assumptions T2_merge_one_same.

Theorem T2_merge_one_valid : forall p b ds,
  doc_sem_block p b = Ok ds -> NoDup (b_design (ds_block ds)) ->
  exists ds', doc_sem_block p (PMerge [b] [] DRepeat None) = Ok ds' /\ forall s, valid_b (ds_sem ds') s = valid_b (ds_sem ds) s.
Proof. exact merge_one_valid. Qed.
Print Assumptions T2_merge_one_valid.

Theorem T2_repeat_nil_valid : forall p b ds,
  doc_sem_block p b = Ok ds -> b_alignment (ds_block ds) = EqualPreamble -> NoDup (b_design (ds_block ds)) ->
  exists ds', doc_sem_block p (PRepeat b []) = Ok ds' /\ forall s, valid_b (ds_sem ds') s = valid_b (ds_sem ds) s.
Proof. exact repeat_nil_valid. Qed.
Print Assumptions T2_repeat_nil_valid.

(** (b) weights multiply: the multiplicity of a combination in a crossing of the normal form is
    the product of the weights of its levels ([combo_weight]) x crossing weight x sustain *)
Theorem T2_all_combos_weight : forall p cr d combo w,
  all_combos p cr = Ok d -> In (combo, w) d -> combo_weight p cr combo = Ok w.
Proof. exact all_combos_weight. Qed.
Print Assumptions T2_all_combos_weight.

Theorem T2_crossing_multiplicity : forall p bd forder maxp c dc idx m,
  sem_crossing p bd forder maxp c = Ok dc -> In (idx, m) (c_mult dc) ->
  exists combo w, In (combo, w) (x_combos c) /\ m = w * x_cw c * x_su c.
Proof. exact crossing_multiplicity. Qed.
Print Assumptions T2_crossing_multiplicity.

Theorem T2_crossing_multiplicity_rcc : forall p d ex cr x bd forder maxp dc idx m,
  doc_crossing p d ex true cr = Ok x -> sem_crossing p bd forder maxp x = Ok dc -> In (idx, m) (c_mult dc) ->
  exists combo w, combo_weight p cr combo = Ok w /\ m = w * x_cw x * x_su x.
Proof. exact crossing_multiplicity_rcc. Qed.
Print Assumptions T2_crossing_multiplicity_rcc.

(** (b) Exclude of a crossed level, complete crossing not required: exactly the combinations that
    contain the level disappear (plain designs: every design factor simple) *)
Theorem T2_exclude_removes_exactly : forall p design cr excludes f n fe fe',
  Forall (simple_id p) design -> incl cr design -> Forall (fun fn => simple_id p (fst fn)) excludes -> In f cr ->
  feasible_combos p design cr excludes = Ok fe ->
  feasible_combos p design cr (excludes ++ [(f, n)]) = Ok fe' ->
  forall combo, In combo (map fst fe') <-> In combo (map fst fe) /\ ~ In (f, n) (combine cr combo).
Proof. exact exclude_removes_exactly. Qed.
Print Assumptions T2_exclude_removes_exactly.

Theorem T2_exclude_removes_exactly_crossing : forall p design cr excludes f n x x',
  Forall (simple_id p) design -> incl cr design -> Forall (fun fn => simple_id p (fst fn)) excludes -> In f cr ->
  doc_crossing p design excludes false cr = Ok x ->
  doc_crossing p design (excludes ++ [(f, n)]) false cr = Ok x' ->
  forall combo, In combo (map fst (x_combos x')) <-> In combo (map fst (x_combos x)) /\ ~ In (f, n) (combine cr combo).
Proof. exact exclude_removes_exactly_crossing. Qed.
Print Assumptions T2_exclude_removes_exactly_crossing.

Theorem T2_feasible_plain_weight : forall p design cr excludes fe combo w,
  Forall (simple_id p) design -> incl cr design -> Forall (fun fn => simple_id p (fst fn)) excludes ->
  feasible_combos p design cr excludes = Ok fe -> In (combo, w) fe -> combo_weight p cr combo = Ok w.
Proof. exact feasible_plain_weight. Qed.
Print Assumptions T2_feasible_plain_weight.

(** the hypotheses are satisfiable: the Stroop design of the guide (colour x word crossed, a
    within-trial congruency factor with an else-level, AtMostKInARow(1, congruent)) *)
Local Open Scope string_scope.
Definition ex_color := {| pf_id := 0; pf_name := "color"; pf_kind := FSimple [("red", 1); ("blue", 1)] |}.
Definition ex_text := {| pf_id := 1; pf_name := "text"; pf_kind := FSimple [("red", 1); ("blue", 2)] |}.
Definition ex_con :=
  {| pf_id := 2; pf_name := "con";
     pf_kind := FDerived {| pw_type := WWithin; pw_deps := [0; 1] |}
                         [{| dl_name := "yes"; dl_weight := 1; dl_else := false;
                             dl_table := [[[Some "red"]; [Some "red"]]; [[Some "blue"]; [Some "blue"]]] |};
                          {| dl_name := "no"; dl_weight := 1; dl_else := true; dl_table := [] |}] |}.
Definition ex_block := PCross [0; 1; 2] [0; 1] [PKRow RAtMost 1 (TLevel 2 "yes"); PMinimumTrials 7] true.
Definition ex_program := {| p_factors := [ex_color; ex_text; ex_con]; p_main := ex_block |}.

Example ex_stroop_sem :
  option_map (fun ds => (ds_T ds, ds_forder ds, ds_unsat ds, s_crossings (ds_sem ds), s_constraints (ds_sem ds)))
             (match doc_sem ex_program with Ok ds => Some ds | _ => None end) =
  Some (7, [0; 1; 2], false,
        [{| c_factors := [0; 1]; c_first := 0; c_chunk := 12;
            c_mult := [([1; 1], 4); ([1; 0], 2); ([0; 1], 4); ([0; 0], 2)] |}],
        [{| k_kind := KAtMost 1; k_factor := 2; k_level := 0; k_windows := [(0, 7)] |}]).
Proof. vm_compute. reflexivity. Qed.

Example ex_stroop_repeat :
  exists ds ds', doc_sem ex_program = Ok ds /\
                 doc_sem {| p_factors := p_factors ex_program; p_main := PRepeat ex_block [] |} = Ok ds' /\
                 ds_sem ds' = ds_sem ds /\ b_alignment (ds_block ds) = EqualPreamble /\ NoDup (b_design (ds_block ds)).
Proof.
  (* [ds] and [ds'] are the values of the two [doc_sem] calls, computed to closed records *)
  eexists. eexists. split; [vm_compute; reflexivity|]. split; [vm_compute; reflexivity|].
  cbn. repeat split. repeat constructor; cbn; intuition discriminate.
Qed.

(** aligned POST_PREAMBLE with a first crossing whose preamble is shorter than the longest: the
    block's preamble is the unified one (reading decision 9), so Merge([b]) keeps b's constraint
    windows (before that decision they started one trial later: this example found it) *)
Definition ex_rep :=
  {| pf_id := 3; pf_name := "rep";
     pf_kind := FDerived {| pw_type := WTransition; pw_deps := [0] |}
                         [{| dl_name := "same"; dl_weight := 1; dl_else := false;
                             dl_table := [[[Some "red"; Some "red"]]; [[Some "blue"; Some "blue"]]] |};
                          {| dl_name := "diff"; dl_weight := 1; dl_else := true; dl_table := [] |}] |}.
Definition ex_post := PMulti [0; 1; 3] [[1]; [3]] [PKRow RAtMost 1 (TLevel 0 "red")] true DRepeat PostPreamble.

Example ex_post_preamble_merge_same :
  let p := {| p_factors := [ex_color; ex_text; ex_rep]; p_main := ex_post |} in
  option_map (fun ds => s_constraints (ds_sem ds)) (match doc_sem_block p ex_post with Ok ds => Some ds | _ => None end)
  = Some [{| k_kind := KAtMost 1; k_factor := 0; k_level := 0; k_windows := [(0, 4)] |}] /\
  option_map ds_sem (match doc_sem_block p (PMerge [ex_post] [] DRepeat None) with Ok ds => Some ds | _ => None end)
  = option_map ds_sem (match doc_sem_block p ex_post with Ok ds => Some ds | _ => None end).
Proof. vm_compute. split; reflexivity. Qed.
