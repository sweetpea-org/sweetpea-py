(** C07 - SAT-based and combinatoric samplers agree on the solution space.

    Full statement (kept for reference; NOT proved in this generality):
      for every design that both IterateSATGen and RandomGen accept, the set of
      sequences IterateSATGen can return equals the set RandomGen can return,
      i.e. for every flat record fb with [fl_errors_fail fb = false] on which
      both [compile fb] and [sample_keys fb] succeed, and every sequence q:
        (exists t, sat t final = true /\ t decodes to q)  <->
        (exists k cand, In k (keys_of fb) /\ decode_key fb k = Some cand /\
                        accepts fb cand = true /\ tseq_of_run fb cand = q).

    [C07_sat_eq_random_partial]: that equivalence on the intersection of the
    two proved fragments, [in_f1 fb = true] (Encode/CodeSem.v) and
    [frag1 fb = true] (Random/Frag.v, see Properties/C04.v; it contains [frag0]):
    one crossing of non-derived factors with unit weights, further non-derived
    factors, exclusions, the user constraints both fragments admit (AtMostKInARow,
    ExactlyK, Exclude, Pin), any number of trials.  Stated directly between the
    two models: the left side is the
    model of the SAT pipeline (models of [full_cnf] of the compiled request,
    read on the trial variables by [onehot]), the right side the model of
    RandomGen (keys, decoded candidates, acceptance).  Both sides equal
    [{q | valid_b (code_sem fb) q = true}] (C01_sound / C02_complete and
    f1_accept_sound / f1_accept_complete).  [C07_sat_eq_random_frag2]: the same
    with weighted crossed levels, crossing weights, further crossings,
    implied factors, within-trial derived factors of [act_design] (in the
    sampled crossing or filled in after the draw) and sustained further
    crossings ([frag2]; the right side then reads [cand_seq], the candidate with the
    implied rows added).
    Missing for the full statement: transition / window factors and preambles on
    the RandomGen side (outside frag2), complex windows / Nest / Sequential /
    LatinSquare on the SAT side (outside F1); there C07 is decided by the
    differential search. *)
From Coq Require Import ZArith List Bool.
From SP Require Import Base.Sat Design.Flat Design.Sem.
From SP Require Import Encode.Compile Encode.CodeSem Encode.LayoutF1 Encode.F1Sem Encode.SatRandom.
From SP Require Import Random.Enum Random.Frag Random.FragSem Random.SatRandom1 Random.SatRandom2 Random.Frag0Example.

Theorem C07_sat_eq_random_partial :
  forall (fb : flat) (b : backend) (ok : bool) (n' : Z) (final : cnf),
    in_f1 fb = true -> frag1 fb = true -> (0 < T fb)%nat -> fl_errors_fail fb = false ->
    compile fb = COk b -> full_cnf b = (ok, n', final) ->
    forall q : tseq,
      (exists t, sat t final = true /\ onehot fb t q) <->
      (exists k cand, In k (keys_of fb) /\ decode_key fb k = Some cand /\ accepts fb cand = true /\
                      tseq_of_run fb cand = q).
Proof. exact sat_eq_random1. Qed.
Print Assumptions C07_sat_eq_random_partial.

(** the two fragment predicates are jointly satisfiable: a 2 x 3 crossing on 6
    trials (720 keys on the RandomGen side, and the record compiles) *)
Example C07_example :
  in_f1 ex_fb = true /\ frag0 ex_fb = true /\ (0 < T ex_fb)%nat /\ fl_errors_fail ex_fb = false /\
  (exists b, compile ex_fb = COk b) /\ length (keys_of ex_fb) = 720%nat.
Proof. exact sat_eq_random_example. Qed.
(** jointly satisfiable outside frag0: exclusions, AtMostKInARow, Pin and a leftover round *)
Example C07_example_rejection :
  in_f1 ex1_flat = true /\ frag1 ex1_flat = true /\ frag0 ex1_flat = false /\ (0 < T ex1_flat)%nat /\
  fl_errors_fail ex1_flat = false /\ (exists b, compile ex1_flat = COk b) /\
  length (keys_of ex1_flat) = 32%nat /\ length (accepted_keys ex1_flat) = 12%nat.
Proof. exact sat_eq_random1_example. Qed.

(** with weights (fragment [Frag.frag2]) *)
Theorem C07_sat_eq_random_frag2 :
  forall (fb : flat) (b : backend) (ok : bool) (n' : Z) (final : cnf),
    in_f1 fb = true -> frag2 fb = true -> (0 < T fb)%nat -> fl_errors_fail fb = false ->
    compile fb = COk b -> full_cnf b = (ok, n', final) ->
    forall q : tseq,
      (exists t, sat t final = true /\ onehot fb t q) <->
      (exists k cand, In k (keys_of fb) /\ decode_key fb k = Some cand /\ accepts fb cand = true /\
                      cand_seq fb cand = q).
Proof. exact sat_eq_random2. Qed.
Print Assumptions C07_sat_eq_random_frag2.

Example C07_example_weighted :
  in_f1 ex3_flat = true /\ frag2 ex3_flat = true /\ frag1 ex3_flat = false /\ (0 < T ex3_flat)%nat /\
  fl_errors_fail ex3_flat = false /\ (exists b, compile ex3_flat = COk b) /\
  length (keys_of ex3_flat) = 96%nat /\ length (accepted_keys ex3_flat) = 32%nat.
Proof. exact sat_eq_random2_example. Qed.
