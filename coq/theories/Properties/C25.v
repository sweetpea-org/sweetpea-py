(** C25 - Nest holds outer levels fixed over each inner run.

    Model side: [create_nest] (Front/Create.v) is what the Nest constructor hands to
    MultiCrossBlockRepeat._create as a function of the attributes it reads from the
    outer and inner block; Front/Trials.v is the trial arithmetic [_create] then
    runs on it.  harness/props/c25.py checks on every run that the real constructor
    and the real arithmetic agree literally with both, and decides the property
    itself on exhausted solution sets against a group specification written in the
    harness (validity of the parts judged by the reference oracle of the outer and of
    the inner block alone).

    [inner_len i] = trials_per_sample() - common_preamble_size() of the inner block;
    [cstart fb c = 0] for every crossing: no preamble trials;
    [wf_trials]: see Properties/C16.v. *)
From Coq Require Import ZArith List Bool Arith.
From SP Require Import Design.Flat Design.Sem Front.Trials Front.TrialsWf Front.TrialsProofs Front.Create
  Front.NestProofs Front.NestSem Front.NestSem2 Front.NestSem3 Front.NestSem4.
Import ListNotations.

(** What Nest(outer, inner, cs) builds: the crossings of both blocks side by side, the
    outer sustain counts (one per outer crossing) multiplied by the inner length, REPEAT mode, the outer
    constraints copied and rescaled ([sustain_within_block]), and no factor of an
    outer crossing in an inner crossing (otherwise the constructor raises). *)
Theorem C25_nest_args :
  forall o i cs al a,
    create_of (BNest o i cs al) = COk a ->
    let L := inner_len i in
    ca_design a = add_new (bi_design o) (bi_design i) /\
    ca_crossings a = bi_crossings o ++ bi_crossings i /\
    ca_sustains a = map (fun sc => L * sc) (firstn (length (bi_crossings o)) (bi_sustains o))
                    ++ firstn (length (bi_crossings i)) (bi_sustains i) /\
    ca_weights a = firstn (length (bi_crossings o)) (bi_weights o) ++ firstn (length (bi_crossings i)) (bi_weights i) /\
    ca_mode a = MRepeat /\
    ca_rcc a = bi_rcc o && bi_rcc i /\
    (exists oc, sustain_all L (bi_orig_constraints o) = Some oc /\
                ca_constraints a = oc ++ from_block 1 i ++ own cs) /\
    (forall c f ic, In c (bi_crossings o) -> In f c -> In ic (bi_crossings i) -> ~ In f ic).
Proof. exact nest_args. Qed.
Print Assumptions C25_nest_args.

(** an outer MinimumTrials(n) becomes MinimumTrials(n * inner length) *)
Theorem C25_nest_scales_minimum_trials :
  forall n c c',
    c_kind c = KMinimumTrials -> sustain_within_block n c = Some c' ->
    c_kind c' = KMinimumTrials /\ c_param c' = (c_param c * Z.of_nat n)%Z.
Proof. exact sustain_min_trials. Qed.
Print Assumptions C25_nest_scales_minimum_trials.

(** Length, no preamble trials: the Nest's trial count is outer trials x inner trials.
    [fn], [fo], [fi]: flat records of the Nest, the outer and the inner block; the Nest's
    crossing sizes are the outer ones times the inner trial count (their factors are
    sustained that long) followed by the inner ones; its rounded min_trials [m_n] is at
    least the scaled outer minimum and the inner minimum and at most the product
    (C25_nest_min_trials gives the exact value when only the outer block has a MinimumTrials). *)
Theorem C25_nest_length :
  forall fn fo fi (T_o T_i m_o m_i m_n : Z),
    wf_trials fn -> wf_trials fo -> wf_trials fi ->
    fl_alignment fn <> PostPreamble -> fl_alignment fo <> PostPreamble -> fl_alignment fi <> PostPreamble ->
    Forall (fun c => cstart fn c = 0) (fl_crossings fn) ->
    Forall (fun c => cstart fo c = 0) (fl_crossings fo) ->
    Forall (fun c => cstart fi c = 0) (fl_crossings fi) ->
    model_trials fo = Some T_o -> model_min_trials fo = Some m_o ->
    model_trials fi = Some T_i -> model_min_trials fi = Some m_i ->
    fl_sizes fn = map (Nat.mul (Z.to_nat T_i)) (fl_sizes fo) ++ fl_sizes fi ->
    model_min_trials fn = Some m_n ->
    (Z.max (T_i * m_o) m_i <= m_n <= T_i * T_o)%Z ->
    model_trials fn = Some (T_o * T_i)%Z.
Proof. exact nest_length. Qed.
Print Assumptions C25_nest_length.

(** the Nest's min_trials when the inner block is not itself sustained: rounding to the
    scaled outer sustain counts commutes with the scaling *)
Theorem C25_nest_min_trials :
  forall (fn fo : flat) (L : nat) (sus_i : list nat) (m_o : Z),
    0 < L -> Forall (fun su => 0 < su) (fl_sustains fo) -> Forall (fun su => su = 1) sus_i ->
    fl_sustains fn = map (Nat.mul L) (fl_sustains fo) ++ sus_i ->
    min_trials_raw fn = (Z.of_nat L * min_trials_raw fo)%Z ->
    model_min_trials fo = Some m_o ->
    model_min_trials fn = Some (Z.of_nat L * m_o)%Z.
Proof. exact nest_min_trials. Qed.
Print Assumptions C25_nest_min_trials.

(** Groups.  [nest_sem So Si] (Front/NestSem.v) is the reference-semantics normal form that
    the arguments of Nest(outer, inner) denote when [So], [Si] are those of the outer and
    inner block: [To * Ti] trials; the outer block's crossed factors with sustain count [Ti];
    the outer crossings with chunks and multiplicities multiplied by [Ti]; the inner crossings
    repeated with their own chunks; the inner constraints with their trial windows repeated in
    every group (harness/docsem.py builds the same form from the documentation of Nest, and
    c25.py compares the two on every run).
    Under the guard [nestable_b So Si] - non-derived factors of sustain count 1, no outer
    constraints, inner constraints of the kinds AtMostKInARow / AtLeastKInARow /
    ExactlyKInARow / ExactlyK with windows inside the inner block, no preamble trials, outer
    crossings over outer factors, inner crossing chunks dividing the inner trial count - a
    sequence is valid for the Nest iff
    ([groups_spec]) it has one row of [To * Ti] cells per factor, every outer factor has one
    of its levels at every trial, and
      (a) the outer block's crossed factors are constant within each group of [Ti] trials,
      (b) the group representatives [reps] satisfy every crossing of the outer block,
      (c) every group [grp g] is a valid sequence of the inner block (crossings and constraints). *)
Theorem C25_nest_groups :
  forall So Si s,
    nestable_b So Si = true ->
    (valid_b (nest_sem So Si) s = true <-> groups_spec So Si s).
Proof. exact nest_groups. Qed.
Print Assumptions C25_nest_groups.

(** The guard is met by Nest(CrossBlock([A],[A],[]), Repeat(CrossBlock([B],[B],[]),[MinimumTrials(4)]))
    (2 x 4 trials): 32 valid sequences, one of them with its representatives and groups. *)
Example C25_example_groups :
  nestable_b ex_sem_outer ex_sem_inner = true /\
  length (all_valid (nest_sem ex_sem_outer ex_sem_inner)) = 32 /\
  valid_b (nest_sem ex_sem_outer ex_sem_inner) ex_nest_seq = true /\
  reps 1 2 4 ex_nest_seq = [[Some 1; Some 0]] /\
  grp 1 4 0 ex_nest_seq = [[Some 0; Some 1; Some 1; Some 0]] /\
  grp 1 4 1 ex_nest_seq = [[Some 1; Some 0; Some 0; Some 1]].
Proof.
  split; [exact ex_nestable|]. split; [exact (proj1 ex_nest_count)|].
  destruct ex_nest_seq_valid as [H1 [H2 [H3 H4]]]. repeat split; assumption.
Qed.

(** ... and with the inner block constraint AtMostKInARow(1, (B, b0)): 3 valid inner runs, 2 x 3 x 3
    valid sequences, the constraint's window repeated per group. *)
Example C25_example_groups_constraint :
  nestable_b ex_sem_outer ex_sem_inner_c = true /\
  length (all_valid ex_sem_inner_c) = 3 /\
  length (all_valid (nest_sem ex_sem_outer ex_sem_inner_c)) = 18 /\
  s_constraints (nest_sem ex_sem_outer ex_sem_inner_c)
  = [{| k_kind := Sem.KAtMost 1; k_factor := 1; k_level := 0; k_windows := [(0, 4); (4, 8)] |}] /\
  valid_b (nest_sem ex_sem_outer ex_sem_inner_c)
          [[Some 1; Some 1; Some 1; Some 1; Some 0; Some 0; Some 0; Some 0];
           [Some 1; Some 0; Some 1; Some 0; Some 0; Some 1; Some 0; Some 1]] = true.
Proof. exact ex_nestable_c. Qed.

(** Wider guards (Front/NestSem2.v).  [nest_sem2 So Si] is the normal form of the Nest for every kind of
    factor and constraint of the reference semantics: the dependencies of inner derived factors are
    renumbered, the outer block's constraints are carried along scaled the way the documentation-side form
    scales them (c25.py compares it with docsem's form of the Nest, layer L1-nestsem2); under [nestable_b]
    it is [nest_sem].  [groups_spec2] is [groups_spec] with
      - "every outer factor has one of its levels at every trial" stated for derived factors as well: the outer
        rows sampled at any offset [j] of the groups ([reps_at], [reps] is offset 0) meet the outer block's
        factor conditions [factor_ok] - level range and, for a derived factor, the level its table gives for
        the levels of its dependencies at that trial; offset 0 suffices for a crossed factor;
      - (d) the group representatives satisfy the outer block's constraints on crossed factors, a run-length
        bound [k] read as [k / Ti] groups; constraints on uncrossed outer factors are read on the whole sequence;
      - (c) as in [groups_spec]: each group is a valid sequence of the inner block, the inner block's
        derived factors included, computed per trial inside the group.
    [groups2_b] decides [groups_spec2]; the harness evaluates both sides of the theorems on every sequence
    the real generator returns for a Nest inside a guard. *)
Theorem C25_nest_sem2_old :
  forall So Si, nestable_b So Si = true -> nest_sem2 So Si = nest_sem So Si.
Proof. exact nest_sem2_old. Qed.
Print Assumptions C25_nest_sem2_old.

Theorem C25_groups2_decided :
  forall So Si s, groups2_b So Si s = true <-> groups_spec2 So Si s.
Proof. exact groups2_b_spec. Qed.
Print Assumptions C25_groups2_decided.

(** Guard 1, [nestable_d_b]: as [nestable_b], but a factor of either block may also be a within-trial
    derived factor (window width 1, stride 1, applied from the first trial) over factors of its own block. *)
Theorem C25_nest_groups_derived :
  forall So Si s,
    nestable_d_b So Si = true ->
    (valid_b (nest_sem2 So Si) s = true <-> groups_spec2 So Si s).
Proof. exact nest_groups_d. Qed.
Print Assumptions C25_nest_groups_derived.

Theorem C25_nestable_d_includes :
  forall So Si, nestable_b So Si = true -> nestable_d_b So Si = true.
Proof. exact nestable_d_includes. Qed.
Print Assumptions C25_nestable_d_includes.

(** Nest(CrossBlock([A, C, wAC], [A], []), CrossBlock([B, D, wBD], [B], [])) with wAC = same(A, C),
    wBD = same(B, D): outside [nestable_b], inside [nestable_d_b]; a valid sequence, its samplings and
    second group, and an invalid one (wrong derived level in the second group). *)
Example C25_example_groups_derived :
  nestable_b ex_outer_d ex_inner_d = false /\ nestable_d_b ex_outer_d ex_inner_d = true /\
  s_trials (nest_sem2 ex_outer_d ex_inner_d) = 4 /\
  map fdeps (s_factors (nest_sem2 ex_outer_d ex_inner_d)) = [[]; []; [0; 1]; []; []; [3; 4]] /\
  valid_b (nest_sem2 ex_outer_d ex_inner_d) ex_seq_d = true /\
  reps_at 3 2 2 0 ex_seq_d = [[Some 0; Some 1]; [Some 0; Some 1]; [Some 0; Some 0]] /\
  reps_at 3 2 2 1 ex_seq_d = [[Some 0; Some 1]; [Some 1; Some 0]; [Some 1; Some 1]] /\
  grp 3 2 1 ex_seq_d = [[Some 1; Some 0]; [Some 1; Some 1]; [Some 0; Some 1]] /\
  valid_b (nest_sem2 ex_outer_d ex_inner_d)
          [[Some 0; Some 0; Some 1; Some 1]; [Some 0; Some 1; Some 1; Some 0]; [Some 0; Some 1; Some 0; Some 1];
           [Some 0; Some 1; Some 1; Some 0]; [Some 0; Some 0; Some 1; Some 1]; [Some 0; Some 1; Some 0; Some 0]] = false.
Proof. exact ex_nestable_d. Qed.

(** Guard 2, [nestable_c_b] (Front/NestSem3.v): as [nestable_d_b], and
    - an inner constraint may also be Exclude, or Pin whose pinned trial group lies inside the inner block
      (the index counts from the start, a negative one from the end, of each group; the outer block then has a trial);
    - the outer block may carry constraints Exclude / ExactlyK / AtMostKInARow on its crossed factors, with
      non-empty windows inside the outer block.  In the Nest their windows are multiplied by [Ti], the count of
      ExactlyK is multiplied by [Ti], the run-length bound of AtMostKInARow is left as it is; clause (d) of
      [groups_spec2] reads them on the group representatives, AtMostKInARow(k) as AtMostKInARow(k / Ti). *)
Theorem C25_nest_groups_constraints :
  forall So Si s,
    nestable_c_b So Si = true ->
    (valid_b (nest_sem2 So Si) s = true <-> groups_spec2 So Si s).
Proof. exact nest_groups_c. Qed.
Print Assumptions C25_nest_groups_constraints.

Theorem C25_nestable_c_includes :
  forall So Si, nestable_d_b So Si = true -> nestable_c_b So Si = true.
Proof. exact nestable_c_includes. Qed.
Print Assumptions C25_nestable_c_includes.

(** Guard 3, [nestable_f_b]: the outer constraints may also sit on uncrossed (free) outer factors, which are
    not held fixed: clause (d) reads such a constraint on the whole sequence (windows and ExactlyK count
    multiplied by [Ti]).  (Free non-derived factors themselves are inside every guard since [nestable_b];
    derived factors over free factors since [nestable_d_b].) *)
Theorem C25_nest_groups_free :
  forall So Si s,
    nestable_f_b So Si = true ->
    (valid_b (nest_sem2 So Si) s = true <-> groups_spec2 So Si s).
Proof. exact nest_groups_f. Qed.
Print Assumptions C25_nest_groups_free.

Theorem C25_nestable_f_includes :
  forall So Si, nestable_c_b So Si = true -> nestable_f_b So Si = true.
Proof. exact nestable_f_includes. Qed.
Print Assumptions C25_nestable_f_includes.

(** outer: 4 trials of A (each level twice) with AtMostKInARow(2, a0) and ExactlyK(2, a0); inner: 2 trials of B
    with Pin(-1, b1).  The run-length bound is not rescaled: one group already is a run of 2 trials, so a0 may
    not be held for two groups in a row (3 of the 6 outer orders remain). *)
Example C25_example_groups_constraints :
  nestable_d_b ex_outer_c ex_inner_c = false /\ nestable_c_b ex_outer_c ex_inner_c = true /\
  s_constraints (nest_sem2 ex_outer_c ex_inner_c)
  = [{| k_kind := Sem.KAtMost 2; k_factor := 0; k_level := 0; k_windows := [(0, 8)] |};
     {| k_kind := Sem.KExactlyK 4; k_factor := 0; k_level := 0; k_windows := [(0, 8)] |};
     {| k_kind := Sem.KPin (-1) 1; k_factor := 1; k_level := 1; k_windows := [(0, 2); (2, 4); (4, 6); (6, 8)] |}] /\
  map (reps_constraint 2) (s_constraints ex_outer_c)
  = [{| k_kind := Sem.KAtMost 1; k_factor := 0; k_level := 0; k_windows := [(0, 4)] |};
     {| k_kind := Sem.KExactlyK 2; k_factor := 0; k_level := 0; k_windows := [(0, 4)] |}] /\
  length (all_valid ex_outer_c) = 6 /\ length (all_valid ex_inner_c) = 1 /\
  length (all_valid (nest_sem2 ex_outer_c ex_inner_c)) = 3.
Proof. exact ex_nestable_c2. Qed.

(** Guard 4, [nestable_s_b] (Front/NestSem4.v): an argument block may itself be a Nest - a crossed outer
    factor may have any positive sustain count (it is multiplied by [Ti] in the Nest), an inner factor any
    positive sustain count dividing the inner trial count [Ti]; everything else as in [nestable_f_b]. *)
Theorem C25_nest_groups_sustained :
  forall So Si s,
    nestable_s_b So Si = true ->
    (valid_b (nest_sem2 So Si) s = true <-> groups_spec2 So Si s).
Proof. exact nest_groups_s. Qed.
Print Assumptions C25_nest_groups_sustained.

Theorem C25_nestable_s_includes :
  forall So Si, nestable_f_b So Si = true -> nestable_s_b So Si = true.
Proof. exact nestable_s_includes. Qed.
Print Assumptions C25_nestable_s_includes.

(** Nest(A, Nest(B, C)) over 2-level factors: the inner block's B has sustain count 2; in the whole Nest
    the sustain counts are 4, 2, 1. *)
Example C25_example_groups_sustained :
  map f_sustain (s_factors ex_inner_nest) = [2; 1] /\
  nestable_f_b (ex_two_levels 2) ex_inner_nest = false /\ nestable_s_b (ex_two_levels 2) ex_inner_nest = true /\
  map f_sustain (s_factors (nest_sem2 (ex_two_levels 2) ex_inner_nest)) = [4; 2; 1].
Proof. destruct ex_nestable_s as [H1 [H2 [H3 [H4 _]]]]. repeat split; assumption. Qed.

(** Constraints of the Nest itself, Nest(outer, inner, ks): they apply to the whole sequence, next to the
    group composition ([nest_sem2_own] appends them, in normal form over the Nest's factor numbering). *)
Theorem C25_nest_groups_own_constraints :
  forall So Si ks s,
    nestable_s_b So Si = true ->
    (valid_b (nest_sem2_own So Si ks) s = true <->
     groups_spec2 So Si s /\ forall k, In k ks -> constraint_ok (nest_sem2 So Si) s k = true).
Proof. exact nest_groups_own. Qed.
Print Assumptions C25_nest_groups_own_constraints.

(** Outside the widest guard [nestable_s_b] (derived factors with windows over several trials, outer Pin /
    Sequential / run-length constraints other than AtMostKInARow, preamble
    trials, inner crossings with a partial last chunk - where the property fails on the real code, c25.py
    finding nest:groups:inner-partial-chunk) the following part holds for every normal form: in the
    reference semantics a non-derived factor with sustain count [su] carries one level per
    group of [su] consecutive trials - the outer levels are held fixed over each inner run.
    Not proved outside the guards: (b), (c), (d) above; the harness decides them on exhausted solution
    sets, as it does associativity of nesting (c25.py). *)
Theorem C25_nest_groups_partial :
  forall (S : sem) (s : tseq) (f : nat) (fd : dfactor) (t t' : nat),
    factor_ok S s f fd = true -> f_derived fd = None -> t < s_trials S -> t' < s_trials S ->
    t / f_sustain fd = t' / f_sustain fd -> get_cell s f t = get_cell s f t'.
Proof. exact sem_sustain_group. Qed.
Print Assumptions C25_nest_groups_partial.

(** The hypotheses of C25_nest_length are met by
    Nest(CrossBlock([A],[A],[MinimumTrials(3)]), CrossBlock([B],[B],[])): 3 x 2 = 6 trials. *)
Example C25_example :
  wf_trials ex_nested /\ wf_trials ex_outer /\ wf_trials ex_inner /\
  model_trials ex_outer = Some 3%Z /\ model_trials ex_inner = Some 2%Z /\
  model_min_trials ex_outer = Some 3%Z /\ model_min_trials ex_inner = Some 0%Z /\
  model_min_trials ex_nested = Some 6%Z /\
  fl_sizes ex_nested = map (Nat.mul (Z.to_nat 2)) (fl_sizes ex_outer) ++ fl_sizes ex_inner /\
  model_trials ex_nested = Some (3 * 2)%Z.
Proof.
  destruct ex_wf as [H1 [H2 H3]]. split; [exact H3|]. split; [exact H1|]. split; [exact H2|]. repeat split.
Qed.

Example C25_example_args :
  exists a, create_of (BNest ex_outer_b ex_inner_b [] None) = COk a /\
    ca_crossings a = [[0]; [1]] /\ ca_sustains a = [2; 1] /\
    map (fun oc => c_param (snd oc)) (ca_constraints a) = [6%Z].
Proof. eexists. split; [reflexivity | repeat split]. Qed.

(** An outer block without crossing (it still carries a placeholder sustain count and weight)
    contributes none to the Nest: the inner crossing keeps its own sustain count 1.
    (Before /repo commit c5d7328 the placeholder shifted onto the inner crossing:
    c25.py finding nest:groups:inner-invalid.) *)
Example C25_example_outer_without_crossing :
  bi_crossings ex_outer_empty_b = [] /\ bi_sustains ex_outer_empty_b = [1] /\
  exists a, create_of (BNest ex_outer_empty_b ex_inner_b [] None) = COk a /\
    ca_crossings a = [[1]] /\ ca_sustains a = [1] /\ ca_weights a = [1%Z] /\
    map (fun oc => c_param (snd oc)) (ca_constraints a) = [4%Z].
Proof. split; [reflexivity | split; [reflexivity | eexists; split; [reflexivity | repeat split]]]. Qed.
