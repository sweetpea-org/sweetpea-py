(** C27 - Solver input and output text is faithful.

    Token-level model (Text/Tok.v: a file is the list of its lines, a line the
    list of its whitespace-separated tokens; [str(int)], [int(str)] and blanks
    are trusted) of the DIMACS text written by [CNF.__str__] /
    [as_dimacs_string] / [as_unigen_string] / [save_cnf], of the two parsers
    that read it back ([_use_pycryptosat_library], [parse_cnf_file]), of the
    solver-output formatting and parsing, and of [sample_non_uniform.update_file].
    [nonzero c]: no literal of [c] is 0 (the invariant of [Var]).
    [no_empty_clause cls]: [cls] has no empty clause.

    Full statement of the parse/print part, for EVERY clause list:
      both parsers recover exactly the clauses written.
    That is false of the code when a clause is empty (both parsers drop the
    line [0]): [C27_parse_print_empty_clause_refuted]; the guarded statement is
    [C27_parse_print]; [C27_parse_print_general] says what is recovered in
    general (the non-empty clauses, in reversed order).

    CHARACTER level (the [..._chars] theorems at the end): Text/Chars.v models
    [str(int)], [int(str)], [str.split()], [str.strip()], [' '.join],
    [split('\n')], [replace('\n', x, 1)] on ASCII strings; Text/TextChars.v
    writes the TEXT of each writer character by character as the Python code
    does (compared byte for byte with the real files by the harness), and reads
    a text by cutting it into lines and words and classifying the words
    ([lex_file]) before the token-level parser runs.  [C27_chars_layer] are the
    round trips of the primitives, [C27_text_lexes_to_tokens] says that the
    written text IS the token file of the token-level model, and the
    theorems whose name ends in _chars are the token-level statements about the text.  What
    stays trusted at this level: the texts are ASCII, CPython's [str(int)] /
    [int(str)] / [split] behave as modelled (Text/Chars.v states the accepted
    strings exactly), and the readers see canonical decimals and single blanks
    after ["c"] / ["p"] (true of every text the writers produce, by
    [C27_text_lexes_to_tokens]). *)
From Coq Require Import String Ascii ZArith List Bool Lia Permutation.
From SP Require Import Base.Sat Text.Tok Text.TokProofs Text.Dimacs Text.SolverIO.
From SP Require Import Text.DimacsProofs Text.SolverIOProofs Text.TextTheorems.
From SP Require Import Text.Chars Text.CharsProofs Text.TextChars Text.TextCharsProofs Text.TextCharsUpdate.
Import ListNotations.
Open Scope Z_scope.

(** What [save_cnf] / [combine_and_save_cnf] write for the clauses [cls] and
    [support = n] is read back by both parsers as exactly those clauses (in
    reversed order: a permutation) with the declared variable count, and
    [parse_cnf_file] recovers the sampling set [1..n]. *)
Theorem C27_parse_print : forall (cls : cnf) n,
  (forall c, In c cls -> nonzero c) -> no_empty_clause cls ->
  parse_cms (save_cnf_lines cls (Some n)) = Some (cnf_num_vars cls, rev cls) /\
  parse_unigen (save_cnf_lines cls (Some n)) = Some (rev cls, support_set n, cnf_num_vars cls) /\
  Permutation (rev cls) cls.
Proof. exact parse_print. Qed.
Print Assumptions C27_parse_print.

(** Any header count, any list of sampled variables (the [sampled_variables]
    form of [as_unigen_string], chunked into [c ind] lines of 10), plain
    [as_dimacs_string] text, empty clauses allowed: the parsers recover the
    non-empty clauses and the sorted set of the sampled variables. *)
Theorem C27_parse_print_general : forall nv ss (cls : cnf),
  nonzero ss -> (forall c, In c cls -> nonzero c) ->
  parse_cms (unigen_lines nv ss cls) = Some (nv, nonempty_clauses (rev cls)) /\
  parse_unigen (unigen_lines nv ss cls) = Some (nonempty_clauses (rev cls), sort_uniq ss, nv) /\
  parse_cms (dimacs_lines nv cls) = Some (nv, nonempty_clauses (rev cls)).
Proof.
  intros nv ss cls Hss Hcls. split; [apply parse_cms_unigen_lines|].
  split; [now apply parse_unigen_unigen_lines|].
  exact (parse_cms_unigen_lines nv [] cls).
Qed.
Print Assumptions C27_parse_print_general.

(** Unguarded, the statement is false: an empty clause is lost by both parsers,
    and an unsatisfiable formula is read back as a satisfiable one. *)
Theorem C27_parse_print_empty_clause_refuted :
  exists cls s cs,
    sat s cls = false /\
    parse_cms (save_cnf_lines cls (Some 1)) = Some (cnf_num_vars cls, cs) /\
    parse_unigen (save_cnf_lines cls (Some 1)) = Some (cs, [1], cnf_num_vars cls) /\
    sat s cs = true /\ ~ Permutation cs cls.
Proof. exact parse_print_empty_clause_refuted. Qed.
Print Assumptions C27_parse_print_empty_clause_refuted.

(** The sampling set handed to pyunigen / used by pycmsgen is exactly the
    trial-sequence variables [1..n].  [solve] is the pycryptosat pre-check of
    [call_unigen_python] (the solver is not modelled): the sampler is called,
    with the clauses written and the sampling set [1..n], exactly when the
    pre-check answers "satisfiable". *)
Theorem C27_sampling_set : forall solve (cls : cnf) n,
  (forall c, In c cls -> nonzero c) -> no_empty_clause cls -> cls <> [] -> 1 <= n ->
  (solve (rev cls) = true ->
   sampler_input solve (save_cnf_lines cls (Some n)) = Some (Some (rev cls, support_set n))) /\
  (solve (rev cls) = false ->
   sampler_input solve (save_cnf_lines cls (Some n)) = Some None) /\
  (forall v, In v (support_set n) <-> 1 <= v <= n).
Proof.
  intros solve cls n Hnz Hne Hcls Hn.
  assert (E0 : nonempty_clauses (rev cls) = rev cls)
    by (apply nonempty_clauses_id; now apply no_empty_clause_rev).
  assert (N : nonempty_clauses (rev cls) <> []).
  { rewrite E0. intros E. apply Hcls. destruct cls as [|c r]; [reflexivity|].
    cbn [rev] in E. now destruct (rev r). }
  split; [|split; [|apply support_set_spec]].
  - intros Hs. rewrite <- E0 in Hs.
    rewrite (save_cnf_sampler_input solve cls n Hnz Hn N Hs). do 3 f_equal. exact E0.
  - intros Hs. rewrite <- E0 in Hs. exact (save_cnf_sampler_input_unsat solve cls n Hnz Hs).
Qed.
Print Assumptions C27_sampling_set.

(** The header: [p cnf N M] with [M] the number of clauses and [N] the highest
    variable index in use - every literal is within [1..N], and [N] is attained.
    (Holds for every clause list since /repo commit 1334ca3; /repo before that
    commit declared the number of DISTINCT variables, too few when the numbering
    has gaps.) *)
Theorem C27_header_vars : forall (cls : cnf) support,
  hd [] (save_cnf_lines cls support) = header (cnf_num_vars cls) (Z.of_nat (length cls)) /\
  (forall c l, In c cls -> In l c -> Z.abs l <= cnf_num_vars cls) /\
  (0 < cnf_num_vars cls -> exists c l, In c cls /\ In l c /\ Z.abs l = cnf_num_vars cls).
Proof. exact header_vars. Qed.
Print Assumptions C27_header_vars.

(** For the output of [compile], whose variables are exactly [1..n]: *)
Theorem C27_header_vars_contiguous : forall (cls : cnf) n,
  0 <= n -> (forall v, In v (map Z.abs (concat cls)) <-> 1 <= v <= n) -> cnf_num_vars cls = n.
Proof. exact header_vars_contiguous. Qed.
Print Assumptions C27_header_vars_contiguous.

(** Solver output: the text [_use_pycryptosat_library] prints for a model [bs]
    (values of variables 1, 2, ...) is parsed by [cryptominisat_solve] into the
    literals of [bs] followed by the terminating 0; [compute_solutions] keeps
    the first [support] of them, which are the literals of [bs] on the support
    variables as long as [support <= length bs]; and a literal list denotes
    exactly the assignment it was made from. *)
Theorem C27_solver_output_roundtrip : forall bs support,
  0 <= support <= Z.of_nat (length bs) ->
  parse_v_lines (cms_output bs) = Some (lits_of bs ++ [0]) /\
  solve_result (cms_output bs) support = Some (lits_of (firstn (Z.to_nat support) bs)) /\
  (forall s, forallb (lit_true s) (lits_of bs) = true <-> asg_matches s 1 bs).
Proof. exact solver_output_roundtrip. Qed.
Print Assumptions C27_solver_output_roundtrip.

(** The guard [support <= length bs] is needed: otherwise the 0 leaks. *)
Theorem C27_solver_output_terminator_leaks :
  exists bs support l, solve_result (cms_output bs) support = Some l /\ In 0 l.
Proof. exact solve_result_terminator_leaks. Qed.
Print Assumptions C27_solver_output_terminator_leaks.

(** CLI-shaped output: the literals spread over any number of [v] lines. *)
Theorem C27_solver_output_cli : forall chunks,
  parse_v_lines (cli_output chunks) = Some (concat chunks).
Proof. exact parse_v_cli_output. Qed.
Print Assumptions C27_solver_output_cli.

(** Sampler output ([call_unigen_python], [call_cmsgen_python], then
    [sample_uniform]'s filter and [build_solution]): the samples come back
    unchanged (frequency 1 for Unigen's [0:1], 0 for CMSGen's [0]). *)
Theorem C27_sampler_output_roundtrip :
  (forall samples, parse_sampler_output (unigen_format samples)
                   = Some (map (fun smp => (smp, 1)) samples)) /\
  (forall ss sols, parse_sampler_output (cmsgen_format ss sols)
                   = Some (map (fun sol => (map (cms_lit sol) ss, 0)) sols)) /\
  (forall sol v, 0 < v < Z.of_nat (length sol) ->
                 cms_lit sol v = if nth (Z.to_nat v) sol false then v else - v).
Proof.
  split; [apply parse_sampler_unigen|]. split; [apply parse_sampler_cmsgen|apply cms_lit_known].
Qed.
Print Assumptions C27_sampler_output_roundtrip.

(** The update between iterations, for any file whose first non-blank line is
    a header [p cnf nv m] (in particular every file written by [save_cnf], and
    again every updated file: the step iterates): the new file has the header
    [p cnf nv (m+1)], both parsers read the old clauses plus the one clause
    [blocking_clause sol], same variable count and sampling set, and an
    assignment satisfies that clause iff it falsifies some literal of [sol]. *)
Theorem C27_update_file_blocks : forall f nv m rest sol,
  has_header f nv m rest -> sol <> [] -> nonzero sol ->
  exists f',
    update_file f sol = Some f' /\
    has_header f' nv (m + 1) (rest ++ [clause_line (blocking_clause sol)]) /\
    (forall n cs, parse_cms f = Some (n, cs) ->
                  parse_cms f' = Some (n, cs ++ [blocking_clause sol])) /\
    (forall cs ss n, parse_unigen f = Some (cs, ss, n) ->
                     parse_unigen f' = Some (cs ++ [blocking_clause sol], ss, n)) /\
    (forall s, csat s (blocking_clause sol) = negb (forallb (lit_true s) sol)).
Proof. exact update_file_blocks. Qed.
Print Assumptions C27_update_file_blocks.

(** With [sol] the previous solution [p] on the support [1..n]: the added
    clause excludes exactly the assignments that agree with [p] on the support. *)
Theorem C27_blocking_excludes_exactly : forall s p n,
  csat s (blocking_clause (sol_of p n)) = true <-> ~ agree_upto n s p.
Proof. exact blocking_excludes_exactly. Qed.
Print Assumptions C27_blocking_excludes_exactly.

(** [sol <> []] is needed: for [support = 0] the blocking clause is the empty
    clause, which the parser drops - nothing is excluded. *)
Theorem C27_update_file_empty_solution_refuted :
  exists f f' n cs,
    has_header f 2 1 [[]; [TI 1; TI 2; TI 0]] /\
    update_file f [] = Some f' /\
    parse_cms f = Some (n, cs) /\ parse_cms f' = Some (n, cs).
Proof.
  exists (save_cnf_lines [[1; 2]] (Some 0)).
  eexists. exists 2, [[1; 2]]. repeat split; vm_compute; reflexivity.
Qed.
Print Assumptions C27_update_file_empty_solution_refuted.

(** * Character level *)

(** [int(str(z)) = z]; [str(z)] is one word without blank or newline;
    [' '.join(toks).split() = toks] for words; tokenising the printed line of
    a clause gives back its tokens, and [int] of those the literals and the 0. *)
Theorem C27_chars_layer :
  (forall z, Z_of_string (string_of_Z z) = Some z) /\
  (forall z, is_word_s (string_of_Z z) = true /\ no_nl (string_of_Z z) = true) /\
  (forall toks, words toks -> split_ws (join sp toks) = toks) /\
  (forall c : list Z,
     split_ws (join sp (map string_of_Z c) +s+ sp +s+ string_of_Z 0) = map string_of_Z (c ++ [0]) /\
     map_opt_s Z_of_string (split_ws (join sp (map string_of_Z c) +s+ sp +s+ string_of_Z 0)) = Some (c ++ [0])).
Proof.
  split; [exact Z_of_string_of_Z|]. split; [intros z; split; [apply string_of_Z_word|apply string_of_Z_no_nl]|].
  split; [exact split_ws_join|]. intros c. split; [apply split_ws_clause_line|apply ints_of_clause_line].
Qed.
Print Assumptions C27_chars_layer.

(** The text of every writer, cut into lines ([split('\n')]) and words
    ([split()]), is exactly the token file of the token-level model - for every
    clause list, empty clauses (written [" 0"]) included. *)
Theorem C27_text_lexes_to_tokens :
  (forall cls support, lex_file (save_cnf_text cls support) = save_cnf_lines cls support) /\
  (forall nv ss cls, lex_file (unigen_text nv ss cls) = unigen_lines nv ss cls) /\
  (forall nv cls, lex_file (dimacs_text nv cls) = dimacs_lines nv cls) /\
  (forall cls, lex_file (str_text cls) = str_lines cls ++ [[]]) /\
  (forall bs, lex_file (cms_output_text bs) = cms_output bs).
Proof.
  split; [exact lex_save_cnf_text|]. split; [exact lex_unigen_text|]. split; [exact lex_dimacs_text|].
  split; [exact lex_str_text|exact lex_cms_output_text].
Qed.
Print Assumptions C27_text_lexes_to_tokens.

(** [C27_parse_print] about the TEXT: parsing the characters written by
    [save_cnf] recovers the clauses, the variable count and the sampling set. *)
Theorem C27_parse_print_chars : forall (cls : cnf) n,
  (forall c, In c cls -> nonzero c) -> no_empty_clause cls ->
  parse_cms_text (save_cnf_text cls (Some n)) = Some (cnf_num_vars cls, rev cls) /\
  parse_unigen_text (save_cnf_text cls (Some n)) = Some (rev cls, support_set n, cnf_num_vars cls) /\
  Permutation (rev cls) cls.
Proof.
  intros cls n. unfold parse_cms_text, parse_unigen_text. rewrite lex_save_cnf_text. apply parse_print.
Qed.
Print Assumptions C27_parse_print_chars.

Theorem C27_parse_print_general_chars : forall nv ss (cls : cnf),
  nonzero ss -> (forall c, In c cls -> nonzero c) ->
  parse_cms_text (unigen_text nv ss cls) = Some (nv, nonempty_clauses (rev cls)) /\
  parse_unigen_text (unigen_text nv ss cls) = Some (nonempty_clauses (rev cls), sort_uniq ss, nv) /\
  parse_cms_text (dimacs_text nv cls) = Some (nv, nonempty_clauses (rev cls)).
Proof.
  intros nv ss cls. unfold parse_cms_text, parse_unigen_text. rewrite lex_unigen_text, lex_dimacs_text.
  apply C27_parse_print_general.
Qed.
Print Assumptions C27_parse_print_general_chars.

(** The empty clause at character level: its line is [" 0"] (a blank and the
    terminator), which both parsers skip. *)
Theorem C27_parse_print_empty_clause_chars_refuted :
  exists cls s cs,
    lines (save_cnf_text cls (Some 1))
    = ["p cnf 1 2"; "c ind 1 0"; " 0"; "1 0"; ""]%string /\
    sat s cls = false /\
    parse_cms_text (save_cnf_text cls (Some 1)) = Some (cnf_num_vars cls, cs) /\
    parse_unigen_text (save_cnf_text cls (Some 1)) = Some (cs, [1], cnf_num_vars cls) /\
    sat s cs = true /\ ~ Permutation cs cls.
Proof.
  exists [[1]; []], (fun _ => true), [[1]].
  split; [vm_compute; reflexivity|]. split; [reflexivity|].
  split; [vm_compute; reflexivity|]. split; [vm_compute; reflexivity|]. split; [reflexivity|].
  intros P. apply Permutation_length in P. discriminate.
Qed.
Print Assumptions C27_parse_print_empty_clause_chars_refuted.

(** The text is the plain rendering of the token file (one blank between
    tokens) except for the empty clause, where the writer's line begins with a
    blank; the tokens are the same. *)
Theorem C27_render_empty_clause_refuted :
  render_line (clause_line []) <> clause_text [] /\ lex_line (clause_text []) = clause_line [].
Proof. exact render_empty_clause_refuted. Qed.
Print Assumptions C27_render_empty_clause_refuted.

Theorem C27_sampling_set_chars : forall solve (cls : cnf) n,
  (forall c, In c cls -> nonzero c) -> no_empty_clause cls -> cls <> [] -> 1 <= n ->
  (solve (rev cls) = true ->
   sampler_input_text solve (save_cnf_text cls (Some n)) = Some (Some (rev cls, support_set n))) /\
  (solve (rev cls) = false ->
   sampler_input_text solve (save_cnf_text cls (Some n)) = Some None).
Proof.
  intros solve cls n H1 H2 H3 H4. unfold sampler_input_text. rewrite lex_save_cnf_text.
  destruct (C27_sampling_set solve cls n H1 H2 H3 H4) as [A [B _]]. now split.
Qed.
Print Assumptions C27_sampling_set_chars.

(** The first line of the file, as characters and as words. *)
Theorem C27_header_vars_chars : forall (cls : cnf) support,
  hd EmptyString (lines (save_cnf_text cls support))
  = "p cnf " +s+ string_of_Z (cnf_num_vars cls) +s+ sp +s+ string_of_Z (Z.of_nat (length cls)) /\
  split_ws (hd EmptyString (lines (save_cnf_text cls support)))
  = ["p"%string; "cnf"%string; string_of_Z (cnf_num_vars cls); string_of_Z (Z.of_nat (length cls))] /\
  (forall c l, In c cls -> In l c -> Z.abs l <= cnf_num_vars cls) /\
  (0 < cnf_num_vars cls -> exists c l, In c cls /\ In l c /\ Z.abs l = cnf_num_vars cls).
Proof.
  intros cls support. split; [apply save_cnf_first_line|]. split.
  - rewrite save_cnf_first_line. destruct (hdr_text_words (cnf_num_vars cls) (Z.of_nat (length cls))) as [-> W].
    now apply split_ws_join.
  - split; [apply header_vars_bound|apply header_vars_tight].
Qed.
Print Assumptions C27_header_vars_chars.

Theorem C27_solver_output_roundtrip_chars : forall bs support,
  0 <= support <= Z.of_nat (length bs) ->
  parse_v_text (cms_output_text bs) = Some (lits_of bs ++ [0]) /\
  solve_result_text (cms_output_text bs) support = Some (lits_of (firstn (Z.to_nat support) bs)) /\
  (forall s, forallb (lit_true s) (lits_of bs) = true <-> asg_matches s 1 bs).
Proof.
  intros bs support. unfold parse_v_text, solve_result_text. rewrite lex_cms_output_text. apply solver_output_roundtrip.
Qed.
Print Assumptions C27_solver_output_roundtrip_chars.

(** [sample_non_uniform.update_file] on the characters of ANY text [s]
    ([text.strip().splitlines()], the header rebuilt from its first four
    words with [int(segments[3]) + 1], the other lines kept verbatim, the
    negated solution appended, no trailing newline): whenever the token-level
    step succeeds on the tokens of [s], the character-level step succeeds and
    writes a text whose tokens are the token-level result.  (The converse
    fails only where the real [int()] is more liberal than the token level: a
    clause count written "007".) *)
Theorem C27_update_file_chars : forall s sol f',
  update_file (lex_file s) sol = Some f' ->
  exists t, update_file_text s sol = Some t /\ lex_file t = f'.
Proof.
  intros s sol f'. apply update_file_text_correct.
Qed.
Print Assumptions C27_update_file_chars.

(** [text.strip()] on the characters is the removal of the blank lines at both
    ends of the token file. *)
Theorem C27_strip_chars : forall s,
  (strip s = EmptyString -> strip_file (lex_file s) = []) /\
  (strip s <> EmptyString -> lex_file (strip s) = strip_file (lex_file s)).
Proof. exact lex_strip. Qed.
Print Assumptions C27_strip_chars.

(** [C27_update_file_blocks] about the text. *)
Theorem C27_update_file_blocks_chars : forall s nv m rest sol,
  has_header (lex_file s) nv m rest -> sol <> [] -> nonzero sol ->
  exists t,
    update_file_text s sol = Some t /\
    has_header (lex_file t) nv (m + 1) (rest ++ [clause_line (blocking_clause sol)]) /\
    (forall n cs, parse_cms_text s = Some (n, cs) ->
                  parse_cms_text t = Some (n, cs ++ [blocking_clause sol])) /\
    (forall cs ss n, parse_unigen_text s = Some (cs, ss, n) ->
                     parse_unigen_text t = Some (cs ++ [blocking_clause sol], ss, n)).
Proof.
  intros s nv m rest sol H Hne Hnz.
  destruct (update_file_blocks (lex_file s) nv m rest sol H Hne Hnz) as [f' [U [HH [PC [PU _]]]]].
  destruct (update_file_text_correct s sol f' U) as [t [T L]].
  exists t. unfold parse_cms_text, parse_unigen_text. rewrite L. repeat split; assumption.
Qed.
Print Assumptions C27_update_file_blocks_chars.

(** [C27_sampler_output_roundtrip] about the text returned by
    [call_unigen_python] (["v ... 0:1"] lines, [""] without samples) and
    [call_cmsgen_python] (["v ... 0"] lines; without any solution it returns
    ["\n"], which still parses to no sample). *)
Theorem C27_sampler_output_roundtrip_chars :
  (forall samples, lex_file (unigen_format_text samples) = unigen_format samples /\
                   parse_sampler_text (unigen_format_text samples)
                   = Some (map (fun smp => (smp, 1)) samples)) /\
  (forall ss sols, sols <> [] ->
                   lex_file (cmsgen_format_text ss sols) = cmsgen_format ss sols) /\
  (forall ss sols, parse_sampler_text (cmsgen_format_text ss sols)
                   = Some (map (fun sol => (map (cms_lit sol) ss, 0)) sols)).
Proof.
  split; [|split].
  - intros samples. split; [apply lex_unigen_format_text|].
    unfold parse_sampler_text. rewrite lex_unigen_format_text. apply parse_sampler_unigen.
  - intros ss sols H. now apply lex_cmsgen_format_text.
  - intros ss sols. unfold parse_sampler_text. destruct sols as [|s r]; [reflexivity|].
    rewrite lex_cmsgen_format_text by discriminate. apply parse_sampler_cmsgen.
Qed.
Print Assumptions C27_sampler_output_roundtrip_chars.

(** The hypotheses are satisfiable by non-trivial objects. *)
Example C27_instance_parse_print :
  let cls := [[1; -2]; [3]; [-1; 2; 4]] in
  (forall c, In c cls -> nonzero c) /\ no_empty_clause cls /\ cls <> [] /\
  save_cnf_lines cls (Some 12)
  = [ [TW "p"; TW "cnf"; TI 4; TI 3];
      [TW "c"; TW "ind"; TI 1; TI 2; TI 3; TI 4; TI 5; TI 6; TI 7; TI 8; TI 9; TI 10; TI 0];
      [TW "c"; TW "ind"; TI 11; TI 12; TI 0];
      [TI (-1); TI 2; TI 4; TI 0]; [TI 3; TI 0]; [TI 1; TI (-2); TI 0]; [] ].
Proof.
  cbv zeta. split; [|split; [|split; [discriminate|reflexivity]]].
  - intros c [<-|[<-|[<-|[]]]] l Hl; cbn in Hl; intuition lia.
  - intros [F|[F|[F|[]]]]; discriminate.
Qed.

Example C27_instance_update :
  let f := save_cnf_lines [[1; -2]; [2; 3]] (Some 2) in
  has_header f 3 2 [[TW "c"; TW "ind"; TI 1; TI 2; TI 0]; [TI 2; TI 3; TI 0]; [TI 1; TI (-2); TI 0]] /\
  sol_of (fun v => v =? 1) 2 = [1; -2] /\
  update_file f [1; -2]
  = Some [ [TW "p"; TW "cnf"; TI 3; TI 3]; [TW "c"; TW "ind"; TI 1; TI 2; TI 0];
           [TI 2; TI 3; TI 0]; [TI 1; TI (-2); TI 0]; [TI (-1); TI 2; TI 0] ].
Proof. cbv zeta. repeat split; vm_compute; reflexivity. Qed.

Example C27_instance_solver_output :
  0 <= 2 <= Z.of_nat (length [true; false; true]) /\
  cms_output [true; false; true]
  = [ [TW "s"; TW "SATISFIABLE"]; [TW "v"; TI 1; TI (-2); TI 3; TI 0]; [] ] /\
  solve_result (cms_output [true; false; true]) 2 = Some [1; -2].
Proof. split; [cbn; lia|]. split; vm_compute; reflexivity. Qed.

Example C27_instance_chars :
  let cls := [[1; -2]; [3]; [-1; 2; 4]] in
  save_cnf_text cls (Some 12)
  = ("p cnf 4 3" +s+ nl_s +s+ "c ind 1 2 3 4 5 6 7 8 9 10 0" +s+ nl_s +s+ "c ind 11 12 0" +s+ nl_s
     +s+ "-1 2 4 0" +s+ nl_s +s+ "3 0" +s+ nl_s +s+ "1 -2 0" +s+ nl_s)%string /\
  cms_output_text [true; false; true] = ("s SATISFIABLE" +s+ nl_s +s+ "v 1 -2 3 0" +s+ nl_s)%string /\
  update_file_text (save_cnf_text [[1; -2]; [2; 3]] (Some 2)) [1; -2]
  = Some ("p cnf 3 3" +s+ nl_s +s+ "c ind 1 2 0" +s+ nl_s +s+ "2 3 0" +s+ nl_s +s+ "1 -2 0" +s+ nl_s
          +s+ "-1 2 0")%string /\
  map Z_of_string ["12"; "-7"; "007"; "+5"; "1_0"; " 3 "; "-"; "1__0"; "x"]%string
  = [Some 12; Some (-7); Some 7; Some 5; Some 10; Some 3; None; None; None].
Proof. cbv zeta. repeat split; vm_compute; reflexivity. Qed.
