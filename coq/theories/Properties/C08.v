(** C08 - Synthesis never fails internally on an accepted design.

    What is proved about the models of the formula-based pipeline
    (Encode/Compile.v = [Block.build_backend_request] and every
    [Constraint.apply]; Core/Card.v = [combine_cnf_with_requests];
    Sample/Decode.v = [Gen.decode]); the correspondence run ties the error
    constructors of the model to the exception classes of the real code.
    [C08_compile_total_f1]: on the fragment F1 (CodeSem.in_f1) with at least
    one trial the compilation returns no error constructor.  The hypothesis
    [0 < T fb] is needed: with no trial [Cross.apply] indexes
    [crossing_combinations[0]] of an empty list (IndexError in the code,
    [CErr CIndexError] in the model); real blocks always have a trial.
    [C08_full_cnf_total]: the cardinality stage succeeds (ok = true) on every
    request list whose variable lists are non-empty, with non-negative k and
    variables below [b_fresh]; [C08_full_cnf_empty_list_refuted]: an EMPTY
    variable list makes it fail - the real code raises
    ValueError('cannot take pop count of empty list') (reachable only through
    [ExactlyK] on an empty window; excluded from F1 by [constraint_f1]).
    [C08_inarow_short_window_total]: AtLeastKInARow / ExactlyKInARow succeed
    for every k and every window length, in particular windows shorter than k
    (the branches added by /repo 0e49512; before, IndexError).
    [C08_decode_total]: [Gen.decode] of a one-hot assignment returns a dict.
    Outside F1 C08 is decided by the correspondence of error classes and the
    search only. *)
From Coq Require Import ZArith List Bool.
From SP Require Import Base.Sat Base.Bits Design.Flat Design.Layout.
From SP Require Import Encode.Compile Encode.CodeSem Encode.Generic Encode.CompileCorollaries Encode.Totality.
From SP Require Core.Card Sample.Decode Sample.DecodeProofs Design.LayoutWf Sample.DecodeWf.
From SP Require Random.Enum Random.Frag Random.Frag2Thms Random.KeysCount.

Theorem C08_compile_total_f1 :
  forall fb : flat, in_f1 fb = true -> (0 < T fb)%nat -> exists b, compile fb = COk b.
Proof. exact compile_total_f1. Qed.
Print Assumptions C08_compile_total_f1.

Theorem C08_full_cnf_total :
  forall b : backend,
    (1 <= b_fresh b)%Z -> Forall (req_ok (b_fresh b - 1)) (b_requests b) ->
    exists n' final, full_cnf b = (true, n', final).
Proof. exact full_cnf_total. Qed.
Print Assumptions C08_full_cnf_total.

Theorem C08_full_cnf_empty_list_refuted :
  exists b, In (Card.EQ, 1%Z, nil) (b_requests b) /\ fst (fst (full_cnf b)) = false.
Proof. exact full_cnf_empty_list. Qed.
Print Assumptions C08_full_cnf_empty_list_refuted.

(** /repo 4d027cb: [ExactlyK] on a window in which the factor has no level adds And([1, -1]) (k <> 0) or nothing
    (k = 0) instead of an EQ request on no variable: no request of its contribution has an empty variable list,
    for every record (inside F1 or not), so the compilation does not reach the error above through [ExactlyK] *)
Theorem C08_exactlyk_empty_list_total :
  forall (fb : flat) (k f l : nat) (wb : option geometry) (fresh : Z) (ct : contrib),
    apply_exactlyk fb k f l wb fresh = COk ct ->
    Forall (fun q : req => snd q <> nil) (ct_requests ct).
Proof. exact exactlyk_empty_list_total. Qed.
Print Assumptions C08_exactlyk_empty_list_total.

Theorem C08_inarow_short_window_total :
  forall (fb : flat) (k f l : nat) (wb : option geometry) (fresh : Z) (vls : list (list nat)),
    var_lists fb f l wb = COk vls ->
    (exists ct, apply_atleast fb k f l wb fresh = COk ct) /\
    (exists ct, apply_exactlykinarow fb k f l wb fresh = COk ct).
Proof. exact inarow_short_window_total. Qed.
Print Assumptions C08_inarow_short_window_total.

Theorem C08_decode_total :
  forall fb : flat,
    LayoutWf.wf_layout fb = true -> DecodeWf.act_keys_distinct fb = true -> (1 <= fl_trials fb)%nat ->
    forall s : nat -> nat -> nat,
      (forall f t, DecodeProofs.cell fb f t -> (s f t < nlevels fb f)%nat) ->
      forall sol : list Z, NoDup sol ->
        (forall v, (1 <= v <= variables_per_sample fb)%nat ->
                   (In (Z.of_nat v) sol <->
                    exists f t, DecodeProofs.cell fb f t /\ encode_variable fb f (s f t) t = Some v)) ->
        exists d, Decode.decode fb sol = Decode.DOk d.
Proof. exact decode_total. Qed.
Print Assumptions C08_decode_total.

(** the hypotheses are satisfiable: the colour x text design with a derived
    factor compiles; k = 5 on its 4-trial window succeeds for both encoders *)
Example C08_example :
  in_f1 ex_stroop = true /\ (0 < T ex_stroop)%nat /\ (exists b, compile ex_stroop = COk b).
Proof. exact c08_example. Qed.
Example C08_short_window_example :
  exists c1 c2, apply_atleast ex_stroop 5 0 0 None 100%Z = COk c1 /\
                apply_exactlykinarow ex_stroop 5 0 0 None 100%Z = COk c2.
Proof. exact inarow_short_example. Qed.

(** RandomGen, every design: once the partition of the design ([enum_base_of]) and the filter of the source
    combinations ([valid_sources]; the known KeyError of the derived-source chain arises there) have succeeded and the
    crossing is not empty, the rest of [UCSolutionEnumerator.__init__] (both [__count_solutions] calls) and the listing
    of all keys return: no exception constructor and no fuel exhaustion (C13 totality). *)
Theorem C08_random_enumerator_total : forall (fb : flat) (eb : Random.Enum.enum_base) (vs : list (list nat)),
  Random.Enum.enum_base_of fb = Random.Enum.ROk eb -> Random.Enum.valid_sources fb eb = Random.Enum.ROk vs ->
  Random.Enum.eb_csize eb <> 0%Z ->
  exists (en : Random.Enum.enumerator) (ks : list Random.Enum.key),
    Random.Enum.make_enumerator fb = Random.Enum.ROk en /\ Random.Enum.all_keys fb en = Random.Enum.ROk ks /\
    Random.Enum.en_base en = eb /\ Random.Enum.en_valid en = vs.
Proof. exact Random.KeysCount.enumerator_total. Qed.
Print Assumptions C08_random_enumerator_total.

(** RandomGen: on the fragment [Frag.frag2] (Properties/C04.v) the model of
    [UCSolutionEnumerator] / [RandomGen.__sample] (Random/Enum.v) returns no error
    value: the enumerator is built, the key list is listed, every key is decoded
    to a candidate and the rejection test returns a verdict on it (no exception
    constructor, in particular no fuel exhaustion of the memoised counter:
    C13 totality). *)
Theorem C08_random_total_frag2 : forall (fb : flat), Random.Frag.frag2 fb = true ->
  exists (en : Random.Enum.enumerator) (ks : list Random.Enum.key),
    Random.Enum.make_enumerator fb = Random.Enum.ROk en /\ Random.Enum.all_keys fb en = Random.Enum.ROk ks /\
    forall k, In k ks ->
      exists (r : Random.Enum.run) (v : bool),
        Random.Enum.decode_with fb en k = Random.Enum.ROk r /\
        Random.Enum.are_constraints_violated fb en r = Random.Enum.ROk v.
Proof. exact Random.Frag2Thms.f2_total. Qed.
Print Assumptions C08_random_total_frag2.
