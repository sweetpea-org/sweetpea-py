(** C28 - ILP export accepts the same assignments as the SAT encoding.

    Token-level model (Text/Opb.v) of the OPB text written by
    [CNF.as_opb_string], [combine_and_save_opb] and [sample_ilp.update_file],
    and a pseudo-Boolean evaluator for such text ([pb_line_sat] for one
    constraint line, [pb_file_sat] for a file; [None] = malformed).
    Reference semantics: [csat] / [sat] of Base/Sat.v for clauses, and for a
    request (kind, k, vs) the relation [rel kind] between the number
    [count_true s vs] of true variables and [k]:
      EQ "exactly k", LT "fewer than k", GT "more than k".
    [nonzero c]: no literal of [c] is 0 (the invariant of [Var]).

    The model follows /repo after commit 00a2ec8, which writes GT as [>= k+1]
    ([Opb.gt_rhs k] is [k + 1]); [C28_opb_request_equiv] holds for all three
    kinds.  /repo before that commit wrote GT as [>= k-1], and the statement is
    false for GT of that code (no variable true is accepted as "more than 0"). *)
From Coq Require Import String Ascii ZArith List Bool Lia.
From SP Require Import Base.Sat Core.CnfModel Core.Card.
From SP Require Import Text.Tok Text.TokProofs Text.Opb Text.OpbProofs Text.SolverIOProofs.
From SP Require Import Text.Chars Text.CharsProofs Text.TextChars Text.TextCharsProofs.
From SP Require Base.Bits Core.CardProofs.
Import ListNotations.
Open Scope Z_scope.

(** A clause and its OPB line accept the same assignments. *)
Theorem C28_opb_clause_equiv : forall s c,
  nonzero c -> pb_line_sat s (opb_clause_line c) = Some (csat s c).
Proof. exact opb_clause_line_sat. Qed.
Print Assumptions C28_opb_clause_equiv.

(** A request line means "exactly / fewer than / more than k of vs are true". *)
Theorem C28_opb_request_equiv : forall s kd k vs,
  pb_line_sat s (opb_request_line (kd, k, vs)) = Some true <-> rel kd (count_true s vs) k.
Proof. exact opb_request_equiv. Qed.
Print Assumptions C28_opb_request_equiv.

(** ... and it is always a well-formed constraint. *)
Theorem C28_opb_request_value : forall s kd k vs,
  pb_line_sat s (opb_request_line (kd, k, vs)) = Some (relb kd (count_true s vs) k).
Proof.
  intros s kd k vs. unfold opb_request_line. rewrite opb_request_line_sat. f_equal.
  exact (req_holds_with_succ s (kd, k, vs)).
Qed.
Print Assumptions C28_opb_request_value.

(** The whole file written by [combine_and_save_opb]: accepted by [s] exactly
    when [s] satisfies the clauses and every request. *)
Theorem C28_opb_file_equiv : forall s (cls : cnf) reqs,
  (forall c, In c cls -> nonzero c) ->
  pb_file_sat s (opb_file cls reqs) = Some (sat s cls && forallb (req_holds s) reqs).
Proof. exact opb_file_equiv. Qed.
Print Assumptions C28_opb_file_equiv.

(** With C10: the OPB line of a request over variables of 1..n and the SAT
    encoding of the same request ([CNF.assert_k_of_n] / [_inequality_assertion]
    on a store with n variables allocated) accept the same assignments of 1..n. *)
Theorem C28_opb_request_vs_sat_encoding : forall kd k vs n,
  0 <= n -> 0 <= k -> vs <> [] -> Forall (fun v => 0 < v <= n) vs ->
  exists n' clauses,
    request kd k vs {| next := n; cls := [] |} = (true, {| next := n'; cls := clauses |}) /\
    forall s, pb_line_sat s (opb_request_line (kd, k, vs)) = Some true
              <-> exists t, agree_upto n s t /\ sat t clauses = true.
Proof.
  intros kd k vs n Hn Hk Hne Hvs.
  assert (Hin : Forall (Bits.inr n) vs).
  { eapply Forall_impl; [|exact Hvs]. intros v Hv. cbv beta in Hv. unfold Bits.inr. lia. }
  destruct (CardProofs.request_correct kd k vs n Hn Hk Hne Hin) as [n' [clauses [E [_ [_ [S _]]]]]].
  exists n', clauses. split; [exact E|]. intros s.
  (* the request lists positive variables, so the number of true variables is
     the literal count of C10 *)
  assert (C : count_true s vs = Bits.count s vs).
  { unfold count_true, Bits.count. clear - Hvs. induction Hvs as [|v r Hv _ IH]; [reflexivity|].
    cbn [zcount filter]. rewrite lit_true_pos, IH by lia.
    destruct (s v); cbn [length]; lia. }
  rewrite opb_request_equiv, C, S. destruct kd; reflexivity.
Qed.
Print Assumptions C28_opb_request_vs_sat_encoding.

(** The constraint appended between iterations rejects exactly the assignments
    that make every literal of the previous solution true; appending it keeps
    the rest of the file; with the previous solution [p] on the support [1..n]
    it rejects exactly the assignments agreeing with [p] on the support. *)
Theorem C28_opb_block_excludes_exactly :
  (forall s sol, nonzero sol ->
     pb_line_sat s (ilp_block_line sol) = Some (negb (forallb (lit_true s) sol))) /\
  (forall s f sol, nonzero sol ->
     pb_file_sat s (ilp_update f sol)
     = match pb_file_sat s f with
       | Some b => Some (b && negb (forallb (lit_true s) sol))
       | None => None
       end) /\
  (forall s p n, pb_line_sat s (ilp_block_line (sol_of p n)) = Some true <-> ~ agree_upto n s p).
Proof.
  split; [apply ilp_block_line_sat|]. split; [apply ilp_update_sat|].
  intros s p n. rewrite ilp_block_line_sat by apply sol_of_nonzero.
  rewrite <- sol_of_sat. destruct (forallb (lit_true s) (sol_of p n)); cbn [negb].
  - split; [discriminate | intros H; exfalso; now apply H].
  - split; [intros _ H; discriminate | reflexivity].
Qed.
Print Assumptions C28_opb_block_excludes_exactly.

(** * Character level (Text/Chars.v, Text/TextChars.v; see the header of C27.v) *)

(** The characters written by [as_opb_string] + [combine_and_save_opb] (a
    fresh file; request lines start with a newline and end with ["; "], an
    empty clause is written [" >= 1 ;"]), cut into lines and words, are the
    token file of the token-level model; hence the text means what the
    token-level file means. *)
Theorem C28_opb_file_chars : forall s (cls : cnf) reqs,
  (forall c, In c cls -> nonzero c) ->
  lex_file (opb_file_text cls reqs) = opb_file cls reqs /\
  pb_file_sat_text s (opb_file_text cls reqs) = Some (sat s cls && forallb (req_holds s) reqs).
Proof.
  intros s cls reqs H. split; [apply lex_opb_file_text|].
  unfold pb_file_sat_text. rewrite lex_opb_file_text. now apply opb_file_equiv.
Qed.
Print Assumptions C28_opb_file_chars.

(** The characters appended by [sample_ilp.update_file] to ANY text [f]. *)
Theorem C28_opb_block_chars : forall s f sol,
  nonzero sol ->
  lex_file (ilp_update_text f sol) = ilp_update (lex_file f) sol /\
  pb_file_sat_text s (ilp_update_text f sol)
  = match pb_file_sat_text s f with
    | Some b => Some (b && negb (forallb (lit_true s) sol))
    | None => None
    end.
Proof.
  intros s f sol H. split; [apply lex_ilp_update_text|].
  unfold pb_file_sat_text. rewrite lex_ilp_update_text. now apply ilp_update_sat.
Qed.
Print Assumptions C28_opb_block_chars.

(** The hypotheses are satisfiable by non-trivial objects. *)
Example C28_instance :
  let cls := [[1; -2]; [3]] in
  let reqs := [(GT, 1, [1; 2; 3]); (LT, 3, [1; 2; 3])] in
  (forall c, In c cls -> nonzero c) /\
  opb_file cls reqs
  = [ [TPlus 1; TV 3; TW ">="; TI 1; TW ";"];
      [TPlus 1; TV 1; TI (-1); TV 2; TW ">="; TI 0; TW ";"];
      [TPlus 1; TV 1; TPlus 1; TV 2; TPlus 1; TV 3; TW ">="; TI 2; TW ";"];
      [TPlus 1; TV 1; TPlus 1; TV 2; TPlus 1; TV 3; TW "<="; TI 2; TW ";"] ] /\
  pb_file_sat (fun v => negb (v =? 2)) (opb_file cls reqs) = Some true /\
  pb_file_sat (fun v => v =? 3) (opb_file cls reqs) = Some false /\
  ilp_update (opb_file [[1]] []) [1; -2]
  = [ [TPlus 1; TV 1; TW ">="; TI 1; TW ";"]; [TPlus 1; TV 1; TI (-1); TV 2; TW "<="; TI 0; TW ";"]; [] ].
Proof.
  cbv zeta. split; [|repeat split; vm_compute; reflexivity].
  intros c [<-|[<-|[]]] l Hl; cbn in Hl; intuition lia.
Qed.

Example C28_instance_chars :
  let cls := [[1; -2]; [3]] in
  let reqs := [(GT, 1, [1; 2; 3]); (LT, 3, [1; 2; 3])] in
  opb_file_text cls reqs
  = ("+1 v3 >= 1 ;" +s+ nl_s +s+ "+1 v1 -1 v2 >= 0 ;" +s+ nl_s
     +s+ "+1 v1 +1 v2 +1 v3 >= 2 ; " +s+ nl_s +s+ "+1 v1 +1 v2 +1 v3 <= 2 ; ")%string /\
  ilp_update_text (opb_file_text [[1]] []) [1; -2]
  = ("+1 v1 >= 1 ;" +s+ nl_s +s+ "+1 v1 -1 v2 <= 0 ;" +s+ nl_s)%string /\
  pb_file_sat_text (fun v => negb (v =? 2)) (opb_file_text cls reqs) = Some true.
Proof. cbv zeta. repeat split; vm_compute; reflexivity. Qed.
