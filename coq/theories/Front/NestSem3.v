(** Constraints in the Nest group theorem (continues Front/NestSem2.v): inner constraints Exclude and Pin
    split per group; outer constraints Exclude / ExactlyK / AtMostKInARow on crossed outer factors are read
    on the group representatives, on uncrossed outer factors on the whole sequence.
    Guards [nestable_c_b] (constraints, outer ones on crossed factors) and [nestable_f_b] (outer ones on
    any outer factor), theorems [nest_groups_c], [nest_groups_f]. *)
From Coq Require Import List Bool Arith Lia ZArith.
From SP Require Import Design.SemFacts Base.Lists Design.Sem Front.NestSem Front.NestSem2.
Import ListNotations.

Definition pin_pos (i : Z) (su : nat) (w : nat * nat) : Z :=
  (if (0 <=? i)%Z then Z.of_nat (fst w) + i * Z.of_nat su else Z.of_nat (snd w) + i * Z.of_nat su)%Z.

Definition pin_in (i : Z) (su : nat) (w : nat * nat) : bool :=
  in_range (pin_pos i su w) (Z.of_nat (fst w)) (Z.of_nat (snd w)).

(** every window of an inner Pin lies in the inner block and the pinned trial group ends inside it *)
Definition pin_fits_b (Ti : nat) (i : Z) (su : nat) (ws : list (nat * nat)) : bool :=
  forallb (fun w => (snd w <=? Ti) && (if pin_in i su w then Z.to_nat (pin_pos i su w) + su <=? Ti else true)) ws.

(** an inner constraint: a run-length / count kind with windows inside the inner block, Exclude, or Pin
    (the outer block then has at least one trial: a Pin demands a trial to pin) *)
Definition inner_constraint2_b (So Si : sem) (c : dconstraint) : bool :=
  (k_factor c <? length (s_factors Si)) &&
  match k_kind c with
  | KAtMost _ | KAtLeast _ | KExactlyInARow _ | KExactlyK _ => forallb (fun w => snd w <=? s_trials Si) (k_windows c)
  | KExclude => true
  | KPin i su => (0 <? s_trials So) && pin_fits_b (s_trials Si) i su (k_windows c)
  | _ => false
  end.

(** an outer constraint: Exclude, ExactlyK or AtMostKInARow on an outer factor, its windows non-empty and
    inside the outer block *)
Definition outer_kind_b (k : ckind) : bool :=
  match k with KExclude | KExactlyK _ | KAtMost _ => true | _ => false end.

Definition outer_constraint_b (So : sem) (c : dconstraint) : bool :=
  outer_kind_b (k_kind c) && (k_factor c <? length (s_factors So)) &&
  forallb (fun w => (fst w <? snd w) && (snd w <=? s_trials So)) (k_windows c).

Definition nestable_f_b (So Si : sem) : bool :=
  factors_b So Si &&
  forallb (outer_constraint_b So) (s_constraints So) && forallb (inner_constraint2_b So Si) (s_constraints Si) &&
  crossings_b So Si.

Definition nestable_c_b (So Si : sem) : bool :=
  nestable_f_b So Si && forallb (fun c => crossed_in So (k_factor c)) (s_constraints So).

Lemma count_zero_iff : forall l cells,
  count_level l cells = 0 <-> forall t, t < length cells -> cell_eqb (nth t cells None) (Some l) = false.
Proof.
  intros l cells. unfold count_level. induction cells as [|c rest IH].
  - split; [intros _ t Ht; cbn in Ht; lia | reflexivity].
  - cbn [filter]. destruct (cell_eqb c (Some l)) eqn:E.
    + split; [intro H; cbn in H; discriminate|]. intro H. specialize (H 0 ltac:(cbn; lia)). cbn in H. congruence.
    + rewrite IH. split.
      * intros H t Ht. destruct t as [|t]; [exact E|]. cbn [nth]. apply H. cbn in Ht. lia.
      * intros H t Ht. apply (H (Datatypes.S t)). cbn. lia.
Qed.

Lemma grp_row_nth : forall no ni Ti g s f t,
  length s = no + ni -> t < Ti -> nth t (nth f (grp no Ti g s) []) None = nth (g * Ti + t) (nth (no + f) s []) None.
Proof. intros. apply (get_cell_grp no ni); assumption. Qed.

Lemma constraint_ok_exclude_repeated : forall (S1 S2 : sem) (s : tseq) (k : dconstraint) (no ni To Ti : nat),
  length s = no + ni -> k_factor k < ni -> length (nth (no + k_factor k) s []) = To * Ti -> 0 < Ti ->
  k_kind k = KExclude ->
  (constraint_ok S1 s (repeat_constraint no To Ti k) = true <->
   forall g, g < To -> constraint_ok S2 (grp no Ti g s) k = true).
Proof.
  intros S1 S2 s k no ni To Ti Hs Hf Hlen HTi Hk. unfold constraint_ok.
  cbn [repeat_constraint k_kind k_factor k_level]. rewrite Hk.
  rewrite Nat.eqb_eq, count_zero_iff, Hlen, (forall_group _ To Ti HTi). split.
  - intros H g Hg. rewrite Nat.eqb_eq, count_zero_iff, (grp_row_length no ni) by assumption.
    intros t Ht. rewrite (grp_row_nth no ni) by assumption. exact (H g t Hg Ht).
  - intros H g t Hg Ht. specialize (H g Hg).
    rewrite Nat.eqb_eq, count_zero_iff, (grp_row_length no ni) in H by assumption.
    rewrite <- (grp_row_nth no ni) by assumption. exact (H t Ht).
Qed.

Lemma constraint_ok_pin : forall S s c i su,
  k_kind c = KPin i su ->
  constraint_ok S s c =
  existsb (pin_in i su) (k_windows c) &&
  forallb (fun w => if pin_in i su w
                    then forallb (fun j => cell_eqb (nth (Z.to_nat (pin_pos i su w) + j) (nth (k_factor c) s []) None) (Some (k_level c)))
                                 (seq 0 su)
                    else true) (k_windows c).
Proof. intros S s c i su H. unfold constraint_ok. rewrite H. reflexivity. Qed.

Definition shiftw (g Ti : nat) (w : nat * nat) : nat * nat := (g * Ti + fst w, g * Ti + snd w).

Lemma pin_pos_shift : forall i su g Ti w, pin_pos i su (shiftw g Ti w) = (Z.of_nat (g * Ti) + pin_pos i su w)%Z.
Proof.
  intros i su g Ti w. unfold pin_pos, shiftw. cbn [fst snd]. destruct (0 <=? i)%Z; rewrite Nat2Z.inj_add; lia.
Qed.

Lemma pin_in_shift : forall i su g Ti w, pin_in i su (shiftw g Ti w) = pin_in i su w.
Proof.
  intros i su g Ti w. unfold pin_in. rewrite pin_pos_shift. unfold shiftw, in_range. cbn [fst snd].
  rewrite !Nat2Z.inj_add. f_equal; apply Bool.eq_true_iff_eq; rewrite ?Z.leb_le, ?Z.ltb_lt; lia.
Qed.

Lemma pin_in_nonneg : forall i su w, pin_in i su w = true -> (0 <= pin_pos i su w)%Z.
Proof. intros i su w H. unfold pin_in, in_range in H. apply andb_prop in H. destruct H as [H _]. apply Z.leb_le in H. lia. Qed.

Lemma constraint_ok_pin_repeated : forall (S1 S2 : sem) (s : tseq) (k : dconstraint) (no ni To Ti : nat) i su,
  length s = no + ni -> k_factor k < ni -> 0 < To ->
  k_kind k = KPin i su -> pin_fits_b Ti i su (k_windows k) = true ->
  (constraint_ok S1 s (repeat_constraint no To Ti k) = true <->
   forall g, g < To -> constraint_ok S2 (grp no Ti g s) k = true).
Proof.
  intros S1 S2 s k no ni To Ti i su Hs Hf HTo Hk Hfit.
  rewrite (constraint_ok_pin S1 s _ i su) by exact Hk.
  cbn [repeat_constraint k_kind k_factor k_level k_windows].
  change (fun w : nat * nat => (?g * Ti + fst w, ?g * Ti + snd w)) with (shiftw g Ti).
  set (W := k_windows k) in *. set (row := nth (no + k_factor k) s []).
  unfold pin_fits_b in Hfit. rewrite forallb_forall in Hfit.
  (* the pinned cells of a window, in the whole row and in the group *)
  assert (Hcells : forall g w, g < To -> In w W -> pin_in i su w = true ->
            forallb (fun j => cell_eqb (nth (Z.to_nat (pin_pos i su (shiftw g Ti w)) + j) row None) (Some (k_level k))) (seq 0 su)
            = forallb (fun j => cell_eqb (nth (Z.to_nat (pin_pos i su w) + j) (nth (k_factor k) (grp no Ti g s) []) None) (Some (k_level k)))
                      (seq 0 su)).
  { intros g w Hg Hw Hin. apply forallb_ext_in. intros j Hj. apply in_seq in Hj.
    specialize (Hfit w Hw). rewrite andb_true_iff, Hin in Hfit. destruct Hfit as [_ Hfit]. apply Nat.leb_le in Hfit.
    rewrite (grp_row_nth no ni) by (assumption || lia). unfold row. f_equal. f_equal.
    rewrite pin_pos_shift. pose proof (pin_in_nonneg i su w Hin). lia. }
  rewrite andb_true_iff, existsb_exists, forallb_forall. split.
  - intros [[w' [Hw' Hp']] Hall] g Hg. rewrite (constraint_ok_pin S2 _ k i su) by exact Hk. fold W.
    apply in_repeated_windows in Hw'. destruct Hw' as [g0 [w0 [_ [Hw0 ->]]]]. fold (shiftw g0 Ti w0) in Hp'.
    rewrite pin_in_shift in Hp'.
    rewrite andb_true_iff, existsb_exists, forallb_forall. split; [exists w0; auto|].
    intros w Hw. destruct (pin_in i su w) eqn:Hin; [|reflexivity].
    rewrite <- Hcells by assumption.
    specialize (Hall (shiftw g Ti w)). rewrite pin_in_shift, Hin in Hall. apply Hall.
    apply in_repeated_windows. exists g, w. auto.
  - intro H. split.
    + specialize (H 0 HTo). rewrite (constraint_ok_pin S2 _ k i su) in H by exact Hk. fold W in H.
      rewrite andb_true_iff, existsb_exists in H. destruct H as [[w [Hw Hp]] _].
      exists (shiftw 0 Ti w). split; [|rewrite pin_in_shift; exact Hp].
      apply in_repeated_windows. exists 0, w. auto.
    + intros w' Hw'. apply in_repeated_windows in Hw'. destruct Hw' as [g [w [Hg [Hw ->]]]]. fold (shiftw g Ti w).
      rewrite pin_in_shift. destruct (pin_in i su w) eqn:Hin; [|reflexivity].
      rewrite Hcells by assumption.
      specialize (H g Hg). rewrite (constraint_ok_pin S2 _ k i su) in H by exact Hk. fold W in H.
      rewrite andb_true_iff, forallb_forall in H. destruct H as [_ H]. specialize (H w Hw). rewrite Hin in H. exact H.
Qed.

Definition stretch {A} (L : nat) (l : list A) : list A := flat_map (fun x => repeat x L) l.

Lemma stretch_length : forall {A} L (l : list A), length (stretch L l) = L * length l.
Proof.
  intros A L l. induction l as [|x l IH]; [cbn; lia|].
  unfold stretch in *. cbn [flat_map]. rewrite app_length, repeat_length, IH. cbn [length]. lia.
Qed.

Lemma nth_stretch : forall {A} L (l : list A) t d, t < L * length l -> nth t (stretch L l) d = nth (t / L) l d.
Proof.
  intros A L l. induction l as [|x l IH]; intros t d Ht; [cbn in Ht; lia|].
  unfold stretch in *. cbn [flat_map]. destruct (Nat.lt_ge_cases t L) as [Hlt|Hge].
  - rewrite app_nth1 by (rewrite repeat_length; exact Hlt). rewrite Nat.div_small by exact Hlt.
    cbn [nth]. rewrite (nth_indep _ d x) by (rewrite repeat_length; exact Hlt). apply nth_repeat.
  - rewrite app_nth2 by (rewrite repeat_length; exact Hge). rewrite repeat_length.
    assert (HL : 0 < L) by (destruct L; [cbn in Ht; lia | lia]).
    rewrite IH by (cbn [length] in Ht; rewrite Nat.mul_succ_r in Ht; lia).
    replace t with (1 * L + (t - L)) at 2 by lia. rewrite Nat.div_add_l by lia. reflexivity.
Qed.

Lemma row_stretch : forall (row : list cell) To Ti,
  0 < Ti -> length row = To * Ti ->
  (forall t, t < To * Ti -> nth t row None = nth (t / Ti * Ti) row None) ->
  row = stretch Ti (map (fun g => nth (g * Ti) row None) (seq 0 To)).
Proof.
  intros row To Ti HTi Hlen Hc. apply (nth_ext _ _ None None).
  - rewrite stretch_length, map_length, seq_length. transitivity (To * Ti); [exact Hlen | apply Nat.mul_comm].
  - intros t Ht. assert (Ht' : t < To * Ti) by (rewrite <- Hlen; exact Ht). clear Ht. rename Ht' into Ht.
    rewrite nth_stretch by (rewrite map_length, seq_length; lia).
    rewrite nth_map_seq by (apply Nat.div_lt_upper_bound; lia). apply Hc. exact Ht.
Qed.

Lemma skipn_stretch : forall {A} L a (l : list A), skipn (a * L) (stretch L l) = stretch L (skipn a l).
Proof.
  intros A L a. induction a as [|a IH]; intro l; [reflexivity|].
  destruct l as [|x l]; [cbn; apply skipn_nil|].
  unfold stretch in *. cbn [flat_map skipn]. rewrite skipn_app, repeat_length.
  rewrite skipn_all2 by (rewrite repeat_length; lia). cbn [app].
  replace (Datatypes.S a * L - L) with (a * L) by lia. apply IH.
Qed.

Lemma firstn_stretch : forall {A} L n (l : list A), firstn (n * L) (stretch L l) = stretch L (firstn n l).
Proof.
  intros A L n. induction n as [|n IH]; intro l; [reflexivity|].
  destruct l as [|x l]; [cbn; apply firstn_nil|].
  unfold stretch in *. cbn [flat_map firstn]. rewrite firstn_app, repeat_length.
  rewrite firstn_all2 by (rewrite repeat_length; lia). f_equal.
  replace (Datatypes.S n * L - L) with (n * L) by lia. apply IH.
Qed.

Lemma slice_stretch : forall {A} L (l : list A) a b, slice (stretch L l) (a * L) (b * L) = stretch L (slice l a b).
Proof.
  intros A L l a b. unfold slice. rewrite skipn_stretch. rewrite <- Nat.mul_sub_distr_r. apply firstn_stretch.
Qed.

Lemma count_level_stretch : forall l L cells, count_level l (stretch L cells) = count_level l cells * L.
Proof.
  intros l L cells. unfold count_level, stretch. induction cells as [|c rest IH]; [reflexivity|].
  cbn [flat_map filter]. rewrite filter_app, app_length, count_repeat, IH.
  destruct (cell_eqb c (Some l)); cbn [length]; lia.
Qed.

Lemma runs_aux_repeat_hit : forall l c L rest cur,
  cell_eqb c (Some l) = true -> runs_aux l (repeat c L ++ rest) cur = runs_aux l rest (cur + L).
Proof.
  intros l c L rest. induction L as [|L IH]; intros cur H; [rewrite Nat.add_0_r; reflexivity|].
  cbn [repeat app runs_aux]. rewrite H, IH by exact H. f_equal. lia.
Qed.

Lemma runs_aux_repeat_miss0 : forall l c L rest,
  cell_eqb c (Some l) = false -> runs_aux l (repeat c L ++ rest) 0 = runs_aux l rest 0.
Proof.
  intros l c L rest H. induction L as [|L IH]; [reflexivity|].
  cbn [repeat app runs_aux]. rewrite H. cbn [Nat.eqb]. exact IH.
Qed.

Lemma runs_aux_repeat_miss : forall l c L rest cur,
  0 < L -> cell_eqb c (Some l) = false ->
  runs_aux l (repeat c L ++ rest) cur = if cur =? 0 then runs_aux l rest 0 else cur :: runs_aux l rest 0.
Proof.
  intros l c L rest cur HL H. destruct L as [|L]; [lia|]. cbn [repeat app runs_aux]. rewrite H.
  rewrite runs_aux_repeat_miss0 by exact H. reflexivity.
Qed.

Lemma runs_aux_stretch : forall l L cells cur,
  0 < L -> runs_aux l (stretch L cells) (cur * L) = map (fun n => n * L) (runs_aux l cells cur).
Proof.
  intros l L cells cur HL. destruct L as [|L]; [lia|]. revert cur.
  induction cells as [|c rest IH]; intro cur; [destruct cur; reflexivity|].
  unfold stretch in *. cbn [flat_map runs_aux]. destruct (cell_eqb c (Some l)) eqn:E.
  - rewrite runs_aux_repeat_hit by exact E. rewrite (Nat.add_comm (cur * _)). apply (IH (Datatypes.S cur)).
  - rewrite runs_aux_repeat_miss by assumption. specialize (IH 0). cbn [Nat.mul] in IH. rewrite IH.
    destruct cur; reflexivity.
Qed.

Lemma runs_stretch : forall l L cells, 0 < L -> runs l (stretch L cells) = map (fun n => n * L) (runs l cells).
Proof. intros l L cells HL. unfold runs. apply (runs_aux_stretch l L cells 0 HL). Qed.

Lemma reps_row : forall no To Ti s f,
  f < no -> no <= length s -> nth f (reps no To Ti s) [] = map (fun g => nth (g * Ti) (nth f s []) None) (seq 0 To).
Proof.
  intros no To Ti s f Hf Hs. unfold reps. rewrite (nth_map_lt _ _ f [] []) by (rewrite firstn_length; lia).
  rewrite nth_firstn_lt by exact Hf. reflexivity.
Qed.

Lemma outer_windows_scaled : forall So Ti ws,
  0 < Ti -> forallb (fun w => (fst w <? snd w) && (snd w <=? s_trials So)) ws = true ->
  flat_map (fun w => if fst w * Ti <? Nat.min (snd w * Ti) (s_trials So * Ti)
                     then [(fst w * Ti, Nat.min (snd w * Ti) (s_trials So * Ti))] else []) ws
  = map (fun w => (fst w * Ti, snd w * Ti)) ws.
Proof.
  intros So Ti ws HTi H. induction ws as [|w ws IH]; [reflexivity|].
  cbn [forallb] in H. rewrite !andb_true_iff in H. destruct H as [[H1 H2] H3].
  apply Nat.ltb_lt in H1. apply Nat.leb_le in H2. cbn [flat_map map]. rewrite IH by exact H3.
  rewrite Nat.mul_min_distr_r, Nat.min_l by exact H2.
  assert (E : (fst w * Ti <? snd w * Ti) = true) by (apply Nat.ltb_lt, Nat.mul_lt_mono_pos_r; assumption).
  rewrite E. reflexivity.
Qed.

Lemma le_div_iff : forall x n L, 0 < L -> (x * L <=? n) = (x <=? n / L).
Proof.
  intros x n L HL. apply Bool.eq_true_iff_eq. rewrite !Nat.leb_le. split; intro H.
  - apply Nat.div_le_lower_bound; lia.
  - transitivity (n / L * L); [apply Nat.mul_le_mono_r; exact H | rewrite Nat.mul_comm; apply Nat.mul_div_le; lia].
Qed.

Lemma outer_constraint_crossed : forall (S1 : sem) (So : sem) (s : tseq) (c : dconstraint) (no To Ti : nat),
  s_trials So = To -> 0 < Ti -> k_factor c < no -> no <= length s ->
  length (nth (k_factor c) s []) = To * Ti ->
  (forall t, t < To * Ti -> get_cell s (k_factor c) t = get_cell s (k_factor c) (t / Ti * Ti)) ->
  outer_kind_b (k_kind c) = true ->
  forallb (fun w => (fst w <? snd w) && (snd w <=? s_trials So)) (k_windows c) = true ->
  constraint_ok S1 s (scale_outer_constraint So Ti c) = constraint_ok So (reps no To Ti s) (reps_constraint Ti c).
Proof.
  intros S1 So s c no To Ti HSo HTi Hf Hs Hlen Hconst Hkind Hw.
  set (row := nth (k_factor c) s []) in *.
  set (rrow := map (fun g => nth (g * Ti) row None) (seq 0 To)).
  assert (Hrow : row = stretch Ti rrow) by (apply row_stretch; assumption).
  unfold constraint_ok. cbn [scale_outer_constraint reps_constraint k_kind k_factor k_level k_windows].
  rewrite (reps_row no To Ti s) by assumption. fold row. fold rrow.
  cbv zeta. rewrite outer_windows_scaled by assumption.
  destruct (k_kind c) as [n|n|n|n| | | |]; try discriminate Hkind; cbn [scale_kind reps_kind].
  - rewrite forallb_map. apply forallb_ext_in. intros w _. cbn [fst snd].
    rewrite Hrow, slice_stretch, runs_stretch by exact HTi. rewrite forallb_map.
    apply forallb_ext_in. intros x _. apply le_div_iff. exact HTi.
  - rewrite forallb_map. apply forallb_ext_in. intros w _. cbn [fst snd].
    rewrite Hrow, slice_stretch, count_level_stretch. apply eqb_scale. exact HTi.
  - rewrite Hrow at 1. rewrite count_level_stretch. exact (eqb_scale _ 0 Ti HTi).
Qed.

Lemma outer_constraint_free : forall (S1 S2 : sem) (s : tseq) (c : dconstraint),
  outer_kind_b (k_kind c) = true -> constraint_ok S1 s c = constraint_ok S2 s c.
Proof. intros S1 S2 s c H. unfold constraint_ok. destruct (k_kind c); try discriminate H; reflexivity. Qed.

Lemma inner_constraints2 : forall So Si s,
  forallb (inner_constraint2_b So Si) (s_constraints Si) = true -> 0 < s_trials Si -> nest_shape So Si s ->
  forall k, In k (s_constraints Si) ->
    (constraint_ok (nest_sem2 So Si) s (repeat_constraint (length (s_factors So)) (s_trials So) (s_trials Si) k) = true <->
     forall g, g < s_trials So -> constraint_ok Si (grp (length (s_factors So)) (s_trials Si) g s) k = true).
Proof.
  intros So Si s H HTi [Hl Hrow] k Hk. rewrite forallb_forall in H. specialize (H k Hk).
  unfold inner_constraint2_b in H. rewrite andb_true_iff in H. destruct H as [Hf H]. apply Nat.ltb_lt in Hf.
  assert (Hlen := Hrow (length (s_factors So) + k_factor k) ltac:(lia)).
  destruct (k_kind k) as [n|n|n|n| |i su| |] eqn:EK; try discriminate H.
  1-4: apply (constraint_ok_repeated _ Si s k _ (length (s_factors Si))); try assumption; rewrite EK; reflexivity.
  - apply (constraint_ok_exclude_repeated _ Si s k _ (length (s_factors Si))); assumption.
  - rewrite andb_true_iff in H. destruct H as [HTo Hfit]. apply Nat.ltb_lt in HTo.
    apply (constraint_ok_pin_repeated _ Si s k _ (length (s_factors Si)) _ _ i su); assumption.
Qed.

Lemma outer_constraints2 : forall So Si s,
  forallb (outer_constraint_b So) (s_constraints So) = true -> 0 < s_trials Si ->
  nest_shape So Si s -> group_const So (s_trials Si) s ->
  forall c, In c (s_constraints So) ->
    (constraint_ok (nest_sem2 So Si) s (scale_outer_constraint So (s_trials Si) c) = true <->
     if crossed_in So (k_factor c)
     then constraint_ok So (reps (length (s_factors So)) (s_trials So) (s_trials Si) s) (reps_constraint (s_trials Si) c) = true
     else constraint_ok So s (scale_outer_constraint So (s_trials Si) c) = true).
Proof.
  intros So Si s H HTi [Hl Hrow] Hconst c Hc. rewrite forallb_forall in H. specialize (H c Hc).
  unfold outer_constraint_b in H. rewrite !andb_true_iff in H. destruct H as [[Hk Hf] Hw]. apply Nat.ltb_lt in Hf.
  destruct (crossed_in So (k_factor c)) eqn:Ecr.
  - rewrite (outer_constraint_crossed (nest_sem2 So Si) So s c (length (s_factors So)) (s_trials So) (s_trials Si));
      try assumption; try reflexivity; try lia.
    + apply Hrow. lia.
    + intros t Ht. apply Hconst; assumption.
  - rewrite (outer_constraint_free (nest_sem2 So Si) So); [reflexivity|].
    cbn [scale_outer_constraint k_kind]. destruct (k_kind c); try discriminate Hk; reflexivity.
Qed.

Theorem nest_groups_f : forall So Si s,
  nestable_f_b So Si = true ->
  (valid_b (nest_sem2 So Si) s = true <-> groups_spec2 So Si s).
Proof.
  intros So Si s Hg. unfold nestable_f_b in Hg. rewrite !andb_true_iff in Hg.
  destruct Hg as [[[HF HCo] HCi] HX].
  destruct (crossings_b_spec So Si HX) as [_ [_ HTi]].
  destruct (plain_factor_guards So Si HF) as [HFo HFi].
  apply nest_groups_gen; try assumption.
  - apply inner_constraints2; assumption.
  - apply outer_constraints2; assumption.
Qed.

Theorem nest_groups_c : forall So Si s,
  nestable_c_b So Si = true ->
  (valid_b (nest_sem2 So Si) s = true <-> groups_spec2 So Si s).
Proof.
  intros So Si s Hg. unfold nestable_c_b in Hg. rewrite andb_true_iff in Hg. apply nest_groups_f. apply Hg.
Qed.

Theorem nestable_c_includes : forall So Si, nestable_d_b So Si = true -> nestable_c_b So Si = true.
Proof.
  intros So Si H. unfold nestable_d_b in H. rewrite !andb_true_iff in H. destruct H as [[[HF HCo] HCi] HX].
  unfold nestable_c_b, nestable_f_b. rewrite HF, HX.
  destruct (s_constraints So); [|discriminate]. cbn [forallb andb].
  rewrite !andb_true_r. apply (forallb_impl (inner_constraint_b Si)); [|exact HCi].
  intros c Hc. unfold inner_constraint_b in Hc. rewrite !andb_true_iff in Hc. destruct Hc as [[Hk Hf] Hw].
  unfold inner_constraint2_b. rewrite Hf. cbn [andb]. destruct (k_kind c); try discriminate Hk; exact Hw.
Qed.

Theorem nestable_f_includes : forall So Si, nestable_c_b So Si = true -> nestable_f_b So Si = true.
Proof. intros So Si H. unfold nestable_c_b in H. rewrite andb_true_iff in H. apply H. Qed.

Corollary nest_groups_f_b : forall So Si s,
  nestable_f_b So Si = true -> valid_b (nest_sem2 So Si) s = groups2_b So Si s.
Proof. intros So Si s Hg. exact (groups2_b_eq So Si s (nest_groups_f So Si s Hg)). Qed.

Definition ex_two_levels_c (T : nat) (ks : list dconstraint) : sem :=
  {| s_trials := T; s_factors := s_factors (ex_two_levels T); s_crossings := s_crossings (ex_two_levels T);
     s_constraints := ks |}.

(** outer: 4 trials of A (2 levels, each twice) with AtMostKInARow(2, a0) and ExactlyK(2, a0);
    inner: 2 trials of B with Pin(-1, b1) *)
Definition ex_outer_c : sem :=
  {| s_trials := 4; s_factors := [ex_two];
     s_crossings := [{| c_factors := [0]; c_first := 0; c_chunk := 4; c_mult := [([0], 2); ([1], 2)] |}];
     s_constraints := [{| k_kind := KAtMost 2; k_factor := 0; k_level := 0; k_windows := [(0, 4)] |};
                       {| k_kind := KExactlyK 2; k_factor := 0; k_level := 0; k_windows := [(0, 4)] |}] |}.

Definition ex_inner_c : sem :=
  ex_two_levels_c 2 [{| k_kind := KPin (-1) 1; k_factor := 0; k_level := 1; k_windows := [(0, 2)] |}].

(** the run-length bound 2 of the outer AtMostKInARow is NOT rescaled: a run of one group already has 2
    trials, so a0 may not be held for two groups in a row - 3 of the 6 outer orders (0101, 1010, 0110) remain,
    each with the one inner order 01 in every group *)
Lemma ex_nestable_c2 :
  nestable_d_b ex_outer_c ex_inner_c = false /\ nestable_c_b ex_outer_c ex_inner_c = true /\
  s_constraints (nest_sem2 ex_outer_c ex_inner_c)
  = [{| k_kind := KAtMost 2; k_factor := 0; k_level := 0; k_windows := [(0, 8)] |};
     {| k_kind := KExactlyK 4; k_factor := 0; k_level := 0; k_windows := [(0, 8)] |};
     {| k_kind := KPin (-1) 1; k_factor := 1; k_level := 1; k_windows := [(0, 2); (2, 4); (4, 6); (6, 8)] |}] /\
  map (reps_constraint 2) (s_constraints ex_outer_c)
  = [{| k_kind := KAtMost 1; k_factor := 0; k_level := 0; k_windows := [(0, 4)] |};
     {| k_kind := KExactlyK 2; k_factor := 0; k_level := 0; k_windows := [(0, 4)] |}] /\
  length (all_valid ex_outer_c) = 6 /\ length (all_valid ex_inner_c) = 1 /\
  length (all_valid (nest_sem2 ex_outer_c ex_inner_c)) = 3.
Proof. rewrite !all_valid_fast. vm_compute. repeat split. Qed.
