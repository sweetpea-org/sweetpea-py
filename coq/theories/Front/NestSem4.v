(** Sustained factors in the Nest group theorem (continues Front/NestSem2.v, NestSem3.v): an argument block
    that is itself a Nest has crossed factors of sustain count > 1.  Guard [nestable_s_b]: as [nestable_f_b],
    but a crossed outer factor may have any positive sustain count, an inner factor any positive sustain
    count dividing the inner trial count.  Theorem [nest_groups_s]. *)
From Coq Require Import List Bool Arith Lia.
From SP Require Import Base.Lists Design.Sem Design.SemFacts Front.NestSem Front.NestSem2 Front.NestSem3.
Import ListNotations.

Definition within_deps_b (n : nat) (fd : dfactor) : bool :=
  match f_derived fd with
  | None => true
  | Some w => (w_width w =? 1) && (w_stride w =? 1) && (w_start w =? 0) && forallb (fun d => d <? n) (w_deps w)
  end.

Definition sust_outer_b (So : sem) (f : nat) (fd : dfactor) : bool :=
  (0 <? f_sustain fd) && (crossed_in So f || (f_sustain fd =? 1)) && within_deps_b (length (s_factors So)) fd.

Definition sust_inner_b (Si : sem) (fd : dfactor) : bool :=
  (0 <? f_sustain fd) && (s_trials Si mod f_sustain fd =? 0) && within_deps_b (length (s_factors Si)) fd.

Definition factors_s_b (So Si : sem) : bool :=
  forallb (fun p => sust_outer_b So (fst p) (snd p)) (index_list (s_factors So)) &&
  forallb (sust_inner_b Si) (s_factors Si).

Definition nestable_s_b (So Si : sem) : bool :=
  factors_s_b So Si &&
  forallb (outer_constraint_b So) (s_constraints So) && forallb (inner_constraint2_b So Si) (s_constraints Si) &&
  crossings_b So Si.

Lemma within_deps_spec : forall n fd,
  within_deps_b n fd = true -> within_b fd = true /\ forall d, In d (fdeps fd) -> d < n.
Proof. exact within_deps_raw. Qed.

Lemma floor_idem : forall x su, 0 < su -> x / su * su / su = x / su.
Proof. intros x su H. apply Nat.div_mul. lia. Qed.

Theorem nest_groups_s : forall So Si s,
  nestable_s_b So Si = true ->
  (valid_b (nest_sem2 So Si) s = true <-> groups_spec2 So Si s).
Proof.
  intros So Si s Hg. unfold nestable_s_b in Hg. rewrite !andb_true_iff in Hg.
  destruct Hg as [[[HF HCo] HCi] HX].
  destruct (crossings_b_spec So Si HX) as [_ [_ HTi]].
  unfold factors_s_b in HF. rewrite andb_true_iff in HF. destruct HF as [HFo HFi].
  rewrite (forallb_index_list (fun f fd => sust_outer_b So f fd)) in HFo. rewrite forallb_forall in HFi.
  apply nest_groups_gen; try assumption.
  - intros f fd Hfd. specialize (HFo f fd Hfd). unfold sust_outer_b in HFo.
    rewrite !andb_true_iff in HFo. destruct HFo as [[Hsu Hcr] Hwd]. apply Nat.ltb_lt in Hsu.
    destruct (within_deps_spec _ fd Hwd) as [Hw Hd]. repeat split; try assumption.
    intro Ecr. rewrite Ecr in Hcr. apply Nat.eqb_eq. exact Hcr.
  - intros fd Hfd. specialize (HFi fd Hfd). unfold sust_inner_b in HFi.
    rewrite !andb_true_iff in HFi. destruct HFi as [[Hsu Hmod] Hwd]. apply Nat.ltb_lt in Hsu. apply Nat.eqb_eq in Hmod.
    destruct (within_deps_spec _ fd Hwd) as [Hw _]. repeat split; assumption.
  - apply inner_constraints2; assumption.
  - apply outer_constraints2; assumption.
Qed.

Lemma plain_within_deps : forall n fd, plain_factor_b n fd = true -> f_sustain fd = 1 /\ within_deps_b n fd = true.
Proof.
  intros n fd H. unfold plain_factor_b in H. rewrite andb_true_iff, Nat.eqb_eq in H. exact H.
Qed.

Theorem nestable_s_includes : forall So Si, nestable_f_b So Si = true -> nestable_s_b So Si = true.
Proof.
  intros So Si H. unfold nestable_f_b in H. rewrite !andb_true_iff in H. destruct H as [[[HF HCo] HCi] HX].
  unfold nestable_s_b. rewrite HCo, HCi, HX, !andb_true_r.
  destruct (factors_b_spec So Si HF) as [HFo HFi].
  unfold factors_s_b. rewrite andb_true_iff. split.
  - apply (forallb_index_list (fun f fd => sust_outer_b So f fd)). intros f fd Hfd.
    destruct (plain_within_deps _ fd (HFo fd (nth_error_In _ _ Hfd))) as [Hs Hw].
    unfold sust_outer_b. rewrite Hs, Hw. cbn [Nat.ltb Nat.leb Nat.eqb]. rewrite orb_true_r. reflexivity.
  - apply forallb_forall. intros fd Hfd. destruct (plain_within_deps _ fd (HFi fd Hfd)) as [Hs Hw].
    unfold sust_inner_b. rewrite Hs, Hw, Nat.mod_1_r. reflexivity.
Qed.

Corollary nest_groups_s_b : forall So Si s,
  nestable_s_b So Si = true -> valid_b (nest_sem2 So Si) s = groups2_b So Si s.
Proof. intros So Si s Hg. exact (groups2_b_eq So Si s (nest_groups_s So Si s Hg)). Qed.

Definition ex_inner_nest : sem := nest_sem2 (ex_two_levels 2) (ex_two_levels 2).

Lemma ex_nestable_s :
  map f_sustain (s_factors ex_inner_nest) = [2; 1] /\
  nestable_f_b (ex_two_levels 2) ex_inner_nest = false /\ nestable_s_b (ex_two_levels 2) ex_inner_nest = true /\
  map f_sustain (s_factors (nest_sem2 (ex_two_levels 2) ex_inner_nest)) = [4; 2; 1] /\
  valid_b (nest_sem2 (ex_two_levels 2) ex_inner_nest)
          [[Some 0; Some 0; Some 0; Some 0; Some 1; Some 1; Some 1; Some 1];
           [Some 0; Some 0; Some 1; Some 1; Some 1; Some 1; Some 0; Some 0];
           [Some 0; Some 1; Some 1; Some 0; Some 0; Some 1; Some 1; Some 0]] = true /\
  (* B changes inside its run of C *)
  valid_b (nest_sem2 (ex_two_levels 2) ex_inner_nest)
          [[Some 0; Some 0; Some 0; Some 0; Some 1; Some 1; Some 1; Some 1];
           [Some 0; Some 1; Some 1; Some 0; Some 1; Some 1; Some 0; Some 0];
           [Some 0; Some 1; Some 1; Some 0; Some 0; Some 1; Some 1; Some 0]] = false.
Proof. vm_compute. repeat split. Qed.

(** Nest(outer, inner, ks): the Nest's own constraints [ks] (already in normal form, over the factor
    numbering of the Nest) apply to the whole sequence *)
Definition nest_sem2_own (So Si : sem) (ks : list dconstraint) : sem :=
  {| s_trials := s_trials (nest_sem2 So Si); s_factors := s_factors (nest_sem2 So Si);
     s_crossings := s_crossings (nest_sem2 So Si); s_constraints := s_constraints (nest_sem2 So Si) ++ ks |}.

Lemma valid_b_own : forall So Si ks s,
  valid_b (nest_sem2_own So Si ks) s
  = valid_b (nest_sem2 So Si) s && forallb (constraint_ok (nest_sem2 So Si) s) ks.
Proof. intros So Si ks s. apply valid_b_add_constraints; reflexivity. Qed.

Theorem nest_groups_own : forall So Si ks s,
  nestable_s_b So Si = true ->
  (valid_b (nest_sem2_own So Si ks) s = true <->
   groups_spec2 So Si s /\ forall k, In k ks -> constraint_ok (nest_sem2 So Si) s k = true).
Proof.
  intros So Si ks s Hg. rewrite valid_b_own, andb_true_iff, forallb_forall.
  rewrite (nest_groups_s So Si s Hg). reflexivity.
Qed.

Definition groups2_own_b (So Si : sem) (ks : list dconstraint) (s : tseq) : bool :=
  groups2_b So Si s && forallb (constraint_ok (nest_sem2 So Si) s) ks.

Corollary nest_groups_own_b : forall So Si ks s,
  nestable_s_b So Si = true -> valid_b (nest_sem2_own So Si ks) s = groups2_own_b So Si ks s.
Proof.
  intros So Si ks s Hg. rewrite valid_b_own. unfold groups2_own_b. rewrite (nest_groups_s_b So Si s Hg). reflexivity.
Qed.
