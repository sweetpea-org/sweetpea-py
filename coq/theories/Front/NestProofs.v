(** Proofs about Nest: what [create_nest] (Front/Create.v) hands to [_create], the
    trial count of the result from the sustain arithmetic (Front/Trials.v), and
    what a sustain count means in the reference semantics (Design/Sem.v). *)
From Coq Require Import ZArith List Bool Arith Lia.
From SP Require Import Front.NestSem Design.Flat Design.Layout Design.Sem Front.Trials Front.TrialsWf Front.TrialsProofs
  Front.Create Front.CreateProofs.
Import ListNotations.

Definition inner_len (i : binfo) : nat := bi_trials i - bi_common_preamble i.

Lemma sustain_all_length : forall n cs oc, sustain_all n cs = Some oc -> length oc = length cs.
Proof.
  intros n cs. induction cs as [|c cs IH]; intros oc H; cbn in H.
  - inversion H. reflexivity.
  - destruct (sustain_within_block n c); [|discriminate]. destruct (sustain_all n cs); [|discriminate].
    inversion H. cbn. f_equal. apply IH. reflexivity.
Qed.

(** every outer constraint is copied; a MinimumTrials is multiplied by the inner length,
    an ExactlyK's k as well; every geometry is scaled *)
Lemma sustain_all_spec : forall n cs oc,
  sustain_all n cs = Some oc ->
  Forall2 (fun c oc' => fst oc' = OOuterCopy /\ sustain_within_block n c = Some (snd oc')) cs oc.
Proof.
  intros n cs. induction cs as [|c cs IH]; intros oc H; cbn in H.
  - inversion H. constructor.
  - destruct (sustain_within_block n c) eqn:E; [|discriminate]. destruct (sustain_all n cs) eqn:E2; [|discriminate].
    inversion H. constructor; [split; [reflexivity | exact E] | apply IH; reflexivity].
Qed.

Lemma sustain_min_trials : forall n c c',
  c_kind c = KMinimumTrials -> sustain_within_block n c = Some c' ->
  c_kind c' = KMinimumTrials /\ c_param c' = (c_param c * Z.of_nat n)%Z.
Proof.
  intros n c c' Hk H. unfold sustain_within_block in H. rewrite Hk in H. inversion H. cbn. split; reflexivity.
Qed.

Theorem nest_args : forall o i cs al a,
  create_of (BNest o i cs al) = COk a ->
  let L := inner_len i in
  ca_design a = add_new (bi_design o) (bi_design i) /\
  ca_crossings a = bi_crossings o ++ bi_crossings i /\
  ca_sustains a = map (fun sc => L * sc) (firstn (length (bi_crossings o)) (bi_sustains o))
                  ++ firstn (length (bi_crossings i)) (bi_sustains i) /\
  ca_weights a = firstn (length (bi_crossings o)) (bi_weights o) ++ firstn (length (bi_crossings i)) (bi_weights i) /\
  ca_mode a = MRepeat /\
  ca_rcc a = bi_rcc o && bi_rcc i /\
  (exists oc, sustain_all L (bi_orig_constraints o) = Some oc /\
              ca_constraints a = oc ++ from_block 1 i ++ own cs) /\
  (forall c f ic, In c (bi_crossings o) -> In f c -> In ic (bi_crossings i) -> ~ In f ic).
Proof.
  intros o i cs al a H L. cbn [create_of] in H. unfold create_nest in H.
  destruct (existsb _ (bi_crossings o)) eqn:Esh; [discriminate|].
  destruct (nest_alignment o i al) as [al'|]; [|discriminate].
  fold (inner_len i) in H. fold L in H.
  destruct (sustain_all L (bi_orig_constraints o)) as [oc|] eqn:Eoc; [|discriminate].
  inversion H; subst a; clear H. cbn.
  repeat split; try reflexivity.
  - exists oc. split; reflexivity.
  - intros c f ic Hc Hf Hic Hin.
    assert (existsb (fun c => existsb (fun f => existsb (mem f) (bi_crossings i)) c) (bi_crossings o) = true).
    { apply existsb_exists. exists c. split; [assumption|].
      apply existsb_exists. exists f. split; [assumption|].
      apply existsb_exists. exists ic. split; [assumption|]. apply mem_true_iff. assumption. }
    congruence.
Qed.

(** the Sustain() constraint is added as soon as the inner block has more than one
    post-preamble trial and the outer block has a crossing (sustain count 1 in the outer block) *)
Lemma nest_adds_sustain : forall o i cs al a so c co,
  create_of (BNest o i cs al) = COk a -> bi_sustains o = 1 :: so -> bi_crossings o = c :: co -> inner_len i <> 1 ->
  adds_sustain a = true.
Proof.
  intros o i cs al a so c co H Hs Hc HL. destruct (nest_args _ _ _ _ _ H) as [_ [_ [Hsu _]]].
  unfold adds_sustain. rewrite Hsu, Hs, Hc. cbn [length firstn map app existsb]. rewrite Nat.mul_1_r.
  destruct (inner_len i =? 1) eqn:E; [apply Nat.eqb_eq in E; contradiction | reflexivity].
Qed.

Lemma max_list_app : forall a b, max_list (a ++ b) = Nat.max (max_list a) (max_list b).
Proof.
  induction a as [|x a IH]; intro b; [reflexivity|].
  cbn [app]. rewrite !max_list_cons, IH. lia.
Qed.

Lemma max_list_map_mul_l : forall (l : list nat) k, max_list (map (Nat.mul k) l) = k * max_list l.
Proof.
  intros l k. rewrite (map_ext _ (fun x => x * k)) by (intro x; apply Nat.mul_comm).
  rewrite max_list_map_mul. apply Nat.mul_comm.
Qed.

Lemma need_no_preamble : forall fb crs sizes,
  length sizes = length crs -> Forall (fun c => cstart fb c = 0) crs ->
  map (fun cs => crossing_need fb (fst cs) (snd cs)) (combine crs sizes) = sizes.
Proof.
  intros fb crs. induction crs as [|c crs IH]; intros sizes Hlen H0; destruct sizes as [|S sizes]; try discriminate; [reflexivity|].
  inversion H0 as [|c' crs' Hc Hrest]; subst. cbn [combine map fst snd]. f_equal.
  - unfold crossing_need. rewrite Hc. lia.
  - apply IH; [cbn in Hlen; lia | assumption].
Qed.

Lemma doc_need_own_no_preamble : forall fb,
  length (fl_sizes fb) = length (fl_crossings fb) ->
  Forall (fun c => cstart fb c = 0) (fl_crossings fb) ->
  doc_need_own fb = Nat.max 1 (max_list (fl_sizes fb)).
Proof.
  intros fb Hlen H0. unfold doc_need_own. rewrite need_no_preamble by assumption. reflexivity.
Qed.

(** the arithmetic of [nest_trials]; few [Z.max] at a time reach [lia], which splits on each *)
Lemma nest_trials_arith : forall l a b m_o m_i m_n : Z,
  l = Z.max m_i (Z.max 1 b) -> (Z.max (l * m_o) m_i <= m_n)%Z -> (m_n <= l * Z.max m_o (Z.max 1 a))%Z ->
  Z.max m_n (Z.max 1 (Z.max (l * a) b)) = (l * Z.max m_o (Z.max 1 a))%Z.
Proof.
  intros l a b m_o m_i m_n HL Hlo Hhi.
  assert (H1 : (1 <= l /\ b <= l)%Z) by (clear - HL; lia).
  apply Z.max_lub_iff in Hlo. destruct Hlo as [Hx Hi].
  assert (Hl : (l <= Z.max m_n (Z.max 1 b))%Z) by (clear - HL Hi; lia).
  clear HL Hi. destruct H1 as [H1 Hb].
  rewrite <- !Z.mul_max_distr_nonneg_l, Z.mul_1_r in * by lia.
  set (x := (l * m_o)%Z) in *. set (y := (l * a)%Z) in *. clearbody x y.
  apply Z.le_antisymm.
  - apply Z.max_lub; [exact Hhi|]. clear Hhi Hx Hl. lia.
  - clear Hhi. apply Z.max_lub; [lia|]. clear Hx. lia.
Qed.

(** The trial count of a Nest without preamble trials.  [L] is the inner block's trial
    count ([= max(m_i, max(1, sizes_i))]), [sizes_o] the outer block's crossing sizes (in
    the Nest each is multiplied by [L], the sustain count of its factors), [sizes_i] the
    inner block's; [m_o], [m_i] the blocks' min_trials: the Nest multiplies the outer
    MinimumTrials by [L] and keeps the inner ones, so that its own rounded min_trials
    [m_n] lies between [max(L*m_o, m_i)] and [L * T_o]. *)
Theorem nest_trials : forall fn (L : nat) (sizes_o sizes_i : list nat) (m_o m_i m_n : Z),
  wf_trials fn -> fl_alignment fn <> PostPreamble ->
  fl_sizes fn = map (Nat.mul L) sizes_o ++ sizes_i ->
  Forall (fun c => cstart fn c = 0) (fl_crossings fn) ->
  Z.of_nat L = Z.max m_i (Z.of_nat (Nat.max 1 (max_list sizes_i))) ->
  model_min_trials fn = Some m_n ->
  (Z.max (Z.of_nat L * m_o) m_i <= m_n)%Z ->
  (m_n <= Z.of_nat L * Z.max m_o (Z.of_nat (Nat.max 1 (max_list sizes_o))))%Z ->
  model_trials fn = Some (Z.of_nat L * Z.max m_o (Z.of_nat (Nat.max 1 (max_list sizes_o))))%Z.
Proof.
  intros fn L so si m_o m_i m_n Hwf Hal Hs H0 HL Hm Hlo Hhi.
  rewrite (model_trials_own fn _ Hwf Hal Hm). f_equal.
  destruct Hwf as [Hlen _].
  rewrite doc_need_own_no_preamble by assumption.
  rewrite Hs, max_list_app, max_list_map_mul_l.
  rewrite !Nat2Z.inj_max, Nat2Z.inj_mul in *. apply (nest_trials_arith _ _ _ _ m_i); assumption.
Qed.

Theorem block_trials_no_preamble : forall fb (m : Z),
  wf_trials fb -> fl_alignment fb <> PostPreamble ->
  Forall (fun c => cstart fb c = 0) (fl_crossings fb) ->
  model_min_trials fb = Some m ->
  model_trials fb = Some (Z.max m (Z.of_nat (Nat.max 1 (max_list (fl_sizes fb))))).
Proof.
  intros fb m Hwf Hal H0 Hm. rewrite (model_trials_own fb _ Hwf Hal Hm). destruct Hwf as [Hlen _].
  rewrite doc_need_own_no_preamble by assumption. reflexivity.
Qed.

(** Nest length = outer trials x inner trials (no preamble trials anywhere). *)
Theorem nest_length : forall fn fo fi (T_o T_i m_o m_i m_n : Z),
  wf_trials fn -> wf_trials fo -> wf_trials fi ->
  fl_alignment fn <> PostPreamble -> fl_alignment fo <> PostPreamble -> fl_alignment fi <> PostPreamble ->
  Forall (fun c => cstart fn c = 0) (fl_crossings fn) ->
  Forall (fun c => cstart fo c = 0) (fl_crossings fo) ->
  Forall (fun c => cstart fi c = 0) (fl_crossings fi) ->
  model_trials fo = Some T_o -> model_min_trials fo = Some m_o ->
  model_trials fi = Some T_i -> model_min_trials fi = Some m_i ->
  fl_sizes fn = map (Nat.mul (Z.to_nat T_i)) (fl_sizes fo) ++ fl_sizes fi ->
  model_min_trials fn = Some m_n ->
  (Z.max (T_i * m_o) m_i <= m_n <= T_i * T_o)%Z ->
  model_trials fn = Some (T_o * T_i)%Z.
Proof.
  intros fn fo fi T_o T_i m_o m_i m_n Hwn Hwo Hwi Han Hao Hai H0n H0o H0i HTo Hmo HTi Hmi Hs Hmn [Hlo Hhi].
  assert (HTo' : Z.max m_o (Z.of_nat (Nat.max 1 (max_list (fl_sizes fo)))) = T_o).
  { pose proof (block_trials_no_preamble fo m_o Hwo Hao H0o Hmo) as E. congruence. }
  assert (HTi' : Z.max m_i (Z.of_nat (Nat.max 1 (max_list (fl_sizes fi)))) = T_i).
  { pose proof (block_trials_no_preamble fi m_i Hwi Hai H0i Hmi) as E. congruence. }
  assert (H1 : (1 <= T_i)%Z) by lia.
  rewrite (nest_trials fn (Z.to_nat T_i) (fl_sizes fo) (fl_sizes fi) m_o m_i m_n); try assumption.
  - f_equal. rewrite Z2Nat.id by lia. rewrite HTo'. lia.
  - rewrite Z2Nat.id by lia. symmetry. exact HTi'.
  - rewrite Z2Nat.id by lia. exact Hlo.
  - rewrite Z2Nat.id by lia. rewrite HTo'. exact Hhi.
Qed.

Open Scope Z_scope.
Lemma round_to_scale : forall (L su : nat) (m : Z),
  (0 < L)%nat -> (0 < su)%nat ->
  round_to (Some (Z.of_nat L * m)) (L * su) = option_map (Z.mul (Z.of_nat L)) (round_to (Some m) su).
Proof.
  intros L su m HL Hsu. unfold round_to.
  rewrite Nat2Z.inj_mul.
  set (l := Z.of_nat L). set (s := Z.of_nat su).
  assert (Hl : 0 < l) by (unfold l; lia). assert (Hs : 0 < s) by (unfold s; lia).
  destruct (l * s =? 0) eqn:E1; [apply Z.eqb_eq in E1; nia|].
  destruct (s =? 0) eqn:E2; [apply Z.eqb_eq in E2; lia|].
  rewrite Z.div_mul_cancel_l by lia.
  destruct (m / s * s =? m) eqn:E3.
  - apply Z.eqb_eq in E3. replace (m / s * (l * s) =? l * m) with true; [reflexivity|].
    symmetry. apply Z.eqb_eq. nia.
  - apply Z.eqb_neq in E3. replace (m / s * (l * s) =? l * m) with false.
    + cbn [option_map]. f_equal. ring.
    + symmetry. apply Z.eqb_neq. nia.
Qed.

Lemma round_fold_scale : forall (L : nat) (sus : list nat) (m : Z),
  (0 < L)%nat -> Forall (fun su => (0 < su)%nat) sus ->
  fold_left round_to (map (Nat.mul L) sus) (Some (Z.of_nat L * m))
  = option_map (Z.mul (Z.of_nat L)) (fold_left round_to sus (Some m)).
Proof.
  intros L sus. induction sus as [|su sus IH]; intros m HL Hall; [reflexivity|].
  inversion Hall; subst. cbn [map fold_left]. rewrite round_to_scale by assumption.
  destruct (round_to (Some m) su) as [m'|] eqn:E; cbn [option_map].
  - apply IH; assumption.
  - rewrite !round_to_none. reflexivity.
Qed.

(** outer sustain counts scaled by [L], inner sustain counts all 1 (the inner block is
    not itself a Nest): rounding commutes with the scaling *)
Theorem nest_min_trials : forall (fn fo : flat) (L : nat) (sus_i : list nat) (m_o : Z),
  (0 < L)%nat -> Forall (fun su => (0 < su)%nat) (fl_sustains fo) -> Forall (fun su => su = 1%nat) sus_i ->
  fl_sustains fn = map (Nat.mul L) (fl_sustains fo) ++ sus_i ->
  min_trials_raw fn = Z.of_nat L * min_trials_raw fo ->
  model_min_trials fo = Some m_o ->
  model_min_trials fn = Some (Z.of_nat L * m_o).
Proof.
  intros fn fo L sus_i m_o HL Hso Hsi Hs Hraw Hmo.
  unfold model_min_trials, round_min_trials in *. rewrite Hs, Hraw, fold_left_app.
  rewrite round_fold_scale by assumption. rewrite Hmo. cbn [option_map]. apply round_fold_ones. assumption.
Qed.
Close Scope Z_scope.

(** a non-derived factor with sustain count [su] that passes [factor_ok] has, at every
    trial, the level it has at the first trial of that trial's group of [su] trials *)
Theorem sem_sustain_constant : forall (S : sem) (s : tseq) (f : nat) (fd : dfactor) (t : nat),
  factor_ok S s f fd = true -> f_derived fd = None -> t < s_trials S ->
  exists l, get_cell s f t = Some l /\ get_cell s f ((t / f_sustain fd) * f_sustain fd) = Some l.
Proof.
  intros S s f fd t H Hd Ht. apply (factor_ok_simple S s f fd Hd) in H. destruct H as [_ [Hwf Hc]].
  destruct (Hwf t Ht) as [l [Hl _]]. exists l. split; [exact Hl | rewrite <- Hc by exact Ht; exact Hl].
Qed.

Corollary sem_sustain_group : forall (S : sem) (s : tseq) (f : nat) (fd : dfactor) (t t' : nat),
  factor_ok S s f fd = true -> f_derived fd = None -> t < s_trials S -> t' < s_trials S ->
  t / f_sustain fd = t' / f_sustain fd -> get_cell s f t = get_cell s f t'.
Proof.
  intros S s f fd t t' H Hd Ht Ht' Hg.
  destruct (sem_sustain_constant S s f fd t H Hd Ht) as [l [H1 H2]].
  destruct (sem_sustain_constant S s f fd t' H Hd Ht') as [l' [H1' H2']].
  rewrite Hg in H2. rewrite H2 in H2'. congruence.
Qed.

Require Import SP.Front.TrialsExamples.
Import String.
Open Scope string_scope.

Definition mkflat (design : list ffactor) (crossings : list (list nat)) (sus sizes : list nat) (T : nat)
           (cons : list fconstraint) : flat :=
  {| fl_design := design; fl_act := List.seq 0 (List.length design); fl_crossings := crossings; fl_sustains := sus;
     fl_weights := map (fun _ => 1) crossings; fl_sizes := sizes; fl_preambles := map (fun _ => 0) crossings;
     fl_alignment := EqualPreamble; fl_alignment_preamble := 0; fl_min_trials := 0; fl_trials := T; fl_rcc := true;
     fl_exclude := []; fl_excluded_derived := []; fl_constraints := cons; fl_errors_fail := false |}.

(** outer = CrossBlock([A],[A],[MinimumTrials(3)]) (3 trials), inner = CrossBlock([B],[B],[]) (2 trials),
    Nest(outer, inner): A sustained over 2 trials, MinimumTrials(3*2): 6 trials *)
Definition ex_outer : flat := mkflat [simple2 "A" "a0" "a1"] [[0]] [1] [2] 3 [FCross; FConsistency; FMinimumTrials 3].
Definition ex_inner : flat := mkflat [simple2 "B" "b0" "b1"] [[0]] [1] [2] 2 [FCross; FConsistency].
Definition ex_nested : flat :=
  mkflat [simple2 "A" "a0" "a1"; simple2 "B" "b0" "b1"] [[0]; [1]] [2; 1] [4; 2] 6
         [FCross; FConsistency; FMinimumTrials 6; FSustain].

Lemma ex_wf : wf_trials ex_outer /\ wf_trials ex_inner /\ wf_trials ex_nested.
Proof. repeat split; apply wf_trials_b_sound; reflexivity. Qed.

Lemma ex_no_preamble :
  Forall (fun c => cstart ex_outer c = 0) (fl_crossings ex_outer) /\
  Forall (fun c => cstart ex_inner c = 0) (fl_crossings ex_inner) /\
  Forall (fun c => cstart ex_nested c = 0) (fl_crossings ex_nested).
Proof. repeat split; repeat constructor. Qed.

(** the argument blocks of that Nest as [binfo]s *)
Definition ex_outer_b : binfo :=
  binfo_of_create true (create_cross [0] [0] [{| c_id := 0; c_kind := KMinimumTrials; c_param := 3; c_wb := None |}] true)
                  [{| c_id := 0; c_kind := KMinimumTrials; c_param := 3; c_wb := None |}] 3 0 [2%Z].
Definition ex_inner_b : binfo := binfo_of_create true (create_cross [1] [1] [] true) [] 2 0 [1%Z].

(** an outer block without crossing: CrossBlock([A], [], [MinimumTrials(2)]) keeps the placeholder
    sustain count / weight [1] / [1] with no crossing *)
Definition ex_outer_empty_b : binfo :=
  binfo_of_create true (create_cross [0] [] [{| c_id := 0; c_kind := KMinimumTrials; c_param := 2; c_wb := None |}] true)
                  [{| c_id := 0; c_kind := KMinimumTrials; c_param := 2; c_wb := None |}] 2 0 [1%Z].
