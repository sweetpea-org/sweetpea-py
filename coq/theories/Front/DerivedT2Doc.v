(** T2(d), the documented side of one factor: the documented normal form of a WITHIN-TRIAL derived factor
    over simple factors: [window_params] = (deps, 1, 1, 0), [is_complex] = false, the closed form of
    [accepted_tables], [collect] adds no basic factor, [depth] = 1; and the depth sort of a design that
    lists its simple factors first is the identity. *)
From Coq Require Import ZArith List Bool Arith Lia String Sorted.
From SP Require Import Design.DocSem Design.DocSemPlain Design.DocSemScope Front.PlainT2Cons.
Import ListNotations.
Local Open Scope nat_scope.
Local Open Scope list_scope.

Section DocDerived.
Variable p : program.

Lemma wp_fold_simple : forall (wp' : pfactor -> res wparams) (cx' : pfactor -> res bool) width deps a,
  (forall d, In d deps -> simple_id p d) ->
  fold_left (fun acc d =>
               default <- acc ;; dd <- fm p d ;;
               if is_derived dd then q <- wp' dd ;; c <- cx' dd ;; Ok (if c : bool then Nat.max default (wp_start q + width - 1) else default)
               else Ok default) deps (Ok a) = Ok a.
Proof.
  intros wp' cx' width deps a. revert a. induction deps as [|d deps IH]; intros a H; [reflexivity|]. cbn [fold_left bind].
  destruct (simple_fm p d (H d (or_introl eq_refl))) as [-> Hs]. cbn [bind]. rewrite (simple_not_derived _ Hs).
  apply IH. intros x Hx. apply H. right. exact Hx.
Qed.

Variable fd : pfactor.
Variable w : pwindow.
Variable levels : list pdlevel.
Hypothesis Hkind : pf_kind fd = FDerived w levels.
Hypothesis Hty : pw_type w = WWithin.
Hypothesis Hdeps : forall d, In d (pw_deps w) -> simple_id p d.
Hypothesis Hdne : pw_deps w <> [].

Lemma window_params_within : window_params p fd = Ok (pw_deps w, 1, 1, 0).
Proof.
  unfold window_params, fuel0. cbn [wp_cx fst]. rewrite Hkind, Hty.
  rewrite (wp_fold_simple _ _ 1 (pw_deps w) (1 - 1) Hdeps). reflexivity.
Qed.

Lemma is_derived_fd : is_derived fd = true.
Proof. unfold is_derived. rewrite Hkind. reflexivity. Qed.

Lemma is_complex_within : is_complex p fd = Ok false.
Proof.
  unfold is_complex, fuel0. cbn [wp_cx snd]. rewrite is_derived_fd. cbn [negb]. rewrite Hkind, Hty.
  rewrite (wp_fold_simple _ _ 1 (pw_deps w) (1 - 1) Hdeps). cbn [bind Nat.ltb Nat.leb orb Nat.sub].
  destruct (pw_deps w) as [|d0 ds] eqn:E; [congruence|].
  destruct (simple_fm p d0 (Hdeps d0 (or_introl eq_refl))) as [-> Hs]. cbn [bind]. rewrite (simple_not_derived _ Hs). reflexivity.
Qed.

Definition dom_of (d : nat) : list (option name) := map Some (names_of p d) ++ [None].

Definition explicit_of (lev : pdlevel) : option (list entry) :=
  if dl_else lev then None else Some (dedupe entry_eqb (dl_table lev)).
Definition union_of : list entry := flat_map (fun e => match e with Some s => s | None => [] end) (map explicit_of levels).
Definition others_of : list entry :=
  filter (fun cols => negb (memb entry_eqb cols union_of))
         (map (regroup 1 (List.length (pw_deps w))) (DocSem.product (map dom_of (pw_deps w)))).
Definition tab_of (lev : pdlevel) : list entry :=
  match explicit_of lev with None => others_of | Some s => sort_entries s end.

Lemma accepted_tables_within : accepted_tables p fd = Ok (map tab_of levels).
Proof.
  unfold accepted_tables. rewrite window_params_within. cbn [bind].
  rewrite (mapM_all_ok _ (fun d => [dom_of d])).
  2:{ intros d Hd. destruct (simple_fm p d (Hdeps d Hd)) as [-> _]. cbn [bind]. rewrite (simple_names p d (Hdeps d Hd)). reflexivity. }
  cbn [bind]. rewrite Hkind. rewrite concat_map_singleton. rewrite map_map. reflexivity.
Qed.


Lemma collect_simple_any : forall n basics f e, simple_id p f -> In f basics -> collect p (S n) basics f e = Ok e.
Proof.
  intros n basics f e Hf Hin. cbn [collect]. destruct (simple_fm p f Hf) as [E Hs]. rewrite E. cbn [bind].
  unfold is_simple in Hs. destruct (pf_kind (fd_of p f)); try discriminate.
  assert (M : DocSem.mem f basics = true).
  { unfold DocSem.mem. apply existsb_exists. exists f. split; [exact Hin|apply Nat.eqb_refl]. }
  rewrite M. reflexivity.
Qed.

Lemma collect_fold_simple : forall n basics l e, (forall d, In d l -> simple_id p d /\ In d basics) ->
  fold_left (fun acc d => e <- acc ;; collect p (S n) basics d e) l (Ok e) = Ok e.
Proof.
  intros n basics l e H. induction l as [|d l IH]; [reflexivity|]. cbn [fold_left bind].
  rewrite collect_simple_any by (apply H; left; reflexivity). apply IH. intros x Hx. apply H. right. exact Hx.
Qed.

Lemma depth_simple_any : forall n f, simple_id p f -> depth p (S n) f = Ok 0.
Proof.
  intros n f H. cbn [depth]. destruct (simple_fm p f H) as [-> Hs]. cbn [bind].
  unfold is_simple in Hs. destruct (pf_kind (fd_of p f)); try discriminate. reflexivity.
Qed.

Lemma list_max_zeros : forall {A} (l : list A), list_max (map (fun _ => 0) l) = 0.
Proof. intros A l. induction l as [|x l IH]; [reflexivity|]. cbn. exact IH. Qed.

Lemma factors_nonempty : forall f fd0, fm p f = Ok fd0 -> exists n, List.length (p_factors p) = S n.
Proof.
  intros f fd0 H. unfold fm in H. destruct (p_factors p) as [|x l]; [discriminate|]. exists (List.length l). reflexivity.
Qed.

Hypothesis Hfm : exists f, fm p f = Ok fd.

Lemma collect_within : forall basics f e, fm p f = Ok fd -> (forall d, In d (pw_deps w) -> In d basics) ->
  collect p (fuel0 p) basics f e = Ok e.
Proof.
  intros basics f e Hf Hb. unfold fuel0. destruct (factors_nonempty f fd Hf) as [n ->]. cbn [collect]. rewrite Hf. cbn [bind].
  rewrite Hkind. apply collect_fold_simple. intros d Hd. split; [apply Hdeps; exact Hd|apply Hb; exact Hd].
Qed.

Lemma depth_within : forall f, fm p f = Ok fd -> depth p (fuel0 p) f = Ok 1.
Proof.
  intros f Hf. unfold fuel0. destruct (factors_nonempty f fd Hf) as [n ->]. cbn [depth]. rewrite Hf. cbn [bind]. rewrite Hkind.
  rewrite (mapM_all_ok _ (fun _ => 0)) by (intros d Hd; apply depth_simple_any; apply Hdeps; exact Hd).
  cbn [bind]. rewrite list_max_zeros. destruct (pw_deps w); [congruence|reflexivity].
Qed.

End DocDerived.

Lemma SS_before : forall {A} (R : A -> A -> Prop) acc x l, StronglySorted R (acc ++ x :: l) -> forall y, In y acc -> R y x.
Proof.
  intros A R acc x l. induction acc as [|a acc IH]; intros H y Hy; [contradiction|]. cbn in H. inversion H as [|a' l' Hs Hall]; subst.
  destruct Hy as [->|Hy]; [|apply IH; assumption]. rewrite Forall_forall in Hall. apply Hall. apply in_or_app. right. left. reflexivity.
Qed.

Lemma sort_by_of_sorted : forall {A} (leb : A -> A -> bool) l, StronglySorted (fun a b => leb a b = true) l -> sort_by leb l = l.
Proof.
  intros A leb l H. unfold sort_by.
  assert (G : forall l' acc, StronglySorted (fun a b => leb a b = true) (acc ++ l') ->
                             fold_left (fun acc x => insert_by leb x acc) l' acc = acc ++ l').
  { induction l' as [|x l' IH]; intros acc Hl; cbn [fold_left]; [rewrite app_nil_r; reflexivity|].
    rewrite insert_by_last by (intros y Hy; exact (SS_before _ acc x l' Hl y Hy)).
    rewrite IH; [rewrite <- app_assoc; reflexivity|]. rewrite <- app_assoc. exact Hl. }
  apply (G l []). exact H.
Qed.

Lemma SS_all : forall {A} (R : A -> A -> Prop) l, (forall a b, In a l -> In b l -> R a b) -> StronglySorted R l.
Proof.
  intros A R l H. induction l as [|x l IH]; constructor.
  - apply IH. intros a b Ha Hb. apply H; right; assumption.
  - apply Forall_forall. intros b Hb. apply H; [left; reflexivity|right; exact Hb].
Qed.

Lemma SS_app : forall {A} (R : A -> A -> Prop) l1 l2, StronglySorted R l1 -> StronglySorted R l2 ->
  (forall a b, In a l1 -> In b l2 -> R a b) -> StronglySorted R (l1 ++ l2).
Proof.
  intros A R l1 l2 H1 H2 H. induction H1 as [|x l1 Hs IH Hall]; [exact H2|]. cbn. constructor.
  - apply IH. intros a b Ha Hb. apply H; [right; exact Ha|exact Hb].
  - apply Forall_app. split; [exact Hall|]. apply Forall_forall. intros b Hb. apply H; [left; reflexivity|exact Hb].
Qed.
