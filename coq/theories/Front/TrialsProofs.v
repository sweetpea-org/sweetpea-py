(** Proofs about Front/Trials.v. *)
From Coq Require Import ZArith List Bool Arith Lia.
From SP Require Import Base.Lists Design.Flat Design.Layout Front.Trials Front.TrialsWf.
Import ListNotations.

Section Loop.
Variable fb : flat.
Variable f : nat.
Variable s : nat.                       (* trials before the factor first applies *)
Hypothesis applies_spec : forall t, applies_at fb f (S t) = (s <? S t).

Lemma tr_loop_closed : forall size fuel trial counter,
  0 < size -> counter = trial - s -> trial <= s + size -> s + size - trial < fuel ->
  tr_loop fb fuel f size trial counter = Some (s + size).
Proof.
  intros size fuel. induction fuel as [|fuel IH]; intros trial counter Hsz Hc Hle Hfuel.
  - lia.
  - cbn [tr_loop]. destruct (counter =? size) eqn:E.
    + apply Nat.eqb_eq in E. f_equal. lia.
    + apply Nat.eqb_neq in E. apply IH; try lia.
      rewrite applies_spec. destruct (s <? S trial) eqn:E2.
      * apply Nat.ltb_lt in E2. lia.
      * apply Nat.ltb_ge in E2. lia.
Qed.
End Loop.

Lemma applies_at_derived : forall fb f fd w t,
  factor_at fb f = Some fd -> ff_window fd = Some w -> win_stride w = 1 -> 0 < sustain fb f ->
  applies_at fb f (S t) = (win_start w * sustain fb f <? S t).
Proof.
  intros fb f fd w t Hf Hw Hst Hsu. unfold applies_at, applies_to_trial. rewrite Hf, Hw, Hst.
  rewrite Nat.mod_1_r. cbn [Nat.eqb]. rewrite andb_true_r.
  set (su := sustain fb f) in *. set (st := win_start w).
  replace (S t - 1) with t by lia.
  destruct (st * su <? S t) eqn:E.
  - apply Nat.ltb_lt in E. apply Nat.leb_le.
    assert (st <= t / su). { apply Nat.div_le_lower_bound; lia. } lia.
  - apply Nat.ltb_ge in E. apply Nat.leb_gt.
    assert (t / su < st). { apply Nat.div_lt_upper_bound; lia. }
    lia.
Qed.

Definition not_derived (fb : flat) (f : nat) : Prop :=
  factor_at fb f = None \/ exists fd, factor_at fb f = Some fd /\ ff_window fd = None.

Lemma applies_at_simple : forall fb f t, not_derived fb f -> applies_at fb f t = true.
Proof.
  intros fb f t H. unfold applies_at, applies_to_trial.
  destruct H as [H | [fd [H1 H2]]]; [rewrite H | rewrite H1, H2]; reflexivity.
Qed.

(** A derived factor with stride 1, window start [s] and sustain count [su]:
    the loop returns [s*su + size] for every positive crossing size. *)
Theorem trials_required_derived : forall fb f fd w size,
  factor_at fb f = Some fd -> ff_window fd = Some w -> win_stride w = 1 ->
  0 < sustain fb f -> 0 < size ->
  trials_required fb f size = Some (win_start w * sustain fb f + size).
Proof.
  intros fb f fd w size Hf Hw Hst Hsu Hsz. unfold trials_required.
  destruct (sustain fb f =? 0) eqn:E. { apply Nat.eqb_eq in E. lia. }
  apply tr_loop_closed; try lia.
  - intro t. eapply applies_at_derived; eauto.
  - unfold tr_fuel, fstart, fstride. rewrite Hf, Hw, Hst.
    set (su := sustain fb f) in *. nia.
Qed.

(** A non-derived factor: the crossing size itself (also for size 0). *)
Theorem trials_required_simple : forall fb f size,
  not_derived fb f -> 0 < sustain fb f -> trials_required fb f size = Some size.
Proof.
  intros fb f size H Hsu. unfold trials_required.
  destruct (sustain fb f =? 0) eqn:E. { apply Nat.eqb_eq in E. lia. }
  destruct size as [|size]. { reflexivity. }
  apply (tr_loop_closed fb f 0) with (size := S size); try lia.
  - intro t. rewrite applies_at_simple by assumption. reflexivity.
  - unfold tr_fuel, fstart, fstride.
    destruct H as [H | [fd [H1 H2]]]; [rewrite H | rewrite H1, H2]; set (su := sustain fb f) in *; nia.
Qed.

(** Both cases in one statement: [fstart] is the window start (0 for a non-derived factor). *)

Theorem trials_required_closed : forall fb f size,
  stride1 fb f -> 0 < sustain fb f -> 0 < size ->
  trials_required fb f size = Some (fstart fb f * sustain fb f + size).
Proof.
  intros fb f size Hst Hsu Hsz. unfold stride1, fstride in Hst. unfold fstart.
  destruct (factor_at fb f) as [fd|] eqn:Hf.
  - destruct (ff_window fd) as [w|] eqn:Hw.
    + eapply trials_required_derived; eauto.
    + rewrite trials_required_simple; [f_equal; lia | right; eauto | assumption].
  - rewrite trials_required_simple; [f_equal; lia | left; auto | assumption].
Qed.

Lemma fold_max_ge_acc : forall l a, a <= fold_left Nat.max l a.
Proof. intros l a. apply fold_max_ge. right. apply le_n. Qed.

Lemma fold_max_acc : forall l a, fold_left Nat.max l a = Nat.max a (fold_left Nat.max l 0).
Proof.
  induction l as [|x l IH]; intro a; cbn; [lia|].
  rewrite (IH (Nat.max a x)), (IH x). lia.
Qed.

Lemma max_list_cons : forall x l, max_list (x :: l) = Nat.max x (max_list l).
Proof. intros. unfold max_list. cbn. apply fold_max_acc. Qed.

Lemma max_list_ge : forall l x, In x l -> x <= max_list l.
Proof. intros l x H. apply fold_max_ge. left. exact H. Qed.

Lemma max_list_map_add : forall (l : list nat) k, l <> [] -> max_list (map (fun x => x + k) l) = max_list l + k.
Proof.
  induction l as [|x l IH]; intros k Hne; [congruence|].
  destruct l as [|y l].
  - unfold max_list. cbn. lia.
  - change (map (fun x0 => x0 + k) (x :: y :: l)) with ((x + k) :: map (fun x0 => x0 + k) (y :: l)).
    rewrite !max_list_cons with (x := x + k), max_list_cons with (x := x). rewrite IH by discriminate. lia.
Qed.

Lemma max_list_map_mul : forall (l : list nat) k, max_list (map (fun x => x * k) l) = max_list l * k.
Proof.
  induction l as [|x l IH]; intro k; [reflexivity|].
  cbn [map]. rewrite !max_list_cons, IH. nia.
Qed.

Lemma all_some_map_some : forall {A B} (g : A -> B) (h : A -> option B) (l : list A),
  (forall x, In x l -> h x = Some (g x)) -> all_some (map h l) = Some (map g l).
Proof.
  intros A B g h l. induction l as [|x l IH]; intro H; [reflexivity|].
  cbn [map all_some]. rewrite (H x (or_introl eq_refl)). rewrite IH by (intros; apply H; right; assumption).
  reflexivity.
Qed.

Definition wf_crossing (fb : flat) (c : list nat) : Prop :=
  c <> [] /\ 0 < csustain fb c /\ forall f, In f c -> stride1 fb f /\ sustain fb f = csustain fb c.

Lemma trials_for_one_crossing_closed : forall fb c S,
  wf_crossing fb c -> 0 < S -> trials_for_one_crossing fb c S = Some (crossing_need fb c S).
Proof.
  intros fb c S [Hne [Hsu Hall]] HS. unfold trials_for_one_crossing.
  rewrite (all_some_map_some (fun f => fstart fb f * csustain fb c + S)).
  - cbn [option_map]. f_equal. unfold crossing_need, cstart.
    rewrite <- (map_map (fun f => fstart fb f * csustain fb c) (fun x => x + S)).
    rewrite max_list_map_add by (destruct c; [congruence|discriminate]).
    rewrite <- (map_map (fstart fb) (fun x => x * csustain fb c)).
    rewrite max_list_map_mul. reflexivity.
  - intros f Hin. destruct (Hall f Hin) as [H1 H2].
    rewrite trials_required_closed by (try assumption; lia). rewrite H2. reflexivity.
Qed.

Definition wf_trials (fb : flat) : Prop :=
  length (fl_sizes fb) = length (fl_crossings fb) /\
  Forall (fun S => 0 < S) (fl_sizes fb) /\
  Forall (wf_crossing fb) (fl_crossings fb).

Lemma wf_trials_b_sound : forall fb, wf_trials_b fb = true -> wf_trials fb.
Proof.
  intros fb H. unfold wf_trials_b in H. rewrite !andb_true_iff, Nat.eqb_eq, !forallb_forall in H.
  destruct H as [[H1 H2] H3]. split; [exact H1|]. split; apply Forall_forall.
  - intros S HS. apply Nat.ltb_lt, H2, HS.
  - intros c Hc. specialize (H3 c Hc). unfold wf_crossing_b in H3.
    rewrite !andb_true_iff, Nat.ltb_lt, forallb_forall in H3. destruct H3 as [[H4 H5] H6].
    split; [destruct c; discriminate|]. split; [exact H5|].
    intros f Hf. specialize (H6 f Hf). rewrite andb_true_iff, !Nat.eqb_eq in H6. exact H6.
Qed.

Lemma Forall_combine : forall {A B} (P : A -> Prop) (Q : B -> Prop) (l : list A) (m : list B),
  Forall P l -> Forall Q m -> forall x, In x (combine l m) -> P (fst x) /\ Q (snd x).
Proof.
  intros A B P Q l. induction l as [|a l IH]; intros m Hl Hm x Hin; [destruct Hin|].
  destruct m as [|b m]; [destruct Hin|]. inversion Hl; inversion Hm; subst.
  destruct Hin as [<-|Hin]; [split; assumption|]. eapply IH; eauto.
Qed.

Theorem trials_for_crossings_own : forall fb,
  wf_trials fb -> fl_alignment fb <> PostPreamble ->
  trials_for_crossings fb = Some (doc_need_own fb).
Proof.
  intros fb [Hlen [Hs Hc]] Hal. unfold trials_for_crossings, doc_need_own.
  rewrite (all_some_map_some (fun cs => crossing_need fb (fst cs) (snd cs))).
  - destruct (fl_alignment fb); [congruence|reflexivity|reflexivity].
  - intros x Hin. destruct (Forall_combine _ _ _ _ Hc Hs x Hin) as [H1 H2].
    apply trials_for_one_crossing_closed; assumption.
Qed.

Theorem trials_for_crossings_post : forall fb,
  wf_trials fb -> fl_alignment fb = PostPreamble -> fl_crossings fb <> [] ->
  trials_for_crossings fb = Some (doc_need_post fb).
Proof.
  intros fb [Hlen [Hs Hc]] Hal Hne. unfold trials_for_crossings, doc_need_post. rewrite Hal.
  destruct (fl_crossings fb) as [|c0 cs] eqn:E; [congruence|].
  rewrite (all_some_map_some (fun c => crossing_need fb c (max_list (fl_sizes fb)))).
  - reflexivity.
  - intros c Hin. apply trials_for_one_crossing_closed.
    + rewrite Forall_forall in Hc. apply Hc. assumption.
    + destruct (fl_sizes fb) as [|S0 Ss]; [cbn in Hlen; discriminate|].
      inversion Hs; subst. rewrite max_list_cons. lia.
Qed.

Theorem model_trials_own : forall fb m,
  wf_trials fb -> fl_alignment fb <> PostPreamble -> model_min_trials fb = Some m ->
  model_trials fb = Some (Z.max m (Z.of_nat (doc_need_own fb))).
Proof.
  intros fb m Hwf Hal Hm. unfold model_trials. rewrite trials_for_crossings_own, Hm by assumption. reflexivity.
Qed.

Theorem model_trials_post : forall fb m,
  wf_trials fb -> fl_alignment fb = PostPreamble -> fl_crossings fb <> [] -> model_min_trials fb = Some m ->
  model_trials fb = Some (Z.max m (Z.of_nat (doc_need_post fb))).
Proof.
  intros fb m Hwf Hal Hne Hm. unfold model_trials. rewrite trials_for_crossings_post, Hm by assumption. reflexivity.
Qed.

Theorem model_preambles_closed : forall fb,
  wf_trials fb ->
  model_preambles fb = Some (map (fun c => cstart fb c * csustain fb c) (map fst (combine (fl_crossings fb) (fl_sizes fb)))).
Proof.
  intros fb [Hlen [Hs Hc]]. unfold model_preambles. rewrite map_map.
  apply all_some_map_some. intros x Hin.
  destruct (Forall_combine _ _ _ _ Hc Hs x Hin) as [H1 H2].
  rewrite trials_for_one_crossing_closed by assumption. cbn [option_map]. unfold crossing_need. f_equal. lia.
Qed.

Open Scope Z_scope.

Lemma round_to_ge : forall m c r, round_to (Some m) c = Some r -> m <= r.
Proof.
  intros m c r. unfold round_to. destruct (Z.of_nat c =? 0) eqn:E; [discriminate|].
  apply Z.eqb_neq in E. assert (Hc : 0 < Z.of_nat c) by lia.
  destruct (m / Z.of_nat c * Z.of_nat c =? m) eqn:E2; intro H; inversion H; subst; [lia|].
  pose proof (Z.mul_succ_div_gt m (Z.of_nat c) Hc). nia.
Qed.

Lemma round_to_none : forall l, fold_left round_to l None = None.
Proof. induction l; cbn; auto. Qed.

Lemma round_fold_ge : forall l m r, fold_left round_to l (Some m) = Some r -> m <= r.
Proof.
  induction l as [|c l IH]; intros m r H; cbn [fold_left] in H.
  - inversion H. lia.
  - destruct (round_to (Some m) c) as [m'|] eqn:E.
    + apply round_to_ge in E. apply IH in H. lia.
    + rewrite round_to_none in H. discriminate.
Qed.

Lemma round_to_1 : forall m, round_to (Some m) 1 = Some m.
Proof. intro m. unfold round_to. cbn. rewrite Z.div_1_r, Z.mul_1_r, Z.eqb_refl. reflexivity. Qed.

Lemma round_fold_ones : forall l m, Forall (fun n => n = 1%nat) l -> fold_left round_to l m = m.
Proof.
  induction l as [|c l IH]; intros m H; [reflexivity|]. inversion H; subst. cbn [fold_left].
  destruct m as [m|]; [rewrite round_to_1|cbn]; apply IH; assumption.
Qed.

Lemma round_to_multiple : forall m c r, round_to (Some m) c = Some r -> (Z.of_nat c | r).
Proof.
  intros m c r. unfold round_to. destruct (Z.of_nat c =? 0) eqn:E; [discriminate|].
  destruct (m / Z.of_nat c * Z.of_nat c =? m) eqn:E2; intro H; inversion H; subst.
  - apply Z.eqb_eq in E2. exists (r / Z.of_nat c). lia.
  - exists (m / Z.of_nat c + 1). reflexivity.
Qed.

Definition min_step (m : Z) (c : fconstraint) : Z :=
  match c with FMinimumTrials n => if m =? 0 then n else Z.max m n | _ => m end.

Lemma min_fold_mono : forall cs m, 0 < m -> m <= fold_left min_step cs m.
Proof.
  induction cs as [|c cs IH]; intros m Hm; cbn; [lia|].
  assert (H : m <= min_step m c /\ 0 < min_step m c).
  { unfold min_step. destruct c; try lia. destruct (m =? 0) eqn:E; [apply Z.eqb_eq in E; lia|lia]. }
  destruct H as [H1 H2]. specialize (IH _ H2). lia.
Qed.

Lemma min_fold_ge : forall cs m n, In (FMinimumTrials n) cs -> 0 < n -> n <= fold_left min_step cs m.
Proof.
  induction cs as [|c cs IH]; intros m n Hin Hn; [destruct Hin|].
  cbn. destruct Hin as [->|Hin].
  - assert (H : n <= min_step m (FMinimumTrials n) /\ 0 < min_step m (FMinimumTrials n)).
    { cbn. destruct (m =? 0); lia. }
    destruct H as [H1 H2]. pose proof (min_fold_mono cs _ H2). lia.
  - apply IH; assumption.
Qed.

Lemma min_trials_raw_ge : forall fb n, In (FMinimumTrials n) (fl_constraints fb) -> 0 < n -> n <= min_trials_raw fb.
Proof. intros fb n. unfold min_trials_raw. apply (min_fold_ge (fl_constraints fb) 0 n). Qed.

Close Scope Z_scope.
Lemma trials_for_crossings_ge1 : forall fb t, trials_for_crossings fb = Some t -> 1 <= t.
Proof.
  intros fb t Et. unfold trials_for_crossings in Et.
  destruct (fl_alignment fb); [destruct (fl_crossings fb); [discriminate|]| |];
    destruct (all_some _) as [l'|]; try discriminate; injection Et as <-; exact (Nat.le_max_l 1 (max_list l')).
Qed.
Open Scope Z_scope.

Theorem model_trials_ge_min : forall fb T,
  model_trials fb = Some T ->
  (forall n, In (FMinimumTrials n) (fl_constraints fb) -> 0 < n -> n <= T) /\
  (exists m, model_min_trials fb = Some m /\ min_trials_raw fb <= m /\ m <= T) /\
  (exists t, trials_for_crossings fb = Some t /\ Z.of_nat t <= T /\ 1 <= T).
Proof.
  intros fb T H. unfold model_trials in H.
  destruct (trials_for_crossings fb) as [t|] eqn:Et; [|discriminate].
  destruct (model_min_trials fb) as [m|] eqn:Em; [|discriminate].
  inversion H; subst. clear H.
  assert (Hr : min_trials_raw fb <= m) by (apply (round_fold_ge (fl_sustains fb)); exact Em).
  assert (Ht : (1 <= t)%nat) by (eapply trials_for_crossings_ge1; eauto).
  split; [|split].
  - intros n Hin Hn. pose proof (min_trials_raw_ge fb n Hin Hn). lia.
  - exists m. repeat split; try assumption; lia.
  - exists t. repeat split; lia.
Qed.

Close Scope Z_scope.

Lemma model_weights_repeat : forall fb T ws, model_weights fb MRepeat T ws = WOk ws.
Proof. reflexivity. Qed.

(** A block with one crossing and no [MinimumTrials] (what [CrossBlock(design, c, [], rcc)]
    builds) keeps weight 1 in WEIGHT mode: T = preamble + size. *)
Lemma single_crossing_weight_one : forall fb c S su p T,
  fl_crossings fb = [c] -> fl_sizes fb = [S] -> fl_sustains fb = [su] -> fl_preambles fb = [p] ->
  0 < S -> su = 1 -> T = Z.of_nat (p + S) ->
  model_weights fb MWeight T [1%Z] = WOk [1%Z].
Proof.
  intros fb c S su p T Hc Hs Hsu Hp HS Hsu1 HT. unfold model_weights. rewrite Hc, Hs, Hsu, Hp. subst su.
  cbn [length weights_loop]. destruct (S =? 0) eqn:E; [apply Nat.eqb_eq in E; lia|]. cbn [Nat.eqb orb].
  replace ((T / Z.of_nat 1 - Z.of_nat p + Z.of_nat S - 1) / Z.of_nat S)%Z with 1%Z.
  - reflexivity.
  - subst T. rewrite Z.div_1_r. apply Z.div_unique with (r := (Z.of_nat S - 1)%Z); lia.
Qed.
