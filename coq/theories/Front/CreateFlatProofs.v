(** Proofs about Front/CreateFlat.v: the flat record [_create] builds depends on its
    arguments only through the non-empty crossings with their sustain counts and weights
    and on the constraints as a set ([create_flat_respects]). *)
From Coq Require Import ZArith List Bool Arith Lia Permutation.
From SP Require Import Base.Lists Design.Flat Design.Layout Front.Trials Front.TrialsProofs Front.CreateFlat.
Import ListNotations.

Definition min_trials_positive (cs : list iconstraint) : Prop :=
  forall n, In (ICon (FMinimumTrials n)) cs -> (0 < n)%Z.

Definition input_equiv (a b : create_input) : Prop :=
  let k := length (st_crossings a) in
  ci_design a = ci_design b /\ st_crossings a = st_crossings b /\
  firstn k (ci_sustains a) = firstn k (ci_sustains b) /\
  Forall (fun n => n = 1) (skipn k (ci_sustains a)) /\ Forall (fun n => n = 1) (skipn k (ci_sustains b)) /\
  firstn k (ci_weights a) = firstn k (ci_weights b) /\
  Permutation (ci_constraints a) (ci_constraints b) /\ min_trials_positive (ci_constraints a) /\
  ci_rcc a = ci_rcc b /\ ci_mode a = ci_mode b /\ ci_alignment a = ci_alignment b /\
  ci_exclusions a = ci_exclusions b /\ ci_derivations a = ci_derivations b /\
  ci_excluded_derived a = ci_excluded_derived b /\ ci_errors_fail a = ci_errors_fail b.

Definition flat_equiv (x y : flat) : Prop :=
  let k := length (fl_crossings x) in
  fl_design x = fl_design y /\ fl_act x = fl_act y /\ fl_crossings x = fl_crossings y /\
  firstn k (fl_sustains x) = firstn k (fl_sustains y) /\ firstn k (fl_weights x) = firstn k (fl_weights y) /\
  fl_sizes x = fl_sizes y /\ fl_preambles x = fl_preambles y /\ fl_alignment x = fl_alignment y /\
  fl_alignment_preamble x = fl_alignment_preamble y /\ fl_min_trials x = fl_min_trials y /\
  fl_trials x = fl_trials y /\ fl_rcc x = fl_rcc y /\
  Permutation (fl_exclude x) (fl_exclude y) /\ fl_excluded_derived x = fl_excluded_derived y /\
  Permutation (fl_constraints x) (fl_constraints y) /\ fl_errors_fail x = fl_errors_fail y.

Definition fres_equiv (x y : fres) : Prop :=
  match x, y with
  | FOk fx, FOk fy => flat_equiv fx fy
  | FErr e, FErr e' => e = e'
  | _, _ => False
  end.

(** [create_flat ci] succeeds exactly when its stages do, with the preamble sizes [pres], the trial
    count [T], the rounded minimum [m] and the crossing weights [ws]; the record is then [built] *)
Record stages (ci : create_input) (pres : list nat) (T m : Z) (ws : list Z) : Prop := {
  sg_desugar : needs_desugar (ci_design ci) (st_crossings ci) = false;
  sg_pres : model_preambles (st_flat ci (st_sizes ci) []) = Some pres;
  sg_equal : ci_alignment ci = EqualPreamble -> all_eq pres = true;
  sg_trials : model_trials (st_flat ci (st_sizes ci) pres) = Some T;
  sg_min : model_min_trials (st_flat ci (st_sizes ci) pres) = Some m;
  sg_weights : model_weights (st_flat ci (st_sizes ci) pres) (ci_mode ci) T (zs_of (ci_weights ci)) = WOk ws
}.

Definition built (ci : create_input) (pres : list nat) (T m : Z) (ws : list Z) : flat :=
  mkflat (ci_design ci) (st_act ci) (st_crossings ci) (ci_sustains ci) (map Z.to_nat ws) (st_sizes ci) pres
         (ci_alignment ci) (st_alpre ci) (Z.to_nat m) (Z.to_nat T) (ci_rcc ci)
         (st_exclude (st_cons ci)) (ci_excluded_derived ci)
         (map (init_wb (st_geometry ci pres T)) (st_cons ci) ++ ci_derivations ci) (ci_errors_fail ci).

Lemma create_flat_intro : forall ci pres T m ws, stages ci pres T m ws -> create_flat ci = FOk (built ci pres T m ws).
Proof.
  intros ci pres T m ws [Hd Hp He HT Hm Hw]. unfold create_flat. rewrite Hd, Hp.
  replace (match ci_alignment ci with EqualPreamble => negb (all_eq pres) | _ => false end) with false
    by (destruct (ci_alignment ci); try reflexivity; rewrite He; reflexivity).
  rewrite HT, Hm, Hw. reflexivity.
Qed.

Lemma create_flat_inv : forall ci fb,
  create_flat ci = FOk fb -> exists pres T m ws, stages ci pres T m ws /\ fb = built ci pres T m ws.
Proof.
  intros ci fb Hc. unfold create_flat in Hc.
  destruct (needs_desugar _ _) eqn:Ed; [discriminate|].
  destruct (model_preambles _) as [pres|] eqn:Ep; [|discriminate].
  destruct (match ci_alignment ci with EqualPreamble => _ | _ => _ end) eqn:Ee; [discriminate|].
  destruct (model_trials _) as [T|] eqn:ET; [|discriminate].
  destruct (model_min_trials _) as [m|] eqn:Em; [|discriminate].
  destruct (model_weights _ _ _ _) as [ws| | |] eqn:Ew; try discriminate.
  injection Hc as <-. exists pres, T, m, ws. split; [|reflexivity]. constructor; try assumption.
  intro Hal. rewrite Hal in Ee. apply negb_false_iff. exact Ee.
Qed.

Lemma combine_firstn_l : forall {A B} (l : list A) (m : list B), combine l (firstn (length l) m) = combine l m.
Proof. intros A B l. induction l as [|x l IH]; intros [|y m]; cbn; try reflexivity. rewrite IH. reflexivity. Qed.

Lemma combine_agree : forall {A B} (l : list A) (m m' : list B),
  firstn (length l) m = firstn (length l) m' -> combine l m = combine l m'.
Proof. intros A B l m m' H. rewrite <- (combine_firstn_l l m), <- (combine_firstn_l l m'), H. reflexivity. Qed.

Lemma existsb_tail_ones : forall k (l : list nat),
  Forall (fun n => n = 1) (skipn k l) -> existsb (fun n => negb (n =? 1)) l = existsb (fun n => negb (n =? 1)) (firstn k l).
Proof.
  intros k l H. rewrite <- (firstn_skipn k l) at 1. rewrite existsb_app.
  assert (E : existsb (fun n => negb (n =? 1)) (skipn k l) = false).
  { induction (skipn k l) as [|x r IH]; [reflexivity|]. inversion H; subst. cbn. apply IH. assumption. }
  rewrite E. apply orb_false_r.
Qed.

(** the alignment is read only as POST_PREAMBLE or not *)
Definition trial_fields_eq (x y : flat) : Prop :=
  fl_design x = fl_design y /\ fl_crossings x = fl_crossings y /\ fl_sizes x = fl_sizes y /\
  (fl_alignment x = PostPreamble <-> fl_alignment y = PostPreamble) /\ (forall f, sustain_of x f = sustain_of y f).

Lemma applies_at_ext : forall x y f t, trial_fields_eq x y -> applies_at x f t = applies_at y f t.
Proof.
  intros x y f t [Hd [_ [_ [_ Hs]]]]. unfold applies_at, applies_to_trial, factor_at, sustain. rewrite Hd, Hs. reflexivity.
Qed.

Lemma tr_loop_ext : forall x y f size fuel trial counter,
  trial_fields_eq x y -> tr_loop x fuel f size trial counter = tr_loop y fuel f size trial counter.
Proof.
  intros x y f size fuel. induction fuel as [|fuel IH]; intros trial counter H; [reflexivity|].
  cbn [tr_loop]. rewrite (applies_at_ext x y f _ H), (IH _ _ H). reflexivity.
Qed.

Lemma trials_required_ext : forall x y f size, trial_fields_eq x y -> trials_required x f size = trials_required y f size.
Proof.
  intros x y f size H. unfold trials_required, tr_fuel, fstart, fstride, factor_at, sustain.
  pose proof H as [Hd [_ [_ [_ Hs]]]]. rewrite Hd, Hs.
  destruct (sustain_of y f =? 0); [reflexivity|]. apply tr_loop_ext. exact H.
Qed.

Lemma one_crossing_ext : forall x y c size, trial_fields_eq x y -> trials_for_one_crossing x c size = trials_for_one_crossing y c size.
Proof.
  intros x y c size H. unfold trials_for_one_crossing. f_equal. f_equal. apply map_ext. intro f. apply trials_required_ext. exact H.
Qed.

Lemma trials_for_crossings_ext : forall x y, trial_fields_eq x y -> trials_for_crossings x = trials_for_crossings y.
Proof.
  intros x y H. pose proof H as [_ [Hc [Hz [Ha _]]]]. unfold trials_for_crossings. rewrite Hc, Hz.
  assert (E : forall l, map (fun c => trials_for_one_crossing x (fst c) (snd c)) l
                        = map (fun c => trials_for_one_crossing y (fst c) (snd c)) l)
    by (intro l; apply map_ext; intro c; apply one_crossing_ext; exact H).
  destruct (fl_alignment y).
  - rewrite (proj2 Ha eq_refl). destruct (fl_crossings y); [reflexivity|].
    f_equal. f_equal. apply map_ext. intro c. apply one_crossing_ext. exact H.
  - destruct (fl_alignment x); [discriminate (proj1 Ha eq_refl)| |]; rewrite E; reflexivity.
  - destruct (fl_alignment x); [discriminate (proj1 Ha eq_refl)| |]; rewrite E; reflexivity.
Qed.

Lemma model_preambles_ext : forall x y, trial_fields_eq x y -> model_preambles x = model_preambles y.
Proof.
  intros x y H. unfold model_preambles. pose proof H as [_ [Hc [Hz _]]]. rewrite Hc, Hz.
  f_equal. apply map_ext. intro c. rewrite (one_crossing_ext x y _ _ H). reflexivity.
Qed.

Open Scope Z_scope.

Fixpoint max_min (l : list fconstraint) : Z :=
  match l with
  | [] => 0
  | FMinimumTrials n :: r => Z.max n (max_min r)
  | _ :: r => max_min r
  end.

Lemma max_min_nonneg : forall l, 0 <= max_min l.
Proof. induction l as [|c l IH]; cbn; [lia|]. destruct c; lia. Qed.

Lemma fold_min_step : forall l m,
  0 <= m -> (forall n, In (FMinimumTrials n) l -> 0 < n) -> fold_left min_step l m = Z.max m (max_min l).
Proof.
  induction l as [|c l IH]; intros m Hm Hp; cbn [fold_left max_min].
  - pose proof (max_min_nonneg []). cbn in *. lia.
  - assert (Hp' : forall n, In (FMinimumTrials n) l -> 0 < n) by (intros n Hn; apply Hp; right; exact Hn).
    pose proof (max_min_nonneg l) as Hnn.
    destruct c; cbn [min_step]; try (rewrite IH by assumption; reflexivity).
    assert (Hn : 0 < n) by (apply Hp; left; reflexivity).
    destruct (m =? 0) eqn:E.
    + apply Z.eqb_eq in E. subst m. rewrite IH by (try assumption; lia). lia.
    + rewrite IH by (try assumption; lia). lia.
Qed.

Lemma max_min_perm : forall l l', Permutation l l' -> max_min l = max_min l'.
Proof.
  intros l l' H. induction H; cbn [max_min]; try congruence.
  - destruct x; congruence.
  - destruct x, y; try reflexivity. lia.
Qed.

Lemma min_trials_raw_eq : forall fb, min_trials_raw fb = fold_left min_step (fl_constraints fb) 0.
Proof. reflexivity. Qed.

Lemma min_trials_raw_perm : forall x y,
  Permutation (fl_constraints x) (fl_constraints y) ->
  (forall n, In (FMinimumTrials n) (fl_constraints x) -> 0 < n) ->
  min_trials_raw x = min_trials_raw y.
Proof.
  intros x y HP Hpos. rewrite !min_trials_raw_eq. rewrite !fold_min_step; try lia; try assumption.
  - rewrite (max_min_perm _ _ HP). reflexivity.
  - intros n Hn. apply Hpos. apply (Permutation_in _ (Permutation_sym HP)). exact Hn.
Qed.

Lemma round_min_trials_agree : forall x y m k,
  firstn k (fl_sustains x) = firstn k (fl_sustains y) ->
  Forall (fun n => n = 1%nat) (skipn k (fl_sustains x)) -> Forall (fun n => n = 1%nat) (skipn k (fl_sustains y)) ->
  round_min_trials x m = round_min_trials y m.
Proof.
  intros x y m k H1 H2 H3. unfold round_min_trials.
  assert (Hx : forall l, Forall (fun n => n = 1%nat) (skipn k l) ->
                         fold_left round_to l (Some m) = fold_left round_to (firstn k l) (Some m)).
  { intros l Hl. rewrite <- (firstn_skipn k l) at 1. rewrite fold_left_app. apply round_fold_ones. exact Hl. }
  rewrite (Hx _ H2), (Hx _ H3), H1. reflexivity.
Qed.
Close Scope Z_scope.

Definition wres_agree (k : nat) (r r' : wres) : Prop :=
  match r, r' with
  | WOk ws, WOk ws' => firstn k ws = firstn k ws'
  | WErrEqual, WErrEqual | WErrDiv, WErrDiv | WErrIndex, WErrIndex => True
  | _, _ => False
  end.

Lemma weights_loop_agree : forall eq T n sus sus' pres sizes ws ws',
  firstn n sus = firstn n sus' -> firstn n ws = firstn n ws' ->
  wres_agree n (weights_loop eq T n sus pres sizes ws) (weights_loop eq T n sus' pres sizes ws').
Proof.
  intros eq T n. induction n as [|n IH]; intros sus sus' pres sizes ws ws' Hs Hw; [reflexivity|].
  cbn [weights_loop].
  destruct sus as [|su sus]; destruct sus' as [|su' sus']; try discriminate Hs; [exact I|].
  destruct pres as [|p pres]; [exact I|]. destruct sizes as [|s sizes]; [exact I|].
  destruct ws as [|w0 ws]; destruct ws' as [|w0' ws']; try discriminate Hw; [exact I|].
  cbn [firstn] in Hs, Hw. inversion Hs; subst su'. inversion Hw; subst w0'.
  specialize (IH sus sus' pres sizes ws ws' H1 H2). unfold wres_agree in IH |- *.
  destruct ((su =? 0) || (s =? 0)); [exact I|].
  set (w := ((T / Z.of_nat su - Z.of_nat p + Z.of_nat s - 1) / Z.of_nat s)%Z).
  destruct (w =? w0)%Z.
  - destruct (weights_loop eq T n sus pres sizes ws), (weights_loop eq T n sus' pres sizes ws'); try exact IH; try contradiction.
    cbn [firstn]. f_equal. exact IH.
  - destruct eq; [exact I|].
    destruct (weights_loop false T n sus pres sizes ws), (weights_loop false T n sus' pres sizes ws'); try exact IH; try contradiction.
    cbn [firstn]. f_equal. exact IH.
Qed.

Lemma model_weights_agree : forall x y mode T ws ws',
  fl_crossings x = fl_crossings y -> fl_preambles x = fl_preambles y -> fl_sizes x = fl_sizes y ->
  firstn (length (fl_crossings x)) (fl_sustains x) = firstn (length (fl_crossings x)) (fl_sustains y) ->
  firstn (length (fl_crossings x)) ws = firstn (length (fl_crossings x)) ws' ->
  wres_agree (length (fl_crossings x)) (model_weights x mode T ws) (model_weights y mode T ws').
Proof.
  intros x y mode T ws ws' Hc Hp Hz Hs Hw. unfold model_weights. rewrite <- Hc, <- Hp, <- Hz.
  destruct mode; [apply weights_loop_agree; assumption | exact Hw | apply weights_loop_agree; assumption].
Qed.

Section Respects.
Variables a b : create_input.
Hypothesis H : input_equiv a b.

Let k := length (st_crossings a).

Lemma eq_design : ci_design a = ci_design b. Proof. apply H. Qed.
Lemma eq_crossings : st_crossings a = st_crossings b. Proof. apply H. Qed.

Lemma eq_sustains_k : firstn k (ci_sustains a) = firstn k (ci_sustains b). Proof. apply H. Qed.

Lemma perm_cons : Permutation (st_cons a) (st_cons b).
Proof.
  destruct H as [Hd [Hc [Hs [Ha [Hb [Hw [Hp _]]]]]]]. unfold st_cons.
  rewrite (existsb_tail_ones (length (st_crossings a)) (ci_sustains a) Ha).
  rewrite (existsb_tail_ones (length (st_crossings a)) (ci_sustains b) Hb). rewrite Hs, Hd.
  apply Permutation_app_head. apply Permutation_app_tail. apply Permutation_flat_map. exact Hp.
Qed.

Lemma perm_exclude : Permutation (st_exclude (st_cons a)) (st_exclude (st_cons b)).
Proof. unfold st_exclude. apply Permutation_flat_map. apply perm_cons. Qed.

Lemma eq_act : st_act a = st_act b.
Proof.
  unfold st_act. rewrite eq_design. apply filter_ext. intro f. f_equal. unfold implied.
  rewrite <- eq_design, <- eq_crossings.
  destruct (nth_error (ci_design a) f) as [fd|]; [|reflexivity]. destruct (ff_window fd); [|reflexivity].
  f_equal. f_equal. apply existsb_perm. apply perm_cons.
Qed.

Lemma eq_alpre : st_alpre a = st_alpre b.
Proof. unfold st_alpre. rewrite eq_design. reflexivity. Qed.

Lemma eq_sustain_of : forall sa pa sb pb f, sustain_of (st_flat a sa pa) f = sustain_of (st_flat b sb pb) f.
Proof.
  intros. unfold sustain_of. cbn [st_flat mkflat fl_crossings fl_sustains]. rewrite <- eq_crossings.
  rewrite (combine_agree (st_crossings a) (ci_sustains a) (ci_sustains b) eq_sustains_k). reflexivity.
Qed.

Lemma tfe : forall s pa pb, trial_fields_eq (st_flat a s pa) (st_flat b s pb).
Proof.
  intros s pa pb. unfold trial_fields_eq. cbn [st_flat mkflat fl_design fl_crossings fl_sizes fl_alignment].
  destruct H as [Hd [Hc [_ [_ [_ [_ [_ [_ [_ [_ [Hal _]]]]]]]]]]].
  rewrite Hal. split; [exact Hd|]. split; [exact Hc|]. split; [reflexivity|]. split; [reflexivity|]. intro f. apply eq_sustain_of.
Qed.

Lemma crossing_size_ext : forall x y c, fl_design x = fl_design y -> crossing_size_no_excl x c = crossing_size_no_excl y c.
Proof. intros x y c Hd. unfold crossing_size_no_excl, level_weight_sum, factor_at. rewrite Hd. reflexivity. Qed.

Lemma eq_sizes : st_sizes a = st_sizes b.
Proof.
  unfold st_sizes. rewrite <- eq_crossings.
  assert (He : ci_exclusions a = ci_exclusions b) by apply H. rewrite <- He.
  apply map_ext. intros [c e]. cbn [fst snd]. f_equal.
  - f_equal. apply crossing_size_ext. cbn. apply eq_design.
  - destruct c; [reflexivity|]. apply eq_sustain_of.
Qed.

Lemma cons_min_positive : forall n, In (FMinimumTrials n) (st_cons a) -> (0 < n)%Z.
Proof.
  intros n Hin. destruct H as [_ [_ [_ [_ [_ [_ [_ [Hpos _]]]]]]]]. unfold st_cons in Hin.
  cbn [app] in Hin. destruct Hin as [E|[E|Hin]]; try discriminate.
  apply in_app_or in Hin. destruct Hin as [Hin|Hin].
  - apply in_flat_map in Hin. destruct Hin as [c [Hc Hin]]. destruct c as [c|kind k0 f wb]; cbn in Hin.
    + destruct Hin as [E|[]]. subst c. apply Hpos. exact Hc.
    + apply in_map_iff in Hin. destruct Hin as [l [E _]]. destruct kind; discriminate.
  - destruct (existsb _ _); [destruct Hin as [E|[]]; discriminate | destruct Hin].
Qed.

Lemma eq_min_trials : forall s p, model_min_trials (st_flat a s p) = model_min_trials (st_flat b s p).
Proof.
  intros s p. unfold model_min_trials.
  rewrite (min_trials_raw_perm (st_flat a s p) (st_flat b s p)); [|apply perm_cons|apply cons_min_positive].
  destruct H as [_ [_ [Hs [Ha [Hb _]]]]].
  apply (round_min_trials_agree _ _ _ (length (st_crossings a))); assumption.
Qed.

Lemma eq_trials : forall s p, model_trials (st_flat a s p) = model_trials (st_flat b s p).
Proof.
  intros s p. unfold model_trials. rewrite (trials_for_crossings_ext _ _ (tfe s p p)), eq_min_trials. reflexivity.
Qed.

Lemma eq_geometry : forall pres T, st_geometry a pres T = st_geometry b pres T.
Proof.
  intros pres T. unfold st_geometry. rewrite <- eq_crossings, <- eq_alpre.
  assert (Hal : ci_alignment a = ci_alignment b) by apply H. rewrite <- Hal.
  rewrite (combine_agree (st_crossings a) (ci_sustains a) (ci_sustains b) eq_sustains_k). reflexivity.
Qed.

Theorem create_flat_respects : fres_equiv (create_flat a) (create_flat b).
Proof.
  unfold create_flat. rewrite <- eq_design, <- eq_crossings, <- eq_sizes.
  destruct (needs_desugar (ci_design a) (st_crossings a)); [reflexivity|].
  rewrite <- (model_preambles_ext _ _ (tfe (st_sizes a) [] [])).
  destruct (model_preambles (st_flat a (st_sizes a) [])) as [pres|]; [|reflexivity].
  assert (Hal : ci_alignment a = ci_alignment b) by apply H. rewrite <- Hal.
  destruct (match ci_alignment a with EqualPreamble => negb (all_eq pres) | _ => false end); [reflexivity|].
  rewrite <- eq_trials, <- eq_min_trials.
  destruct (model_trials (st_flat a (st_sizes a) pres)) as [T|]; [|reflexivity].
  destruct (model_min_trials (st_flat a (st_sizes a) pres)) as [m|]; [|reflexivity].
  assert (Hmode : ci_mode a = ci_mode b) by apply H. rewrite <- Hmode.
  assert (Hw : firstn k (ci_weights a) = firstn k (ci_weights b)) by apply H.
  assert (HW : wres_agree k (model_weights (st_flat a (st_sizes a) pres) (ci_mode a) T (zs_of (ci_weights a)))
                            (model_weights (st_flat b (st_sizes a) pres) (ci_mode a) T (zs_of (ci_weights b)))).
  { apply model_weights_agree; try reflexivity; [apply eq_crossings | apply eq_sustains_k |].
    unfold zs_of. rewrite !firstn_map. exact (f_equal (map Z.of_nat) Hw). }
  destruct (model_weights (st_flat a (st_sizes a) pres) (ci_mode a) T (zs_of (ci_weights a))) as [r| | |];
    destruct (model_weights (st_flat b (st_sizes a) pres) (ci_mode a) T (zs_of (ci_weights b))) as [r'| | |];
    try contradiction; try reflexivity.
  cbn [fres_equiv]. unfold flat_equiv. cbn [mkflat fl_design fl_act fl_crossings fl_sustains fl_weights fl_sizes fl_preambles
    fl_alignment fl_alignment_preamble fl_min_trials fl_trials fl_rcc fl_exclude fl_excluded_derived fl_constraints fl_errors_fail].
  fold k.
  split; [reflexivity|]. split; [apply eq_act|]. split; [reflexivity|]. split; [apply eq_sustains_k|].
  split; [rewrite !firstn_map, HW; reflexivity|]. split; [reflexivity|]. split; [reflexivity|]. split; [reflexivity|].
  split; [apply eq_alpre|]. split; [reflexivity|]. split; [reflexivity|]. split; [apply H|].
  split; [apply perm_exclude|]. split; [apply H|]. split; [|apply H].
  rewrite <- eq_geometry. assert (Hd : ci_derivations a = ci_derivations b) by apply H. rewrite <- Hd.
  apply Permutation_app_tail. apply Permutation_map. apply perm_cons.
Qed.
End Respects.

Definition with_constraints (ci : create_input) (cs : list iconstraint) : create_input :=
  {| ci_design := ci_design ci; ci_crossings := ci_crossings ci; ci_sustains := ci_sustains ci; ci_weights := ci_weights ci;
     ci_constraints := cs; ci_rcc := ci_rcc ci; ci_mode := ci_mode ci; ci_alignment := ci_alignment ci;
     ci_exclusions := ci_exclusions ci; ci_derivations := ci_derivations ci;
     ci_excluded_derived := ci_excluded_derived ci; ci_errors_fail := ci_errors_fail ci |}.

Lemma Forall_ones_skipn : forall {A} (l : list A) k, Forall (fun n => n = 1) (skipn k (map (fun _ => 1) l)).
Proof.
  intros A l k. apply Forall_forall. intros x Hx.
  assert (Hin : In x (map (fun _ : A => 1) l)).
  { rewrite <- (firstn_skipn k (map (fun _ : A => 1) l)). apply in_or_app. right. exact Hx. }
  apply in_map_iff in Hin. destruct Hin as [_ [E _]]. auto.
Qed.

(** Repeat(block, cs) hands [_create] the block's constraints followed by [cs], Merge([block], cs, ...)
    [cs] followed by the block's (everything else equal, C24_repeat_eq_merge): same flat record up to
    the order of the constraints *)
Theorem flat_repeat_merge : forall ci cb own,
  Forall (fun n => n = 1) (skipn (length (st_crossings ci)) (ci_sustains ci)) ->
  min_trials_positive (cb ++ own) ->
  fres_equiv (create_flat (with_constraints ci (cb ++ own))) (create_flat (with_constraints ci (own ++ cb))).
Proof.
  intros ci cb own Hones Hpos. apply create_flat_respects. unfold input_equiv, with_constraints, st_crossings. cbn.
  repeat split; try assumption. apply Permutation_app_comm.
Qed.

(** MultiCrossBlock hands [_create] all its crossings (possibly empty ones) with one count 1 and one
    weight 1 each; the Merge of CrossBlocks only the non-empty crossings with theirs
    (C24_multicross_eq_merge): same flat record up to the placeholder counts and weights *)
Definition drop_empty (ci : create_input) : create_input :=
  {| ci_design := ci_design ci; ci_crossings := st_crossings ci;
     ci_sustains := map (fun _ => 1) (st_crossings ci); ci_weights := map (fun _ => 1) (st_crossings ci);
     ci_constraints := ci_constraints ci; ci_rcc := ci_rcc ci; ci_mode := ci_mode ci; ci_alignment := ci_alignment ci;
     ci_exclusions := ci_exclusions ci; ci_derivations := ci_derivations ci;
     ci_excluded_derived := ci_excluded_derived ci; ci_errors_fail := ci_errors_fail ci |}.

Theorem flat_multi_merge : forall ci,
  ci_sustains ci = map (fun _ => 1) (ci_crossings ci) -> ci_weights ci = map (fun _ => 1) (ci_crossings ci) ->
  min_trials_positive (ci_constraints ci) ->
  fres_equiv (create_flat ci) (create_flat (drop_empty ci)).
Proof.
  intros ci Hs Hw Hpos. apply create_flat_respects. unfold input_equiv, drop_empty, st_crossings. cbn.
  rewrite filter_idem, Hs, Hw.
  assert (Hle : length (filter nonempty_c (ci_crossings ci)) <= length (ci_crossings ci)) by apply filter_length_le.
  rewrite !(firstn_map_const 1 _ _ Hle), !(firstn_map_const 1 _ _ (le_n _)).
  repeat split; try assumption; try apply Forall_ones_skipn. apply Permutation_refl.
Qed.

(** identical arguments give the identical record (CrossBlock vs MultiCrossBlock in WEIGHT mode) *)
Lemma fres_equiv_refl_ok : forall ci fb, create_flat ci = FOk fb -> flat_equiv fb fb.
Proof. intros ci fb _. unfold flat_equiv. repeat split; reflexivity || apply Permutation_refl. Qed.

(** * ... and as statements about valid sequences
    [sem_of] is the reading of a flat record as a reference-semantics normal form (in the
    development: Encode/CodeSem.v's [code_sem], compared with the real samplers on every run).
    The hypothesis left is about that reading, no longer about [_create]: it looks at the record
    only up to [flat_equiv] (sustain counts and weights of actual crossings, constraints and
    exclusions as sets). *)
From SP Require Import Design.Sem.

Section SemOf.
Variable sem_of : flat -> sem.
Hypothesis sem_of_respects : forall x y, flat_equiv x y -> forall s, valid_b (sem_of x) s = valid_b (sem_of y) s.

Theorem respects_valid : forall a b x y s,
  input_equiv a b -> create_flat a = FOk x -> create_flat b = FOk y -> valid_b (sem_of x) s = valid_b (sem_of y) s.
Proof.
  intros a b x y s Hab Hx Hy. apply sem_of_respects.
  pose proof (create_flat_respects a b Hab) as E. rewrite Hx, Hy in E. exact E.
Qed.

Theorem repeat_merge_valid_flat : forall ci cb own x y s,
  Forall (fun n => n = 1) (skipn (length (st_crossings ci)) (ci_sustains ci)) ->
  min_trials_positive (cb ++ own) ->
  create_flat (with_constraints ci (cb ++ own)) = FOk x -> create_flat (with_constraints ci (own ++ cb)) = FOk y ->
  valid_b (sem_of x) s = valid_b (sem_of y) s.
Proof.
  intros ci cb own x y s H1 H2 Hx Hy. apply sem_of_respects.
  pose proof (flat_repeat_merge ci cb own H1 H2) as E. rewrite Hx, Hy in E. exact E.
Qed.

Theorem multi_merge_valid_flat : forall ci x y s,
  ci_sustains ci = map (fun _ => 1) (ci_crossings ci) -> ci_weights ci = map (fun _ => 1) (ci_crossings ci) ->
  min_trials_positive (ci_constraints ci) ->
  create_flat ci = FOk x -> create_flat (drop_empty ci) = FOk y ->
  valid_b (sem_of x) s = valid_b (sem_of y) s.
Proof.
  intros ci x y s H1 H2 H3 Hx Hy. apply sem_of_respects.
  pose proof (flat_multi_merge ci H1 H2 H3) as E. rewrite Hx, Hy in E. exact E.
Qed.
End SemOf.

Theorem respects_outcome : forall a b, input_equiv a b ->
  (forall e, create_flat a = FErr e <-> create_flat b = FErr e).
Proof.
  intros a b Hab e. pose proof (create_flat_respects a b Hab) as E.
  destruct (create_flat a) as [x|ea], (create_flat b) as [y|eb]; cbn in E; try contradiction; split; intro Hc; try discriminate; congruence.
Qed.

Require Import String.
Open Scope string_scope.
Definition ex_lv (n : string) : flevel := {| lv_name := n; lv_weight := 1; lv_accepts := [] |}.
Definition ex_fac (n a b : string) : ffactor :=
  {| ff_name := n; ff_hidden := false; ff_levels := [ex_lv a; ex_lv b]; ff_window := None; ff_complex := false |}.
Definition ex_input : create_input :=
  {| ci_design := [ex_fac "A" "a0" "a1"; ex_fac "B" "b0" "b1"]; ci_crossings := [[0]; []; [1]];
     ci_sustains := [1; 1; 1]; ci_weights := [1; 1; 1];
     ci_constraints := [ICon (FMinimumTrials 3); IKRowFactor RAtMost 1 0 None];
     ci_rcc := true; ci_mode := MRepeat; ci_alignment := EqualPreamble;
     ci_exclusions := [0; 0]; ci_derivations := []; ci_excluded_derived := []; ci_errors_fail := false |}.

Lemma ex_input_flat :
  exists fb, create_flat ex_input = FOk fb /\ fl_trials fb = 3 /\ fl_crossings fb = [[0]; [1]] /\ fl_sustains fb = [1; 1; 1] /\
    fl_constraints fb = [FCross; FConsistency; FMinimumTrials 3;
                         FAtMost 1 0 0 (Some {| g_trials := 3; g_preamble := 0; g_sustain := [(0, 1); (1, 1)] |});
                         FAtMost 1 0 1 (Some {| g_trials := 3; g_preamble := 0; g_sustain := [(0, 1); (1, 1)] |})] /\
  exists fb', create_flat (drop_empty ex_input) = FOk fb' /\ fl_sustains fb' = [1; 1] /\ flat_equiv fb fb'.
Proof.
  eexists. split; [vm_compute; reflexivity|]. repeat split.
  eexists. split; [vm_compute; reflexivity|]. split; [reflexivity|].
  unfold flat_equiv. cbn. repeat split; apply Permutation_refl.
Qed.

Close Scope string_scope.

(** the constraints of a built block as a later constructor sees them ([orig_constraints], whose
    [within_block] has been initialised with the block's geometry [g]) *)
Definition reinit (g : geometry) (c : iconstraint) : iconstraint :=
  match c with ICon c => ICon (init_wb g c) | c => c end.

Definition all_level_constraints (cs : list iconstraint) : Prop :=
  forall c, In c cs -> exists c0, c = ICon c0.

(** the arguments a constructor passes on when it re-creates the block [fb] built from [ci]:
    filtered crossings, all sustain counts, the final weights, the initialised constraints, REPEAT
    mode, alignment [al] *)
Definition again (ci : create_input) (fb : flat) (al : alignment) : create_input :=
  {| ci_design := ci_design ci; ci_crossings := st_crossings ci; ci_sustains := ci_sustains ci;
     ci_weights := fl_weights fb;
     ci_constraints := map (reinit (st_geometry ci (fl_preambles fb) (Z.of_nat (fl_trials fb)))) (ci_constraints ci);
     ci_rcc := ci_rcc ci; ci_mode := MRepeat; ci_alignment := al;
     ci_exclusions := ci_exclusions ci; ci_derivations := ci_derivations ci;
     ci_excluded_derived := ci_excluded_derived ci; ci_errors_fail := ci_errors_fail ci |}.

Definition with_alignment (fb : flat) (al : alignment) : flat :=
  mkflat (fl_design fb) (fl_act fb) (fl_crossings fb) (fl_sustains fb) (fl_weights fb) (fl_sizes fb) (fl_preambles fb) al
         (fl_alignment_preamble fb) (fl_min_trials fb) (fl_trials fb) (fl_rcc fb) (fl_exclude fb) (fl_excluded_derived fb)
         (fl_constraints fb) (fl_errors_fail fb).

Lemma init_wb_idem : forall g c, init_wb g (init_wb g c) = init_wb g c.
Proof. intros g c. destruct c; try reflexivity; destruct wb; reflexivity. Qed.

Lemma constraint_uses_init : forall d g c f, constraint_uses d (init_wb g c) f = constraint_uses d c f.
Proof. intros d g c f. destruct c; try reflexivity; destruct wb; reflexivity. Qed.

Lemma st_exclude_init : forall g l, st_exclude (map (init_wb g) l) = st_exclude l.
Proof.
  intros g l. unfold st_exclude. induction l as [|c l IH]; [reflexivity|]. cbn [map flat_map]. rewrite IH.
  f_equal. destruct c; try reflexivity; destruct wb; reflexivity.
Qed.

Lemma min_fold_init : forall g l m, fold_left min_step (map (init_wb g) l) m = fold_left min_step l m.
Proof.
  intros g l. induction l as [|c l IH]; intro m; [reflexivity|]. cbn [map fold_left]. rewrite IH. f_equal.
  destruct c; try reflexivity; destruct wb; reflexivity.
Qed.

Lemma desugar_reinit : forall d g cs,
  all_level_constraints cs ->
  flat_map (desugar_constraint d) (map (reinit g) cs) = map (init_wb g) (flat_map (desugar_constraint d) cs).
Proof.
  intros d g cs. induction cs as [|c cs IH]; intro Hall; [reflexivity|].
  cbn [map flat_map]. rewrite map_app, IH by (intros c' Hc'; apply Hall; right; exact Hc').
  destruct (Hall c (or_introl eq_refl)) as [c0 ->]. reflexivity.
Qed.

Lemma st_cons_again : forall ci fb al,
  all_level_constraints (ci_constraints ci) ->
  st_cons (again ci fb al) = map (init_wb (st_geometry ci (fl_preambles fb) (Z.of_nat (fl_trials fb)))) (st_cons ci).
Proof.
  intros ci fb al Hall. unfold st_cons. cbn [again ci_design ci_constraints ci_sustains].
  rewrite desugar_reinit by exact Hall. rewrite !map_app. cbn [map init_wb]. f_equal. f_equal.
  destruct (existsb _ (ci_sustains ci)); reflexivity.
Qed.

Lemma st_crossings_again : forall ci fb al, st_crossings (again ci fb al) = st_crossings ci.
Proof. intros. unfold st_crossings. cbn [again ci_crossings]. apply filter_idem. Qed.

Lemma st_act_again : forall ci fb al, all_level_constraints (ci_constraints ci) -> st_act (again ci fb al) = st_act ci.
Proof.
  intros ci fb al Hall. unfold st_act. rewrite st_crossings_again, st_cons_again by exact Hall.
  cbn [again ci_design]. apply filter_ext. intro f. f_equal. unfold implied.
  destruct (nth_error (ci_design ci) f) as [fd|]; [|reflexivity]. destruct (ff_window fd); [|reflexivity].
  f_equal. f_equal. rewrite existsb_map. apply existsb_ext. intro c. apply constraint_uses_init.
Qed.

Lemma sustain_of_again : forall ci fb al s p s' p' f,
  sustain_of (st_flat (again ci fb al) s p) f = sustain_of (st_flat ci s' p') f.
Proof.
  intros. unfold sustain_of. cbn [st_flat mkflat fl_crossings fl_sustains]. rewrite st_crossings_again. reflexivity.
Qed.

Lemma st_sizes_again : forall ci fb al, st_sizes (again ci fb al) = st_sizes ci.
Proof.
  intros ci fb al. unfold st_sizes. rewrite st_crossings_again. cbn [again ci_exclusions].
  apply map_ext. intros [c e]. cbn [fst snd].
  replace (crossing_size_no_excl (st_flat (again ci fb al) [] []) c) with (crossing_size_no_excl (st_flat ci [] []) c)
    by (apply crossing_size_ext; reflexivity).
  f_equal. destruct c; [reflexivity|]. apply sustain_of_again.
Qed.

Lemma tfe_again : forall ci fb al s p p',
  ci_alignment ci <> PostPreamble -> al <> PostPreamble ->
  trial_fields_eq (st_flat (again ci fb al) s p) (st_flat ci s p').
Proof.
  intros ci fb al s p p' H1 H2. unfold trial_fields_eq. cbn [st_flat mkflat fl_design fl_crossings fl_sizes fl_alignment].
  rewrite st_crossings_again. cbn [again ci_design ci_alignment]. repeat split; try assumption; try contradiction.
  intro f. apply sustain_of_again.
Qed.

Lemma to_nat_zs : forall l, map Z.to_nat (zs_of l) = l.
Proof. intro l. unfold zs_of. rewrite map_map. rewrite <- (map_id l) at 2. apply map_ext. intro n. apply Nat2Z.id. Qed.

Lemma st_geometry_again : forall ci fb al pres T,
  ci_alignment ci <> PostPreamble -> al <> PostPreamble ->
  st_geometry (again ci fb al) pres T = st_geometry ci pres T.
Proof.
  intros ci fb al pres T H1 H2. unfold st_geometry. rewrite st_crossings_again. cbn [again ci_alignment ci_sustains].
  change (st_alpre (again ci fb al)) with (st_alpre ci). destruct (st_crossings ci); [reflexivity|].
  destruct al; [congruence| |]; destruct (ci_alignment ci); try congruence; reflexivity.
Qed.

(** re-creating a built block with its own (filtered) crossings, its final weights in REPEAT mode and
    its initialised constraints gives the same flat record, for any non-POST alignment [al] that the
    EQUAL_PREAMBLE check admits (the record then carries [al]) *)
Theorem create_again : forall ci fb al,
  create_flat ci = FOk fb -> all_level_constraints (ci_constraints ci) ->
  ci_alignment ci <> PostPreamble -> al <> PostPreamble ->
  (al = EqualPreamble -> all_eq (fl_preambles fb) = true) ->
  create_flat (again ci fb al) = FOk (with_alignment fb al).
Proof.
  intros ci fb al Hc Hall Ha1 Ha2 Heq.
  destruct (create_flat_inv ci fb Hc) as [pres [T [m [ws [[Hd Hp _ HT Hm _] Hfb]]]]].
  set (g := st_geometry ci pres T).
  assert (Hcons : st_cons (again ci fb al) = map (init_wb g) (st_cons ci)).
  { rewrite st_cons_again by exact Hall. rewrite Hfb. unfold g, st_geometry. cbn [built mkflat fl_preambles fl_trials].
    rewrite Nat2Z.id. reflexivity. }
  assert (Hm' : model_min_trials (st_flat (again ci fb al) (st_sizes ci) pres) = Some m).
  { rewrite <- Hm. unfold model_min_trials. rewrite !min_trials_raw_eq. cbn [st_flat mkflat fl_constraints].
    rewrite Hcons, min_fold_init. reflexivity. }
  rewrite (create_flat_intro (again ci fb al) pres T m (zs_of (fl_weights fb))).
  - f_equal. unfold built. rewrite st_sizes_again, st_crossings_again, st_act_again, st_geometry_again, Hcons by assumption.
    rewrite st_exclude_init, map_map, (map_ext _ _ (init_wb_idem g)), to_nat_zs, Hfb. reflexivity.
  - constructor; rewrite ?st_sizes_again, ?st_crossings_again.
    + exact Hd.
    + rewrite <- Hp. apply model_preambles_ext, tfe_again; assumption.
    + rewrite Hfb in Heq. exact Heq.
    + rewrite <- HT. unfold model_trials. rewrite Hm', Hm.
      rewrite (trials_for_crossings_ext _ _ (tfe_again ci fb al (st_sizes ci) pres pres Ha1 Ha2)). reflexivity.
    + exact Hm'.
    + reflexivity.
Qed.

Lemma create_flat_equal_preamble : forall ci fb,
  create_flat ci = FOk fb -> ci_alignment ci = EqualPreamble -> all_eq (fl_preambles fb) = true.
Proof. intros ci fb Hc Hal. destruct (create_flat_inv ci fb Hc) as [pres [T [m [ws [S ->]]]]]. exact (sg_equal _ _ _ _ _ S Hal). Qed.

Lemma create_flat_alignment : forall ci fb, create_flat ci = FOk fb -> fl_alignment fb = ci_alignment ci.
Proof. intros ci fb Hc. destruct (create_flat_inv ci fb Hc) as [pres [T [m [ws [_ ->]]]]]. reflexivity. Qed.

Lemma with_alignment_same : forall fb, with_alignment fb (fl_alignment fb) = fb.
Proof. intros []. reflexivity. Qed.

(** Repeat(block, []): the block's original design and crossings, all its sustain counts, its final
    weights, its constraints, REPEAT mode, EQUAL_PREAMBLE - the same flat record (carrying
    EQUAL_PREAMBLE), for a block that is not aligned POST_PREAMBLE and has equal preamble sizes
    (otherwise Repeat raises, as documented) *)
Theorem repeat_nil_flat : forall ci fb,
  create_flat ci = FOk fb -> all_level_constraints (ci_constraints ci) ->
  ci_alignment ci <> PostPreamble -> all_eq (fl_preambles fb) = true ->
  create_flat (again ci fb EqualPreamble) = FOk (with_alignment fb EqualPreamble).
Proof. intros ci fb Hc Hall Ha Heq. apply create_again; try assumption; [discriminate | intros _; exact Heq]. Qed.

(** Merge([block]) (REPEAT mode, the block's alignment): the block's crossings with the sustain counts
    and weights of those crossings only *)
Definition merge_again (ci : create_input) (fb : flat) : create_input :=
  let k := List.length (st_crossings ci) in
  let a := again ci fb (ci_alignment ci) in
  {| ci_design := ci_design a; ci_crossings := ci_crossings a; ci_sustains := firstn k (ci_sustains a);
     ci_weights := firstn k (ci_weights a); ci_constraints := ci_constraints a; ci_rcc := ci_rcc a; ci_mode := ci_mode a;
     ci_alignment := ci_alignment a; ci_exclusions := ci_exclusions a; ci_derivations := ci_derivations a;
     ci_excluded_derived := ci_excluded_derived a; ci_errors_fail := ci_errors_fail a |}.

Lemma reinit_positive : forall g cs, min_trials_positive cs -> min_trials_positive (map (reinit g) cs).
Proof.
  intros g cs Hpos n Hin. apply in_map_iff in Hin. destruct Hin as [c [E Hc]].
  destruct c as [c0|]; cbn in E; [|discriminate]. inversion E as [E0].
  destruct c0; try discriminate; try (destruct wb; discriminate). cbn in E0. inversion E0; subst. apply Hpos. exact Hc.
Qed.

Lemma st_crossings_merge_again : forall ci fb, st_crossings (merge_again ci fb) = st_crossings ci.
Proof. intros. unfold st_crossings, merge_again. cbn [ci_crossings again]. apply filter_idem. Qed.

Theorem merge_singleton_flat : forall ci fb,
  create_flat ci = FOk fb -> all_level_constraints (ci_constraints ci) -> min_trials_positive (ci_constraints ci) ->
  ci_alignment ci <> PostPreamble ->
  Forall (fun n => n = 1) (skipn (List.length (st_crossings ci)) (ci_sustains ci)) ->
  exists fb', create_flat (merge_again ci fb) = FOk fb' /\ flat_equiv fb fb'.
Proof.
  intros ci fb Hc Hall Hpos Ha Hones.
  assert (Hag : create_flat (again ci fb (ci_alignment ci)) = FOk fb).
  { rewrite (create_again ci fb (ci_alignment ci) Hc Hall Ha Ha).
    - rewrite <- (create_flat_alignment ci fb Hc). rewrite with_alignment_same. reflexivity.
    - intro E. apply (create_flat_equal_preamble ci fb Hc E). }
  assert (Heqv : input_equiv (again ci fb (ci_alignment ci)) (merge_again ci fb)).
  { unfold input_equiv. rewrite st_crossings_again, st_crossings_merge_again.
    unfold merge_again.
    cbn [ci_design ci_sustains ci_weights ci_constraints ci_rcc ci_mode ci_alignment ci_exclusions ci_derivations
         ci_excluded_derived ci_errors_fail].
    rewrite !firstn_firstn, !Nat.min_id.
    repeat split; try reflexivity; try exact Hones;
      try (rewrite skipn_firstn_comm, Nat.sub_diag; constructor);
      try (apply reinit_positive; exact Hpos). }
  pose proof (create_flat_respects _ _ Heqv) as E. rewrite Hag in E.
  destruct (create_flat (merge_again ci fb)) as [fb'|e]; [|contradiction]. exists fb'. split; [reflexivity | exact E].
Qed.

(** Example: MultiCrossBlock([A,B], [[A],[B]], [MinimumTrials(3), AtMostKInARow(1,(A,a0))], mode=REPEAT,
    alignment=PARALLEL_START) built, then Repeat(block, []) and Merge([block]) *)
Definition ex_block_input : create_input :=
  {| ci_design := [ex_fac "A" "a0" "a1"; ex_fac "B" "b0" "b1"]; ci_crossings := [[0]; [1]];
     ci_sustains := [1; 1]; ci_weights := [1; 1];
     ci_constraints := [ICon (FMinimumTrials 3); ICon (FAtMost 1 0 0 None)];
     ci_rcc := true; ci_mode := MRepeat; ci_alignment := ParallelStart;
     ci_exclusions := [0; 0]; ci_derivations := []; ci_excluded_derived := []; ci_errors_fail := false |}.

Lemma ex_block_again :
  exists fb, create_flat ex_block_input = FOk fb /\ fl_trials fb = 3 /\ fl_alignment fb = ParallelStart /\
    all_level_constraints (ci_constraints ex_block_input) /\ all_eq (fl_preambles fb) = true /\
    create_flat (again ex_block_input fb EqualPreamble) = FOk (with_alignment fb EqualPreamble) /\
    create_flat (merge_again ex_block_input fb) = FOk fb.
Proof.
  eexists. split; [vm_compute; reflexivity|]. split; [reflexivity|]. split; [reflexivity|]. split.
  - intros c [<-|[<-|[]]]; eexists; reflexivity.
  - split; [reflexivity|]. split; vm_compute; reflexivity.
Qed.
