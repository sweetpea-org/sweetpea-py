(** The documented multiplicities over the level tuples of a crossing of simple factors, and: a flat
    record over a design of simple factors with one crossing, preamble 0 and the constraints of
    [plain_constraint] lies in the fragment F1 of the compilation theorem ([plain_in_f1]). *)
From Coq Require Import ZArith List Bool Arith Lia String.
From SP Require Import Base.Lists Design.Flat Design.Layout Design.Sem Design.DocSem Design.DocSemProofs Design.DocSemPlain
     Design.ListSums Front.TrialsProofs Front.CreateFlat Front.PlainInput Front.PlainT2 Front.PlainT2Doc Front.PlainT2Cons
     Encode.Compile Encode.CodeSem.
Import ListNotations.
Local Open Scope nat_scope.
Local Open Scope list_scope.

Lemma flat_map_flat_map : forall {A B C} (f : B -> list C) (g : A -> list B) l, flat_map f (flat_map g l) = flat_map (fun x => flat_map f (g x)) l.
Proof. intros. induction l as [|x l IH]; [reflexivity|]. cbn. rewrite flat_map_app, IH. reflexivity. Qed.

Lemma lookup_level_in : forall di c l, NoDup (map fst di) -> In (c, l) di -> lookup_level di c = Some l.
Proof.
  intros di c l. unfold lookup_level. induction di as [|[c0 l0] di IH]; intros Hnd Hin; [contradiction|]. cbn.
  inversion Hnd; subst. destruct Hin as [E|Hin].
  - inversion E; subst. rewrite Nat.eqb_refl. reflexivity.
  - destruct (Nat.eqb_spec c0 c) as [->|Hne].
    + exfalso. apply H1. apply in_map_iff. exists (c, l). split; [reflexivity|exact Hin].
    + apply IH; assumption.
Qed.

Lemma lookup_level_some : forall di c l, lookup_level di c = Some l -> In (c, l) di.
Proof.
  intros di c l. unfold lookup_level. induction di as [|[c0 l0] di IH]; cbn; intro H; [discriminate|].
  destruct (Nat.eqb_spec c0 c) as [->|Hne]; cbn in H; [inversion H; left; reflexivity|right; apply IH; exact H].
Qed.

Lemma level_is_In : forall di e, NoDup (map fst di) -> level_is di e = true <-> In e di.
Proof.
  intros di [c l] Hnd. unfold level_is. cbn [fst snd]. split.
  - destruct (lookup_level di c) as [l'|] eqn:El; [|discriminate]. intro H. apply Nat.eqb_eq in H. subst l'. apply lookup_level_some. exact El.
  - intro Hin. rewrite (lookup_level_in _ _ _ Hnd Hin). apply Nat.eqb_refl.
Qed.

Lemma nonempty_map_match : forall (l : list nat) (g : nat -> nat), l <> [] -> match map g l with [] => false | _ => true end = true.
Proof. intros l g H. destruct l; [congruence|reflexivity]. Qed.

Lemma all_not_derived : forall p design fb, fl_design fb = map (mkff p) design -> forall c, not_derived fb c.
Proof.
  intros p design fb Hd c. unfold not_derived, Layout.factor_at. rewrite Hd, nth_error_map.
  destruct (nth_error design c) as [f|]; [right; exists (mkff p f); split; reflexivity|left; reflexivity].
Qed.

Lemma list_nat_eqb_refl : forall l, list_nat_eqb l l = true.
Proof. induction l as [|x l IH]; [reflexivity|]. cbn. rewrite Nat.eqb_refl. exact IH. Qed.

Lemma crossing_weight_single : forall fb cr w, fl_crossings fb = [cr] -> fl_weights fb = [w] -> crossing_weight fb cr = w.
Proof. intros fb cr w Hc Hw. unfold crossing_weight. rewrite Hc. cbn [crossing_ind]. rewrite list_nat_eqb_refl, Hw. reflexivity. Qed.

Section DocMult.
Variable p : program.
Variable crossing : list nat.
Hypothesis Hcs : forall f, In f crossing -> simple_id p f.
Hypothesis Hnames : forall f, In f crossing -> NoDup (map fst (plevels p f)).

Lemma idx_names_gen : forall (fs ls : list nat), (forall f, In f fs -> In f crossing) -> Forall2 (fun l f => l < nlv p f) ls fs ->
  mapM (fun fn : nat * name => level_index p (fst fn) (snd fn)) (combine fs (zipw (nm p) fs ls)) = Ok ls.
Proof.
  intros fs ls Hin H. induction H as [|l f ls fs Hl _ IH]; [reflexivity|]. unfold zipw in *. cbn [combine map fst snd mapM].
  assert (Hf : In f crossing) by (apply Hin; left; reflexivity).
  rewrite (level_index_nm p f l (Hcs f Hf) (Hnames f Hf) Hl). cbn [bind]. rewrite IH by (intros g Hg; apply Hin; right; exact Hg). reflexivity.
Qed.

Lemma doc_mult_char : forall (cmb : combos) (P : list nat -> bool) w mult, keys_are p crossing cmb P ->
  mapM (fun cw : list name * nat =>
          idx <- mapM (fun fn => level_index p (fst fn) (snd fn)) (combine crossing (fst cw)) ;; Ok (idx, snd cw * w * 1))
       (sort_by (fun a b => names_leb (fst a) (fst b)) cmb) = Ok mult ->
  forall x, In x mult <-> exists ls, In ls (IP p crossing) /\ P ls = true /\ x = (ls, W p crossing ls * w * 1).
Proof.
  intros cmb P w mult [_ [Hv Hk]] Hm x.
  assert (Hone : forall ls v, In ls (IP p crossing) -> In (zipw (nm p) crossing ls, v) cmb ->
            (idx <- mapM (fun fn => level_index p (fst fn) (snd fn)) (combine crossing (zipw (nm p) crossing ls)) ;; Ok (idx, v * w * 1))
            = Ok (ls, W p crossing ls * w * 1)).
  { intros ls v Hls Hin. rewrite (idx_names_gen crossing ls (fun f Hf => Hf) (in_IP_lt p crossing ls Hls)). cbn [bind].
    pose proof (Hv _ _ Hin) as E. rewrite (combo_weight_names p crossing Hcs Hnames ls Hls) in E. injection E as <-. reflexivity. }
  split.
  - intro Hx. destruct (mapM_in _ _ _ _ Hm Hx) as [[combo v] [Hin Hf]]. apply in_sort_by in Hin. cbn [fst snd] in Hf.
    assert (Hkey : In combo (map fst cmb)) by (apply in_map_iff; exists (combo, v); split; [reflexivity|exact Hin]).
    apply Hk in Hkey. destruct Hkey as [ls [Hls [HP <-]]]. exists ls. split; [exact Hls|]. split; [exact HP|].
    rewrite (Hone ls v Hls Hin) in Hf. injection Hf as <-. reflexivity.
  - intros [ls [Hls [HP ->]]].
    assert (Hkey : In (zipw (nm p) crossing ls) (map fst cmb)) by (apply Hk; exists ls; auto).
    apply in_map_iff in Hkey. destruct Hkey as [[combo v] [E Hin]]. cbn [fst] in E. subst combo.
    destruct (mapM_in_l _ _ _ _ Hm (proj2 (in_sort_by _ _ _) Hin)) as [y [Hy Hf]]. cbn [fst snd] in Hf.
    rewrite (Hone ls v Hls Hin) in Hf. injection Hf as <-. exact Hy.
Qed.

End DocMult.

Section Main.
Variable p : program.
Variables design crossing : list nat.
Variable cs : list pcons.
Variable ics : list iconstraint.
Hypothesis Hsimple : forall f, In f design -> simple_id p f.
Hypothesis Hincl : incl crossing design.
Hypothesis HndC : NoDup crossing.
Hypothesis Hlev : forall d, In d design -> 0 < nlv p d.
Hypothesis Hne : crossing <> [].
Hypothesis Hics : Forall2 (fun c ic => plain_constraint p design c = Some ic) cs ics.

Let fds := map (mkff p) design.
Let cr := map (pos design) crossing.
Let excl := excluded_levels ics.

Lemma NoDup_cr : NoDup cr.
Proof.
  unfold cr. apply NoDup_map_inj_in; [|exact HndC]. intros f g Hf Hg E.
  pose proof (pos_nth_error design f (Hincl f Hf)) as E1. pose proof (pos_nth_error design g (Hincl g Hg)) as E2. rewrite E in E1. congruence.
Qed.

Lemma code_factors_gen : forall (fb : flat) (l : list nat) s,
  (forall i, sustain_of fb i = 1) ->
  map (fun pr => code_factor fb (fst pr) (snd pr)) (combine (seq s (List.length (map (mkff p) l))) (map (mkff p) l))
  = map (fun f => {| f_nlevels := nlv p f; f_sustain := 1; f_derived := None |}) l.
Proof.
  intros fb l s Hsu. revert s. induction l as [|f l IH]; intro s; [reflexivity|]. cbn [map List.length seq combine fst snd]. f_equal; [|apply IH].
  unfold code_factor. rewrite Hsu. unfold mkff at 1 2. cbn [ff_levels ff_window]. rewrite map_length. reflexivity.
Qed.

Lemma same_keys_true : forall (a b : combos), (forall k, In k (map fst a) <-> In k (map fst b)) -> same_keys a b = true.
Proof.
  intros a b H. unfold same_keys. apply andb_true_iff. split; apply forallb_forall; intros [k v] Hin; cbn [fst]; unfold memb;
    apply existsb_exists; exists k; (split; [|apply names_eqb_refl]).
  - apply H. apply in_map_iff. exists (k, v). split; [reflexivity|exact Hin].
  - apply H. apply in_map_iff. exists (k, v). split; [reflexivity|exact Hin].
Qed.

Lemma list_nat_nodup_of : forall l, NoDup l -> list_nat_nodup l = true.
Proof.
  induction l as [|x l IH]; intro H; [reflexivity|]. inversion H; subst. cbn. rewrite IH by assumption. rewrite andb_true_r.
  apply negb_true_iff. apply existsb_false. intros y Hy. apply Nat.eqb_neq. intro E. subst. contradiction.
Qed.

Lemma st_act_plain : forall ci, ci_design ci = fds -> st_act ci = seq 0 (List.length design).
Proof.
  intros ci Hd. unfold st_act. rewrite Hd. unfold fds. rewrite map_length. apply filter_all. intros i _.
  unfold implied. rewrite nth_error_map. destruct (nth_error design i); reflexivity.
Qed.

(** positive k on AtLeastKInARow / ExactlyKInARow (the fragment F1 asks for it) *)
Definition kpos (c : pcons) : Prop :=
  match c with PKRow DocSem.RAtLeast k _ | PKRow DocSem.RExactlyRow k _ => 0 < k | _ => True end.

Section InF1.
Variable T : nat.
Hypothesis HT : 0 < T.
Variable fb : flat.
Hypothesis Hd : fl_design fb = fds.
Hypothesis Hact : fl_act fb = seq 0 (List.length design).
Hypothesis Hc : fl_crossings fb = [cr].
Hypothesis Hs : fl_sustains fb = [1].
Hypothesis Htr : fl_trials fb = T.
Hypothesis Hal : fl_alignment fb = EqualPreamble.
Variable g : geometry.
Hypothesis Hgt : g_trials g = T.
Hypothesis Hgp : g_preamble g = 0.
Hypothesis Hgs : forall kv, In kv (g_sustain g) -> snd kv = 1.

Lemma ranges_g : map_block_trial_ranges fb (Some g) = Some [(0, T)].
Proof.
  unfold map_block_trial_ranges. rewrite Hgt, Hgp, Hal.
  replace (T <=? 0) with false by (symmetry; apply Nat.leb_gt; exact HT). cbn [andb].
  unfold trials. rewrite Htr, Nat.sub_0_r. destruct T as [|T']; [lia|]. cbn [ranges_loop].
  replace (0 <? Datatypes.S T') with true by (symmetry; apply Nat.ltb_lt; lia). unfold trials. rewrite Htr, Nat.min_id.
  rewrite Nat.add_0_l, Nat.ltb_irrefl. destruct T'; reflexivity.
Qed.

Lemma windows_g : windows_of fb (Some g) = [(0, T)].
Proof. unfold windows_of. rewrite ranges_g. reflexivity. Qed.

Lemma geom_ok_g : geom_ok fb (Some g) = true.
Proof. unfold geom_ok. rewrite ranges_g. reflexivity. Qed.

Lemma geometry_sustain_g : forall f, geometry_sustain fb (Some g) f = 1.
Proof.
  intro f. unfold geometry_sustain. destruct (find _ (g_sustain g)) as [kv|] eqn:E; [|reflexivity].
  apply find_some in E. apply Hgs. apply E.
Qed.

Lemma strided_simple : forall f, simple_id p f -> strided (fd_of p f) = false.
Proof. intros f H. unfold strided. rewrite (simple_plevels p f H). reflexivity. Qed.

Lemma isact_lt : forall i, i < List.length design -> isact fb i = true.
Proof. intros i Hi. unfold isact. rewrite Hact. apply existsb_exists. exists i. split; [apply in_seq; lia|apply Nat.eqb_refl]. Qed.

Lemma factor_at_design : forall i f, nth_error design i = Some f -> Layout.factor_at fb i = Some (mkff p f).
Proof. intros i f H. unfold Layout.factor_at. rewrite Hd. apply nth_error_mkff. exact H. Qed.

Lemma nlevels_design : forall i f, nth_error design i = Some f -> Layout.nlevels fb i = nlv p f.
Proof. intros i f H. unfold Layout.nlevels. rewrite (factor_at_design i f H). apply mkff_nlevels. Qed.

Lemma stride1_all : forall i, stride1 fb i = true.
Proof.
  intro i. unfold stride1, Layout.factor_at. rewrite Hd. unfold fds. rewrite nth_error_map. destruct (nth_error design i); reflexivity.
Qed.

Lemma not_complex_all : forall i, Layout.is_complex fb i = false.
Proof.
  intro i. unfold Layout.is_complex, Layout.factor_at. rewrite Hd. unfold fds. rewrite nth_error_map. destruct (nth_error design i); reflexivity.
Qed.

Lemma trials_of_nonempty : forall f, match trials_of fb f 0 T with [] => false | _ => true end = true.
Proof.
  intro f. unfold trials_of. rewrite Nat.sub_0_r. rewrite filter_all.
  - destruct T; [lia|reflexivity].
  - intros t _. apply applies_at_simple. apply (all_not_derived p design fb Hd).
Qed.

Lemma list_sum_ge_in : forall x l, In x l -> x <= list_sum l.
Proof. intros x l H. induction l as [|y l IH]; [contradiction|]. rewrite list_sum_cons. destruct H as [->|H]; [lia|specialize (IH H); lia]. Qed.

Lemma vps_pos : forall pf f, nth_error design pf = Some f -> 0 < variables_per_sample fb.
Proof.
  intros pf f Hnth. unfold variables_per_sample. rewrite Hact. rewrite (fold_add_sum (fun f0 => variables_for_factor fb f0 0 0)). cbn [Nat.add].
  assert (Hpf : pf < List.length design) by (apply nth_error_Some; congruence).
  assert (Hv : 0 < variables_for_factor fb pf 0 0).
  { unfold variables_for_factor. cbn [Nat.eqb]. unfold trials. rewrite Htr, Nat.sub_0_r.
    rewrite (fold_cond_sum (fun t => applies_at fb pf t) (fun _ => Layout.nlevels fb pf)). cbn [Nat.add].
    rewrite filter_all by (intros t _; apply applies_at_simple; apply (all_not_derived p design fb Hd)).
    rewrite (nlevels_design pf f Hnth). destruct T as [|T']; [lia|]. cbn [seq map]. rewrite list_sum_cons.
    assert (0 < nlv p f) by (apply Hlev; eapply nth_error_In; eauto). lia. }
  assert (Hin : In (variables_for_factor fb pf 0 0) (map (fun f0 => variables_for_factor fb f0 0 0) (seq 0 (List.length design)))).
  { apply in_map_iff. exists pf. split; [reflexivity|apply in_seq; lia]. }
  pose proof (list_sum_ge_in _ _ Hin). lia.
Qed.

Lemma pin_trials_ok : forall pf ix,
  match get_trial_numbers fb pf ix (Some g) with Some ps => forallb (fun p0 => p0 <? fl_trials fb) ps | None => false end = true.
Proof.
  intros pf ix. unfold get_trial_numbers. rewrite ranges_g. cbn [option_map flat_map fst snd]. rewrite geometry_sustain_g.
  rewrite app_nil_r. destruct (_ && _)%Z eqn:E; [|reflexivity]. cbn [seq map forallb]. rewrite andb_true_r, Htr.
  apply andb_true_iff in E. destruct E as [E1 E2]. apply Z.leb_le in E1. apply Z.ltb_lt in E2. apply Nat.ltb_lt. destruct (ix <? 0)%Z; lia.
Qed.

Lemma krow_f1 : forall kd k f l, In f design -> l < nlv p f -> kpos (PKRow kd k (TFactor f)) ->
  constraint_f1 fb (init_wb g (mk_krow (krow_of kd) k (pos design f) l None)) = true.
Proof.
  intros kd k f l Hfd Hl Hk. pose proof (pos_nth_error design f Hfd) as Hnth.
  assert (Hpf : pos design f < List.length design) by (apply nth_error_Some; congruence).
  assert (Hll : (l <? Layout.nlevels fb (pos design f)) = true) by (rewrite (nlevels_design _ f Hnth); apply Nat.ltb_lt; exact Hl).
  destruct kd; cbn [krow_of mk_krow init_wb constraint_f1 kpos] in *;
    rewrite ?(isact_lt _ Hpf), ?Hll, ?geom_ok_g, ?stride1_all, ?windows_g; cbn [andb forallb fst snd];
    rewrite ?trials_of_nonempty; try reflexivity; (replace (0 <? k) with true by (symmetry; apply Nat.ltb_lt; exact Hk)); reflexivity.
Qed.

Lemma constraint_f1_one : forall c ic, plain_constraint p design c = Some ic -> kpos c ->
  forallb (constraint_f1 fb) (map (init_wb g) (desugar_constraint fds ic)) = true.
Proof.
  intros c ic H Hk.
  destruct (plain_constraint_inv p design c ic H) as [kd k f n l Hfd Eli|kd k f Hfd|f n l Hfd Eli|ix f n l Hfd Eli|t];
    try (pose proof (pos_nth_error design f Hfd) as Hnth;
         assert (Hpf : pos design f < List.length design) by (apply nth_error_Some; congruence)).
  - cbn [desugar_constraint map forallb]. rewrite andb_true_r.
    apply krow_f1; [exact Hfd|apply (level_index_simple p design Hsimple f n l Hfd Eli)|exact Hk].
  - assert (Enl : nlevels_of fds (pos design f) = nlv p f).
    { unfold nlevels_of, fds. rewrite (nth_error_mkff p design _ f Hnth). apply mkff_nlevels. }
    cbn [desugar_constraint option_map]. rewrite Enl, map_map. apply forallb_forall. intros x Hx. apply in_map_iff in Hx.
    destruct Hx as [l [<- Hl]]. apply in_seq in Hl. apply krow_f1; [exact Hfd|lia|exact Hk].
  - destruct (level_index_simple p design Hsimple f n l Hfd Eli) as [Hl _].
    cbn [desugar_constraint map forallb init_wb constraint_f1]. rewrite (isact_lt _ Hpf), (nlevels_design _ f Hnth), stride1_all.
    replace (l <? nlv p f) with true by (symmetry; apply Nat.ltb_lt; exact Hl). reflexivity.
  - destruct (level_index_simple p design Hsimple f n l Hfd Eli) as [Hl _].
    cbn [desugar_constraint map forallb init_wb constraint_f1].
    rewrite (isact_lt _ Hpf), (nlevels_design _ f Hnth), geom_ok_g, geometry_sustain_g, pin_trials_ok.
    replace (l <? nlv p f) with true by (symmetry; apply Nat.ltb_lt; exact Hl).
    replace (0 <? variables_per_sample fb) with true by (symmetry; apply Nat.ltb_lt; apply (vps_pos _ f Hnth)). reflexivity.
  - reflexivity.
Qed.

Lemma constraint_f1_all : forall cs' ics', Forall2 (fun c ic => plain_constraint p design c = Some ic) cs' ics' -> Forall kpos cs' ->
  forallb (constraint_f1 fb) (map (init_wb g) (flat_map (desugar_constraint fds) ics')) = true.
Proof.
  intros cs' ics' H Hk. induction H as [|c ic cs' ics' Hcic _ IH]; [reflexivity|]. inversion Hk as [|c0 cs0 Hk1 Hk2].
  cbn [flat_map]. rewrite map_app, forallb_app. rewrite (constraint_f1_one c ic Hcic Hk1). apply IH. exact Hk2.
Qed.

Definition not_deriv (c : fconstraint) : bool := match c with FDerivation _ _ _ => false | _ => true end.

Lemma not_deriv_one : forall c ic, plain_constraint p design c = Some ic ->
  forallb (fun c0 => not_deriv (init_wb g c0)) (desugar_constraint fds ic) = true.
Proof.
  intros c ic H. destruct (plain_constraint_inv p design c ic H) as [kd k f n l _ _|kd k f _|f n l _ _|ix f n l _ _|t]; try reflexivity.
  - destruct kd; reflexivity.
  - cbn [desugar_constraint option_map]. apply forallb_forall.
    intros c0 Hc0. apply in_map_iff in Hc0. destruct Hc0 as [l [<- _]]. destruct kd; reflexivity.
Qed.

Lemma forallb_design : forall Q : nat * ffactor -> bool,
  (forall i f, nth_error design i = Some f -> i < List.length design -> Q (i, mkff p f) = true) ->
  forallb Q (combine (seq 0 (List.length (fl_design fb))) (fl_design fb)) = true.
Proof.
  intros Q H. apply forallb_forall. intros [i fd] Hin. apply in_combine_seq in Hin. destruct Hin as [_ Hin].
  rewrite Nat.sub_0_r, Hd in Hin. unfold fds in Hin. rewrite nth_error_map in Hin.
  destruct (nth_error design i) as [f|] eqn:E; [|discriminate]. injection Hin as <-. apply (H i f E). apply nth_error_Some. congruence.
Qed.

Lemma plain_in_f1 : forall sz w,
  fl_sizes fb = [sz] -> fl_weights fb = [w] -> 0 < sz * w -> fl_preambles fb = [0] ->
  fl_constraints fb = map (init_wb g) (FCross :: FConsistency :: flat_map (desugar_constraint fds) ics) ->
  fl_exclude fb = excl -> fl_excluded_derived fb = [] -> Forall kpos cs ->
  in_f1 fb = true.
Proof.
  intros sz w Hsz Hw Hwpos Hpre Hcons Hex Hexd Hk. unfold in_f1. rewrite !andb_true_iff. repeat split.
  - apply forallb_design. intros i f Hn Hi. cbn [fst snd].
    rewrite (isact_lt i Hi). cbn [negb orb]. unfold factor_f1, mkff. cbn [ff_levels ff_window ff_complex].
    assert (Hl : 0 < nlv p f) by (apply Hlev; eapply nth_error_In; eauto). unfold nlv in Hl.
    destruct (plevels p f); [cbn in Hl; lia|reflexivity].
  - apply forallb_design. intros i f Hn Hi. cbn [fst snd].
    unfold tables_ok, tables_unambiguous, mkff. cbn [ff_window]. rewrite orb_true_r. reflexivity.
  - unfold act_sorted. rewrite Hact, Hd. unfold fds. rewrite map_length.
    rewrite filter_all by (intros i Hi; apply in_seq in Hi; apply isact_lt; lia). apply list_nat_eqb_refl.
  - apply forallb_design. intros i f Hn Hi. cbn [fst snd].
    unfold implied_ok. rewrite (isact_lt i Hi). reflexivity.
  - unfold sustains_ok. rewrite Hs. cbn [forallb Nat.ltb Nat.leb Nat.eqb andb orb]. rewrite andb_true_r.
    apply forallb_design. intros i f Hn Hi. cbn [fst snd].
    unfold grid_factor. rewrite (isact_lt i Hi), not_complex_all. reflexivity.
  - rewrite Hs, Hc. reflexivity.
  - rewrite Hc. cbn [crossings_f1]. rewrite andb_true_r. unfold crossing_f1. rewrite !andb_true_iff. repeat split.
    + apply forallb_forall. intros c Hcin. unfold cr in Hcin. apply in_map_iff in Hcin. destruct Hcin as [f [<- Hf]].
      pose proof (pos_nth_error design f (Hincl f Hf)) as Hn.
      assert (Hi : pos design f < List.length design) by (apply nth_error_Some; congruence).
      rewrite (isact_lt _ Hi), stride1_all. cbn [andb]. unfold start_of. rewrite (factor_at_design _ f Hn). reflexivity.
    + rewrite Hsz, (crossing_weight_single fb cr w Hc Hw). apply Nat.ltb_lt. exact Hwpos.
    + unfold preamble_size. rewrite Hal, Hpre, Htr. cbn [nth]. apply Nat.ltb_lt. exact HT.
    + apply nonempty_map_match. exact Hne.
  - rewrite Hc. cbn [forallb]. rewrite andb_true_r. apply list_nat_nodup_of. apply NoDup_cr.
  - rewrite Hcons. cbn [map forallb init_wb constraint_f1 andb].
    apply (constraint_f1_all cs ics Hics Hk).
  - rewrite Hcons. reflexivity.
  - rewrite Hcons. reflexivity.
  - unfold derivations_match. apply andb_true_iff. split.
    + apply forallb_design. reflexivity.
    + rewrite Hcons. cbn [map forallb init_wb andb]. apply forallb_forall. intros c Hcin. apply in_map_iff in Hcin.
      destruct Hcin as [c0 [<- Hc0]]. apply in_flat_map in Hc0. destruct Hc0 as [ic [Hic Hc0]].
      assert (Hex' : exists c', plain_constraint p design c' = Some ic).
      { destruct (Forall2_in_r _ cs ics ic Hics Hic) as [c' [_ Hc']]. exists c'. exact Hc'. }
      destruct Hex' as [c' Hc'].
      pose proof (not_deriv_one c' ic Hc') as Hnd. rewrite forallb_forall in Hnd. specialize (Hnd c0 Hc0).
      destruct (init_wb g c0); try reflexivity; discriminate.
  - unfold exclude_backed. rewrite Hex, Hcons. apply forallb_forall. intros [f l] Hin. unfold excl, excluded_levels in Hin.
    apply in_flat_map in Hin. destruct Hin as [ic [Hic Hin]]. destruct ic as [c1|]; [|contradiction]. destruct c1; try contradiction.
    destruct Hin as [E|[]]. inversion E; subst. apply existsb_exists. exists (FExclude f l). split.
    + cbn [map]. right. right. apply in_map_iff. exists (FExclude f l). split; [reflexivity|]. apply in_flat_map.
      exists (ICon (FExclude f l)). split; [exact Hic|left; reflexivity].
    + cbn. rewrite !Nat.eqb_refl. reflexivity.
  - unfold no_excluded_derived. rewrite Hexd. reflexivity.
Qed.

End InF1.

End Main.
