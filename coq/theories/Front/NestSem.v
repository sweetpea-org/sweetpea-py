(** The reference-semantics normal form that the arguments of Nest(outer, inner) denote
    (documentation of Nest; harness/docsem.py builds the same form), and the theorem that
    its valid sequences are exactly the group compositions (Properties/C25.v).

    [nest_sem So Si]: the outer block's trials are stretched over [Ti] = inner trial count
    (its crossed factors get sustain count [Ti], its crossing chunks and multiplicities are
    multiplied by [Ti]), the inner crossings are repeated (REPEAT mode: same chunks over the
    longer sequence). *)
From Coq Require Import List Bool Arith Lia.
From SP Require Import Base.Lists Design.Sem Design.SemFacts.
Import ListNotations.

Definition crossed_in (S : sem) (f : nat) : bool :=
  existsb (fun c => existsb (Nat.eqb f) (c_factors c)) (s_crossings S).

Definition scale_factor (L : nat) (crossed : bool) (fd : dfactor) : dfactor :=
  if crossed then {| f_nlevels := f_nlevels fd; f_sustain := f_sustain fd * L; f_derived := f_derived fd |} else fd.

Definition scale_crossing (L : nat) (c : dcrossing) : dcrossing :=
  {| c_factors := c_factors c; c_first := c_first c * L; c_chunk := c_chunk c * L;
     c_mult := map (fun cm => (fst cm, snd cm * L)) (c_mult c) |}.

Definition shift_crossing (k : nat) (c : dcrossing) : dcrossing :=
  {| c_factors := map (Nat.add k) (c_factors c); c_first := c_first c; c_chunk := c_chunk c; c_mult := c_mult c |}.

(** an inner constraint applies within every group: its trial windows are repeated per group *)
Definition repeat_constraint (k To Ti : nat) (c : dconstraint) : dconstraint :=
  {| k_kind := k_kind c; k_factor := k + k_factor c; k_level := k_level c;
     k_windows := flat_map (fun g => map (fun w => (g * Ti + fst w, g * Ti + snd w)) (k_windows c)) (seq 0 To) |}.

Definition nest_sem (So Si : sem) : sem :=
  {| s_trials := s_trials So * s_trials Si;
     s_factors := map (fun p => scale_factor (s_trials Si) (crossed_in So (fst p)) (snd p)) (index_list (s_factors So))
                  ++ s_factors Si;
     s_crossings := map (scale_crossing (s_trials Si)) (s_crossings So)
                    ++ map (shift_crossing (length (s_factors So))) (s_crossings Si);
     s_constraints := map (repeat_constraint (length (s_factors So)) (s_trials So) (s_trials Si)) (s_constraints Si) |}.

(** the guard: non-derived factors of sustain count 1, no outer constraints, inner constraints
    of the run-length / count kinds (AtMostKInARow, AtLeastKInARow, ExactlyKInARow, ExactlyK)
    with windows inside the inner block, no preamble trials (crossings start at trial 0),
    outer crossings over outer factors, inner crossing chunks dividing the inner trial count
    (no partial last chunk inside a group) *)
Definition window_kind_b (k : ckind) : bool :=
  match k with KAtMost _ | KAtLeast _ | KExactlyInARow _ | KExactlyK _ => true | _ => false end.

Definition inner_constraint_b (Si : sem) (c : dconstraint) : bool :=
  window_kind_b (k_kind c) && (k_factor c <? length (s_factors Si)) &&
  forallb (fun w => snd w <=? s_trials Si) (k_windows c).

Definition simple_factor_b (fd : dfactor) : bool :=
  match f_derived fd with None => f_sustain fd =? 1 | Some _ => false end.

Definition nestable_b (So Si : sem) : bool :=
  forallb simple_factor_b (s_factors So) && forallb simple_factor_b (s_factors Si) &&
  match s_constraints So with [] => true | _ => false end && forallb (inner_constraint_b Si) (s_constraints Si) &&
  forallb (fun c => (c_first c =? 0) && (0 <? c_chunk c) &&
                    forallb (fun f => f <? length (s_factors So)) (c_factors c)) (s_crossings So) &&
  forallb (fun c => (c_first c =? 0) && (0 <? c_chunk c) && (s_trials Si mod c_chunk c =? 0)) (s_crossings Si) &&
  (0 <? s_trials Si).

(** group representatives (outer rows sampled at the first trial of each group) and the
    g-th group (inner rows restricted to trials [g*Ti, (g+1)*Ti)) *)
Definition reps (no To Ti : nat) (s : tseq) : tseq :=
  map (fun row => map (fun g => nth (g * Ti) row None) (seq 0 To)) (firstn no s).

Definition grp (no Ti g : nat) (s : tseq) : tseq :=
  map (fun row => map (fun t => nth (g * Ti + t) row None) (seq 0 Ti)) (skipn no s).

Definition wf_cells (nl : nat) (row : list cell) (T : nat) : Prop :=
  forall t, t < T -> exists l, nth t row None = Some l /\ l < nl.

Definition groups_spec (So Si : sem) (s : tseq) : Prop :=
  let To := s_trials So in let Ti := s_trials Si in
  let no := length (s_factors So) in let ni := length (s_factors Si) in
  length s = no + ni /\
  (forall f, f < no + ni -> length (nth f s []) = To * Ti) /\
  (* every outer factor has one of its levels at every trial *)
  (forall f fd, nth_error (s_factors So) f = Some fd -> wf_cells (f_nlevels fd) (nth f s []) (To * Ti)) /\
  (* (a) the outer block's crossed factors are constant within each group *)
  (forall f t, f < no -> crossed_in So f = true -> t < To * Ti -> get_cell s f t = get_cell s f (t / Ti * Ti)) /\
  (* (b) the group representatives satisfy the outer block's crossings *)
  (forall c, In c (s_crossings So) -> crossing_ok So (reps no To Ti s) c = true) /\
  (* (c) each group is a valid sequence of the inner block *)
  (forall g, g < To -> valid_b Si (grp no Ti g s) = true).

Lemma factor_ok_simple : forall S s f fd,
  f_derived fd = None ->
  (factor_ok S s f fd = true <->
   length (nth f s []) = s_trials S /\ wf_cells (f_nlevels fd) (nth f s []) (s_trials S) /\
   forall t, t < s_trials S -> get_cell s f t = get_cell s f (t / f_sustain fd * f_sustain fd)).
Proof.
  intros S s f fd Hd. unfold factor_ok. rewrite andb_true_iff, Nat.eqb_eq, forallb_forall. split.
  - intros [Hlen H]. split; [exact Hlen|]. split.
    + intros t Ht. specialize (H t). rewrite in_seq in H. specialize (H ltac:(lia)).
      unfold get_cell in H. destruct (nth t (nth f s []) None) as [l|] eqn:E.
      * exists l. split; [reflexivity|]. rewrite !andb_true_iff in H. destruct H as [[[_ H] _] _]. apply Nat.ltb_lt. exact H.
      * unfold applies in H. rewrite Hd in H. discriminate.
    + intros t Ht. specialize (H t). rewrite in_seq in H. specialize (H ltac:(lia)).
      destruct (get_cell s f t) as [l|] eqn:E.
      * rewrite !andb_true_iff in H. destruct H as [[[_ _] H] _]. apply cell_eqb_eq in H. congruence.
      * unfold applies in H. rewrite Hd in H. discriminate.
  - intros [Hlen [Hwf Hc]]. split; [exact Hlen|]. intros t Ht. rewrite in_seq in Ht.
    destruct (Hwf t ltac:(lia)) as [l [Hl Hlt]]. unfold get_cell at 1. rewrite Hl.
    rewrite Hd. unfold applies. rewrite Hd. cbn [andb].
    rewrite !andb_true_iff. repeat split.
    + apply Nat.ltb_lt. exact Hlt.
    + apply cell_eqb_eq. rewrite <- Hc by lia. unfold get_cell. exact Hl.
Qed.

Definition chunk_good (S : sem) (s : tseq) (c : dcrossing) (a : nat) : bool :=
  let b := a + c_chunk c in
  let full := b <=? s_trials S in
  let b' := Nat.min b (s_trials S) in
  forallb (fun cm =>
             let n := count_combo s (c_factors c) (fst cm) a b' in
             if full then n =? snd cm else n <=? snd cm) (c_mult c) &&
  forallb (fun t => existsb (fun cm => combo_eqb (fst cm) (combo_at s (c_factors c) t)) (c_mult c))
          (seq a (b' - a)).

Lemma chunks_ok_step : forall fuel S s c a,
  chunks_ok (Datatypes.S fuel) S s c a =
  if s_trials S <=? a then true else chunk_good S s c a && chunks_ok fuel S s c (a + c_chunk c).
Proof. reflexivity. Qed.

Lemma chunks_ok_spec : forall S s c fuel a,
  0 < c_chunk c -> s_trials S < a + fuel ->
  (chunks_ok fuel S s c a = true <->
   forall j, a + j * c_chunk c < s_trials S -> chunk_good S s c (a + j * c_chunk c) = true).
Proof.
  intros S s c fuel. induction fuel as [|fuel IH]; intros a Hch Hf.
  - cbn [chunks_ok]. split; [|reflexivity]. intros _ j Hj. lia.
  - rewrite chunks_ok_step. destruct (s_trials S <=? a) eqn:E.
    + apply Nat.leb_le in E. split; [|reflexivity]. intros _ j Hj. lia.
    + apply Nat.leb_gt in E. rewrite andb_true_iff. rewrite IH by lia. split.
      * intros [H0 H] j Hj. destruct j as [|j]; [rewrite Nat.add_0_r; exact H0|].
        replace (a + Datatypes.S j * c_chunk c) with (a + c_chunk c + j * c_chunk c) by lia. apply H. lia.
      * intro H. split.
        -- specialize (H 0). rewrite Nat.add_0_r in H. apply H. lia.
        -- intros j Hj. replace (a + c_chunk c + j * c_chunk c) with (a + Datatypes.S j * c_chunk c) by lia. apply H. lia.
Qed.

Lemma crossing_ok_spec : forall S s c,
  c_first c = 0 ->
  (crossing_ok S s c = true <->
   0 < c_chunk c /\ forall j, j * c_chunk c < s_trials S -> chunk_good S s c (j * c_chunk c) = true).
Proof.
  intros S s c H0. unfold crossing_ok. rewrite andb_true_iff, Nat.ltb_lt, H0. split.
  - intros [Hc H]. split; [exact Hc|]. rewrite chunks_ok_spec in H by lia. exact H.
  - intros [Hc H]. split; [exact Hc|]. rewrite chunks_ok_spec by lia. exact H.
Qed.

Lemma div_block : forall L a t, 0 < L -> a * L <= t < a * L + L -> t / L = a.
Proof.
  intros L a t HL [H1 H2]. symmetry. apply (Nat.div_unique t L a (t - a * L)); lia.
Qed.

Lemma group_le : forall g a To Ti, g < To -> a <= Ti -> g * Ti + a <= To * Ti.
Proof.
  intros g a To Ti Hg Ha. apply (Nat.le_trans _ (Datatypes.S g * Ti)); [cbn; lia | apply Nat.mul_le_mono_r; exact Hg].
Qed.

Lemma group_lt : forall g t To Ti, g < To -> t < Ti -> g * Ti + t < To * Ti.
Proof. intros g t To Ti Hg Ht. pose proof (group_le g (Datatypes.S t) To Ti Hg Ht). lia. Qed.

(** the trials of the Nest are the trials of its groups *)
Lemma forall_group : forall (P : nat -> Prop) To Ti, 0 < Ti ->
  ((forall t, t < To * Ti -> P t) <-> (forall g t, g < To -> t < Ti -> P (g * Ti + t))).
Proof.
  intros P To Ti HTi. split.
  - intros H g t Hg Ht. apply H, group_lt; assumption.
  - intros H t Ht. replace t with (t / Ti * Ti + t mod Ti) by (pose proof (Nat.div_mod t Ti); lia).
    apply H; [apply Nat.div_lt_upper_bound; lia | apply Nat.mod_upper_bound; lia].
Qed.

Lemma count_scale : forall (L : nat) (P Q : nat -> bool) n a,
  0 < L -> (forall t, a * L <= t < (a + n) * L -> P t = Q (t / L)) ->
  length (filter P (seq (a * L) (n * L))) = length (filter Q (seq a n)) * L.
Proof.
  intros L P Q n. induction n as [|n IH]; intros a HL H; [cbn; lia|].
  replace (Datatypes.S n * L) with (L + n * L) by lia. rewrite seq_app, filter_app, app_length.
  replace (a * L + L) with (Datatypes.S a * L) by lia. rewrite IH; [|exact HL|intros t Ht; apply H; lia].
  rewrite (filter_const_length P (seq (a * L) L) (Q a)).
  - rewrite seq_length. cbn [seq filter]. destruct (Q a); cbn [length]; lia.
  - intros t Ht. rewrite in_seq in Ht. rewrite H by lia. f_equal. apply div_block; lia.
Qed.

Lemma forallb_scale : forall (L : nat) (P Q : nat -> bool) n a,
  0 < L -> (forall t, a * L <= t < (a + n) * L -> P t = Q (t / L)) ->
  forallb P (seq (a * L) (n * L)) = forallb Q (seq a n).
Proof.
  intros L P Q n. induction n as [|n IH]; intros a HL H; [reflexivity|].
  replace (Datatypes.S n * L) with (L + n * L) by lia. rewrite seq_app, forallb_app.
  replace (a * L + L) with (Datatypes.S a * L) by lia. rewrite IH; [|exact HL|intros t Ht; apply H; lia].
  cbn [seq forallb]. f_equal.
  destruct (Q a) eqn:E.
  - apply forallb_forall. intros t Ht. rewrite in_seq in Ht. rewrite H by lia.
    rewrite (div_block L a t) by lia. exact E.
  - destruct L as [|L]; [lia|]. cbn [seq forallb]. rewrite H by lia. rewrite (div_block (Datatypes.S L) a) by lia.
    rewrite E. reflexivity.
Qed.

Lemma filter_map_length : forall {A B} (h : A -> B) (P : B -> bool) l,
  length (filter P (map h l)) = length (filter (fun x => P (h x)) l).
Proof.
  intros A B h P l. induction l as [|x l IH]; [reflexivity|].
  cbn [map filter]. destruct (P (h x)); cbn [length]; rewrite IH; reflexivity.
Qed.

Lemma filter_ext_in_length : forall {A} (P Q : A -> bool) l,
  (forall x, In x l -> P x = Q x) -> length (filter P l) = length (filter Q l).
Proof.
  intros A P Q l H. rewrite (filter_ext_in P Q l H). reflexivity.
Qed.

Lemma leb_scale : forall a b L, 0 < L -> (a * L <=? b * L) = (a <=? b).
Proof.
  intros a b L HL. apply Bool.eq_true_iff_eq. rewrite !Nat.leb_le. symmetry. apply Nat.mul_le_mono_pos_r. exact HL.
Qed.

Lemma eqb_scale : forall a b L, 0 < L -> (a * L =? b * L) = (a =? b).
Proof.
  intros a b L HL. apply Bool.eq_true_iff_eq. rewrite !Nat.eqb_eq. apply Nat.mul_cancel_r. lia.
Qed.

Lemma chunk_good_scaled : forall (S1 S2 : sem) (s r : tseq) (c : dcrossing) (To Ti a : nat),
  s_trials S1 = To * Ti -> s_trials S2 = To -> 0 < Ti ->
  (forall t, t < To * Ti -> combo_at s (c_factors c) t = combo_at r (c_factors c) (t / Ti)) ->
  chunk_good S1 s (scale_crossing Ti c) (a * Ti) = chunk_good S2 r c a.
Proof.
  intros S1 S2 s r c To Ti a H1 H2 HTi Hc. unfold chunk_good. rewrite H1, H2.
  cbn [scale_crossing c_chunk c_mult c_factors].
  rewrite <- Nat.mul_add_distr_r, leb_scale, Nat.mul_min_distr_r, <- Nat.mul_sub_distr_r by exact HTi.
  set (b' := Nat.min (a + c_chunk c) To).
  assert (Hin : forall t, a * Ti <= t < (a + (b' - a)) * Ti -> t < To * Ti).
  { intros t [Hlo Ht]. apply (Nat.lt_le_trans _ _ _ Ht), Nat.mul_le_mono_r.
    destruct (Nat.le_gt_cases a b'); [subst b'; lia|]. replace (a + (b' - a)) with a in Ht by lia. lia. }
  f_equal.
  - rewrite forallb_map. apply forallb_ext_in. intros cm _. cbn [fst snd].
    assert (Hcnt : count_combo s (c_factors c) (fst cm) (a * Ti) (b' * Ti)
                   = count_combo r (c_factors c) (fst cm) a b' * Ti).
    { unfold count_combo. rewrite <- Nat.mul_sub_distr_r.
      apply count_scale; [exact HTi|]. intros t Ht. rewrite Hc by (apply Hin; exact Ht). reflexivity. }
    rewrite Hcnt, eqb_scale, leb_scale by exact HTi. reflexivity.
  - apply forallb_scale; [exact HTi|]. intros t Ht. rewrite existsb_map. cbn [fst]. rewrite Hc by (apply Hin; exact Ht). reflexivity.
Qed.

Lemma crossing_ok_scaled : forall (S1 S2 : sem) (s r : tseq) (c : dcrossing) (To Ti : nat),
  s_trials S1 = To * Ti -> s_trials S2 = To -> 0 < Ti -> c_first c = 0 ->
  (forall t, t < To * Ti -> combo_at s (c_factors c) t = combo_at r (c_factors c) (t / Ti)) ->
  (crossing_ok S1 s (scale_crossing Ti c) = true <-> crossing_ok S2 r c = true).
Proof.
  intros S1 S2 s r c To Ti H1 H2 HTi H0 Hc.
  rewrite (crossing_ok_spec S1) by (cbn; rewrite H0; reflexivity). rewrite (crossing_ok_spec S2) by exact H0.
  cbn [scale_crossing c_chunk]. rewrite H1, H2.
  assert (Hpos : 0 < c_chunk c * Ti <-> 0 < c_chunk c).
  { split; intro Hch; [destruct (c_chunk c); [inversion Hch | apply Nat.lt_0_succ] | apply Nat.mul_pos_pos; assumption]. }
  rewrite Hpos. apply and_iff_compat_l. split; intros H j Hj.
  - rewrite <- (chunk_good_scaled S1 S2 s r c To Ti (j * c_chunk c) H1 H2 HTi Hc), <- Nat.mul_assoc.
    apply H. rewrite Nat.mul_assoc. apply Nat.mul_lt_mono_pos_r; assumption.
  - rewrite Nat.mul_assoc in *. rewrite (chunk_good_scaled S1 S2 s r c To Ti (j * c_chunk c) H1 H2 HTi Hc).
    apply H. apply (Nat.mul_lt_mono_pos_r Ti); assumption.
Qed.

Lemma chunk_good_shifted : forall (S1 S2 : sem) (s r : tseq) (c : dcrossing) (k To Ti g a : nat),
  s_trials S1 = To * Ti -> s_trials S2 = Ti -> g < To -> a + c_chunk c <= Ti ->
  (forall t, t < Ti -> combo_at s (map (Nat.add k) (c_factors c)) (g * Ti + t) = combo_at r (c_factors c) t) ->
  chunk_good S1 s (shift_crossing k c) (g * Ti + a) = chunk_good S2 r c a.
Proof.
  intros S1 S2 s r c k To Ti g a H1 H2 Hg Ha Hc. unfold chunk_good. rewrite H1, H2.
  cbn [shift_crossing c_chunk c_mult c_factors].
  assert (Hle : g * Ti + a + c_chunk c <= To * Ti) by (rewrite <- Nat.add_assoc; apply group_le; assumption).
  assert (F1 : (g * Ti + a + c_chunk c <=? To * Ti) = true) by (apply Nat.leb_le; exact Hle).
  assert (F2 : (a + c_chunk c <=? Ti) = true) by (apply Nat.leb_le; exact Ha).
  rewrite F1, F2. rewrite !Nat.min_l by lia.
  replace (g * Ti + a + c_chunk c - (g * Ti + a)) with (c_chunk c) by lia.
  replace (a + c_chunk c - a) with (c_chunk c) by lia.
  f_equal.
  - apply forallb_ext_in. intros cm _. f_equal. unfold count_combo.
    replace (g * Ti + a + c_chunk c - (g * Ti + a)) with (c_chunk c) by lia.
    replace (a + c_chunk c - a) with (c_chunk c) by lia.
    rewrite seq_shift_add, filter_map_length. apply filter_ext_in_length.
    intros t Ht. rewrite in_seq in Ht. rewrite Hc by lia. reflexivity.
  - rewrite seq_shift_add, forallb_map. apply forallb_ext_in.
    intros t Ht. rewrite in_seq in Ht. rewrite Hc by lia. reflexivity.
Qed.

Lemma crossing_ok_repeated : forall (S1 S2 : sem) (s : tseq) (r : nat -> tseq) (c : dcrossing) (k To Ti : nat),
  s_trials S1 = To * Ti -> s_trials S2 = Ti -> c_first c = 0 -> 0 < c_chunk c -> Ti mod c_chunk c = 0 ->
  (forall g t, g < To -> t < Ti ->
     combo_at s (map (Nat.add k) (c_factors c)) (g * Ti + t) = combo_at (r g) (c_factors c) t) ->
  (crossing_ok S1 s (shift_crossing k c) = true <-> forall g, g < To -> crossing_ok S2 (r g) c = true).
Proof.
  intros S1 S2 s r c k To Ti H1 H2 H0 Hch Hmod Hc.
  apply Nat.mod_divides in Hmod; [|lia]. destruct Hmod as [q ->]. rewrite (Nat.mul_comm _ q) in *.
  set (ch := c_chunk c) in *.
  assert (Hlt : forall n m, n * ch < m * ch <-> n < m) by (intros; symmetry; apply Nat.mul_lt_mono_pos_r; exact Hch).
  (* chunk [g * q + j] of the long sequence is chunk [j] of group [g] *)
  assert (Hgood : forall g j, g < To -> j < q ->
            chunk_good S1 s (shift_crossing k c) ((g * q + j) * ch) = chunk_good S2 (r g) c (j * ch)).
  { intros g j Hg Hj. rewrite Nat.mul_add_distr_r, <- Nat.mul_assoc.
    apply (chunk_good_shifted S1 S2 s (r g) c k To (q * ch) g (j * ch) H1 H2 Hg).
    - fold ch. rewrite Nat.add_comm. exact (Nat.mul_le_mono_r (Datatypes.S j) q ch Hj).
    - intros t Ht. apply Hc; assumption. }
  rewrite (crossing_ok_spec S1) by exact H0. cbn [shift_crossing c_chunk]. fold ch. rewrite H1, Nat.mul_assoc.
  split.
  - intros [_ H] g Hg. rewrite (crossing_ok_spec S2) by exact H0. fold ch. rewrite H2. split; [exact Hch|].
    intros j Hj. apply (proj1 (Hlt j q)) in Hj. rewrite <- Hgood by assumption. apply H, Hlt, group_lt; assumption.
  - intro H. split; [exact Hch|]. intros J HJ. apply (proj1 (Hlt J (To * q))) in HJ. revert J HJ.
    destruct q as [|q']; [intros J HJ; rewrite Nat.mul_0_r in HJ; inversion HJ|].
    apply forall_group; [apply Nat.lt_0_succ|]. intros g j Hg Hj. rewrite Hgood by assumption.
    specialize (H g Hg). rewrite (crossing_ok_spec S2) in H by exact H0. fold ch in H. rewrite H2 in H.
    apply H, Hlt, Hj.
Qed.

Lemma get_cell_reps : forall no To Ti s f g,
  f < no -> no <= length s -> g < To -> get_cell (reps no To Ti s) f g = get_cell s f (g * Ti).
Proof.
  intros no To Ti s f g Hf Hs Hg. unfold get_cell, reps.
  rewrite (nth_map_lt _ _ f [] []) by (rewrite firstn_length; lia).
  rewrite nth_firstn_lt by exact Hf. rewrite nth_map_seq by exact Hg. reflexivity.
Qed.

Lemma get_cell_grp : forall no ni Ti g s f t,
  length s = no + ni -> t < Ti -> get_cell (grp no Ti g s) f t = get_cell s (no + f) (g * Ti + t).
Proof.
  intros no ni Ti g s f t Hs Ht. unfold get_cell, grp.
  destruct (Nat.lt_ge_cases f ni) as [Hf|Hf].
  - rewrite (nth_map_lt _ _ f [] []) by (rewrite skipn_length; lia).
    rewrite nth_skipn_add. rewrite nth_map_seq by exact Ht. reflexivity.
  - rewrite (nth_overflow _ []) by (rewrite map_length, skipn_length; lia).
    rewrite (nth_overflow s []) by lia. destruct t; destruct (g * Ti + _); reflexivity.
Qed.

Lemma combo_at_grp : forall no ni Ti g s fs t,
  length s = no + ni -> t < Ti ->
  combo_at s (map (Nat.add no) fs) (g * Ti + t) = combo_at (grp no Ti g s) fs t.
Proof.
  intros no ni Ti g s fs t Hs Ht. unfold combo_at. rewrite map_map. apply map_ext.
  intro f. symmetry. apply (get_cell_grp no ni); assumption.
Qed.


Lemma combine_map_snd : forall {A B C} (h : B -> C) (xs : list A) (l : list B),
  combine xs (map h l) = map (fun p => (fst p, h (snd p))) (combine xs l).
Proof. intros A B C h xs. induction xs as [|x xs IH]; intros [|y l]; cbn; [reflexivity..|]. rewrite IH. reflexivity. Qed.

Lemma combine_map_indexed : forall {A B C} (h : A * B -> C) (xs : list A) (l : list B),
  combine xs (map h (combine xs l)) = map (fun p => (fst p, h p)) (combine xs l).
Proof. intros A B C h xs. induction xs as [|x xs IH]; intros [|y l]; cbn; [reflexivity..|]. rewrite IH. reflexivity. Qed.

Lemma indexed_map_length : forall {A B} (h : nat * A -> B) (l : list A) a,
  length (map h (combine (seq a (length l)) l)) = length l.
Proof. intros. rewrite map_length, combine_length, seq_length. lia. Qed.

Lemma index_list_app : forall {A} (l1 l2 : list A),
  index_list (l1 ++ l2) = index_list l1 ++ combine (seq (length l1) (length l2)) l2.
Proof. intros. unfold index_list. rewrite app_length, seq_app. apply combine_app, seq_length. Qed.

Lemma simple_factor_b_spec : forall fd, simple_factor_b fd = true -> f_derived fd = None /\ f_sustain fd = 1.
Proof.
  intros fd H. unfold simple_factor_b in H. destruct (f_derived fd); [discriminate|].
  apply Nat.eqb_eq in H. auto.
Qed.

(** the three tests on the crossings that every guard ends with *)
Lemma crossings_guard_spec : forall So Si,
  forallb (fun c => (c_first c =? 0) && (0 <? c_chunk c) &&
                    forallb (fun f => f <? length (s_factors So)) (c_factors c)) (s_crossings So) = true ->
  forallb (fun c => (c_first c =? 0) && (0 <? c_chunk c) && (s_trials Si mod c_chunk c =? 0)) (s_crossings Si) = true ->
  (0 <? s_trials Si) = true ->
  (forall c, In c (s_crossings So) ->
     c_first c = 0 /\ 0 < c_chunk c /\ forall f, In f (c_factors c) -> f < length (s_factors So)) /\
  (forall c, In c (s_crossings Si) -> c_first c = 0 /\ 0 < c_chunk c /\ s_trials Si mod c_chunk c = 0) /\
  0 < s_trials Si.
Proof.
  intros So Si H4 H5 H6. rewrite forallb_forall in H4, H5. split; [|split; [|apply Nat.ltb_lt; exact H6]].
  - intros c Hc. specialize (H4 c Hc). rewrite !andb_true_iff in H4. destruct H4 as [[Ha Hb] Hd].
    apply Nat.eqb_eq in Ha. apply Nat.ltb_lt in Hb. rewrite forallb_forall in Hd.
    repeat split; try assumption. intros f Hf. apply Nat.ltb_lt. apply Hd. exact Hf.
  - intros c Hc. specialize (H5 c Hc). rewrite !andb_true_iff in H5. destruct H5 as [[Ha Hb] Hd].
    apply Nat.eqb_eq in Ha. apply Nat.ltb_lt in Hb. apply Nat.eqb_eq in Hd. auto.
Qed.

Lemma nestable_spec : forall So Si,
  nestable_b So Si = true ->
  (forall fd, In fd (s_factors So) -> f_derived fd = None /\ f_sustain fd = 1) /\
  (forall fd, In fd (s_factors Si) -> f_derived fd = None /\ f_sustain fd = 1) /\
  s_constraints So = [] /\
  (forall k, In k (s_constraints Si) ->
     window_kind_b (k_kind k) = true /\ k_factor k < length (s_factors Si) /\
     forallb (fun w => snd w <=? s_trials Si) (k_windows k) = true) /\
  (forall c, In c (s_crossings So) ->
     c_first c = 0 /\ 0 < c_chunk c /\ forall f, In f (c_factors c) -> f < length (s_factors So)) /\
  (forall c, In c (s_crossings Si) -> c_first c = 0 /\ 0 < c_chunk c /\ s_trials Si mod c_chunk c = 0) /\
  0 < s_trials Si.
Proof.
  intros So Si H. unfold nestable_b in H. rewrite !andb_true_iff in H.
  destruct H as [[[[[[H1 H2] H3] H3'] H4] H5] H6].
  rewrite forallb_forall in H1, H2, H3'.
  split; [intros fd Hfd; apply simple_factor_b_spec; apply H1; exact Hfd|].
  split; [intros fd Hfd; apply simple_factor_b_spec; apply H2; exact Hfd|].
  split; [destruct (s_constraints So); [reflexivity|discriminate]|].
  split; [|exact (crossings_guard_spec So Si H4 H5 H6)].
  intros k Hk. specialize (H3' k Hk). unfold inner_constraint_b in H3'. rewrite !andb_true_iff in H3'.
  destruct H3' as [[Ha Hb] Hc]. apply Nat.ltb_lt in Hb. auto.
Qed.

Lemma crossed_in_intro : forall S c f, In c (s_crossings S) -> In f (c_factors c) -> crossed_in S f = true.
Proof.
  intros S c f Hc Hf. unfold crossed_in. apply existsb_exists. exists c. split; [exact Hc|].
  apply existsb_eqb_In, Hf.
Qed.

Lemma map_nth_firstn_skipn : forall {A} (row : list A) (d : A) k n,
  k + n <= length row -> map (fun t => nth (k + t) row d) (seq 0 n) = firstn n (skipn k row).
Proof.
  intros A row d k n H. apply (nth_ext _ _ d d).
  - rewrite map_length, seq_length, firstn_length, skipn_length. lia.
  - intros i Hi. rewrite map_length, seq_length in Hi.
    rewrite (nth_map_seq (fun t => nth (k + t) row d)) by exact Hi.
    rewrite nth_firstn_lt by exact Hi. rewrite nth_skipn_add. reflexivity.
Qed.

Lemma skipn_add : forall {A} (l : list A) n m, skipn m (skipn n l) = skipn (n + m) l.
Proof. intros A l n m. revert l. induction n as [|n IH]; intros [|x l]; try reflexivity; [apply skipn_nil | apply IH]. Qed.

Lemma slice_group : forall {A} (row : list A) K Ti a b,
  b <= Ti -> slice (firstn Ti (skipn K row)) a b = slice row (K + a) (K + b).
Proof.
  intros A row K Ti a b Hb. unfold slice.
  rewrite skipn_firstn_comm, firstn_firstn, skipn_add, Nat.min_l by lia. f_equal. lia.
Qed.

Lemma grp_row : forall no ni Ti g s f,
  length s = no + ni -> f < ni ->
  nth f (grp no Ti g s) [] = map (fun t => nth (g * Ti + t) (nth (no + f) s []) None) (seq 0 Ti).
Proof.
  intros no ni Ti g s f Hs Hf. unfold grp.
  rewrite (nth_map_lt _ _ f [] []) by (rewrite skipn_length; lia). rewrite nth_skipn_add. reflexivity.
Qed.

Lemma in_repeated_windows : forall To Ti (W : list (nat * nat)) w',
  In w' (flat_map (fun g => map (fun w => (g * Ti + fst w, g * Ti + snd w)) W) (seq 0 To)) <->
  exists g w, g < To /\ In w W /\ w' = (g * Ti + fst w, g * Ti + snd w).
Proof.
  intros To Ti W w'. rewrite in_flat_map. split.
  - intros [g [Hg Hin]]. apply in_seq in Hg. apply in_map_iff in Hin. destruct Hin as [w [<- Hw]].
    exists g, w. split; [lia|]. split; [exact Hw | reflexivity].
  - intros [g [w [Hg [Hw ->]]]]. exists g. split; [apply in_seq; lia | exact (in_map _ W w Hw)].
Qed.

Lemma constraint_ok_repeated : forall (S1 S2 : sem) (s : tseq) (k : dconstraint) (no ni To Ti : nat),
  length s = no + ni -> k_factor k < ni -> length (nth (no + k_factor k) s []) = To * Ti ->
  window_kind_b (k_kind k) = true -> forallb (fun w => snd w <=? Ti) (k_windows k) = true ->
  (constraint_ok S1 s (repeat_constraint no To Ti k) = true <->
   forall g, g < To -> constraint_ok S2 (grp no Ti g s) k = true).
Proof.
  intros S1 S2 s k no ni To Ti Hs Hf Hlen Hkind Hw. rewrite forallb_forall in Hw.
  set (row := nth (no + k_factor k) s []) in *.
  assert (Hslice : forall g w, g < To -> In w (k_windows k) ->
            slice (nth (k_factor k) (grp no Ti g s) []) (fst w) (snd w) = slice row (g * Ti + fst w) (g * Ti + snd w)).
  { intros g w Hg Hin. rewrite (grp_row no ni) by assumption. fold row.
    pose proof (group_le g Ti To Ti Hg (le_n Ti)) as Hgl.
    rewrite map_nth_firstn_skipn by (rewrite Hlen; exact Hgl).
    apply slice_group, Nat.leb_le, Hw, Hin. }
  assert (Hgen : forall (P : list cell -> bool),
            forallb (fun w => P (slice row (fst w) (snd w)))
                    (flat_map (fun g => map (fun w => (g * Ti + fst w, g * Ti + snd w)) (k_windows k)) (seq 0 To)) = true <->
            forall g, g < To -> forallb (fun w => P (slice (nth (k_factor k) (grp no Ti g s) []) (fst w) (snd w))) (k_windows k) = true).
  { intro P. rewrite forallb_forall. split.
    - intros H g Hg. apply forallb_forall. intros w Hin. rewrite Hslice by assumption.
      apply (H (g * Ti + fst w, g * Ti + snd w)), in_repeated_windows. exists g, w. auto.
    - intros H w' Hin. apply in_repeated_windows in Hin. destruct Hin as [g [w [Hg [Hin ->]]]]. cbn [fst snd].
      specialize (H g Hg). rewrite forallb_forall in H. rewrite <- Hslice by assumption. exact (H w Hin). }
  unfold constraint_ok. cbn [repeat_constraint k_kind k_factor k_level k_windows]. fold row.
  destruct (k_kind k); try discriminate Hkind.
  - apply (Hgen (fun cells => forallb (fun n => n <=? k0) (runs (k_level k) cells))).
  - apply (Hgen (fun cells => forallb (fun n => k0 <=? n) (runs (k_level k) cells))).
  - apply (Hgen (fun cells => forallb (fun n => n =? k0) (runs (k_level k) cells))).
  - apply (Hgen (fun cells => count_level (k_level k) cells =? k0)).
Qed.

Lemma factor_ok_length : forall S s f fd, factor_ok S s f fd = true -> length (nth f s []) = s_trials S.
Proof. intros S s f fd H. unfold factor_ok in H. rewrite andb_true_iff, Nat.eqb_eq in H. tauto. Qed.

Lemma grp_row_length : forall no ni Ti g s f,
  length s = no + ni -> f < ni -> length (nth f (grp no Ti g s) []) = Ti.
Proof. intros no ni Ti g s f Hs Hf. rewrite (grp_row no ni) by assumption. rewrite map_length, seq_length. reflexivity. Qed.

(** [s] has a row of [To * Ti] trials for every factor of the Nest *)
Definition nest_shape (So Si : sem) (s : tseq) : Prop :=
  length s = length (s_factors So) + length (s_factors Si) /\
  forall f, f < length (s_factors So) + length (s_factors Si) -> length (nth f s []) = s_trials So * s_trials Si.

(** the crossed outer factors are constant within each group of [Ti] trials *)
Definition group_const (So : sem) (Ti : nat) (s : tseq) : Prop :=
  forall f t, f < length (s_factors So) -> crossed_in So f = true -> t < s_trials So * Ti ->
              get_cell s f t = get_cell s f (t / Ti * Ti).

(** [N] is built from [So] and [Si] as [nest_sem] is: the outer crossings stretched, the inner ones
    repeated, the inner constraints repeated per group; how outer factors [FO], inner factors [FI] and
    outer constraints [KO] are carried over is left open, as is what the group composition says of an
    outer factor [PF] and of an outer constraint [PK].  The guards below supply these parts. *)
Section Groups.
  Variables So Si N : sem.
  Variable s : tseq.
  Variable FO : nat -> dfactor -> dfactor.
  Variable FI : dfactor -> dfactor.
  Variable KO : dconstraint -> dconstraint.
  Variable PF : nat -> dfactor -> Prop.
  Variable PK : dconstraint -> Prop.
  Let To := s_trials So.
  Let Ti := s_trials Si.
  Let no := length (s_factors So).
  Let ni := length (s_factors Si).

  Hypothesis HN : s_trials N = To * Ti.
  Hypothesis HNf : s_factors N = map (fun p => FO (fst p) (snd p)) (index_list (s_factors So)) ++ map FI (s_factors Si).
  Hypothesis HNc : s_crossings N = map (scale_crossing Ti) (s_crossings So) ++ map (shift_crossing no) (s_crossings Si).
  Hypothesis HNk : s_constraints N = map KO (s_constraints So) ++ map (repeat_constraint no To Ti) (s_constraints Si).
  Hypothesis HXo : forall c, In c (s_crossings So) ->
    c_first c = 0 /\ 0 < c_chunk c /\ forall f, In f (c_factors c) -> f < no.
  Hypothesis HXi : forall c, In c (s_crossings Si) -> c_first c = 0 /\ 0 < c_chunk c /\ Ti mod c_chunk c = 0.
  Hypothesis HTi : 0 < Ti.
  (** an outer factor's conditions in [N]: a crossed one is constant within each group; an inner factor's
      conditions split per group *)
  Hypothesis HOut : length s = no + ni ->
    forall f fd, nth_error (s_factors So) f = Some fd -> length (nth f s []) = To * Ti ->
      (factor_ok N s f (FO f fd) = true <->
       (crossed_in So f = true -> forall t, t < To * Ti -> get_cell s f t = get_cell s f (t / Ti * Ti)) /\ PF f fd).
  Hypothesis HInn : length s = no + ni ->
    forall f fd, nth_error (s_factors Si) f = Some fd -> length (nth (no + f) s []) = To * Ti ->
      (factor_ok N s (no + f) (FI fd) = true <-> forall g, g < To -> factor_ok Si (grp no Ti g s) f fd = true).
  (** the constraints, for a sequence of the right shape whose crossed outer factors are constant within each group *)
  Let rows := forall f, f < no + ni -> length (nth f s []) = To * Ti.
  Let const := group_const So Ti s.
  Hypothesis HKi : nest_shape So Si s ->
    forall k, In k (s_constraints Si) ->
      (constraint_ok N s (repeat_constraint no To Ti k) = true <->
       forall g, g < To -> constraint_ok Si (grp no Ti g s) k = true).
  Hypothesis HKo : nest_shape So Si s -> const ->
    forall c, In c (s_constraints So) -> (constraint_ok N s (KO c) = true <-> PK c).

  Lemma parts_valid_unfold :
    valid_b N s = true <->
    length s = no + ni /\
    (forall f fd, nth_error (s_factors So) f = Some fd -> factor_ok N s f (FO f fd) = true) /\
    (forall f fd, nth_error (s_factors Si) f = Some fd -> factor_ok N s (no + f) (FI fd) = true) /\
    (forall c, In c (s_crossings So) -> crossing_ok N s (scale_crossing Ti c) = true) /\
    (forall c, In c (s_crossings Si) -> crossing_ok N s (shift_crossing no c) = true) /\
    (forall k, In k (s_constraints So) -> constraint_ok N s (KO k) = true) /\
    (forall k, In k (s_constraints Si) -> constraint_ok N s (repeat_constraint no To Ti k) = true).
  Proof.
    clear HXo HXi HTi HOut HInn HKi HKo. rewrite valid_b_conj, HNf, HNc, HNk, index_list_app.
    unfold index_list. rewrite app_length, !indexed_map_length, !map_length.
    rewrite combine_map_indexed, combine_map_snd.
    rewrite !forallb_app, !forallb_map, !andb_true_iff. cbn [fst snd].
    rewrite (forallb_index_from (fun f fd => factor_ok N s f (FO f fd))),
            (forallb_index_from (fun f fd => factor_ok N s f (FI fd))), !forallb_forall.
    fold no ni. tauto.
  Qed.

  Lemma parts_rows :
    (forall f fd, nth_error (s_factors So) f = Some fd -> factor_ok N s f (FO f fd) = true) ->
    (forall f fd, nth_error (s_factors Si) f = Some fd -> factor_ok N s (no + f) (FI fd) = true) -> rows.
  Proof.
    intros Hfo Hfi f Hf. rewrite <- HN. destruct (Nat.lt_ge_cases f no) as [Hlt|Hge].
    - destruct (nth_error (s_factors So) f) as [fd|] eqn:E.
      + apply (factor_ok_length N s f _ (Hfo f fd E)).
      + apply nth_error_None in E. fold no in E. lia.
    - destruct (nth_error (s_factors Si) (f - no)) as [fd|] eqn:E.
      + replace f with (no + (f - no)) by lia. apply (factor_ok_length N s _ _ (Hfi _ fd E)).
      + apply nth_error_None in E. fold ni in E. lia.
  Qed.

  Section Shaped.
    Hypothesis Hl : length s = no + ni.
    Hypothesis Hrow : rows.

    Lemma outer_factors_iff :
      (forall f fd, nth_error (s_factors So) f = Some fd -> factor_ok N s f (FO f fd) = true) <->
      const /\ (forall f fd, nth_error (s_factors So) f = Some fd -> PF f fd).
    Proof.
      assert (Hlt : forall f fd, nth_error (s_factors So) f = Some fd -> f < no)
        by (intros f fd E; apply nth_error_Some; congruence).
      pose proof (fun f fd E => HOut Hl f fd E (Hrow f (Nat.lt_lt_add_r _ _ _ (Hlt f fd E)))) as HO.
      split.
      - intro H. split.
        + intros f t Hf Hcr Ht. destruct (nth_error (s_factors So) f) as [fd|] eqn:E.
          * apply (HO f fd E); auto.
          * apply nth_error_None in E. fold no in E. lia.
        + intros f fd E. apply (HO f fd E), H, E.
      - intros [Hc Hp] f fd E. apply (HO f fd E). split; [|apply Hp, E].
        intros Hcr t Ht. apply Hc; [exact (Hlt f fd E) | assumption..].
    Qed.

    Lemma inner_factors_iff :
      (forall f fd, nth_error (s_factors Si) f = Some fd -> factor_ok N s (no + f) (FI fd) = true) <->
      (forall g, g < To -> forall f fd, nth_error (s_factors Si) f = Some fd -> factor_ok Si (grp no Ti g s) f fd = true).
    Proof.
      assert (Hlt : forall f fd, nth_error (s_factors Si) f = Some fd -> f < ni)
        by (intros f fd E; apply nth_error_Some; congruence).
      pose proof (fun f fd E => HInn Hl f fd E (Hrow _ (proj1 (Nat.add_lt_mono_l f ni no) (Hlt f fd E)))) as HI.
      split.
      - intros H g Hg f fd E. apply (HI f fd E); [apply H, E | exact Hg].
      - intros H f fd E. apply (HI f fd E). intros g Hg. apply H; assumption.
    Qed.

    (** an outer crossing reads its combinations on the representatives *)
    Lemma outer_crossing_iff : const -> forall c, In c (s_crossings So) ->
      (crossing_ok N s (scale_crossing Ti c) = true <-> crossing_ok So (reps no To Ti s) c = true).
    Proof.
      intros Hconst c Hc. destruct (HXo c Hc) as [H0 [_ Hrange]].
      apply (crossing_ok_scaled N So s (reps no To Ti s) c To Ti HN eq_refl HTi H0).
      intros t Ht. unfold combo_at. apply map_ext_in. intros f Hf.
      rewrite get_cell_reps; [|apply Hrange; exact Hf|lia|apply Nat.div_lt_upper_bound; lia].
      apply Hconst; [apply Hrange; exact Hf | eapply crossed_in_intro; eauto | exact Ht].
    Qed.

    Lemma inner_crossing_iff : forall c, In c (s_crossings Si) ->
      (crossing_ok N s (shift_crossing no c) = true <-> forall g, g < To -> crossing_ok Si (grp no Ti g s) c = true).
    Proof.
      intros c Hc. destruct (HXi c Hc) as [H0 [Hch Hmod]].
      exact (crossing_ok_repeated N Si s (fun g => grp no Ti g s) c no To Ti HN eq_refl H0 Hch Hmod
               (fun g t _ Ht => combo_at_grp no ni Ti g s (c_factors c) t Hl Ht)).
    Qed.
  End Shaped.

  Theorem groups_of_parts :
    valid_b N s = true <->
    length s = no + ni /\ rows /\
    (forall f fd, nth_error (s_factors So) f = Some fd -> PF f fd) /\ const /\
    (forall c, In c (s_crossings So) -> crossing_ok So (reps no To Ti s) c = true) /\
    (forall c, In c (s_constraints So) -> PK c) /\
    (forall g, g < To -> valid_b Si (grp no Ti g s) = true).
  Proof.
    rewrite parts_valid_unfold. split.
    - intros (Hl & Hfo & Hfi & Hco & Hci & Hko & Hki).
      assert (Hrow := parts_rows Hfo Hfi).
      apply (outer_factors_iff Hl Hrow) in Hfo. destruct Hfo as [Hconst Hpf].
      split; [exact Hl|]. split; [exact Hrow|]. split; [exact Hpf|]. split; [exact Hconst|]. split; [|split].
      + intros c Hc. apply (outer_crossing_iff Hl Hconst c Hc), Hco, Hc.
      + intros c Hc. apply (HKo (conj Hl Hrow) Hconst c Hc), Hko, Hc.
      + intros g Hg. apply valid_b_iff. split; [|split; [|split]].
        * unfold grp. rewrite map_length, skipn_length. fold ni. lia.
        * apply (inner_factors_iff Hl Hrow); assumption.
        * intros c Hc. apply (inner_crossing_iff Hl c Hc); auto.
        * intros k Hk. apply (HKi (conj Hl Hrow) k Hk); auto.
    - intros (Hl & Hrow & Hpf & Hconst & Hco & Hko & Hgrp).
      assert (Hgrp' : forall g, g < To -> _) by (intros g Hg; exact (proj1 (valid_b_iff Si _) (Hgrp g Hg))).
      split; [exact Hl|]. split; [|split; [|split; [|split; [|split]]]].
      + apply (outer_factors_iff Hl Hrow). split; assumption.
      + apply (inner_factors_iff Hl Hrow). intros g Hg. apply (Hgrp' g Hg).
      + intros c Hc. apply (outer_crossing_iff Hl Hconst c Hc), Hco, Hc.
      + intros c Hc. apply (inner_crossing_iff Hl c Hc). intros g Hg. apply (Hgrp' g Hg), Hc.
      + intros c Hc. apply (HKo (conj Hl Hrow) Hconst c Hc), Hko, Hc.
      + intros k Hk. apply (HKi (conj Hl Hrow) k Hk). intros g Hg. apply (Hgrp' g Hg), Hk.
  Qed.
End Groups.

Lemma inner_simple_factor : forall (N Si : sem) s f fd no ni To Ti,
  s_trials N = To * Ti -> s_trials Si = Ti -> 0 < Ti -> f < ni -> length s = no + ni ->
  f_derived fd = None -> f_sustain fd = 1 -> length (nth (no + f) s []) = To * Ti ->
  (factor_ok N s (no + f) fd = true <-> forall g, g < To -> factor_ok Si (grp no Ti g s) f fd = true).
Proof.
  intros N Si s f fd no ni To Ti HN HSi HTi Hf Hl Hd Hsu Hlen.
  assert (Hsus : forall (r : tseq) i t, get_cell r i t = get_cell r i (t / f_sustain fd * f_sustain fd)).
  { intros r i t. rewrite Hsu, Nat.div_1_r, Nat.mul_1_r. reflexivity. }
  rewrite factor_ok_simple by exact Hd. rewrite HN. unfold wf_cells at 1. rewrite (forall_group _ To Ti HTi). split.
  - intros [_ [Hwf _]] g Hg. rewrite factor_ok_simple by exact Hd. rewrite HSi.
    split; [apply (grp_row_length no ni); assumption|]. split; [|intros; apply Hsus].
    intros t Ht. change (nth t (nth f (grp no Ti g s) []) None) with (get_cell (grp no Ti g s) f t).
    rewrite (get_cell_grp no ni) by assumption. exact (Hwf g t Hg Ht).
  - intro H. split; [exact Hlen|]. split; [|intros; apply Hsus].
    intros g t Hg Ht. specialize (H g Hg). rewrite factor_ok_simple in H by exact Hd. destruct H as [_ [Hw _]].
    rewrite HSi in Hw. specialize (Hw t Ht).
    change (nth t (nth f (grp no Ti g s) []) None) with (get_cell (grp no Ti g s) f t) in Hw.
    rewrite (get_cell_grp no ni) in Hw by assumption. exact Hw.
Qed.

Theorem nest_groups : forall So Si s,
  nestable_b So Si = true ->
  (valid_b (nest_sem So Si) s = true <-> groups_spec So Si s).
Proof.
  intros So Si s Hg.
  destruct (nestable_spec So Si Hg) as [HFo [HFi [HCo [HCi [HXo [HXi HTi]]]]]].
  set (N := nest_sem So Si). set (To := s_trials So). set (Ti := s_trials Si) in *.
  set (no := length (s_factors So)) in *. set (ni := length (s_factors Si)) in *.
  rewrite (groups_of_parts So Si N s (fun f fd => scale_factor Ti (crossed_in So f) fd) (fun fd => fd) (fun k => k)
             (fun f fd => wf_cells (f_nlevels fd) (nth f s []) (To * Ti)) (fun _ => True)
             eq_refl); try assumption.
  - unfold groups_spec. fold To Ti no ni. tauto.
  - unfold N, nest_sem. cbn [s_factors]. rewrite map_id. reflexivity.
  - reflexivity.
  - unfold N, nest_sem. cbn [s_constraints]. rewrite HCo. reflexivity.
  - intros Hl f fd Hfd Hlen. destruct (HFo fd (nth_error_In _ _ Hfd)) as [Hd Hsu].
    assert (HNt : s_trials N = To * Ti) by reflexivity.
    destruct (crossed_in So f); cbn [scale_factor]; rewrite factor_ok_simple by exact Hd;
      cbn [f_nlevels f_sustain]; rewrite HNt, Hsu.
    + rewrite Nat.mul_1_l. tauto.
    + split; [intros [_ [B _]]; split; [discriminate | exact B]|].
      intros [_ B]. repeat split; try assumption. intros t _. rewrite Nat.div_1_r, Nat.mul_1_r. reflexivity.
  - intros Hl f fd Hfd Hlen. destruct (HFi fd (nth_error_In _ _ Hfd)) as [Hd Hsu].
    assert (f < ni) by (apply nth_error_Some; congruence).
    apply (inner_simple_factor N Si s f fd no ni To Ti); try assumption; reflexivity.
  - intros [Hl Hrow] k Hk. destruct (HCi k Hk) as [Hkind [Hkf Hkw]].
    apply (constraint_ok_repeated N Si s k no ni To Ti); try assumption. apply Hrow. lia.
  - intros _ _ c Hc. rewrite HCo in Hc. destruct Hc.
Qed.

Definition ex_two_levels (T : nat) : sem :=
  {| s_trials := T;
     s_factors := [{| f_nlevels := 2; f_sustain := 1; f_derived := None |}];
     s_crossings := [{| c_factors := [0]; c_first := 0; c_chunk := 2; c_mult := [([0], 1); ([1], 1)] |}];
     s_constraints := [] |}.

(** outer = CrossBlock([A],[A],[]) (2 trials), inner = Repeat(CrossBlock([B],[B],[]), [MinimumTrials(4)]) (4 trials) *)
Definition ex_sem_outer : sem := ex_two_levels 2.
Definition ex_sem_inner : sem := ex_two_levels 4.

Lemma ex_nestable : nestable_b ex_sem_outer ex_sem_inner = true.
Proof. reflexivity. Qed.

(** 2 orders of A x (2 x 2 orders of B per group)^2 groups = 32 valid sequences of 8 trials *)
Lemma ex_nest_count : length (all_valid (nest_sem ex_sem_outer ex_sem_inner)) = 32 /\
                      s_trials (nest_sem ex_sem_outer ex_sem_inner) = 8.
Proof. rewrite all_valid_fast. vm_compute. split; reflexivity. Qed.

Definition ex_nest_seq : tseq :=
  [[Some 1; Some 1; Some 1; Some 1; Some 0; Some 0; Some 0; Some 0];
   [Some 0; Some 1; Some 1; Some 0; Some 1; Some 0; Some 0; Some 1]].

Lemma ex_nest_seq_valid : valid_b (nest_sem ex_sem_outer ex_sem_inner) ex_nest_seq = true /\
  reps 1 2 4 ex_nest_seq = [[Some 1; Some 0]] /\
  grp 1 4 0 ex_nest_seq = [[Some 0; Some 1; Some 1; Some 0]] /\
  grp 1 4 1 ex_nest_seq = [[Some 1; Some 0; Some 0; Some 1]].
Proof. repeat split. Qed.

(** the same Nest with the inner block constraint AtMostKInARow(1, (B, b0)): 3 valid inner runs
    (0101, 0110, 1010), hence 2 x 3 x 3 = 18 valid sequences; b0 may meet b0 across a group boundary *)
Definition ex_sem_inner_c : sem :=
  {| s_trials := 4; s_factors := s_factors ex_sem_inner; s_crossings := s_crossings ex_sem_inner;
     s_constraints := [{| k_kind := KAtMost 1; k_factor := 0; k_level := 0; k_windows := [(0, 4)] |}] |}.

Lemma ex_nestable_c : nestable_b ex_sem_outer ex_sem_inner_c = true /\
  length (all_valid ex_sem_inner_c) = 3 /\
  length (all_valid (nest_sem ex_sem_outer ex_sem_inner_c)) = 18 /\
  s_constraints (nest_sem ex_sem_outer ex_sem_inner_c)
  = [{| k_kind := KAtMost 1; k_factor := 1; k_level := 0; k_windows := [(0, 4); (4, 8)] |}] /\
  valid_b (nest_sem ex_sem_outer ex_sem_inner_c)
          [[Some 1; Some 1; Some 1; Some 1; Some 0; Some 0; Some 0; Some 0];
           [Some 1; Some 0; Some 1; Some 0; Some 0; Some 1; Some 0; Some 1]] = true.
Proof. rewrite !all_valid_fast. vm_compute. repeat split. Qed.
