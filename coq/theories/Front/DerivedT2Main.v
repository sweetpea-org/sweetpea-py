(** T2(d), the theorem.  The constraints of the program and of the created record agree; the exclusion
    count [derived_exclusions], the model of [__count_exclusions], is the weight of the level tuples that
    contain an excluded level; and, putting the parts of Front/DerivedT2*.v together: for a design of simple and WITHIN-TRIAL derived factors (simple factors first), a
    crossing of simple factors and Exclude constraints on simple factors,
    [code_sem (create_flat (derived_input p))] and [doc_sem p] are [sem_eqv_t], hence have the same valid
    sequences.  [cross_core] is the part that does not look at the factor tables; T2(c)
    (Front/PlainT2Final.v) is [cross_core] on a design without derived factors. *)
From Coq Require Import ZArith List Bool Arith Lia String Sorted.
From SP Require Import Base.Lists Design.Flat Design.Layout Design.Sem Design.SemEqv Design.SemEqvT Design.DocSem
     Design.DocSemProofs Design.DocSemPlain Design.ListSums Front.TrialsProofs Front.CreateFlat Front.CreateFlatProofs
     Front.PlainInput Front.PlainT2 Front.PlainT2Doc Front.PlainT2Cons Front.PlainT2Main Front.DerivedInput
     Front.DerivedT2Flat Front.DerivedT2Doc Front.DerivedT2Tables Front.DerivedT2Keys Encode.Compile Encode.CodeSem.
Import ListNotations.
Local Open Scope nat_scope.
Local Open Scope list_scope.

(** * The constraints of the program and of the created record agree (constraints may name levels
    of simple or of WITHIN-TRIAL derived factors) *)
Lemma st_exclude_desugar_gen : forall fds l, st_exclude (flat_map (desugar_constraint fds) l) = excluded_levels l.
Proof.
  intros fds. induction l as [|ic l IH]; [reflexivity|]. unfold st_exclude, excluded_levels in *. cbn [flat_map]. rewrite flat_map_app, IH. f_equal.
  destruct ic as [c|kind k f wb]; cbn [desugar_constraint flat_map].
  - destruct c; reflexivity.
  - generalize (seq 0 (nlevels_of fds f)). intro ls. induction ls as [|x ls IHl]; [reflexivity|]. cbn [map flat_map]. rewrite IHl. destruct kind; reflexivity.
Qed.

Section Cons.
Variable p : program.
Variable design : list nat.
Variable fds : list ffactor.
Hypothesis HndD : NoDup design.
Hypothesis Hfm : forall f, In f design -> fm p f = Ok (fd_of p f).
Hypothesis Hstr : forall f, In f design -> strided (fd_of p f) = false.
Hypothesis Hln : forall f, In f design -> level_names (fd_of p f) = Ok (names_of p f).
Hypothesis HndN : forall f, In f design -> NoDup (names_of p f).
Hypothesis Hnl : forall f, In f design -> nlevels_of fds (pos design f) = List.length (names_of p f).

Lemma level_index_names : forall f l, In f design -> l < List.length (names_of p f) ->
  level_index p f (nth l (names_of p f) EmptyString) = Ok l.
Proof.
  intros f l Hf Hl. unfold level_index. rewrite (Hfm f Hf). cbn [bind]. rewrite (Hln f Hf). cbn [bind].
  rewrite (index_of_NoDup String.eqb_eq _ _ _ (HndN f Hf) (nth_error_nth' _ _ Hl)). reflexivity.
Qed.

Lemma level_index_inv : forall f n l, In f design -> level_index p f n = Ok l ->
  l < List.length (names_of p f) /\ nth l (names_of p f) EmptyString = n.
Proof.
  intros f n l Hf H. unfold level_index in H. rewrite (Hfm f Hf) in H. cbn [bind] in H. rewrite (Hln f Hf) in H. cbn [bind] in H.
  unfold of_option in H. destruct (index_of String.eqb n (names_of p f)) as [i|] eqn:Ei; [|discriminate]. apply Ok_inj in H. subst i.
  split; [eapply index_of_lt; exact Ei|exact (nth_error_nth _ _ _ (index_of_Some String.eqb_eq _ _ _ Ei))].
Qed.

Lemma excluded_levels_gen : forall cs ics, Forall2 (fun c ic => plain_constraint p design c = Some ic) cs ics ->
  excluded_levels ics = map (fun fn => (pos design (fst fn), lidx p (fst fn) (snd fn))) (excludes_of cs) /\
  forall f n, In (f, n) (excludes_of cs) -> In f design /\ lidx p f n < List.length (names_of p f) /\ nth (lidx p f n) (names_of p f) EmptyString = n.
Proof.
  intros cs ics Hics. induction Hics as [|c ic cs' ics' Hc _ IH]; [split; [reflexivity|intros f n []]|].
  destruct IH as [IH1 IH2]. unfold excluded_levels, excludes_of in *. cbn [flat_map]. rewrite IH1.
  destruct (plain_constraint_inv p design c ic Hc) as [kd k f n l _ _|kd k f _|f n l Hfd Eli|ix f n l _ _|t]; try solve [cbn; split; auto].
  - destruct kd; cbn; split; auto.
  - destruct (level_index_inv f n l Hfd Eli) as [Hl Hn]. assert (Hli : lidx p f n = l) by (unfold lidx; rewrite Eli; reflexivity).
    cbn [app map fst snd]. rewrite Hli. split; [reflexivity|]. intros g m [E|Hin]; [|apply IH2; exact Hin].
    injection E as <- <-. rewrite Hli. auto.
Qed.

Section Constraints.
Variables (cs : list pcons) (rcc : bool).
Variable T : nat.
Hypothesis HT : 0 < T.
Variable fb : flat.
Hypothesis Htr : fl_trials fb = T.
Hypothesis Hal : fl_alignment fb = EqualPreamble.
Variable g : geometry.
Hypothesis Hgt : g_trials g = T.
Hypothesis Hgp : g_preamble g = 0.
Hypothesis Hgs : forall kv, In kv (g_sustain g) -> snd kv = 1.
Variable x : dcross.

Definition dcode_of (ic : iconstraint) : list dconstraint :=
  flat_map (code_constraint fb) (map (init_wb g) (desugar_constraint fds ic)).

Definition ddoc_of (c : pcons) : res (list dconstraint) :=
  cs0 <- expand_constraint p c ;;
  ks <- mapM (fun c0 => sem_constraint p (the_bd design cs rcc x T) design 0 T c0 ScNone) cs0 ;; Ok (List.concat ks).

Lemma ddoc_level : forall kd k f n l, In f design -> level_index p f n = Ok l ->
  sem_constraint p (the_bd design cs rcc x T) design 0 T (PKRow kd k (TLevel f n)) ScNone
  = Ok [{| k_kind := krow_kind kd k 1; k_factor := pos design f; k_level := l; k_windows := [(0, T)] |}].
Proof.
  intros kd k f n l Hfd Eli. unfold sem_constraint. cbn [scope_windows bind]. rewrite (pos_of_design design f HndD Hfd). cbn [bind]. rewrite Eli. reflexivity.
Qed.

Lemma run_check : forall kd f, In f design ->
  (if is_run_kind kd then fd <- fm p f ;; (if strided fd then Unsup UStrided else Ok tt) else Ok tt) = Ok tt.
Proof. intros kd f Hf. destruct (is_run_kind kd); [|reflexivity]. rewrite (Hfm f Hf). cbn [bind]. rewrite (Hstr f Hf). reflexivity. Qed.

Lemma code_krow : forall kd k c l,
  code_constraint fb (init_wb g (mk_krow (krow_of kd) k c l None))
  = [{| k_kind := krow_kind kd k 1; k_factor := c; k_level := l; k_windows := [(0, T)] |}].
Proof.
  intros kd k c l. destruct kd; cbn [krow_of mk_krow init_wb code_constraint krow_kind]; unfold mk_c;
    rewrite (windows_g T HT fb Htr Hal g Hgt Hgp), ?Nat.mul_1_r; reflexivity.
Qed.

Lemma dcons_agree_one : forall c ic, plain_constraint p design c = Some ic ->
  (is_min_trials c = true -> dcode_of ic = []) /\
  (is_min_trials c = false -> ddoc_of c = Ok (dcode_of ic)).
Proof.
  intros c ic H.
  destruct (plain_constraint_inv p design c ic H) as [kd k f n l Hfd Eli|kd k f Hfd|f n l Hfd Eli|ix f n l Hfd Eli|t];
    [| | | |split; [reflexivity|discriminate]]; (split; [discriminate|]); intros _.
  - unfold ddoc_of, expand_constraint. cbn [target_factor]. rewrite (run_check kd f Hfd). cbn [bind mapM].
    rewrite (ddoc_level kd k f n l Hfd Eli). cbn [bind List.concat app].
    unfold dcode_of. cbn [desugar_constraint map flat_map app]. rewrite code_krow. reflexivity.
  - unfold ddoc_of, expand_constraint. cbn [target_factor]. rewrite (run_check kd f Hfd). cbn [bind].
    rewrite (Hfm f Hfd). cbn [bind]. rewrite (Hln f Hfd). cbn [bind].
    rewrite <- (map_nth_seq (names_of p f) EmptyString). rewrite map_map.
    unfold dcode_of. cbn [desugar_constraint option_map]. rewrite (Hnl f Hfd). rewrite !map_map. rewrite mapM_map.
    rewrite (mapM_all_ok _ (fun l => [{| k_kind := krow_kind kd k 1; k_factor := pos design f; k_level := l; k_windows := [(0, T)] |}])).
    2:{ intros l Hl. apply in_seq in Hl. apply ddoc_level; [exact Hfd|]. apply level_index_names; [exact Hfd|lia]. }
    cbn [bind]. f_equal. rewrite <- flat_map_concat_map, flat_map_map. apply flat_map_ext. intro l. symmetry. apply code_krow.
  - unfold ddoc_of. cbn [expand_constraint bind mapM].
    unfold sem_constraint. cbn [scope_windows bind]. rewrite (pos_of_design design f HndD Hfd). cbn [bind]. rewrite Eli. reflexivity.
  - unfold ddoc_of. cbn [expand_constraint bind mapM].
    unfold sem_constraint. cbn [scope_windows bind]. rewrite (pos_of_design design f HndD Hfd). cbn [bind]. rewrite Eli. cbn [bind List.concat app].
    unfold dcode_of. cbn [desugar_constraint map flat_map init_wb code_constraint app]. unfold mk_c. rewrite (windows_g T HT fb Htr Hal g Hgt Hgp), (geometry_sustain_g fb g Hgs).
    reflexivity.
Qed.

Lemma dcons_agree : forall cs' ics' ks,
  Forall2 (fun c ic => plain_constraint p design c = Some ic) cs' ics' ->
  mapM (fun csc : pcons * scope =>
          cs0 <- expand_constraint p (fst csc) ;;
          ks <- mapM (fun c => sem_constraint p (the_bd design cs rcc x T) design 0 T c (snd csc)) cs0 ;; Ok (List.concat ks))
       (own_constraints cs') = Ok ks ->
  List.concat ks = flat_map dcode_of ics'.
Proof.
  intros cs' ics' ks H. revert ks. induction H as [|c ic cs' ics' Hcic _ IH]; intros ks Hm.
  - apply Ok_inj in Hm. subst ks. reflexivity.
  - destruct (dcons_agree_one c ic Hcic) as [H1 H2]. unfold own_constraints in *. cbn [filter] in Hm.
    destruct (is_min_trials c) eqn:Em; cbn [negb map] in Hm.
    + cbn [flat_map]. rewrite (H1 eq_refl). cbn [app]. apply IH. exact Hm.
    + cbn [mapM fst snd] in Hm. fold (ddoc_of c) in Hm. rewrite (H2 eq_refl) in Hm. cbn [bind] in Hm.
      inv_bind Hm as ks' Hks Hm. apply Ok_inj in Hm. subst ks. cbn [List.concat flat_map]. f_equal. apply IH. exact Hks.
Qed.

End Constraints.
End Cons.

Lemma Forall2_nth_error_intro : forall {A B} (R : A -> B -> Prop) l1 l2, List.length l1 = List.length l2 ->
  (forall i x y, nth_error l1 i = Some x -> nth_error l2 i = Some y -> R x y) -> Forall2 R l1 l2.
Proof.
  intros A B R l1. induction l1 as [|a l1 IH]; intros [|b l2] Hlen H; cbn in Hlen; try discriminate; constructor.
  - apply (H 0); reflexivity.
  - apply IH; [lia|]. intros i x y Hx Hy. apply (H (S i)); assumption.
Qed.

Lemma simple_names_of : forall p d, simple_id p d -> DerivedInput.simple_names p d = Some (names_of p d).
Proof.
  intros p d Hs. unfold DerivedInput.simple_names. destruct (simple_fm p d Hs) as [-> _]. unfold names_of. rewrite (simple_plevels p d Hs). reflexivity.
Qed.

Lemma simple_names_all : forall p l dnames, (forall d, In d l -> simple_id p d) ->
  all_opt (map (DerivedInput.simple_names p) l) = Some dnames -> dnames = map (names_of p) l.
Proof.
  intros p l dnames Hd En. apply all_opt_some in En. rewrite <- (map_id dnames). symmetry. apply Forall2_map_eq.
  eapply Forall2_imp_Forall; [apply Forall_forall; exact Hd| |exact En]. intros d y Hs Hy. cbv beta in Hy.
  rewrite (simple_names_of p d Hs) in Hy. injection Hy as <-. reflexivity.
Qed.

Lemma simple_names_some : forall p d ns, DerivedInput.simple_names p d = Some ns -> simple_id p d.
Proof.
  intros p d ns H. unfold DerivedInput.simple_names in H. destruct (fm p d) as [dd| |] eqn:Ed; try discriminate. exists dd. split; [exact Ed|].
  unfold is_simple. destruct (pf_kind dd); try discriminate. reflexivity.
Qed.

(** the description of a within-trial factor *)
Definition wff (p : program) (design : list nat) (fd : pfactor) (w : pwindow) (levels : list pdlevel) : ffactor :=
  {| ff_name := pf_name fd; ff_hidden := false;
     ff_levels := derived_levels (map (names_of p) (pw_deps w)) levels;
     ff_window := Some {| win_deps := map (pos design) (pw_deps w); win_width := 1; win_stride := 1; win_start := 0; win_start_delta := 0%Z |};
     ff_complex := false |}.

Lemma derived_factor_within : forall p design fd w levels ff,
  pf_kind fd = FDerived w levels -> derived_factor p design fd = Some ff ->
  pw_type w = WWithin /\ pw_deps w <> [] /\ incl (pw_deps w) design /\ (forall d, In d (pw_deps w) -> simple_id p d) /\
  all_opt (map (DerivedInput.simple_names p) (pw_deps w)) = Some (map (names_of p) (pw_deps w)) /\ ff = wff p design fd w levels.
Proof.
  intros p design fd w levels ff Hk H. unfold derived_factor in H. rewrite Hk in H.
  destruct (pw_type w); try discriminate. destruct (nonempty (pw_deps w) && _) eqn:Hne; [|discriminate].
  apply andb_true_iff in Hne. destruct Hne as [Hne _].
  destruct (all_opt (map (fpos design) (pw_deps w))) as [pdeps|] eqn:Ep; [|discriminate].
  destruct (all_opt (map (DerivedInput.simple_names p) (pw_deps w))) as [dnames|] eqn:En; [|discriminate].
  destruct (plain_cr design (pw_deps w) pdeps Ep) as [-> Hincl].
  assert (Hds : forall d, In d (pw_deps w) -> simple_id p d).
  { intros d Hd. destruct (Forall2_in_l _ _ _ _ (all_opt_some _ _ _ En) Hd) as [y [_ Hy]]. exact (simple_names_some p d y Hy). }
  rewrite (simple_names_all p _ dnames Hds En) in H |- *. injection H as <-.
  split; [reflexivity|]. split; [destruct (pw_deps w); [discriminate|discriminate]|]. repeat split; assumption.
Qed.

(** a crossing keeps its weight when it already has the one its block asks for *)
Lemma finish_cw_weight : forall T c,
  finish_cw DWeight T c = Ok (if x_S c =? 0 then c else set_cw c (ceil_div (T / x_su c - x_P c) (x_S c))).
Proof.
  intros T c. unfold finish_cw. destruct (x_S c =? 0); [reflexivity|]. cbv zeta.
  destruct (_ =? x_cw c) eqn:E; [|reflexivity]. apply Nat.eqb_eq in E. rewrite E. destruct c; reflexivity.
Qed.

Section ExcludesSimple.
Variable p : program.
Variable cs : list pcons.
Hypothesis Hexs : Forall (fun fn : nat * name => simple_id p (fst fn)) (excludes_of cs).

Lemma excludes_simple_gen : Forall (fun fn : nat * name => simple_id p (fst fn)) (excludes_of cs).
Proof. exact Hexs. Qed.

End ExcludesSimple.

Section Main.
Variable p : program.
Variables design crossing : list nat.
Variable cs : list pcons.
Variable rcc : bool.
Variable fds : list ffactor.
Variable ics : list iconstraint.
Variable act : list nat.
Variables (ders : list fconstraint) (ef : bool).

Hypothesis Hkinds : forall f, In f design -> simple_id p f \/ within_ok p design f.
Hypothesis HndD : NoDup design.
Hypothesis HndC : NoDup crossing.
Hypothesis Hne : crossing <> [].
Hypothesis Hcs : forall f, In f crossing -> simple_id p f /\ In f design.
Hypothesis Hexs : Forall (fun fn : nat * name => simple_id p (fst fn)) (excludes_of cs).
Hypothesis Hnames : forall d, In d design -> simple_id p d -> NoDup (map fst (plevels p d)).
Hypothesis Hlev : forall d, In d design -> simple_id p d -> 0 < nlv p d.
Hypothesis Hsorted : StronglySorted (fun a b : nat * nat => (snd a <=? snd b) = true)
                                    (map (fun f => (f, if simple_b p f then 0 else 1)) design).
Hypothesis Hfds : Forall2 (fun f ff => match fm p f with Ok fd => derived_factor p design fd | _ => None end = Some ff) design fds.
Hypothesis Hics : Forall2 (fun c ic => plain_constraint p design c = Some ic) cs ics.

Let cr := map (pos design) crossing.
Let excl := excluded_levels ics.
Let Sz := psize p design crossing ics.

Hypothesis Hrcc : rcc = true -> excluded_crossings fds act cr excl = [].

Lemma Hincl : incl crossing design.
Proof. intros f Hf. apply Hcs. exact Hf. Qed.

Lemma fds_at : forall f, In f design -> exists ff, nth_error fds (pos design f) = Some ff /\ derived_factor p design (fd_of p f) = Some ff.
Proof.
  intros f Hf. destruct (Forall2_nth_error_l _ _ _ _ _ Hfds (pos_nth_error design f Hf)) as [ff [H1 H2]]. exists ff. split; [exact H1|].
  rewrite (design_fm p design Hkinds f Hf) in H2. exact H2.
Qed.

Lemma fds_simple : forall f, In f design -> simple_id p f -> nth_error fds (pos design f) = Some (mkff p f).
Proof.
  intros f Hf Hs. destruct (fds_at f Hf) as [ff [H1 H2]]. rewrite H1. f_equal. unfold derived_factor in H2.
  rewrite (simple_plevels p f Hs) in H2. unfold plain_factor in H2. rewrite (simple_plevels p f Hs) in H2. injection H2 as <-. reflexivity.
Qed.

Lemma Hfdsc : forall f, In f crossing -> nth_error fds (pos design f) = Some (mkff p f).
Proof. intros f Hf. destruct (Hcs f Hf). apply fds_simple; assumption. Qed.

Lemma Hcs1 : forall f, In f crossing -> simple_id p f.
Proof. intros f Hf. apply Hcs. exact Hf. Qed.

Lemma nlevels_of_c : forall f, In f crossing -> nlevels_of fds (pos design f) = nlv p f.
Proof. intros f Hf. unfold nlevels_of. rewrite (Hfdsc f Hf). apply mkff_nlevels. Qed.

Lemma cr_length : forall ls, In ls (IP p crossing) -> List.length cr = List.length ls.
Proof. intros ls Hls. unfold cr. rewrite map_length. symmetry. apply (in_IP_length p). exact Hls. Qed.

Lemma all_crossings_IP : all_crossings fds cr = map (zipw (fun f l => (pos design f, l)) crossing) (IP p crossing).
Proof.
  unfold all_crossings, cr, IP. rewrite map_map. rewrite <- product_map2. apply (f_equal (@DocSem.product _)). apply map_ext_in.
  intros f Hf. unfold level_list. rewrite (nlevels_of_c f Hf). reflexivity.
Qed.

Lemma is_der_simple : forall f, In f design -> simple_id p f -> is_der fds (pos design f) = false.
Proof. intros f Hf Hs. unfold is_der, fwin. rewrite (fds_simple f Hf Hs). reflexivity. Qed.

Lemma fds_within : forall f fd w levels, In f design -> fm p f = Ok fd -> pf_kind fd = FDerived w levels ->
  nth_error fds (pos design f) = Some (wff p design fd w levels).
Proof.
  intros f fd w levels Hf Hfm Hk. destruct (fds_at f Hf) as [ff [H1 H2]]. rewrite H1. f_equal.
  assert (Efd : fd_of p f = fd) by (unfold fd_of; rewrite Hfm; reflexivity). rewrite Efd in H2.
  apply (derived_factor_within p design fd w levels ff Hk H2).
Qed.

Lemma design_ln : forall f, In f design -> level_names (fd_of p f) = Ok (names_of p f).
Proof.
  intros f Hf. destruct (Hkinds f Hf) as [H|(fd & w & levels & W)]; [apply DocSemPlain.simple_names; exact H|].
  unfold level_names, names_of, fd_of. rewrite (wo_fm W), (wo_kind W). reflexivity.
Qed.

Lemma design_str : forall f, In f design -> strided (fd_of p f) = false.
Proof.
  intros f Hf. destruct (Hkinds f Hf) as [H|(fd & w & levels & W)]; [apply strided_simple; exact H|].
  unfold strided, fd_of. rewrite (wo_fm W), (wo_kind W), (wo_type W). reflexivity.
Qed.

Lemma design_ndn : forall f, In f design -> NoDup (names_of p f).
Proof.
  intros f Hf. destruct (Hkinds f Hf) as [H|(fd & w & levels & W)].
  - rewrite (names_of_plevels p f H). apply Hnames; assumption.
  - unfold names_of, fd_of. rewrite (wo_fm W), (wo_kind W). exact (wo_names W).
Qed.

Lemma design_nl : forall f, In f design -> nlevels_of fds (pos design f) = List.length (names_of p f).
Proof.
  intros f Hf. destruct (Hkinds f Hf) as [H|(fd & w & levels & W)].
  - unfold nlevels_of. rewrite (fds_simple f Hf H). rewrite (names_of_plevels p f H). unfold mkff. cbn. rewrite !map_length. reflexivity.
  - unfold nlevels_of. rewrite (fds_within f fd w levels Hf (wo_fm W) (wo_kind W)). unfold wff, derived_levels. cbn [ff_levels].
    unfold names_of, fd_of. rewrite (wo_fm W), (wo_kind W). rewrite !map_length. reflexivity.
Qed.

Lemma excl_in : forall e, In e excl -> exists f n, In (f, n) (excludes_of cs) /\ e = (pos design f, lidx p f n) /\ In f design /\ simple_id p f /\
  lidx p f n < nlv p f /\ nm p f (lidx p f n) = n.
Proof.
  intros e He.
  destruct (excluded_levels_gen p design (design_fm p design Hkinds) design_ln cs ics Hics) as [Eidx Hexc].
  unfold excl in He. rewrite Eidx in He. apply in_map_iff in He. destruct He as [[f n] [<- Hfn]]. exists f, n.
  destruct (Hexc f n Hfn) as [Hf [Hl Hn]]. rewrite Forall_forall in Hexs. pose proof (Hexs _ Hfn) as Hs. cbn [fst snd] in *.
  rewrite (names_of_plevels p f Hs) in Hl, Hn. rewrite map_length in Hl. repeat split; assumption.
Qed.

(** an Exclude hits a combination iff the combination contains the excluded level *)
Lemma hits_exI : forall ls, In ls (IP p crossing) ->
  existsb (fun fl => exclude_hits fds act cr fl (combine cr ls)) excl = exI design crossing excl ls.
Proof.
  intros ls Hls. unfold exI. fold cr. apply eq_true_iff_eq. rewrite !existsb_exists. split.
  - intros [e [He Hh]]. destruct (excl_in e He) as [f [n [_ [-> [Hf [Hs _]]]]]]. unfold exclude_hits in Hh. cbn [fst snd] in Hh.
    rewrite (is_der_simple f Hf Hs) in Hh. cbn [andb] in Hh. rewrite orb_false_r in Hh. apply andb_true_iff in Hh. destruct Hh as [_ Hh].
    exists (pos design f, lidx p f n). split; [exact (proj1 (memP_In (combine cr ls) (pos design f, lidx p f n)) Hh)|apply memP_In; exact He].
  - intros [[c l] [Hq Hm]]. apply memP_In in Hm. exists (c, l). split; [exact Hm|].
    unfold exclude_hits. cbn [fst snd]. apply orb_true_iff. left. apply andb_true_iff. split.
    + apply (existsb_eqb_In c cr). exact (in_combine_l _ _ _ _ Hq).
    + exact (proj2 (memP_In (combine cr ls) (c, l)) Hq).
Qed.

Lemma impossible_false : forall ls, In ls (IP p crossing) -> impossible fds cr (combine cr ls) = false.
Proof.
  intros ls Hls. unfold impossible. apply existsb_false. intros [c l] Hin. cbn [fst snd].
  pose proof (in_combine_l _ _ _ _ Hin) as Hc. unfold cr in Hc. apply in_map_iff in Hc. destruct Hc as [f [<- Hf]]. destruct (Hcs f Hf) as [Hs Hfd]. rewrite (is_der_simple f Hfd Hs). reflexivity.
Qed.

Lemma excluded_crossings_IP :
  excluded_crossings fds act cr excl = map (fun ls => combine cr ls) (filter (exI design crossing excl) (IP p crossing)).
Proof.
  unfold excluded_crossings. rewrite all_crossings_IP. rewrite (map_ext _ _ (zipw_pos_combine design crossing)).
  rewrite filter_map_comm. f_equal. apply filter_ext_in. intros ls Hls. fold cr. rewrite (impossible_false ls Hls). cbn [orb]. apply hits_exI. exact Hls.
Qed.

Lemma combo_weight_idx_W : forall ls, In ls (IP p crossing) -> combo_weight_idx fds (combine cr ls) = W p crossing ls.
Proof.
  intros ls Hls.
  apply (weight_fold p design crossing (fun c l => match nth_error (flevels fds c) l with Some lv => lv_weight lv | None => 1 end)); [|exact Hls].
  intros f l Hf Hl. unfold flevels. rewrite (Hfdsc f Hf), (mkff_level p f l Hl). reflexivity.
Qed.

Lemma exclusions_sum : derived_exclusions fds act cr excl = list_sum (map (W p crossing) (filter (exI design crossing excl) (IP p crossing))).
Proof.
  unfold derived_exclusions. rewrite (fold_add_sum (combo_weight_idx fds)). cbn [Nat.add]. rewrite excluded_crossings_IP. rewrite map_map.
  apply (f_equal (@list_sum)). apply map_ext_in. intros ls Hls. apply filter_In in Hls. apply combo_weight_idx_W. apply Hls.
Qed.

Lemma dsize_Sz : dsize p crossing (derived_exclusions fds act cr excl) = Sz.
Proof.
  unfold dsize, Sz, psize. rewrite exclusions_sum. fold excl.
  rewrite (list_sum_filter_split (exI design crossing excl) (W p crossing) (IP p crossing)). lia.
Qed.

Let sdd := sd p design.

Lemma sdd_simple : forall f, In f sdd -> simple_id p f.
Proof. apply sd_simple. exact Hkinds. Qed.

Lemma crossing_sdd : forall f, In f crossing -> In f sdd.
Proof. intros f Hf. apply (in_sd p design Hkinds). destruct (Hcs f Hf). split; assumption. Qed.

Lemma HnamesC : forall f, In f crossing -> NoDup (map fst (plevels p f)).
Proof. intros f Hf. destruct (Hcs f Hf). apply Hnames; assumption. Qed.

Lemma Hlev_sd : forall d, In d sdd -> 0 < nlv p d.
Proof. intros d Hd. apply (in_sd p design Hkinds) in Hd. destruct Hd. apply Hlev; assumption. Qed.

Lemma feasible_sd : forall feas, feasible_combos p design crossing (excludes_of cs) = Ok feas ->
  plain_feasible p sdd crossing (excludes_of cs) = Ok feas.
Proof. intros feas H. rewrite (feasible_derived p design crossing (excludes_of cs) Hkinds HndD Hcs Hexs) in H. exact H. Qed.

Lemma ex_agree_gen : forall ls, In ls (IP p crossing) ->
  exI design crossing excl ls = exN p crossing (plain_excl crossing (excludes_of cs)) ls.
Proof.
  intros ls Hls. pose proof (in_IP_lt p crossing ls Hls) as Hlt.
  destruct (excluded_levels_gen p design (design_fm p design Hkinds) design_ln cs ics Hics) as [Eidx Hexc].
  unfold exI, exN. apply eq_true_iff_eq. rewrite !existsb_exists. split.
  - intros [[c l] [Hin Hm]]. apply in_combine_map_l in Hin. destruct Hin as [f [Hfl ->]].
    destruct (Forall2_combine_in _ _ _ _ _ Hlt Hfl) as [Hl Hf].
    apply memP_In in Hm. destruct (excl_in _ Hm) as [g [m [Hgm [E [Hgd [Hgs [_ Hnm]]]]]]]. injection E as H1 H2.
    assert (g = f).
    { pose proof (pos_nth_error design g Hgd) as E1. pose proof (pos_nth_error design f (Hincl f Hf)) as E2. congruence. }
    subst g. exists (f, nm p f l). split; [apply in_combine_zipw; exists l; split; [exact Hfl|reflexivity]|].
    unfold memb. apply existsb_exists. exists (f, m). split.
    + unfold plain_excl. apply filter_In. split; [exact Hgm|]. cbn. apply mem_true. exact Hf.
    + apply level_eqb_eq. rewrite <- Hnm, <- H2. reflexivity.
  - intros [[f n] [Hin Hm]]. apply in_combine_zipw in Hin. destruct Hin as [l [Hfl ->]].
    destruct (Forall2_combine_in _ _ _ _ _ Hlt Hfl) as [Hl Hf].
    unfold memb in Hm. apply existsb_exists in Hm. destruct Hm as [e [He Hm]]. apply level_eqb_eq in Hm. subst e.
    unfold plain_excl in He. apply filter_In in He. destruct He as [He _].
    exists (pos design f, l). split; [apply in_combine_map_l; exists f; split; [exact Hfl|reflexivity]|].
    assert (El : lidx p f (nm p f l) = l).
    { unfold lidx. rewrite (level_index_nm p f l (Hcs1 f Hf) (HnamesC f Hf) Hl). reflexivity. }
    apply memP_In. rewrite <- El. unfold excl. rewrite Eidx. apply in_map_iff. exists (f, nm p f l). split; [reflexivity|exact He].
Qed.

Lemma exI_false_rcc_gen : rcc = true -> forall ls, In ls (IP p crossing) -> exI design crossing excl ls = false.
Proof.
  intros Hr ls Hls. pose proof (Hrcc Hr) as H0. rewrite excluded_crossings_IP in H0. apply map_eq_nil in H0.
  destruct (exI design crossing excl ls) eqn:E; [|reflexivity]. exfalso.
  assert (Hin : In ls (filter (exI design crossing excl) (IP p crossing))) by (apply filter_In; split; assumption).
  rewrite H0 in Hin. exact Hin.
Qed.

(** the documented combinations, whichever of the two dictionaries the crossing uses *)
Lemma doc_combos_keys : forall allc feas,
  all_combos p crossing = Ok allc -> feasible_combos p design crossing (excludes_of cs) = Ok feas ->
  keys_are p crossing (if rcc then allc else feas) (fun ls => negb (exI design crossing excl ls)) /\
  (rcc = true -> forall k, In k (map fst feas) <-> In k (map fst allc)).
Proof.
  intros allc feas Ha Hf. apply feasible_sd in Hf.
  assert (Kf : keys_are p crossing feas (fun ls => negb (exI design crossing excl ls))).
  { eapply keys_are_ext; [|exact (feasible_keys p sdd crossing sdd_simple crossing_sdd (NoDup_sd p design HndD) HndC Hlev_sd _ _ Hf)].
    intros ls Hls. cbv beta. rewrite (ex_agree_gen ls Hls). reflexivity. }
  assert (Ka : rcc = true -> keys_are p crossing allc (fun ls => negb (exI design crossing excl ls))).
  { intro Hr. eapply keys_are_ext; [|exact (all_combos_keys p crossing Hcs1 allc Ha)].
    intros ls Hls. cbv beta. rewrite (exI_false_rcc_gen Hr ls Hls). reflexivity. }
  split; [|intro Hr; exact (keys_are_same p crossing _ _ _ Kf (Ka Hr))].
  destruct (Bool.bool_dec rcc true) as [Hr|Hr]; [rewrite Hr; exact (Ka Hr)|apply not_true_is_false in Hr; rewrite Hr; exact Kf].
Qed.

Lemma doc_size_gen : forall allc feas,
  all_combos p crossing = Ok allc -> feasible_combos p design crossing (excludes_of cs) = Ok feas ->
  sum_values (if rcc then allc else feas) = Sz.
Proof.
  intros allc feas Ha Hf. apply (dict_sum p crossing Hcs1 HnamesC). apply (doc_combos_keys allc feas Ha Hf).
Qed.

Hypothesis Hmain : p_main p = PCross design crossing cs rcc.

Lemma design_not_continuous_gen :
  map fst (filter (fun x : nat * pfactor => negb (is_continuous (snd x))) (map (fun f => (f, fd_of p f)) design)) = design.
Proof.
  rewrite filter_map_comm, map_map. cbn [fst snd]. rewrite map_id. apply filter_all. intros f Hf. apply negb_true_iff.
  destruct (Hkinds f Hf) as [H|(fd & w & levels & W)].
  - destruct (simple_fm p f H) as [_ Hs]. unfold is_simple in Hs. unfold is_continuous. destruct (pf_kind (fd_of p f)); try discriminate. reflexivity.
  - unfold is_continuous, fd_of. rewrite (wo_fm W), (wo_kind W). reflexivity.
Qed.

Lemma depth_design : forall f, In f design -> depth p (fuel0 p) f = Ok (if simple_b p f then 0 else 1).
Proof.
  intros f Hf. destruct (Hkinds f Hf) as [H|H].
  - rewrite (simple_b_true p f H). apply depth_simple. exact H.
  - rewrite (within_not_simple p design f H). destruct H as (fd & w & levels & W).
    apply (depth_within p fd w levels (wo_kind W) (wo_simple W) (wo_deps_ne W) f (wo_fm W)).
Qed.

Lemma sem_of_gen : forall x T ds,
  x_factors x = crossing -> x_P x = 0 -> x_su x = 1 ->
  sem_of_block p (the_bd design cs rcc x T) = Ok ds ->
  s_trials (ds_sem ds) = T /\
  mapM (sem_factor p (the_bd design cs rcc x T) design) design = Ok (s_factors (ds_sem ds)) /\
  x_S x * x_cw x <> 0 /\
  (exists mult,
     s_crossings (ds_sem ds) = [{| c_factors := map (pos design) crossing; c_first := 0; c_chunk := x_S x * x_cw x; c_mult := mult |}] /\
     mapM (fun cw : list name * nat =>
             idx <- mapM (fun fn => level_index p (fst fn) (snd fn)) (combine crossing (fst cw)) ;;
             Ok (idx, snd cw * x_cw x * 1))
          (sort_by (fun a b => names_leb (fst a) (fst b)) (x_combos x)) = Ok mult) /\
  (exists ks,
     mapM (fun csc : pcons * scope =>
             cs0 <- expand_constraint p (fst csc) ;;
             ks <- mapM (fun c => sem_constraint p (the_bd design cs rcc x T) design 0 T c (snd csc)) cs0 ;; Ok (List.concat ks))
          (own_constraints cs) = Ok ks /\
     s_constraints (ds_sem ds) = List.concat ks ++
       (if (negb (x_complete x) && x_rcc x || false) && nonempty design
        then [{| k_kind := KExactlyK (T + 1); k_factor := 0; k_level := 0; k_windows := [(0, T)] |}] else [])).
Proof.
  intros x T ds Hxf HxP Hxsu H.
  destruct (sem_of_block_inv _ _ _ H) as (depths & forder & factors & crossings & kss & Hd & Efo & Hfac & Hx & Hc & ->).
  cbn [the_bd b_design b_T b_crossings b_constraints] in *.
  rewrite (mapM_all_ok _ (fun f => (f, if simple_b p f then 0 else 1))) in Hd
    by (intros f Hf; rewrite (depth_design f Hf); reflexivity).
  apply Ok_inj in Hd. subst depths.
  rewrite (sort_by_of_sorted _ _ Hsorted), map_map, map_id in Efo. subst forder.
  cbn [mapM map list_max fold_right] in Hx. rewrite HxP in Hx. cbn [Nat.mul Nat.max] in Hx.
  inv_bind Hx as dc Hdc Hx. apply Ok_inj in Hx. subst crossings.
  destruct (sem_crossing_inv _ _ _ _ _ _ Hdc) as (E0 & mult & fs & Hm & Hfs & ->).
  rewrite Hxsu in E0, Hm. rewrite Nat.mul_1_r in E0. rewrite Hxf in Hfs, Hm.
  rewrite (mapM_all_ok _ (pos design)) in Hfs by (intros f Hf; apply pos_of_design; [exact HndD|apply Hcs; exact Hf]).
  apply Ok_inj in Hfs. subst fs. cbn [ds_sem s_trials s_factors s_crossings s_constraints existsb].
  repeat split; [exact Hfac|exact E0| |exists kss; split; [exact Hc|reflexivity]].
  exists mult. split; [|exact Hm]. unfold crossing_first. cbn [the_bd b_alignment]. rewrite HxP, Hxsu, !Nat.mul_1_r. reflexivity.
Qed.

Lemma pos_of_nth_error : forall i f, nth_error design i = Some f -> pos design f = i.
Proof.
  intros i f H. assert (Hf : In f design) by (eapply nth_error_In; eauto). pose proof (pos_nth_error design f Hf) as H'.
  assert (Hlt : pos design f < List.length design) by (apply nth_error_Some; congruence).
  apply (proj1 (NoDup_nth_error design) HndD _ _ Hlt). congruence.
Qed.

Lemma code_factors_nth : forall fb i ff, fl_design fb = fds -> nth_error fds i = Some ff ->
  nth_error (s_factors (code_sem fb)) i = Some (code_factor fb i ff).
Proof.
  intros fb i ff Hd H. unfold code_sem. cbn [s_factors]. rewrite Hd. rewrite nth_error_map. rewrite nth_error_combine_seq, H. reflexivity.
Qed.

Lemma factors_eqv : forall fb x T factors, fl_design fb = fds -> (forall i, sustain_of fb i = 1) ->
  mapM (sem_factor p (the_bd design cs rcc x T) design) design = Ok factors ->
  Forall2 (factor_eqv_t (s_factors (code_sem fb))) (s_factors (code_sem fb)) factors.
Proof.
  intros fb x T factors Hd Hsu Hm.
  pose proof (mapM_length _ _ _ Hm) as Hlf. pose proof (Forall2_length _ _ _ Hfds) as Hld. apply mapM_ok in Hm.
  apply Forall2_nth_error_intro.
  { unfold code_sem. cbn [s_factors]. rewrite Hd, map_length, combine_length, seq_length, Nat.min_id. congruence. }
  intros i cf y Hcf Hy.
  destruct (Forall2_nth_error_r _ _ _ _ _ Hm Hy) as [f [Hf Hsf]].
  assert (Hfd : In f design) by (eapply nth_error_In; eauto). pose proof (pos_of_nth_error i f Hf) as Epos.
  destruct (Hkinds f Hfd) as [Hs|Hw].
  - pose proof (fds_simple f Hfd Hs) as Eff. rewrite Epos in Eff. rewrite (code_factors_nth fb i _ Hd Eff) in Hcf. injection Hcf as <-.
    rewrite (sem_factor_simple p _ design f Hs) in Hsf. apply Ok_inj in Hsf. subst y.
    unfold factor_eqv_t, code_factor, mkff. cbn. rewrite map_length, Hsu. repeat split.
  - destruct Hw as (fd & w & levels & W). pose proof (wo_fm W) as Hfm. pose proof (wo_kind W) as Hk. pose proof (wo_type W) as Hty.
    pose proof (fds_within f fd w levels Hfd Hfm Hk) as Eff. rewrite Epos in Eff.
    rewrite (code_factors_nth fb i _ Hd Eff) in Hcf. injection Hcf as <-.
    unfold sem_factor in Hsf. rewrite Hfm in Hsf. cbn [bind] in Hsf. unfold DocSem.nlevels in Hsf. rewrite Hk in Hsf. cbn [bind] in Hsf.
    assert (Ens : is_simple fd = false) by (unfold is_simple; rewrite Hk; reflexivity). rewrite Ens in Hsf.
    rewrite (window_params_within p fd w levels Hk Hty (wo_simple W)) in Hsf. cbn [bind] in Hsf.
    change (sustain_get (the_bd design cs rcc x T) f) with 1 in Hsf. cbn [Nat.ltb Nat.leb andb] in Hsf.
    rewrite (accepted_tables_within p fd w levels Hk Hty (wo_simple W)) in Hsf. cbn [bind] in Hsf.
    inv_bind Hsf as enc Henc Hsf.
    rewrite (mapM_all_ok _ (pos design)) in Hsf by (intros d Hd'; apply pos_of_design; [exact HndD|exact (wo_design W d Hd')]).
    cbn [bind] in Hsf. apply Ok_inj in Hsf. subst y.
    unfold factor_eqv_t, code_factor, wff. cbn [f_nlevels f_sustain f_derived ff_levels ff_window win_deps win_width win_stride win_start].
    split; [unfold derived_levels; rewrite map_length; reflexivity|]. split; [apply Hsu|]. right. split; [|split; [reflexivity|]].
    + unfold window_eqv. cbn [w_deps w_width w_stride w_start w_table]. repeat split. intros l args Hargs. unfold accepts. cbn [w_table].
      apply (table_eqv p w levels (wo_simple W) (fun d Hd' => proj2 (proj2 (wo_deps W d Hd'))) (wo_wf W) enc Henc l args Hargs).
    + cbn [w_deps]. apply Forall_forall. intros c Hc. apply in_map_iff in Hc. destruct Hc as [d [<- Hd']].
      exists (code_factor fb (pos design d) (mkff p d)).
      split; [apply (code_factors_nth fb _ _ Hd (fds_simple d (wo_design W d Hd') (wo_simple W d Hd')))|reflexivity].
Qed.

Let E := derived_exclusions fds act cr excl.
Let exd := derived_excluded_derived fds excl.
Let ci := dci design crossing fds ics rcc ef E ders exd.
Hypothesis Hders : forall c, In c ders -> exists v dd f, c = FDerivation v dd f.

Lemma Hexd0 : exd = [].
Proof.
  unfold exd, derived_excluded_derived. apply flat_map_nil.
  intros fl Hfl. destruct (excl_in fl Hfl) as [f [n [_ [-> [Hf [Hs _]]]]]]. cbn [fst snd]. rewrite (is_der_simple f Hf Hs). reflexivity.
Qed.

Let M := list_max (min_trials_of cs).
Let T := Nat.max (Nat.max Sz 1) M.
Let w := ceil_div T Sz.

Lemma st_cons_dci : st_cons ci = FCross :: FConsistency :: flat_map (desugar_constraint fds) ics.
Proof. unfold st_cons, ci, dci. cbn [mk_input ci_design ci_constraints ci_sustains existsb Nat.eqb negb orb app]. rewrite app_nil_r. reflexivity. Qed.

(** the created record in closed form, over natural numbers; [g] is the geometry handed to [init_wb] *)
Lemma created_form : forall fb, create_flat ci = FOk fb ->
  0 < Sz /\ exists g, g_trials g = T /\ g_preamble g = 0 /\ (forall kv, In kv (g_sustain g) -> snd kv = 1) /\
  fl_design fb = fds /\ fl_act fb = st_act ci /\ fl_crossings fb = [cr] /\ fl_sustains fb = [1] /\ fl_weights fb = [w] /\
  fl_sizes fb = [Sz] /\ fl_preambles fb = [0] /\ fl_alignment fb = EqualPreamble /\ fl_trials fb = T /\ fl_exclude fb = excl /\
  fl_excluded_derived fb = [] /\
  fl_constraints fb = map (init_wb g) (FCross :: FConsistency :: flat_map (desugar_constraint fds) ics) ++ ders.
Proof.
  intros fb Hfb.
  assert (Esz : dsize p crossing E = Sz) by (unfold E; apply dsize_Sz).
  assert (HM : fold_left min_step (st_cons ci) 0%Z = Z.of_nat M).
  { rewrite st_cons_dci. cbn [fold_left min_step]. rewrite (min_fold_cs p design fds cs ics Hics 0%Z) by lia. fold M. lia. }
  destruct (create_flat_dci p design crossing fds Hfdsc Hne ics rcc ef E ders exd M fb HM Hfb) as [HS Efb].
  fold ci in Efb. rewrite Esz in HS, Efb. fold T w in Efb. split; [exact HS|].
  exists (st_geometry ci [0] (Z.of_nat T)). split; [|split; [|split]].
  - unfold st_geometry. cbn [g_trials]. apply Nat2Z.id.
  - unfold st_geometry. cbn [g_preamble]. unfold ci.
    rewrite (st_crossings_dci design crossing fds Hne ics rcc ef E ders exd). reflexivity.
  - intros kv Hin. unfold st_geometry in Hin. cbn [g_sustain] in Hin. apply in_map_iff in Hin. destruct Hin as [f [<- _]]. reflexivity.
  - rewrite st_cons_dci, Hexd0 in Efb. unfold st_exclude at 1 in Efb. cbn [flat_map app] in Efb.
    fold (st_exclude (flat_map (desugar_constraint fds) ics)) in Efb. rewrite st_exclude_desugar_gen in Efb.
    rewrite Efb. repeat (split; [reflexivity|]). reflexivity.
Qed.

Section CodeCombos.
Variable fb : flat.
Hypothesis Hd : fl_design fb = fds.
Hypothesis Hex : fl_exclude fb = excl.
Hypothesis Hexd : fl_excluded_derived fb = [].

Lemma code_excluded_gen : forall ls, In ls (IP p crossing) ->
  is_excluded_or_inconsistent fb (combine cr ls) = exI design crossing excl ls.
Proof.
  intros ls Hls. unfold is_excluded_or_inconsistent.
  pose proof (cr_length ls Hls) as Hlen.
  rewrite (existsb_false (fun pr : nat * nat => match Layout.factor_at fb (fst pr) with
                                                 | Some fd => match ff_window fd with Some w => _ | None => false end
                                                 | None => false end)).
  2:{ intros [c l] Hin. cbn [fst].
      pose proof (in_combine_l _ _ _ _ Hin) as Hc. unfold cr in Hc. apply in_map_iff in Hc. destruct Hc as [f [<- Hf]].
      rewrite (dfactor_at_pos p design crossing fds Hfdsc fb Hd f Hf). reflexivity. }
  rewrite orb_false_r. unfold is_excluded_combination. rewrite Hexd, Hex. cbn [existsb]. rewrite orb_false_r.
  assert (Hnd : NoDup (map fst (combine cr ls))) by (rewrite map_fst_combine by exact Hlen; apply (NoDup_cr design crossing Hincl HndC)).
  unfold exI. fold cr. apply eq_true_iff_eq. rewrite !existsb_exists. split.
  - intros [e [He Hl]]. exists e. split; [apply (level_is_In _ e Hnd); exact Hl|apply memP_In; exact He].
  - intros [e [Hin Hm]]. exists e. split; [apply memP_In; exact Hm|apply (level_is_In _ e Hnd); exact Hin].
Qed.

Lemma code_combinations_gen :
  trial_combinations_of fb cr = map (fun ls => combine cr ls) (filter (fun ls => negb (exI design crossing excl ls)) (IP p crossing)).
Proof.
  unfold trial_combinations_of. unfold cr. rewrite (dcrossing_combos_IP p design crossing fds Hfdsc fb Hd).
  rewrite filter_map_comm. rewrite (map_ext _ _ (zipw_pos_combine design crossing)). f_equal.
  apply filter_ext_in. intros ls Hls. rewrite (zipw_pos_combine design crossing ls).
  pose proof (code_excluded_gen ls Hls) as E0. unfold cr in E0. rewrite E0. reflexivity.
Qed.

Lemma code_weight : forall ls, In ls (IP p crossing) -> combination_weight fb (combine cr ls) = W p crossing ls.
Proof.
  intros ls Hls. apply (weight_fold p design crossing (level_weight fb)); [|exact Hls].
  intros f l Hf Hl. apply (dlevel_weight_pos p design crossing fds Hfdsc fb Hd f l Hf Hl).
Qed.

End CodeCombos.

Lemma doc_block_gen : forall bd, 0 < Sz -> doc_block p (PCross design crossing cs rcc) = Ok bd ->
  exists allc feas,
    all_combos p crossing = Ok allc /\ feasible_combos p design crossing (excludes_of cs) = Ok feas /\
    bd = the_bd design cs rcc {| x_factors := crossing; x_S := Sz; x_P := 0; x_su := 1; x_cw := w; x_combos := if rcc then allc else feas;
                                 x_complete := same_keys feas allc; x_rcc := rcc |} T.
Proof.
  intros bd HS H. cbn [doc_block] in H. unfold doc_cross in H.
  rewrite (mapM_all_ok _ (fun f => (f, fd_of p f))) in H
    by (intros f Hf; rewrite (design_fm p design Hkinds f Hf); reflexivity).
  cbn [bind] in H. rewrite design_not_continuous_gen in H.
  assert (Hf : filter nonempty [crossing] = [crossing]) by (destruct crossing; [congruence|reflexivity]).
  rewrite Hf in H. cbn [mapM] in H. inv_bind H as xs Hxs H. inv_bind Hxs as x Hx Hxs. apply Ok_inj in Hxs. subst xs.
  destruct (doc_crossing_inv _ _ _ _ _ _ Hx) as (allc & feas & P & Ha & Hfe & HP & ->).
  rewrite crossing_preamble_plain in HP by exact Hcs1. apply Ok_inj in HP. subst P. rewrite (doc_size_gen allc feas Ha Hfe) in H.
  exists allc, feas. split; [exact Ha|]. split; [exact Hfe|].
  inv_bind H as bd0 Hfin H. apply Ok_inj in H. subst bd.
  unfold finish in Hfin. cbv zeta in Hfin.
  cbn [b_alignment b_crossings b_min_trials b_design b_constraints b_sustain b_rcc alignment_eqb andb forallb x_P negb] in Hfin.
  rewrite Nat.eqb_refl in Hfin. cbn [andb negb mapM] in Hfin. rewrite finish_cw_weight in Hfin.
  unfold finish_T in Hfin. cbn [map list_max fold_right fold_left x_P x_S x_su bind] in Hfin.
  rewrite Nat.mod_1_r, Nat.div_1_r, Nat.sub_0_r, Nat.mul_1_r, Nat.add_0_l, Nat.max_0_r in Hfin. cbn [Nat.eqb] in Hfin.
  destruct (Nat.eqb_spec Sz 0) as [Z0|_]; [lia|]. apply Ok_inj in Hfin. subst bd0. reflexivity.
Qed.

(** * The tie. Everything but the factor tables: the factors of the documented side are left as
    what [sem_factor] returns on the design. *)
Theorem cross_core : forall fb ds,
  create_flat ci = FOk fb -> doc_sem p = Ok ds ->
  fl_design fb = fds /\ (forall i, sustain_of fb i = 1) /\
  (exists x, mapM (sem_factor p (the_bd design cs rcc x T) design) design = Ok (s_factors (ds_sem ds))) /\
  s_trials (code_sem fb) = s_trials (ds_sem ds) /\ s_constraints (code_sem fb) = s_constraints (ds_sem ds) /\
  Forall2 crossing_eqv (s_crossings (code_sem fb)) (s_crossings (ds_sem ds)).
Proof.
  intros fb ds Hfb Hds.
  destruct (created_form fb Hfb) as [HS [g [Hgt [Hgp [Hgs [Hd [_ [Hc [Hs [Hw [Hsz [Hpre [Hal [Htr [Hex [Hexd Hcons]]]]]]]]]]]]]]]].
  (* the documented side *)
  unfold doc_sem, doc_sem_block in Hds. rewrite Hmain in Hds. inv_bind Hds as bd Hbd Hsem.
  destruct (doc_block_gen bd HS Hbd) as [allc [feas [Ha [Hfe ->]]]].
  apply sem_of_gen in Hsem; [|reflexivity..]. destruct Hsem as [ET [EF [Hchunk [[mult [EX Hmult]] [ks [Hks EK]]]]]].
  cbn [x_S x_cw x_combos x_complete x_rcc] in Hchunk, EX, Hmult, EK.
  assert (HT : 0 < T) by (unfold T; lia).
  (* the code side *)
  assert (Hsu : forall i, sustain_of fb i = 1) by (intro i; apply (sustain_one fb cr Hc Hs)).
  split; [exact Hd|]. split; [exact Hsu|]. split; [eexists; exact EF|]. split; [|split].
  - unfold code_sem. cbn [s_trials]. rewrite Htr, ET. reflexivity.
  - unfold code_sem. cbn [s_constraints]. rewrite EK.
    assert (Ecomplete : (negb (same_keys feas allc) && rcc || false) && nonempty design = false).
    { destruct (Bool.bool_dec rcc true) as [Hr|Hr]; [|apply not_true_is_false in Hr; rewrite Hr; rewrite andb_false_r; reflexivity].
      rewrite same_keys_true; [reflexivity|]. exact (proj2 (doc_combos_keys allc feas Ha Hfe) Hr). }
    rewrite Ecomplete, app_nil_r.
    rewrite (dcons_agree p design fds HndD (design_fm p design Hkinds) design_str design_ln design_ndn design_nl
                         cs rcc T HT fb Htr Hal g Hgt Hgp Hgs _ cs ics ks Hics Hks).
    rewrite Hcons. rewrite flat_map_app.
    assert (Eders : flat_map (code_constraint fb) ders = [])
      by (apply flat_map_nil; intros c Hc'; destruct (Hders c Hc') as [v [dd [f ->]]]; reflexivity).
    rewrite Eders, app_nil_r. cbn [map flat_map init_wb code_constraint app].
    unfold dcode_of. rewrite flat_map_map, flat_map_flat_map. apply flat_map_ext. intro ic. rewrite flat_map_map. reflexivity.
  - unfold code_sem. cbn [s_crossings]. rewrite Hc, EX. cbn [code_crossings]. constructor; [|constructor].
    unfold crossing_eqv, code_crossing. cbn [c_factors c_first c_chunk c_mult]. rewrite (crossing_weight_single fb cr w Hc Hw).
    split; [reflexivity|]. split; [|split].
    + unfold preamble_size. rewrite Hal, Hpre. reflexivity.
    + rewrite Hsz. reflexivity.
    + intro xm. rewrite (code_combinations_gen fb Hd Hex Hexd). rewrite map_map. rewrite in_map_iff.
      assert (Eone : forall ls, In ls (IP p crossing) ->
                (map snd (combine cr ls), combination_weight fb (combine cr ls) * sustain_of fb (hd 0 cr) * w) = (ls, W p crossing ls * w * 1)).
      { intros ls Hls. rewrite (code_weight fb Hd ls Hls), Hsu, map_snd_combine, !Nat.mul_1_r by exact (cr_length ls Hls). reflexivity. }
      rewrite (doc_mult_char p crossing Hcs1 HnamesC _ _ w mult (proj1 (doc_combos_keys allc feas Ha Hfe)) Hmult xm).
      split.
      * intros [ls [E0 Hin]]. apply filter_In in Hin. destruct Hin as [Hls Hp]. exists ls. rewrite <- E0, (Eone ls Hls). auto.
      * intros [ls [Hls [Hp ->]]]. exists ls. split; [apply Eone; exact Hls|apply filter_In; split; assumption].
Qed.

Theorem derived_sem_eqv : forall fb ds,
  create_flat ci = FOk fb -> doc_sem p = Ok ds -> sem_eqv_t (code_sem fb) (ds_sem ds).
Proof.
  intros fb ds Hfb Hds. destruct (cross_core fb ds Hfb Hds) as [Hd [Hsu [[x EF] [ET [EK EX]]]]].
  split; [exact ET|]. split; [exact (factors_eqv fb x T _ Hd Hsu EF)|]. split; [exact EK|exact EX].
Qed.

End Main.
