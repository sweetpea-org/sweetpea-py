(** T2(d), the statement on programs (unconditional under the boolean guard [t2d_guard2],
    Front/DerivedGuard2.v):
    [derived_input p = Some ci -> t2d_guard2 p = true -> create_flat ci = FOk fb -> doc_sem p = Ok ds ->
     sem_eqv_t (code_sem fb) (ds_sem ds)], hence equal [valid_b]. *)
From Coq Require Import ZArith List Bool Arith Lia String Sorted.
From SP Require Import Base.Lists Design.Flat Design.Sem Design.SemEqvT Design.DocSem Design.DocSemPlain Front.CreateFlat
     Front.PlainInput Front.PlainT2 Front.PlainT2Doc Front.DerivedInput Front.DerivedGuard Front.DerivedGuard2
     Front.DerivedT2Flat Front.DerivedT2Tables Front.DerivedT2Keys Front.DerivedT2Main Encode.CodeSem.
Import ListNotations.
Local Open Scope nat_scope.
Local Open Scope list_scope.

Lemma nodup_nat_b'_sound : forall l, nodup_nat_b' l = true -> NoDup l.
Proof. exact (nodup_b_sound Nat.eqb nodup_nat_b' Nat.eqb_refl (fun _ _ => eq_refl)). Qed.

Lemma nodup_names_b'_sound : forall l, nodup_names_b' l = true -> NoDup l.
Proof. exact (nodup_b_sound String.eqb nodup_names_b' String.eqb_refl (fun _ _ => eq_refl)). Qed.

Lemma is_simple_id_b : forall p f, is_simple_id p f = simple_b p f.
Proof.
  intros p f. unfold is_simple_id, kind_of, simple_b, fd_of, is_simple. destruct (fm p f) as [fd| |]; [|reflexivity|reflexivity].
  destruct (pf_kind fd); reflexivity.
Qed.

Lemma is_simple_id_prop : forall p f, is_simple_id p f = true -> simple_id p f.
Proof.
  intros p f H. unfold is_simple_id, kind_of in H. destruct (fm p f) as [fd| |] eqn:E; try discriminate.
  exists fd. split; [exact E|]. unfold is_simple. destruct (pf_kind fd); try discriminate. reflexivity.
Qed.

Lemma simple_first_sorted : forall p design, simple_first p design = true ->
  StronglySorted (fun a b : nat * nat => (snd a <=? snd b) = true) (map (fun f => (f, if simple_b p f then 0 else 1)) design).
Proof.
  intros p design. induction design as [|f r IH]; intro H; [constructor|]. cbn [simple_first] in H. apply andb_true_iff in H. destruct H as [H1 H2].
  cbn [map]. constructor; [apply IH; exact H2|]. apply Forall_forall. intros b Hb. apply in_map_iff in Hb. destruct Hb as [g [<- Hg]]. cbn [snd].
  apply orb_true_iff in H1. destruct H1 as [H1|H1].
  - rewrite <- is_simple_id_b, H1. reflexivity.
  - rewrite forallb_forall in H1. specialize (H1 g Hg). apply negb_true_iff in H1. rewrite <- (is_simple_id_b p g), H1.
    destruct (simple_b p f); reflexivity.
Qed.

Lemma derivations_shape : forall fds fb0 c, In c (derived_derivations fds fb0) -> exists v dd f, c = FDerivation v dd f.
Proof.
  intros fds fb0 c H. unfold derived_derivations in H. apply in_flat_map in H. destruct H as [f [_ H]].
  destruct (nth_error fds f) as [fd|]; [|contradiction]. destruct (ff_window fd) as [w|]; [|contradiction].
  destruct (memf f (fl_act fb0)); [|contradiction]. apply in_flat_map in H. destruct H as [llv [_ H]].
  destruct (Layout.first_variable_for_level fb0 f (fst llv)) as [v|]; [|contradiction]. destruct H as [<-|[]]. eauto.
Qed.

Lemma forallb_Forall : forall {A} (P : A -> bool) (Q : A -> Prop) l, (forall x, P x = true -> Q x) -> forallb P l = true -> Forall Q l.
Proof. intros A P Q l H Hb. apply Forall_forall. intros x Hx. apply H. rewrite forallb_forall in Hb. apply Hb. exact Hx. Qed.

Lemma guard_simple_names : forall p d, factor_guard p d = true -> simple_id p d ->
  NoDup (names_of p d) /\ 0 < List.length (names_of p d).
Proof.
  intros p d Hfg Hs. unfold factor_guard, kind_of in Hfg. destruct (simple_fm p d Hs) as [E Hsi]. rewrite E in Hfg.
  unfold names_of. unfold is_simple in Hsi. destruct (pf_kind (fd_of p d)) as [ls| |]; try discriminate.
  apply andb_true_iff in Hfg. destruct Hfg as [H1 H2]. split; [apply nodup_names_b'_sound; exact H2|]. rewrite map_length. destruct ls; [discriminate|cbn; lia].
Qed.

Lemma guard_kinds : forall p design f fd ff,
  (forall d, In d design -> factor_guard p d = true) -> factor_guard p f = true -> wf_derived p f = true ->
  fm p f = Ok fd -> derived_factor p design fd = Some ff -> simple_id p f \/ within_ok p design f.
Proof.
  intros p design f fd ff G5 Hfg Hwf Hfm Hdf. unfold factor_guard, kind_of in Hfg. unfold wf_derived, kind_of in Hwf. rewrite Hfm in Hfg, Hwf.
  destruct (pf_kind fd) as [ls|w levels|] eqn:Hk; [| |discriminate].
  - left. exists fd. split; [exact Hfm|]. unfold is_simple. rewrite Hk. reflexivity.
  - right. destruct (derived_factor_within p design fd w levels ff Hk Hdf) as [Hty [Hne' [Hdpos [Hdsimple [En _]]]]].
    rewrite En in Hwf. rewrite !andb_true_iff in Hfg. destruct Hfg as [[F1 F2] F3].
    apply andb_true_iff in Hwf. destruct Hwf as [W1 W2]. rewrite forallb_forall in W1, W2.
    exists fd, w, levels. constructor; [exact Hfm|exact Hk|exact Hty|exact Hne'| |apply nodup_nat_b'_sound; exact F3| |apply nodup_names_b'_sound; exact F2| |].
    + intros d Hd. pose proof (Hdpos d Hd) as Hdd. split; [apply Hdsimple; exact Hd|]. split; [exact Hdd|].
      exact (proj1 (guard_simple_names p d (G5 d Hdd) (Hdsimple d Hd))).
    + destruct levels; [discriminate|discriminate].
    + intros lev Hlev El e He. specialize (W1 lev Hlev). rewrite El in W1. cbn [orb] in W1. rewrite forallb_forall in W1. specialize (W1 e He).
      apply memb_entry_in in W1. apply in_map_iff in W1. destruct W1 as [combo [<- Hc]]. exists combo. split; [apply in_dep_product; exact Hc|reflexivity].
    + intros combo Hv. apply Nat.eqb_eq. apply W2. apply in_dep_product. exact Hv.
Qed.

Theorem derived_t2 : forall p ci fb ds,
  derived_input p = Some ci -> t2d_guard2 p = true -> create_flat ci = FOk fb -> doc_sem p = Ok ds ->
  sem_eqv_t (code_sem fb) (ds_sem ds).
Proof.
  intros p ci fb ds Hin Hg2 Hfb Hds. unfold t2d_guard2 in Hg2. apply andb_true_iff in Hg2. destruct Hg2 as [Hg Hg2].
  unfold t2d_guard in Hg. rewrite Hin in Hg. unfold derived_input in Hin.
  destruct (p_main p) as [design crossing cs rcc| | | |] eqn:Hmain; try discriminate.
  rewrite !andb_true_iff in Hg. destruct Hg as [[[[[[G1 G2] G3] G4] G5] _] [[G7 G8] _]].
  rewrite !andb_true_iff in Hg2. destruct Hg2 as [[X1 X2] X3].
  unfold derived_input_of in Hin.
  destruct (derived_factors p design) as [fds|] eqn:Hfds; [|discriminate].
  destruct (all_opt (map (fpos design) crossing)) as [cr|] eqn:Hcr; [|discriminate].
  destruct (all_opt (map (plain_constraint p design) cs)) as [ics|] eqn:Hics; [|discriminate].
  unfold derived_factors in Hfds. apply all_opt_some in Hfds. apply all_opt_some in Hics.
  destruct (plain_cr design crossing cr Hcr) as [-> Hincl].
  assert (HndD : NoDup design) by (apply nodup_nat_b'_sound; exact G1).
  assert (HndC : NoDup crossing) by (apply nodup_nat_b'_sound; exact G2).
  assert (Hne : crossing <> []) by (destruct crossing; [discriminate|discriminate]).
  rewrite forallb_forall in G5, X1, X3.
  assert (Hsimple_names : forall d, In d design -> simple_id p d -> NoDup (names_of p d) /\ 0 < List.length (names_of p d))
    by (intros d Hd; apply guard_simple_names, G5; exact Hd).
  assert (Hkinds : forall f, In f design -> simple_id p f \/ within_ok p design f).
  { intros f Hf. destruct (Forall2_nth_error_l _ _ _ _ _ Hfds (pos_nth_error design f Hf)) as [ff [_ H]].
    destruct (fm p f) as [fd| |] eqn:Hfm; try discriminate. exact (guard_kinds p design f fd ff G5 (G5 f Hf) (X3 f Hf) Hfm H). }
  (* the input record: the crossing is not empty, so its exclusion count is handed over *)
  destruct crossing as [|c0 cr0]; [congruence|]. injection Hin as <-. cbn [ci_errors_fail map] in G8.
  eapply (derived_sem_eqv p design (c0 :: cr0) cs rcc fds ics _ (derived_derivations fds _) _); try eassumption.
  - intros f Hf. split; [apply is_simple_id_prop; apply X1; exact Hf|exact (Hincl f Hf)].
  - eapply forallb_Forall; [|exact X2]. intros fn H. apply is_simple_id_prop. exact H.
  - intros d Hd Hs. rewrite <- (names_of_plevels p d Hs). apply (Hsimple_names d Hd Hs).
  - intros d Hd Hs. unfold nlv. rewrite <- (map_length fst). rewrite <- (names_of_plevels p d Hs). apply (Hsimple_names d Hd Hs).
  - apply simple_first_sorted. exact G4.
  - intro Hr. apply negb_true_iff in G8. apply orb_false_iff in G8. destruct G8 as [G8 _]. rewrite Hr in G8. cbn [andb] in G8.
    destruct (excluded_crossings _ _ _ _); [reflexivity|discriminate].
  - apply derivations_shape.
Qed.

Corollary derived_t2_valid : forall p ci fb ds,
  derived_input p = Some ci -> t2d_guard2 p = true -> create_flat ci = FOk fb -> doc_sem p = Ok ds ->
  forall s, valid_b (code_sem fb) s = valid_b (ds_sem ds) s.
Proof. intros p ci fb ds H1 H2 H3 H4. apply sem_eqv_t_valid. eapply derived_t2; eauto. Qed.
