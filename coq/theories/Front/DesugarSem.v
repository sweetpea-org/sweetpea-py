(** Weight desugaring in terms of the reference semantics (Design/Sem.v).

    A weighted non-derived factor that is in no crossing is replaced by a factor with one
    level per copy ([weight] copies of every level, Front/Desugar.v [flat_factor]); the
    hidden derived factor reports the original level of every copy.  In normal forms: the
    desugared design is [widen f (list_sum ws) S] - factor [f] with [list_sum ws] levels -
    and the copy-to-original map on sequences is [proj_seq f ws].  Here: a sequence of the
    desugared form is valid iff its image is valid (and its copies are in range), and every
    row of original levels has exactly (product of the chosen levels' weights) pre-images.
    This is what harness/props/c23.py search (b) tests with the twin program. *)
From Coq Require Import List Bool Arith Lia.
From SP Require Import Base.Lists Design.Sem Design.SemFacts Front.NestSem.
Import ListNotations.

(** copy index -> original level: level 0 [w0] times, level 1 [w1] times, ... *)
Definition expand_from (a : nat) (ws : list nat) : list nat :=
  flat_map (fun p => repeat (fst p) (snd p)) (combine (seq a (length ws)) ws).
Definition expand (ws : list nat) : list nat := expand_from 0 ws.
Definition orig (ws : list nat) (c : nat) : nat := nth c (expand ws) 0.

Fixpoint set_nth {A} (i : nat) (g : A -> A) (l : list A) : list A :=
  match l, i with
  | [], _ => []
  | x :: r, 0 => g x :: r
  | x :: r, Datatypes.S i' => x :: set_nth i' g r
  end.

(** the same normal form with [N] levels for factor [f] *)
Definition widen (f N : nat) (S : sem) : sem :=
  {| s_trials := s_trials S;
     s_factors := set_nth f (fun fd => {| f_nlevels := N; f_sustain := f_sustain fd; f_derived := f_derived fd |}) (s_factors S);
     s_crossings := s_crossings S; s_constraints := s_constraints S |}.

(** copies replaced by the original levels in row [f] *)
Definition proj_seq (f : nat) (ws : list nat) (s : tseq) : tseq :=
  set_nth f (map (option_map (orig ws))) s.

Definition in_range (N : nat) (row : list cell) : Prop := forall t c, nth t row None = Some c -> c < N.

(** [f] is a free factor of [S]: non-derived, sustain count 1, in no crossing, named by no
    constraint, read by no derived factor (and [S] has no LatinSquare constraint) *)
Definition not_latin (k : ckind) : bool := match k with KLatin _ _ _ _ => false | _ => true end.

Definition free_b (S : sem) (f : nat) : bool :=
  match nth_error (s_factors S) f with
  | Some fd => simple_factor_b fd
  | None => false
  end &&
  forallb (fun c => negb (existsb (Nat.eqb f) (c_factors c))) (s_crossings S) &&
  forallb (fun k => negb (k_factor k =? f) && not_latin (k_kind k)) (s_constraints S) &&
  forallb (fun fd => match f_derived fd with
                     | None => true
                     | Some w => negb (existsb (Nat.eqb f) (w_deps w))
                     end) (s_factors S).

Lemma set_nth_length : forall {A} i (g : A -> A) l, length (set_nth i g l) = length l.
Proof. intros A i g l. revert i. induction l as [|x l IH]; intros [|i]; cbn; auto. Qed.

Lemma set_nth_other : forall {A} i j (g : A -> A) l d, i <> j -> nth j (set_nth i g l) d = nth j l d.
Proof.
  intros A i j g l d. revert i j. induction l as [|x l IH]; intros [|i] [|j] H; cbn; try reflexivity; try lia.
  apply IH. lia.
Qed.

Lemma set_nth_same : forall {A} i (g : A -> A) l d, i < length l -> nth i (set_nth i g l) d = g (nth i l d).
Proof.
  intros A i g l d. revert i. induction l as [|x l IH]; intros [|i] H; cbn in *; try lia; try reflexivity.
  apply IH. lia.
Qed.

Lemma set_nth_error_other : forall {A} i j (g : A -> A) l, i <> j -> nth_error (set_nth i g l) j = nth_error l j.
Proof.
  intros A i j g l. revert i j. induction l as [|x l IH]; intros [|i] [|j] H; cbn; try reflexivity; try lia.
  apply IH. lia.
Qed.

Lemma set_nth_error_same : forall {A} i (g : A -> A) l, nth_error (set_nth i g l) i = option_map g (nth_error l i).
Proof.
  intros A i g l. revert i. induction l as [|x l IH]; intros [|i]; cbn; try reflexivity. apply IH.
Qed.

Lemma expand_from_cons : forall a w ws, expand_from a (w :: ws) = repeat a w ++ expand_from (Datatypes.S a) ws.
Proof. reflexivity. Qed.

Lemma expand_from_length : forall ws a, length (expand_from a ws) = list_sum ws.
Proof.
  induction ws as [|w ws IH]; intro a; [reflexivity|].
  rewrite expand_from_cons, app_length, repeat_length, IH. reflexivity.
Qed.

Lemma expand_from_bound : forall ws a x, In x (expand_from a ws) -> a <= x < a + length ws.
Proof.
  induction ws as [|w ws IH]; intros a x H; [destruct H|].
  rewrite expand_from_cons in H. apply in_app_or in H. destruct H as [H|H].
  - apply repeat_spec in H. subst. cbn. lia.
  - apply IH in H. cbn. lia.
Qed.

Lemma orig_lt : forall ws c, c < list_sum ws -> orig ws c < length ws.
Proof.
  intros ws c H. unfold orig, expand.
  assert (Hin : In (nth c (expand_from 0 ws) 0) (expand_from 0 ws)) by (apply nth_In; rewrite expand_from_length; exact H).
  apply expand_from_bound in Hin. lia.
Qed.

Lemma count_expand_from : forall ws a l,
  length (filter (fun x => x =? l) (expand_from a ws)) = if l <? a then 0 else nth (l - a) ws 0.
Proof.
  induction ws as [|w ws IH]; intros a l.
  - cbn [expand_from length seq combine flat_map filter]. destruct (l <? a); [reflexivity | destruct (l - a); reflexivity].
  - rewrite expand_from_cons, filter_app, app_length, count_repeat, IH.
    destruct (Nat.eqb_spec a l) as [E1|E1]; destruct (Nat.ltb_spec l (Datatypes.S a)) as [E2|E2];
      destruct (Nat.ltb_spec l a) as [E3|E3]; try lia.
    + replace (l - a) with 0 by lia. cbn [nth]. lia.
    + replace (l - a) with (Datatypes.S (l - Datatypes.S a)) by lia. cbn. reflexivity.
Qed.

Theorem copies_of_level : forall ws l,
  length (filter (fun c => orig ws c =? l) (seq 0 (list_sum ws))) = nth l ws 0.
Proof.
  intros ws l. unfold orig.
  rewrite <- (expand_from_length ws 0) at 1. fold (expand ws).
  rewrite <- (filter_map_length (fun c => nth c (expand ws) 0) (fun x => x =? l)).
  rewrite map_nth_seq. unfold expand. rewrite count_expand_from. cbn. rewrite Nat.sub_0_r. reflexivity.
Qed.

Lemma fibre_step : forall {A B} (P : B -> bool) (Q : A -> bool) (F : A -> list B) (k : nat) (L : list A),
  (forall w, length (filter P (F w)) = if Q w then k else 0) ->
  length (filter P (flat_map F L)) = k * length (filter Q L).
Proof.
  intros A B P Q F k L H. induction L as [|w L IH]; [cbn; lia|].
  cbn [flat_map filter]. rewrite filter_app, app_length, IH, H. destruct (Q w); cbn [length]; lia.
Qed.

Definition row_matches (ws : list nat) (r w : list nat) : bool := list_eqb Nat.eqb (map (orig ws) w) r.

Theorem row_fibre : forall ws r,
  length (filter (row_matches ws r) (all_words (list_sum ws) (length r)))
  = fold_right (fun l acc => nth l ws 0 * acc) 1 r.
Proof.
  intros ws r. induction r as [|l r IH]; [reflexivity|].
  cbn [length all_words fold_right].
  rewrite (fibre_step (row_matches ws (l :: r)) (row_matches ws r) _ (nth l ws 0)).
  - rewrite IH. reflexivity.
  - intro w. rewrite filter_map_length. unfold row_matches. cbn [map list_eqb].
    destruct (list_eqb Nat.eqb (map (orig ws) w) r).
    + rewrite <- (copies_of_level ws l). apply filter_ext_in_length. intros c _. rewrite andb_true_r. reflexivity.
    + rewrite (filter_const_length _ _ false); [reflexivity|]. intros c _. apply andb_false_r.
Qed.

Lemma set_nth_same_default : forall {A} i (g : A -> A) l d, g d = d -> nth i (set_nth i g l) d = g (nth i l d).
Proof.
  intros A i g l d Hd. revert i. induction l as [|x l IH]; intros [|i]; cbn; try (symmetry; exact Hd); try reflexivity.
  apply IH.
Qed.

Lemma get_cell_proj_other : forall f ws s g t, g <> f -> get_cell (proj_seq f ws s) g t = get_cell s g t.
Proof. intros. unfold get_cell, proj_seq. rewrite set_nth_other by congruence. reflexivity. Qed.

Lemma factor_ok_other : forall S f N ws s g fd,
  g <> f ->
  match f_derived fd with None => True | Some w => ~ In f (w_deps w) end ->
  factor_ok (widen f N S) s g fd = factor_ok S (proj_seq f ws s) g fd.
Proof.
  intros S f N ws s g fd Hg Hdeps. unfold factor_ok. cbn [widen s_trials].
  unfold proj_seq at 1. rewrite set_nth_other by congruence. f_equal.
  apply forallb_ext_in. intros t _. rewrite !get_cell_proj_other by exact Hg.
  destruct (get_cell s g t) as [l|]; [|reflexivity]. f_equal.
  destruct (f_derived fd) as [w|]; [|reflexivity]. f_equal.
  unfold window_args. apply map_ext_in. intros d Hd. apply map_ext. intro j.
  destruct (_ <=? _); [|reflexivity]. rewrite get_cell_proj_other; [reflexivity|]. intro E. subst. contradiction.
Qed.

Lemma crossing_ok_other : forall S f N ws s c,
  ~ In f (c_factors c) -> crossing_ok (widen f N S) s c = crossing_ok S (proj_seq f ws s) c.
Proof.
  intros S f N ws s c Hf. unfold crossing_ok. f_equal. cbn [widen s_trials].
  apply chunks_ok_ext; [reflexivity|]. intros g t Hg.
  symmetry. apply get_cell_proj_other. intro E. subst. contradiction.
Qed.

Lemma constraint_ok_other : forall S f N ws s k,
  k_factor k <> f -> not_latin (k_kind k) = true ->
  constraint_ok (widen f N S) s k = constraint_ok S (proj_seq f ws s) k.
Proof.
  intros S f N ws s k Hf Hl. unfold constraint_ok. unfold proj_seq. rewrite set_nth_other by congruence.
  cbn [widen s_trials s_factors]. rewrite set_nth_error_other by congruence.
  destruct (k_kind k); try reflexivity. discriminate.
Qed.

Lemma free_row : forall S f ws s fd,
  f_derived fd = None -> f_sustain fd = 1 -> length ws = f_nlevels fd ->
  (factor_ok (widen f (list_sum ws) S) s f {| f_nlevels := list_sum ws; f_sustain := f_sustain fd; f_derived := f_derived fd |} = true
   <-> factor_ok S (proj_seq f ws s) f fd = true /\ in_range (list_sum ws) (nth f s [])).
Proof.
  intros S f ws s fd Hd Hsu Hws.
  rewrite !factor_ok_simple by (cbn; exact Hd). cbn [f_nlevels f_sustain widen s_trials]. rewrite Hsu.
  assert (Hrow : nth f (proj_seq f ws s) [] = map (option_map (orig ws)) (nth f s [])).
  { unfold proj_seq. apply set_nth_same_default. reflexivity. }
  rewrite Hrow, map_length.
  assert (Hnth : forall t, nth t (map (option_map (orig ws)) (nth f s [])) None = option_map (orig ws) (nth t (nth f s []) None)).
  { intro t. apply (map_nth (option_map (orig ws)) (nth f s []) None t). }
  assert (Htriv : forall (s0 : tseq) t, get_cell s0 f t = get_cell s0 f (t / 1 * 1))
    by (intros; rewrite Nat.div_1_r, Nat.mul_1_r; reflexivity).
  split.
  - intros [Hlen [Hwf _]]. split.
    + split; [exact Hlen|]. split; [|intros; apply Htriv].
      intros t Ht. destruct (Hwf t Ht) as [c [Hc Hlt]]. exists (orig ws c). rewrite Hnth, Hc. split; [reflexivity|].
      rewrite <- Hws. apply orig_lt. exact Hlt.
    + intros t c Hc. destruct (Nat.lt_ge_cases t (s_trials S)) as [Ht|Ht].
      * destruct (Hwf t Ht) as [c' [Hc' Hlt]]. congruence.
      * rewrite nth_overflow in Hc by lia. discriminate.
  - intros [[Hlen [Hwf _]] Hr]. split; [exact Hlen|]. split; [|intros; apply Htriv].
    intros t Ht. destruct (Hwf t Ht) as [l [Hl _]]. rewrite Hnth in Hl.
    destruct (nth t (nth f s []) None) as [c|] eqn:E; [|discriminate].
    exists c. split; [reflexivity|]. apply (Hr t c). exact E.
Qed.

Lemma free_b_spec : forall S f,
  free_b S f = true ->
  (exists fd, nth_error (s_factors S) f = Some fd /\ f_derived fd = None /\ f_sustain fd = 1) /\
  (forall c, In c (s_crossings S) -> ~ In f (c_factors c)) /\
  (forall k, In k (s_constraints S) -> k_factor k <> f /\ not_latin (k_kind k) = true) /\
  (forall fd, In fd (s_factors S) -> match f_derived fd with None => True | Some w => ~ In f (w_deps w) end).
Proof.
  intros S f H. unfold free_b in H. rewrite !andb_true_iff in H. destruct H as [[[H1 H2] H3] H4].
  rewrite forallb_forall in H2, H3, H4.
  assert (Hnotin : forall l, existsb (Nat.eqb f) l = false -> ~ In f l).
  { intros l E Hin. apply existsb_eqb_In in Hin. congruence. }
  split; [|split; [|split]].
  - destruct (nth_error (s_factors S) f) as [fd|]; [|discriminate]. exists fd. split; [reflexivity|].
    apply simple_factor_b_spec. exact H1.
  - intros c Hc. apply Hnotin. specialize (H2 c Hc). apply negb_true_iff in H2. exact H2.
  - intros k Hk. specialize (H3 k Hk). rewrite andb_true_iff in H3. destruct H3 as [Ha Hb]. split; [|exact Hb].
    apply negb_true_iff in Ha. apply Nat.eqb_neq in Ha. exact Ha.
  - intros fd Hfd. specialize (H4 fd Hfd). destruct (f_derived fd) as [w|]; [|exact I].
    apply Hnotin. apply negb_true_iff in H4. exact H4.
Qed.

Theorem desugared_valid : forall S f ws s fd,
  free_b S f = true -> nth_error (s_factors S) f = Some fd -> length ws = f_nlevels fd ->
  (valid_b (widen f (list_sum ws) S) s = true <->
   valid_b S (proj_seq f ws s) = true /\ in_range (list_sum ws) (nth f s [])).
Proof.
  intros S f ws s fd Hfree Hfd Hws.
  destruct (free_b_spec S f Hfree) as [[fd0 [Hfd0 [Hd Hsu]]] [HX [HK HD]]].
  rewrite Hfd in Hfd0. inversion Hfd0; subst fd0. clear Hfd0.
  rewrite !valid_b_conj. cbn [widen s_factors s_crossings s_constraints].
  unfold proj_seq at 1. rewrite !set_nth_length, !forallb_index_list.
  rewrite (forallb_ext_in (crossing_ok _ s) (crossing_ok S (proj_seq f ws s)))
    by (intros c Hin; apply crossing_ok_other, HX, Hin).
  rewrite (forallb_ext_in (constraint_ok _ s) (constraint_ok S (proj_seq f ws s)))
    by (intros k Hin; destruct (HK k Hin); apply constraint_ok_other; assumption).
  set (h := fun fd1 : dfactor => {| f_nlevels := list_sum ws; f_sustain := f_sustain fd1; f_derived := f_derived fd1 |}).
  assert (EF : forall g fdg, nth_error (s_factors S) g = Some fdg -> g <> f ->
            factor_ok (widen f (list_sum ws) S) s g fdg = factor_ok S (proj_seq f ws s) g fdg)
    by (intros g fdg Hg Hne; apply factor_ok_other; [exact Hne | apply HD; exact (nth_error_In _ _ Hg)]).
  pose proof (free_row S f ws s fd Hd Hsu Hws) as Hrow.
  enough (HF : (forall g fdg, nth_error (set_nth f h (s_factors S)) g = Some fdg ->
                  factor_ok (widen f (list_sum ws) S) s g fdg = true) <->
               (forall g fdg, nth_error (s_factors S) g = Some fdg -> factor_ok S (proj_seq f ws s) g fdg = true) /\
               in_range (list_sum ws) (nth f s [])) by (rewrite HF; tauto).
  split.
  - intro Hf. assert (Hown := Hf f (h fd)). rewrite set_nth_error_same, Hfd in Hown.
    apply Hrow in Hown; [|reflexivity]. split; [|apply Hown].
    intros g fdg Hg. destruct (Nat.eq_dec g f) as [->|Hne].
    + rewrite Hfd in Hg. inversion Hg; subst. apply Hown.
    + rewrite <- EF by assumption. apply Hf. rewrite set_nth_error_other by congruence. exact Hg.
  - intros [Hf Hrange] g fdg Hg. destruct (Nat.eq_dec g f) as [->|Hne].
    + rewrite set_nth_error_same, Hfd in Hg. cbn in Hg. inversion Hg; subst fdg.
      apply Hrow. split; [apply Hf; exact Hfd | exact Hrange].
    + rewrite set_nth_error_other in Hg by congruence. rewrite EF by assumption. exact (Hf g fdg Hg).
Qed.

Lemma all_words_spec : forall nl len w, In w (all_words nl len) -> length w = len /\ forall x, In x w -> x < nl.
Proof.
  intros nl len. induction len as [|len IH]; intros w H.
  - cbn in H. destruct H as [<-|[]]. split; [reflexivity | intros x []].
  - cbn [all_words] in H. apply in_flat_map in H. destruct H as [w0 [Hw0 H]].
    apply in_map_iff in H. destruct H as [l [<- Hl]]. apply in_seq in Hl.
    destruct (IH w0 Hw0) as [H1 H2]. split; [cbn; lia|]. intros x [<-|Hx]; [lia | apply H2; exact Hx].
Qed.

Lemma list_eqb_nat_eq : forall a b : list nat, list_eqb Nat.eqb a b = true <-> a = b.
Proof. apply list_eqb_iff. exact Nat.eqb_eq. Qed.

Lemma set_nth_set_nth : forall {A} i (g h : A -> A) l, set_nth i g (set_nth i h l) = set_nth i (fun x => g (h x)) l.
Proof. intros A i g h l. revert i. induction l as [|x l IH]; intros [|i]; cbn; try reflexivity. rewrite IH. reflexivity. Qed.

Lemma set_nth_const_same : forall {A} i (l : list A) d, i < length l -> set_nth i (fun _ => nth i l d) l = l.
Proof.
  intros A i l d. revert i. induction l as [|x l IH]; intros [|i] H; cbn in *; try lia; try reflexivity.
  f_equal. apply IH. lia.
Qed.

Lemma set_nth_ext_at : forall {A} i (g h : A -> A) l, (forall x, g x = h x) -> set_nth i g l = set_nth i h l.
Proof. intros A i g h l H. revert i. induction l as [|x l IH]; intros [|i]; cbn; try reflexivity; [rewrite H|rewrite IH]; reflexivity. Qed.

(** [s] valid in the original form, with row [map Some r] for the free factor [f]; the sequences
    over [s] are those whose row for [f] is a word [w] of copies with [map (orig ws) w = r] *)
Definition with_row (f : nat) (w : list nat) (s : tseq) : tseq := set_nth f (fun _ => map Some w) s.

Theorem desugared_fibre : forall S f ws s fd r w,
  free_b S f = true -> nth_error (s_factors S) f = Some fd -> length ws = f_nlevels fd ->
  valid_b S s = true -> f < length s -> nth f s [] = map Some r ->
  In w (all_words (list_sum ws) (length r)) ->
  (proj_seq f ws (with_row f w s) = s /\ valid_b (widen f (list_sum ws) S) (with_row f w s) = true
   <-> row_matches ws r w = true).
Proof.
  intros S f ws s fd r w Hfree Hfd Hws Hval Hf Hrow Hw.
  destruct (all_words_spec _ _ _ Hw) as [Hlen Hlt].
  assert (Hproj : proj_seq f ws (with_row f w s) = set_nth f (fun _ => map Some (map (orig ws) w)) s).
  { unfold proj_seq, with_row. rewrite set_nth_set_nth. apply set_nth_ext_at. intros _.
    rewrite !map_map. reflexivity. }
  unfold row_matches. rewrite list_eqb_nat_eq. split.
  - intros [Hp _]. rewrite Hproj in Hp.
    assert (E : nth f (set_nth f (fun _ => map Some (map (orig ws) w)) s) [] = nth f s []) by (rewrite Hp; reflexivity).
    rewrite set_nth_same in E by exact Hf. rewrite Hrow in E.
    clear -E. revert r E. induction (map (orig ws) w) as [|x l IH]; intros [|y r] E; cbn in E; try discriminate; [reflexivity|].
    inversion E; subst. f_equal. apply IH. assumption.
  - intro E. assert (Hp : proj_seq f ws (with_row f w s) = s).
    { rewrite Hproj, E, <- Hrow. apply set_nth_const_same. exact Hf. }
    split; [exact Hp|].
    apply (proj2 (desugared_valid S f ws (with_row f w s) fd Hfree Hfd Hws)). split.
    + rewrite Hp. exact Hval.
    + unfold with_row. rewrite set_nth_same by exact Hf. unfold in_range. intros t c Hc. cbn beta in Hc.
      destruct (Nat.lt_ge_cases t (length w)) as [Ht|Ht].
      * pose proof (nth_map_lt (@Some nat) w t None 0 Ht) as Hx.
        assert (Hc' : Some c = Some (nth t w 0)) by (rewrite <- Hx; symmetry; exact Hc).
        inversion Hc'; subst. apply Hlt. apply nth_In. exact Ht.
      * rewrite nth_overflow in Hc by (rewrite map_length; lia). discriminate.
Qed.

Definition ex_orig_sem : sem :=
  {| s_trials := 2;
     s_factors := [{| f_nlevels := 2; f_sustain := 1; f_derived := None |}; {| f_nlevels := 2; f_sustain := 1; f_derived := None |}];
     s_crossings := [{| c_factors := [1]; c_first := 0; c_chunk := 2; c_mult := [([0], 1); ([1], 1)] |}];
     s_constraints := [] |}.

(** 4 rows for W x 2 orders of B = 8 valid sequences; the desugared form (3 copies) has 9 x 2 = 18:
    every sequence with W = w0,w0 has 2 x 2 = 4 pre-images, w0,w1 and w1,w0 have 2, w1,w1 has 1 *)
Lemma ex_free : free_b ex_orig_sem 0 = true /\
  length (all_valid ex_orig_sem) = 8 /\ length (all_valid (widen 0 (list_sum [2; 1]) ex_orig_sem)) = 18 /\
  map (orig [2; 1]) [0; 1; 2] = [0; 0; 1] /\
  length (filter (row_matches [2; 1] [0; 0]) (all_words 3 2)) = 4 /\
  length (filter (row_matches [2; 1] [0; 1]) (all_words 3 2)) = 2 /\
  length (filter (row_matches [2; 1] [1; 1]) (all_words 3 2)) = 1.
Proof. rewrite !all_valid_fast. vm_compute. repeat split. Qed.
