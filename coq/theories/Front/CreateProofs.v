(** Proofs about Front/Create.v: the documented block-combinator equivalences at
    the level of the arguments handed to [_create]. *)
From Coq Require Import ZArith List Bool Arith Lia Permutation.
From SP Require Import Base.Lists Design.Flat Design.Layout Front.Trials Front.Create.
Import ListNotations.

Lemma mem_true_iff : forall f l, mem f l = true <-> In f l.
Proof. intros f l. apply existsb_eqb_In. Qed.

Lemma mem_false_iff : forall f l, mem f l = false <-> ~ In f l.
Proof. intros f l. rewrite <- mem_true_iff. symmetry. apply Bool.not_true_iff_false. Qed.

Lemma add_new_nodup : forall d acc, NoDup (acc ++ d) -> add_new acc d = acc ++ d.
Proof.
  unfold add_new. induction d as [|f d IH]; intros acc H; cbn [fold_left].
  - rewrite app_nil_r. reflexivity.
  - assert (Hf : mem f acc = false).
    { apply mem_false_iff. intro Hin. apply NoDup_remove_2 in H. apply H. apply in_or_app. left. assumption. }
    rewrite Hf. rewrite IH.
    + rewrite <- app_assoc. reflexivity.
    + rewrite <- app_assoc. exact H.
Qed.

Lemma add_new_subset : forall fs d, (forall f, In f fs -> In f d) -> add_new d fs = d.
Proof.
  unfold add_new. induction fs as [|f fs IH]; intros d H; cbn [fold_left]; [reflexivity|].
  assert (Hf : mem f d = true) by (apply mem_true_iff; apply H; left; reflexivity).
  rewrite Hf. apply IH. intros g Hg. apply H. right. assumption.
Qed.

Lemma add_new_nil : forall d, NoDup d -> add_new [] d = d.
Proof. intros d H. apply (add_new_nodup d []). exact H. Qed.

Theorem cross_eq_multicross_weight : forall design crossing cs rcc,
  create_of (BCross design crossing cs rcc) = create_of (BMulti design [crossing] cs rcc MWeight EqualPreamble).
Proof. reflexivity. Qed.

Definition same_but_constraints (a b : create_args) : Prop :=
  ca_design a = ca_design b /\ ca_crossings a = ca_crossings b /\ ca_sustains a = ca_sustains b /\
  ca_weights a = ca_weights b /\ ca_rcc a = ca_rcc b /\ ca_mode a = ca_mode b /\ ca_alignment a = ca_alignment b.

(** the block was built without weight desugaring: its design and crossings are
    the ones it was given ([orig_design], [orig_crossings]) *)
Definition not_desugared (b : binfo) : Prop :=
  bi_design b = bi_orig_design b /\ bi_crossings b = bi_orig_crossings b.

(** one sustain count and one weight per crossing (no empty crossing was dropped by [_create]) *)
Definition aligned (b : binfo) : Prop :=
  length (bi_sustains b) = length (bi_crossings b) /\ length (bi_weights b) = length (bi_crossings b).

Theorem repeat_eq_merge : forall b cs,
  bi_multicross b = true -> bi_alignment b = EqualPreamble -> not_desugared b -> aligned b -> NoDup (bi_design b) ->
  exists r m,
    create_of (BRepeat b cs) = COk r /\
    create_of (BMerge [b] cs MRepeat (Some EqualPreamble)) = COk m /\
    same_but_constraints r m /\
    Permutation (ca_constraints r) (ca_constraints m).
Proof.
  intros b cs Hmc Hal [Hd Hc] [Hl1 Hl2] Hnd. cbn [create_of]. unfold create_repeat, create_merge.
  rewrite Hmc. cbn [negb forallb]. rewrite Hal. cbn [alignment_eqb andb negb].
  eexists. eexists. split; [reflexivity|]. split; [reflexivity|]. split.
  - unfold same_but_constraints. cbn [ca_design ca_crossings ca_sustains ca_weights ca_rcc ca_mode ca_alignment
                                      fold_left flat_map forallb].
    rewrite !app_nil_r, andb_true_r. rewrite add_new_nil by assumption.
    rewrite <- Hl1 at 1. rewrite <- Hl2. rewrite !firstn_all.
    repeat split; congruence.
  - cbn [ca_constraints from_blocks]. rewrite app_nil_r. apply Permutation_app_comm.
Qed.

(** Where the block is not aligned EQUAL_PREAMBLE the two sides differ: Repeat builds
    (switching to EQUAL_PREAMBLE), the documented Merge call is rejected. *)
Theorem repeat_merge_alignment : forall b cs,
  bi_multicross b = true -> bi_alignment b <> EqualPreamble ->
  (exists r, create_of (BRepeat b cs) = COk r /\ ca_alignment r = EqualPreamble) /\
  create_of (BMerge [b] cs MRepeat (Some EqualPreamble)) = CErr EMergeAlignment.
Proof.
  intros b cs Hmc Hal. split.
  - cbn [create_of]. unfold create_repeat. rewrite Hmc. cbn [negb]. eexists. split; reflexivity.
  - cbn [create_of]. unfold create_merge. cbn [forallb].
    destruct (bi_alignment b); cbn; congruence.
Qed.

Theorem repeat_nil : forall b,
  bi_multicross b = true ->
  create_of (BRepeat b []) =
  COk {| ca_design := bi_orig_design b; ca_crossings := bi_orig_crossings b; ca_sustains := bi_sustains b;
         ca_weights := bi_weights b; ca_constraints := from_block 0 b; ca_rcc := bi_rcc b;
         ca_mode := MRepeat; ca_alignment := EqualPreamble |}.
Proof.
  intros b H. cbn [create_of]. unfold create_repeat. rewrite H. cbn [negb own map]. rewrite app_nil_r. reflexivity.
Qed.

Theorem merge_singleton : forall b mode,
  NoDup (bi_design b) ->
  create_of (BMerge [b] [] mode None) =
  COk {| ca_design := bi_design b; ca_crossings := bi_crossings b;
         ca_sustains := firstn (length (bi_crossings b)) (bi_sustains b);
         ca_weights := firstn (length (bi_crossings b)) (bi_weights b);
         ca_constraints := from_block 0 b; ca_rcc := bi_rcc b;
         ca_mode := mode; ca_alignment := bi_alignment b |}.
Proof.
  intros b mode Hnd. cbn [create_of]. unfold create_merge. cbn [forallb].
  assert (Hal : alignment_eqb (bi_alignment b) (bi_alignment b) = true) by (destruct (bi_alignment b); reflexivity).
  rewrite Hal. cbn [andb negb fold_left flat_map own map from_blocks app]. rewrite !app_nil_r, andb_true_r.
  rewrite add_new_nil by assumption. reflexivity.
Qed.

(** For a block that [_create] built from arguments [a] without weight desugaring
    (final weights [ws]): [Repeat(block, [])] hands [_create] the same design,
    (normalised) crossings, sustain counts, rcc and constraints, the block's *final*
    weights, mode REPEAT (which keeps them: [model_weights_repeat]) and EQUAL_PREAMBLE. *)
Theorem repeat_nil_of_create : forall a ocs T P ws,
  exists r, create_of (BRepeat (binfo_of_create true a ocs T P ws) []) = COk r /\
    ca_design r = ca_design a /\ ca_crossings r = norm_crossings a /\ norm_crossings r = norm_crossings a /\
    ca_sustains r = ca_sustains a /\ ca_rcc r = ca_rcc a /\ map snd (ca_constraints r) = ocs /\
    ca_weights r = ws /\ ca_mode r = MRepeat /\ ca_alignment r = EqualPreamble.
Proof.
  intros a ocs T P ws. rewrite repeat_nil by reflexivity. eexists. split; [reflexivity|].
  cbn [ca_design ca_crossings ca_sustains ca_weights ca_constraints ca_rcc ca_mode ca_alignment binfo_of_create
       bi_orig_design bi_orig_crossings bi_sustains bi_weights bi_rcc].
  repeat split.
  - unfold norm_crossings at 1. cbn [ca_crossings]. unfold norm_crossings. apply filter_idem.
  - unfold from_block. cbn [bi_orig_constraints]. rewrite map_map. cbn [snd]. apply map_id.
Qed.

(** Merge([block]) of such a block: the same arguments with the final weights
    (and the given mode; the block's own alignment). *)
Theorem merge_singleton_of_create : forall a ocs T P ws mode,
  NoDup (ca_design a) ->
  exists m, create_of (BMerge [binfo_of_create true a ocs T P ws] [] mode None) = COk m /\
    ca_design m = ca_design a /\ ca_crossings m = norm_crossings a /\
    ca_sustains m = firstn (length (norm_crossings a)) (ca_sustains a) /\ ca_rcc m = ca_rcc a /\
    map snd (ca_constraints m) = ocs /\
    ca_weights m = firstn (length (norm_crossings a)) ws /\ ca_mode m = mode /\ ca_alignment m = ca_alignment a.
Proof.
  intros a ocs T P ws mode Hnd. rewrite merge_singleton by exact Hnd. eexists. split; [reflexivity|].
  cbn [ca_design ca_crossings ca_sustains ca_weights ca_constraints ca_rcc ca_mode ca_alignment binfo_of_create
       bi_design bi_crossings bi_sustains bi_weights bi_rcc bi_alignment].
  repeat split.
  unfold from_block. cbn [bi_orig_constraints]. rewrite map_map. cbn [snd]. apply map_id.
Qed.

(** * The constraints of the created block: [_create] initialises private copies

    [_create] never changes the constraint objects it is handed (/repo commit 88b3d0f); the block's
    [orig_constraints] are copies whose [within_block] is set to the block's geometry where it was None.
    So the constraints [Repeat(b, [])] / [Merge([b])] hand on ([created_constraints g a], carrying b's
    geometry [g]) differ from the ones b itself was handed ([ca_constraints a]) exactly in the entries
    that carried no geometry yet - and the blocks built from them have the same [orig_constraints],
    whatever geometry [g'] the new block has. *)

(** the three cases in one statement: every field but [within_block] is kept, and [within_block]
    changes only from None to [g], only for the classes that have [init_within_block] *)
Theorem init_within_block_spec : forall g c,
  c_id (init_within_block g c) = c_id c /\ c_kind (init_within_block g c) = c_kind c /\
  c_param (init_within_block g c) = c_param c /\
  c_wb (init_within_block g c) =
    match c_wb c with
    | Some h => Some h
    | None => if has_within_block (c_kind c) then Some g else None
    end.
Proof.
  intros g c. unfold init_within_block.
  destruct (has_within_block (c_kind c)) eqn:K; destruct (c_wb c) eqn:W; cbn [c_id c_kind c_param c_wb];
    repeat split; try reflexivity; exact W.
Qed.

Lemma init_within_block_again : forall g g' c, init_within_block g' (init_within_block g c) = init_within_block g c.
Proof.
  intros g g' c. unfold init_within_block.
  destruct (has_within_block (c_kind c)) eqn:K, (c_wb c) eqn:W; cbn [c_kind c_wb]; rewrite ?K, ?W; reflexivity.
Qed.

(** a block built from the initialised copies initialises nothing further *)
Lemma created_constraints_again : forall g g' a r,
  map snd (ca_constraints r) = created_constraints g a -> created_constraints g' r = created_constraints g a.
Proof.
  intros g g' a r H. unfold created_constraints at 1. rewrite <- map_map with (f := snd) (g := init_within_block g').
  rewrite H. unfold created_constraints. rewrite map_map.
  apply map_ext. intro oc. apply init_within_block_again.
Qed.

Lemma created_constraints_length : forall g a, length (created_constraints g a) = length (ca_constraints a).
Proof. intros. unfold created_constraints. apply map_length. Qed.

(** [Repeat(b, [])] for the block b that [_create] built from [a] (geometry [g]): as [repeat_nil_of_create],
    and the constraints handed on are b's initialised copies; the new block's own [orig_constraints]
    are b's, whatever its geometry [g'] *)
Theorem repeat_nil_of_created : forall a g T P ws,
  exists r, create_of (BRepeat (block_of_create true a g T P ws) []) = COk r /\
    ca_design r = ca_design a /\ ca_crossings r = norm_crossings a /\ norm_crossings r = norm_crossings a /\
    ca_sustains r = ca_sustains a /\ ca_rcc r = ca_rcc a /\
    map snd (ca_constraints r) = map (init_within_block g) (map snd (ca_constraints a)) /\
    ca_weights r = ws /\ ca_mode r = MRepeat /\ ca_alignment r = EqualPreamble /\
    forall g', created_constraints g' r = created_constraints g a.
Proof.
  intros a g T P ws. unfold block_of_create.
  destruct (repeat_nil_of_create a (created_constraints g a) T P ws) as [r [Hr [H1 [H2 [H3 [H4 [H5 [H6 [H7 [H8 H9]]]]]]]]]].
  exists r. split; [exact Hr|]. repeat (split; [assumption|]).
  split; [rewrite H6; unfold created_constraints; rewrite map_map; reflexivity|].
  repeat (split; [assumption|]).
  intro g'. apply created_constraints_again. exact H6.
Qed.

Theorem merge_singleton_of_created : forall a g T P ws mode,
  NoDup (ca_design a) ->
  exists m, create_of (BMerge [block_of_create true a g T P ws] [] mode None) = COk m /\
    ca_design m = ca_design a /\ ca_crossings m = norm_crossings a /\
    ca_sustains m = firstn (length (norm_crossings a)) (ca_sustains a) /\ ca_rcc m = ca_rcc a /\
    map snd (ca_constraints m) = map (init_within_block g) (map snd (ca_constraints a)) /\
    ca_weights m = firstn (length (norm_crossings a)) ws /\ ca_mode m = mode /\ ca_alignment m = ca_alignment a /\
    forall g', created_constraints g' m = created_constraints g a.
Proof.
  intros a g T P ws mode Hnd. unfold block_of_create.
  destruct (merge_singleton_of_create a (created_constraints g a) T P ws mode Hnd) as [m [Hm [H1 [H2 [H3 [H4 [H5 [H6 [H7 H8]]]]]]]]].
  exists m. split; [exact Hm|]. repeat (split; [assumption|]).
  split; [rewrite H5; unfold created_constraints; rewrite map_map; reflexivity|].
  repeat (split; [assumption|]).
  intro g'. apply created_constraints_again. exact H5.
Qed.

(** a user's Pin and MinimumTrials given to a CrossBlock of 4 trials, then [Repeat(block, [])]: the block
    is handed the objects without geometry, Repeat hands on the block's copies - the Pin with the geometry
    of the 4 trials *)
Definition ex_geometry : geometry := {| g_trials := 4; g_preamble := 0; g_sustain := [(0, 1); (1, 1)] |}.
Definition ex_pin : cinfo := {| c_id := 0; c_kind := KPin; c_param := (-1)%Z; c_wb := None |}.
Definition ex_mint : cinfo := {| c_id := 1; c_kind := KMinimumTrials; c_param := 3%Z; c_wb := None |}.
Definition ex_pin_block : binfo :=
  block_of_create true (create_cross [0; 1] [0; 1] [ex_pin; ex_mint] true) ex_geometry 4 0 [1%Z].

Lemma ex_pin_repeat :
  ca_constraints (create_cross [0; 1] [0; 1] [ex_pin; ex_mint] true) = [(OOwn, ex_pin); (OOwn, ex_mint)] /\
  exists r, create_of (BRepeat ex_pin_block []) = COk r /\
    ca_constraints r = [(OBlock 0, {| c_id := 0; c_kind := KPin; c_param := (-1)%Z; c_wb := Some ex_geometry |});
                        (OBlock 0, ex_mint)].
Proof. split; [reflexivity|]. eexists. split; reflexivity. Qed.

(** what [CrossBlock(design, c, [], rcc)] is after [_create], absent weight
    desugaring: trial count [T], common preamble [P], final weight 1
    (Front/TrialsProofs.v, [single_crossing_weight_one]) *)
Definition cross_leaf (design c : list nat) (rcc : bool) (T P : nat) : binfo :=
  binfo_of_create true (create_cross design c [] rcc) [] T P [1%Z].

Definition is_cross_leaf (design : list nat) (rcc : bool) (c : list nat) (b : binfo) : Prop :=
  exists T P, b = cross_leaf design c rcc T P.

Lemma leaves_fields : forall design rcc crossings leaves,
  Forall2 (is_cross_leaf design rcc) crossings leaves ->
  flat_map bi_crossings leaves = filter nonempty crossings /\
  flat_map (fun b => firstn (length (bi_crossings b)) (bi_sustains b)) leaves = ones (filter nonempty crossings) /\
  flat_map (fun b => firstn (length (bi_crossings b)) (bi_weights b)) leaves = onesZ (filter nonempty crossings) /\
  (forall i, from_blocks i leaves = []) /\
  forallb (fun b => alignment_eqb (bi_alignment b) EqualPreamble) leaves = true /\
  (forall b, In b leaves -> bi_design b = design /\ bi_rcc b = rcc).
Proof.
  intros design rcc crossings leaves H. induction H as [|c0 b0 cr0 lv0 [T [P Hb]] H0 IH].
  - split; [|split; [|split; [|split; [|split]]]]; try reflexivity. intros b [].
  - destruct IH as [I1 [I2 [I3 [I4 [I5 I6]]]]]. subst b0.
    split; [|split; [|split; [|split; [|split]]]].
    1-3: cbn [flat_map]; rewrite ?I1, ?I2, ?I3; unfold cross_leaf, binfo_of_create, norm_crossings, create_cross;
      cbn [bi_crossings bi_sustains bi_weights ca_crossings ca_sustains filter]; destruct (nonempty c0); reflexivity.
    + intro i. cbn [from_blocks]. rewrite I4. reflexivity.
    + cbn [forallb]. rewrite I5. reflexivity.
    + intros b [<-|Hin]; [split; reflexivity | apply I6; assumption].
Qed.

Lemma fold_add_new_same : forall design leaves,
  (forall b, In b leaves -> bi_design b = design) ->
  forall acc, (acc = design \/ (acc = [] /\ leaves <> [])) -> NoDup design ->
  fold_left (fun d b => add_new d (bi_design b)) leaves acc = design.
Proof.
  intros design leaves. induction leaves as [|b leaves IH]; intros Hall acc Hacc Hnd; cbn [fold_left].
  - destruct Hacc as [->|[_ H]]; [reflexivity | congruence].
  - rewrite (Hall b (or_introl eq_refl)). apply IH.
    + intros b' Hb'. apply Hall. right. assumption.
    + left. destruct Hacc as [->|[-> _]].
      * apply add_new_subset. auto.
      * apply add_new_nil. assumption.
    + assumption.
Qed.

Theorem multicross_eq_merge : forall design crossings cs rcc mode leaves,
  NoDup design -> crossings <> [] ->
  Forall2 (is_cross_leaf design rcc) crossings leaves ->
  exists m,
    create_of (BMerge leaves cs mode (Some EqualPreamble)) = COk m /\
    let a := create_multi design crossings cs rcc mode EqualPreamble in
    ca_design m = ca_design a /\
    ca_crossings m = norm_crossings a /\ norm_crossings m = norm_crossings a /\
    ca_sustains m = ones (norm_crossings a) /\ ca_sustains a = ones (ca_crossings a) /\
    ca_weights m = onesZ (norm_crossings a) /\ ca_weights a = onesZ (ca_crossings a) /\
    ca_constraints m = ca_constraints a /\ ca_rcc m = ca_rcc a /\
    ca_mode m = ca_mode a /\ ca_alignment m = ca_alignment a.
Proof.
  intros design crossings cs rcc mode leaves Hnd Hne HF.
  destruct (leaves_fields _ _ _ _ HF) as [I1 [I2 [I3 [I4 [I5 I6]]]]].
  assert (Hl : leaves <> []) by (inversion HF; subst; congruence).
  cbn [create_of]. unfold create_merge. destruct leaves as [|b0 leaves'] eqn:El; [congruence|]. rewrite <- El in *.
  rewrite I5. cbn [negb]. eexists. split; [reflexivity|].
  cbn [ca_design ca_crossings ca_sustains ca_weights ca_constraints ca_rcc ca_mode ca_alignment create_multi].
  repeat split.
  - apply fold_add_new_same; [intros b Hb; apply I6; assumption | right; split; [reflexivity|assumption] | assumption].
  - rewrite I1. reflexivity.
  - unfold norm_crossings. cbn [ca_crossings]. rewrite I1. apply filter_idem.
  - exact I2.
  - exact I3.
  - rewrite I4. apply app_nil_r.
  - destruct rcc.
    + apply forallb_forall. intros b Hb. apply I6. assumption.
    + rewrite El. cbn [forallb]. destruct (I6 b0) as [_ Hr]; [rewrite El; left; reflexivity|]. rewrite Hr. reflexivity.
Qed.

(** For any other alignment the documented Merge call is rejected, because a
    CrossBlock is always aligned EQUAL_PREAMBLE (while MultiCrossBlock accepts it). *)
Theorem multicross_merge_alignment : forall design crossings cs rcc mode al leaves,
  crossings <> [] -> al <> EqualPreamble ->
  Forall2 (is_cross_leaf design rcc) crossings leaves ->
  create_of (BMerge leaves cs mode (Some al)) = CErr EMergeAlignment.
Proof.
  intros design crossings cs rcc mode al leaves Hne Hal HF.
  inversion HF as [|c b cr lv [T [P Hb]] HF']; subst; [congruence|].
  cbn [create_of]. unfold create_merge. cbn [forallb cross_leaf binfo_of_create bi_alignment create_cross ca_alignment].
  destruct al; cbn; congruence.
Qed.

Definition set_alignment (fb : flat) (a : alignment) : flat :=
  {| fl_design := fl_design fb; fl_act := fl_act fb; fl_crossings := fl_crossings fb; fl_sustains := fl_sustains fb;
     fl_weights := fl_weights fb; fl_sizes := fl_sizes fb; fl_preambles := fl_preambles fb; fl_alignment := a;
     fl_alignment_preamble := fl_alignment_preamble fb; fl_min_trials := fl_min_trials fb; fl_trials := fl_trials fb;
     fl_rcc := fl_rcc fb; fl_exclude := fl_exclude fb; fl_excluded_derived := fl_excluded_derived fb;
     fl_constraints := fl_constraints fb; fl_errors_fail := fl_errors_fail fb |}.

Lemma model_trials_alignment : forall fb a,
  fl_alignment fb <> PostPreamble -> a <> PostPreamble ->
  model_trials (set_alignment fb a) = model_trials fb /\
  model_preambles (set_alignment fb a) = model_preambles fb /\
  model_min_trials (set_alignment fb a) = model_min_trials fb.
Proof.
  intros fb a H1 H2. destruct fb as [d ac cr su we si pr al ap mt tr rc ex ed co er]. cbn in H1.
  destruct al; [congruence| |]; destruct a; try congruence; repeat split; reflexivity.
Qed.

(** CrossBlock([0,1],[0],[]) and CrossBlock([0,1],[1],[]) after [_create] (2 and 3 trials) *)
Definition ex_leaf0 : binfo := cross_leaf [0; 1] [0] true 2 0.
Definition ex_leaf1 : binfo := cross_leaf [0; 1] [1] true 3 0.

Lemma ex_leaves : Forall2 (is_cross_leaf [0; 1] true) [[0]; [1]] [ex_leaf0; ex_leaf1].
Proof. repeat constructor; eexists; eexists; reflexivity. Qed.

Lemma ex_nodup : NoDup [0; 1].
Proof. repeat constructor; cbn; intuition discriminate. Qed.

(** a MultiCrossBlock([0,1],[[0],[1]],[],mode=REPEAT) after [_create], as the argument of Repeat / Merge *)
Definition ex_multi_block (al : alignment) : binfo :=
  binfo_of_create true (create_multi [0; 1] [[0]; [1]] [] true MRepeat al) [] 3 0 [1%Z; 1%Z].
