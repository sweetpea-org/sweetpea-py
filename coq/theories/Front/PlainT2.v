(** What [plain_input] produces, and the index set of level tuples over which both sides of the tie
    T2(c)/T2(d) range.

    For a program [PCross design crossing cs rcc] of plain factors:
    [fds = map mkff design], [cr = map pos crossing]; the level tuples of the crossing
    [IP = DocSem.product (seq 0 n_f | f in crossing)] index the code's [crossing_combos], the
    documented combinations (by level names) and the weight tuples alike. *)
From Coq Require Import ZArith List Bool Arith Lia String.
From SP Require Import Base.Lists Design.Flat Design.DocSem Design.DocSemPlain Design.ListSums Front.CreateFlat
     Front.PlainInput.
Import ListNotations.
Local Open Scope nat_scope.
Local Open Scope list_scope.

Lemma all_opt_some : forall {A B} (g : A -> option B) l ys,
  all_opt (map g l) = Some ys -> Forall2 (fun x y => g x = Some y) l ys.
Proof.
  intros A B g l. induction l as [|x l IH]; intros ys H; cbn in H.
  - inversion H. constructor.
  - destruct (g x) as [y|] eqn:E; [|discriminate]. destruct (all_opt (map g l)) as [r|] eqn:Er; [|discriminate].
    inversion H; subst. constructor; [exact E|]. apply IH. reflexivity.
Qed.

Section IndexOf.
Variable A : Type.
Variable eqb : A -> A -> bool.
Hypothesis Heqb : forall x y, eqb x y = true <-> x = y.

Lemma index_of_Some : forall x l i, index_of eqb x l = Some i -> nth_error l i = Some x.
Proof.
  intros x l. induction l as [|y l IH]; intros i H; cbn in H; [discriminate|].
  destruct (eqb x y) eqn:E; [apply Heqb in E; injection H as <-; subst; reflexivity|].
  destruct (index_of eqb x l) as [j|]; [|discriminate]. injection H as <-. cbn. apply IH. reflexivity.
Qed.

Lemma index_of_In : forall x l, In x l -> exists i, index_of eqb x l = Some i.
Proof.
  intros x l. induction l as [|y l IH]; intro H; [contradiction|]. cbn. destruct (eqb x y) eqn:E; [exists 0; reflexivity|].
  destruct H as [->|H]; [rewrite (proj2 (Heqb x x) eq_refl) in E; discriminate|]. destruct (IH H) as [i ->]. exists (S i). reflexivity.
Qed.

Lemma index_of_NoDup : forall l i x, NoDup l -> nth_error l i = Some x -> index_of eqb x l = Some i.
Proof.
  induction l as [|y l IH]; intros i x Hnd H; [destruct i; discriminate|]. inversion Hnd as [|y' l' Hy Hl]; subst. destruct i as [|i]; cbn in *.
  - injection H as ->. rewrite (proj2 (Heqb x x) eq_refl). reflexivity.
  - destruct (eqb x y) eqn:E; [apply Heqb in E; subst; exfalso; apply Hy; eapply nth_error_In; exact H|]. rewrite (IH i x Hl H). reflexivity.
Qed.

End IndexOf.
Arguments index_of_Some {A eqb} Heqb x l i _.
Arguments index_of_In {A eqb} Heqb x l _.
Arguments index_of_NoDup {A eqb} Heqb l i x _ _.

Lemma in_product_seq : forall {A} (n : A -> nat) xs ls,
  In ls (DocSem.product (map (fun x => seq 0 (n x)) xs)) <-> Forall2 (fun l x => l < n x) ls xs.
Proof.
  intros A n xs ls. rewrite in_product_iff, Forall2_map_r. split; apply Forall2_imp; intros l x; rewrite in_seq; lia.
Qed.

Lemma Forall2_combine_in : forall {A B} (R : B -> A -> Prop) ls fs f l, Forall2 R ls fs -> In (f, l) (combine fs ls) -> R l f /\ In f fs.
Proof.
  intros A B R ls fs f l H. induction H as [|x y ls fs Hxy _ IH]; cbn; [intros []|].
  intros [E|Hin]; [inversion E; subst; split; [exact Hxy|left; reflexivity]|destruct (IH Hin); split; [assumption|right; assumption]].
Qed.

Section Ctx.
Variable p : program.

Definition plevels (f : nat) : list (name * nat) :=
  match pf_kind (fd_of p f) with FSimple l => l | _ => [] end.
Definition nlv (f : nat) : nat := List.length (plevels f).
Definition nm (f l : nat) : name := nth l (map fst (plevels f)) EmptyString.
Definition wt (f l : nat) : nat := nth l (map snd (plevels f)) 1.

Definition mkff (f : nat) : ffactor :=
  {| ff_name := pf_name (fd_of p f); ff_hidden := false;
     ff_levels := map (fun nw => {| lv_name := fst nw; lv_weight := snd nw; lv_accepts := [] |}) (plevels f);
     ff_window := None; ff_complex := false |}.

Lemma mkff_nlevels : forall f, List.length (ff_levels (mkff f)) = nlv f.
Proof. intro f. apply map_length. Qed.

Lemma mkff_level : forall f l, l < nlv f ->
  nth_error (ff_levels (mkff f)) l = Some {| lv_name := nm f l; lv_weight := wt f l; lv_accepts := [] |}.
Proof.
  intros f l Hl. unfold mkff, nm, wt. cbn [ff_levels]. rewrite nth_error_map.
  pose proof (nth_error_nth' (plevels f) ((EmptyString, 1) : name * nat) Hl) as E. unfold name in *. rewrite E. cbn [option_map].
  rewrite <- (map_nth fst), <- (map_nth snd). reflexivity.
Qed.

Definition pos (design : list nat) (f : nat) : nat :=
  match index_of Nat.eqb f design with Some i => i | None => 0 end.

Lemma simple_plevels : forall f, simple_id p f -> pf_kind (fd_of p f) = FSimple (plevels f).
Proof.
  intros f H. destruct (simple_fm p f H) as [_ Hs]. unfold plevels, is_simple in *.
  destruct (pf_kind (fd_of p f)); try discriminate. reflexivity.
Qed.

Lemma names_of_plevels : forall f, simple_id p f -> names_of p f = map fst (plevels f).
Proof. intros f H. unfold names_of. rewrite (simple_plevels f H). reflexivity. Qed.

Lemma plain_fds : forall design fds,
  all_opt (map (fun f => match fm p f with Ok fd => plain_factor fd | _ => None end) design) = Some fds ->
  (forall f, In f design -> simple_id p f) /\ fds = map mkff design.
Proof.
  intros design fds H. apply all_opt_some in H. split.
  - intros f Hf. clear -H Hf. induction H as [|x y l ys Hxy _ IH]; [contradiction|].
    destruct Hf as [->|Hf]; [|apply IH; exact Hf]. destruct (fm p f) as [fd| |] eqn:E; try discriminate.
    exists fd. split; [exact E|]. unfold plain_factor in Hxy. unfold is_simple. destruct (pf_kind fd); try discriminate. reflexivity.
  - rewrite <- (map_id fds). symmetry. apply Forall2_map_eq. eapply Forall2_imp; [|exact H]. intros f y Hy. cbn in Hy.
    destruct (fm p f) as [fd| |] eqn:E; try discriminate. unfold plain_factor in Hy. unfold mkff, plevels, fd_of. rewrite E.
    destruct (pf_kind fd); try discriminate. inversion Hy. reflexivity.
Qed.

Lemma pos_nth_error : forall (l : list nat) f, In f l -> nth_error l (pos l f) = Some f.
Proof. intros l f H. destruct (index_of_In Nat.eqb_eq f l H) as [i E]. unfold pos. rewrite E. exact (index_of_Some Nat.eqb_eq _ _ _ E). Qed.

Lemma plain_cr : forall design crossing cr,
  all_opt (map (fpos design) crossing) = Some cr -> cr = map (pos design) crossing /\ incl crossing design.
Proof.
  intros design crossing cr H. apply all_opt_some in H. split.
  - rewrite <- (map_id cr). symmetry. apply Forall2_map_eq. eapply Forall2_imp; [|exact H]. intros f y Hy. unfold fpos in Hy. unfold pos. rewrite Hy. reflexivity.
  - intros f Hf. clear -H Hf. induction H as [|x y l ys Hxy _ IH]; [contradiction|].
    destruct Hf as [->|Hf]; [|apply IH; exact Hf]. exact (nth_error_In _ _ (index_of_Some Nat.eqb_eq _ _ _ Hxy)).
Qed.

Lemma nth_error_mkff : forall design c f, nth_error design c = Some f -> nth_error (map mkff design) c = Some (mkff f).
Proof. intros design c f H. rewrite nth_error_map, H. reflexivity. Qed.

Section Crossing.
Variables design crossing : list nat.
Hypothesis Hincl : incl crossing design.
Definition IP : list (list nat) := DocSem.product (map (fun f => seq 0 (nlv f)) crossing).

Lemma names_product_IP : (forall f, In f crossing -> simple_id p f) ->
  DocSem.product (map (names_of p) crossing) = map (zipw nm crossing) IP.
Proof.
  intro Hcs. unfold IP. rewrite <- product_map2. apply (f_equal (@DocSem.product _)). apply map_ext_in. intros f Hf.
  rewrite (names_of_plevels f (Hcs f Hf)). unfold nm, nlv.
  rewrite <- (map_length fst (plevels f)). symmetry. apply map_nth_seq.
Qed.

Lemma combine_seq_map_gen : forall {A} (l : list A) d s,
  combine (seq s (List.length l)) l = map (fun i => (i, nth (i - s) l d)) (seq s (List.length l)).
Proof.
  intros A l d. induction l as [|x l IH]; intro s; [reflexivity|]. cbn [List.length seq combine map]. rewrite Nat.sub_diag. cbn [nth].
  f_equal. rewrite IH. apply map_ext_in. intros i Hi. apply in_seq in Hi. replace (i - s) with (S (i - S s)) by lia. reflexivity.
Qed.

Lemma combine_seq_map : forall {A} (l : list A) d, combine (seq 0 (List.length l)) l = map (fun i => (i, nth i l d)) (seq 0 (List.length l)).
Proof. intros A l d. rewrite (combine_seq_map_gen l d 0). apply map_ext. intro i. rewrite Nat.sub_0_r. reflexivity. Qed.

Lemma weights_product_IP :
  DocSem.product (map (level_weights_of (map mkff design)) (map (pos design) crossing))
  = map (zipw (fun f l => (l, wt f l)) crossing) IP.
Proof.
  unfold IP. rewrite map_map. rewrite <- product_map2. apply (f_equal (@DocSem.product _)). apply map_ext_in. intros f Hf.
  unfold level_weights_of. rewrite (nth_error_mkff _ _ _ (pos_nth_error design f (Hincl f Hf))). unfold mkff. cbn [ff_levels].
  rewrite map_length, map_map. cbn [lv_weight].
  pose proof (combine_seq_map (map snd (plevels f)) 1) as E. rewrite map_length in E. exact E.
Qed.


Definition W (ls : list nat) : nat := prod_list (zipw wt crossing ls).

Definition memP (excl : list (nat * nat)) (cl : nat * nat) : bool :=
  existsb (fun e => (fst e =? fst cl) && (snd e =? snd cl)) excl.

Lemma memP_In : forall excl cl, memP excl cl = true <-> In cl excl.
Proof.
  intros excl [c l]. unfold memP. rewrite existsb_exists. split.
  - intros [[c' l'] [Hin H]]. cbn [fst snd] in H. apply andb_true_iff in H. destruct H as [H1 H2]. apply Nat.eqb_eq in H1, H2. subst. exact Hin.
  - intro Hin. exists (c, l). split; [exact Hin|]. cbn [fst snd]. rewrite !Nat.eqb_refl. reflexivity.
Qed.

Definition exI (excl : list (nat * nat)) (ls : list nat) : bool :=
  existsb (memP excl) (combine (map (pos design) crossing) ls).

Lemma zipw_pos_combine : forall (fs : list nat) (ls : list nat), zipw (fun f l => (pos design f, l)) fs ls = combine (map (pos design) fs) ls.
Proof. induction fs as [|f fs IH]; intros [|l ls]; try reflexivity. unfold zipw in *. cbn. f_equal. apply IH. Qed.

Lemma in_IP_length : forall ls, In ls IP -> List.length ls = List.length crossing.
Proof. intros ls H. apply in_product_length in H. rewrite map_length in H. exact H. Qed.

Lemma in_IP_iff : forall ls, In ls IP <-> Forall2 (fun l f => l < nlv f) ls crossing.
Proof. intro ls. apply in_product_seq. Qed.

Lemma in_IP_lt : forall ls, In ls IP -> Forall2 (fun l f => l < nlv f) ls crossing.
Proof. apply in_IP_iff. Qed.

(** the weight of a level tuple, multiplied up position by position by any [g] that reads the level weights *)
Lemma weight_fold : forall (g : nat -> nat -> nat),
  (forall f l, In f crossing -> l < nlv f -> g (pos design f) l = wt f l) ->
  forall ls, In ls IP -> fold_left (fun n pr => n * g (fst pr) (snd pr)) (combine (map (pos design) crossing) ls) 1 = W ls.
Proof.
  intros g Hg ls Hls. unfold W, prod_list. rewrite <- zipw_pos_combine. unfold zipw.
  rewrite (fold_mul_map (fun pr => g (fst pr) (snd pr))), map_map. f_equal. apply map_ext_in. intros [f l] Hin.
  destruct (Forall2_combine_in _ _ _ _ _ (in_IP_lt ls Hls) Hin) as [Hl Hf]. exact (Hg f l Hf Hl).
Qed.

Lemma combine_zipw_fst : forall {C} (h : nat -> nat -> C) (fs : list nat) ls,
  map (fun x : nat * (nat * C) => (fst x, fst (snd x))) (combine (map (pos design) fs) (zipw (fun f l => (l, h f l)) fs ls))
  = combine (map (pos design) fs) ls.
Proof. intros C h. induction fs as [|f fs IH]; intros [|l ls]; try reflexivity. unfold zipw in *. cbn. f_equal. apply IH. Qed.

(** [__count_exclusions] = the sum of the weights of the excluded level tuples *)
Lemma plain_exclusions_sum : forall excl,
  plain_exclusions (map mkff design) (map (pos design) crossing) excl = list_sum (map W (filter (exI excl) IP)).
Proof.
  intro excl. unfold plain_exclusions.
  rewrite (fold_cond_sum (fun combo => existsb (fun flw => existsb (fun e => (fst e =? fst flw) && (snd e =? fst (snd flw))) excl)
                                               (combine (map (pos design) crossing) combo))
                         (fun combo => fold_left (fun w lw => w * snd lw) combo 1)).
  cbn [Nat.add]. rewrite weights_product_IP. rewrite filter_map_comm, map_map.
  rewrite (filter_ext _ (exI excl)).
  - apply (f_equal (@list_sum)). apply map_ext. intro ls. rewrite (fold_mul_map snd). unfold W, prod_list, zipw.
    rewrite map_map. reflexivity.
  - intro ls. unfold exI. rewrite <- (combine_zipw_fst (fun f l => wt f l) crossing ls). rewrite existsb_map. reflexivity.
Qed.

End Crossing.

Definition psize (design crossing : list nat) (ics : list iconstraint) : nat :=
  list_sum (map (W crossing) (filter (fun ls => negb (exI design crossing (excluded_levels ics) ls)) (IP crossing))).

End Ctx.
