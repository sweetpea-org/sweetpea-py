(** T2(d), the factor tables: the acceptance tables of a WITHIN-TRIAL derived
    factor over simple factors.  The flat record lists, per level, the accepted combinations of window
    levels in cross-product order ([derived_levels]); [doc_sem] encodes [accepted_tables] (explicit
    levels sorted by repr, the else level = the complement, including tuples with a None cell).
    For well-formed tables ([Hwf]: every tuple of an explicit level is the key of a combination of
    window levels) the two accept the same tuples without a None cell ([table_eqv]), and
    [within_value] is the unique accepting level ([within_value_some]). *)
From Coq Require Import ZArith List Bool Arith Lia String.
From SP Require Import Base.Lists Design.Flat Design.Sem Design.SemFacts Design.SemEqvT Design.SemEqvTBProofs Design.DocSem
     Design.DocSemProofs Design.DocSemPlain Design.ListSums Front.PlainT2 Front.PlainT2Doc Front.PlainT2Cons
     Front.DerivedInput Front.DerivedT2Doc.
Import ListNotations.
Local Open Scope nat_scope.
Local Open Scope list_scope.

Lemma oname_eqb_sound : forall a b, oname_eqb a b = true -> a = b.
Proof. intros [x|] [y|] E; cbn in E; try discriminate; [|reflexivity]. apply String.eqb_eq in E. congruence. Qed.
Lemma oname_eqb_refl : forall a, oname_eqb a a = true.
Proof. intros [x|]; cbn; [apply String.eqb_refl|reflexivity]. Qed.
Lemma entry_eqb_sound : forall a b, entry_eqb a b = true -> a = b.
Proof. unfold entry_eqb. apply list_eqb_sound. apply list_eqb_sound. exact oname_eqb_sound. Qed.
Lemma entry_eqb_refl : forall a, entry_eqb a a = true.
Proof. unfold entry_eqb. apply list_eqb_refl. apply list_eqb_refl. exact oname_eqb_refl. Qed.

Lemma memb_entry_in : forall x l, memb entry_eqb x l = true <-> In x l.
Proof.
  intros x l. unfold memb. rewrite existsb_exists. split.
  - intros [e [He E]]. apply entry_eqb_sound in E. subst. exact He.
  - intro H. exists x. split; [exact H|apply entry_eqb_refl].
Qed.

Lemma dedupe_in : forall x l, In x (dedupe entry_eqb l) <-> In x l.
Proof.
  intros x l. unfold dedupe.
  assert (G : forall acc, In x (fold_left (fun acc y => if memb entry_eqb y acc then acc else acc ++ [y]) l acc) <-> In x acc \/ In x l).
  { induction l as [|y l IH]; intro acc; cbn [fold_left]; [cbn; tauto|]. rewrite IH. destruct (memb entry_eqb y acc) eqn:M.
    - apply memb_entry_in in M. cbn. split; [tauto|]. intros [H|[->|H]]; tauto.
    - rewrite in_app_iff. cbn. tauto. }
  rewrite G. cbn. tauto.
Qed.

Lemma sort_entries_in : forall x l, In x (sort_entries l) <-> In x l.
Proof. intros x l. apply in_sort_by. Qed.

Lemma firstn1_skipn : forall {A} (l : list A) i d, i < List.length l -> firstn 1 (skipn i l) = [nth i l d].
Proof.
  intros A l. induction l as [|x l IH]; intros i d Hi; cbn in Hi; [lia|]. destruct i as [|i]; [reflexivity|]. cbn [skipn nth]. apply IH. lia.
Qed.

Lemma regroup_1 : forall flat, regroup 1 (List.length flat) flat = map (fun x => [x]) flat.
Proof.
  intro flat. unfold regroup. destruct flat as [|x0 fl]; [reflexivity|]. set (flat := x0 :: fl).
  rewrite (map_ext_in _ (fun i => [nth i flat x0])).
  - rewrite <- (map_map (fun i => nth i flat x0) (fun x => [x])). rewrite (map_nth_seq flat x0). reflexivity.
  - intros i Hi. apply in_seq in Hi. rewrite Nat.mul_1_r. apply firstn1_skipn. lia.
Qed.

Section Tables.
Variable p : program.
Variable fd : pfactor.
Variable w : pwindow.
Variable levels : list pdlevel.
Hypothesis Hkind : pf_kind fd = FDerived w levels.
Hypothesis Hty : pw_type w = WWithin.
Hypothesis Hdeps : forall d, In d (pw_deps w) -> simple_id p d.
Hypothesis Hdne : pw_deps w <> [].
Hypothesis Hnames : forall d, In d (pw_deps w) -> NoDup (names_of p d).

(** the key of a combination of window levels, and the valid combinations *)
Definition kflat (ds combo : list nat) : list (option name) := zipw (fun d c => Some (nth c (names_of p d) EmptyString)) ds combo.
Definition Vc (ds combo : list nat) : Prop := Forall2 (fun c d => c < List.length (names_of p d)) combo ds.

Lemma key_of_kflat : forall ds combo, key_of (map (names_of p) ds) combo = map (fun x => [x]) (kflat ds combo).
Proof.
  induction ds as [|d ds IH]; intros [|c combo]; try reflexivity. unfold key_of, kflat, zipw in *. cbn [map combine fst snd]. f_equal. apply IH.
Qed.

Lemma in_dep_product : forall ds combo, In combo (dep_product (map (names_of p) ds)) <-> Vc ds combo.
Proof. intros ds combo. unfold dep_product. rewrite map_map. apply (in_product_seq (fun d => List.length (names_of p d))). Qed.

Lemma kflat_length : forall ds combo, Vc ds combo -> List.length (kflat ds combo) = List.length ds.
Proof. intros ds combo H. unfold kflat, zipw. rewrite map_length, combine_length, (Forall2_length _ _ _ H). apply Nat.min_id. Qed.

Lemma kflat_in_doms : forall ds combo, Vc ds combo -> Forall2 (fun x d => In x (dom_of p d)) (kflat ds combo) ds.
Proof.
  intros ds combo H. induction H as [|c d combo ds Hc _ IH]; [constructor|]. unfold kflat, zipw in *. cbn [combine map fst snd]. constructor; [|exact IH].
  unfold dom_of. apply in_or_app. left. apply in_map. apply nth_In. exact Hc.
Qed.

Definition encE (ds : list nat) (cols : entry) : res (list (list (option nat))) :=
  mapM (fun dc : nat * list (option name) =>
          dd <- fm p (fst dc) ;;
          ns <- level_names dd ;;
          mapM (fun o : option name =>
                  match o with
                  | None => Ok None
                  | Some n => i <- of_option "ValueError: table name" (index_of String.eqb n ns) ;; Ok (Some i)
                  end) (snd dc))
       (combine ds cols).

Lemma enc_table_encE : forall ds tabs, enc_table p ds tabs = mapM (mapM (encE ds)) tabs.
Proof. reflexivity. Qed.

Lemma encE_key : forall ds combo, (forall d, In d ds -> simple_id p d /\ NoDup (names_of p d)) -> Vc ds combo ->
  encE ds (map (fun x => [x]) (kflat ds combo)) = Ok (map (fun c => [Some c]) combo).
Proof.
  intros ds combo Hds H. induction H as [|c d combo ds Hc _ IH]; [reflexivity|].
  unfold encE, kflat, zipw in *. cbn [combine map fst snd mapM].
  destruct (Hds d (or_introl eq_refl)) as [Hs Hnd]. destruct (simple_fm p d Hs) as [-> _]. cbn [bind].
  rewrite (DocSemPlain.simple_names p d Hs). cbn [bind]. rewrite (index_of_NoDup String.eqb_eq _ _ _ Hnd (nth_error_nth' _ _ Hc)). cbn [of_option bind].
  rewrite IH by (intros x Hx; apply Hds; right; exact Hx). reflexivity.
Qed.

Lemma encE_flat_inv : forall ds flat args, Forall2 (fun x d => In x (dom_of p d)) flat ds ->
  (forall d, In d ds -> simple_id p d /\ NoDup (names_of p d)) ->
  encE ds (map (fun x => [x]) flat) = Ok args -> all_some_args args ->
  exists combo, Vc ds combo /\ flat = kflat ds combo.
Proof.
  intros ds flat args H. revert args. induction H as [|x d flat ds Hx _ IH]; intros args Hds He Hs.
  - exists []. split; [constructor|reflexivity].
  - unfold encE in He. cbn [combine map fst snd mapM] in He.
    destruct (Hds d (or_introl eq_refl)) as [Hsd Hnd]. destruct (simple_fm p d Hsd) as [E _]. rewrite E in He. cbn [bind] in He.
    rewrite (DocSemPlain.simple_names p d Hsd) in He. cbn [bind] in He.
    destruct x as [n|].
    + unfold dom_of in Hx. apply in_app_or in Hx. destruct Hx as [Hx|[Hx|[]]]; [|discriminate].
      apply in_map_iff in Hx. destruct Hx as [n' [E' Hn]]. injection E' as ->.
      destruct (index_of_in _ _ EmptyString Hn) as [i [Ei [Hi Hnth]]]. rewrite Ei in He. cbn [of_option bind] in He.
      fold (encE ds (map (fun x => [x]) flat)) in He. destruct (encE ds (map (fun x => [x]) flat)) as [rest| |] eqn:Er; cbn [bind] in He; try discriminate.
      apply Ok_inj in He. subst args. inversion Hs as [|a l Ha Hl]; subst a l.
      destruct (IH rest (fun x Hx => Hds x (or_intror Hx)) eq_refl Hl) as [combo [Hv Hf]].
      exists (i :: combo). split; [constructor; assumption|]. unfold kflat, zipw in *. cbn [combine map fst snd]. f_equal; [f_equal; symmetry; exact Hnth|exact Hf].
    + cbn [bind] in He. fold (encE ds (map (fun x => [x]) flat)) in He.
      destruct (encE ds (map (fun x => [x]) flat)) as [rest| |]; cbn [bind] in He; try discriminate.
      apply Ok_inj in He. subst args. inversion Hs as [|a l Ha Hl]; subst a l. inversion Ha as [|c cs Hc _]. congruence.
Qed.

Let deps := pw_deps w.
Let dnames := map (names_of p) deps.
Definition keyc (combo : list nat) : entry := key_of dnames combo.

Lemma Hds : forall d, In d deps -> simple_id p d /\ NoDup (names_of p d).
Proof. intros d Hd. split; [apply Hdeps|apply Hnames]; exact Hd. Qed.

Lemma key_in_all : forall combo, Vc deps combo ->
  In (keyc combo) (map (regroup 1 (List.length deps)) (DocSem.product (map (dom_of p) deps))).
Proof.
  intros combo Hv. unfold keyc, dnames. rewrite key_of_kflat. apply in_map_iff. exists (kflat deps combo). split.
  - rewrite <- (kflat_length deps combo Hv). exact (regroup_1 (kflat deps combo)).
  - apply in_product_iff. apply Forall2_map_r. apply kflat_in_doms. exact Hv.
Qed.

Lemma in_union : forall e, In e (union_of levels) <-> exists o, In o levels /\ dl_else o = false /\ In e (dl_table o).
Proof.
  intro e. unfold union_of. rewrite in_flat_map. split.
  - intros [x [Hx He]]. apply in_map_iff in Hx. destruct Hx as [o [<- Ho]]. unfold explicit_of in He.
    destruct (dl_else o) eqn:El; [contradiction|]. apply (proj1 (dedupe_in _ _)) in He. exists o. repeat split; assumption.
  - intros [o [Ho [El He]]]. exists (explicit_of o). split; [apply in_map; exact Ho|]. unfold explicit_of. rewrite El. apply (proj2 (dedupe_in _ _)). exact He.
Qed.

(** membership of a key in the documented table of a level = the predicate of harness/ir.py *)
Lemma tab_mem : forall combo lev, Vc deps combo ->
  In (keyc combo) (tab_of p w levels lev) <-> dl_accepts levels lev (keyc combo) = true.
Proof.
  intros combo lev Hv. unfold tab_of, explicit_of, dl_accepts. destruct (dl_else lev) eqn:El.
  - unfold others_of. rewrite filter_In, !negb_true_iff. fold deps. split.
    + intros [_ Hn]. apply not_true_iff_false in Hn. apply not_true_iff_false. intro Hex. apply Hn. apply memb_entry_in. apply in_union.
      apply existsb_exists in Hex. destruct Hex as [o [Ho Ha]]. apply andb_true_iff in Ha. destruct Ha as [H1 H2]. apply negb_true_iff in H1.
      apply memb_entry_in in H2. exists o. repeat split; assumption.
    + intro Hn. split; [apply key_in_all; exact Hv|]. apply not_true_iff_false in Hn. apply not_true_iff_false. intro Hm. apply Hn.
      apply memb_entry_in in Hm. apply in_union in Hm. destruct Hm as [o [Ho [H1 H2]]]. apply existsb_exists. exists o. split; [exact Ho|].
      rewrite H1. cbn. apply memb_entry_in. exact H2.
  - rewrite sort_entries_in, dedupe_in, memb_entry_in. reflexivity.
Qed.

Hypothesis Hwf : forall lev, In lev levels -> dl_else lev = false -> forall e, In e (dl_table lev) -> exists combo, Vc deps combo /\ e = keyc combo.

Lemma tab_shape : forall lev e args, In lev levels -> In e (tab_of p w levels lev) -> encE deps e = Ok args -> all_some_args args ->
  exists combo, Vc deps combo /\ e = keyc combo.
Proof.
  intros lev e args Hl He Henc Hs. unfold tab_of, explicit_of in He. destruct (dl_else lev) eqn:El.
  - unfold others_of in He. apply filter_In in He. destruct He as [He _]. apply in_map_iff in He. destruct He as [flat [<- Hf]]. fold deps in Hf.
    apply in_product_iff in Hf. apply (proj1 (Forall2_map_r _ _ _ _)) in Hf.
    assert (Hlen : List.length flat = List.length deps) by (exact (Forall2_length _ _ _ Hf)).
    fold deps in Henc |- *. rewrite <- Hlen in Henc |- *. rewrite regroup_1 in Henc |- *.
    destruct (encE_flat_inv deps flat args Hf Hds Henc Hs) as [combo [Hv ->]]. exists combo. split; [exact Hv|].
    unfold keyc, dnames. rewrite key_of_kflat. reflexivity.
  - apply (proj1 (sort_entries_in _ _)) in He. apply (proj1 (dedupe_in _ _)) in He. apply (Hwf lev Hl El e He).
Qed.

Lemma encE_keyc : forall combo, Vc deps combo -> encE deps (keyc combo) = Ok (map (fun c => [Some c]) combo).
Proof. intros combo Hv. unfold keyc, dnames. rewrite key_of_kflat. apply encE_key; [exact Hds|exact Hv]. Qed.

(** the two tables accept the same tuples without a None cell *)
Theorem table_eqv : forall enc, enc_table p deps (map (tab_of p w levels) levels) = Ok enc ->
  forall l args, all_some_args args ->
  existsb (args_eqb args) (nth l (map lv_accepts (derived_levels dnames levels)) []) = existsb (args_eqb args) (nth l enc []).
Proof.
  intros enc Henc l args Hs. rewrite enc_table_encE in Henc.
  pose proof (mapM_length _ _ _ Henc) as Hlen. rewrite map_length in Hlen.
  destruct (Nat.lt_ge_cases l (List.length levels)) as [Hl|Hl].
  2:{ rewrite !nth_overflow; [reflexivity| |]; [lia|]. unfold derived_levels. rewrite !map_length. exact Hl. }
  set (d0 := {| dl_name := EmptyString; dl_weight := 0; dl_else := false; dl_table := [] |}).
  set (lev := nth l levels d0).
  assert (Hlev : In lev levels) by (apply nth_In; exact Hl).
  assert (E1 : nth l (map lv_accepts (derived_levels dnames levels)) []
               = map (map (fun x => [Some x])) (filter (fun combo => dl_accepts levels lev (key_of dnames combo)) (dep_product dnames))).
  { unfold derived_levels. rewrite map_map. cbn [lv_accepts]. exact (nth_map_lt (fun x => map (map (fun x0 : nat => [Some x0])) (filter (fun combo => dl_accepts levels x (key_of dnames combo)) (dep_product dnames))) levels l [] d0 Hl). }
  assert (E2 : mapM (encE deps) (tab_of p w levels lev) = Ok (nth l enc [])).
  { pose proof (mapM_nth _ _ _ (tab_of p w levels d0) [] l Henc ltac:(rewrite map_length; exact Hl)) as H.
    rewrite (nth_map_lt _ levels l (tab_of p w levels d0) d0 Hl) in H. exact H. }
  rewrite E1. apply eq_true_iff_eq. rewrite !existsb_args_in. split.
  - intro Hin. apply in_map_iff in Hin. destruct Hin as [combo [<- Hc]]. apply filter_In in Hc. destruct Hc as [Hp Ha].
    apply in_dep_product in Hp. fold (keyc combo) in Ha. apply (tab_mem combo lev Hp) in Ha.
    destruct (mapM_in_l _ _ _ _ E2 Ha) as [y [Hy Ey]]. rewrite (encE_keyc combo Hp) in Ey. apply Ok_inj in Ey. subst y. exact Hy.
  - intro Hin. destruct (mapM_in _ _ _ _ E2 Hin) as [e [He Ee]].
    destruct (tab_shape lev e args Hlev He Ee Hs) as [combo [Hv ->]]. rewrite (encE_keyc combo Hv) in Ee. apply Ok_inj in Ee. subst args.
    apply in_map. apply filter_In. split; [apply in_dep_product; exact Hv|]. fold (keyc combo). apply tab_mem; assumption.
Qed.

Lemma idx_names : forall d v, simple_id p d -> In v (names_of p d) ->
  idx p d v < List.length (names_of p d) /\ nth (idx p d v) (names_of p d) EmptyString = v.
Proof. intros d v Hs. rewrite (names_of_plevels p d Hs), map_length. apply idx_spec. Qed.

Hypothesis Huniq : forall combo, Vc deps combo ->
  List.length (filter (fun lev => dl_accepts levels lev (keyc combo)) levels) = 1.

Lemma combine_map_map : forall {A B C} (g : A -> B) (h : A -> C) l, combine (map g l) (map h l) = map (fun x => (g x, h x)) l.
Proof. intros. induction l as [|x l IH]; [reflexivity|]. cbn. rewrite IH. reflexivity. Qed.

Theorem within_value_some : forall (assign : assignment),
  (forall d, In d deps -> exists v, dict_get Nat.eqb d assign = Some v /\ In v (names_of p d)) ->
  exists l, within_value p (fuel0 p) fd assign = Ok (Some l).
Proof.
  intros assign Ha. unfold fuel0. cbn [within_value]. rewrite (window_params_within p fd w levels Hkind Hty Hdeps). cbn [bind].
  fold deps.
  set (go := fix go (ds : list nat) : res (option (list name)) :=
               match ds with
               | [] => Ok (Some [])
               | d :: r =>
                 dd <- fm p d ;;
                 v <- (if is_derived dd then c <- is_complex p dd ;; if c : bool then Ok None else within_value p (List.length (p_factors p)) dd assign
                       else Ok (dict_get Nat.eqb d assign)) ;;
                 match v with
                 | None => Ok None
                 | Some x => rest <- go r ;; Ok (option_map (cons x) rest)
                 end
               end).
  assert (Hgo : forall ds, (forall d, In d ds -> In d deps) -> go ds = Ok (Some (map (aval assign) ds))).
  { induction ds as [|d ds IH]; intro Hin; [reflexivity|]. cbn [go].
    assert (Hd : In d deps) by (apply Hin; left; reflexivity).
    destruct (simple_fm p d (Hdeps d Hd)) as [-> Hsd]. cbn [bind]. rewrite (simple_not_derived _ Hsd). cbn [bind].
    destruct (Ha d Hd) as [v [Hv _]]. rewrite Hv. fold go. rewrite IH by (intros x Hx; apply Hin; right; exact Hx). cbn [bind option_map map].
    unfold aval. rewrite Hv. reflexivity. }
  rewrite (Hgo deps (fun d Hd => Hd)). cbn [bind].
  rewrite (accepted_tables_within p fd w levels Hkind Hty Hdeps). cbn [bind]. unfold level_names. rewrite Hkind. cbn [bind].
  set (combo := map (fun d => idx p d (aval assign d)) deps).
  assert (Hv : Vc deps combo).
  { unfold combo. apply Forall2_map_l, Forall2_diag. intros d Hd. destruct (Ha d Hd) as [v [Hv Hn]]. unfold aval. rewrite Hv.
    apply (idx_names d v (Hdeps d Hd) Hn). }
  assert (Ek : map (fun v : name => [Some v]) (map (aval assign) deps) = keyc combo).
  { unfold keyc, dnames, combo. rewrite key_of_kflat. rewrite map_map. unfold kflat. rewrite zipw_map_r. rewrite map_map.
    apply map_ext_in. intros d Hd. destruct (Ha d Hd) as [v [Hv' Hn]]. unfold aval. rewrite Hv'. f_equal. f_equal.
    symmetry. apply (idx_names d v (Hdeps d Hd) Hn). }
  rewrite Ek. rewrite combine_map_map. rewrite filter_map_comm. cbn [snd]. rewrite map_map. cbn [fst].
  rewrite (filter_ext_in _ (fun lev => dl_accepts levels lev (keyc combo))).
  2:{ intros lev _. destruct (dl_accepts levels lev (keyc combo)) eqn:E.
      - apply memb_entry_in. apply (tab_mem combo lev Hv). exact E.
      - apply not_true_iff_false. intro M. apply memb_entry_in in M. apply (tab_mem combo lev Hv) in M. congruence. }
  pose proof (Huniq combo Hv) as Hu. destruct (filter (fun lev => dl_accepts levels lev (keyc combo)) levels) as [|x [|y r]]; try discriminate.
  exists (dl_name x). reflexivity.
Qed.

End Tables.
