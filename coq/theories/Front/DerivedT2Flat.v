(** T2(d), the created record: the flat record [create_flat] builds from an input whose single non-empty
    crossing consists of simple factors (the derived factors of the design are outside the crossing),
    WEIGHT mode, EQUAL_PREAMBLE, in closed form:
    size = (sum of the weights of the level tuples) - exclusions, preamble 0,
    T = max(min_trials, max(1, size)), crossing weight = ceil(T / size).
    The design may contain any factor descriptions outside the crossing positions. *)
From Coq Require Import ZArith List Bool Arith Lia String.
From SP Require Import Base.Lists Design.Flat Design.Layout Design.DocSem Design.DocSemPlain Design.ListSums Front.Trials
     Front.TrialsProofs Front.CreateFlat Front.CreateFlatProofs Front.PlainT2 Front.DerivedInput Encode.Compile.
Import ListNotations.
Local Open Scope nat_scope.
Local Open Scope list_scope.

Lemma cproduct_eq : forall {A} (l : list (list A)), Compile.product l = DocSem.product l.
Proof. reflexivity. Qed.

Lemma sustain_one : forall fb cr, fl_crossings fb = [cr] -> fl_sustains fb = [1] -> forall f, sustain_of fb f = 1.
Proof. intros fb cr Hc Hs f. unfold sustain_of. rewrite Hc, Hs. cbn. destruct (existsb _ _); reflexivity. Qed.

Lemma max_list_const : forall {A} (l : list A) n, l <> [] -> max_list (map (fun _ => n) l) = n.
Proof.
  intros A l n H. destruct l as [|x l]; [congruence|]. unfold max_list. cbn [map fold_left]. rewrite Nat.max_0_l. clear H.
  induction l as [|y l IH]; cbn; [reflexivity|]. rewrite Nat.max_id. exact IH.
Qed.

Section FlatOfDerived.
Variable p : program.
Variables design crossing : list nat.
Variable fds : list ffactor.
Hypothesis Hfds : forall f, In f crossing -> nth_error fds (pos design f) = Some (mkff p f).
Hypothesis Hne : crossing <> [].

Let cr := map (pos design) crossing.

Lemma dcr_nonempty : cr <> [].
Proof. intro E. apply map_eq_nil in E. exact (Hne E). Qed.

Section AnyFlat.
Variable fb : flat.
Hypothesis Hd : fl_design fb = fds.

Lemma dfactor_at_pos : forall f, In f crossing -> Layout.factor_at fb (pos design f) = Some (mkff p f).
Proof. intros f Hf. unfold Layout.factor_at. rewrite Hd. apply Hfds. exact Hf. Qed.

Lemma dnlevels_pos : forall f, In f crossing -> Layout.nlevels fb (pos design f) = nlv p f.
Proof. intros f Hf. unfold Layout.nlevels. rewrite (dfactor_at_pos f Hf). apply mkff_nlevels. Qed.

Lemma dlevel_weight_pos : forall f l, In f crossing -> l < nlv p f -> level_weight fb (pos design f) l = wt p f l.
Proof.
  intros f l Hf Hl. unfold level_weight. rewrite (dfactor_at_pos f Hf), (mkff_level p f l Hl). reflexivity.
Qed.

Lemma dcrossing_combos_IP :
  crossing_combos fb (map (pos design) crossing) = map (zipw (fun f l => (pos design f, l)) crossing) (IP p crossing).
Proof.
  unfold crossing_combos, IP. rewrite cproduct_eq. rewrite map_map. rewrite <- product_map2. apply (f_equal (@DocSem.product _)). apply map_ext_in.
  intros f Hf. rewrite (dnlevels_pos f Hf). reflexivity.
Qed.

Lemma dlevel_weight_sum_pos : forall f, In f crossing ->
  level_weight_sum fb (pos design f) = list_sum (map (wt p f) (seq 0 (nlv p f))).
Proof.
  intros f Hf. unfold level_weight_sum. rewrite (dfactor_at_pos f Hf). unfold mkff. cbn [ff_levels].
  rewrite (fold_add_sum lv_weight). cbn [Nat.add]. rewrite map_map. cbn [lv_weight].
  unfold wt, nlv. rewrite <- (map_length snd (plevels p f)) at 1.
  rewrite (map_nth_seq (map snd (plevels p f)) 1). reflexivity.
Qed.

Lemma dsize_no_excl_sum : crossing_size_no_excl fb (map (pos design) crossing) = list_sum (map (W p crossing) (IP p crossing)).
Proof.
  unfold crossing_size_no_excl. rewrite (fold_mul_map (level_weight_sum fb)). rewrite map_map.
  rewrite (map_ext_in _ (fun f => list_sum (map (wt p f) (seq 0 (nlv p f))))) by (intros f Hf; apply dlevel_weight_sum_pos; exact Hf).
  change (fold_left Nat.mul ?l 1) with (prod_list l).
  rewrite <- (map_map (fun f => map (wt p f) (seq 0 (nlv p f))) (fun d => list_sum d)).
  rewrite <- sum_product. unfold IP. rewrite product_map2. rewrite map_map. reflexivity.
Qed.

Hypothesis Hc : fl_crossings fb = [cr].
Hypothesis Hs : fl_sustains fb = [1].

Lemma cr_not_derived : forall c, In c cr -> not_derived fb c.
Proof.
  intros c Hc'. unfold cr in Hc'. apply in_map_iff in Hc'. destruct Hc' as [f [<- Hf]]. right. exists (mkff p f).
  split; [apply dfactor_at_pos; exact Hf|reflexivity].
Qed.

Lemma dtrials_required : forall c size, In c cr -> trials_required fb c size = Some size.
Proof.
  intros c size Hc'. apply trials_required_simple; [apply cr_not_derived; exact Hc'|]. unfold sustain.
  rewrite (sustain_one fb cr Hc Hs). lia.
Qed.

Lemma dtrials_one_crossing : forall size, trials_for_one_crossing fb cr size = Some size.
Proof.
  intro size. unfold trials_for_one_crossing.
  rewrite (all_some_map_some (fun _ => size)) by (intros c Hc'; apply dtrials_required; exact Hc').
  cbn [option_map]. f_equal. apply max_list_const. exact dcr_nonempty.
Qed.

End AnyFlat.

Variable ics : list iconstraint.
Variables rcc ef : bool.
Variable E : nat.                                  (* the exclusion count handed to [_create] *)
Variable ders : list fconstraint.
Variable exd : list (list (nat * nat)).

Definition dci : create_input := mk_input fds cr ics rcc [E] ders exd ef.

Definition dsize : nat := list_sum (map (W p crossing) (IP p crossing)) - E.

Lemma st_crossings_dci : st_crossings dci = [cr].
Proof. unfold st_crossings. cbn [dci mk_input ci_crossings filter]. pose proof dcr_nonempty. destruct cr; [congruence|reflexivity]. Qed.

Lemma st_flat_crossings : forall sizes pres, fl_crossings (st_flat dci sizes pres) = [cr].
Proof. intros. exact st_crossings_dci. Qed.

Lemma st_sizes_dci : st_sizes dci = [dsize].
Proof.
  unfold st_sizes. rewrite st_crossings_dci. cbn [dci mk_input ci_exclusions combine map fst snd]. f_equal.
  set (fb1 := st_flat dci [] []).
  assert (Hd : fl_design fb1 = fds) by reflexivity.
  assert (Hc : fl_crossings fb1 = [cr]) by apply st_flat_crossings.
  assert (Hs : fl_sustains fb1 = [1]) by reflexivity.
  pose proof (sustain_one fb1 cr Hc Hs) as Hone.
  assert (Hsu : match cr with f :: _ => sustain_of fb1 f | [] => 1 end = 1) by (destruct cr; [reflexivity|apply Hone]).
  rewrite Hsu, Nat.mul_1_r. unfold cr. rewrite (dsize_no_excl_sum fb1 Hd). reflexivity.
Qed.

Lemma model_preambles_dci : forall size, model_preambles (st_flat dci [size] []) = Some [0].
Proof.
  intro size. unfold model_preambles. set (fb2 := st_flat dci [size] []).
  assert (Hc : fl_crossings fb2 = [cr]) by apply st_flat_crossings.
  rewrite Hc. change (fl_sizes fb2) with [size]. cbn [combine map fst snd].
  rewrite (dtrials_one_crossing fb2 eq_refl Hc eq_refl). cbn. rewrite Nat.sub_diag. reflexivity.
Qed.

Lemma trials_for_crossings_dci : forall size pres, trials_for_crossings (st_flat dci [size] pres) = Some (Nat.max 1 size).
Proof.
  intros size pres. unfold trials_for_crossings. set (fb3 := st_flat dci [size] pres).
  assert (Hc : fl_crossings fb3 = [cr]) by apply st_flat_crossings.
  change (fl_alignment fb3) with EqualPreamble. cbv iota. rewrite Hc. change (fl_sizes fb3) with [size]. cbn [combine map fst snd].
  rewrite (dtrials_one_crossing fb3 eq_refl Hc eq_refl). cbn [all_some option_map]. unfold max_list. cbn [fold_left].
  rewrite Nat.max_0_l. reflexivity.
Qed.

Lemma model_min_trials_dci : forall sizes pres,
  model_min_trials (st_flat dci sizes pres) = Some (min_trials_raw (st_flat dci sizes pres)).
Proof. intros. unfold model_min_trials, round_min_trials. cbn [st_flat mkflat fl_sustains dci mk_input ci_sustains fold_left]. apply round_to_1. Qed.

(** the closed form of the created record, over natural numbers; [M] is the largest MinimumTrials *)
Theorem create_flat_dci : forall M fb, fold_left min_step (st_cons dci) 0%Z = Z.of_nat M -> create_flat dci = FOk fb ->
  let T := Nat.max (Nat.max dsize 1) M in
  0 < dsize /\
  fb = mkflat fds (st_act dci) [cr] [1] [ceil_div T dsize] [dsize] [0] EqualPreamble (st_alpre dci)
              M T rcc (st_exclude (st_cons dci)) exd
              (map (init_wb (st_geometry dci [0] (Z.of_nat T))) (st_cons dci) ++ ders) ef.
Proof.
  intros M fb HM H T. unfold create_flat in H. destruct (needs_desugar _ _); [discriminate|].
  rewrite st_sizes_dci in H. cbv zeta in H. rewrite model_preambles_dci in H.
  change (ci_alignment dci) with EqualPreamble in H. cbn [all_eq negb] in H.
  unfold model_trials in H. rewrite trials_for_crossings_dci, model_min_trials_dci in H.
  change (min_trials_raw (st_flat dci [dsize] [0])) with (fold_left min_step (st_cons dci) 0%Z) in H. rewrite HM in H.
  replace (Z.max (Z.of_nat M) (Z.of_nat (Nat.max 1 dsize))) with (Z.of_nat T) in H by (unfold T; lia).
  change (ci_mode dci) with MWeight in H. unfold model_weights in H.
  change (fl_crossings (st_flat dci [dsize] [0])) with (st_crossings dci) in H. rewrite st_crossings_dci in H.
  cbn [List.length st_flat mkflat fl_sustains fl_preambles fl_sizes dci mk_input ci_sustains ci_weights zs_of map weights_loop] in H.
  destruct (dsize =? 0) eqn:Z0; cbn [Nat.eqb orb] in H; [discriminate|]. apply Nat.eqb_neq in Z0.
  split; [lia|]. change (Z.of_nat 1) with 1%Z in H. change (Z.of_nat 0) with 0%Z in H.
  replace ((Z.of_nat T / 1 - 0 + Z.of_nat dsize - 1) / Z.of_nat dsize)%Z with (Z.of_nat (ceil_div T dsize)) in H
    by (unfold ceil_div; rewrite Nat2Z.inj_div, Z.div_1_r; f_equal; lia).
  rewrite !Nat2Z.id in H. destruct (_ =? 1)%Z eqn:W1; cbn [map] in H.
  - apply Z.eqb_eq in W1. replace (ceil_div T dsize) with 1 by lia. injection H as <-. reflexivity.
  - rewrite Nat2Z.id in H. injection H as <-. reflexivity.
Qed.

End FlatOfDerived.
