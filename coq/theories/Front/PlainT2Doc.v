(** The documented side over the level tuples of the crossing: the weight of a combination of level
    names, the sum of a combination dictionary, and which combinations the documented semantics
    admits: the keys of [all_combos] are the names of all tuples, the keys of [feasible_combos] those of
    the tuples without an excluded level. *)
From Coq Require Import ZArith List Bool Arith Lia String Permutation.
From SP Require Import Base.Lists Design.DocSem Design.DocSemProofs Design.DocSemPlain Design.ListSums Front.PlainT2.
Import ListNotations.
Local Open Scope nat_scope.
Local Open Scope list_scope.

Lemma index_of_in : forall (l : list string) v d, In v l -> exists i, index_of String.eqb v l = Some i /\ i < List.length l /\ nth i l d = v.
Proof.
  intros l v d H. destruct (index_of_In String.eqb_eq v l H) as [i E]. exists i. pose proof (index_of_Some String.eqb_eq _ _ _ E) as Hn.
  split; [exact E|]. split; [apply nth_error_Some; congruence|apply nth_error_nth; exact Hn].
Qed.

Lemma level_names_fd : forall p f, simple_id p f -> level_names (fd_of p f) = Ok (map fst (plevels p f)).
Proof. intros p f H. rewrite (simple_names p f H), (names_of_plevels p f H). reflexivity. Qed.

Lemma level_weights_fd : forall p f, simple_id p f -> level_weights (fd_of p f) = Ok (map snd (plevels p f)).
Proof. intros p f H. unfold level_weights. rewrite (simple_plevels p f H). reflexivity. Qed.

Lemma dict_set_names_nodup : forall {V} k (v : V) d, NoDup (map fst d) -> NoDup (map fst (dict_set names_eqb k v d)).
Proof.
  intros V k v d. induction d as [|[k0 v0] d IH]; intro H; cbn.
  - constructor; [intros []|constructor].
  - destruct (names_eqb k k0) eqn:E; [exact H|]. cbn. inversion H; subst. constructor; [|apply IH; assumption].
    intro Hin. apply (dict_set_keys_iff _ names_eqb_eq) in Hin. destruct Hin as [Hin|Hin]; [contradiction|].
    subst k0. rewrite names_eqb_refl in E. discriminate.
Qed.

Lemma plain_fold_nodup : forall p design cr excl l d0 d,
  fold_left (plain_step p design cr excl) l (Ok d0) = Ok d -> NoDup (map fst d0) -> NoDup (map fst d).
Proof.
  intros p design cr excl l d0 d. apply (fold_res_inv (plain_step p design cr excl) (fun d => NoDup (map fst d))); [reflexivity|reflexivity|].
  intros a x b _ Ha E. unfold plain_step in E. cbn [bind] in E. cbv zeta in E.
  destruct (skip design excl (assign_of design x)); [apply Ok_inj in E; subst b; exact Ha|].
  destruct (combo_weight p cr (map (aval (assign_of design x)) cr)) as [w|e|s]; cbn [bind] in E; try discriminate.
  apply Ok_inj in E. subst b. apply dict_set_names_nodup. exact Ha.
Qed.

Lemma combos_fold_keys : forall p cr l d0 d,
  fold_left (fun acc combo => d <- acc ;; w <- combo_weight p cr combo ;; Ok (dict_set names_eqb combo w d)) l (Ok d0) = Ok d ->
  NoDup (map fst d0) ->
  NoDup (map fst d) /\ forall combo, In combo (map fst d) <-> In combo (map fst d0) \/ In combo l.
Proof.
  intros p cr l. induction l as [|x l IH]; intros d0 d H H0; cbn [fold_left] in H.
  - inversion H; subst. split; [exact H0|]. intro combo. cbn. tauto.
  - cbn [bind] in H. destruct (combo_weight p cr x) as [w|e|s]; cbn [bind] in H.
    + destruct (IH _ _ H (dict_set_names_nodup x w d0 H0)) as [H1 H2]. split; [exact H1|]. intro combo.
      rewrite H2, (dict_set_keys_iff _ names_eqb_eq). cbn. intuition.
    + exfalso. revert H. apply fold_res_err; try (intros; reflexivity). intros d'; discriminate.
    + exfalso. revert H. apply fold_res_err; try (intros; reflexivity). intros d'; discriminate.
Qed.

Section DocSide.
Variable p : program.
Variable crossing : list nat.
Hypothesis Hcs : forall f, In f crossing -> simple_id p f.
Hypothesis Hnames : forall f, In f crossing -> NoDup (map fst (plevels p f)).

Lemma combo_weight_step : forall (fs : list nat) ls a,
  (forall f, In f fs -> In f crossing) -> Forall2 (fun l f => l < nlv p f) ls fs ->
  fold_left (fun acc fn =>
               w <- acc ;; fd <- fm p (fst fn) ;; ws <- level_weights fd ;; ns <- level_names fd ;;
               i <- of_option "ValueError: index" (index_of String.eqb (snd fn) ns) ;;
               x <- of_option "IndexError: weights" (nth_error ws i) ;; Ok (w * x))
            (combine fs (zipw (nm p) fs ls)) (Ok a)
  = Ok (fold_left Nat.mul (zipw (wt p) fs ls) a).
Proof.
  intros fs ls a Hin H. revert a. induction H as [|l f ls fs Hl _ IH]; intro a; [reflexivity|].
  unfold zipw in *. cbn [combine map fst snd fold_left]. cbn [bind].
  assert (Hf : In f crossing) by (apply Hin; left; reflexivity). pose proof (Hcs f Hf) as Hs.
  destruct (simple_fm p f Hs) as [E _]. rewrite E. cbn [bind]. rewrite (level_weights_fd p f Hs), (level_names_fd p f Hs). cbn [bind].
  unfold nlv in Hl.
  assert (Ei : index_of String.eqb (nm p f l) (map fst (plevels p f)) = Some l).
  { unfold nm. apply (index_of_NoDup String.eqb_eq); [apply Hnames; exact Hf|apply nth_error_nth'; rewrite map_length; exact Hl]. }
  rewrite Ei. cbn [of_option bind].
  assert (Ew : nth_error (map snd (plevels p f)) l = Some (wt p f l)).
  { unfold wt. apply nth_error_nth'. rewrite map_length. exact Hl. }
  rewrite Ew. cbn [of_option bind]. apply IH. intros g Hg. apply Hin. right. exact Hg.
Qed.

Lemma combo_weight_names : forall ls, In ls (IP p crossing) ->
  combo_weight p crossing (zipw (nm p) crossing ls) = Ok (W p crossing ls).
Proof.
  intros ls H. unfold combo_weight, W, prod_list. apply combo_weight_step; [auto|]. apply in_IP_lt. exact H.
Qed.

Lemma NoDup_IP : NoDup (IP p crossing).
Proof.
  unfold IP. apply NoDup_product. apply Forall_forall. intros d Hd. apply in_map_iff in Hd.
  destruct Hd as [f [<- _]]. apply seq_NoDup.
Qed.

Lemma names_inj_gen : forall (fs : list nat) ls ls',
  (forall f, In f fs -> In f crossing) ->
  Forall2 (fun l f => l < nlv p f) ls fs -> Forall2 (fun l f => l < nlv p f) ls' fs ->
  zipw (nm p) fs ls = zipw (nm p) fs ls' -> ls = ls'.
Proof.
  intros fs ls ls' Hin H. revert ls'. induction H as [|l f ls fs Hl _ IH]; intros ls' H' E; inversion H' as [|l' f' ls2 fs2 Hl' Hr]; subst; [reflexivity|].
  unfold zipw in E. cbn [combine map fst snd] in E. injection E as E1 E2.
  assert (Hf : In f crossing) by (apply Hin; left; reflexivity).
  f_equal.
  - unfold nm in E1. pose proof (proj1 (NoDup_nth (map fst (plevels p f)) EmptyString) (Hnames f Hf)) as Hn.
    unfold nlv in Hl, Hl'. apply Hn; [rewrite map_length; exact Hl|rewrite map_length; exact Hl'|exact E1].
  - apply IH; [intros g Hg; apply Hin; right; exact Hg|exact Hr|exact E2].
Qed.

Lemma names_inj : forall ls ls', In ls (IP p crossing) -> In ls' (IP p crossing) ->
  zipw (nm p) crossing ls = zipw (nm p) crossing ls' -> ls = ls'.
Proof. intros ls ls' H H' E. eapply names_inj_gen; eauto using in_IP_lt. Qed.

(** [d] is the dictionary of the level tuples selected by [P]: its keys are their level names, once each,
    its values their weights *)
Definition keys_are (d : combos) (P : list nat -> bool) : Prop :=
  NoDup (map fst d) /\
  (forall k v, In (k, v) d -> combo_weight p crossing k = Ok v) /\
  (forall combo, In combo (map fst d) <-> exists ls, In ls (IP p crossing) /\ P ls = true /\ zipw (nm p) crossing ls = combo).

Lemma keys_are_ext : forall d P Q, (forall ls, In ls (IP p crossing) -> P ls = Q ls) -> keys_are d P -> keys_are d Q.
Proof.
  intros d P Q H [Hnd [Hv Hk]]. split; [exact Hnd|]. split; [exact Hv|]. intro combo. rewrite Hk.
  split; intros [ls [H1 [H2 H3]]]; exists ls; (split; [exact H1|]); (split; [|exact H3]); [rewrite <- (H ls H1)|rewrite (H ls H1)]; exact H2.
Qed.

Lemma keys_are_same : forall a b P, keys_are a P -> keys_are b P -> forall k, In k (map fst a) <-> In k (map fst b).
Proof. intros a b P [_ [_ Ha]] [_ [_ Hb]] k. rewrite Ha, Hb. reflexivity. Qed.

Lemma dict_sum : forall (d : combos) (P : list nat -> bool), keys_are d P ->
  sum_values d = list_sum (map (W p crossing) (filter P (IP p crossing))).
Proof.
  intros d P [Hnd [Hv Hk]]. unfold sum_values. rewrite (fold_add_sum snd). cbn [Nat.add].
  set (g := fun k : list name => match combo_weight p crossing k with Ok v => v | _ => 0 end).
  assert (E1 : map snd d = map g (map fst d)).
  { rewrite map_map. apply map_ext_in. intros [k v] Hin. cbn. unfold g. rewrite (Hv k v Hin). reflexivity. }
  rewrite E1.
  assert (HP : Permutation (map fst d) (map (zipw (nm p) crossing) (filter P (IP p crossing)))).
  { apply NoDup_Permutation; [exact Hnd| |].
    - apply NoDup_map_inj_in; [|apply NoDup_filter; apply NoDup_IP].
      intros x y Hx Hy. apply filter_In in Hx, Hy. apply names_inj; tauto.
    - intro combo. rewrite Hk, in_map_iff. split.
      + intros [ls [H1 [H2 H3]]]. exists ls. split; [exact H3|]. apply filter_In. split; assumption.
      + intros [ls [H3 H12]]. apply filter_In in H12. exists ls. tauto. }
  rewrite (Permutation_list_sum (Permutation_map g HP)). rewrite map_map. apply (f_equal (@list_sum)).
  apply map_ext_in. intros ls Hls. apply filter_In in Hls. unfold g. rewrite (combo_weight_names ls (proj1 Hls)). reflexivity.
Qed.

Lemma all_combos_keys : forall d, all_combos p crossing = Ok d -> keys_are d (fun _ => true).
Proof.
  intros d H. pose proof (fun k v => all_combos_weight p crossing d k v H) as Hw. unfold all_combos in H.
  rewrite (mapM_all_ok _ (names_of p)) in H.
  2:{ intros f Hf. destruct (simple_fm p f (Hcs f Hf)) as [-> _]. cbn [bind]. apply simple_names. exact (Hcs f Hf). }
  cbn [bind] in H. destruct (combos_fold_keys _ _ _ _ _ H (NoDup_nil _)) as [H1 H2]. split; [exact H1|]. split; [exact Hw|].
  intro combo. rewrite H2, (names_product_IP p crossing Hcs). cbn [map In]. rewrite in_map_iff. split.
  - intros [[]|[ls [E Hls]]]. exists ls. auto.
  - intros [ls [Hls [_ E]]]. right. exists ls. auto.
Qed.

End DocSide.

Lemma in_combine_nth : forall {A B} (l : list A) (m : list B) i x d, nth_error l i = Some x -> i < List.length m -> In (x, nth i m d) (combine l m).
Proof.
  intros A B l. induction l as [|a l IH]; intros m i x d H Hi; [destruct i; discriminate|].
  destruct m as [|b m]; [cbn in Hi; lia|]. destruct i as [|i]; cbn in *.
  - inversion H. left. reflexivity.
  - right. apply IH; [exact H|lia].
Qed.

Lemma zipw_map_r : forall {A B C} (g : A -> B -> C) (h : A -> B) fs, zipw g fs (map h fs) = map (fun f => g f (h f)) fs.
Proof. intros. induction fs as [|f fs IH]; [reflexivity|]. unfold zipw in *. cbn. f_equal. exact IH. Qed.

Lemma zipw_nodup : forall {B C} (g : nat -> B -> C) (fs : list nat) (ls : list B) d, NoDup fs -> List.length ls = List.length fs ->
  zipw g fs ls = map (fun f => g f (nth (pos fs f) ls d)) fs.
Proof.
  intros B C g fs. induction fs as [|x fs IH]; intros ls d Hnd Hlen; [reflexivity|]. destruct ls as [|l ls]; [discriminate|].
  inversion Hnd; subst. unfold zipw in *. cbn [combine map fst snd]. f_equal.
  - unfold pos. cbn. rewrite Nat.eqb_refl. reflexivity.
  - rewrite (IH ls d) by (try assumption; cbn in Hlen; lia). apply map_ext_in. intros f Hf. f_equal.
    unfold pos. cbn. destruct (Nat.eqb_spec f x) as [->|Hne]; [contradiction|].
    destruct (index_of_In Nat.eqb_eq f fs Hf) as [i E]. rewrite E. reflexivity.
Qed.

Section Keys.
Variable p : program.
Variables design crossing : list nat.
Hypothesis Hsimple : forall d, In d design -> simple_id p d.
Hypothesis Hincl : incl crossing design.
Hypothesis HndD : NoDup design.
Hypothesis HndC : NoDup crossing.
Hypothesis Hlev : forall d, In d design -> 0 < nlv p d.

Lemma assign_combine : forall vals, List.length vals = List.length design -> assign_of design vals = combine design vals.
Proof.
  intros vals Hlen. unfold assign_of. change (dict_of Nat.eqb (combine design vals)) with (dict_update Nat.eqb [] (combine design vals)).
  rewrite dict_update_fresh; [reflexivity|]. cbn. rewrite map_fst_combine by (symmetry; exact Hlen). exact HndD.
Qed.

Lemma aval_nth : forall vals f i, List.length vals = List.length design -> nth_error design i = Some f ->
  aval (assign_of design vals) f = nth i vals EmptyString.
Proof.
  intros vals f i Hlen Hi. unfold aval. rewrite (assign_combine vals Hlen).
  assert (Hlt : i < List.length vals) by (rewrite Hlen; apply nth_error_Some; congruence).
  rewrite (dict_get_in (combine design vals) f (nth i vals EmptyString)); [reflexivity| |apply in_combine_nth; assumption].
  rewrite map_fst_combine by (symmetry; exact Hlen). exact HndD.
Qed.

Lemma aval_in_names : forall vals d, In vals (DocSem.product (map (names_of p) design)) -> In d design ->
  In (aval (assign_of design vals) d) (names_of p d).
Proof.
  intros vals d Hin Hd. destruct (In_nth_error _ _ Hd) as [i Hi].
  assert (Hlen : List.length vals = List.length design) by (rewrite (in_product_length _ _ Hin), map_length; reflexivity).
  assert (Hlt : i < List.length vals) by (rewrite Hlen; apply nth_error_Some; congruence).
  rewrite (aval_nth vals d i Hlen Hi). apply in_product_iff in Hin.
  pose proof (Forall2_nth _ _ _ i EmptyString [] Hin Hlt) as Hn. cbn beta in Hn. rewrite (nth_map_nth_error (names_of p) design _ d [] Hi) in Hn. exact Hn.
Qed.

Definition idx (f : nat) (v : name) : nat :=
  match index_of String.eqb v (map fst (plevels p f)) with Some i => i | None => 0 end.

Lemma idx_spec : forall f v, In v (map fst (plevels p f)) -> idx f v < nlv p f /\ nm p f (idx f v) = v.
Proof.
  intros f v Hv. destruct (index_of_in _ _ EmptyString Hv) as [i [E1 [E2 E3]]]. unfold idx, nm, nlv. rewrite E1.
  rewrite map_length in E2. split; assumption.
Qed.

Definition exN (excl : list (nat * name)) (ls : list nat) : bool :=
  existsb (fun fn => memb level_eqb fn excl) (combine crossing (zipw (nm p) crossing ls)).

Lemma skip_exN : forall excludes vals, List.length vals = List.length design ->
  skip design (plain_excl crossing excludes) (assign_of design vals)
  = existsb (fun fn => memb level_eqb fn (plain_excl crossing excludes))
            (combine crossing (map (aval (assign_of design vals)) crossing)).
Proof.
  intros excludes vals Hlen. unfold skip. apply eq_true_iff_eq. rewrite !existsb_exists. split.
  - intros [[b v] [Hbv Hm]]. cbn [fst] in Hm. apply andb_true_iff in Hm. destruct Hm as [_ Hm]. exists (b, v). split; [|exact Hm].
    assert (Hbc : In b crossing).
    { unfold memb in Hm. apply existsb_exists in Hm. destruct Hm as [e [He Hm]]. apply level_eqb_eq in Hm. subst e.
      apply filter_In in He. apply (existsb_eqb_In b crossing). exact (proj2 He). }
    apply in_combine_map. split; [exact Hbc|]. symmetry. apply (assign_in_aval design vals b v Hlen (Hincl b Hbc)). exact Hbv.
  - intros [[f n] [Hfn Hm]]. apply in_combine_map in Hfn. destruct Hfn as [Hf ->]. exists (f, aval (assign_of design vals) f). split.
    + apply (assign_in_aval design vals f _ Hlen (Hincl f Hf)). reflexivity.
    + cbn [fst]. rewrite (mem_true f design (Hincl f Hf)). exact Hm.
Qed.

Theorem feasible_keys : forall excludes fe,
  plain_feasible p design crossing excludes = Ok fe ->
  keys_are p crossing fe (fun ls => negb (exN (plain_excl crossing excludes) ls)).
Proof.
  intros excludes fe H. unfold plain_feasible in H.
  split; [eapply plain_fold_nodup; [exact H|constructor]|].
  split; [intros k v Hin; eapply plain_fold_weight; [exact H|intros k0 v0 []|exact Hin]|].
  intro combo. rewrite (plain_fold_keys _ _ _ _ _ _ _ H combo). cbn [map In]. split.
  - (* an assignment that is not skipped: the tuple of the indices of its values on the crossing *)
    intros [[]|[vals [Hin [Hskip Hproj]]]].
    assert (Hlen : List.length vals = List.length design) by (rewrite (in_product_length _ _ Hin), map_length; reflexivity).
    rewrite (skip_exN excludes vals Hlen) in Hskip. set (a := assign_of design vals) in *.
    assert (Hv : forall f, In f crossing -> In (aval a f) (map fst (plevels p f))).
    { intros f Hf. rewrite <- (names_of_plevels p f (Hsimple f (Hincl f Hf))). exact (aval_in_names vals f Hin (Hincl f Hf)). }
    assert (Enames : zipw (nm p) crossing (map (fun f => idx f (aval a f)) crossing) = map (aval a) crossing).
    { rewrite zipw_map_r. apply map_ext_in. intros f Hf. exact (proj2 (idx_spec f _ (Hv f Hf))). }
    exists (map (fun f => idx f (aval a f)) crossing). split; [|split].
    + apply in_IP_iff, Forall2_map_l, Forall2_diag. intros f Hf. exact (proj1 (idx_spec f _ (Hv f Hf))).
    + unfold exN. rewrite Enames, Hskip. reflexivity.
    + rewrite Enames. exact Hproj.
  - (* a level tuple without an excluded level: the assignment that names its levels, and level 0 elsewhere *)
    intros [ls [Hls [Hex' Hnames']]]. right. apply negb_true_iff in Hex'.
    pose proof (in_IP_lt p crossing ls Hls) as Hlt. pose proof (in_IP_length p crossing ls Hls) as Hlenls.
    set (g := fun d => match index_of Nat.eqb d crossing with Some j => nm p d (nth j ls 0) | None => nm p d 0 end).
    assert (Hlen : List.length (map g design) = List.length design) by apply map_length.
    assert (Eproj : map (aval (assign_of design (map g design))) crossing = zipw (nm p) crossing ls).
    { rewrite (zipw_nodup (nm p) crossing ls 0 HndC Hlenls). apply map_ext_in. intros f Hf.
      pose proof (pos_nth_error design f (Hincl f Hf)) as Hp.
      rewrite (aval_nth (map g design) f (pos design f) Hlen Hp), (nth_map_nth_error g design _ f EmptyString Hp).
      unfold g, pos. destruct (index_of_In Nat.eqb_eq f crossing Hf) as [i ->]. reflexivity. }
    exists (map g design). split; [|split].
    + apply in_product_iff, Forall2_map_r, Forall2_map_l, Forall2_diag. intros d Hd. rewrite (names_of_plevels p d (Hsimple d Hd)).
      unfold g. destruct (index_of Nat.eqb d crossing) as [j|] eqn:E; unfold nm; apply nth_In; rewrite map_length; [|apply Hlev; exact Hd].
      apply (index_of_Some Nat.eqb_eq) in E.
      assert (Hj : j < List.length ls) by (rewrite Hlenls; apply nth_error_Some; congruence).
      pose proof (Forall2_nth _ _ _ j 0 0 Hlt Hj) as Hn. cbn beta in Hn. rewrite (nth_error_nth _ _ 0 E) in Hn. exact Hn.
    + rewrite (skip_exN excludes _ Hlen), Eproj. exact Hex'.
    + rewrite Eproj. exact Hnames'.
Qed.

End Keys.
