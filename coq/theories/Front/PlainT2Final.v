(** T2(c) on the simplest fragment, the statement on programs:
    [plain_input p = Some ci -> t2_guard p = true -> create_flat ci = FOk fb -> doc_sem p = Ok ds ->
     sem_eqv (code_sem fb) (ds_sem ds)], hence equal [valid_b].  The file defines the guards
    [t2_guard] (what a program must be for this statement) and [t2e_guard] ([t2_guard] plus
    k > 0 on AtLeastKInARow / ExactlyKInARow) and proves that under [t2e_guard] the created record
    is in the fragment F1 of the compilation theorem ([plain_t2_in_f1]). *)
From Coq Require Import ZArith List Bool Arith Lia String Sorted.
From SP Require Import Base.Lists Design.Flat Design.Sem Design.SemEqv Design.SemEqvT Design.DocSem Design.DocSemPlain Front.CreateFlat
     Front.PlainInput Front.PlainT2 Front.PlainT2Cons Front.PlainT2Main Front.DerivedInput Front.DerivedT2Flat
     Front.DerivedT2Doc Front.DerivedT2Keys Front.DerivedT2Main Encode.CodeSem.
Import ListNotations.
Local Open Scope nat_scope.
Local Open Scope list_scope.

Fixpoint nodup_nat_b (l : list nat) : bool :=
  match l with [] => true | x :: r => negb (DocSem.mem x r) && nodup_nat_b r end.

Fixpoint nodup_names_b (l : list name) : bool :=
  match l with [] => true | x :: r => negb (existsb (String.eqb x) r) && nodup_names_b r end.

(** the design and the crossing list every factor once; the crossing is not empty; every design
    factor is simple, has a level, and distinct level names; not (complete crossing required and a
    level of a crossed factor excluded) *)
Definition t2_guard (p : program) : bool :=
  match p_main p with
  | PCross design crossing cs rcc =>
    nodup_nat_b design && nodup_nat_b crossing && nonempty crossing &&
    forallb (fun f => match fm p f with
                      | Ok fd => match pf_kind fd with
                                 | FSimple levels => nonempty levels && nodup_names_b (map fst levels)
                                 | _ => false
                                 end
                      | _ => false
                      end) design &&
    (negb rcc || negb (existsb (fun fn : nat * name => DocSem.mem (fst fn) crossing) (excludes_of cs)))
  | _ => false
  end.

Lemma nodup_nat_b_sound : forall l, nodup_nat_b l = true -> NoDup l.
Proof. exact (nodup_b_sound Nat.eqb nodup_nat_b Nat.eqb_refl (fun _ _ => eq_refl)). Qed.

Lemma nodup_names_b_sound : forall l, nodup_names_b l = true -> NoDup l.
Proof. exact (nodup_b_sound String.eqb nodup_names_b String.eqb_refl (fun _ _ => eq_refl)). Qed.

(** * a design of simple factors is the case of Front/DerivedT2Main.v without derived factors *)
Definition the_ci (p : program) (design crossing : list nat) (ics : list iconstraint) (rcc ef : bool) : create_input :=
  dci design crossing (map (mkff p) design) ics rcc ef
      (plain_exclusions (map (mkff p) design) (map (pos design) crossing) (excluded_levels ics)) [] [].

(** what [t2_guard] and the success of [plain_input] establish about the parts of a program *)
Local Set Implicit Arguments.
Record plain_ctx (p : program) (design crossing : list nat) (cs : list pcons) (rcc : bool) (ics : list iconstraint) : Prop := {
  pc_simple : forall f, In f design -> simple_id p f;
  pc_incl : incl crossing design;
  pc_names : forall d, In d design -> NoDup (map fst (plevels p d));
  pc_ndD : NoDup design;
  pc_ndC : NoDup crossing;
  pc_lev : forall d, In d design -> 0 < nlv p d;
  pc_ne : crossing <> [];
  pc_ics : Forall2 (fun c ic => plain_constraint p design c = Some ic) cs ics;
  pc_guard : rcc = true -> forall f n, In (f, n) (excludes_of cs) -> ~ In f crossing }.
Local Unset Implicit Arguments.

Section Plain.
Variable p : program.
Variables design crossing : list nat.
Variable cs : list pcons.
Variable rcc : bool.
Variable ics : list iconstraint.
Variable ef : bool.
Hypothesis C : plain_ctx p design crossing cs rcc ics.
Let Hsimple := pc_simple C.
Let Hincl := pc_incl C.
Let Hnames := pc_names C.
Let HndD := pc_ndD C.
Let HndC := pc_ndC C.
Let Hlev := pc_lev C.
Let Hne := pc_ne C.
Let Hics := pc_ics C.
Let Hguard := pc_guard C.

Let fds := map (mkff p) design.
Let cr := map (pos design) crossing.
Let excl := excluded_levels ics.

Lemma plain_kinds : forall f, In f design -> simple_id p f \/ within_ok p design f.
Proof. intros f Hf. left. exact (Hsimple f Hf). Qed.

Lemma plain_crossing_simple : forall f, In f crossing -> simple_id p f /\ In f design.
Proof.
  intros f Hf. split; [exact (Hsimple f (Hincl f Hf))|exact (Hincl f Hf)].
Qed.

Lemma plain_excludes_simple : Forall (fun fn : nat * name => simple_id p (fst fn)) (excludes_of cs).
Proof.
  apply Forall_forall. intros [f n] Hin.
  destruct (excluded_levels_gen p design (design_fm p design plain_kinds)
              (fun f Hf => DocSemPlain.simple_names p f (Hsimple f Hf)) cs ics Hics) as [_ H].
  apply Hsimple. apply (H f n Hin).
Qed.

Lemma plain_depth_sorted : StronglySorted (fun a b : nat * nat => (snd a <=? snd b) = true) (map (fun f => (f, if simple_b p f then 0 else 1)) design).
Proof.
  apply SS_all. intros a b Ha Hb. apply in_map_iff in Ha, Hb. destruct Ha as [f [<- Hf]]. destruct Hb as [g [<- Hg]]. cbn [snd].
  rewrite !simple_b_true by (apply Hsimple; assumption). reflexivity.
Qed.

Lemma plain_fds_spec : Forall2 (fun f ff => match fm p f with Ok fd => derived_factor p design fd | _ => None end = Some ff) design fds.
Proof.
  assert (G : forall l, (forall f, In f l -> simple_id p f) ->
              Forall2 (fun f ff => match fm p f with Ok fd => derived_factor p design fd | _ => None end = Some ff) l (map (mkff p) l)).
  { induction l as [|f l IH]; intro H; constructor; [|apply IH; intros g Hg; apply H; right; exact Hg].
    pose proof (H f (or_introl eq_refl)) as Hf. destruct (simple_fm p f Hf) as [-> _].
    unfold derived_factor. rewrite (simple_plevels p f Hf). unfold plain_factor. rewrite (simple_plevels p f Hf). reflexivity. }
  exact (G design Hsimple).
Qed.

Lemma plain_no_excluded_crossings : forall act, rcc = true -> excluded_crossings fds act cr excl = [].
Proof.
  intros act Hr. unfold cr, excl. rewrite (excluded_crossings_IP p design crossing cs fds ics act plain_kinds plain_crossing_simple plain_excludes_simple plain_fds_spec Hics).
  rewrite filter_none; [reflexivity|]. intros ls Hls.
  rewrite (ex_agree_gen p design crossing cs ics plain_kinds plain_crossing_simple plain_excludes_simple (fun d Hd _ => Hnames d Hd) Hics ls Hls).
  assert (E : plain_excl crossing (excludes_of cs) = []).
  { apply filter_none. intros [f n] Hin. cbn [fst]. destruct (DocSem.mem f crossing) eqn:Em; [|reflexivity].
    apply existsb_exists in Em. destruct Em as [x [Hx Ex]]. apply Nat.eqb_eq in Ex. subst x. destruct (Hguard Hr f n Hin Hx). }
  rewrite E. apply existsb_false. reflexivity.
Qed.

Lemma the_ci_dci : the_ci p design crossing ics rcc ef =
  dci design crossing fds ics rcc ef (derived_exclusions fds [] cr excl) [] (derived_excluded_derived fds excl).
Proof.
  pose proof (plain_exclusions_sum p design crossing Hincl excl) as E1.
  pose proof (exclusions_sum p design crossing cs fds ics [] plain_kinds plain_crossing_simple plain_excludes_simple plain_fds_spec Hics) as E2.
  pose proof (Hexd0 p design cs fds ics plain_kinds plain_excludes_simple plain_fds_spec Hics) as E3.
  unfold the_ci. fold fds cr excl in E1, E2, E3 |- *. rewrite E1, E2, E3. reflexivity.
Qed.

Lemma plain_no_derivations : forall c : fconstraint, In c [] -> exists v dd f, c = FDerivation v dd f.
Proof. intros c []. Qed.

Theorem plain_sem_eqv : forall fb ds,
  p_main p = PCross design crossing cs rcc ->
  create_flat (the_ci p design crossing ics rcc ef) = FOk fb -> doc_sem p = Ok ds ->
  sem_eqv (code_sem fb) (ds_sem ds).
Proof.
  intros fb ds Hmain Hfb Hds. rewrite the_ci_dci in Hfb.
  destruct (cross_core p design crossing cs rcc fds ics [] [] ef plain_kinds HndD HndC Hne plain_crossing_simple plain_excludes_simple (fun d Hd _ => Hnames d Hd)
              (fun d Hd _ => Hlev d Hd) plain_depth_sorted plain_fds_spec Hics (plain_no_excluded_crossings []) Hmain plain_no_derivations fb ds Hfb Hds) as [Hd [Hsu [[x EF] [ET [EK EX]]]]].
  split; [exact ET|]. split; [|split; [exact EK|exact EX]].
  rewrite (mapM_all_ok _ (fun f => {| f_nlevels := nlv p f; f_sustain := 1; f_derived := None |})) in EF
    by (intros f Hf; rewrite (sem_factor_simple p _ design f (Hsimple f Hf)); reflexivity).
  injection EF as <-. unfold code_sem. cbn [s_factors]. rewrite Hd. apply code_factors_gen. exact Hsu.
Qed.

(** the created flat record lies in the fragment F1 of the compilation theorem *)
Theorem plain_flat_in_f1 : forall fb,
  create_flat (the_ci p design crossing ics rcc ef) = FOk fb -> Forall kpos cs ->
  in_f1 fb = true /\ 0 < Compile.T fb.
Proof.
  intros fb Hfb Hk. rewrite the_ci_dci in Hfb.
  destruct (created_form p design crossing cs rcc fds ics [] [] ef plain_kinds Hne plain_crossing_simple plain_excludes_simple plain_fds_spec Hics fb Hfb)
    as [HS [g [Hgt [Hgp [Hgs [Hd [Hact [Hc [Hs [Hw [Hsz [Hpre [Hal [Htr [Hex [Hexd Hcons]]]]]]]]]]]]]]]].
  rewrite app_nil_r in Hcons. set (Sz := psize p design crossing ics) in *.
  set (T := Nat.max (Nat.max Sz 1) (list_max (min_trials_of cs))) in *.
  assert (HT : 0 < T) by (unfold T; lia).
  split; [|unfold Compile.T; rewrite Htr; exact HT].
  eapply (plain_in_f1 p design crossing cs ics Hsimple Hincl HndC Hlev Hne Hics T HT fb) with (g := g) (sz := Sz) (w := ceil_div T Sz);
    try eassumption.
  - rewrite Hact. apply (st_act_plain p design). reflexivity.
  - apply Nat.mul_pos_pos; [exact HS|]. unfold ceil_div. apply Nat.div_str_pos. lia.
Qed.

End Plain.

Lemma plain_input_inv : forall p ci, plain_input p = Some ci -> t2_guard p = true ->
  exists design crossing cs rcc ics ef,
    p_main p = PCross design crossing cs rcc /\ ci = the_ci p design crossing ics rcc ef /\ plain_ctx p design crossing cs rcc ics.
Proof.
  intros p ci Hin Hg. unfold plain_input in Hin. unfold t2_guard in Hg.
  destruct (p_main p) as [design crossing cs rcc| | | |] eqn:Hmain; try discriminate.
  unfold plain_input_of in Hin.
  destruct (all_opt (map (fun f => match fm p f with Ok fd => plain_factor fd | _ => None end) design)) as [fds|] eqn:Hfds; [|discriminate].
  destruct (all_opt (map (fpos design) crossing)) as [cr|] eqn:Hcr; [|discriminate].
  destruct (all_opt (map (plain_constraint p design) cs)) as [ics|] eqn:Hics; [|discriminate].
  destruct (plain_fds p design fds Hfds) as [Hsimple ->]. destruct (plain_cr design crossing cr Hcr) as [-> Hincl].
  apply all_opt_some in Hics.
  rewrite !andb_true_iff in Hg. destruct Hg as [[[[G1 G2] G3] G4] G5].
  assert (Hne : crossing <> []) by (destruct crossing; [discriminate|discriminate]).
  rewrite forallb_forall in G4.
  assert (Hfd : forall d, In d design -> nonempty (plevels p d) = true /\ nodup_names_b (map fst (plevels p d)) = true).
  { intros d Hd. specialize (G4 d Hd). unfold plevels, fd_of. destruct (fm p d) as [fd| |]; try discriminate.
    destruct (pf_kind fd) as [levels| |]; try discriminate. apply andb_true_iff in G4. exact G4. }
  exists design, crossing, cs, rcc, ics. eexists. split; [reflexivity|]. split.
  { injection Hin as <-. unfold the_ci, dci, mk_input. destruct crossing; [congruence|]. reflexivity. }
  constructor; [exact Hsimple|exact Hincl|intros d Hd; apply nodup_names_b_sound, (Hfd d Hd)|apply nodup_nat_b_sound; exact G1|
               apply nodup_nat_b_sound; exact G2| |exact Hne|exact Hics|].
  { intros d Hd. destruct (Hfd d Hd) as [H _]. unfold nlv. destruct (plevels p d); [discriminate|cbn; lia]. }
  intros Hr f n Hfn Hf. rewrite Hr in G5. cbn in G5. apply negb_true_iff in G5.
  assert (existsb (fun fn : nat * name => DocSem.mem (fst fn) crossing) (excludes_of cs) = true); [|congruence].
  apply existsb_exists. exists (f, n). split; [exact Hfn|]. apply existsb_exists. exists f. split; [exact Hf|apply Nat.eqb_refl].
Qed.

Theorem plain_t2 : forall p ci fb ds,
  plain_input p = Some ci -> t2_guard p = true -> create_flat ci = FOk fb -> doc_sem p = Ok ds ->
  sem_eqv (code_sem fb) (ds_sem ds).
Proof.
  intros p ci fb ds Hin Hg Hfb Hds.
  destruct (plain_input_inv p ci Hin Hg) as (design & crossing & cs & rcc & ics & ef & Hmain & -> & C).
  exact (plain_sem_eqv p design crossing cs rcc ics ef C fb ds Hmain Hfb Hds).
Qed.

Corollary plain_t2_valid : forall p ci fb ds,
  plain_input p = Some ci -> t2_guard p = true -> create_flat ci = FOk fb -> doc_sem p = Ok ds ->
  forall s, valid_b (code_sem fb) s = valid_b (ds_sem ds) s.
Proof. intros p ci fb ds H1 H2 H3 H4. apply sem_eqv_valid. eapply plain_t2; eauto. Qed.

(** [in_f1] asks for k > 0 on AtLeastKInARow / ExactlyKInARow *)
Definition kpos_b (c : pcons) : bool :=
  match c with PKRow DocSem.RAtLeast k _ | PKRow DocSem.RExactlyRow k _ => 0 <? k | _ => true end.

Definition t2e_guard (p : program) : bool :=
  t2_guard p && match p_main p with PCross _ _ cs _ => forallb kpos_b cs | _ => false end.

Theorem plain_t2_in_f1 : forall p ci fb,
  plain_input p = Some ci -> t2e_guard p = true -> create_flat ci = FOk fb ->
  in_f1 fb = true /\ 0 < Compile.T fb.
Proof.
  intros p ci fb Hin Hg Hfb. unfold t2e_guard in Hg. apply andb_true_iff in Hg. destruct Hg as [Hg Hkb].
  destruct (plain_input_inv p ci Hin Hg) as (design & crossing & cs & rcc & ics & ef & Hmain & -> & C).
  rewrite Hmain in Hkb.
  assert (Hk : Forall kpos cs).
  { apply Forall_forall. intros c Hc. rewrite forallb_forall in Hkb. specialize (Hkb c Hc). unfold kpos_b in Hkb. unfold kpos.
    destruct c as [[] k tg| | | | | | |]; try exact I; apply Nat.ltb_lt; exact Hkb. }
  eapply (plain_flat_in_f1 p design crossing cs rcc ics ef); eassumption.
Qed.
