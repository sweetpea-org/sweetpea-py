(** The hypotheses of the decoding theorem of C14 ([wf_layout], [act_keys_distinct], at least one trial) hold of
    every flat record [create_flat] (Front/CreateFlat.v) builds from an input satisfying [input_ok]
    (Front/CreateOk.v) whose design has pairwise distinct dict keys (the constructors reject equal factor names). *)
From Coq Require Import ZArith List Bool Arith Lia String.
From SP Require Import Design.Flat Design.Layout Design.LayoutWf.
From SP Require Import Sample.Decode Sample.DecodeWf Sample.DecodeProofs.
From SP Require Import Front.CreateFlatProofs Front.CreateFlat Front.CreateWf.
Import ListNotations.

(** the dict keys of the factors of the design are pairwise distinct *)
Definition design_keys_distinct (ci : create_input) : bool :=
  keys_nodup (map (key_of (in_flat ci)) (seq 0 (List.length (ci_design ci)))).

Lemma keys_nodup_filter : forall (k : nat -> dkey) (P : nat -> bool) l,
  keys_nodup (map k l) = true -> keys_nodup (map k (filter P l)) = true.
Proof.
  intros k P l. induction l as [|x r IH]; intro H; [reflexivity|].
  cbn [map keys_nodup] in H. apply andb_prop in H. destruct H as [Hx Hr].
  cbn [filter]. destruct (P x); [|exact (IH Hr)].
  cbn [map keys_nodup]. rewrite (IH Hr), andb_true_r.
  apply negb_true_iff. apply negb_true_iff in Hx.
  destruct (existsb (dkey_eqb (k x)) (map k (filter P r))) eqn:E; [|reflexivity].
  apply existsb_exists in E. destruct E as [y [Hy Hxy]].
  apply in_map_iff in Hy. destruct Hy as [z [<- Hz]]. apply filter_In in Hz. destruct Hz as [Hz _].
  assert (existsb (dkey_eqb (k x)) (map k r) = true).
  { apply existsb_exists. exists (k z). split; [apply in_map; exact Hz | exact Hxy]. }
  congruence.
Qed.

Lemma key_of_design : forall x y f, fl_design x = fl_design y -> key_of x f = key_of y f.
Proof. intros x y f H. unfold key_of, factor_at. rewrite H. reflexivity. Qed.

Theorem created_act_keys_distinct : forall ci fb,
  design_keys_distinct ci = true -> create_flat ci = FOk fb -> act_keys_distinct fb = true.
Proof.
  intros ci fb Hk Hc.
  destruct (create_flat_inv ci fb Hc) as [pres [T [m [ws [_ ->]]]]].
  unfold act_keys_distinct. cbn [built mkflat fl_act]. unfold st_act.
  rewrite (map_ext _ (key_of (in_flat ci))) by (intro f; apply key_of_design; reflexivity).
  apply keys_nodup_filter. exact Hk.
Qed.

(** C14 decoding on a created record: no hypothesis about [fb] left *)
Theorem decode_of_created : forall (ci : create_input) (fb : flat),
  input_ok ci = true -> design_keys_distinct ci = true -> create_flat ci = FOk fb ->
  forall s : nat -> nat -> nat,
    (forall f t, In f (fl_act fb) /\ 1 <= t <= fl_trials fb /\ applies_at fb f t = true ->
                 s f t < nlevels fb f) ->
    forall sol : list Z,
      NoDup sol ->
      (forall v, 1 <= v <= variables_per_sample fb ->
                 (In (Z.of_nat v) sol <->
                  exists f t, (In f (fl_act fb) /\ 1 <= t <= fl_trials fb /\ applies_at fb f t = true) /\
                              encode_variable fb f (s f t) t = Some v)) ->
      exists d,
        decode fb sol = DOk d /\
        (forall f, In f (fl_act fb) ->
                   lookup (key_of fb f) d
                   = Some (map (fun t0 => if applies_at fb f (S t0)
                                          then level_name fb f (s f (S t0)) else EmptyString)
                               (seq 0 (fl_trials fb)))) /\
        (forall k ys, In (k, ys) d -> exists f, In f (fl_act fb) /\ k = key_of fb f).
Proof.
  intros ci fb Hok Hk Hc.
  exact (decode_onehot fb (create_flat_wf_layout ci fb Hok Hc) (created_act_keys_distinct ci fb Hk Hc)
                       (created_trials_pos ci fb Hc)).
Qed.

Example ex_ok_input_keys : design_keys_distinct ex_ok_input = true.
Proof. reflexivity. Qed.
