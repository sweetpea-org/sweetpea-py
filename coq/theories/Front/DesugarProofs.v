(** Proofs about Front/Desugar.v. *)
From Coq Require Import List Bool Arith Lia String.
From SP Require Import Base.Lists Front.Desugar.
Import ListNotations.

Definition sum_list (l : list nat) : nat := fold_left Nat.add l 0.

Lemma combination_weight_nil : combination_weight [] = 1.
Proof. reflexivity. Qed.

Lemma combination_weight_cons : forall w ws, combination_weight (w :: ws) = w * combination_weight ws.
Proof. intros. unfold combination_weight. cbn [fold_left]. rewrite fold_mul_acc. lia. Qed.

Lemma combination_weight_app : forall a b, combination_weight (a ++ b) = combination_weight a * combination_weight b.
Proof.
  induction a as [|w a IH]; intro b; cbn [app].
  - rewrite combination_weight_nil. lia.
  - rewrite !combination_weight_cons, IH. lia.
Qed.

Theorem weight_scales_combination : forall ws1 w ws2,
  combination_weight (ws1 ++ w :: ws2) = w * combination_weight (ws1 ++ 1 :: ws2).
Proof.
  intros. rewrite !combination_weight_app, !combination_weight_cons. lia.
Qed.

Lemma sum_list_cons : forall x l, sum_list (x :: l) = x + sum_list l.
Proof. intros. unfold sum_list. cbn [fold_left]. rewrite fold_add_acc. lia. Qed.

Lemma sum_list_app : forall a b, sum_list (a ++ b) = sum_list a + sum_list b.
Proof.
  induction a as [|x a IH]; intro b; cbn [app]; [reflexivity|].
  rewrite !sum_list_cons, IH. lia.
Qed.

Lemma sum_list_map_mul : forall (l : list nat) k, sum_list (map (fun x => k * x) l) = k * sum_list l.
Proof.
  induction l as [|x l IH]; intro k; cbn [map]; [unfold sum_list; cbn; lia|].
  rewrite !sum_list_cons, IH. lia.
Qed.

Lemma level_weight_sum_eq : forall f, level_weight_sum f = sum_list (map snd (wf_levels f)).
Proof.
  intro f. unfold level_weight_sum, sum_list. generalize 0.
  induction (wf_levels f) as [|l ls IH]; intro a; cbn [fold_left map]; [reflexivity | apply IH].
Qed.

Lemma combos_weight_sum : forall (ls : list (list (string * nat))),
  sum_list (map (fun cb => combination_weight (map snd cb)) (combos ls))
  = fold_left (fun a l => a * sum_list (map snd l)) ls 1.
Proof.
  assert (Hacc : forall (ls : list (list (string * nat))) a,
             fold_left (fun a l => a * sum_list (map snd l)) ls a
             = a * fold_left (fun a l => a * sum_list (map snd l)) ls 1).
  { induction ls as [|l ls IH]; intro a; cbn [fold_left]; [lia|]. rewrite (IH (a * _)), (IH (1 * _)). lia. }
  induction ls as [|l ls IH]; [reflexivity|].
  cbn [combos fold_left]. rewrite Hacc, <- IH. clear Hacc IH.
  induction l as [|x l IHl]; [reflexivity|].
  cbn [flat_map map]. rewrite map_app, sum_list_app, IHl. cbn [map]. rewrite sum_list_cons.
  rewrite map_map. cbn [map snd].
  rewrite (map_ext _ (fun cb => snd x * combination_weight (map snd cb)))
    by (intro cb; apply combination_weight_cons).
  rewrite <- (map_map (fun cb => combination_weight (map snd cb)) (fun v => snd x * v)).
  rewrite sum_list_map_mul. lia.
Qed.

Theorem crossing_size_is_sum : forall design c,
  (forall i, In i c -> nth_error design i <> None) ->
  sum_list (combo_weights design c) = crossing_size_wo design c.
Proof.
  intros design c Hin. unfold combo_weights, crossing_combos. rewrite combos_weight_sum.
  unfold crossing_size_wo. generalize 1.
  induction c as [|i c IH]; intro a; cbn [map fold_left]; [reflexivity|].
  rewrite IH by (intros j Hj; apply Hin; right; assumption).
  f_equal. f_equal. destruct (nth_error design i) as [f|] eqn:E.
  - symmetry. apply level_weight_sum_eq.
  - exfalso. apply (Hin i); [left; reflexivity | assumption].
Qed.

Lemma hidden_accepts_iff : forall h n, hidden_accepts h n = true <-> n = h.
Proof. intros. unfold hidden_accepts. apply String.eqb_eq. Qed.

Lemma hidden_names : forall f p, map fst (wf_levels (hidden_factor f p)) = map fst (wf_levels f).
Proof. intros. cbn. rewrite map_map. reflexivity. Qed.

Lemma flat_names_in : forall f n, In n (map fst (flat_levels f)) -> In n (map fst (wf_levels f)).
Proof.
  intros f n. unfold flat_levels. induction (wf_levels f) as [|[m w] ls IH]; cbn [flat_map map]; [auto|].
  rewrite map_app, in_app_iff. intros [H|H].
  - left. cbn [fst snd] in H. apply in_map_iff in H. destruct H as [[m' w'] [H1 H2]]. apply repeat_spec in H2.
    inversion H2; subst. reflexivity.
  - right. apply IH. assumption.
Qed.

Lemma count_absent : forall n (ls : list (string * nat)), ~ In n (map fst ls) ->
  List.length (filter (fun l : string * nat => hidden_accepts n (fst l)) (flat_map (fun l => repeat (fst l, 1) (snd l)) ls)) = 0.
Proof.
  intros n ls. induction ls as [|[m v] ls IH]; intro H; [reflexivity|].
  cbn [flat_map fst snd]. rewrite filter_app, app_length, count_repeat, IH by (intro Hn; apply H; right; exact Hn).
  cbn [fst]. destruct (hidden_accepts n m) eqn:E; [|reflexivity].
  apply hidden_accepts_iff in E. subst m. exfalso. apply H. left. reflexivity.
Qed.

(** the hidden level named [n] accepts exactly [w] levels of the flat factor, where [w]
    is the weight of the original level [n]: weight w = w copies reported as [n] *)
Theorem desugar_multiplicity : forall f n w,
  NoDup (map fst (wf_levels f)) -> In (n, w) (wf_levels f) ->
  List.length (filter (fun l => hidden_accepts n (fst l)) (flat_levels f)) = w.
Proof.
  intros f n w. unfold flat_levels. induction (wf_levels f) as [|[m v] ls IH]; intros Hnd Hin; [destruct Hin|].
  cbn [flat_map map fst snd] in *. rewrite filter_app, app_length, count_repeat. cbn [fst].
  inversion Hnd as [|? ? Hnotin Hnd']; subst.
  destruct Hin as [Heq|Hin].
  - inversion Heq; subst. rewrite (count_absent _ _ Hnotin), (proj2 (hidden_accepts_iff n n) eq_refl). lia.
  - rewrite IH by assumption. destruct (hidden_accepts n m) eqn:E; [|reflexivity].
    apply hidden_accepts_iff in E. subst m. exfalso. apply Hnotin. exact (in_map fst _ _ Hin).
Qed.

(** every level of the flat factor is accepted by exactly one hidden level, the one carrying its name *)
Theorem desugar_names : forall f p,
  (map fst (wf_levels (hidden_factor f p)) = map fst (wf_levels f)) /\
  (forall l, In l (flat_levels f) ->
     In (fst l) (map fst (wf_levels (hidden_factor f p))) /\
     forall h, In h (map fst (wf_levels (hidden_factor f p))) -> (hidden_accepts h (fst l) = true <-> h = fst l)).
Proof.
  intros f p. split; [apply hidden_names|].
  intros l Hl. split.
  - rewrite hidden_names. apply flat_names_in. apply in_map. assumption.
  - intros h _. rewrite hidden_accepts_iff. split; congruence.
Qed.

Theorem desugar_noop : forall design crossings,
  weighted_positions design crossings = [] -> desugar design crossings = (design, crossings).
Proof. intros design crossings H. unfold desugar. rewrite H. reflexivity. Qed.

(** a factor that is in some crossing is never desugared (the code's test is "in no crossing") *)
Theorem in_a_crossing_not_weighted : forall crossings i f c,
  In c crossings -> In i c -> is_weighted crossings i f = false.
Proof.
  intros crossings i f c Hc Hi. unfold is_weighted.
  assert (H : forallb (fun c0 => negb (memn i c0)) crossings = false).
  { destruct (forallb (fun c0 => negb (memn i c0)) crossings) eqn:E; [|reflexivity].
    rewrite forallb_forall in E. specialize (E c Hc). apply negb_true_iff in E.
    assert (memn i c = true) by (apply existsb_eqb_In; assumption).
    congruence. }
  rewrite H. apply andb_false_r.
Qed.

Open Scope string_scope.

Definition ex_A : wfactor := {| wf_name := "A"; wf_hidden := false; wf_derived := false; wf_deps := []; wf_levels := [("a0", 2); ("a1", 1)] |}.
Definition ex_B : wfactor := {| wf_name := "B"; wf_hidden := false; wf_derived := false; wf_deps := []; wf_levels := [("b0", 1); ("b1", 1); ("b2", 1)] |}.
Definition ex_D : wfactor := {| wf_name := "D"; wf_hidden := false; wf_derived := true; wf_deps := [0]; wf_levels := [("p", 2); ("q", 1)] |}.

(** the documentation desugars a weighted non-derived factor that is "not in all crossings";
    the code only one that is in none: A in crossings [[A];[B]] stays weighted *)
Theorem not_in_every_crossing_refuted :
  exists design crossings i f,
    nth_error design i = Some f /\ wf_derived f = false /\ existsb (fun l => (1 <? snd l)%nat) (wf_levels f) = true /\
    (exists c, In c crossings /\ ~ In i c) /\
    desugar design crossings = (design, crossings).
Proof.
  exists [ex_A; ex_B], [[0]; [1]], 0, ex_A. repeat split.
  exists [1]. split; [right; left; reflexivity | intros [H|[]]; discriminate].
Qed.

Example ex_derived_weights_kept :
  exists f', nth_error (fst (desugar [ex_A; ex_D] [[1]])) (new_pos [ex_A; ex_D] [[1]] 1) = Some f' /\
             wf_name f' = "D" /\ wf_levels f' = [("p", 2); ("q", 1)] /\ wf_deps f' = [0] /\
             snd (desugar [ex_A; ex_D] [[1]]) = [[2]].
Proof. eexists. repeat split. Qed.

(** the in-no-crossing case works as documented: A = [a0 x 2, a1] outside the crossing [B]
    becomes a hidden derived factor named A with levels a0, a1 over a flat factor a0, a0, a1 *)
Example ex_desugar :
  desugar [ex_A; ex_B] [[1]] =
  ([hidden_factor ex_A 1; flat_factor ex_A; ex_B], [[2]]) /\
  wf_levels (flat_factor ex_A) = [("a0", 1); ("a0", 1); ("a1", 1)] /\
  NoDup (map fst (wf_levels ex_A)).
Proof.
  repeat split. repeat constructor; cbn; intuition discriminate.
Qed.
