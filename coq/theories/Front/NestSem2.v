(** Wider guards for the Nest group theorem (Front/NestSem.v, Properties/C25.v).

    [nest_sem2 So Si] is the reference-semantics normal form the arguments of Nest(outer, inner)
    denote, for every kind of factor and constraint harness/docsem.py (Design/DocSem.v) handles:
    compared with [nest_sem] it also renumbers the dependencies of inner derived factors and carries
    the outer block's constraints, scaled as the documentation-side form scales them (trial windows
    multiplied by the inner trial count [Ti], the count of ExactlyK multiplied by [Ti], the run
    lengths of AtMostKInARow etc. NOT rescaled, the trial-group size of Pin / Sequential multiplied
    by [Ti] for crossed factors).  Under [nestable_b] it is [nest_sem] ([nest_sem2_old]).

    Guards, each containing the previous one:
    - [nestable_d_b]: [nestable_b] + within-trial derived factors (window width 1) in both blocks;
    - [nestable_c_b]: + inner constraints Exclude and Pin, outer constraints Exclude / ExactlyK /
      AtMostKInARow on crossed outer factors;
    - [nestable_f_b]: + outer constraints of these kinds on uncrossed (free) outer factors. *)
From Coq Require Import List Bool Arith Lia.
From SP Require Import Base.Lists Design.Sem Design.SemFacts Front.NestSem.
Import ListNotations.

Definition shift_window (k : nat) (w : dwindow) : dwindow :=
  {| w_deps := map (Nat.add k) (w_deps w); w_width := w_width w; w_stride := w_stride w;
     w_start := w_start w; w_table := w_table w |}.

Definition shift_factor (k : nat) (fd : dfactor) : dfactor :=
  {| f_nlevels := f_nlevels fd; f_sustain := f_sustain fd; f_derived := option_map (shift_window k) (f_derived fd) |}.

(** an outer constraint in the Nest: ExactlyK counts trials, so its count is multiplied by the inner
    trial count; the trial-group size of Pin and Sequential follows the factor's sustain count; run
    lengths are left as they are (the documentation-side form does not rescale them) *)
Definition scale_kind (L : nat) (crossed : bool) (k : ckind) : ckind :=
  match k with
  | KExactlyK n => KExactlyK (n * L)
  | KPin i su => KPin i (if crossed then su * L else su)
  | KSequential first su => KSequential (first * L) (if crossed then su * L else su)
  | _ => k
  end.

Definition scale_outer_constraint (So : sem) (Ti : nat) (c : dconstraint) : dconstraint :=
  let T := s_trials So * Ti in
  {| k_kind := scale_kind Ti (crossed_in So (k_factor c)) (k_kind c); k_factor := k_factor c; k_level := k_level c;
     k_windows := flat_map (fun w => let lo := fst w * Ti in let hi := Nat.min (snd w * Ti) T in
                                     if lo <? hi then [(lo, hi)] else []) (k_windows c) |}.

Definition nest_sem2 (So Si : sem) : sem :=
  {| s_trials := s_trials So * s_trials Si;
     s_factors := map (fun p => scale_factor (s_trials Si) (crossed_in So (fst p)) (snd p)) (index_list (s_factors So))
                  ++ map (shift_factor (length (s_factors So))) (s_factors Si);
     s_crossings := map (scale_crossing (s_trials Si)) (s_crossings So)
                    ++ map (shift_crossing (length (s_factors So))) (s_crossings Si);
     s_constraints := map (scale_outer_constraint So (s_trials Si)) (s_constraints So)
                      ++ map (repeat_constraint (length (s_factors So)) (s_trials So) (s_trials Si)) (s_constraints Si) |}.

Definition fdeps (fd : dfactor) : list nat := match f_derived fd with Some w => w_deps w | None => [] end.

(** a non-derived factor, or a within-trial derived factor (window of width 1 applied at every trial)
    over factors of its own block, of sustain count 1 *)
Definition plain_factor_b (n : nat) (fd : dfactor) : bool :=
  (f_sustain fd =? 1) &&
  match f_derived fd with
  | None => true
  | Some w => (w_width w =? 1) && (w_stride w =? 1) && (w_start w =? 0) && forallb (fun d => d <? n) (w_deps w)
  end.

Definition crossings_b (So Si : sem) : bool :=
  forallb (fun c => (c_first c =? 0) && (0 <? c_chunk c) &&
                    forallb (fun f => f <? length (s_factors So)) (c_factors c)) (s_crossings So) &&
  forallb (fun c => (c_first c =? 0) && (0 <? c_chunk c) && (s_trials Si mod c_chunk c =? 0)) (s_crossings Si) &&
  (0 <? s_trials Si).

Definition factors_b (So Si : sem) : bool :=
  forallb (plain_factor_b (length (s_factors So))) (s_factors So) &&
  forallb (plain_factor_b (length (s_factors Si))) (s_factors Si).

Definition nestable_d_b (So Si : sem) : bool :=
  factors_b So Si &&
  match s_constraints So with [] => true | _ => false end && forallb (inner_constraint_b Si) (s_constraints Si) &&
  crossings_b So Si.

(** the outer rows sampled at offset [j] of every group ([reps] is offset 0) *)
Definition reps_at (no To Ti j : nat) (s : tseq) : tseq :=
  map (fun row => map (fun g => nth (g * Ti + j) row None) (seq 0 To)) (firstn no s).

(** an outer constraint read on the group representatives: a run of [r] groups is a run of [r * Ti]
    trials, so AtMostKInARow(k) allows runs of [k / Ti] groups *)
Definition reps_kind (Ti : nat) (k : ckind) : ckind :=
  match k with KAtMost n => KAtMost (n / Ti) | _ => k end.

Definition reps_constraint (Ti : nat) (c : dconstraint) : dconstraint :=
  {| k_kind := reps_kind Ti (k_kind c); k_factor := k_factor c; k_level := k_level c; k_windows := k_windows c |}.

Definition groups_spec2 (So Si : sem) (s : tseq) : Prop :=
  let To := s_trials So in let Ti := s_trials Si in
  let no := length (s_factors So) in let ni := length (s_factors Si) in
  length s = no + ni /\
  (forall f, f < no + ni -> length (nth f s []) = To * Ti) /\
  (* every outer factor has one of its levels at every trial, a derived one the level its table gives
     for the levels of its dependencies at that trial: the outer rows sampled at any offset [j] of
     the groups meet the outer block's factor conditions (offset 0 suffices for a crossed factor,
     which (a) holds fixed) *)
  (forall f fd j, nth_error (s_factors So) f = Some fd -> j < Ti -> (crossed_in So f = true -> j = 0) ->
                  factor_ok So (reps_at no To Ti j s) f fd = true) /\
  (* (a) the outer block's crossed factors are constant within each group *)
  (forall f t, f < no -> crossed_in So f = true -> t < To * Ti -> get_cell s f t = get_cell s f (t / Ti * Ti)) /\
  (* (b) the group representatives satisfy the outer block's crossings *)
  (forall c, In c (s_crossings So) -> crossing_ok So (reps no To Ti s) c = true) /\
  (* (d) ... and its constraints on crossed factors; a constraint on an uncrossed (free) outer factor
     is read on the whole sequence with its scaled windows and count *)
  (forall c, In c (s_constraints So) ->
     if crossed_in So (k_factor c) then constraint_ok So (reps no To Ti s) (reps_constraint Ti c) = true
     else constraint_ok So s (scale_outer_constraint So Ti c) = true) /\
  (* (c) each group is a valid sequence of the inner block *)
  (forall g, g < To -> valid_b Si (grp no Ti g s) = true).

Definition loc (fd : dfactor) (c : cell) (args : list (list cell)) : Prop :=
  exists l, c = Some l /\ l < f_nlevels fd /\
            match f_derived fd with None => True | Some w => accepts w l args = true end.

Definition args_at (s : tseq) (deps : list nat) (t : nat) : list (list cell) := map (fun d => [get_cell s d t]) deps.

Definition within_b (fd : dfactor) : bool :=
  match f_derived fd with
  | None => true
  | Some w => (w_width w =? 1) && (w_stride w =? 1) && (w_start w =? 0)
  end.

Lemma applies_within : forall fd t, within_b fd = true -> applies fd t = true.
Proof.
  intros fd t H. unfold within_b in H. unfold applies. destruct (f_derived fd) as [w|]; [|reflexivity].
  rewrite !andb_true_iff, !Nat.eqb_eq in H. destruct H as [[_ H2] H3]. rewrite H2, H3.
  rewrite Nat.mod_1_r. reflexivity.
Qed.

Lemma window_args_within : forall s fd w t,
  w_width w = 1 -> window_args s fd w t = args_at s (w_deps w) (t / f_sustain fd * f_sustain fd).
Proof.
  intros s fd w t H. unfold window_args, args_at. rewrite H. apply map_ext. intro d.
  cbn [seq map Nat.sub Nat.mul Nat.leb]. rewrite Nat.sub_0_r. reflexivity.
Qed.

(** what a within-trial factor asks at trial [t]: the cell is that of its sustain run's first trial, and a
    level the factor allows for the cells of [deps] there *)
Definition local_at (s : tseq) (f : nat) (fd : dfactor) (deps : list nat) (t : nat) : Prop :=
  get_cell s f t = get_cell s f (t / f_sustain fd * f_sustain fd) /\
  loc fd (get_cell s f t) (args_at s deps (t / f_sustain fd * f_sustain fd)).

Lemma factor_ok_local : forall S s f fd,
  within_b fd = true ->
  (factor_ok S s f fd = true <->
   length (nth f s []) = s_trials S /\ forall t, t < s_trials S -> local_at s f fd (fdeps fd) t).
Proof.
  intros S s f fd Hw. unfold factor_ok, local_at. rewrite andb_true_iff, Nat.eqb_eq, forallb_forall.
  assert (Hargs : forall w t, f_derived fd = Some w ->
            window_args s fd w t = args_at s (fdeps fd) (t / f_sustain fd * f_sustain fd)).
  { intros w t E. unfold fdeps. rewrite E. apply window_args_within.
    unfold within_b in Hw. rewrite E in Hw. rewrite !andb_true_iff, !Nat.eqb_eq in Hw. tauto. }
  split.
  - intros [Hlen H]. split; [exact Hlen|]. intros t Ht.
    specialize (H t). rewrite in_seq in H. specialize (H ltac:(lia)).
    destruct (get_cell s f t) as [l|] eqn:E.
    + rewrite !andb_true_iff in H. destruct H as [[[_ H1] H2] H3].
      apply cell_eqb_eq in H2. apply Nat.ltb_lt in H1. split; [congruence|].
      exists l. split; [reflexivity|]. split; [exact H1|].
      destruct (f_derived fd) as [w|] eqn:Ed; [|exact I]. rewrite <- (Hargs w t eq_refl). exact H3.
    + rewrite applies_within in H by exact Hw. discriminate.
  - intros [Hlen H]. split; [exact Hlen|]. intros t Ht. rewrite in_seq in Ht.
    destruct (H t ltac:(lia)) as [Hc [l [Hl [Hlt Hacc]]]]. rewrite Hl.
    rewrite applies_within by exact Hw. rewrite !andb_true_iff. repeat split.
    + apply Nat.ltb_lt. exact Hlt.
    + apply cell_eqb_eq. congruence.
    + destruct (f_derived fd) as [w|] eqn:Ed; [|reflexivity]. rewrite (Hargs w t eq_refl). exact Hacc.
Qed.

Lemma get_cell_reps_at : forall no To Ti j s f g,
  f < no -> no <= length s -> g < To -> get_cell (reps_at no To Ti j s) f g = get_cell s f (g * Ti + j).
Proof.
  intros no To Ti j s f g Hf Hs Hg. unfold get_cell, reps_at.
  rewrite (nth_map_lt _ _ f [] []) by (rewrite firstn_length; lia).
  rewrite nth_firstn_lt by exact Hf. rewrite nth_map_seq by exact Hg. reflexivity.
Qed.

Lemma reps_at_row_length : forall no To Ti j s f,
  f < no -> no <= length s -> length (nth f (reps_at no To Ti j s) []) = To.
Proof.
  intros no To Ti j s f Hf Hs. unfold reps_at.
  rewrite (nth_map_lt _ _ f [] []) by (rewrite firstn_length; lia).
  rewrite map_length, seq_length. reflexivity.
Qed.

Lemma reps_at_0 : forall no To Ti s, reps_at no To Ti 0 s = reps no To Ti s.
Proof.
  intros. unfold reps_at, reps. apply map_ext. intro row. apply map_ext. intro g. rewrite Nat.add_0_r. reflexivity.
Qed.

Lemma args_at_reps_at : forall no To Ti j s deps g,
  (forall d, In d deps -> d < no) -> no <= length s -> g < To ->
  args_at (reps_at no To Ti j s) deps g = args_at s deps (g * Ti + j).
Proof.
  intros no To Ti j s deps g Hd Hs Hg. unfold args_at. apply map_ext_in. intros d Hin.
  rewrite get_cell_reps_at by (try apply Hd; assumption). reflexivity.
Qed.

Lemma floor_le : forall x su, x / su * su <= x.
Proof. intros x su. destruct su as [|su]; [lia|]. rewrite Nat.mul_comm. apply Nat.mul_div_le. lia. Qed.

Lemma group_floor : forall t su Ti, 0 < su -> 0 < Ti -> t / (su * Ti) * (su * Ti) = t / Ti / su * su * Ti.
Proof.
  intros t su Ti Hsu HTi. rewrite (Nat.mul_comm su Ti). rewrite <- Nat.div_div by lia. lia.
Qed.

Lemma group_offset_floor : forall g Ti su t, 0 < su -> Ti mod su = 0 -> (g * Ti + t) / su * su = g * Ti + t / su * su.
Proof.
  intros g Ti su t Hsu Hmod.
  pose proof (Nat.div_mod Ti su ltac:(lia)) as E. rewrite Hmod, Nat.add_0_r in E.
  rewrite E at 1 2. replace (g * (su * (Ti / su))) with (g * (Ti / su) * su) by lia.
  rewrite Nat.div_add_l by lia. lia.
Qed.

(** the guards' test of a derived factor: a window of width 1 at every trial, over factors below [n] *)
Lemma within_deps_raw : forall n fd,
  match f_derived fd with
  | None => true
  | Some w => (w_width w =? 1) && (w_stride w =? 1) && (w_start w =? 0) && forallb (fun d => d <? n) (w_deps w)
  end = true ->
  within_b fd = true /\ forall d, In d (fdeps fd) -> d < n.
Proof.
  intros n fd H. unfold within_b, fdeps. destruct (f_derived fd) as [w|].
  - rewrite andb_true_iff, forallb_forall in H. destruct H as [H D]. split; [exact H|].
    intros d Hd. apply Nat.ltb_lt. apply D. exact Hd.
  - split; [reflexivity|]. intros d [].
Qed.

Lemma plain_factor_spec : forall n fd,
  plain_factor_b n fd = true -> f_sustain fd = 1 /\ within_b fd = true /\ forall d, In d (fdeps fd) -> d < n.
Proof.
  intros n fd H. unfold plain_factor_b in H. rewrite andb_true_iff, Nat.eqb_eq in H.
  split; [apply H | apply within_deps_raw; apply H].
Qed.

Lemma loc_scale : forall L b fd c a, loc (scale_factor L b fd) c a <-> loc fd c a.
Proof. intros L b fd c a. destruct b; reflexivity. Qed.

Lemma fdeps_scale : forall L b fd, fdeps (scale_factor L b fd) = fdeps fd.
Proof. intros L b fd. destruct b; reflexivity. Qed.

Lemma within_scale : forall L b fd, within_b (scale_factor L b fd) = within_b fd.
Proof. intros L b fd. destruct b; reflexivity. Qed.

(** uncrossed: the factor keeps sustain count 1; its conditions hold at every trial, i.e. on every sampling *)
Lemma outer_factor_free : forall (N So : sem) s f fd no To Ti,
  s_trials N = To * Ti -> s_trials So = To -> 0 < Ti -> f < no -> no <= length s ->
  f_sustain fd = 1 -> within_b fd = true -> (forall d, In d (fdeps fd) -> d < no) ->
  length (nth f s []) = To * Ti ->
  (factor_ok N s f fd = true <-> forall j, j < Ti -> factor_ok So (reps_at no To Ti j s) f fd = true).
Proof.
  intros N So s f fd no To Ti HN HSo HTi Hf Hs Hsu Hw Hd Hlen.
  assert (PW : forall g j, g < To ->
            (local_at s f fd (fdeps fd) (g * Ti + j) <-> local_at (reps_at no To Ti j s) f fd (fdeps fd) g)).
  { intros g j Hg. unfold local_at.
    rewrite Hsu, !Nat.div_1_r, !Nat.mul_1_r, get_cell_reps_at, args_at_reps_at by assumption. reflexivity. }
  rewrite factor_ok_local by exact Hw. rewrite HN, (forall_group _ To Ti HTi). split.
  - intros [_ H] j Hj. apply factor_ok_local; [exact Hw|]. rewrite HSo.
    split; [apply reps_at_row_length; assumption|]. intros g Hg. apply PW; auto.
  - intro H. split; [exact Hlen|]. intros g j Hg Hj. apply PW; [exact Hg|].
    destruct (proj1 (factor_ok_local So _ f fd Hw) (H j Hj)) as [_ H']. rewrite HSo in H'. exact (H' g Hg).
Qed.

(** crossed: sustain count [su * Ti]; constant within each group, and its conditions hold on the representatives *)
Lemma outer_factor_crossed : forall (N So : sem) s f fd no To Ti,
  s_trials N = To * Ti -> s_trials So = To -> 0 < Ti -> f < no -> no <= length s ->
  0 < f_sustain fd -> within_b fd = true -> (forall d, In d (fdeps fd) -> d < no) ->
  length (nth f s []) = To * Ti ->
  (factor_ok N s f (scale_factor Ti true fd) = true <->
   (forall t, t < To * Ti -> get_cell s f t = get_cell s f (t / Ti * Ti)) /\
   factor_ok So (reps_at no To Ti 0 s) f fd = true).
Proof.
  intros N So s f fd no To Ti HN HSo HTi Hf Hs Hsu Hw Hd Hlen.
  rewrite factor_ok_local by (rewrite within_scale; exact Hw). rewrite HN, fdeps_scale.
  rewrite (factor_ok_local So) by exact Hw. rewrite HSo. unfold local_at.
  change (f_sustain (scale_factor Ti true fd)) with (f_sustain fd * Ti).
  set (su := f_sustain fd) in *.
  assert (HG : forall t, t < To * Ti -> t / Ti < To) by (intros t Ht; apply Nat.div_lt_upper_bound; lia).
  assert (Hcell : forall g, g < To -> get_cell (reps_at no To Ti 0 s) f g = get_cell s f (g * Ti)).
  { intros g Hg. rewrite get_cell_reps_at by assumption. rewrite Nat.add_0_r. reflexivity. }
  assert (Hargs : forall g, g < To -> args_at (reps_at no To Ti 0 s) (fdeps fd) g = args_at s (fdeps fd) (g * Ti)).
  { intros g Hg. rewrite args_at_reps_at by assumption. rewrite Nat.add_0_r. reflexivity. }
  split.
  - intros [_ H].
    assert (Hc0 : forall t, t < To * Ti -> get_cell s f t = get_cell s f (t / Ti / su * su * Ti)).
    { intros t Ht. rewrite <- group_floor by assumption. apply (H t Ht). }
    split; [|split].
    + intros t Ht. rewrite (Hc0 t Ht).
      rewrite (Hc0 (t / Ti * Ti)) by (apply Nat.mul_lt_mono_pos_r; auto). rewrite Nat.div_mul by lia. reflexivity.
    + apply reps_at_row_length; assumption.
    + intros g Hg.
      assert (Hg0 : g / su * su < To) by (pose proof (floor_le g su); lia).
      rewrite !Hcell, Hargs by assumption.
      destruct (H (g * Ti)) as [A B]; [apply Nat.mul_lt_mono_pos_r; assumption|].
      rewrite group_floor in A, B by assumption.
      rewrite Nat.div_mul in A, B by lia. split; [exact A|]. apply (proj1 (loc_scale Ti true fd _ _)) in B. exact B.
  - intros [Hc [_ H]]. split; [exact Hlen|]. intros t Ht. rewrite group_floor by assumption.
    assert (Hg0 : t / Ti / su * su < To) by (pose proof (floor_le (t / Ti) su); pose proof (HG t Ht); lia).
    destruct (H (t / Ti) (HG t Ht)) as [A B]. rewrite !Hcell, Hargs in * by auto.
    rewrite (Hc t Ht). split; [exact A|]. apply (proj2 (loc_scale Ti true fd _ _)). exact B.
Qed.

Lemma loc_shift : forall k fd c a, loc (shift_factor k fd) c a <-> loc fd c a.
Proof.
  intros k fd c a. unfold loc. cbn [shift_factor f_nlevels f_derived].
  destruct (f_derived fd) as [w|]; reflexivity.
Qed.

Lemma fdeps_shift : forall k fd, fdeps (shift_factor k fd) = map (Nat.add k) (fdeps fd).
Proof. intros k fd. unfold fdeps. cbn [shift_factor f_derived]. destruct (f_derived fd); reflexivity. Qed.

Lemma within_shift : forall k fd, within_b (shift_factor k fd) = within_b fd.
Proof. intros k fd. unfold within_b. cbn [shift_factor f_derived]. destruct (f_derived fd); reflexivity. Qed.

Lemma args_at_grp : forall no ni Ti g s deps t,
  length s = no + ni -> t < Ti ->
  args_at (grp no Ti g s) deps t = args_at s (map (Nat.add no) deps) (g * Ti + t).
Proof.
  intros no ni Ti g s deps t Hs Ht. unfold args_at. rewrite map_map. apply map_ext. intro d.
  rewrite (get_cell_grp no ni) by assumption. reflexivity.
Qed.

Lemma inner_factor : forall (N Si : sem) s f fd no ni To Ti,
  s_trials N = To * Ti -> s_trials Si = Ti -> 0 < Ti -> f < ni -> length s = no + ni ->
  0 < f_sustain fd -> Ti mod f_sustain fd = 0 -> within_b fd = true ->
  length (nth (no + f) s []) = To * Ti ->
  (factor_ok N s (no + f) (shift_factor no fd) = true <->
   forall g, g < To -> factor_ok Si (grp no Ti g s) f fd = true).
Proof.
  intros N Si s f fd no ni To Ti HN HSi HTi Hf Hs Hsu Hmod Hw Hlen.
  assert (PW : forall g t, t < Ti ->
            (local_at s (no + f) (shift_factor no fd) (map (Nat.add no) (fdeps fd)) (g * Ti + t) <->
             local_at (grp no Ti g s) f fd (fdeps fd) t)).
  { intros g t Ht. unfold local_at. change (f_sustain (shift_factor no fd)) with (f_sustain fd).
    assert (Ht0 : t / f_sustain fd * f_sustain fd < Ti) by (pose proof (floor_le t (f_sustain fd)); lia).
    rewrite !(get_cell_grp no ni), (args_at_grp no ni), group_offset_floor, loc_shift by assumption. reflexivity. }
  rewrite factor_ok_local by (rewrite within_shift; exact Hw). rewrite HN, fdeps_shift, (forall_group _ To Ti HTi). split.
  - intros [_ H] g Hg. apply factor_ok_local; [exact Hw|]. rewrite HSi.
    split; [apply (grp_row_length no ni); assumption|]. intros t Ht. apply PW; auto.
  - intro H. split; [exact Hlen|]. intros g t Hg Ht. apply PW; [exact Ht|].
    destruct (proj1 (factor_ok_local Si _ f fd Hw) (H g Hg)) as [_ H']. rewrite HSi in H'. exact (H' t Ht).
Qed.

Lemma crossings_b_spec : forall So Si,
  crossings_b So Si = true ->
  (forall c, In c (s_crossings So) ->
     c_first c = 0 /\ 0 < c_chunk c /\ forall f, In f (c_factors c) -> f < length (s_factors So)) /\
  (forall c, In c (s_crossings Si) -> c_first c = 0 /\ 0 < c_chunk c /\ s_trials Si mod c_chunk c = 0) /\
  0 < s_trials Si.
Proof.
  intros So Si H. unfold crossings_b in H. rewrite !andb_true_iff in H. destruct H as [[H4 H5] H6].
  exact (crossings_guard_spec So Si H4 H5 H6).
Qed.

Lemma factors_b_spec : forall So Si,
  factors_b So Si = true ->
  (forall fd, In fd (s_factors So) -> plain_factor_b (length (s_factors So)) fd = true) /\
  (forall fd, In fd (s_factors Si) -> plain_factor_b (length (s_factors Si)) fd = true).
Proof.
  intros So Si H. unfold factors_b in H. rewrite andb_true_iff, !forallb_forall in H. exact H.
Qed.

(** what every guard asks of the factors: within-trial, of positive sustain count; an uncrossed outer factor
    has sustain count 1 and depends on outer factors only, an inner factor's sustain count divides the inner
    trial count *)
Definition outer_factor_guard (So : sem) (f : nat) (fd : dfactor) : Prop :=
  0 < f_sustain fd /\ (crossed_in So f = false -> f_sustain fd = 1) /\ within_b fd = true /\
  forall d, In d (fdeps fd) -> d < length (s_factors So).

Definition inner_factor_guard (Si : sem) (fd : dfactor) : Prop :=
  0 < f_sustain fd /\ s_trials Si mod f_sustain fd = 0 /\ within_b fd = true.

Lemma plain_factor_guards : forall So Si,
  factors_b So Si = true ->
  (forall f fd, nth_error (s_factors So) f = Some fd -> outer_factor_guard So f fd) /\
  (forall fd, In fd (s_factors Si) -> inner_factor_guard Si fd).
Proof.
  intros So Si H. destruct (factors_b_spec So Si H) as [HFo HFi]. split.
  - intros f fd Hfd. destruct (plain_factor_spec _ fd (HFo fd (nth_error_In _ _ Hfd))) as [Hsu [Hw Hd]].
    unfold outer_factor_guard. rewrite Hsu. auto.
  - intros fd Hfd. destruct (plain_factor_spec _ fd (HFi fd Hfd)) as [Hsu [Hw _]].
    unfold inner_factor_guard. rewrite Hsu, Nat.mod_1_r. auto.
Qed.

Section Assembly.
  Variables So Si : sem.
  Variable s : tseq.
  Let N := nest_sem2 So Si.
  Let To := s_trials So.
  Let Ti := s_trials Si.
  Let no := length (s_factors So).
  Let ni := length (s_factors Si).

  Hypothesis HX : crossings_b So Si = true.
  Hypothesis HFo : forall f fd, nth_error (s_factors So) f = Some fd -> outer_factor_guard So f fd.
  Hypothesis HFi : forall fd, In fd (s_factors Si) -> inner_factor_guard Si fd.
  (** what the guard must provide about the constraints, for a sequence of the right shape *)
  Hypothesis HKi : nest_shape So Si s ->
    forall k, In k (s_constraints Si) ->
      (constraint_ok N s (repeat_constraint no To Ti k) = true <->
       forall g, g < To -> constraint_ok Si (grp no Ti g s) k = true).
  Hypothesis HKo : nest_shape So Si s -> group_const So Ti s ->
    forall c, In c (s_constraints So) ->
      (constraint_ok N s (scale_outer_constraint So Ti c) = true <->
       if crossed_in So (k_factor c) then constraint_ok So (reps no To Ti s) (reps_constraint Ti c) = true
       else constraint_ok So s (scale_outer_constraint So Ti c) = true).

  (** an outer factor's conditions in the Nest are those of the outer block on the samplings of its row (a
      crossed factor is constant within each group and meets them on the representatives) *)
  Lemma outer_split : length s = no + ni ->
    forall f fd, nth_error (s_factors So) f = Some fd -> length (nth f s []) = To * Ti ->
      (factor_ok N s f (scale_factor Ti (crossed_in So f) fd) = true <->
       (crossed_in So f = true -> forall t, t < To * Ti -> get_cell s f t = get_cell s f (t / Ti * Ti)) /\
       (forall j, j < Ti -> (crossed_in So f = true -> j = 0) -> factor_ok So (reps_at no To Ti j s) f fd = true)).
  Proof.
    intros Hl f fd Hfd Hlen. destruct (HFo f fd Hfd) as [Hsu [Hfree [Hw Hd]]].
    destruct (crossings_b_spec So Si HX) as [_ [_ HTi]].
    assert (Hfn : f < no) by (apply nth_error_Some; congruence).
    assert (Hno : no <= length s) by (rewrite Hl; apply Nat.le_add_r).
    destruct (crossed_in So f) eqn:Ecr.
    - rewrite (outer_factor_crossed N So s f fd no To Ti eq_refl eq_refl HTi Hfn Hno Hsu Hw Hd Hlen). split.
      + intros [A B]. split; [intros _; exact A|]. intros j Hj Hj0. rewrite (Hj0 eq_refl). exact B.
      + intros [A B]. split; [apply A; reflexivity|]. apply B; [exact HTi|reflexivity].
    - cbn [scale_factor].
      rewrite (outer_factor_free N So s f fd no To Ti eq_refl eq_refl HTi Hfn Hno (Hfree eq_refl) Hw Hd Hlen). split.
      + intro A. split; [discriminate|]. intros j Hj _. apply A. exact Hj.
      + intros [_ B] j Hj. apply B; [exact Hj|discriminate].
  Qed.

  Lemma inner_split : length s = no + ni ->
    forall f fd, nth_error (s_factors Si) f = Some fd -> length (nth (no + f) s []) = To * Ti ->
      (factor_ok N s (no + f) (shift_factor no fd) = true <->
       forall g, g < To -> factor_ok Si (grp no Ti g s) f fd = true).
  Proof.
    intros Hl f fd Hfd Hlen. destruct (HFi fd (nth_error_In _ _ Hfd)) as [Hsu [Hmod Hw]].
    destruct (crossings_b_spec So Si HX) as [_ [_ HTi]].
    assert (Hfn : f < ni) by (apply nth_error_Some; congruence).
    exact (inner_factor N Si s f fd no ni To Ti eq_refl eq_refl HTi Hfn Hl Hsu Hmod Hw Hlen).
  Qed.

  Lemma nest_groups_gen : valid_b N s = true <-> groups_spec2 So Si s.
  Proof.
    destruct (crossings_b_spec So Si HX) as [HXo [HXi HTi]].
    rewrite (groups_of_parts So Si N s (fun f fd => scale_factor Ti (crossed_in So f) fd) (shift_factor no)
               (scale_outer_constraint So Ti)
               (fun f fd => forall j, j < Ti -> (crossed_in So f = true -> j = 0) ->
                                      factor_ok So (reps_at no To Ti j s) f fd = true)
               (fun c => if crossed_in So (k_factor c) then constraint_ok So (reps no To Ti s) (reps_constraint Ti c) = true
                         else constraint_ok So s (scale_outer_constraint So Ti c) = true)
               eq_refl eq_refl eq_refl eq_refl HXo HXi HTi outer_split inner_split HKi HKo).
    unfold groups_spec2. fold To Ti no ni.
    split; intros [Hl [Hrow [Hf Hrest]]]; (split; [exact Hl|split; [exact Hrow|split; [|exact Hrest]]]).
    - intros f fd j E. apply Hf. exact E.
    - intros f fd E j. apply Hf. exact E.
  Qed.
End Assembly.

Lemma inner_constraints_window : forall So Si s,
  forallb (inner_constraint_b Si) (s_constraints Si) = true -> nest_shape So Si s ->
  forall k, In k (s_constraints Si) ->
    (constraint_ok (nest_sem2 So Si) s (repeat_constraint (length (s_factors So)) (s_trials So) (s_trials Si) k) = true <->
     forall g, g < s_trials So -> constraint_ok Si (grp (length (s_factors So)) (s_trials Si) g s) k = true).
Proof.
  intros So Si s H [Hl Hrow] k Hk. rewrite forallb_forall in H. specialize (H k Hk).
  unfold inner_constraint_b in H. rewrite !andb_true_iff in H. destruct H as [[Ha Hb] Hc].
  apply Nat.ltb_lt in Hb.
  apply (constraint_ok_repeated _ Si s k _ (length (s_factors Si))); try assumption. apply Hrow. lia.
Qed.

Theorem nest_groups_d : forall So Si s,
  nestable_d_b So Si = true ->
  (valid_b (nest_sem2 So Si) s = true <-> groups_spec2 So Si s).
Proof.
  intros So Si s Hg. unfold nestable_d_b in Hg. rewrite !andb_true_iff in Hg.
  destruct Hg as [[[HF HCo] HCi] HX].
  destruct (plain_factor_guards So Si HF) as [HFo HFi].
  apply nest_groups_gen; try assumption.
  - apply inner_constraints_window; assumption.
  - intros _ _ c Hc. destruct (s_constraints So); [destruct Hc | discriminate].
Qed.

Lemma simple_plain : forall n fd, simple_factor_b fd = true -> plain_factor_b n fd = true.
Proof.
  intros n fd H. destruct (simple_factor_b_spec fd H) as [Hd Hs]. unfold plain_factor_b.
  rewrite Hd, Hs. reflexivity.
Qed.

Lemma forallb_impl : forall {A} (P Q : A -> bool) l,
  (forall x, P x = true -> Q x = true) -> forallb P l = true -> forallb Q l = true.
Proof.
  intros A P Q l H. rewrite !forallb_forall. intros H1 x Hx. apply H. apply H1. exact Hx.
Qed.

Theorem nestable_d_includes : forall So Si, nestable_b So Si = true -> nestable_d_b So Si = true.
Proof.
  intros So Si H. unfold nestable_b in H. rewrite !andb_true_iff in H.
  destruct H as [[[[[[H1 H2] H3] H3'] H4] H5] H6].
  unfold nestable_d_b, factors_b, crossings_b. rewrite H3, H3', H4, H5, H6.
  rewrite (forallb_impl _ _ _ (simple_plain _) H1), (forallb_impl _ _ _ (simple_plain _) H2). reflexivity.
Qed.

Lemma shift_factor_simple : forall k fd, f_derived fd = None -> shift_factor k fd = fd.
Proof. intros k [nl su d] H. cbn in H. subst d. reflexivity. Qed.

Theorem nest_sem2_old : forall So Si, nestable_b So Si = true -> nest_sem2 So Si = nest_sem So Si.
Proof.
  intros So Si H. destruct (nestable_spec So Si H) as [_ [HFi [HCo _]]].
  unfold nest_sem2, nest_sem. rewrite HCo. cbn [map app]. f_equal. f_equal.
  rewrite <- (map_id (s_factors Si)) at 2. apply map_ext_in. intros fd Hfd.
  apply shift_factor_simple. apply (HFi fd Hfd).
Qed.

(** the table of "same index": level 0 accepts (0,0) and (1,1), level 1 accepts (0,1) and (1,0) *)
Definition ex_same_window (d0 d1 : nat) : dwindow :=
  {| w_deps := [d0; d1]; w_width := 1; w_stride := 1; w_start := 0;
     w_table := [[[[Some 0]; [Some 0]]; [[Some 1]; [Some 1]]]; [[[Some 0]; [Some 1]]; [[Some 1]; [Some 0]]]] |}.

Definition ex_two : dfactor := {| f_nlevels := 2; f_sustain := 1; f_derived := None |}.

(** CrossBlock([A, C, wAC], [A], []): C free, wAC = same(A, C) *)
Definition ex_outer_d : sem :=
  {| s_trials := 2;
     s_factors := [ex_two; ex_two; {| f_nlevels := 2; f_sustain := 1; f_derived := Some (ex_same_window 0 1) |}];
     s_crossings := [{| c_factors := [0]; c_first := 0; c_chunk := 2; c_mult := [([0], 1); ([1], 1)] |}];
     s_constraints := [] |}.

(** CrossBlock([B, D, wBD], [B], []) *)
Definition ex_inner_d : sem := ex_outer_d.

Definition ex_seq_d : tseq :=
  [[Some 0; Some 0; Some 1; Some 1]; [Some 0; Some 1; Some 1; Some 0]; [Some 0; Some 1; Some 0; Some 1];
   [Some 0; Some 1; Some 1; Some 0]; [Some 0; Some 0; Some 1; Some 1]; [Some 0; Some 1; Some 0; Some 1]].

Lemma ex_nestable_d :
  nestable_b ex_outer_d ex_inner_d = false /\ nestable_d_b ex_outer_d ex_inner_d = true /\
  s_trials (nest_sem2 ex_outer_d ex_inner_d) = 4 /\
  map fdeps (s_factors (nest_sem2 ex_outer_d ex_inner_d)) = [[]; []; [0; 1]; []; []; [3; 4]] /\
  valid_b (nest_sem2 ex_outer_d ex_inner_d) ex_seq_d = true /\
  (* the outer derived factor wAC follows A and the free factor C trial by trial *)
  reps_at 3 2 2 0 ex_seq_d = [[Some 0; Some 1]; [Some 0; Some 1]; [Some 0; Some 0]] /\
  reps_at 3 2 2 1 ex_seq_d = [[Some 0; Some 1]; [Some 1; Some 0]; [Some 1; Some 1]] /\
  grp 3 2 1 ex_seq_d = [[Some 1; Some 0]; [Some 1; Some 1]; [Some 0; Some 1]] /\
  (* a wrong derived level in the second group *)
  valid_b (nest_sem2 ex_outer_d ex_inner_d)
          [[Some 0; Some 0; Some 1; Some 1]; [Some 0; Some 1; Some 1; Some 0]; [Some 0; Some 1; Some 0; Some 1];
           [Some 0; Some 1; Some 1; Some 0]; [Some 0; Some 0; Some 1; Some 1]; [Some 0; Some 1; Some 0; Some 0]] = false.
Proof. vm_compute. repeat split. Qed.

Definition groups2_b (So Si : sem) (s : tseq) : bool :=
  let To := s_trials So in let Ti := s_trials Si in
  let no := length (s_factors So) in let ni := length (s_factors Si) in
  (length s =? no + ni) &&
  forallb (fun f => length (nth f s []) =? To * Ti) (seq 0 (no + ni)) &&
  forallb (fun p => forallb (fun j => (crossed_in So (fst p) && negb (j =? 0))
                                      || factor_ok So (reps_at no To Ti j s) (fst p) (snd p)) (seq 0 Ti))
          (index_list (s_factors So)) &&
  forallb (fun f => negb (crossed_in So f)
                    || forallb (fun t => cell_eqb (get_cell s f t) (get_cell s f (t / Ti * Ti))) (seq 0 (To * Ti)))
          (seq 0 no) &&
  forallb (crossing_ok So (reps no To Ti s)) (s_crossings So) &&
  forallb (fun c => if crossed_in So (k_factor c) then constraint_ok So (reps no To Ti s) (reps_constraint Ti c)
                    else constraint_ok So s (scale_outer_constraint So Ti c)) (s_constraints So) &&
  forallb (fun g => valid_b Si (grp no Ti g s)) (seq 0 To).

Lemma forallb_seq0 : forall (P : nat -> bool) n, forallb P (seq 0 n) = true <-> forall i, i < n -> P i = true.
Proof.
  intros P n. rewrite forallb_forall. split.
  - intros H i Hi. apply H. apply in_seq. lia.
  - intros H i Hi. apply in_seq in Hi. apply H. lia.
Qed.

Theorem groups2_b_spec : forall So Si s, groups2_b So Si s = true <-> groups_spec2 So Si s.
Proof.
  intros So Si s. unfold groups2_b, groups_spec2.
  set (To := s_trials So). set (Ti := s_trials Si). set (no := length (s_factors So)). set (ni := length (s_factors Si)).
  rewrite !andb_true_iff, Nat.eqb_eq, !forallb_seq0.
  rewrite (forallb_index_list (fun f fd => forallb (fun j => (crossed_in So f && negb (j =? 0))
                                                        || factor_ok So (reps_at no To Ti j s) f fd) (seq 0 Ti))).
  rewrite !forallb_forall.
  assert (E1 : (forall i, i < no + ni -> (length (nth i s []) =? To * Ti) = true) <->
               (forall f, f < no + ni -> length (nth f s []) = To * Ti)).
  { split; intros H f Hf; specialize (H f Hf); apply Nat.eqb_eq; exact H. }
  assert (E2 : (forall f fd, nth_error (s_factors So) f = Some fd ->
                  forallb (fun j => (crossed_in So f && negb (j =? 0)) || factor_ok So (reps_at no To Ti j s) f fd) (seq 0 Ti) = true) <->
               (forall f fd j, nth_error (s_factors So) f = Some fd -> j < Ti -> (crossed_in So f = true -> j = 0) ->
                  factor_ok So (reps_at no To Ti j s) f fd = true)).
  { split.
    - intros H f fd j E Hj Hj0. specialize (H f fd E). rewrite forallb_seq0 in H. specialize (H j Hj).
      apply orb_true_iff in H. destruct H as [H|H]; [|exact H].
      apply andb_true_iff in H. destruct H as [Hc Hn]. rewrite (Hj0 Hc) in Hn. cbn in Hn. discriminate.
    - intros H f fd E. apply forallb_seq0. intros j Hj. apply orb_true_iff.
      destruct (crossed_in So f) eqn:Ec; [|right; apply H; [exact E|exact Hj|intro X; rewrite Ec in X; discriminate X]].
      destruct j as [|j]; [right; apply H; [exact E|exact Hj|intros _; reflexivity] | left; reflexivity]. }
  assert (E3 : (forall i, i < no -> negb (crossed_in So i)
                  || forallb (fun t => cell_eqb (get_cell s i t) (get_cell s i (t / Ti * Ti))) (seq 0 (To * Ti)) = true) <->
               (forall f t, f < no -> crossed_in So f = true -> t < To * Ti -> get_cell s f t = get_cell s f (t / Ti * Ti))).
  { split.
    - intros H f t Hf Hc Ht. specialize (H f Hf). rewrite Hc in H. cbn [negb orb] in H.
      rewrite forallb_seq0 in H. apply cell_eqb_eq. apply H. exact Ht.
    - intros H f Hf. destruct (crossed_in So f) eqn:Ec; [|reflexivity]. cbn [negb orb].
      apply forallb_seq0. intros t Ht. apply cell_eqb_eq. apply H; assumption. }
  assert (E4 : (forall x, In x (s_constraints So) ->
                  (if crossed_in So (k_factor x) then constraint_ok So (reps no To Ti s) (reps_constraint Ti x)
                   else constraint_ok So s (scale_outer_constraint So Ti x)) = true) <->
               (forall c, In c (s_constraints So) ->
                  if crossed_in So (k_factor c) then constraint_ok So (reps no To Ti s) (reps_constraint Ti c) = true
                  else constraint_ok So s (scale_outer_constraint So Ti c) = true)).
  { split; intros H c Hc; specialize (H c Hc); destruct (crossed_in So (k_factor c)); exact H. }
  rewrite E1, E2, E3, E4. tauto.
Qed.

Lemma groups2_b_eq : forall So Si s,
  (valid_b (nest_sem2 So Si) s = true <-> groups_spec2 So Si s) -> valid_b (nest_sem2 So Si) s = groups2_b So Si s.
Proof. intros So Si s H. apply Bool.eq_true_iff_eq. rewrite groups2_b_spec. exact H. Qed.

(** the theorem as an equation between two decision procedures (evaluated by the harness on every
    sequence the real generator returns for a Nest inside the guard) *)
Corollary nest_groups_d_b : forall So Si s,
  nestable_d_b So Si = true -> valid_b (nest_sem2 So Si) s = groups2_b So Si s.
Proof. intros So Si s Hg. exact (groups2_b_eq So Si s (nest_groups_d So Si s Hg)). Qed.
