(** Concrete flat records used by the [Example]s of Properties/C16.v and C25.v. *)
From Coq Require Import ZArith List Bool Arith Lia String.
From SP Require Import Design.Flat Design.Layout Front.Trials Front.TrialsProofs.
Import ListNotations.
Open Scope string_scope.

Definition lv (n : string) : flevel := {| lv_name := n; lv_weight := 1; lv_accepts := [] |}.
Definition simple2 (n a b : string) : ffactor :=
  {| ff_name := n; ff_hidden := false; ff_levels := [lv a; lv b]; ff_window := None; ff_complex := false |}.
Definition trans_on (n : string) (dep : nat) : ffactor :=
  {| ff_name := n; ff_hidden := false; ff_levels := [lv "same"; lv "diff"];
     ff_window := Some {| win_deps := [dep]; win_width := 2; win_stride := 1; win_start := 1; win_start_delta := 0%Z |};
     ff_complex := true |}.

(** The trial arithmetic of
    Nest(MultiCrossBlock([o, t], [[o, t]], [], alignment=PARALLEL_START), CrossBlock([i], [i], []), [MinimumTrials(11)])
    with o, i two-level factors and t a transition factor on o: the outer crossing
    (4 combinations, sustained over the 2 inner trials, one preamble group) needs
    1*2 + 8 = 10 trials, the inner crossing 2; MinimumTrials(11) is rounded to 12. *)
Definition ex_nest : flat :=
  {| fl_design := [simple2 "o" "a" "b"; simple2 "i" "x" "y"; trans_on "t" 0];
     fl_act := [0; 1; 2];
     fl_crossings := [[0; 2]; [1]];
     fl_sustains := [2; 1];
     fl_weights := [1; 1];
     fl_sizes := [8; 2];
     fl_preambles := [2; 0];
     fl_alignment := ParallelStart;
     fl_alignment_preamble := 1;
     fl_min_trials := 12;
     fl_trials := 12;
     fl_rcc := true;
     fl_exclude := [];
     fl_excluded_derived := [];
     fl_constraints := [FCross; FConsistency; FMinimumTrials 11; FSustain];
     fl_errors_fail := false |}.

Lemma ex_nest_wf : wf_trials ex_nest.
Proof. apply wf_trials_b_sound. reflexivity. Qed.

(** the same block under POST_PREAMBLE *)
Definition ex_nest_post : flat :=
  {| fl_design := fl_design ex_nest; fl_act := fl_act ex_nest; fl_crossings := fl_crossings ex_nest;
     fl_sustains := fl_sustains ex_nest; fl_weights := fl_weights ex_nest; fl_sizes := fl_sizes ex_nest;
     fl_preambles := fl_preambles ex_nest; fl_alignment := PostPreamble; fl_alignment_preamble := 1;
     fl_min_trials := 12; fl_trials := 12; fl_rcc := true; fl_exclude := []; fl_excluded_derived := [];
     fl_constraints := fl_constraints ex_nest; fl_errors_fail := false |}.

Lemma ex_nest_post_wf : wf_trials ex_nest_post.
Proof. apply wf_trials_b_sound. reflexivity. Qed.
