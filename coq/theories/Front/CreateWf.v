(** The well-formedness guards of the property theorems hold of every flat record the model of the
    constructor ([create_flat], Front/CreateFlat.v) builds from an acceptable input.

    The guards [wf_layout] (Design/LayoutWf.v, hypothesis of C14) and [wf_trials_b] / [wf_trials]
    (Front/TrialsWf.v, Front/TrialsProofs.v, hypothesis of C16) are checked per run on the flat record
    of every real block; here they are *proved* of [fb] whenever [create_flat ci = FOk fb] and the
    executable condition [input_ok ci] (Front/CreateOk.v, which lists its parts) on the constructor arguments
    holds; in particular every crossed factor is then a factor of the design with a level of positive weight
    ([input_ok_crossed]).

    Also proved of a created record: its [preamble_sizes] and trial count are the documented numbers
    ([created_fields]), it has at least one trial ([created_trials_pos]), and the geometry its constraints are
    initialised with satisfies the hypotheses of the C26 theorems ([created_geometry], [ranges_of_created]).

    What is *not* implied without the conditions (concrete inputs, replayed on the real constructors): the
    [_refuted] examples at the end - a factor shared by crossings of different sustain counts
    (Merge of a Nest with a block crossing one of the Nest's outer factors: accepted by the real code), a
    crossing all of whose combinations are excluded (accepted in REPEAT mode, with the error flag), a crossed
    factor of stride 2 (rejected by the real [Block.__validate], which [create_flat] does not model). *)
From Coq Require Import ZArith List Bool Arith Lia.
From SP Require Import Base.Lists Design.Flat Design.Layout Design.LayoutWf Design.LayoutProofs Design.RangesProofs.
From SP Require Import Front.CreateFlatProofs Front.Trials Front.TrialsWf Front.TrialsProofs Front.CreateFlat.
From SP Require Export Front.CreateOk.
Import ListNotations.

Record input_ok_P (ci : create_input) : Prop := {
  ok_windows : forall fd, In fd (ci_design ci) -> window_ok fd = true;
  ok_excl_len : length (ci_exclusions ci) = length (st_crossings ci);
  ok_excl : forall c e, In (c, e) (combine (st_crossings ci) (ci_exclusions ci)) -> e < crossing_size_no_excl (in_flat ci) c;
  ok_sus_len : length (st_crossings ci) <= length (ci_sustains ci);
  ok_sus_pos : forall n, In n (ci_sustains ci) -> 0 < n;
  ok_stride : forall c f, In c (st_crossings ci) -> In f c -> fstride (in_flat ci) f = 1;
  ok_cons : sustains_consistent (paired ci) = true
}.

Lemma input_ok_spec : forall ci, input_ok ci = true -> input_ok_P ci.
Proof.
  intros ci H. unfold input_ok in H. rewrite !andb_true_iff in H. destruct H as [[[[[[A B] C] D] E] F] G].
  rewrite forallb_forall in A, C, E, F. constructor.
  - exact A.
  - apply Nat.eqb_eq, B.
  - intros c e Hin. apply Nat.ltb_lt. exact (C (c, e) Hin).
  - apply Nat.leb_le, D.
  - intros n Hin. apply Nat.ltb_lt, E, Hin.
  - intros c f Hc Hf. specialize (F c Hc). rewrite forallb_forall in F. apply Nat.eqb_eq, F, Hf.
  - exact G.
Qed.

Lemma nodupb_NoDup : forall l, NoDup l -> nodupb l = true.
Proof.
  induction l as [|x r IH]; intro H; [reflexivity|]. inversion H; subst. cbn [nodupb].
  rewrite IH by assumption. rewrite andb_true_r. apply negb_true_iff.
  destruct (existsb (Nat.eqb x) r) eqn:E; [|reflexivity].
  apply existsb_eqb_In in E. contradiction.
Qed.

Lemma st_act_wf : forall ci, (forall fd, In fd (ci_design ci) -> window_ok fd = true) ->
  forall f, In f (st_act ci) ->
    match nth_error (ci_design ci) f with
    | Some fd => ff_complex fd || match ff_window fd with
                                  | None => true
                                  | Some w => (win_start w =? 0) && (win_stride w =? 1)
                                  end
    | None => true
    end = true.
Proof.
  intros ci Hw f Hin. destruct (nth_error (ci_design ci) f) as [fd|] eqn:E; [|reflexivity].
  pose proof (Hw fd (nth_error_In _ _ E)) as Hfd. unfold window_ok in Hfd.
  destruct (ff_window fd) as [w|]; [|apply orb_true_r].
  destruct (ff_complex fd); [reflexivity|]. cbn [orb] in *.
  apply andb_prop in Hfd. destruct Hfd as [H1 H2]. apply andb_prop in H2. destruct H2 as [H2 H3].
  apply Nat.leb_le in H1. apply Nat.leb_le in H2. rewrite H3. cbn [andb]. apply Nat.eqb_eq. lia.
Qed.

Theorem create_flat_wf_layout : forall ci fb,
  input_ok ci = true -> create_flat ci = FOk fb -> wf_layout fb = true.
Proof.
  intros ci fb Hok Hc. apply input_ok_spec in Hok.
  destruct (create_flat_inv ci fb Hc) as [pres [T [m [ws [_ ->]]]]].
  unfold wf_layout, built, mkflat. cbn [fl_act]. apply andb_true_intro. split.
  - apply forallb_forall. intros f Hin.
    pose proof (st_act_wf ci (ok_windows ci Hok) f Hin) as H.
    unfold is_complex, always_applies, factor_at. cbn [fl_design].
    destruct (nth_error (ci_design ci) f) as [fd|]; [exact H | reflexivity].
  - apply nodupb_NoDup. unfold st_act. apply NoDup_filter. apply seq_NoDup.
Qed.

(** the sustain count of a factor as a function of the paired crossings *)
Definition sus_step (f : nat) (acc : nat) (cs : list nat * nat) : nat :=
  if existsb (Nat.eqb f) (fst cs) then snd cs else acc.

Lemma sustain_of_fold : forall fb f, sustain_of fb f = fold_left (sus_step f) (combine (fl_crossings fb) (fl_sustains fb)) 1.
Proof. reflexivity. Qed.

Lemma sus_fold_pos : forall f l acc, 0 < acc -> (forall c s, In (c, s) l -> 0 < s) -> 0 < fold_left (sus_step f) l acc.
Proof.
  intros f l. induction l as [|[c s] r IH]; intros acc Ha Hl; [exact Ha|].
  cbn [fold_left]. apply IH.
  - unfold sus_step. cbn [fst snd]. destruct (existsb _ c); [apply (Hl c s); left; reflexivity | exact Ha].
  - intros c' s' Hin. apply (Hl c' s'). right. exact Hin.
Qed.

Lemma sus_fold_stable : forall f l s,
  (forall d t, In (d, t) l -> In f d -> t = s) -> fold_left (sus_step f) l s = s.
Proof.
  intros f l s. induction l as [|[d t] r IH]; intro H; [reflexivity|].
  cbn [fold_left]. unfold sus_step at 2. cbn [fst snd].
  destruct (existsb (Nat.eqb f) d) eqn:E.
  - assert (t = s) as -> by (apply (H d t); [left; reflexivity | apply existsb_eqb_In; exact E]).
    apply IH. intros d' t' Hin. apply H. right. exact Hin.
  - apply IH. intros d' t' Hin. apply H. right. exact Hin.
Qed.

Lemma sus_fold_consistent : forall f l acc c s,
  sustains_consistent l = true -> In (c, s) l -> In f c -> fold_left (sus_step f) l acc = s.
Proof.
  intros f l. induction l as [|[c0 s0] r IH]; intros acc c s Hcons Hin Hf; [contradiction|].
  cbn [sustains_consistent fst snd] in Hcons. apply andb_prop in Hcons. destruct Hcons as [Hhd Hr].
  cbn [fold_left]. destruct Hin as [Heq|Hin].
  - injection Heq as -> ->. unfold sus_step at 2. cbn [fst snd].
    assert (E : existsb (Nat.eqb f) c = true) by (apply existsb_eqb_In; exact Hf). rewrite E.
    apply sus_fold_stable. intros d t Hdt Hfd. rewrite forallb_forall in Hhd. specialize (Hhd (d, t) Hdt).
    cbn [fst snd] in Hhd. apply orb_prop in Hhd. destruct Hhd as [Hn|He].
    + apply negb_true_iff in Hn. exfalso.
      assert (Hs : shares c d = true).
      { unfold shares. apply existsb_exists. exists f. split; [exact Hf | apply existsb_eqb_In; exact Hfd]. }
      congruence.
    + apply Nat.eqb_eq in He. symmetry. exact He.
  - apply (IH _ c s Hr Hin Hf).
Qed.

Lemma In_combine_l_ex : forall {A B} (l : list A) (m : list B) x,
  In x l -> length l <= length m -> exists y, In (x, y) (combine l m).
Proof.
  intros A B l. induction l as [|a r IH]; intros m x Hin Hlen; [contradiction|].
  destruct m as [|b m']; [cbn in Hlen; lia|]. cbn [combine]. destruct Hin as [<-|Hin].
  - exists b. left. reflexivity.
  - destruct (IH m' x Hin) as [y Hy]; [cbn in Hlen; lia|]. exists y. right. exact Hy.
Qed.

Lemma st_crossings_nonempty : forall ci c, In c (st_crossings ci) -> nonempty_b c = true.
Proof. intros ci c H. unfold st_crossings in H. apply filter_In in H. destruct H as [_ H]. destruct c; [discriminate|reflexivity]. Qed.

Section Created.
Variable ci : create_input.
Hypothesis Hok : input_ok_P ci.

(** any flat record that carries the input's design, its non-empty crossings and its sustain counts *)
Variable fb : flat.
Hypothesis Hdesign : fl_design fb = ci_design ci.
Hypothesis Hcross : fl_crossings fb = st_crossings ci.
Hypothesis Hsus : fl_sustains fb = ci_sustains ci.

Lemma created_sustain_pos : forall f, 0 < sustain fb f.
Proof.
  intro f. unfold sustain. rewrite sustain_of_fold, Hcross, Hsus. apply sus_fold_pos; [lia|].
  intros c s Hin. apply (ok_sus_pos ci Hok). exact (in_combine_r _ _ _ _ Hin).
Qed.

Lemma created_sustain_crossing : forall c f, In c (st_crossings ci) -> In f c -> sustain fb f = csustain fb c.
Proof.
  intros c f Hc Hf. destruct (In_combine_l_ex _ (ci_sustains ci) c Hc (ok_sus_len ci Hok)) as [s Hs].
  assert (H : forall g, In g c -> sustain fb g = s).
  { intros g Hg. unfold sustain. rewrite sustain_of_fold, Hcross, Hsus.
    exact (sus_fold_consistent g _ 1 c s (ok_cons ci Hok) Hs Hg). }
  rewrite (H f Hf). destruct c as [|g r]; [contradiction|]. cbn [csustain]. symmetry. apply H. left. reflexivity.
Qed.

Lemma created_fstride : forall f, fstride fb f = fstride (in_flat ci) f.
Proof. intro f. unfold fstride, factor_at. rewrite Hdesign. reflexivity. Qed.

Lemma created_wf_crossing_b : forall c, In c (st_crossings ci) -> wf_crossing_b fb c = true.
Proof.
  intros c Hc. unfold wf_crossing_b. rewrite (st_crossings_nonempty ci c Hc). cbn [andb].
  apply andb_true_intro. split.
  - apply Nat.ltb_lt. destruct c as [|g r]; [cbn; lia|]. cbn [csustain]. apply created_sustain_pos.
  - apply forallb_forall. intros f Hf. apply andb_true_intro. split; apply Nat.eqb_eq.
    + rewrite created_fstride. exact (ok_stride ci Hok c f Hc Hf).
    + exact (created_sustain_crossing c f Hc Hf).
Qed.

Lemma created_sizes_pos : forall S, In S (st_sizes ci) -> 0 < S.
Proof.
  intros S HS. unfold st_sizes in HS. apply in_map_iff in HS. destruct HS as [[c e] [<- Hin]]. cbn [fst snd].
  pose proof (ok_excl ci Hok c e Hin) as He. fold (in_flat ci).
  assert (Hc : In c (st_crossings ci)) by exact (in_combine_l _ _ _ _ Hin).
  assert (Hs : 0 < match c with f :: _ => sustain_of (in_flat ci) f | [] => 1 end).
  { destruct c as [|g r]; [lia|]. rewrite sustain_of_fold. apply sus_fold_pos; [lia|].
    intros c' s' Hin'. apply (ok_sus_pos ci Hok). exact (in_combine_r _ _ _ _ Hin'). }
  apply Nat.mul_pos_pos; [lia | exact Hs].
Qed.

Lemma created_sizes_length : length (st_sizes ci) = length (st_crossings ci).
Proof. unfold st_sizes. rewrite map_length, combine_length, (ok_excl_len ci Hok). apply Nat.min_id. Qed.

Lemma created_wf_trials_b : fl_sizes fb = st_sizes ci -> wf_trials_b fb = true.
Proof.
  intro Hsz. unfold wf_trials_b. rewrite Hsz, Hcross. apply andb_true_intro. split; [apply andb_true_intro; split|].
  - apply Nat.eqb_eq. exact created_sizes_length.
  - apply forallb_forall. intros S HS. apply Nat.ltb_lt. exact (created_sizes_pos S HS).
  - apply forallb_forall. exact created_wf_crossing_b.
Qed.

End Created.

Theorem create_flat_wf_trials_b : forall ci fb,
  input_ok ci = true -> create_flat ci = FOk fb -> wf_trials_b fb = true.
Proof.
  intros ci fb Hok Hc. apply input_ok_spec in Hok.
  destruct (create_flat_inv ci fb Hc) as [pres [T [m [ws [_ ->]]]]].
  apply (created_wf_trials_b ci Hok); reflexivity.
Qed.

Theorem create_flat_wf_trials : forall ci fb,
  input_ok ci = true -> create_flat ci = FOk fb -> wf_trials fb.
Proof. intros ci fb Hok Hc. apply wf_trials_b_sound. exact (create_flat_wf_trials_b ci fb Hok Hc). Qed.

(** the fields [preamble_sizes] and [trials_per_sample()] of a created record are the documented numbers:
    per crossing the latest window start among its factors, in trials; the larger of the rounded
    [MinimumTrials] and the largest need of a crossing *)
Theorem created_fields : forall ci fb,
  input_ok ci = true -> create_flat ci = FOk fb ->
  fl_preambles fb = map (fun c => cstart fb c * csustain fb c) (fl_crossings fb) /\
  (fl_alignment fb <> PostPreamble -> fl_trials fb = Nat.max (fl_min_trials fb) (doc_need_own fb)) /\
  (fl_alignment fb = PostPreamble -> fl_crossings fb <> [] -> fl_trials fb = Nat.max (fl_min_trials fb) (doc_need_post fb)).
Proof.
  intros ci fb Hok Hc. apply input_ok_spec in Hok.
  destruct (create_flat_inv ci fb Hc) as [pres [T [m [ws [[_ Hp _ HT Hm _] ->]]]]].
  assert (W2 : wf_trials (st_flat ci (st_sizes ci) []))
    by (apply wf_trials_b_sound; apply (created_wf_trials_b ci Hok); reflexivity).
  assert (W3 : wf_trials (st_flat ci (st_sizes ci) pres))
    by (apply wf_trials_b_sound; apply (created_wf_trials_b ci Hok); reflexivity).
  assert (Hnum : forall need, model_trials (st_flat ci (st_sizes ci) pres) = Some (Z.max m (Z.of_nat need)) ->
                              Z.to_nat T = Nat.max (Z.to_nat m) need).
  { intros need E. rewrite HT in E. injection E as ->. lia. }
  split; [|split].
  - rewrite (model_preambles_closed _ W2) in Hp. injection Hp as Hp.
    cbn [st_flat mkflat fl_crossings fl_sizes] in Hp.
    rewrite (map_fst_combine _ _ (eq_sym (created_sizes_length ci Hok))) in Hp.
    symmetry. exact Hp.
  - intro Hal. exact (Hnum _ (model_trials_own _ m W3 Hal Hm)).
  - intros Hal Hne. exact (Hnum _ (model_trials_post _ m W3 Hal Hne Hm)).
Qed.

Lemma preamble0_lt_need : forall fb,
  wf_trials fb -> nth 0 (map (fun c => cstart fb c * csustain fb c) (fl_crossings fb)) 0 < doc_need_own fb.
Proof.
  intros fb [Hlen [Hs _]]. unfold doc_need_own.
  destruct (fl_crossings fb) as [|c0 r]; [cbn; lia|].
  destruct (fl_sizes fb) as [|S0 Ss]; [discriminate|]. inversion Hs; subst.
  cbn [combine map nth fst snd]. rewrite max_list_cons. unfold crossing_need. lia.
Qed.

Theorem created_trials_pos : forall ci fb, create_flat ci = FOk fb -> 0 < fl_trials fb.
Proof.
  intros ci fb Hc. destruct (create_flat_inv ci fb Hc) as [pres [T [m [ws [[_ _ _ HT _ _] ->]]]]].
  destruct (model_trials_ge_min _ T HT) as [_ [_ [t [_ [_ H1]]]]]. cbn [built mkflat fl_trials]. lia.
Qed.

(** [get_geometry(0)], the [within_block] every constraint given to this constructor is initialised with
    (C26: its repetition windows), is the whole created block, and outside POST_PREAMBLE its preamble is
    shorter than the block *)
Theorem created_geometry : forall ci fb,
  input_ok ci = true -> create_flat ci = FOk fb -> fl_alignment fb <> PostPreamble ->
  exists g, fl_constraints fb = map (init_wb g) (st_cons ci) ++ ci_derivations ci /\
            g_trials g = fl_trials fb /\ g_preamble g = nth 0 (fl_preambles fb) 0 /\ g_preamble g < g_trials g.
Proof.
  intros ci fb Hok Hc Hal.
  destruct (created_fields ci fb Hok Hc) as [Hpre [Htr _]]. specialize (Htr Hal).
  pose proof (create_flat_wf_trials ci fb Hok Hc) as Hwf. pose proof (preamble0_lt_need fb Hwf) as Hlt.
  rewrite <- Hpre in Hlt. clear Hpre.
  destruct (create_flat_inv ci fb Hc) as [pres [T [m [ws [[_ Hp _ HT _ _] ->]]]]].
  exists (st_geometry ci pres T). cbn [built mkflat fl_constraints fl_trials fl_preambles fl_alignment fl_min_trials] in *.
  assert (Hg : g_preamble (st_geometry ci pres T) = nth 0 pres 0).
  { unfold st_geometry. cbn [g_preamble]. destruct (st_crossings ci) eqn:Ec.
    - unfold model_preambles in Hp. cbn [st_flat mkflat fl_crossings] in Hp. rewrite Ec in Hp. cbn in Hp.
      injection Hp as <-. reflexivity.
    - destruct (ci_alignment ci); [congruence|reflexivity|reflexivity]. }
  split; [reflexivity|]. split; [reflexivity|]. split; [exact Hg|]. rewrite Hg. cbn [st_geometry g_trials]. lia.
Qed.

(** C26: for the created block itself the repetition windows of its own geometry are one window, the whole
    sequence (the hypotheses [g_preamble g < g_trials g] of the C26 theorems hold of it) *)
Theorem ranges_of_created : forall ci fb,
  input_ok ci = true -> create_flat ci = FOk fb -> fl_alignment fb <> PostPreamble ->
  exists g, fl_constraints fb = map (init_wb g) (st_cons ci) ++ ci_derivations ci /\
            g_preamble g < g_trials g /\ g_preamble g < fl_trials fb /\
            map_block_trial_ranges fb (Some g) = Some [(0, fl_trials fb)].
Proof.
  intros ci fb Hok Hc Hal. destruct (created_geometry ci fb Hok Hc Hal) as [g [Hcs [Ht [_ Hlt]]]].
  exists g. split; [exact Hcs|]. split; [exact Hlt|]. split; [lia|].
  destruct (ranges_spec fb g Hlt Hal) as [n [Hr Hn]]. rewrite Hr. f_equal.
  assert (n = 1) by (pose proof (Hn 0); pose proof (Hn 1); lia).
  subst n. cbn [seq map]. unfold window_of. rewrite Nat.mul_0_l. f_equal. f_equal. lia.
Qed.

(** C14: on a created record distinct choices have distinct variables, the variables of the choices are exactly
    1..variables_per_sample, [decode_variable] inverts [encode_variable], and the first auxiliary variable is fresh *)
Theorem layout_of_created : forall (ci : create_input) (fb : flat),
  input_ok ci = true -> create_flat ci = FOk fb ->
  (forall f l t f' l' t',
     applicable fb f l t -> applicable fb f' l' t' ->
     encode_variable fb f l t = encode_variable fb f' l' t' -> f = f' /\ l = l' /\ t = t') /\
  (forall f l t, applicable fb f l t ->
     exists v, encode_variable fb f l t = Some v /\ 1 <= v <= variables_per_sample fb) /\
  (forall v, 1 <= v <= variables_per_sample fb ->
     exists f l t, applicable fb f l t /\ encode_variable fb f l t = Some v) /\
  (forall f l t v, applicable fb f l t -> encode_variable fb f l t = Some v ->
     decode_variable fb v = Some (f, l) /\ v < variables_per_sample fb + 1).
Proof.
  intros ci fb Hok Hc. pose proof (create_flat_wf_layout ci fb Hok Hc) as Hwf.
  split; [exact (encode_inj fb Hwf) | split; [exact (encode_range fb Hwf) | split; [exact (encode_onto fb Hwf)|]]].
  intros f l t v Ha He. split; [exact (decode_encode fb Hwf f l t v Ha He) | exact (fresh_above fb Hwf f l t v Ha He)].
Qed.

Lemma fold_mul_pos : forall (w : nat -> nat) c acc,
  0 < fold_left (fun a f => a * w f) c acc -> 0 < acc /\ forall f, In f c -> 0 < w f.
Proof.
  intros w c. induction c as [|g r IH]; intros acc H; cbn [fold_left] in H.
  - split; [exact H | intros f []].
  - destruct (IH _ H) as [Hacc Hr]. apply Nat.lt_0_mul' in Hacc.
    split; [apply Hacc|]. intros f [<-|Hf]; [apply Hacc | exact (Hr f Hf)].
Qed.

Lemma fold_sum_pos : forall (ls : list flevel) acc,
  acc < fold_left (fun a l => a + lv_weight l) ls acc -> exists l, In l ls /\ 0 < lv_weight l.
Proof.
  induction ls as [|l r IH]; intros acc H; cbn [fold_left] in H; [lia|].
  destruct (Nat.eq_dec (lv_weight l) 0) as [E|E].
  - rewrite E, Nat.add_0_r in H. destruct (IH acc H) as [l' [Hin Hp]]. exists l'. split; [right; exact Hin | exact Hp].
  - exists l. split; [left; reflexivity | lia].
Qed.

Theorem input_ok_crossed : forall ci,
  input_ok ci = true ->
  forall c f, In c (st_crossings ci) -> In f c ->
    exists fd, nth_error (ci_design ci) f = Some fd /\ exists l, In l (ff_levels fd) /\ 0 < lv_weight l.
Proof.
  intros ci Hok c f Hc Hf. apply input_ok_spec in Hok.
  assert (Hlen : length (st_crossings ci) <= length (ci_exclusions ci)) by (rewrite (ok_excl_len ci Hok); lia).
  destruct (In_combine_l_ex _ (ci_exclusions ci) c Hc Hlen) as [e He].
  pose proof (ok_excl ci Hok c e He) as Hlt.
  assert (Hpos : 0 < crossing_size_no_excl (in_flat ci) c) by lia.
  unfold crossing_size_no_excl in Hpos. apply fold_mul_pos in Hpos. destruct Hpos as [_ Hall].
  specialize (Hall f Hf). unfold level_weight_sum, factor_at in Hall. cbn [in_flat st_flat mkflat fl_design] in Hall.
  destruct (nth_error (ci_design ci) f) as [fd|]; [|lia]. exists fd. split; [reflexivity|].
  apply (fold_sum_pos _ 0). exact Hall.
Qed.

Require Import String.
Open Scope string_scope.

Definition xlv (n : string) : flevel := {| lv_name := n; lv_weight := 1; lv_accepts := [] |}.
Definition xfac (n a b : string) : ffactor :=
  {| ff_name := n; ff_hidden := false; ff_levels := [xlv a; xlv b]; ff_window := None; ff_complex := false |}.
(** a transition factor on factor [dep] (two levels: same / different) *)
Definition xtrans (n : string) (dep : nat) : ffactor :=
  {| ff_name := n; ff_hidden := false;
     ff_levels := [ {| lv_name := "same"; lv_weight := 1; lv_accepts := [[[Some 0; Some 0]]; [[Some 1; Some 1]]] |};
                    {| lv_name := "diff"; lv_weight := 1; lv_accepts := [[[Some 0; Some 1]]; [[Some 1; Some 0]]] |} ];
     ff_window := Some {| win_deps := [dep]; win_width := 2; win_stride := 1; win_start := 1; win_start_delta := 0%Z |};
     ff_complex := true |}.

(** the arguments [_create] receives for
      MultiCrossBlock([o, i, t], [[o, t], [i]], [MinimumTrials(7), AtMostKInARow(1, i)],
                      mode=RepeatMode.WEIGHT, alignment=AlignmentMode.PARALLEL_START)
    (t a transition factor on o), with the two [Derivation] constraints the real block generates for t *)
Definition ex_ok_input : create_input :=
  {| ci_design := [xfac "o" "a" "b"; xfac "i" "x" "y"; xtrans "t" 0];
     ci_crossings := [[0; 2]; [1]]; ci_sustains := [1; 1]; ci_weights := [1; 1];
     ci_constraints := [ICon (FMinimumTrials 7); IKRowFactor RAtMost 1 1 None];
     ci_rcc := true; ci_mode := MWeight; ci_alignment := ParallelStart;
     ci_exclusions := [0; 0];
     ci_derivations := [FDerivation 28 [[DIdx 0; DIdx 4]; [DIdx 1; DIdx 5]] 2; FDerivation 29 [[DIdx 0; DIdx 5]; [DIdx 1; DIdx 4]] 2];
     ci_excluded_derived := []; ci_errors_fail := false |}.

Lemma ex_ok_input_ok : input_ok ex_ok_input = true.
Proof. vm_compute. reflexivity. Qed.

(** the record built from it, evaluated here and nowhere else *)
Definition ex_ok_created : {fb | create_flat ex_ok_input = FOk fb}.
Proof. eexists. vm_compute. reflexivity. Defined.
Definition ex_ok_flat : flat := proj1_sig ex_ok_created.

(** it satisfies [input_ok], [create_flat] accepts it, and the record is the flat record of the real block:
    7 trials (the crossing o x t needs 1 + 4 = 5), weights 2 and 4, sizes 4 and 2, preambles 1 and 0 *)
Example ex_ok_input_created :
  input_ok ex_ok_input = true /\
  exists fb, create_flat ex_ok_input = FOk fb /\
    fl_act fb = [0; 1; 2] /\ fl_crossings fb = [[0; 2]; [1]] /\ fl_weights fb = [2; 4] /\ fl_sizes fb = [4; 2] /\
    fl_preambles fb = [1; 0] /\ fl_alignment_preamble fb = 1 /\ fl_min_trials fb = 7 /\ fl_trials fb = 7 /\
    wf_layout fb = true /\ wf_trials_b fb = true.
Proof. split; [exact ex_ok_input_ok|]. exists ex_ok_flat. split; [exact (proj2_sig ex_ok_created) | repeat split]. Qed.

(** Without [sustains_consistent] the guard of C16 fails on a record the real constructors build:
      Merge([Nest(CrossBlock([g, f], [g, f], []), CrossBlock([h], [h], [])), CrossBlock([f, k], [f, k], [])])
    hands [_create] the crossings [g, f] (sustain count 2), [h] (1), [f, k] (1); [factor_to_sustain_count]
    keeps the last count for f, so the crossing [g, f] has factors of sustain counts 2 and 1. *)
Definition ex_shared_input : create_input :=
  {| ci_design := [xfac "g" "g0" "g1"; xfac "f" "f0" "f1"; xfac "h" "h0" "h1"; xfac "k" "k0" "k1"];
     ci_crossings := [[0; 1]; [2]; [1; 3]]; ci_sustains := [2; 1; 1]; ci_weights := [1; 1; 1];
     ci_constraints := []; ci_rcc := true; ci_mode := MRepeat; ci_alignment := EqualPreamble;
     ci_exclusions := [0; 0; 0]; ci_derivations := []; ci_excluded_derived := []; ci_errors_fail := false |}.

Example create_flat_wf_trials_inconsistent_sustain_refuted :
  exists ci fb, create_flat ci = FOk fb /\ sustains_consistent (paired ci) = false /\ wf_trials_b fb = false /\
    fl_sizes fb = [8; 2; 4] /\ fl_trials fb = 8 /\ sustain fb 0 = 2 /\ sustain fb 1 = 1.
Proof. exists ex_shared_input. eexists. split; [vm_compute; reflexivity|]. repeat split. Qed.

(** the same with a transition factor t on g shared between the nested crossing [g, t] and a crossing [t, k]:
    the formula of C16 (one preamble group of 2 trials + 8 = 10, the count of the Nest alone) does not give
    the trial count of the merged block (9) *)
Definition ex_shared_trans_input : create_input :=
  {| ci_design := [xfac "g" "g0" "g1"; xtrans "tg" 0; xfac "h" "h0" "h1"; xfac "k" "k0" "k1"];
     ci_crossings := [[0; 1]; [2]; [1; 3]]; ci_sustains := [2; 1; 1]; ci_weights := [1; 1; 1];
     ci_constraints := []; ci_rcc := true; ci_mode := MRepeat; ci_alignment := ParallelStart;
     ci_exclusions := [0; 0; 0];
     ci_derivations := [FDerivation 54 [[DIdx 0; DIdx 6]; [DIdx 1; DIdx 7]] 1; FDerivation 55 [[DIdx 0; DIdx 7]; [DIdx 1; DIdx 6]] 1];
     ci_excluded_derived := []; ci_errors_fail := false |}.

Example create_flat_trials_formula_inconsistent_sustain_refuted :
  exists ci fb, create_flat ci = FOk fb /\ wf_trials_b fb = false /\ fl_alignment fb <> PostPreamble /\
    fl_trials fb = 9 /\ fl_preambles fb = [1; 0; 1] /\ doc_need_own fb = 10 /\ model_trials fb = Some 9%Z.
Proof.
  exists ex_shared_trans_input. eexists. split; [vm_compute; reflexivity|]. repeat split. discriminate.
Qed.

(** Without the bound on the exclusion counts: a crossing all of whose combinations are excluded has size 0.
      MultiCrossBlock([a, b], [[a, b]], [Exclude(a0), Exclude(a1)], mode=RepeatMode.REPEAT)
    is built by the real constructor (with the error flag set; in WEIGHT mode the weight loop divides by 0) *)
Definition ex_excluded_input : create_input :=
  {| ci_design := [xfac "a" "a0" "a1"; xfac "b" "b0" "b1"];
     ci_crossings := [[0; 1]]; ci_sustains := [1]; ci_weights := [1];
     ci_constraints := [ICon (FExclude 0 0); ICon (FExclude 0 1)]; ci_rcc := true; ci_mode := MRepeat;
     ci_alignment := ParallelStart;
     ci_exclusions := [4]; ci_derivations := []; ci_excluded_derived := []; ci_errors_fail := true |}.

Example create_flat_wf_trials_all_excluded_refuted :
  exists ci fb, create_flat ci = FOk fb /\ wf_trials_b fb = false /\ fl_sizes fb = [0] /\ fl_trials fb = 1 /\
    fl_errors_fail fb = true.
Proof. exists ex_excluded_input. eexists. split; [vm_compute; reflexivity|]. repeat split. Qed.

(** in WEIGHT mode the model, like the real constructor (ZeroDivisionError), fails *)
Example create_flat_all_excluded_weight_mode :
  create_flat {| ci_design := ci_design ex_excluded_input; ci_crossings := [[0; 1]]; ci_sustains := [1]; ci_weights := [1];
                 ci_constraints := ci_constraints ex_excluded_input; ci_rcc := true; ci_mode := MWeight;
                 ci_alignment := ParallelStart; ci_exclusions := [4]; ci_derivations := []; ci_excluded_derived := [];
                 ci_errors_fail := true |} = FErr FArith.
Proof. vm_compute. reflexivity. Qed.

(** Without the stride condition: [create_flat] does not model the check of [Block.__validate] that rejects a
    crossed factor of stride > 1 (the real constructor raises), so the condition has to be stated on the input *)
Definition xwin2 (n : string) (dep : nat) : ffactor :=
  {| ff_name := n; ff_hidden := false;
     ff_levels := [ {| lv_name := "w0"; lv_weight := 1; lv_accepts := [] |}; {| lv_name := "w1"; lv_weight := 1; lv_accepts := [] |} ];
     ff_window := Some {| win_deps := [dep]; win_width := 1; win_stride := 2; win_start := 0; win_start_delta := 0%Z |};
     ff_complex := true |}.

Example create_flat_wf_trials_stride_refuted :
  exists ci fb, create_flat ci = FOk fb /\ wf_trials_b fb = false /\ fstride fb 1 = 2.
Proof.
  exists {| ci_design := [xfac "a" "a0" "a1"; xwin2 "w" 0]; ci_crossings := [[1]]; ci_sustains := [1]; ci_weights := [1];
            ci_constraints := []; ci_rcc := true; ci_mode := MRepeat; ci_alignment := ParallelStart;
            ci_exclusions := [0]; ci_derivations := []; ci_excluded_derived := []; ci_errors_fail := false |}.
  eexists. split; [vm_compute; reflexivity|]. repeat split.
Qed.
Close Scope string_scope.
