(** Plain factors: the constraints of the program and of the input record ([plain_constraint] as a
    relation, level indices, the MinimumTrials fold), and closed forms of the documented semantics
    on simple factors. *)
From Coq Require Import ZArith List Bool Arith Lia String.
From SP Require Import Base.Lists Design.Flat Design.Sem Design.DocSem Design.DocSemProofs Design.DocSemPlain Design.ListSums
     Front.TrialsProofs Front.CreateFlat Front.PlainInput Front.PlainT2 Front.PlainT2Doc.
Import ListNotations.
Local Open Scope nat_scope.
Local Open Scope list_scope.

Section Cons.
Variable p : program.
Variable design : list nat.
Hypothesis Hsimple : forall f, In f design -> simple_id p f.

Definition lidx (f : nat) (n : name) : nat := match level_index p f n with Ok i => i | _ => 0 end.

Lemma fpos_pos : forall f c, fpos design f = Some c -> c = pos design f /\ nth_error design c = Some f /\ In f design.
Proof.
  intros f c H. unfold fpos in H. pose proof (index_of_Some Nat.eqb_eq _ _ _ H) as Hn. unfold pos. rewrite H.
  split; [reflexivity|split; [exact Hn|eapply nth_error_In; eauto]].
Qed.

Lemma lpos_index : forall f n l, lpos p f n = Some l -> level_index p f n = Ok l.
Proof. intros f n l H. unfold lpos, opt_of_res in H. destruct (level_index p f n); try discriminate. congruence. Qed.

(** [plain_constraint] as a relation: the constraints it translates, with the facts its tests establish *)
Inductive plain_con : pcons -> iconstraint -> Prop :=
| PC_level kd k f n l : In f design -> level_index p f n = Ok l ->
    plain_con (PKRow kd k (TLevel f n)) (ICon (mk_krow (krow_of kd) k (pos design f) l None))
| PC_factor kd k f : In f design -> plain_con (PKRow kd k (TFactor f)) (IKRowFactor (krow_of kd) k (pos design f) None)
| PC_exclude f n l : In f design -> level_index p f n = Ok l -> plain_con (PExclude f n) (ICon (FExclude (pos design f) l))
| PC_pin i f n l : In f design -> level_index p f n = Ok l -> plain_con (PPin i f n) (ICon (FPin i (pos design f) l None))
| PC_min t : plain_con (PMinimumTrials t) (ICon (FMinimumTrials (Z.of_nat t))).

Lemma plain_constraint_inv : forall c ic, plain_constraint p design c = Some ic -> plain_con c ic.
Proof.
  intros c ic H. unfold plain_constraint in H.
  destruct c as [kd k [f n|f]|f n|ix f n|f|fs|t| |kind]; try discriminate;
    try (destruct (fpos design f) as [pf|] eqn:Ef; [destruct (fpos_pos f pf Ef) as [-> [_ Hfd]]|discriminate]);
    try (destruct (lpos p f n) as [l|] eqn:El; [apply lpos_index in El|discriminate]);
    injection H as <-; constructor; assumption.
Qed.

Lemma level_index_simple : forall f n l, In f design -> level_index p f n = Ok l -> l < nlv p f /\ nm p f l = n.
Proof.
  intros f n l Hf E. unfold level_index in E.
  destruct (simple_fm p f (Hsimple f Hf)) as [Efm _]. rewrite Efm in E. cbn [bind] in E.
  rewrite (level_names_fd p f (Hsimple f Hf)) in E. cbn [bind] in E. unfold of_option in E.
  destruct (index_of String.eqb n (map fst (plevels p f))) as [i|] eqn:Ei; [|discriminate]. injection E as ->.
  pose proof (index_of_lt _ _ _ _ Ei) as Hlt. rewrite map_length in Hlt. split; [exact Hlt|].
  exact (nth_error_nth _ _ _ (index_of_Some String.eqb_eq _ _ _ Ei)).
Qed.

Lemma level_index_nm : forall f l, simple_id p f -> NoDup (map fst (plevels p f)) -> l < nlv p f ->
  level_index p f (nm p f l) = Ok l.
Proof.
  intros f l Hs Hnd Hl. unfold level_index. destruct (simple_fm p f Hs) as [-> _]. cbn [bind].
  rewrite (level_names_fd p f Hs). cbn [bind]. unfold nm.
  assert (Ei : index_of String.eqb (nth l (map fst (plevels p f)) EmptyString) (map fst (plevels p f)) = Some l)
    by (apply (index_of_NoDup String.eqb_eq); [exact Hnd|apply nth_error_nth'; rewrite map_length; exact Hl]).
  rewrite Ei. reflexivity.
Qed.

(** the MinimumTrials fold of [Block.__init__] over the desugared constraints *)
Lemma fold_min_krow : forall kind k f wb ls m,
  fold_left min_step (map (fun l => mk_krow kind k f l wb) ls) m = m.
Proof. intros kind k f wb ls. induction ls as [|l ls IH]; intro m; [reflexivity|]. cbn [map fold_left]. destruct kind; cbn; apply IH. Qed.

Lemma min_fold_cs : forall fds cs ics, Forall2 (fun c ic => plain_constraint p design c = Some ic) cs ics ->
  forall m, (0 <= m)%Z ->
  fold_left min_step (flat_map (desugar_constraint fds) ics) m = Z.max m (Z.of_nat (list_max (min_trials_of cs))).
Proof.
  intros fds cs ics Hics. induction Hics as [|c ic cs' ics' Hc _ IH]; intros m Hm; [cbn; lia|].
  cbn [flat_map]. rewrite fold_left_app. unfold min_trials_of in *. cbn [flat_map].
  destruct (plain_constraint_inv _ _ Hc) as [kd k f n l _ _|kd k f _|f n l _ _|ix f n l _ _|t].
  - cbn [desugar_constraint fold_left app]. replace (min_step m (mk_krow (krow_of kd) k (pos design f) l None)) with m by (destruct kd; reflexivity).
    apply IH. exact Hm.
  - cbn [desugar_constraint app]. rewrite fold_min_krow. apply IH. exact Hm.
  - cbn [desugar_constraint fold_left app min_step]. apply IH. exact Hm.
  - cbn [desugar_constraint fold_left app min_step]. apply IH. exact Hm.
  - cbn [desugar_constraint fold_left app min_step]. rewrite list_max_cons.
    destruct (m =? 0)%Z eqn:Z0.
    + apply Z.eqb_eq in Z0. subst m. rewrite IH by lia. lia.
    + rewrite IH by lia. lia.
Qed.

End Cons.

Lemma in_combine_map_l : forall {A B C} (g : A -> C) (fs : list A) (ls : list B) c l,
  In (c, l) (combine (map g fs) ls) <-> exists f, In (f, l) (combine fs ls) /\ c = g f.
Proof.
  intros A B C g fs. induction fs as [|f fs IH]; intros [|x ls] c l; cbn [combine map In]; try solve [split; [intros []|intros [f' [[] _]]]].
  rewrite IH. split.
  - intros [E|[f' [H1 H2]]]; [inversion E; subst; exists f; split; [left; reflexivity|reflexivity]|exists f'; split; [right; exact H1|exact H2]].
  - intros [f' [[E|H1] H2]]; [inversion E; subst; left; reflexivity|right; exists f'; split; assumption].
Qed.

Lemma in_combine_zipw : forall {A B C} (h : A -> B -> C) (fs : list A) (ls : list B) f n,
  In (f, n) (combine fs (zipw h fs ls)) <-> exists l, In (f, l) (combine fs ls) /\ n = h f l.
Proof.
  intros A B C h fs. unfold zipw. induction fs as [|f0 fs IH]; intros [|x ls] f n; cbn [combine map In fst snd]; try solve [split; [intros []|intros [l [[] _]]]].
  rewrite IH. split.
  - intros [E|[l [H1 H2]]]; [inversion E; subst; exists x; split; [left; reflexivity|reflexivity]|exists l; split; [right; exact H1|exact H2]].
  - intros [l [[E|H1] H2]]; [inversion E; subst; left; reflexivity|right; exists l; split; assumption].
Qed.

Lemma existsb_false : forall {A} (P : A -> bool) l, (forall x, In x l -> P x = false) -> existsb P l = false.
Proof. intros A P l H. induction l as [|x l IH]; [reflexivity|]. cbn. rewrite (H x (or_introl eq_refl)). apply IH. intros y Hy. apply H. right. exact Hy. Qed.

Lemma mapM_in_l : forall {A B} (f : A -> res B) l ys x, mapM f l = Ok ys -> In x l -> exists y, In y ys /\ f x = Ok y.
Proof. intros A B f l ys x H Hx. exact (Forall2_in_l _ _ _ _ (mapM_ok _ _ _ H) Hx). Qed.

Section DocAux.
Variable p : program.

Lemma crossing_preamble_plain : forall crossing, (forall f, In f crossing -> simple_id p f) -> crossing_preamble p crossing = Ok 0.
Proof.
  intros crossing H. unfold crossing_preamble.
  apply (fold_left_inv _ (fun acc => acc = Ok 0)); [|reflexivity]. intros a f Hf ->. cbn [bind].
  destruct (simple_fm p f (H f Hf)) as [-> Hs]. cbn [bind]. rewrite (simple_not_derived _ Hs). reflexivity.
Qed.

Lemma depth_simple : forall f, simple_id p f -> depth p (fuel0 p) f = Ok 0.
Proof.
  intros f H. unfold fuel0. cbn [depth]. destruct (simple_fm p f H) as [-> Hs]. cbn [bind].
  unfold is_simple in Hs. destruct (pf_kind (fd_of p f)); try discriminate. reflexivity.
Qed.

Lemma insert_by_last : forall {A} (leb : A -> A -> bool) x l, (forall y, In y l -> leb y x = true) -> insert_by leb x l = l ++ [x].
Proof.
  intros A leb x l. induction l as [|y l IH]; intro H; [reflexivity|]. cbn. rewrite (H y (or_introl eq_refl)). f_equal.
  apply IH. intros z Hz. apply H. right. exact Hz.
Qed.

Lemma pos_of_some : forall l f, In f l -> exists i, pos_of l f = Ok i.
Proof.
  intros l f H. unfold pos_of.
  assert (G : forall s acc, (In f l \/ acc <> None) ->
              fold_left (fun acc ix => if snd ix =? f then Some (fst ix) else acc) (combine (seq s (List.length l)) l) acc <> None).
  { clear H. induction l as [|x l IH]; intros s acc H; cbn.
    - destruct H as [[]|H]; exact H.
    - apply IH. destruct (Nat.eqb_spec x f) as [->|Hne]; [right; discriminate|]. destruct H as [[E|H]|H]; [congruence|left; exact H|right; exact H]. }
  specialize (G 0 None (or_introl H)). destruct (fold_left _ _ None) as [i|]; [exists i; reflexivity|congruence].
Qed.

Lemma pos_of_design : forall l f, NoDup l -> In f l -> pos_of l f = Ok (pos l f).
Proof.
  intros l f Hnd Hf. destruct (pos_of_some l f Hf) as [i E]. rewrite E. f_equal.
  destruct (pos_of_nth _ _ _ E) as [Hi Hn]. pose proof (pos_nth_error l f Hf) as Hp.
  assert (Hpl : pos l f < List.length l) by (apply nth_error_Some; congruence).
  apply (proj1 (NoDup_nth l 0) Hnd); try assumption. rewrite Hn. symmetry. apply nth_error_nth. exact Hp.
Qed.

Lemma sem_factor_simple : forall bd forder f, simple_id p f ->
  sem_factor p bd forder f = Ok {| f_nlevels := nlv p f; f_sustain := sustain_get bd f; f_derived := None |}.
Proof.
  intros bd forder f H. unfold sem_factor. destruct (simple_fm p f H) as [-> Hs]. cbn [bind].
  unfold DocSem.nlevels. rewrite (simple_plevels p f H). cbn [bind]. rewrite Hs. reflexivity.
Qed.

End DocAux.

(** the block record of a CrossBlock with one crossing, EQUAL_PREAMBLE and no sustained factor *)
Definition the_bd (design : list nat) (cs : list pcons) (rcc : bool) (x : dcross) (T : nat) : blockdoc :=
  {| b_design := design; b_crossings := [x]; b_T := T; b_P := 0; b_constraints := own_constraints cs;
     b_min_trials := list_max (min_trials_of cs); b_alignment := EqualPreamble; b_sustain := []; b_rcc := rcc |}.
