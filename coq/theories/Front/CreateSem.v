(** The documented block-combinator equivalences as statements about valid sequences.

    Front/CreateProofs.v proves that the two sides of each equivalence hand [_create] the same
    arguments, up to the order of the constraint list and up to empty crossings.  Here the
    step to "the same valid sequences" is made explicit, without a model of [_create] itself
    (arguments -> flat record; Front/CreateFlat.v has one, and Front/CreateFlatProofs.v proves
    [create_flat_respects], the counterpart of [denote_respects] for its flat record); here it enters as the section variable [denote]: the
    reference-semantics normal form (Design/Sem.v) of the block that [_create] builds from
    given arguments - in the development: Encode/CodeSem.v's [code_sem] of its flat record.
    That [_create] is a *function* of its arguments is then the fact that [denote] is a Coq
    function; what else is used about it is the explicit hypothesis [denote_respects]: the
    valid set depends on the arguments only through the non-empty crossings with their
    sustain counts and weights, and on the constraints only as a set (every constraint is a
    conjunct - [valid_perm_constraints] below proves that for the reference semantics). *)
From Coq Require Import ZArith List Bool Arith Lia Permutation.
From SP Require Import Base.Lists Design.Flat Design.Sem Design.SemFacts Front.Trials Front.Create Front.CreateProofs.
Import ListNotations.

(** what [_create] reads of its arguments *)
Definition args_equiv (a b : create_args) : Prop :=
  ca_design a = ca_design b /\
  norm_crossings a = norm_crossings b /\
  firstn (length (norm_crossings a)) (ca_sustains a) = firstn (length (norm_crossings b)) (ca_sustains b) /\
  firstn (length (norm_crossings a)) (ca_weights a) = firstn (length (norm_crossings b)) (ca_weights b) /\
  ca_rcc a = ca_rcc b /\ ca_mode a = ca_mode b /\ ca_alignment a = ca_alignment b /\
  Permutation (ca_constraints a) (ca_constraints b).

Theorem valid_perm_constraints : forall S S' s,
  s_trials S = s_trials S' -> s_factors S = s_factors S' -> s_crossings S = s_crossings S' ->
  Permutation (s_constraints S) (s_constraints S') ->
  valid_b S s = valid_b S' s.
Proof.
  intros S S' s HT HF HX HP. apply valid_b_same_constraints; try assumption.
  intro k. split; apply Permutation_in; [|apply Permutation_sym]; exact HP.
Qed.

Section Denote.
Variable denote : create_args -> sem.
Hypothesis denote_respects : forall a b, args_equiv a b -> forall s, valid_b (denote a) s = valid_b (denote b) s.

(** CrossBlock(design, crossing, cs, rcc) and MultiCrossBlock(design, [crossing], cs, rcc, WEIGHT)
    have the same valid sequences (identical arguments: no hypothesis on [denote] is used) *)
Theorem cross_multi_valid : forall design crossing cs rcc a b s,
  create_of (BCross design crossing cs rcc) = COk a ->
  create_of (BMulti design [crossing] cs rcc MWeight EqualPreamble) = COk b ->
  valid_b (denote a) s = valid_b (denote b) s.
Proof.
  intros design crossing cs rcc a b s Ha Hb. rewrite cross_eq_multicross_weight in Ha. rewrite Ha in Hb.
  inversion Hb. reflexivity.
Qed.

(** Repeat(block, cs) and Merge([block], cs, REPEAT, EQUAL_PREAMBLE) have the same valid sequences
    (block aligned EQUAL_PREAMBLE, not weight-desugared, one count and weight per crossing) *)
Theorem repeat_merge_valid : forall b cs r m s,
  bi_multicross b = true -> bi_alignment b = EqualPreamble -> not_desugared b -> aligned b -> NoDup (bi_design b) ->
  create_of (BRepeat b cs) = COk r -> create_of (BMerge [b] cs MRepeat (Some EqualPreamble)) = COk m ->
  valid_b (denote r) s = valid_b (denote m) s.
Proof.
  intros b cs r m s H1 H2 H3 H4 H5 Hr Hm.
  destruct (repeat_eq_merge b cs H1 H2 H3 H4 H5) as [r' [m' [Hr' [Hm' [Hsame Hperm]]]]].
  rewrite Hr in Hr'. rewrite Hm in Hm'. inversion Hr'; inversion Hm'; subst r' m'.
  apply denote_respects. destruct Hsame as [Hd [Hc [Hs [Hw [Hrc [Hmo Hal]]]]]].
  unfold args_equiv, norm_crossings. rewrite Hd, Hc, Hs, Hw, Hrc, Hmo, Hal. repeat split. exact Hperm.
Qed.

(** MultiCrossBlock(design, crossings, cs, rcc, mode, EQUAL_PREAMBLE) and the Merge of one
    CrossBlock(design, c, [], rcc) per crossing have the same valid sequences *)
Theorem multi_merge_valid : forall design crossings cs rcc mode leaves m s,
  NoDup design -> crossings <> [] ->
  Forall2 (is_cross_leaf design rcc) crossings leaves ->
  create_of (BMerge leaves cs mode (Some EqualPreamble)) = COk m ->
  valid_b (denote (create_multi design crossings cs rcc mode EqualPreamble)) s = valid_b (denote m) s.
Proof.
  intros design crossings cs rcc mode leaves m s Hnd Hne HF Hm.
  destruct (multicross_eq_merge design crossings cs rcc mode leaves Hnd Hne HF) as [m' [Hm' H]].
  rewrite Hm in Hm'. inversion Hm'; subst m'. cbv zeta in H.
  destruct H as [Hd [Hc [Hn [Hs [Hsa [Hw [Hwa [Hk [Hr [Hmo Hal]]]]]]]]]].
  set (a := create_multi design crossings cs rcc mode EqualPreamble) in *.
  assert (Hle : length (norm_crossings a) <= length (ca_crossings a)) by (unfold norm_crossings; apply filter_length_le).
  apply denote_respects. unfold args_equiv.
  split; [symmetry; exact Hd|]. split; [symmetry; exact Hn|].
  split; [rewrite Hn, Hs, Hsa; unfold ones; rewrite (firstn_map_const 1 _ _ Hle), (firstn_map_const 1 _ _ (le_n _)); reflexivity|].
  split; [rewrite Hn, Hw, Hwa; unfold onesZ; rewrite (firstn_map_const 1%Z _ _ Hle), (firstn_map_const 1%Z _ _ (le_n _)); reflexivity|].
  split; [symmetry; exact Hr|]. split; [symmetry; exact Hmo|]. split; [symmetry; exact Hal|].
  rewrite Hk. apply Permutation_refl.
Qed.

End Denote.

(** * The hypothesis is satisfiable: a toy [denote] that reads the design and the constraint list *)
Definition ex_denote (a : create_args) : sem :=
  {| s_trials := 2;
     s_factors := map (fun _ => {| f_nlevels := 2; f_sustain := 1; f_derived := None |}) (ca_design a);
     s_crossings := [];
     s_constraints := map (fun oc => {| k_kind := Sem.KExactlyK (Z.to_nat (c_param (snd oc))); k_factor := 0; k_level := 0;
                                       k_windows := [(0, 2)] |}) (ca_constraints a) |}.

Lemma ex_denote_respects : forall a b, args_equiv a b -> forall s, valid_b (ex_denote a) s = valid_b (ex_denote b) s.
Proof.
  intros a b [Hd [_ [_ [_ [_ [_ [_ Hp]]]]]]] s. apply valid_perm_constraints; try reflexivity.
  - cbn. rewrite Hd. reflexivity.
  - cbn. apply Permutation_map. exact Hp.
Qed.
