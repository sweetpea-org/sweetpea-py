(** T2(d) through the checker: whenever [t2d_check] accepts, the code's reading of the flat record
    created from the program has exactly the valid sequences of the documented semantics.
    The unconditional statement under [t2d_guard2] is in Front/DerivedT2Final.v; what remains under
    [t2d_guard] is listed in Properties/T2d.v. *)
From Coq Require Import ZArith List Bool Arith String.
From SP Require Import Design.Flat Design.Sem Design.SemEqv Design.SemEqvT Design.SemEqvTB Design.SemEqvTBProofs Design.DocSem
     Front.CreateFlat Front.PlainInput Front.DerivedInput Front.DerivedGuard Front.DerivedCheck Encode.CodeSem.
Import ListNotations.
Local Open Scope string_scope.

Theorem derived_checked_sem_eqv : forall p ci fb ds,
  derived_input p = Some ci -> create_flat ci = FOk fb -> doc_sem p = Ok ds -> t2d_check p = Some true ->
  sem_eqv_t (code_sem fb) (ds_sem ds).
Proof.
  intros p ci fb ds Hin Hfb Hds Hc. unfold t2d_check in Hc. rewrite Hin, Hds, Hfb in Hc.
  apply sem_eqv_tb_sound. congruence.
Qed.

Theorem derived_checked_valid : forall p ci fb ds,
  derived_input p = Some ci -> create_flat ci = FOk fb -> doc_sem p = Ok ds -> t2d_check p = Some true ->
  forall s, valid_b (code_sem fb) s = valid_b (ds_sem ds) s.
Proof. intros p ci fb ds H1 H2 H3 H4. apply sem_eqv_t_valid. eapply derived_checked_sem_eqv; eauto. Qed.

(** * The Stroop shapes are inside the guard and the checker accepts them *)
Definition stroop_factors : list pfactor :=
  [ {| pf_id := 0; pf_name := "color"; pf_kind := FSimple [("red", 1); ("blue", 1)] |};
    {| pf_id := 1; pf_name := "text"; pf_kind := FSimple [("red", 1); ("blue", 1)] |};
    {| pf_id := 2; pf_name := "congruent";
       pf_kind := FDerived {| pw_type := WWithin; pw_deps := [0; 1] |}
                    [ {| dl_name := "con"; dl_weight := 1; dl_else := false;
                         dl_table := [ [[Some "red"]; [Some "red"]]; [[Some "blue"]; [Some "blue"]] ] |};
                      {| dl_name := "inc"; dl_weight := 1; dl_else := true; dl_table := [] |} ] |} ].

(** crossing [color, text], the congruent trials excluded, at most 1 incongruent trial in a row *)
Definition stroop_uncrossed : program :=
  {| p_factors := stroop_factors;
     p_main := PCross [0; 1; 2] [0; 1] [PExclude 2 "con"; PKRow DocSem.RAtMost 1 (TLevel 2 "inc")] false |}.

(** crossing [color, congruent], complete crossing required *)
Definition stroop_crossed : program :=
  {| p_factors := stroop_factors;
     p_main := PCross [0; 1; 2] [0; 2] [PMinimumTrials 6] true |}.

Example stroop_uncrossed_ok : t2d_guard stroop_uncrossed = true /\ t2d_check stroop_uncrossed = Some true.
Proof. vm_compute. split; reflexivity. Qed.

Example stroop_crossed_ok : t2d_guard stroop_crossed = true /\ t2d_check stroop_crossed = Some true.
Proof. vm_compute. split; reflexivity. Qed.

(** the trial counts: 2 (four combinations, two excluded) and 6 (MinimumTrials 6 over a crossing of size 4: one full chunk and a partial one) *)
Example stroop_trials :
  option_map (fun r => match r with FOk fb => fl_trials fb | FErr _ => 0 end) (t2d_flat stroop_uncrossed) = Some 2 /\
  option_map (fun r => match r with FOk fb => fl_trials fb | FErr _ => 0 end) (t2d_flat stroop_crossed) = Some 6.
Proof. vm_compute. split; reflexivity. Qed.
