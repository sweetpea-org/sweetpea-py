(** T2 end to end on the plain CrossBlock fragment: the CNF that the compile model builds for the
    flat record of a program, against the DOCUMENTED semantics of the program.
    Composition of T2(c) (Front/PlainT2Final.v: [code_sem fb] and [doc_sem p] have the same valid
    sequences) with the compile theorems (Encode/CompileCorollaries.v: [models_are_valid],
    [valid_has_model], [one_model_per_sequence], relating the models of [full_cnf (compile fb)] to [valid_b (code_sem fb)]). *)
From Coq Require Import ZArith List Bool Arith Lia String.
From SP Require Import Base.Sat Design.Flat Design.Sem Design.DocSem Front.CreateFlat Front.PlainInput Front.PlainT2Final
     Encode.Compile Encode.CodeSem Encode.F1Sem Encode.CompileCorollaries.
Import ListNotations.
Local Open Scope nat_scope.

Section EndToEnd.
Variable p : program.
Variable ci : create_input.
Variable fb : flat.
Variable ds : docsem.
Hypothesis Hin : plain_input p = Some ci.
Hypothesis Hguard : t2_guard p = true.
Hypothesis Hfb : create_flat ci = FOk fb.
Hypothesis Hds : doc_sem p = Ok ds.
Hypothesis Hf1 : in_f1 fb = true.
Hypothesis HT : 0 < T fb.
Variable b : backend.
Variables (ok : bool) (n' : Z) (final : cnf).
Hypothesis Hcomp : compile fb = COk b.
Hypothesis Hfull : full_cnf b = (ok, n', final).

(** (i) every model of the formula is the one-hot image of a sequence that is valid for the
    documented semantics of the program *)
Theorem plain_e2e_sound : forall t, sat t final = true ->
  exists q, onehot fb t q /\ valid_b (ds_sem ds) q = true.
Proof.
  intros t Hsat. destruct (models_are_valid fb Hf1 HT b Hcomp ok n' final t Hfull Hsat) as [q [Ho Hv]].
  exists q. split; [exact Ho|]. rewrite <- (plain_t2_valid p ci fb ds Hin Hguard Hfb Hds q). exact Hv.
Qed.

(** (ii) every sequence valid for the documented semantics is the decoding of a model, and of
    exactly one: two such models agree on every variable of the formula *)
Theorem plain_e2e_complete_unique : forall q, valid_b (ds_sem ds) q = true ->
  (exists t, sat t final = true /\ onehot fb t q) /\
  (forall t1 t2, sat t1 final = true -> sat t2 final = true -> onehot fb t1 q -> onehot fb t2 q ->
                 agree_upto n' t1 t2).
Proof.
  intros q Hv. rewrite <- (plain_t2_valid p ci fb ds Hin Hguard Hfb Hds q) in Hv. split.
  - exact (valid_has_model fb Hf1 HT b Hcomp ok n' final q Hfull Hv).
  - intros t1 t2 H1 H2 O1 O2. exact (one_model_per_sequence fb Hf1 HT b Hcomp ok n' final q t1 t2 Hfull H1 H2 O1 O2).
Qed.

End EndToEnd.

(** ... with [in_f1 fb] and [0 < T fb] derived from the plain fragment ([t2e_guard]: [t2_guard] and
    k > 0 on AtLeastKInARow / ExactlyKInARow) *)
Theorem plain_e2e_sound_guard : forall p ci fb ds,
  plain_input p = Some ci -> t2e_guard p = true -> create_flat ci = FOk fb -> doc_sem p = Ok ds ->
  forall b ok n' final, compile fb = COk b -> full_cnf b = (ok, n', final) ->
  forall t, sat t final = true -> exists q, onehot fb t q /\ valid_b (ds_sem ds) q = true.
Proof.
  intros p ci fb ds Hin Hg Hfb Hds b ok n' final Hc Hfull. destruct (plain_t2_in_f1 p ci fb Hin Hg Hfb) as [Hf1 HT].
  unfold t2e_guard in Hg. apply andb_true_iff in Hg. destruct Hg as [Hg _].
  exact (plain_e2e_sound p ci fb ds Hin Hg Hfb Hds Hf1 HT b ok n' final Hc Hfull).
Qed.

Theorem plain_e2e_complete_unique_guard : forall p ci fb ds,
  plain_input p = Some ci -> t2e_guard p = true -> create_flat ci = FOk fb -> doc_sem p = Ok ds ->
  forall b ok n' final, compile fb = COk b -> full_cnf b = (ok, n', final) ->
  forall q, valid_b (ds_sem ds) q = true ->
    (exists t, sat t final = true /\ onehot fb t q) /\
    (forall t1 t2, sat t1 final = true -> sat t2 final = true -> onehot fb t1 q -> onehot fb t2 q ->
                   agree_upto n' t1 t2).
Proof.
  intros p ci fb ds Hin Hg Hfb Hds b ok n' final Hc Hfull. destruct (plain_t2_in_f1 p ci fb Hin Hg Hfb) as [Hf1 HT].
  unfold t2e_guard in Hg. apply andb_true_iff in Hg. destruct Hg as [Hg _].
  exact (plain_e2e_complete_unique p ci fb ds Hin Hg Hfb Hds Hf1 HT b ok n' final Hc Hfull).
Qed.
