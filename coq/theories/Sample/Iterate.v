(** The iterate-and-block loop of [core/generate/sample_non_uniform.py]
    ([compute_solutions] + [update_file]) over an abstract solver.

    The solver is a [Section] variable with exactly two assumed properties (the
    trusted behaviour of CryptoMiniSat): a returned assignment satisfies the
    clauses, and "no solution" is only answered for an unsatisfiable formula.
    The clause appended between iterations is the model's
    [Text.Dimacs.blocking_clause] of the solution cut to the support
    ([solution[:support]]), which [Text.TextTheorems.update_file_blocks] ties to
    the text the real code writes. *)
From Coq Require Import ZArith List Bool Lia.
From SP Require Import Base.Sat Text.Dimacs Text.DimacsProofs Text.SolverIO Text.SolverIOProofs Text.TextTheorems.
Import ListNotations.
Open Scope Z_scope.

Section Iterate.
Variable solve : cnf -> option asg.
Variable support : Z.

Hypothesis solve_sound : forall f p, solve f = Some p -> sat p f = true.
Hypothesis solve_complete : forall f, solve f = None -> forall s, sat s f = false.

Definition block_of (p : asg) : clause := blocking_clause (sol_of p support).

(** [compute_solutions]: at most [count] solver calls; each solution found is
    recorded and its support assignment blocked. *)
Fixpoint iterate (count : nat) (f : cnf) : list asg :=
  match count with
  | O => []
  | S c =>
    match solve f with
    | None => []
    | Some p => p :: iterate c (f ++ [block_of p])
    end
  end.

(** the sequences the sampler returns: solutions cut to the support *)
Definition returned (count : nat) (f : cnf) : list (list Z) :=
  map (fun p => sol_of p support) (iterate count f).

Lemma sat_snoc s f c : sat s (f ++ [c]) = sat s f && csat s c.
Proof. rewrite sat_app. cbn. now rewrite andb_true_r. Qed.

Lemma iterate_length count f : (length (iterate count f) <= count)%nat.
Proof.
  revert f. induction count as [|c IH]; intros f; cbn; [lia|].
  destruct (solve f); cbn; [|lia]. specialize (IH (f ++ [block_of a])). lia.
Qed.

(** every recorded solution is a model of the original formula and of every
    blocking clause added before it *)
Lemma iterate_models count f :
  Forall (fun p => sat p f = true) (iterate count f).
Proof.
  revert f. induction count as [|c IH]; intros f; cbn; [constructor|].
  destruct (solve f) as [p|] eqn:E; [|constructor].
  constructor; [now apply solve_sound|].
  specialize (IH (f ++ [block_of p])).
  eapply Forall_impl; [|exact IH]. intros q Hq. cbn in Hq.
  rewrite sat_snoc in Hq. now apply andb_true_iff in Hq.
Qed.

(** every later solution differs from [p] on the support once [p] is blocked *)
Lemma iterate_blocked count f p :
  (forall s, sat s f = true -> ~ agree_upto support s p) ->
  Forall (fun q => ~ agree_upto support q p) (iterate count f).
Proof.
  revert f. induction count as [|c IH]; intros f Hf; cbn; [constructor|].
  destruct (solve f) as [q|] eqn:E; [|constructor].
  constructor; [apply Hf; now apply solve_sound|].
  apply IH. intros s Hs. rewrite sat_snoc in Hs. apply andb_true_iff in Hs. now apply Hf.
Qed.

(** no two recorded solutions agree on the support: the returned sequences are
    pairwise different *)
Lemma iterate_distinct count f :
  ForallOrdPairs (fun p q => ~ agree_upto support q p) (iterate count f).
Proof.
  revert f. induction count as [|c IH]; intros f; cbn; [constructor|].
  destruct (solve f) as [p|] eqn:E; [|constructor].
  constructor; [|apply IH].
  apply iterate_blocked. intros s Hs. rewrite sat_snoc in Hs. apply andb_true_iff in Hs.
  destruct Hs as [_ Hb]. unfold block_of in Hb. now apply blocking_excludes_exactly in Hb.
Qed.

(** if the loop stops before using all [count] calls, every model of the
    formula agrees on the support with a recorded solution: the result is
    exhaustive *)
Lemma iterate_exhausts count f :
  (length (iterate count f) < count)%nat ->
  forall s, sat s f = true -> exists p, In p (iterate count f) /\ agree_upto support s p.
Proof using solve_complete.
  revert f. induction count as [|c IH]; intros f Hlen s Hs; [cbn in Hlen; lia|].
  cbn in *. destruct (solve f) as [p|] eqn:E.
  - cbn in Hlen.
    destruct (csat s (block_of p)) eqn:Hb.
    + destruct (IH (f ++ [block_of p]) ltac:(lia) s) as [q [Hq Ha]].
      { rewrite sat_snoc, Hs, Hb. reflexivity. }
      exists q. split; [now right|assumption].
    + exists p. split; [now left|].
      unfold block_of in Hb. rewrite csat_blocking in Hb by apply sol_of_nonzero.
      apply negb_false_iff in Hb. now apply sol_of_sat.
  - rewrite (solve_complete f E s) in Hs. discriminate.
Qed.

(** the loop never returns more than asked, and when it returns fewer, it
    returned one solution for every support assignment that has a model *)
Theorem iterate_spec count f :
  (length (returned count f) <= count)%nat /\
  Forall (fun p => sat p f = true) (iterate count f) /\
  ForallOrdPairs (fun p q => ~ agree_upto support q p) (iterate count f) /\
  ((length (returned count f) < count)%nat ->
   forall s, sat s f = true -> exists p, In p (iterate count f) /\ agree_upto support s p).
Proof.
  unfold returned. rewrite map_length. split; [apply iterate_length|].
  split; [apply iterate_models|]. split; [apply iterate_distinct|apply iterate_exhausts].
Qed.

End Iterate.
