(** Proof that [Decode.decode] (model of [Gen.decode]) returns exactly the level
    choice encoded by a one-hot assignment (property C14, [decode_onehot]). *)
From Coq Require Import ZArith List Bool Arith Lia String Sorted.
From SP Require Import Base.Lists Design.Flat Design.Layout Design.LayoutWf Design.LayoutProofs Sample.Decode Sample.DecodeWf.
Import ListNotations.

Lemma SS_filter {A} (R : A -> A -> Prop) (p : A -> bool) (l : list A) :
  StronglySorted R l -> StronglySorted R (filter p l).
Proof.
  induction 1 as [|a l Hs IH Hall]; cbn [filter]; [constructor|].
  destruct (p a); [|exact IH]. constructor; [exact IH|].
  apply Forall_forall. intros x Hx. apply filter_In in Hx. destruct Hx as [Hx _].
  rewrite Forall_forall in Hall. apply Hall. exact Hx.
Qed.

Lemma SS_map {A B} (R : A -> A -> Prop) (R' : B -> B -> Prop) (g : A -> B) (l : list A) :
  StronglySorted R l ->
  (forall x y, In x l -> In y l -> R x y -> R' (g x) (g y)) ->
  StronglySorted R' (map g l).
Proof.
  induction 1 as [|a l Hs IH Hall]; intros Hmono; cbn [map]; [constructor|].
  constructor.
  - apply IH. intros x y Hx Hy. apply Hmono; right; assumption.
  - apply Forall_forall. intros b Hb. apply in_map_iff in Hb. destruct Hb as [x [<- Hx]].
    rewrite Forall_forall in Hall. apply Hmono; [left; reflexivity | right; exact Hx | apply Hall; exact Hx].
Qed.

Lemma SS_seq : forall n a, StronglySorted lt (seq a n).
Proof.
  induction n as [|n IH]; intros a; cbn [seq]; constructor; [apply IH|].
  apply Forall_forall. intros x Hx. apply in_seq in Hx. lia.
Qed.

Lemma SS_lt_ext : forall l1 l2 : list nat,
    StronglySorted lt l1 -> StronglySorted lt l2 -> (forall x, In x l1 <-> In x l2) -> l1 = l2.
Proof.
  induction l1 as [|a l1 IH]; intros l2 H1 H2 Hext.
  - destruct l2 as [|b l2]; [reflexivity|]. exfalso. apply (proj2 (Hext b)). left. reflexivity.
  - destruct l2 as [|b l2]; [exfalso; apply (proj1 (Hext a)); left; reflexivity|].
    inversion H1 as [|? ? Hs1 Hall1]; subst. inversion H2 as [|? ? Hs2 Hall2]; subst.
    rewrite Forall_forall in Hall1, Hall2.
    assert (a = b).
    { destruct (proj1 (Hext a) (or_introl eq_refl)) as [Hab|Hab]; [symmetry; exact Hab|].
      destruct (proj2 (Hext b) (or_introl eq_refl)) as [Hba|Hba]; [exact Hba|].
      pose proof (Hall2 a Hab). pose proof (Hall1 b Hba). lia. }
    subst b. f_equal. apply IH; [exact Hs1 | exact Hs2 |].
    intros x. split; intros Hx.
    + destruct (proj1 (Hext x) (or_intror Hx)) as [Hax|Hax]; [|exact Hax].
      subst x. pose proof (Hall1 a Hx). lia.
    + destruct (proj2 (Hext x) (or_intror Hx)) as [Hax|Hax]; [|exact Hax].
      subst x. pose proof (Hall2 a Hx). lia.
Qed.

(** a filter of a strictly sorted list is the strictly sorted enumeration of its members *)
Lemma sorted_filter_eq (p : nat -> bool) (L target : list nat) :
  StronglySorted lt L -> StronglySorted lt target ->
  (forall v, (In v L /\ p v = true) <-> In v target) ->
  filter p L = target.
Proof.
  intros HL Ht Hmem. apply SS_lt_ext; [apply SS_filter; exact HL | exact Ht |].
  intros x. rewrite filter_In. apply Hmem.
Qed.

Lemma zinsert_in : forall a l x, In x (zinsert a l) <-> x = a \/ In x l.
Proof.
  induction l as [|y l IH]; intros x; cbn [zinsert].
  - cbn. intuition.
  - destruct (a <=? y)%Z; cbn [In]; [intuition|]. rewrite IH. intuition.
Qed.

Lemma zsort_in : forall l x, In x (zsort l) <-> In x l.
Proof.
  induction l as [|a l IH]; intros x; [reflexivity|].
  unfold zsort in *. cbn [fold_right]. rewrite zinsert_in, IH. cbn [In]. intuition.
Qed.

Lemma zinsert_sorted : forall a l,
    StronglySorted Z.lt l -> ~ In a l -> StronglySorted Z.lt (zinsert a l).
Proof.
  induction l as [|y l IH]; intros Hs Hnin; cbn [zinsert].
  - constructor; [constructor | constructor].
  - inversion Hs as [|? ? Hs' Hall]; subst. rewrite Forall_forall in Hall.
    destruct (a <=? y)%Z eqn:E.
    + apply Z.leb_le in E. assert (a < y)%Z by (assert (a <> y) by (intros ->; apply Hnin; left; reflexivity); lia).
      constructor; [exact Hs|]. apply Forall_forall. intros x [<-|Hx]; [exact H|].
      pose proof (Hall x Hx). lia.
    + apply Z.leb_gt in E. constructor.
      * apply IH; [exact Hs'|]. intros Hin. apply Hnin. right. exact Hin.
      * apply Forall_forall. intros x Hx. apply zinsert_in in Hx. destruct Hx as [->|Hx]; [lia | apply Hall; exact Hx].
Qed.

Lemma zsort_sorted : forall l, NoDup l -> StronglySorted Z.lt (zsort l).
Proof.
  induction l as [|a l IH]; intros Hnd; [constructor|].
  inversion Hnd as [|? ? Ha Hl]; subst. unfold zsort in *. cbn [fold_right].
  apply zinsert_sorted; [apply IH; exact Hl|]. intros Hin. apply Ha. apply (zsort_in l a). exact Hin.
Qed.

(** the positive members of the sorted solution, as naturals *)
Definition positives (sol : list Z) : list nat :=
  map Z.to_nat (filter (fun v => (0 <? v)%Z) (zsort sol)).

Lemma positives_in : forall sol v, In v (positives sol) <-> 1 <= v /\ In (Z.of_nat v) sol.
Proof.
  intros sol v. unfold positives. rewrite in_map_iff. split.
  - intros [z [Hz Hin]]. apply filter_In in Hin. destruct Hin as [Hin Hpos].
    apply Z.ltb_lt in Hpos. apply (proj1 (zsort_in _ _)) in Hin. subst v.
    split; [lia|]. rewrite Z2Nat.id by lia. exact Hin.
  - intros [Hv Hin]. exists (Z.of_nat v). split; [apply Nat2Z.id|].
    apply filter_In. split; [apply zsort_in; exact Hin | apply Z.ltb_lt; lia].
Qed.

Lemma positives_sorted : forall sol, NoDup sol -> StronglySorted lt (positives sol).
Proof.
  intros sol Hnd. unfold positives.
  apply (SS_map Z.lt lt Z.to_nat).
  - apply SS_filter. apply zsort_sorted. exact Hnd.
  - intros x y Hx _ Hxy. apply filter_In in Hx. destruct Hx as [_ Hx]. apply Z.ltb_lt in Hx. lia.
Qed.

Definition lookup (k : dkey) (d : list (dkey * list string)) : option (list string) :=
  option_map snd (find (fun p => dkey_eqb (fst p) k) d).

Lemma dkey_eqb_eq : forall a b, dkey_eqb a b = true <-> a = b.
Proof.
  intros [s|f] [t|g]; cbn [dkey_eqb]; split; intros H; try discriminate.
  - apply String.eqb_eq in H. congruence.
  - injection H as ->. apply String.eqb_refl.
  - apply Nat.eqb_eq in H. congruence.
  - injection H as ->. apply Nat.eqb_refl.
Qed.

Lemma dkey_eqb_refl : forall a, dkey_eqb a a = true.
Proof. intros a. apply dkey_eqb_eq. reflexivity. Qed.

Lemma dkey_eqb_neq : forall a b, a <> b -> dkey_eqb a b = false.
Proof.
  intros a b H. destruct (dkey_eqb a b) eqn:E; [|reflexivity]. apply dkey_eqb_eq in E. contradiction.
Qed.

(** [dict_append] and [dict_set] are one update: the value at [k] becomes [g]
    of the old one, in place if present, else at the end *)
Fixpoint dict_upd (d : list (dkey * list string)) (k : dkey) (g : option (list string) -> list string)
  : list (dkey * list string) :=
  match d with
  | [] => [(k, g None)]
  | (k', xs) :: r => if dkey_eqb k' k then (k', g (Some xs)) :: r else (k', xs) :: dict_upd r k g
  end.

Lemma dict_append_upd : forall d k x,
  dict_append d k x = dict_upd d k (fun o => match o with Some xs => xs ++ [x] | None => [x] end).
Proof. induction d as [|[k' xs] d IH]; intros k x; cbn [dict_append dict_upd]; [|rewrite IH]; reflexivity. Qed.

Lemma dict_set_upd : forall d k xs, dict_set d k xs = dict_upd d k (fun _ => xs).
Proof. induction d as [|[k' ys] d IH]; intros k xs; cbn [dict_set dict_upd]; [|rewrite IH]; reflexivity. Qed.

Lemma lookup_upd_same : forall d k g, lookup k (dict_upd d k g) = Some (g (lookup k d)).
Proof.
  induction d as [|[k' xs] d IH]; intros k g; unfold lookup in *; cbn [dict_upd find fst snd option_map].
  - rewrite dkey_eqb_refl. reflexivity.
  - destruct (dkey_eqb k' k) eqn:E; cbn [find fst snd option_map]; rewrite E; [reflexivity|]. apply IH.
Qed.

Lemma lookup_upd_other : forall d k k' g, k <> k' -> lookup k (dict_upd d k' g) = lookup k d.
Proof.
  induction d as [|[k0 xs] d IH]; intros k k' g Hne; unfold lookup in *; cbn [dict_upd find fst snd option_map].
  - rewrite (dkey_eqb_neq k' k) by congruence. reflexivity.
  - destruct (dkey_eqb k0 k') eqn:E; cbn [find fst snd option_map].
    + apply dkey_eqb_eq in E. subst k0. rewrite (dkey_eqb_neq k' k) by congruence. reflexivity.
    + destruct (dkey_eqb k0 k); [reflexivity|]. apply IH. exact Hne.
Qed.

Lemma keys_upd : forall d k g k0 ys,
    In (k0, ys) (dict_upd d k g) -> k0 = k \/ exists zs, In (k0, zs) d.
Proof.
  induction d as [|[k' xs] d IH]; intros k g k0 ys Hin; cbn [dict_upd] in Hin.
  - destruct Hin as [Hin|[]]. injection Hin as <- _. left. reflexivity.
  - destruct (dkey_eqb k' k) eqn:E.
    + destruct Hin as [Hin|Hin].
      * injection Hin as <- _. right. exists xs. left. reflexivity.
      * right. exists ys. right. exact Hin.
    + destruct Hin as [Hin|Hin].
      * injection Hin as <- <-. right. exists xs. left. reflexivity.
      * destruct (IH k g k0 ys Hin) as [->|[zs Hzs]]; [left; reflexivity | right; exists zs; right; exact Hzs].
Qed.

Lemma lookup_fold_append {X} (kf : X -> dkey) (nf : X -> string) :
  forall (ts : list X) d k,
    lookup k (fold_left (fun d t => dict_append d (kf t) (nf t)) ts d)
    = match lookup k d, map nf (filter (fun t => dkey_eqb (kf t) k) ts) with
      | None, [] => None
      | None, xs => Some xs
      | Some ys, xs => Some (ys ++ xs)
      end.
Proof.
  induction ts as [|t ts IH]; intros d k; cbn [fold_left filter map].
  - destruct (lookup k d); [rewrite app_nil_r|]; reflexivity.
  - rewrite IH, dict_append_upd. destruct (dkey_eqb (kf t) k) eqn:E.
    + apply dkey_eqb_eq in E. subst k. rewrite lookup_upd_same. cbn [map].
      destruct (lookup (kf t) d) as [ys|].
      * rewrite <- app_assoc. reflexivity.
      * reflexivity.
    + rewrite lookup_upd_other by (intros ->; rewrite dkey_eqb_refl in E; discriminate).
      reflexivity.
Qed.

Lemma keys_fold_append {X} (kf : X -> dkey) (nf : X -> string) :
  forall (ts : list X) d k0 ys,
    In (k0, ys) (fold_left (fun d t => dict_append d (kf t) (nf t)) ts d) ->
    (exists t, In t ts /\ k0 = kf t) \/ exists zs, In (k0, zs) d.
Proof.
  induction ts as [|t ts IH]; intros d k0 ys Hin; cbn [fold_left] in Hin.
  - right. exists ys. exact Hin.
  - destruct (IH _ _ _ Hin) as [[t' [Ht' ->]]|[zs Hzs]].
    + left. exists t'. split; [right; exact Ht' | reflexivity].
    + rewrite dict_append_upd in Hzs. destruct (keys_upd _ _ _ _ _ Hzs) as [->|[ws Hws]].
      * left. exists t. split; [left; reflexivity | reflexivity].
      * right. exists ws. exact Hws.
Qed.

Lemma all_some_map {X Y} (h : X -> option Y) (k : X -> Y) (l : list X) :
  (forall x, In x l -> h x = Some (k x)) -> all_some (map h l) = Some (map k l).
Proof.
  induction l as [|x l IH]; intros H; cbn [map all_some]; [reflexivity|].
  rewrite (H x) by (left; reflexivity). rewrite IH by (intros y Hy; apply H; right; exact Hy).
  reflexivity.
Qed.

Lemma keys_nodup_inj {X} (kf : X -> dkey) (l : list X) :
  keys_nodup (map kf l) = true -> forall x y, In x l -> In y l -> kf x = kf y -> x = y.
Proof.
  induction l as [|a l IH]; intros H x y Hx Hy Heq; [contradiction|].
  cbn [map keys_nodup] in H. apply andb_prop in H. destruct H as [Ha Hl].
  apply negb_true_iff in Ha.
  assert (Hfresh : forall z, In z l -> kf a <> kf z).
  { intros z Hz Hk.
    assert (existsb (dkey_eqb (kf a)) (map kf l) = true).
    { apply existsb_exists. exists (kf z). split; [apply in_map; exact Hz | apply dkey_eqb_eq; exact Hk]. }
    congruence. }
  destruct Hx as [<-|Hx]; destruct Hy as [<-|Hy].
  - reflexivity.
  - exfalso. apply (Hfresh y Hy). exact Heq.
  - exfalso. apply (Hfresh x Hx). symmetry. exact Heq.
  - apply IH; assumption.
Qed.

Section DecodeOnehot.
Variable fb : flat.

Notation A := (fl_act fb).
Notation SA := (simple_act fb).
Notation CA := (complex_act fb).
Notation T := (fl_trials fb).
Notation nl := (nlevels fb).
Notation vpt := (variables_per_trial fb).
Notation grid := (grid_variables fb).
Notation vps := (variables_per_sample fb).

Hypothesis wf : wf_layout fb = true.
Hypothesis keys : act_keys_distinct fb = true.
Hypothesis trials_pos : 1 <= T.

(** a level choice: [s f t] is the level of factor f at trial t (1-based) *)
Variable s : nat -> nat -> nat.

Definition cell (f t : nat) : Prop := In f A /\ 1 <= t <= T /\ applies_at fb f t = true.

Hypothesis s_ok : forall f t, cell f t -> s f t < nl f.

(** the assignment handed to [decode]: no literal twice, and among the variables
    1..variables_per_sample exactly the encoded choices are positive (negative
    literals and auxiliary variables may be present or not) *)
Variable sol : list Z.
Hypothesis sol_nodup : NoDup sol.
Hypothesis sol_onehot :
  forall v, 1 <= v <= vps ->
            (In (Z.of_nat v) sol <-> exists f t, cell f t /\ encode_variable fb f (s f t) t = Some v).

(** what the decoded dict must hold for factor f *)
Definition row (f : nat) : list string :=
  map (fun t0 => if applies_at fb f (S t0) then level_name fb f (s f (S t0)) else EmptyString) (seq 0 T).

Definition ev (f t : nat) : nat :=
  match encode_variable fb f (s f t) t with Some v => v | None => 0 end.

Definition dec (v : nat) : nat * nat :=
  match decode_variable fb v with Some p => p | None => (0, 0) end.

Lemma cell_applicable : forall f t, cell f t -> applicable fb f (s f t) t.
Proof.
  intros f t Hc. pose proof (s_ok f t Hc) as Hl. destruct Hc as [Hf [Ht Ha]].
  unfold applicable. repeat split; try assumption; lia.
Qed.

Lemma cell_ev : forall f t, cell f t -> encode_variable fb f (s f t) t = Some (ev f t) /\ 1 <= ev f t <= vps.
Proof.
  intros f t Hc. destruct (encode_range fb wf f (s f t) t (cell_applicable f t Hc)) as [v [Hv Hr]].
  unfold ev. rewrite Hv. split; [reflexivity | exact Hr].
Qed.

Lemma cell_dec : forall f t, cell f t -> decode_variable fb (ev f t) = Some (f, s f t).
Proof.
  intros f t Hc. destruct (cell_ev f t Hc) as [He _].
  apply (decode_encode fb wf f (s f t) t); [apply cell_applicable; exact Hc | exact He].
Qed.

Lemma cell_simple : forall f t, In f SA -> 1 <= t <= T -> cell f t.
Proof.
  intros f t Hf Ht. pose proof Hf as Hf'. apply in_SA in Hf'. destruct Hf' as [HfA _].
  unfold cell. repeat split; try assumption; try lia. apply simple_applies; assumption.
Qed.

Lemma ev_in_positives : forall f t, cell f t -> In (ev f t) (positives sol).
Proof.
  intros f t Hc. destruct (cell_ev f t Hc) as [He Hr]. apply positives_in. split; [lia|].
  apply sol_onehot; [exact Hr|]. exists f, t. split; assumption.
Qed.

Lemma positives_cell : forall v, In v (positives sol) -> v <= vps ->
                                 exists f t, cell f t /\ v = ev f t.
Proof.
  intros v Hin Hle. apply positives_in in Hin. destruct Hin as [Hv Hin].
  apply sol_onehot in Hin; [|lia]. destruct Hin as [f [t [Hc He]]].
  exists f, t. split; [exact Hc|]. unfold ev. rewrite He. reflexivity.
Qed.

Lemma ev_simple_le_grid : forall f t, In f SA -> 1 <= t <= T -> ev f t <= grid.
Proof.
  intros f t Hf Ht. pose proof (cell_simple f t Hf Ht) as Hc. pose proof (s_ok f t Hc) as Hl.
  destruct (enc_simple fb wf f (s f t) t Hf Hl) as [o [Ho He]].
  destruct (simple_var_bounds fb f (s f t) t o Hf Hl Ht Ho) as [_ Hg].
  unfold ev. rewrite He. exact Hg.
Qed.

Lemma ev_complex_gt_grid : forall f t, In f CA -> grid < ev f t.
Proof.
  intros f t Hf. unfold ev. rewrite (enc_complex fb f (s f t) t Hf). lia.
Qed.

Lemma ev_simple_mono : forall f t t', In f SA -> 1 <= t -> t < t' -> t' <= T -> ev f t < ev f t'.
Proof.
  intros f t t' Hf H1 Hlt HT.
  pose proof (cell_simple f t Hf ltac:(lia)) as Hc. pose proof (s_ok f t Hc) as Hl.
  pose proof (cell_simple f t' Hf ltac:(lia)) as Hc'. pose proof (s_ok f t' Hc') as Hl'.
  destruct (enc_simple fb wf f (s f t) t Hf Hl) as [o [Ho He]].
  destruct (enc_simple fb wf f (s f t') t' Hf Hl') as [o' [Ho' He']].
  rewrite Ho in Ho'. injection Ho' as <-.
  destruct (simple_var_bounds fb f (s f t) t o Hf Hl ltac:(lia) Ho) as [Hb _].
  unfold ev. rewrite He, He'.
  assert (vpt * (t - 1) + vpt <= vpt * (t' - 1)) by nia. lia.
Qed.

Lemma ev_complex_mono : forall f t t', In f CA -> cell f t -> cell f t' -> t < t' -> ev f t < ev f t'.
Proof.
  intros f t t' Hf Hc Hc' Hlt.
  pose proof (s_ok f t Hc) as Hl. pose proof (s_ok f t' Hc') as Hl'.
  destruct Hc as [_ [Ht Ha]]. destruct Hc' as [_ [Ht' Ha']].
  pose proof (prev_mono fb f t t' ltac:(lia) Hlt Ha) as Hp.
  unfold ev. rewrite (enc_complex fb f (s f t) t Hf), (enc_complex fb f (s f t') t' Hf).
  nia.
Qed.

Definition SV : list nat := filter (fun v => v <=? grid) (positives sol).
Definition CV : list nat := filter (fun v => negb (v <=? grid)) (positives sol).

Lemma grid_le_vps : grid <= vps.
Proof. rewrite (vps_split fb wf). lia. Qed.

Lemma SV_cell : forall v, In v SV -> exists f t, In f SA /\ 1 <= t <= T /\ v = ev f t.
Proof.
  intros v Hin. apply filter_In in Hin. destruct Hin as [Hin Hle]. apply Nat.leb_le in Hle.
  pose proof grid_le_vps.
  destruct (positives_cell v Hin ltac:(lia)) as [f [t [Hc ->]]].
  exists f, t. destruct Hc as [HfA [Ht Ha]]. destruct (act_cases fb f HfA) as [Hf|Hf].
  - split; [exact Hf | split; [exact Ht | reflexivity]].
  - pose proof (ev_complex_gt_grid f t Hf). lia.
Qed.

Lemma SV_dec : forall v, In v SV -> decode_variable fb v = Some (dec v).
Proof.
  intros v Hin. destruct (SV_cell v Hin) as [f [t [Hf [Ht ->]]]].
  unfold dec. rewrite (cell_dec f t (cell_simple f t Hf Ht)). reflexivity.
Qed.

Lemma key_inj : forall f g, In f A -> In g A -> key_of fb f = key_of fb g -> f = g.
Proof. intros f g Hf Hg. apply (keys_nodup_inj (key_of fb) A keys); assumption. Qed.

Lemma SV_filter_factor : forall f, In f SA ->
  filter (fun v => dkey_eqb (key_of fb (fst (dec v))) (key_of fb f)) SV = map (ev f) (seq 1 T).
Proof.
  intros f Hf. apply sorted_filter_eq.
  - unfold SV. apply SS_filter. apply positives_sorted. exact sol_nodup.
  - apply (SS_map lt lt); [apply SS_seq|]. intros t t' Ht Ht' Hlt.
    apply in_seq in Ht. apply in_seq in Ht'. apply ev_simple_mono; try assumption; lia.
  - intros v. split.
    + intros [Hin Hk]. apply dkey_eqb_eq in Hk.
      destruct (SV_cell v Hin) as [g [t [Hg [Ht ->]]]].
      unfold dec in Hk. rewrite (cell_dec g t (cell_simple g t Hg Ht)) in Hk. cbn [fst] in Hk.
      assert (g = f).
      { apply key_inj; [apply in_SA in Hg; tauto | apply in_SA in Hf; tauto | exact Hk]. }
      subst g. apply in_map. apply in_seq. lia.
    + intros Hin. apply in_map_iff in Hin. destruct Hin as [t [<- Ht]]. apply in_seq in Ht.
      assert (Htt : 1 <= t <= T) by lia. split.
      * unfold SV. apply filter_In. split; [apply ev_in_positives; apply cell_simple; assumption|].
        apply Nat.leb_le. apply ev_simple_le_grid; assumption.
      * apply dkey_eqb_eq. unfold dec. rewrite (cell_dec f t (cell_simple f t Hf Htt)). reflexivity.
Qed.

Definition E0 : list (dkey * list string) :=
  fold_left (fun d t => dict_append d (key_of fb (fst t)) (level_name fb (fst t) (snd t))) (map dec SV) [].

Lemma row_simple : forall f, In f SA -> row f = map (fun t => level_name fb f (s f t)) (seq 1 T).
Proof.
  intros f Hf. unfold row. rewrite <- seq_shift, map_map. apply map_ext. intros t0.
  rewrite (simple_applies fb wf f (S t0) Hf). reflexivity.
Qed.

Lemma E0_simple : forall f, In f SA -> lookup (key_of fb f) E0 = Some (row f).
Proof.
  intros f Hf. unfold E0. rewrite lookup_fold_append. cbn [lookup find option_map].
  rewrite filter_map_comm, (SV_filter_factor f Hf), !map_map, (row_simple f Hf).
  assert (Heq : map (fun x => level_name fb (fst (dec (ev f x))) (snd (dec (ev f x)))) (seq 1 T)
                = map (fun t => level_name fb f (s f t)) (seq 1 T)).
  { apply map_ext_in. intros t Ht. apply in_seq in Ht.
    unfold dec. rewrite (cell_dec f t (cell_simple f t Hf ltac:(lia))). reflexivity. }
  rewrite Heq. destruct T as [|n]; [lia|]. reflexivity.
Qed.

Lemma E0_keys : forall k ys, In (k, ys) E0 -> exists f, In f A /\ k = key_of fb f.
Proof.
  intros k ys Hin. unfold E0 in Hin. apply keys_fold_append in Hin.
  destruct Hin as [[t [Ht ->]]|[zs []]].
  apply in_map_iff in Ht. destruct Ht as [v [<- Hv]].
  destruct (SV_cell v Hv) as [f [t [Hf [Ht ->]]]].
  unfold dec. rewrite (cell_dec f t (cell_simple f t Hf Ht)). cbn [fst].
  exists f. split; [apply in_SA in Hf; tauto | reflexivity].
Qed.

Definition cstart (f : nat) : nat := grid + complex_offset fb CA f 0 + 1.

Lemma cell_of_filter : forall f t, In f A -> In t (filter (applies_at fb f) (seq 1 T)) -> cell f t.
Proof.
  intros f t Hf Ht. apply filter_In in Ht. destruct Ht as [Ht Ha]. apply in_seq in Ht.
  unfold cell. repeat split; try assumption; lia.
Qed.

(** the variables of a complex factor lie in its own block, after the grid *)
Lemma ev_complex_range : forall f t, In f CA -> cell f t ->
  cstart f <= ev f t < cstart f + variables_for_factor fb f 0 0.
Proof.
  intros f t Hf Hc. pose proof (s_ok f t Hc) as Hl. destruct Hc as [_ [Ht Ha]].
  destruct (complex_var_bounds fb wf f (s f t) t Hf Hl Ht Ha) as [Hb _].
  unfold ev, cstart. rewrite (enc_complex fb f (s f t) t Hf). lia.
Qed.

Lemma CV_filter_factor : forall f, In f CA ->
  filter (fun n => (cstart f <=? n) && (n <? cstart f + variables_for_factor fb f 0 0)) CV
  = map (ev f) (filter (applies_at fb f) (seq 1 T)).
Proof.
  intros f Hf. pose proof Hf as HfA. apply in_CA in HfA. destruct HfA as [HfA _].
  apply sorted_filter_eq.
  - unfold CV. apply SS_filter. apply positives_sorted. exact sol_nodup.
  - apply (SS_map lt lt); [apply SS_filter; apply SS_seq|]. intros t t' Ht Ht' Hlt.
    apply ev_complex_mono; auto using cell_of_filter.
  - intros v. split.
    + intros [Hin Hr]. apply andb_prop in Hr. destruct Hr as [Hlo Hhi].
      apply Nat.leb_le in Hlo. apply Nat.ltb_lt in Hhi.
      unfold CV in Hin. apply filter_In in Hin. destruct Hin as [Hin Hgt].
      apply negb_true_iff in Hgt. apply Nat.leb_gt in Hgt.
      pose proof (co_bound fb CA f Hf) as Hb. pose proof (vps_split fb wf) as Hvps. unfold cstart in *.
      destruct (positives_cell v Hin ltac:(lia)) as [g [t [Hc ->]]].
      pose proof Hc as [HgA [Ht Ha]].
      destruct (act_cases fb g HgA) as [Hg|Hg]; [pose proof (ev_simple_le_grid g t Hg Ht); lia|].
      (* the blocks of two complex factors are disjoint *)
      assert (g = f).
      { destruct (Nat.eq_dec g f) as [E|Hne]; [exact E|exfalso].
        pose proof (ev_complex_range g t Hg Hc) as Hr. unfold cstart in Hr.
        destruct (co_disjoint fb CA g f Hg Hf Hne); lia. }
      subst g. apply in_map. apply filter_In. split; [apply in_seq; lia | exact Ha].
    + intros Hin. apply in_map_iff in Hin. destruct Hin as [t [<- Ht]].
      pose proof (cell_of_filter f t HfA Ht) as Hc. split.
      * unfold CV. apply filter_In. split; [apply ev_in_positives; exact Hc|].
        apply negb_true_iff. apply Nat.leb_gt. apply ev_complex_gt_grid. exact Hf.
      * pose proof (ev_complex_range f t Hf Hc). apply andb_true_intro.
        split; [apply Nat.leb_le | apply Nat.ltb_lt]; lia.
Qed.

Lemma applies_at_S : forall f a, applies_to_trial fb f (a / sustain fb f + 1) = applies_at fb f (S a).
Proof. intros f a. unfold applies_at. rewrite Nat.sub_succ, Nat.sub_0_r. reflexivity. Qed.

Lemma fill_loop_spec : forall f (nm : nat -> string) n a,
    fill_loop fb f (seq a n) (map nm (filter (applies_at fb f) (seq (S a) n)))
    = Some (map (fun t0 => if applies_at fb f (S t0) then nm (S t0) else EmptyString) (seq a n)).
Proof.
  intros f nm. induction n as [|n IH]; intros a; [reflexivity|].
  cbn [seq fill_loop map filter]. rewrite applies_at_S.
  destruct (applies_at fb f (S a)) eqn:E; cbn [map]; rewrite IH; reflexivity.
Qed.

Lemma complex_loop_spec : forall fs,
    (forall f, In f fs -> In f CA) -> NoDup fs ->
    forall d, exists d',
        complex_loop fb fs CV d = DOk d' /\
        (forall f, In f fs -> lookup (key_of fb f) d' = Some (row f)) /\
        (forall k, (forall f, In f fs -> k <> key_of fb f) -> lookup k d' = lookup k d) /\
        (forall k ys, In (k, ys) d' -> (exists f, In f fs /\ k = key_of fb f) \/ exists zs, In (k, zs) d).
Proof.
  induction fs as [|f fs IH]; intros Hsub Hnd d.
  - exists d. cbn [complex_loop]. repeat split; try (intros; contradiction); auto.
    intros k ys Hin. right. exists ys. exact Hin.
  - inversion Hnd as [|? ? Hf_fs Hnd']; subst.
    assert (Hf : In f CA) by (apply Hsub; left; reflexivity).
    pose proof Hf as HfA. apply in_CA in HfA. destruct HfA as [HfA Hcx].
    cbn [complex_loop]. unfold first_variable_for_level. rewrite Hcx.
    fold (cstart f). replace (grid + complex_offset fb CA f 0 + 1) with (cstart f) by reflexivity.
    rewrite (CV_filter_factor f Hf).
    assert (Hdn : decode_names fb (map (ev f) (filter (applies_at fb f) (seq 1 T)))
                  = Some (map (fun t => (f, s f t)) (filter (applies_at fb f) (seq 1 T)))).
    { unfold decode_names. rewrite map_map. apply all_some_map. intros t Ht.
      apply cell_dec, cell_of_filter; assumption. }
    rewrite Hdn, map_map. cbn [fst snd].
    unfold trials. rewrite (fill_loop_spec f (fun t => level_name fb f (s f t)) T 0). fold (row f).
    destruct (IH ltac:(intros g Hg; apply Hsub; right; exact Hg) Hnd' (dict_set d (key_of fb f) (row f)))
      as [d' [Hd' [Hrows [Hkeep Hkeys]]]].
    exists d'. split; [exact Hd'|]. split; [|split].
    + intros g [<-|Hg]; [|apply Hrows; exact Hg].
      rewrite Hkeep; [rewrite dict_set_upd; apply lookup_upd_same|].
      intros g Hg Hk. assert (f = g).
      { apply key_inj; [exact HfA | | exact Hk].
        assert (HgCA : In g CA) by (apply Hsub; right; exact Hg). apply in_CA in HgCA. tauto. }
      subst g. contradiction.
    + intros k Hk. rewrite Hkeep by (intros g Hg; apply Hk; right; exact Hg).
      rewrite dict_set_upd. apply lookup_upd_other. apply Hk. left. reflexivity.
    + intros k ys Hin. destruct (Hkeys k ys Hin) as [[g [Hg ->]]|[zs Hzs]].
      * left. exists g. split; [right; exact Hg | reflexivity].
      * rewrite dict_set_upd in Hzs. destruct (keys_upd _ _ _ _ _ Hzs) as [->|[ws Hws]].
        -- left. exists f. split; [left; reflexivity | reflexivity].
        -- right. exists ws. exact Hws.
Qed.

Lemma CA_nodup : NoDup CA.
Proof. unfold complex_act. apply NoDup_filter. apply (act_nodup fb wf). Qed.

Theorem decode_onehot :
  exists d, decode fb sol = DOk d /\
            (forall f, In f A -> lookup (key_of fb f) d = Some (row f)) /\
            (forall k ys, In (k, ys) d -> exists f, In f A /\ k = key_of fb f).
Proof.
  unfold decode.
  change (map Z.to_nat (filter (fun v : Z => (0 <? v)%Z) (zsort sol))) with (positives sol).
  change (filter (fun v => v <=? grid) (positives sol)) with SV.
  change (filter (fun v => negb (v <=? grid)) (positives sol)) with CV.
  assert (Hdn : decode_names fb SV = Some (map dec SV)).
  { unfold decode_names. apply all_some_map. apply SV_dec. }
  rewrite Hdn. fold E0.
  destruct (complex_loop_spec CA (fun f H => H) CA_nodup E0) as [d [Hd [Hrows [Hkeep Hkeys]]]].
  exists d. split; [exact Hd|]. split.
  - intros f HfA. destruct (act_cases fb f HfA) as [Hf|Hf]; [|apply Hrows; exact Hf].
    rewrite Hkeep; [apply E0_simple; exact Hf|].
    intros g Hg Hk. assert (f = g).
    { apply key_inj; [exact HfA | apply in_CA in Hg; tauto | exact Hk]. }
    subst g. apply in_SA in Hf. apply in_CA in Hg. destruct Hf as [_ Hf]. destruct Hg as [_ Hg]. congruence.
  - intros k ys Hin. destruct (Hkeys k ys Hin) as [[f [Hf ->]]|[zs Hzs]].
    + exists f. split; [apply in_CA in Hf; tauto | reflexivity].
    + apply (E0_keys k zs Hzs).
Qed.

End DecodeOnehot.
