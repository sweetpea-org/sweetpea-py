(** How often a without-replacement sampler may return the same name-level sequence.

    The iterate-and-block loop returns pairwise different OBJECT-level solutions
    (Sample/IterateProofs.v [returned_nodup]).  For a design with a weighted factor [f]
    that is in no crossing the object level is the desugared form
    [widen f (list_sum ws) S] (one level per copy, Front/DesugarSem.v) and the sequence the
    user sees is the image under [proj_seq f ws] (copies reported under the original
    name).  Here: in any duplicate-free list of valid sequences of the desugared form, a
    name-level sequence [s] is the image of at most (product of the weights of the levels
    in row [f] of [s]) elements - of none if [s] is not valid for [S] - and of exactly
    that many if the list is exhaustive.  Two weighted free factors: the product of the
    two products ([name_multiplicity_all]). *)
From Coq Require Import List Bool Arith Lia.
From SP Require Import Base.Lists Design.Sem Design.SemFacts Front.NestSem Front.DesugarSem.
Import ListNotations.

Lemma nodup_count_bound : forall {A} (P : A -> bool) (l fib : list A),
  NoDup l -> (forall x, In x l -> P x = true) ->
  NoDup fib -> (forall x, P x = true <-> In x fib) ->
  length l <= length fib /\
  ((forall x, P x = true -> In x l) -> length l = length fib).
Proof.
  intros A P l fib Hl HP Hfib Hen.
  assert (Hle : length l <= length fib).
  { apply NoDup_incl_length; [exact Hl|]. intros x Hx. apply Hen, HP, Hx. }
  split; [exact Hle|]. intro Hall.
  assert (Hge : length fib <= length l).
  { apply NoDup_incl_length; [exact Hfib|]. intros x Hx. apply Hall, Hen, Hx. }
  lia.
Qed.

Lemma nodup_filter_count : forall {A} (P Q : A -> bool) (l fib : list A),
  NoDup l -> (forall x, In x l -> P x = true) ->
  NoDup fib -> (forall x, P x && Q x = true <-> In x fib) ->
  length (filter Q l) <= length fib /\
  ((forall x, P x = true -> In x l) -> length (filter Q l) = length fib).
Proof.
  intros A P Q l fib Hl HP Hfib Hen.
  destruct (nodup_count_bound (fun x => P x && Q x) (filter Q l) fib) as [H1 H2].
  - apply NoDup_filter. exact Hl.
  - intros x Hx. apply filter_In in Hx. destruct Hx as [Hx E]. rewrite (HP x Hx), E. reflexivity.
  - exact Hfib.
  - exact Hen.
  - split; [exact H1|]. intro Hall. apply H2. intros x Hx. apply andb_true_iff in Hx. destruct Hx as [Hx E].
    apply filter_In. split; [apply Hall; exact Hx | exact E].
Qed.

(** fibre by fibre, for any map [g] into a type with decidable equality *)
Lemma nodup_fibre_count_bound : forall {A B} (P : A -> bool) (g : A -> B) (eqb : B -> B -> bool) (l fib : list A),
  (forall a b, eqb a b = true <-> a = b) ->
  NoDup l -> (forall x, In x l -> P x = true) ->
  NoDup fib -> (forall x, P x = true <-> In x fib) ->
  forall y,
    length (filter (fun x => eqb (g x) y) l) <= length (filter (fun x => eqb (g x) y) fib) /\
    ((forall x, P x = true -> In x l) ->
     length (filter (fun x => eqb (g x) y) l) = length (filter (fun x => eqb (g x) y) fib)).
Proof.
  intros A B P g eqb l fib _ Hl HP Hfib Hen y.
  apply (nodup_filter_count P); [exact Hl | exact HP | apply NoDup_filter; exact Hfib |].
  intro x. rewrite andb_true_iff, filter_In, <- Hen. tauto.
Qed.


Definition tseq_eqb : tseq -> tseq -> bool := list_eqb (list_eqb cell_eqb).

Lemma tseq_eqb_eq : forall a b, tseq_eqb a b = true <-> a = b.
Proof. apply list_eqb_iff. apply list_eqb_iff. apply cell_eqb_eq. Qed.

(** no element of [sols] is reported (through [h]) as [s] *)
Lemma reported_none : forall (h : tseq -> tseq) (s : tseq) (sols : list tseq),
  (forall x, In x sols -> h x <> s) ->
  forall n : Prop, length (filter (fun x => tseq_eqb (h x) s) sols) <= 0 /\
                   (n -> length (filter (fun x => tseq_eqb (h x) s) sols) = 0).
Proof.
  intros h s sols H n. rewrite filter_none; [split; [apply Nat.le_refl | reflexivity]|].
  intros x Hx. destruct (tseq_eqb (h x) s) eqn:E; [|reflexivity].
  apply tseq_eqb_eq in E. destruct (H x Hx E).
Qed.

Lemma all_words_complete : forall nl len w,
  length w = len -> (forall x, In x w -> x < nl) -> In w (all_words nl len).
Proof.
  intros nl len. induction len as [|len IH]; intros w Hlen Hlt.
  - destruct w; [left; reflexivity | discriminate].
  - destruct w as [|l w]; [discriminate|]. cbn [all_words]. apply in_flat_map. exists w. split.
    + apply IH; [cbn in Hlen; lia | intros x Hx; apply Hlt; right; exact Hx].
    + apply in_map_iff. exists l. split; [reflexivity|]. apply in_seq. specialize (Hlt l (or_introl eq_refl)). lia.
Qed.

Lemma all_words_nodup : forall nl len, NoDup (all_words nl len).
Proof.
  intros nl len. induction len as [|len IH]; [repeat constructor; intros []|].
  cbn [all_words]. apply NoDup_flat_map.
  - exact IH.
  - intros w _. apply NoDup_map_inj_in; [|apply seq_NoDup]. intros a b _ _ E. congruence.
  - intros x y z _ _ Hx Hy. apply in_map_iff in Hx. apply in_map_iff in Hy.
    destruct Hx as [a [<- _]]. destruct Hy as [b [E _]]. congruence.
Qed.

Definition row_levels (row : list cell) : list nat :=
  map (fun c => match c with Some l => l | None => 0 end) row.

Definition weight_product (ws : list nat) (r : list nat) : nat :=
  fold_right (fun l acc => nth l ws 0 * acc) 1 r.

(** the documented multiplicity of the name-level sequence [s] *)
Definition name_mult (S : sem) (f : nat) (ws : list nat) (s : tseq) : nat :=
  if valid_b S s then weight_product ws (row_levels (nth f s [])) else 0.

(** how many elements of [sols] are reported as [s] *)
Definition count_over (f : nat) (ws : list nat) (s : tseq) (sols : list tseq) : nat :=
  length (filter (fun x => tseq_eqb (proj_seq f ws x) s) sols).

(** the sequences of the desugared form over [s] *)
Definition fibre (f : nat) (ws : list nat) (s : tseq) : list tseq :=
  map (fun w => with_row f w s)
      (filter (row_matches ws (row_levels (nth f s [])))
              (all_words (list_sum ws) (length (row_levels (nth f s []))))).

Lemma row_levels_some : forall w, row_levels (map Some w) = w.
Proof. intro w. unfold row_levels. rewrite map_map. apply map_id. Qed.

Lemma wf_row : forall nl row T,
  length row = T -> wf_cells nl row T ->
  row = map Some (row_levels row) /\ (forall x, In x (row_levels row) -> x < nl).
Proof.
  intros nl row T Hlen Hwf. unfold wf_cells, row_levels, cell in *. split.
  - apply (nth_ext _ _ None None).
    + unfold row_levels. rewrite !map_length. reflexivity.
    + intros t Ht. assert (HtT : t < T) by (rewrite <- Hlen; exact Ht). destruct (Hwf t HtT) as [l [Hl _]].
      unfold row_levels. rewrite map_map.
      rewrite (nth_map_lt _ row t None None) by exact Ht. rewrite Hl. reflexivity.
  - intros x Hx. unfold row_levels in Hx. apply (In_nth _ _ 0) in Hx. destruct Hx as [t [Ht Hx]].
    rewrite map_length in Ht. assert (HtT : t < T) by (rewrite <- Hlen; exact Ht). destruct (Hwf t HtT) as [l [Hl Hlt]].
    rewrite (nth_map_lt _ row t 0 None) in Hx by exact Ht. rewrite Hl in Hx. subst. exact Hlt.
Qed.

Lemma valid_row : forall S s f fd,
  valid_b S s = true -> nth_error (s_factors S) f = Some fd -> f_derived fd = None ->
  f < length s /\ nth f s [] = map Some (row_levels (nth f s [])) /\
  (forall x, In x (row_levels (nth f s [])) -> x < f_nlevels fd).
Proof.
  intros S s f fd Hv Hfd Hd. apply valid_b_iff in Hv. destruct Hv as [Hlen [Hf _]].
  split.
  - rewrite Hlen. apply nth_error_Some. congruence.
  - specialize (Hf f fd Hfd). apply (factor_ok_simple S s f fd Hd) in Hf. destruct Hf as [Hl [Hwf _]].
    exact (wf_row _ _ _ Hl Hwf).
Qed.

Lemma with_row_inj : forall f w1 w2 (s : tseq), f < length s -> with_row f w1 s = with_row f w2 s -> w1 = w2.
Proof.
  intros f w1 w2 s Hf E.
  assert (E' : nth f (with_row f w1 s) [] = nth f (with_row f w2 s) []) by (rewrite E; reflexivity).
  unfold with_row in E'. rewrite !set_nth_same in E' by exact Hf.
  rewrite <- (row_levels_some w1), <- (row_levels_some w2), E'. reflexivity.
Qed.

Lemma fibre_nodup : forall f ws (s : tseq), f < length s -> NoDup (fibre f ws s).
Proof.
  intros f ws s Hf. unfold fibre. apply NoDup_map_inj_in.
  - intros w1 w2 _ _. apply with_row_inj. exact Hf.
  - apply NoDup_filter. apply all_words_nodup.
Qed.

Lemma fibre_length : forall f ws s, length (fibre f ws s) = weight_product ws (row_levels (nth f s [])).
Proof. intros f ws s. unfold fibre. rewrite map_length. apply row_fibre. Qed.

Section OneFactor.
Variables (S : sem) (f : nat) (ws : list nat) (fd : dfactor).
Hypothesis Hfree : free_b S f = true.
Hypothesis Hfd : nth_error (s_factors S) f = Some fd.
Hypothesis Hws : length ws = f_nlevels fd.

Let W := widen f (list_sum ws) S.

Lemma fd_simple : f_derived fd = None.
Proof.
  destruct (free_b_spec S f Hfree) as [[fd0 [Hfd0 [Hd _]]] _]. rewrite Hfd in Hfd0. inversion Hfd0; subst. exact Hd.
Qed.

Lemma widen_free : free_b W f = true /\
  nth_error (s_factors W) f = Some {| f_nlevels := list_sum ws; f_sustain := f_sustain fd; f_derived := f_derived fd |}.
Proof.
  split.
  - unfold free_b in *. unfold W. cbn [widen s_factors s_crossings s_constraints].
    rewrite set_nth_error_same, Hfd in *. cbn [option_map].
    rewrite !andb_true_iff in *. destruct Hfree as [[[H1 H2] H3] H4]. repeat split; try assumption.
    rewrite forallb_forall in *. intros x Hx.
    apply In_nth_error in Hx. destruct Hx as [i Hi].
    destruct (Nat.eq_dec f i) as [<-|Hne].
    + rewrite set_nth_error_same, Hfd in Hi. cbn in Hi. inversion Hi; subst x. cbn [f_derived].
      apply (H4 fd). eapply nth_error_In. exact Hfd.
    + rewrite set_nth_error_other in Hi by exact Hne. apply H4. eapply nth_error_In. exact Hi.
  - unfold W. cbn [widen s_factors]. rewrite set_nth_error_same, Hfd. reflexivity.
Qed.

(** every valid sequence of the desugared form lies in the fibre of its image *)
Lemma in_fibre : forall x, valid_b W x = true -> In x (fibre f ws (proj_seq f ws x)).
Proof.
  intros x Hx. destruct widen_free as [_ HfdW].
  destruct (valid_row W x f _ Hx HfdW fd_simple) as [Hfx [Hrow Hlt]]. cbn [f_nlevels] in Hlt.
  set (w := row_levels (nth f x [])) in *.
  assert (Hprow : nth f (proj_seq f ws x) [] = map Some (map (orig ws) w)).
  { unfold proj_seq. rewrite set_nth_same by exact Hfx. rewrite Hrow, !map_map. reflexivity. }
  unfold fibre. rewrite Hprow, row_levels_some. apply in_map_iff. exists w. split.
  - unfold with_row, proj_seq. rewrite set_nth_set_nth. rewrite <- Hrow. apply set_nth_const_same. exact Hfx.
  - apply filter_In. split.
    + apply all_words_complete; [rewrite map_length; reflexivity | exact Hlt].
    + unfold row_matches. apply list_eqb_nat_eq. reflexivity.
Qed.

(** every element of the fibre of a valid sequence is valid and lies over it *)
Lemma fibre_sound : forall s x, valid_b S s = true -> In x (fibre f ws s) ->
  valid_b W x = true /\ proj_seq f ws x = s.
Proof.
  intros s x Hs Hx. destruct (valid_row S s f fd Hs Hfd fd_simple) as [Hfs [Hrow _]].
  unfold fibre in Hx. apply in_map_iff in Hx. destruct Hx as [w [<- Hw]]. apply filter_In in Hw. destruct Hw as [Hw Hm].
  destruct (proj2 (desugared_fibre S f ws s fd _ w Hfree Hfd Hws Hs Hfs Hrow Hw) Hm) as [H1 H2].
  split; assumption.
Qed.

Lemma reported_in_fibre : forall y s, valid_b W y = true -> valid_b S s = true ->
  tseq_eqb (proj_seq f ws y) s = existsb (tseq_eqb y) (fibre f ws s).
Proof.
  intros y s Hy Hs. destruct (tseq_eqb (proj_seq f ws y) s) eqn:E.
  - apply tseq_eqb_eq in E. symmetry. apply existsb_exists. exists y. split.
    + rewrite <- E. apply in_fibre. exact Hy.
    + apply tseq_eqb_eq. reflexivity.
  - destruct (existsb (tseq_eqb y) (fibre f ws s)) eqn:Ex; [|reflexivity].
    apply existsb_exists in Ex. destruct Ex as [z [Hz Ez]]. apply tseq_eqb_eq in Ez. subst z.
    destruct (fibre_sound s y Hs Hz) as [_ Hp].
    rewrite Hp in E. assert (tseq_eqb s s = true) by (apply tseq_eqb_eq; reflexivity). congruence.
Qed.

Theorem name_multiplicity : forall sols : list tseq,
  NoDup sols -> (forall x, In x sols -> valid_b W x = true) ->
  forall s,
    count_over f ws s sols <= name_mult S f ws s /\
    ((forall x, valid_b W x = true -> In x sols) -> count_over f ws s sols = name_mult S f ws s).
Proof.
  intros sols Hnd Hval s. unfold count_over, name_mult. destruct (valid_b S s) eqn:Hs.
  - rewrite <- fibre_length.
    apply (nodup_filter_count (valid_b W)); [exact Hnd | exact Hval | |].
    + apply fibre_nodup. destruct (valid_row S s f fd Hs Hfd fd_simple) as [Hfs _]. exact Hfs.
    + intro x. rewrite andb_true_iff, tseq_eqb_eq. split.
      * intros [Hx <-]. apply in_fibre. exact Hx.
      * apply fibre_sound. exact Hs.
  - apply reported_none. intros x Hx <-.
    apply Hval in Hx. apply (desugared_valid S f ws x fd Hfree Hfd Hws) in Hx. destruct Hx as [Hx _]. congruence.
Qed.

(** an element of [sols] is reported under a valid name-level sequence *)
Lemma reported_valid : forall x, valid_b W x = true -> valid_b S (proj_seq f ws x) = true.
Proof. intros x Hx. apply (desugared_valid S f ws x fd Hfree Hfd Hws) in Hx. tauto. Qed.

End OneFactor.

Lemma filter_or_length : forall {A} (p q : A -> bool) l,
  (forall x, In x l -> p x = true -> q x = false) ->
  length (filter (fun x => p x || q x) l) = length (filter p l) + length (filter q l).
Proof.
  intros A p q l. induction l as [|x l IH]; intro H; [reflexivity|].
  assert (IH' := IH (fun y Hy => H y (or_intror Hy))).
  specialize (H x (or_introl eq_refl)). cbn [filter].
  destruct (p x) eqn:Ep; cbn [orb].
  - rewrite (H eq_refl). cbn [length]. rewrite IH'. reflexivity.
  - destruct (q x); cbn [length]; rewrite IH'; lia.
Qed.

(** counting the elements whose image lies in a duplicate-free list, image by image *)
Lemma count_partition : forall {A B} (h : A -> B) (eqb : B -> B -> bool) (ys : list B) (l : list A),
  (forall a b, eqb a b = true <-> a = b) -> NoDup ys ->
  length (filter (fun x => existsb (eqb (h x)) ys) l)
  = list_sum (map (fun y => length (filter (fun x => eqb (h x) y) l)) ys).
Proof.
  intros A B h eqb ys l Heq Hys. induction Hys as [|y ys Hy Hys IH].
  - cbn. rewrite filter_none; [reflexivity | intros; reflexivity].
  - change (list_sum (map (fun y0 => length (filter (fun x => eqb (h x) y0) l)) (y :: ys)))
      with (length (filter (fun x => eqb (h x) y) l) + list_sum (map (fun y0 => length (filter (fun x => eqb (h x) y0) l)) ys)).
    cbn [existsb]. rewrite filter_or_length, IH; [reflexivity|].
    intros x _ E. apply Heq in E. subst y.
    destruct (existsb (eqb (h x)) ys) eqn:Ex; [|reflexivity].
    apply existsb_exists in Ex. destruct Ex as [z [Hz E]]. apply Heq in E. subst z. contradiction.
Qed.

Lemma list_sum_bound : forall {B} (m : B -> nat) (c : nat) (ys : list B),
  (forall y, In y ys -> m y <= c) -> list_sum (map m ys) <= length ys * c.
Proof.
  intros B m c ys H. rewrite <- (list_sum_const (fun _ => c) c ys) by reflexivity.
  apply list_sum_le_pointwise. exact H.
Qed.

Lemma forallb_set_nth : forall {A} (Q : A -> bool) (h : A -> A) i l,
  (forall x, Q (h x) = Q x) -> forallb Q (set_nth i h l) = forallb Q l.
Proof.
  intros A Q h i l H. revert i. induction l as [|x l IH]; intros [|i]; cbn; try reflexivity.
  - rewrite H. reflexivity.
  - rewrite IH. reflexivity.
Qed.

(** widening [f] keeps every other factor free, with the same description *)
Lemma free_b_widen_other : forall S f N g, g <> f -> free_b S g = true -> free_b (widen f N S) g = true.
Proof.
  intros S f N g Hne H. unfold free_b in *. cbn [widen s_factors s_crossings s_constraints].
  rewrite set_nth_error_other by congruence. rewrite forallb_set_nth by reflexivity. exact H.
Qed.

(** the designs: [fs] lists the weighted free factors with their weights; the first is widened first *)
Fixpoint widen_all (fs : list (nat * list nat)) (S : sem) : sem :=
  match fs with
  | [] => S
  | (f, ws) :: r => widen_all r (widen f (list_sum ws) S)
  end.

Fixpoint proj_all (fs : list (nat * list nat)) (x : tseq) : tseq :=
  match fs with
  | [] => x
  | (f, ws) :: r => proj_seq f ws (proj_all r x)
  end.

Fixpoint mult_all (fs : list (nat * list nat)) (s : tseq) : nat :=
  match fs with
  | [] => 1
  | (f, ws) :: r => weight_product ws (row_levels (nth f s [])) * mult_all r s
  end.

Definition name_mult_all (S : sem) (fs : list (nat * list nat)) (s : tseq) : nat :=
  if valid_b S s then mult_all fs s else 0.

Definition count_over_all (fs : list (nat * list nat)) (s : tseq) (sols : list tseq) : nat :=
  length (filter (fun x => tseq_eqb (proj_all fs x) s) sols).

(** distinct factors, each free in [S], each with one weight per level *)
Definition weighted_free (S : sem) (fs : list (nat * list nat)) : Prop :=
  NoDup (map fst fs) /\
  forall f ws, In (f, ws) fs ->
    free_b S f = true /\ exists fd, nth_error (s_factors S) f = Some fd /\ length ws = f_nlevels fd.

Lemma weighted_free_step : forall S f ws r,
  weighted_free S ((f, ws) :: r) ->
  (free_b S f = true /\ exists fd, nth_error (s_factors S) f = Some fd /\ length ws = f_nlevels fd) /\
  ~ In f (map fst r) /\
  weighted_free (widen f (list_sum ws) S) r.
Proof.
  intros S f ws r [Hnd H]. cbn [map fst] in Hnd. inversion Hnd as [|a l Hnotin Hnd']; subst.
  split; [apply H; left; reflexivity|]. split; [exact Hnotin|]. split; [exact Hnd'|].
  intros g wg Hg. destruct (H g wg (or_intror Hg)) as [Hfree [fd [Hfd Hlen]]].
  assert (Hne : g <> f).
  { intro E. subst g. apply Hnotin. apply in_map_iff. exists (f, wg). split; [reflexivity | exact Hg]. }
  split; [apply free_b_widen_other; assumption|]. exists fd. split; [|exact Hlen].
  cbn [widen s_factors]. rewrite set_nth_error_other by congruence. exact Hfd.
Qed.

Lemma proj_all_valid : forall fs S x,
  weighted_free S fs -> valid_b (widen_all fs S) x = true -> valid_b S (proj_all fs x) = true.
Proof.
  induction fs as [|[f ws] r IH]; intros S x Hwf Hx; [exact Hx|].
  destruct (weighted_free_step S f ws r Hwf) as [[Hfree [fd [Hfd Hlen]]] [_ Hr]].
  cbn [widen_all proj_all] in *. apply (reported_valid S f ws fd Hfree Hfd Hlen). apply IH; assumption.
Qed.

Lemma mult_all_with_row : forall r f w s, ~ In f (map fst r) -> mult_all r (with_row f w s) = mult_all r s.
Proof.
  induction r as [|[g wg] r IH]; intros f w s Hf; [reflexivity|].
  cbn [mult_all]. cbn [map fst] in Hf. rewrite IH by (intro; apply Hf; right; assumption).
  unfold with_row at 1. rewrite set_nth_other by (intro E; apply Hf; left; symmetry; exact E). reflexivity.
Qed.

Theorem name_multiplicity_all : forall fs S,
  weighted_free S fs ->
  forall sols : list tseq,
    NoDup sols -> (forall x, In x sols -> valid_b (widen_all fs S) x = true) ->
    forall s,
      count_over_all fs s sols <= name_mult_all S fs s /\
      ((forall x, valid_b (widen_all fs S) x = true -> In x sols) -> count_over_all fs s sols = name_mult_all S fs s).
Proof.
  induction fs as [|[f ws] r IH]; intros S Hwf sols Hnd Hval s.
  - cbn [widen_all] in *. unfold count_over_all, name_mult_all. cbn [proj_all mult_all].
    destruct (valid_b S s) eqn:Hs.
    + apply (nodup_filter_count (valid_b S) _ sols [s]); [exact Hnd | exact Hval | repeat constructor; intros [] |].
      intro x. rewrite andb_true_iff, tseq_eqb_eq. split.
      * intros [_ ->]. left. reflexivity.
      * intros [<-|[]]. split; [exact Hs | reflexivity].
    + apply (reported_none (fun x => x)). intros x Hx <-. apply Hval in Hx. congruence.
  - destruct (weighted_free_step S f ws r Hwf) as [[Hfree [fd [Hfd Hlen]]] [Hnotin Hr]].
    cbn [widen_all] in *. set (S1 := widen f (list_sum ws) S) in *.
    specialize (IH S1 Hr sols Hnd Hval).
    assert (Hmid : forall x, In x sols -> valid_b S1 (proj_all r x) = true).
    { intros x Hx. apply proj_all_valid; [exact Hr | apply Hval; exact Hx]. }
    unfold count_over_all, name_mult_all. cbn [proj_all mult_all].
    destruct (valid_b S s) eqn:Hs.
    + rewrite (filter_ext_in_length _ (fun x => existsb (tseq_eqb (proj_all r x)) (fibre f ws s))).
      2:{ intros x Hx. apply (reported_in_fibre S f ws fd Hfree Hfd Hlen); [apply Hmid; exact Hx | exact Hs]. }
      destruct (valid_row S s f fd Hs Hfd (fd_simple S f ws fd Hfree Hfd Hlen)) as [Hfs _].
      rewrite (count_partition (proj_all r) tseq_eqb (fibre f ws s) sols tseq_eqb_eq (fibre_nodup f ws s Hfs)).
      rewrite <- fibre_length.
      assert (Hterm : forall y, In y (fibre f ws s) -> name_mult_all S1 r y = mult_all r s).
      { intros y Hy. destruct (fibre_sound S f ws fd Hfree Hfd Hlen s y Hs Hy) as [Hy1 _].
        unfold name_mult_all. fold S1 in Hy1. rewrite Hy1.
        unfold fibre in Hy. apply in_map_iff in Hy. destruct Hy as [w [<- _]].
        apply mult_all_with_row. exact Hnotin. }
      split.
      * apply list_sum_bound. intros y Hy. rewrite <- (Hterm y Hy). apply (IH y).
      * intro Hall. apply list_sum_const. intros y Hy. rewrite <- (Hterm y Hy). apply (IH y). exact Hall.
    + apply (reported_none (fun x => proj_seq f ws (proj_all r x))). intros x Hx <-.
      rewrite (reported_valid S f ws fd Hfree Hfd Hlen _ (Hmid x Hx)) in Hs. discriminate.
Qed.

Fixpoint nodupb (l : list tseq) : bool :=
  match l with
  | [] => true
  | x :: r => negb (existsb (tseq_eqb x) r) && nodupb r
  end.

Lemma nodupb_sound : forall l, nodupb l = true -> NoDup l.
Proof. exact (nodup_b_sound tseq_eqb nodupb (fun x => proj2 (tseq_eqb_eq x x) eq_refl) (fun _ _ => eq_refl)). Qed.

Lemma all_valid_valid : forall S x, In x (all_valid S) -> valid_b S x = true.
Proof. intros S x H. unfold all_valid in H. apply filter_In in H. tauto. Qed.

(** [value_of (all_valid S) as V]: evaluates the closed term here, once, and puts the name [V] of the value
    in its place in the goal; what is evaluated afterwards starts from the value. *)
Tactic Notation "value_of" constr(t) "as" ident(V) :=
  let T := type of t in evar (V : T);
  let E := fresh in
  assert (E : t = V) by (rewrite ?all_valid_fast; vm_compute; reflexivity);
  rewrite E; clear E.

(** W = [w0 x 2, w1] outside the crossing [B], 2 trials (Front/DesugarSem.v [ex_orig_sem]): the
    enumeration of the 18 valid sequences of the desugared form is duplicate-free, and the 8
    valid name-level sequences are reported 4, 4, 2, 2, 2, 2, 1, 1 times - exactly their
    multiplicities; a sequence that is not valid is reported by none. *)
Lemma ex_name_multiplicity :
  let W := widen 0 (list_sum [2; 1]) ex_orig_sem in
  free_b ex_orig_sem 0 = true /\
  NoDup (all_valid W) /\ (forall x, In x (all_valid W) -> valid_b W x = true) /\ length (all_valid W) = 18 /\
  (forall s, count_over 0 [2; 1] s (all_valid W) <= name_mult ex_orig_sem 0 [2; 1] s) /\
  map (fun s => count_over 0 [2; 1] s (all_valid W)) (all_valid ex_orig_sem) = [4; 4; 2; 2; 2; 2; 1; 1] /\
  map (name_mult ex_orig_sem 0 [2; 1]) (all_valid ex_orig_sem) = [4; 4; 2; 2; 2; 2; 1; 1] /\
  name_mult ex_orig_sem 0 [2; 1] [[Some 0; Some 0]; [Some 0; Some 0]] = 0.
Proof.
  intro W.
  assert (Hv : forall x, In x (all_valid W) -> valid_b W x = true) by apply all_valid_valid.
  revert Hv. value_of (all_valid W) as VW. value_of (all_valid ex_orig_sem) as VS. intro Hv.
  assert (Hnd : NoDup VW) by (apply nodupb_sound; vm_compute; reflexivity).
  split; [vm_compute; reflexivity|]. split; [exact Hnd|]. split; [exact Hv|]. split; [vm_compute; reflexivity|].
  split.
  - intro s. apply (name_multiplicity ex_orig_sem 0 [2; 1] {| f_nlevels := 2; f_sustain := 1; f_derived := None |}
                      ltac:(vm_compute; reflexivity) eq_refl eq_refl VW Hnd Hv s).
  - repeat split; vm_compute; reflexivity.
Qed.

(** Two weighted free factors V = [v0 x 2, v1], W = [w0, w1 x 2] outside the crossing [B], 2 trials:
    32 valid name-level sequences, 162 = 9 x 9 x 2 in the desugared form; a sequence is reported
    (product over both rows) times: V = v0,v0 and W = w1,w1 gives 4 x 4 = 16. *)
Definition ex_two_levels_factor : dfactor := {| f_nlevels := 2; f_sustain := 1; f_derived := None |}.
Definition ex_two_weighted_sem : sem :=
  {| s_trials := 2;
     s_factors := [ex_two_levels_factor; ex_two_levels_factor; ex_two_levels_factor];
     s_crossings := [{| c_factors := [2]; c_first := 0; c_chunk := 2; c_mult := [([0], 1); ([1], 1)] |}];
     s_constraints := [] |}.
Definition ex_two_weights : list (nat * list nat) := [(0, [2; 1]); (1, [1; 2])].

Lemma ex_name_multiplicity_two :
  let W := widen_all ex_two_weights ex_two_weighted_sem in
  weighted_free ex_two_weighted_sem ex_two_weights /\
  NoDup (all_valid W) /\ (forall x, In x (all_valid W) -> valid_b W x = true) /\
  length (all_valid ex_two_weighted_sem) = 32 /\ length (all_valid W) = 162 /\
  (forall s, count_over_all ex_two_weights s (all_valid W) <= name_mult_all ex_two_weighted_sem ex_two_weights s) /\
  (let sols := all_valid W in map (fun s => count_over_all ex_two_weights s sols) (all_valid ex_two_weighted_sem))
  = map (name_mult_all ex_two_weighted_sem ex_two_weights) (all_valid ex_two_weighted_sem) /\
  map (name_mult_all ex_two_weighted_sem ex_two_weights) (all_valid ex_two_weighted_sem)
  = [4; 4; 8; 8; 8; 8; 16; 16; 2; 2; 4; 4; 4; 4; 8; 8; 2; 2; 4; 4; 4; 4; 8; 8; 1; 1; 2; 2; 2; 2; 4; 4].
Proof.
  intro W.
  assert (Hwf : weighted_free ex_two_weighted_sem ex_two_weights).
  { split.
    - cbn. repeat constructor; cbn; intuition discriminate.
    - intros f ws [E|[E|[]]]; inversion E; subst; (split; [vm_compute; reflexivity|]);
        exists ex_two_levels_factor; split; reflexivity. }
  assert (Hv : forall x, In x (all_valid W) -> valid_b W x = true) by apply all_valid_valid.
  revert Hv. value_of (all_valid W) as VW. value_of (all_valid ex_two_weighted_sem) as VS. intro Hv.
  assert (Hnd : NoDup VW) by (apply nodupb_sound; vm_compute; reflexivity).
  split; [exact Hwf|]. split; [exact Hnd|]. split; [exact Hv|].
  split; [vm_compute; reflexivity|]. split; [vm_compute; reflexivity|]. split.
  - intro s. apply (name_multiplicity_all ex_two_weights ex_two_weighted_sem Hwf VW Hnd Hv s).
  - value_of (map (name_mult_all ex_two_weighted_sem ex_two_weights) VS) as M. split; vm_compute; reflexivity.
Qed.
