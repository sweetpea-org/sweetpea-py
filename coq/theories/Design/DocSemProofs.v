(** Theorems about [doc_sem] (Design/DocSem.v): well-formedness of the semantic
    normal form it produces, and the documented laws of the block combinators as
    statements about [doc_sem] itself. *)
From Coq Require Import ZArith List Bool Arith Lia String.
From SP Require Import Base.Lists Design.Sem Design.SemFacts Design.Flat Design.DocSem Design.CeilDiv.
Import ListNotations.
Local Open Scope nat_scope.
Local Open Scope list_scope.

Lemma bind_ok : forall {A B} (r : res A) (f : A -> res B) b,
  bind r f = Ok b -> exists a, r = Ok a /\ f a = Ok b.
Proof. intros A B [a|e|w] f b H; cbn in H; try discriminate. eauto. Qed.

(** [inv_bind H as a Ha Hb] replaces [H : bind r f = Ok b] by [Ha : r = Ok a] and [Hb : f a = Ok b] *)
Tactic Notation "inv_bind" hyp(H) "as" ident(a) ident(Ha) ident(Hb) :=
  let X := fresh "X" in pose proof (bind_ok _ _ _ H) as X; clear H; destruct X as [a [Ha Hb]].

Lemma bind_intro : forall {A B} (r : res A) (f : A -> res B) a b, r = Ok a -> f a = Ok b -> bind r f = Ok b.
Proof. intros A B r f a b -> H. exact H. Qed.

Lemma Ok_inj : forall {A} (a b : A), Ok a = Ok b -> a = b.
Proof. intros A a b H. injection H. trivial. Qed.

Lemma mapM_ok : forall {A B} (f : A -> res B) l ys,
  mapM f l = Ok ys -> Forall2 (fun x y => f x = Ok y) l ys.
Proof.
  intros A B f l. induction l as [|x l IH]; intros ys H; cbn in H.
  - apply Ok_inj in H. subst. constructor.
  - inv_bind H as y Hy H. inv_bind H as ys' Hys H. apply Ok_inj in H. subst. constructor; [assumption|]. apply IH. assumption.
Qed.

Lemma mapM_length : forall {A B} (f : A -> res B) l ys, mapM f l = Ok ys -> List.length ys = List.length l.
Proof. intros A B f l ys H. symmetry. exact (Forall2_length _ _ _ (mapM_ok _ _ _ H)). Qed.

Lemma mapM_in : forall {A B} (f : A -> res B) l ys y,
  mapM f l = Ok ys -> In y ys -> exists x, In x l /\ f x = Ok y.
Proof. intros A B f l ys y H Hy. exact (Forall2_in_r _ _ _ _ (mapM_ok _ _ _ H) Hy). Qed.

Lemma mapM_nth : forall {A B} (f : A -> res B) l ys dA dB i,
  mapM f l = Ok ys -> i < List.length l -> f (nth i l dA) = Ok (nth i ys dB).
Proof. intros A B f l ys dA dB i H. exact (Forall2_nth _ _ _ i dA dB (mapM_ok _ _ _ H)). Qed.

Lemma mapM_ext : forall {A B} (f g : A -> res B) l, (forall x, In x l -> f x = g x) -> mapM f l = mapM g l.
Proof.
  intros A B f g l H. induction l as [|x l IH]; [reflexivity|]. cbn. rewrite (H x (or_introl eq_refl)).
  rewrite IH; [reflexivity|]. intros y Hy. apply H. right. exact Hy.
Qed.

Lemma mapM_map : forall {A B C} (f : B -> res C) (g : A -> B) l, mapM f (map g l) = mapM (fun x => f (g x)) l.
Proof. intros A B C f g l. induction l as [|x l IH]; [reflexivity|]. cbn. rewrite IH. reflexivity. Qed.

(** a fold whose step passes errors on, and that ends in [Ok], never met an error: an invariant
    of the [Ok] steps holds at the end *)
Lemma fold_res_err : forall {A B} (F : res A -> B -> res A), (forall e x, F (Unsup e) x = Unsup e) -> (forall w x, F (Crash w) x = Crash w) ->
  forall l r, (forall d, r <> Ok d) -> forall d, fold_left F l r <> Ok d.
Proof.
  intros A B F H1 H2 l. induction l as [|x l IH]; intros r Hr d; cbn [fold_left]; [apply Hr|]. apply IH.
  destruct r as [a|e|w]; [exfalso; exact (Hr a eq_refl)|rewrite H1; discriminate|rewrite H2; discriminate].
Qed.

Lemma fold_res_inv : forall {A B} (F : res A -> B -> res A) (I : A -> Prop),
  (forall e x, F (Unsup e) x = Unsup e) -> (forall w x, F (Crash w) x = Crash w) ->
  forall l, (forall a x b, In x l -> I a -> F (Ok a) x = Ok b -> I b) ->
  forall a0 a, fold_left F l (Ok a0) = Ok a -> I a0 -> I a.
Proof.
  intros A B F I H1 H2 l. induction l as [|x l IH]; intros Hs a0 a H H0; cbn [fold_left] in H.
  - apply Ok_inj in H. subst. exact H0.
  - destruct (F (Ok a0) x) as [b|e|w] eqn:E.
    + apply (IH (fun a x b Hx => Hs a x b (or_intror Hx)) b a H). exact (Hs a0 x b (or_introl eq_refl) H0 E).
    + destruct (fold_res_err F H1 H2 l (Unsup e) ltac:(intros; discriminate) a H).
    + destruct (fold_res_err F H1 H2 l (Crash w) ltac:(intros; discriminate) a H).
Qed.

(** * Well-formedness of a semantic normal form
    what the theorems that consume a [sem] assume of it (Front/NestSem.v [nestable_spec],
    Encode/CrossChunks.v, Random/Frag0Sem.v: positive chunk lengths; factor indices inside
    the factor table; constraint windows inside the trial range). *)
Definition wf_window (T : nat) (w : nat * nat) : Prop := fst w < snd w /\ snd w <= T.

Definition wf_kind (nf : nat) (k : ckind) : Prop :=
  match k with
  | KLatin others _ _ _ => forall fn, In fn others -> fst fn < nf
  | _ => True
  end.

Record wf_sem (S : sem) : Prop := {
  wf_trials : 0 < s_trials S;
  wf_tables : forall fd w, In fd (s_factors S) -> f_derived fd = Some w ->
              List.length (w_table w) = f_nlevels fd /\ forall d, In d (w_deps w) -> d < List.length (s_factors S);
  wf_crossings : forall c, In c (s_crossings S) ->
                 0 < c_chunk c /\ forall f, In f (c_factors c) -> f < List.length (s_factors S);
  wf_constraints : forall k, In k (s_constraints S) ->
                   k_factor k < List.length (s_factors S) /\ wf_kind (List.length (s_factors S)) (k_kind k) /\
                   forall w, In w (k_windows k) -> wf_window (s_trials S) w
}.

Lemma pos_fold_nth : forall f l s acc i,
  fold_left (fun acc ix => if snd ix =? f then Some (fst ix) else acc) (combine (seq s (List.length l)) l) acc = Some i ->
  acc = Some i \/ (s <= i < s + List.length l /\ nth (i - s) l 0 = f).
Proof.
  intros f l. induction l as [|x l IH]; intros s acc i H; cbn in H.
  - left. exact H.
  - apply IH in H. destruct H as [H|[H1 H2]].
    + cbn in H. destruct (Nat.eqb_spec x f) as [->|Hne]; [|left; exact H]. injection H as <-. right.
      split; [cbn; lia|]. rewrite Nat.sub_diag. reflexivity.
    + right. split; [cbn; lia|]. replace (i - s) with (S (i - S s)) by lia. exact H2.
Qed.

Lemma pos_of_nth : forall forder f i, pos_of forder f = Ok i -> i < List.length forder /\ nth i forder 0 = f.
Proof.
  intros forder f i H. unfold pos_of, of_option in H.
  destruct (fold_left _ _ None) as [j|] eqn:E; [|discriminate]. apply Ok_inj in H. subst j.
  apply pos_fold_nth in E. destruct E as [E|[E1 E2]]; [discriminate|]. rewrite Nat.sub_0_r in E2. split; [lia|exact E2].
Qed.

Lemma mapM_pos_lt : forall forder fs ps p, mapM (pos_of forder) fs = Ok ps -> In p ps -> p < List.length forder.
Proof.
  intros forder fs ps p H Hp. destruct (mapM_in _ _ _ _ H Hp) as [f [_ Hf]]. exact (proj1 (pos_of_nth _ _ _ Hf)).
Qed.

Lemma dict_set_fresh : forall {V} k (v : V) d, ~ In k (map fst d) -> dict_set Nat.eqb k v d = d ++ [(k, v)].
Proof.
  intros V k v d. induction d as [|[k' v'] d IH]; intro H; cbn; [reflexivity|].
  destruct (Nat.eqb_spec k k') as [->|Hne]; [exfalso; apply H; left; reflexivity|].
  rewrite IH; [reflexivity|]. intro Hin. apply H. right. exact Hin.
Qed.

Lemma dict_update_fresh : forall {V} (e d : list (nat * V)),
  NoDup (map fst d ++ map fst e) -> dict_update Nat.eqb d e = d ++ e.
Proof.
  intros V e. induction e as [|[k v] e IH]; intros d H; unfold dict_update in *; cbn [fold_left].
  - rewrite app_nil_r. reflexivity.
  - cbn [fst snd]. rewrite dict_set_fresh.
    + rewrite IH; [rewrite <- app_assoc; reflexivity|]. rewrite map_app. cbn. rewrite <- app_assoc. exact H.
    + cbn in H. apply NoDup_remove_2 in H. intro Hin. apply H. apply in_or_app. left. exact Hin.
Qed.

Lemma dict_set_keys : forall {V} k (v : V) d, NoDup (map fst d) -> NoDup (map fst (dict_set Nat.eqb k v d)).
Proof.
  intros V k v d. induction d as [|[k' v'] d IH]; intro H; cbn.
  - constructor; [intros []|constructor].
  - destruct (Nat.eqb_spec k k') as [->|Hne]; [exact H|]. cbn. inversion H; subst. constructor; [|apply IH; assumption].
    intro Hin. apply H2. clear -Hin Hne. induction d as [|[k2 v2] d IH]; cbn in *.
    + destruct Hin as [E|[]]. congruence.
    + destruct (Nat.eqb_spec k k2); cbn in Hin; [exact Hin|]. destruct Hin as [E|Hin]; [left; exact E|right; apply IH; exact Hin].
Qed.

Lemma dict_update_keys : forall {V} (e d : list (nat * V)), NoDup (map fst d) -> NoDup (map fst (dict_update Nat.eqb d e)).
Proof.
  intros V e. induction e as [|[k v] e IH]; intros d H; unfold dict_update in *; cbn [fold_left]; [exact H|].
  apply IH. apply dict_set_keys. exact H.
Qed.

Lemma dict_set_vals : forall (Q : nat -> Prop) k v (d : list (nat * nat)),
  Forall (fun kv => Q (snd kv)) d -> Q v -> Forall (fun kv => Q (snd kv)) (dict_set Nat.eqb k v d).
Proof.
  intros Q k v d H Hv. induction H as [|[k0 v0] d H0 Hd IH]; cbn.
  - constructor; [exact Hv|constructor].
  - destruct (k =? k0); constructor; [exact Hv|exact Hd|exact H0|exact IH].
Qed.

Lemma dict_update_vals : forall (Q : nat -> Prop) (e d : list (nat * nat)),
  Forall (fun kv => Q (snd kv)) d -> Forall (fun kv => Q (snd kv)) e -> Forall (fun kv => Q (snd kv)) (dict_update Nat.eqb d e).
Proof.
  intros Q e. induction e as [|[k v] e IH]; intros d Hd He; unfold dict_update in *; cbn [fold_left]; [exact Hd|].
  inversion He; subst. apply IH; [|assumption]. apply dict_set_vals; assumption.
Qed.

Lemma mem_false : forall f l, ~ In f l -> DocSem.mem f l = false.
Proof.
  intros f l H. apply not_true_is_false. intro E. apply H. apply existsb_eqb_In. exact E.
Qed.

Lemma mem_true : forall f l, In f l -> DocSem.mem f l = true.
Proof. intros f l H. unfold DocSem.mem. apply existsb_eqb_In. exact H. Qed.

Lemma add_new_fresh : forall fs acc, NoDup (acc ++ fs) -> DocSem.add_new acc fs = acc ++ fs.
Proof.
  induction fs as [|f fs IH]; intros acc H; unfold DocSem.add_new in *; cbn [fold_left]; [rewrite app_nil_r; reflexivity|].
  rewrite mem_false.
  - rewrite IH; [rewrite <- app_assoc; reflexivity|]. rewrite <- app_assoc. exact H.
  - apply NoDup_remove_2 in H. intro Hin. apply H. apply in_or_app. left. exact Hin.
Qed.

(** ** [_finish]: the trial count and the preamble depend on the crossings through [geom] only;
    the crossings keep [geom] and [fc] *)
Definition geom (c : dcross) : nat * nat * nat := (x_P c, x_S c, x_su c).
Definition fc (c : dcross) : list nat * combos := (x_factors c, x_combos c).

Definition ep_check (al : alignment) (cs : list dcross) : bool :=
  alignment_eqb al EqualPreamble &&
  negb (match cs with [] => true | c0 :: _ => forallb (fun c => x_P c =? x_P c0) cs end).

Definition round_up (su m : nat) : nat := if m mod su =? 0 then m else (m / su + 1) * su.

Lemma finish_T_pos : forall al cs m, 0 < finish_T al cs m.
Proof. intros. unfold finish_T. lia. Qed.

(** [finish_T], [block_P], [ep_check] read a crossing through [geom] only: they give the same
    on the crossings rebuilt from their [geom] *)
Definition of_geom (g : nat * nat * nat) : dcross :=
  {| x_factors := []; x_S := snd (fst g); x_P := fst (fst g); x_su := snd g; x_cw := 0;
     x_combos := []; x_complete := true; x_rcc := true |}.

Lemma geom_congr : forall {B} (F : list dcross -> B), (forall cs, F (map of_geom (map geom cs)) = F cs) ->
  forall cs cs', map geom cs = map geom cs' -> F cs = F cs'.
Proof. intros B F H cs cs' E. rewrite <- (H cs), <- (H cs'), E. reflexivity. Qed.

Lemma fold_left_map : forall {A B C} (F : A -> C -> A) (g : B -> C) l a,
  fold_left F (map g l) a = fold_left (fun a x => F a (g x)) l a.
Proof. intros A B C F g l. induction l as [|x l IH]; intro a; [reflexivity|]. apply IH. Qed.

Lemma finish_T_geom : forall al cs cs' m, map geom cs = map geom cs' -> finish_T al cs m = finish_T al cs' m.
Proof.
  intros al cs cs' m. apply (geom_congr (fun cs => finish_T al cs m)). intro cs0.
  unfold finish_T. rewrite !map_map, fold_left_map. reflexivity.
Qed.

Lemma block_P_geom : forall al cs cs', map geom cs = map geom cs' -> block_P al cs = block_P al cs'.
Proof.
  intros al. apply (geom_congr (block_P al)). intro cs0. unfold block_P. rewrite !map_map. destruct al, cs0; reflexivity.
Qed.

Lemma ep_check_geom : forall al cs cs', map geom cs = map geom cs' -> ep_check al cs = ep_check al cs'.
Proof.
  intros al. apply (geom_congr (ep_check al)). intros [|c0 cs0]; [reflexivity|].
  unfold ep_check. cbn [map forallb]. rewrite !forallb_map. reflexivity.
Qed.

Definition top_scope (sc : scope) : Prop := match sc with ScScaled _ _ => False | _ => True end.

Record fin (bd : blockdoc) : Prop := {
  fin_T : b_T bd = finish_T (b_alignment bd) (b_crossings bd) (b_min_trials bd);
  fin_P : b_P bd = block_P (b_alignment bd) (b_crossings bd);
  fin_ep : ep_check (b_alignment bd) (b_crossings bd) = false;
  fin_keys : NoDup (map fst (b_sustain bd));
  fin_top : Forall (fun csc : pcons * scope => top_scope (snd csc)) (b_constraints bd)
}.

Lemma finish_cw_same : forall mode T c c', finish_cw mode T c = Ok c' -> geom c' = geom c /\ fc c' = fc c.
Proof.
  intros mode T c c' H. unfold finish_cw in H. destruct (x_S c =? 0); [apply Ok_inj in H; subst; split; reflexivity|].
  destruct (_ =? x_cw c); [apply Ok_inj in H; subst; split; reflexivity|].
  destruct mode; try discriminate; apply Ok_inj in H; subst; split; reflexivity.
Qed.

Lemma finish_fin : forall bd mode bd', finish bd mode = Ok bd' ->
  b_T bd' = finish_T (b_alignment bd') (b_crossings bd') (b_min_trials bd') /\
  b_P bd' = block_P (b_alignment bd') (b_crossings bd') /\
  ep_check (b_alignment bd') (b_crossings bd') = false /\
  b_sustain bd' = b_sustain bd /\ b_design bd' = b_design bd /\ b_rcc bd' = b_rcc bd /\
  b_alignment bd' = b_alignment bd /\ b_min_trials bd' = b_min_trials bd /\ b_constraints bd' = b_constraints bd /\
  map geom (b_crossings bd') = map geom (b_crossings bd) /\ map fc (b_crossings bd') = map fc (b_crossings bd).
Proof.
  intros bd mode bd' H. unfold finish in H. cbv zeta in H.
  fold (ep_check (b_alignment bd) (b_crossings bd)) in H.
  destruct (ep_check _ _) eqn:E; [discriminate|]. inv_bind H as cs' Hcs H.
  assert (Hg : map geom cs' = map geom (b_crossings bd) /\ map fc cs' = map fc (b_crossings bd)).
  { assert (G : forall T, mapM (finish_cw mode T) (b_crossings bd) = Ok cs' ->
                          map geom cs' = map geom (b_crossings bd) /\ map fc cs' = map fc (b_crossings bd)).
    { intros T Hm. apply mapM_ok in Hm.
      split; symmetry; apply Forall2_map_eq; (eapply Forall2_imp; [|exact Hm]); intros c c' Hc;
        symmetry; apply (finish_cw_same _ _ _ _ Hc). }
    destruct mode; [eapply G; eauto|apply Ok_inj in Hcs; subst; split; reflexivity|eapply G; eauto]. }
  destruct Hg as [Hg Hf]. apply Ok_inj in H. subst bd'.
  cbn [b_design b_crossings b_T b_P b_constraints b_min_trials b_alignment b_sustain b_rcc].
  rewrite (finish_T_geom _ _ _ _ Hg), (block_P_geom _ _ _ Hg), (ep_check_geom _ _ _ Hg).
  repeat split; try reflexivity; assumption.
Qed.

Lemma own_top : forall cs, Forall (fun csc : pcons * scope => top_scope (snd csc)) (own_constraints cs).
Proof. intro cs. unfold own_constraints. apply Forall_forall. intros x Hx. apply in_map_iff in Hx. destruct Hx as [c [<- _]]. exact I. Qed.

Lemma doc_cross_spec : forall p d crs cs rcc mode al bd, doc_cross p d crs cs rcc mode al = Ok bd ->
  fin bd /\ b_constraints bd = own_constraints cs /\ b_sustain bd = [] /\ b_alignment bd = al /\
  b_min_trials bd = list_max (min_trials_of cs) /\
  exists xs, mapM (doc_crossing p (b_design bd) (excludes_of cs) rcc) (filter nonempty crs) = Ok xs /\
             map geom (b_crossings bd) = map geom xs /\ map fc (b_crossings bd) = map fc xs.
Proof.
  intros p d crs cs rcc mode al bd H. unfold doc_cross in H.
  inv_bind H as kinds Hk H. inv_bind H as xs Hxs H. inv_bind H as bd0 Hf H.
  apply finish_fin in Hf. cbn [b_design b_crossings b_min_trials b_alignment b_sustain b_rcc b_constraints] in Hf.
  destruct Hf as (H1 & H2 & H3 & H4 & H5 & _ & H7 & H8 & _ & Hg & Hc).
  apply Ok_inj in H. subst bd. cbn [b_design b_crossings b_T b_P b_constraints b_min_trials b_alignment b_sustain b_rcc].
  split; [constructor; cbn [b_design b_crossings b_T b_P b_constraints b_min_trials b_alignment b_sustain b_rcc];
          try assumption; [rewrite H4; constructor|apply own_top]|].
  repeat (split; [assumption || reflexivity|]). exists xs. rewrite H5. repeat split; assumption.
Qed.

Lemma merge_spec : forall inners cs mode al nest bd, merge inners cs mode al nest = Ok bd ->
  fin bd /\ b_alignment bd = al /\
  map geom (b_crossings bd) = map geom (flat_map b_crossings inners) /\
  map fc (b_crossings bd) = map fc (flat_map b_crossings inners) /\
  b_sustain bd = fold_left (fun d b => dict_update Nat.eqb d (b_sustain b)) inners [] /\
  b_constraints bd
  = flat_map (fun b => map (fun csc => (fst csc, ScRep (snd csc) (b_T b) (b_P b)
                                         (match al with
                                          | PostPreamble => list_max (map (fun c => x_P c * x_su c) (b_crossings bd)) - b_P b
                                          | _ => 0
                                          end)))
                           (b_constraints b)) inners
    ++ own_constraints cs.
Proof.
  intros inners cs mode al nest bd H. unfold merge in H. destruct (_ && _); [discriminate|]. inv_bind H as bd0 Hf H.
  apply finish_fin in Hf. cbn [b_design b_crossings b_min_trials b_alignment b_sustain b_rcc b_constraints] in Hf.
  destruct Hf as (H1 & H2 & H3 & H4 & _ & _ & H7 & _ & _ & Hg & Hc).
  apply Ok_inj in H. subst bd. cbn [b_design b_crossings b_T b_P b_constraints b_min_trials b_alignment b_sustain b_rcc].
  split; [|repeat split; assumption || reflexivity].
  constructor; cbn [b_design b_crossings b_T b_P b_constraints b_min_trials b_alignment b_sustain b_rcc]; try assumption.
  - rewrite H4. apply (fold_left_inv _ (fun d => NoDup (map fst d))); [|constructor].
    intros d b _ Hd. apply dict_update_keys. exact Hd.
  - apply Forall_app. split; [|apply own_top]. apply Forall_forall. intros x Hx. apply in_flat_map in Hx.
    destruct Hx as [b [_ Hx]]. apply in_map_iff in Hx. destruct Hx as [c [<- _]]. exact I.
Qed.

Section PblockInd.
Variable Q : pblock -> Prop.
Hypothesis Hcross : forall d c cs rcc, Q (PCross d c cs rcc).
Hypothesis Hmulti : forall d crs cs rcc mode al, Q (PMulti d crs cs rcc mode al).
Hypothesis Hrepeat : forall b cs, Q b -> Q (PRepeat b cs).
Hypothesis Hmerge : forall bs cs mode al, Forall Q bs -> Q (PMerge bs cs mode al).
Hypothesis Hnest : forall o i cs al, Q o -> Q i -> Q (PNest o i cs al).
Fixpoint pblock_ind' (b : pblock) : Q b :=
  match b with
  | PCross d c cs rcc => Hcross d c cs rcc
  | PMulti d crs cs rcc mode al => Hmulti d crs cs rcc mode al
  | PRepeat b' cs => Hrepeat b' cs (pblock_ind' b')
  | PMerge bs cs mode al =>
    Hmerge bs cs mode al ((fix go (l : list pblock) : Forall Q l :=
                             match l with
                             | [] => Forall_nil Q
                             | x :: r => Forall_cons x (pblock_ind' x) (go r)
                             end) bs)
  | PNest o i cs al => Hnest o i cs al (pblock_ind' o) (pblock_ind' i)
  end.
End PblockInd.

Lemma go_ok : forall p bs inners,
  (fix go (l : list pblock) : res (list blockdoc) :=
     match l with
     | [] => Ok []
     | x :: r => y <- doc_block p x ;; ys <- go r ;; Ok (y :: ys)
     end) bs = Ok inners ->
  Forall2 (fun b bd => doc_block p b = Ok bd) bs inners.
Proof.
  intros p bs. induction bs as [|b bs IH]; intros inners H.
  - apply Ok_inj in H. subst. constructor.
  - inv_bind H as y Hy H. inv_bind H as ys Hys H. apply Ok_inj in H. subst. constructor; [exact Hy|]. apply IH. exact Hys.
Qed.

Lemma doc_block_fin : forall p b bd, doc_block p b = Ok bd -> fin bd.
Proof.
  intros p b bd H. destruct b; cbn [doc_block] in H.
  - apply (doc_cross_spec _ _ _ _ _ _ _ _ H).
  - apply (doc_cross_spec _ _ _ _ _ _ _ _ H).
  - inv_bind H as inner Hi H. apply (merge_spec _ _ _ _ _ _ H).
  - inv_bind H as inners Hi H. inv_bind H as al' Hal H. apply (merge_spec _ _ _ _ _ _ H).
  - inv_bind H as outer Ho H. inv_bind H as inner Hi H. destruct (existsb _ _); [discriminate|]. apply (merge_spec _ _ _ _ _ _ H).
Qed.

Lemma doc_block_inv : forall p b bd, doc_block p b = Ok bd ->
  0 < b_T bd /\ Forall (fun csc => top_scope (snd csc)) (b_constraints bd).
Proof.
  intros p b bd H. destruct (doc_block_fin _ _ _ H) as [HT _ _ _ Htop]. split; [rewrite HT; apply finish_T_pos|exact Htop].
Qed.

Lemma block_P_zero : forall al cs, Forall (fun c => x_P c = 0) cs -> block_P al cs = 0.
Proof.
  intros al cs H. unfold block_P. destruct al.
  - induction H as [|c cs Hc _ IH]; [reflexivity|]. cbn [map list_max fold_right] in *. rewrite Hc. cbn. exact IH.
  - destruct H as [|c cs Hc _]; [reflexivity|]. rewrite Hc. reflexivity.
  - destruct H as [|c cs Hc _]; [reflexivity|]. rewrite Hc. reflexivity.
Qed.

(** Nest refuses preambles, so the scaling factor is the (positive) inner trial count *)
Lemma doc_nest_inv : forall p o i cs al bd, doc_block p (PNest o i cs al) = Ok bd ->
  exists outer inner, doc_block p o = Ok outer /\ doc_block p i = Ok inner /\
    Forall (fun c => x_P c = 0) (b_crossings outer) /\ Forall (fun c => x_P c = 0) (b_crossings inner) /\
    b_P outer = 0 /\ b_P inner = 0 /\ 0 < b_T inner /\
    merge [scale_outer outer (b_T inner - b_P inner); inner] cs DRepeat
          (match al with Some a => a | None => b_alignment outer end) true = Ok bd.
Proof.
  intros p o i cs al bd H. cbn [doc_block] in H. inv_bind H as outer Ho H. inv_bind H as inner Hi H.
  destruct (existsb _ _) eqn:E; [discriminate|]. exists outer, inner.
  assert (Z : Forall (fun c => x_P c = 0) (b_crossings outer ++ b_crossings inner)).
  { apply Forall_forall. intros c Hc. apply Nat.eqb_eq. destruct (x_P c =? 0) eqn:Q; [reflexivity|].
    rewrite <- E. apply existsb_exists. exists c. rewrite Q. split; [exact Hc|reflexivity]. }
  apply Forall_app in Z. destruct Z as [Zo Zi].
  repeat split; try assumption.
  - rewrite (fin_P _ (doc_block_fin _ _ _ Ho)). apply block_P_zero. exact Zo.
  - rewrite (fin_P _ (doc_block_fin _ _ _ Hi)). apply block_P_zero. exact Zi.
  - apply (doc_block_inv _ _ _ Hi).
Qed.

(** a block is a (Multi)CrossBlock or a merge of blocks; the outer block of a Nest, which has
    no preamble, is scaled by the positive inner trial count before it is merged *)
Lemma doc_block_merge_ind : forall p (R : blockdoc -> Prop),
  (forall d crs cs rcc mode al bd, doc_cross p d crs cs rcc mode al = Ok bd -> R bd) ->
  (forall inners cs mode al nest bd, merge inners cs mode al nest = Ok bd -> Forall R inners -> R bd) ->
  (forall o outer n, doc_block p o = Ok outer -> R outer -> Forall (fun c => x_P c = 0) (b_crossings outer) -> 0 < n ->
     R (scale_outer outer n)) ->
  forall b bd, doc_block p b = Ok bd -> R bd.
Proof.
  intros p R Hx Hm Hs b.
  induction b as [d c cs rcc|d crs cs rcc mode al|b cs IH|bs cs mode al IH|o i cs al IHo IHi] using pblock_ind'; intros bd H.
  1,2: exact (Hx _ _ _ _ _ _ _ H).
  - cbn [doc_block] in H. inv_bind H as inner Hi H. apply (Hm _ _ _ _ _ _ H). constructor; [apply IH; exact Hi|constructor].
  - cbn [doc_block] in H. inv_bind H as inners Hi H. inv_bind H as al' Hal H. apply (Hm _ _ _ _ _ _ H).
    apply go_ok in Hi. clear -IH Hi. induction Hi as [|b bd bs inners Hb _ IHi]; [constructor|].
    inversion IH; subst. constructor; [eauto|apply IHi; assumption].
  - destruct (doc_nest_inv _ _ _ _ _ _ H) as (outer & inner & Ho & Hi & Zo & _ & _ & Pi & Hn & X).
    apply (Hm _ _ _ _ _ _ X). constructor; [|constructor; [apply IHi; exact Hi|constructor]].
    apply (Hs o); [exact Ho|apply IHo; exact Ho|exact Zo|lia].
Qed.

(** a property of crossings that [geom] and [fc] determine, that the crossings [doc_crossing]
    builds have and that the Nest scaling of a crossing without preamble keeps, holds of every
    crossing of a block *)
Lemma doc_block_crossings : forall p (Q : dcross -> Prop),
  (forall c c', geom c = geom c' -> fc c = fc c' -> Q c' -> Q c) ->
  (forall d ex rcc cr x, doc_crossing p d ex rcc cr = Ok x -> Q x) ->
  (forall c n, Q c -> x_P c = 0 -> 0 < n -> Q (set_su c (x_su c * n))) ->
  forall b bd, doc_block p b = Ok bd -> Forall Q (b_crossings bd).
Proof.
  intros p Q Hgf Hx Hsc.
  assert (T : forall cs cs', map geom cs = map geom cs' -> map fc cs = map fc cs' -> Forall Q cs' -> Forall Q cs).
  { induction cs as [|c cs IH]; intros [|c' cs'] Hg Hf H; try discriminate; cbn [map] in Hg, Hf; inversion H; subst; constructor.
    - apply (Hgf c c'); [congruence|congruence|assumption].
    - apply (IH cs'); [congruence|congruence|assumption]. }
  apply (doc_block_merge_ind p (fun bd => Forall Q (b_crossings bd))).
  - intros d crs cs rcc mode al bd H.
    destruct (doc_cross_spec _ _ _ _ _ _ _ _ H) as (_ & _ & _ & _ & _ & xs & Hxs & Hg & Hf). apply (T _ _ Hg Hf).
    apply Forall_forall. intros x Hin. destruct (mapM_in _ _ _ _ Hxs Hin) as [cr [_ Hcr]]. exact (Hx _ _ _ _ _ Hcr).
  - intros inners cs mode al nest bd H Hin. destruct (merge_spec _ _ _ _ _ _ H) as (_ & _ & Hg & Hf & _).
    apply (T _ _ Hg Hf). clear -Hin. induction Hin; cbn [flat_map]; [constructor|apply Forall_app; split; assumption].
  - intros o outer n _ Ho Zo Hn. cbn [scale_outer b_crossings]. rewrite Forall_forall in Zo, Ho. apply Forall_forall. intros x Hin.
    apply in_map_iff in Hin. destruct Hin as [c [<- Hc]]. apply Hsc; [apply Ho, Hc|apply Zo, Hc|exact Hn].
Qed.

(** a crossing with a preamble has sustain count 1; sustain counts are positive *)
Definition suP (c : dcross) : Prop := x_su c = 1 \/ x_P c = 0.

Lemma doc_crossing_inv : forall p d ex rcc cr x, doc_crossing p d ex rcc cr = Ok x ->
  exists allc feas P, all_combos p cr = Ok allc /\ feasible_combos p d cr ex = Ok feas /\ crossing_preamble p cr = Ok P /\
    x = {| x_factors := cr; x_S := sum_values (if rcc then allc else feas); x_P := P; x_su := 1; x_cw := 1;
           x_combos := if rcc then allc else feas; x_complete := same_keys feas allc; x_rcc := rcc |}.
Proof.
  intros p d ex rcc cr x H. unfold doc_crossing in H. inv_bind H as allc Ha H. inv_bind H as feas Hf H.
  inv_bind H as P HP H. apply Ok_inj in H. exists allc, feas, P. repeat split; try assumption. symmetry. exact H.
Qed.

Lemma doc_block_suP : forall p b bd, doc_block p b = Ok bd -> Forall suP (b_crossings bd).
Proof.
  intros p. apply doc_block_crossings; unfold suP.
  - intros c c' Hg _. unfold geom in Hg. injection Hg as -> _ ->. trivial.
  - intros d ex rcc cr x H. destruct (doc_crossing_inv _ _ _ _ _ _ H) as (? & ? & ? & _ & _ & _ & ->). left. reflexivity.
  - intros c n _ Z _. right. exact Z.
Qed.

Lemma doc_block_su_crossings : forall p b bd, doc_block p b = Ok bd -> Forall (fun c => 0 < x_su c) (b_crossings bd).
Proof.
  intros p. apply (doc_block_crossings p (fun c => 0 < x_su c)).
  - intros c c' Hg _. unfold geom in Hg. injection Hg as _ _ ->. trivial.
  - intros d ex rcc cr x H. destruct (doc_crossing_inv _ _ _ _ _ _ H) as (? & ? & ? & _ & _ & _ & ->). exact Nat.lt_0_1.
  - intros c n Hc _ Hn. cbn [set_su x_su]. apply Nat.mul_pos_pos; assumption.
Qed.

Lemma sem_factor_inv : forall p bd forder f fd, sem_factor p bd forder f = Ok fd ->
  exists pfd, fm p f = Ok pfd /\ nlevels pfd = Ok (f_nlevels fd) /\ f_sustain fd = sustain_get bd f /\
    (f_derived fd = None \/
     exists deps wd st sa tabs enc pdeps,
       window_params p pfd = Ok (deps, wd, st, sa) /\ accepted_tables p pfd = Ok tabs /\
       enc_table p deps tabs = Ok enc /\ mapM (pos_of forder) deps = Ok pdeps /\
       f_derived fd = Some {| w_deps := pdeps; w_width := wd; w_stride := st; w_start := sa; w_table := enc |}).
Proof.
  intros p bd forder f fd H. unfold sem_factor in H. inv_bind H as pfd Hfd H. inv_bind H as nl Hnl H.
  exists pfd. split; [exact Hfd|]. destruct (is_simple pfd); [apply Ok_inj in H; subst fd; auto|].
  inv_bind H as q Hq H. destruct q as [[[deps width] stride] start].
  match type of H with (if ?c then _ else _) = _ => destruct c; [discriminate|] end.
  inv_bind H as tabs Ht H. inv_bind H as enc He H. inv_bind H as pdeps Hp H. apply Ok_inj in H. subst fd.
  repeat split; try assumption. right. exists deps, width, stride, start, tabs, enc, pdeps. auto.
Qed.

Lemma sem_crossing_inv : forall p bd forder maxp c dc, sem_crossing p bd forder maxp c = Ok dc ->
  x_S c * x_cw c * x_su c <> 0 /\
  exists mult fs,
    mapM (fun cw : list name * nat =>
            idx <- mapM (fun fn => level_index p (fst fn) (snd fn)) (combine (x_factors c) (fst cw)) ;;
            Ok (idx, snd cw * x_cw c * x_su c))
         (sort_by (fun a b => names_leb (fst a) (fst b)) (x_combos c)) = Ok mult /\
    mapM (pos_of forder) (x_factors c) = Ok fs /\
    dc = {| c_factors := fs; c_first := crossing_first bd maxp c; c_chunk := x_S c * x_cw c * x_su c; c_mult := mult |}.
Proof.
  intros p bd forder maxp c dc H. unfold sem_crossing in H. destruct (_ =? 0) eqn:E; [discriminate|].
  apply Nat.eqb_neq in E. inv_bind H as mult Hm H. inv_bind H as fs Hfs H. apply Ok_inj in H.
  split; [exact E|]. exists mult, fs. auto.
Qed.

(** the semantic constraints of one scoped program constraint (a step of [sem_of_block]) *)
Definition sem_scoped (p : program) (bd : blockdoc) (forder : list nat) (maxp T : nat) (csc : pcons * scope) : res (list dconstraint) :=
  cs <- expand_constraint p (fst csc) ;;
  ks <- mapM (fun c => sem_constraint p bd forder maxp T c (snd csc)) cs ;;
  Ok (List.concat ks).

Lemma sem_of_block_inv : forall p bd ds, sem_of_block p bd = Ok ds ->
  exists depths forder factors crossings kss,
    mapM (fun f => d <- depth p (fuel0 p) f ;; Ok (f, d)) (b_design bd) = Ok depths /\
    forder = map fst (sort_by (fun a b => snd a <=? snd b) depths) /\
    mapM (sem_factor p bd forder) forder = Ok factors /\
    mapM (sem_crossing p bd forder (list_max (map (fun c => x_P c * x_su c) (b_crossings bd)))) (b_crossings bd) = Ok crossings /\
    mapM (sem_scoped p bd forder (list_max (map (fun c => x_P c * x_su c) (b_crossings bd))) (b_T bd)) (b_constraints bd) = Ok kss /\
    ds = let unsat := existsb (fun c => negb (x_complete c) && x_rcc c) (b_crossings bd) in
         {| ds_sem := {| s_trials := b_T bd; s_factors := factors; s_crossings := crossings;
                         s_constraints := List.concat kss ++
                           if unsat && nonempty forder
                           then [{| k_kind := KExactlyK (b_T bd + 1); k_factor := 0; k_level := 0; k_windows := [(0, b_T bd)] |}]
                           else [] |};
            ds_T := b_T bd; ds_forder := forder; ds_unsat := unsat; ds_block := bd |}.
Proof.
  intros p bd ds H. unfold sem_of_block in H. inv_bind H as kinds Hk H. destruct (negb _); [discriminate|].
  inv_bind H as depths Hd H. inv_bind H as factors Hf H. inv_bind H as crossings Hx H. inv_bind H as kss Hc H.
  apply Ok_inj in H. exists depths, (map fst (sort_by (fun a b => snd a <=? snd b) depths)), factors, crossings, kss.
  repeat split; try assumption. symmetry. exact H.
Qed.

Lemma sem_of_block_block : forall p bd ds, sem_of_block p bd = Ok ds -> ds_block ds = bd /\ ds_T ds = b_T bd.
Proof. intros p bd ds H. destruct (sem_of_block_inv _ _ _ H) as (? & ? & ? & ? & ? & _ & _ & _ & _ & _ & ->). split; reflexivity. Qed.

(** the semantic constraints that come from the program constraints, one by one *)
Lemma constraints_in : forall p bd forder maxp T (cscs : list (pcons * scope)) kss k,
  mapM (sem_scoped p bd forder maxp T) cscs = Ok kss ->
  In k (List.concat kss) ->
  exists csc c ks, In csc cscs /\ sem_constraint p bd forder maxp T c (snd csc) = Ok ks /\ In k ks.
Proof.
  intros p bd forder maxp T cscs kss k Hc Hin. apply in_concat in Hin. destruct Hin as [ks [Hks Hin]].
  destruct (mapM_in _ _ _ _ Hc Hks) as [csc [Hcsc Hsem]].
  inv_bind Hsem as cs Hcs Hsem. inv_bind Hsem as kss' Hkss Hsem. apply Ok_inj in Hsem. subst ks.
  apply in_concat in Hin. destruct Hin as [ks' [Hks' Hin]].
  destruct (mapM_in _ _ _ _ Hkss Hks') as [c [_ Hsc]]. eauto 6.
Qed.

Lemma rep_windows_good : forall fuel base step T Pb start w,
  In w (rep_windows fuel base step T Pb start) -> wf_window T w.
Proof.
  induction fuel as [|fuel IH]; cbn [rep_windows]; intros base step T Pb start w H; [contradiction|].
  destruct (start <? T - Pb); [|contradiction]. apply in_app_or in H. destruct H as [H|H]; [|eauto].
  apply in_flat_map in H. destruct H as [ab [_ H]]. destruct (_ <? _) eqn:E; [|contradiction].
  destruct H as [<-|[]]. apply Nat.ltb_lt in E. split; cbn; lia.
Qed.

Lemma scope_windows_good : forall sc T ws scale,
  top_scope sc -> 0 < T -> scope_windows sc T = Ok (ws, scale) -> forall w, In w ws -> wf_window T w.
Proof.
  intros [|inner Tb Pb off|inner n] T ws scale Ht HT H w Hw; cbn [scope_windows top_scope] in *.
  - injection H as <- <-. destruct Hw as [<-|[]]. split; cbn; lia.
  - inv_bind H as bs Hbs H. destruct bs as [base sc']. destruct (Tb <=? Pb); [discriminate|].
    assert (E : ws = rep_windows (S T) base (Tb - Pb) T Pb off) by congruence. rewrite E in Hw.
    exact (rep_windows_good _ _ _ _ _ _ _ Hw).
  - contradiction.
Qed.

(** a semantic constraint: its factor is a position of the constrained factor, its level (if any) a
    level index of that factor; a run-length, count or pin constraint keeps its kind and has the
    windows of its scope, the other kinds have none *)
Lemma sem_constraint_inv : forall p bd forder maxp T c sc ks k,
  sem_constraint p bd forder maxp T c sc = Ok ks -> In k ks ->
  exists wins scale fid, scope_windows sc T = Ok (wins, scale) /\
    (k_windows k = wins \/ k_windows k = []) /\ wf_kind (List.length forder) (k_kind k) /\
    pos_of forder fid = Ok (k_factor k) /\ (k_level k = 0 \/ exists ln, level_index p fid ln = Ok (k_level k)) /\
    match c with
    | PKRow kd k0 _ => k_kind k = krow_kind kd k0 scale /\ k_windows k = wins
    | PPin i f _ => k_kind k = KPin i (sustain_get bd f) /\ k_windows k = wins
    | _ => k_windows k = [] /\ match k_kind k with KExclude | KSequential _ _ | KLatin _ _ _ _ => True | _ => False end
    end.
Proof.
  intros p bd forder maxp T c sc ks k H Hk. unfold sem_constraint in H.
  inv_bind H as wsc Hws H. destruct wsc as [wins scale]. exists wins, scale.
  destruct c as [kd k0 [fid ln|fid]|fid ln|ix fid ln|fid|fids|n| |kind]; try discriminate;
    try (apply Ok_inj in H; subst ks; contradiction).
  1-3: inv_bind H as pf Hpf H; inv_bind H as li Hli H; apply Ok_inj in H; subst ks; destruct Hk as [<-|[]]; exists fid; cbn;
    repeat split; eauto; destruct kd; exact I.
  - inv_bind H as pf Hpf H. apply Ok_inj in H. subst ks. destruct Hk as [<-|[]]. exists fid. cbn. repeat split; auto.
  - destruct fids as [|f0 [|f1 fr]]; try (apply Ok_inj in H; subst ks; contradiction).
    inv_bind H as lens Hl H. inv_bind H as main Hm H. inv_bind H as others Ho H. inv_bind H as pm Hpm H.
    apply Ok_inj in H. subst ks. destruct Hk as [<-|[]]. exists main. cbn. repeat split; auto.
    intros fn Hfn. destruct (mapM_in _ _ _ _ Ho Hfn) as [x [_ Hx]]. inv_bind Hx as pf Hpf Hx. apply Ok_inj in Hx. subst fn.
    exact (proj1 (pos_of_nth _ _ _ Hpf)).
Qed.

Lemma enc_table_length : forall p deps tabs enc, enc_table p deps tabs = Ok enc -> List.length enc = List.length tabs.
Proof. intros p deps tabs enc H. unfold enc_table in H. eapply mapM_length; eauto. Qed.

Lemma accepted_tables_length : forall p fd tabs, accepted_tables p fd = Ok tabs ->
  nlevels fd = Ok (List.length tabs).
Proof.
  intros p fd tabs H. unfold accepted_tables in H. inv_bind H as q Hq H. destruct q as [[[deps width] stride] start].
  inv_bind H as doms Hd H. unfold nlevels. destruct (pf_kind fd); try discriminate.
  apply Ok_inj in H. subst. rewrite !map_length. reflexivity.
Qed.

Lemma sem_factor_good : forall p bd forder f fd, sem_factor p bd forder f = Ok fd ->
  forall w, f_derived fd = Some w ->
    List.length (w_table w) = f_nlevels fd /\ forall d, In d (w_deps w) -> d < List.length forder.
Proof.
  intros p bd forder f fd H w Hw.
  destruct (sem_factor_inv _ _ _ _ _ H) as (pfd & _ & Hnl & _ & [E|(deps & wd & st & sa & tabs & enc & pdeps & _ & Ht & He & Hp & E)]);
    rewrite E in Hw; [discriminate|]. injection Hw as <-. cbn [w_table w_deps]. split.
  - rewrite (enc_table_length _ _ _ _ He). apply accepted_tables_length in Ht. rewrite Ht in Hnl. injection Hnl as ->. reflexivity.
  - intros d Hd. eapply mapM_pos_lt; eauto.
Qed.

(** * (a) the semantic normal form of a program is well formed *)
Theorem sem_of_block_wf : forall p bd ds,
  0 < b_T bd -> Forall (fun csc => top_scope (snd csc)) (b_constraints bd) ->
  sem_of_block p bd = Ok ds -> wf_sem (ds_sem ds) /\ ds_T ds = s_trials (ds_sem ds) /\ ds_T ds = b_T bd /\
  List.length (ds_forder ds) = List.length (s_factors (ds_sem ds)).
Proof.
  intros p bd ds HT Hsc H.
  destruct (sem_of_block_inv _ _ _ H) as (depths & forder & factors & crossings & kss & _ & Efo & Hf & Hx & Hc & ->).
  cbv zeta. cbn [ds_sem ds_T ds_forder s_trials s_factors]. clear H.
  pose proof (mapM_length _ _ _ Hf) as Hlen.
  split; [|repeat split; congruence]. constructor; cbn [s_trials s_factors s_crossings s_constraints]; rewrite ?Hlen.
  - exact HT.
  - intros fd w Hin Hw. destruct (mapM_in _ _ _ _ Hf Hin) as [f [_ Hsf]]. exact (sem_factor_good _ _ _ _ _ Hsf w Hw).
  - intros c Hin. destruct (mapM_in _ _ _ _ Hx Hin) as [x [_ Hsx]].
    destruct (sem_crossing_inv _ _ _ _ _ _ Hsx) as (Hne & mult & fs & _ & Hfs & ->). cbn [c_chunk c_factors].
    split; [lia|]. intros f Hfin. eapply mapM_pos_lt; eauto.
  - intros k Hin. apply in_app_or in Hin. destruct Hin as [Hin|Hin].
    + destruct (constraints_in _ _ _ _ _ _ _ _ Hc Hin) as (csc & c & ks & Hcsc & Hsem & Hk).
      destruct (sem_constraint_inv _ _ _ _ _ _ _ _ _ Hsem Hk) as (wins & scale & fid & Hws & Hw & Hkd & Hpos & _).
      split; [exact (proj1 (pos_of_nth _ _ _ Hpos))|]. split; [exact Hkd|].
      rewrite Forall_forall in Hsc. intros w Hin'. destruct Hw as [E|E]; rewrite E in Hin'; [|contradiction].
      exact (scope_windows_good _ _ _ _ (Hsc _ Hcsc) HT Hws w Hin').
    + destruct (_ && _) eqn:E; [|contradiction]. destruct Hin as [<-|[]]. cbn.
      apply andb_true_iff in E. destruct E as [_ E]. split; [destruct forder; [discriminate|cbn; lia]|].
      split; [exact I|]. intros w [<-|[]]. split; cbn; lia.
Qed.

Theorem doc_sem_block_wf : forall p b ds, doc_sem_block p b = Ok ds ->
  wf_sem (ds_sem ds) /\ ds_T ds = s_trials (ds_sem ds) /\ List.length (ds_forder ds) = List.length (s_factors (ds_sem ds)).
Proof.
  intros p b ds H. unfold doc_sem_block in H. inv_bind H as bd Hbd H.
  destruct (doc_block_inv _ _ _ Hbd) as [HT Hsc].
  destruct (sem_of_block_wf _ _ _ HT Hsc H) as [H1 [H2 [_ H3]]]. split; [assumption|split; assumption].
Qed.

Theorem doc_sem_wf : forall p ds, doc_sem p = Ok ds -> wf_sem (ds_sem ds).
Proof. intros p ds H. apply (doc_sem_block_wf p (p_main p) ds H). Qed.

(** * (b) the documented laws, about [doc_sem] itself *)

(** ** CrossBlock(d, c, cs, rcc) is MultiCrossBlock(d, [c], cs, rcc, WEIGHT) (EQUAL_PREAMBLE) *)
Theorem cross_is_multi_weight : forall p d c cs rcc,
  doc_sem_block p (PCross d c cs rcc) = doc_sem_block p (PMulti d [c] cs rcc DWeight EqualPreamble).
Proof. reflexivity. Qed.

(** ** MinimumTrials: the trial count is monotone in the bound and reaches it *)
Lemma round_up_ceil : forall su m, 0 < su -> round_up su m = ceil_div m su * su.
Proof.
  intros su m Hs. unfold round_up, ceil_div.
  pose proof (Nat.div_mod m su ltac:(lia)) as D. pose proof (Nat.mod_upper_bound m su ltac:(lia)) as B.
  destruct (Nat.eqb_spec (m mod su) 0) as [Z|Z].
  - rewrite <- (Nat.div_unique (m + su - 1) su (m / su) (su - 1)); lia.
  - rewrite <- (Nat.div_unique (m + su - 1) su (m / su + 1) (m mod su - 1)); lia.
Qed.

Lemma round_up_mono : forall su m m', m <= m' -> round_up su m <= round_up su m'.
Proof.
  intros su m m' H. destruct su as [|k]; [unfold round_up; destruct m, m'; cbn; lia|].
  rewrite !round_up_ceil by lia. apply Nat.mul_le_mono_r. unfold ceil_div. apply Nat.div_le_mono; lia.
Qed.

Lemma finish_T_mono : forall al cs m m', m <= m' -> finish_T al cs m <= finish_T al cs m'.
Proof.
  intros al cs m m' H. unfold finish_T.
  assert (G : fold_left (fun m c => round_up (x_su c) m) cs m <= fold_left (fun m c => round_up (x_su c) m) cs m').
  { revert m m' H. induction cs as [|c cs IH]; intros m m' H; cbn [fold_left]; [exact H|]. apply IH. apply round_up_mono. exact H. }
  unfold round_up in G. lia.
Qed.

Lemma finish_T_ge_su1 : forall al cs m, Forall (fun c => x_su c = 1) cs -> m <= finish_T al cs m.
Proof.
  intros al cs m H. unfold finish_T.
  assert (G : fold_left (fun m c => round_up (x_su c) m) cs m = m).
  { revert m. induction H as [|c cs Hc _ IH]; intros m; cbn [fold_left]; [reflexivity|].
    unfold round_up at 2. rewrite Hc, Nat.mod_1_r. apply IH. }
  unfold round_up in G. rewrite G. lia.
Qed.

Lemma list_max_cons : forall n l, list_max (n :: l) = Nat.max n (list_max l).
Proof. reflexivity. Qed.

(** the trial count of a (Multi)CrossBlock as a function of its constraint list *)
Lemma doc_cross_T : forall p d crs cs rcc mode al bd, doc_cross p d crs cs rcc mode al = Ok bd ->
  exists xs, mapM (doc_crossing p (b_design bd) (excludes_of cs) rcc) (filter nonempty crs) = Ok xs /\
             b_T bd = finish_T al xs (list_max (min_trials_of cs)).
Proof.
  intros p d crs cs rcc mode al bd H.
  destruct (doc_cross_spec _ _ _ _ _ _ _ _ H) as ([HT _ _ _ _] & _ & _ & Hal & Hm & xs & Hxs & Hg & _).
  exists xs. split; [exact Hxs|]. rewrite HT, Hal, Hm. apply finish_T_geom. exact Hg.
Qed.

Lemma doc_cross_design : forall p d crs cs cs' rcc mode al bd bd',
  doc_cross p d crs cs rcc mode al = Ok bd -> doc_cross p d crs cs' rcc mode al = Ok bd' -> b_design bd = b_design bd'.
Proof.
  intros p d crs cs cs' rcc mode al bd bd' H H'. unfold doc_cross in H, H'.
  inv_bind H as k1 Hk1 H. inv_bind H' as k2 Hk2 H'. rewrite Hk1 in Hk2. apply Ok_inj in Hk2. subst k2.
  inv_bind H as x1 Hx1 H. inv_bind H as b1 Hb1 H. inv_bind H' as x2 Hx2 H'. inv_bind H' as b2 Hb2 H'.
  apply finish_fin in Hb1, Hb2. apply Ok_inj in H, H'. subst bd bd'. cbn [b_design] in *.
  destruct Hb1 as (_ & _ & _ & _ & -> & _). destruct Hb2 as (_ & _ & _ & _ & -> & _). reflexivity.
Qed.

Theorem minimum_trials_monotone : forall p d crs cs rcc mode al n n' bd bd',
  n <= n' ->
  doc_cross p d crs (PMinimumTrials n :: cs) rcc mode al = Ok bd ->
  doc_cross p d crs (PMinimumTrials n' :: cs) rcc mode al = Ok bd' ->
  n <= b_T bd /\ b_T bd <= b_T bd'.
Proof.
  intros p d crs cs rcc mode al n n' bd bd' Hn H H'.
  pose proof (doc_cross_design _ _ _ _ _ _ _ _ _ _ H H') as Hdes.
  destruct (doc_cross_T _ _ _ _ _ _ _ _ H) as [xs [Hxs HT]].
  destruct (doc_cross_T _ _ _ _ _ _ _ _ H') as [xs' [Hxs' HT']].
  cbn [excludes_of flat_map app] in Hxs, Hxs'. rewrite <- Hdes in Hxs'. rewrite Hxs in Hxs'. apply Ok_inj in Hxs'. subst xs'.
  cbn [min_trials_of flat_map app] in HT, HT'. rewrite list_max_cons in HT, HT'. rewrite HT, HT'.
  assert (Hsu : Forall (fun c => x_su c = 1) xs).
  { apply Forall_forall. intros x Hx. destruct (mapM_in _ _ _ _ Hxs Hx) as [cr [_ Hcr]].
    destruct (doc_crossing_inv _ _ _ _ _ _ Hcr) as (? & ? & ? & _ & _ & _ & ->). reflexivity. }
  split.
  - pose proof (finish_T_ge_su1 al xs (Nat.max n (list_max (flat_map (fun c => match c with PMinimumTrials n0 => [n0] | _ => [] end) cs))) Hsu). lia.
  - apply finish_T_mono. lia.
Qed.

(** the same for the programs themselves: [CrossBlock(d, c, MinimumTrials(n) :: cs, rcc)] *)
Theorem minimum_trials_cross : forall p d c cs rcc n n' ds ds',
  n <= n' ->
  doc_sem_block p (PCross d c (PMinimumTrials n :: cs) rcc) = Ok ds ->
  doc_sem_block p (PCross d c (PMinimumTrials n' :: cs) rcc) = Ok ds' ->
  n <= s_trials (ds_sem ds) /\ s_trials (ds_sem ds) <= s_trials (ds_sem ds').
Proof.
  intros p d c cs rcc n n' ds ds' Hn H H'. unfold doc_sem_block in H, H'. cbn [doc_block] in H, H'.
  inv_bind H as bd Hbd H. inv_bind H' as bd' Hbd' H'.
  destruct (sem_of_block_inv _ _ _ H) as (? & ? & ? & ? & ? & _ & _ & _ & _ & _ & ->).
  destruct (sem_of_block_inv _ _ _ H') as (? & ? & ? & ? & ? & _ & _ & _ & _ & _ & ->).
  cbn [ds_sem s_trials]. eapply minimum_trials_monotone; eauto.
Qed.

(** ** Repeat(b, []) and Merge([b]) denote what b denotes *)

(** *** one repetition window over the whole block is the block's own scope *)
Lemma rep_step_id : forall base T, (forall w, In w base -> wf_window T w) ->
  flat_map (fun ab : nat * nat => if 0 + fst ab <? Nat.min (0 + snd ab) T then [(0 + fst ab, Nat.min (0 + snd ab) T)] else [])
           base = base.
Proof.
  induction base as [|[a b] base IH]; intros T Hw; [reflexivity|]. cbn [flat_map fst snd].
  destruct (Hw (a, b) (or_introl eq_refl)) as [Hab HbT]. cbn [fst snd] in Hab, HbT.
  rewrite !Nat.add_0_l. rewrite (Nat.min_l b T HbT). replace (a <? b) with true by (symmetry; apply Nat.ltb_lt; lia).
  cbn [app]. f_equal. apply IH. intros w Hin. apply Hw. right. exact Hin.
Qed.

Lemma rep_windows_id : forall base T P, 0 < T -> P < T -> (forall w, In w base -> wf_window T w) ->
  rep_windows (S T) base (T - P) T P 0 = base.
Proof.
  intros base T P HT HP Hw. cbn [rep_windows]. replace (0 <? T - P) with true by (symmetry; apply Nat.ltb_lt; lia).
  rewrite (rep_step_id base T Hw). destruct T as [|T']; [lia|]. cbn [rep_windows].
  rewrite Nat.add_0_l, Nat.ltb_irrefl. apply app_nil_r.
Qed.

Lemma scope_windows_rep : forall sc T P, top_scope sc -> 0 < T -> P < T ->
  scope_windows (ScRep sc T P 0) T = scope_windows sc T.
Proof.
  intros sc T P Ht HT HP. cbn [scope_windows]. destruct (scope_windows sc T) as [[base scale]|e|w] eqn:E; cbn [bind]; try reflexivity.
  replace (T <=? P) with false by (symmetry; apply Nat.leb_gt; lia).
  rewrite rep_windows_id; [reflexivity|assumption|assumption|]. eapply scope_windows_good; eauto.
Qed.

Definition with_constraints (bd : blockdoc) (cs : list (pcons * scope)) : blockdoc :=
  {| b_design := b_design bd; b_crossings := b_crossings bd; b_T := b_T bd; b_P := b_P bd;
     b_constraints := cs; b_min_trials := b_min_trials bd; b_alignment := b_alignment bd;
     b_sustain := b_sustain bd; b_rcc := b_rcc bd |}.

(** [sem_of_block] reads the constraint list only through the semantic constraints it yields *)
Lemma sem_of_block_constraints_congr : forall p bd cs' ds,
  (forall forder maxp, mapM (sem_scoped p bd forder maxp (b_T bd)) cs' = mapM (sem_scoped p bd forder maxp (b_T bd)) (b_constraints bd)) ->
  sem_of_block p bd = Ok ds ->
  exists ds', sem_of_block p (with_constraints bd cs') = Ok ds' /\
              ds_sem ds' = ds_sem ds /\ ds_forder ds' = ds_forder ds /\ ds_T ds' = ds_T ds /\ ds_unsat ds' = ds_unsat ds.
Proof.
  intros p bd cs' ds E H. unfold sem_of_block in H |- *.
  change (b_design (with_constraints bd cs')) with (b_design bd).
  inv_bind H as kinds Hk H. rewrite Hk. cbn [bind]. destruct (negb _); [discriminate|].
  inv_bind H as depths Hd H. rewrite Hd. cbn [bind].
  inv_bind H as factors Hf H. inv_bind H as crossings Hx H. inv_bind H as kss Hc H.
  apply Ok_inj in H. subst ds. eexists. split.
  - (* the steps before the constraints do not mention the constraint list *)
    eapply bind_intro; [exact Hf|]. eapply bind_intro; [exact Hx|]. eapply bind_intro; [exact (eq_trans (E _ _) Hc)|]. reflexivity.
  - repeat split; reflexivity.
Qed.

Definition rescope (bd : blockdoc) : list (pcons * scope) :=
  map (fun csc => (fst csc, ScRep (snd csc) (b_T bd) (b_P bd) 0)) (b_constraints bd).

(** [sem_of_block] does not see the difference *)
Lemma sem_of_block_rescope : forall p bd ds,
  fin bd -> 0 < b_T bd -> b_P bd < b_T bd ->
  sem_of_block p bd = Ok ds ->
  exists ds', sem_of_block p (with_constraints bd (rescope bd)) = Ok ds' /\
              ds_sem ds' = ds_sem ds /\ ds_forder ds' = ds_forder ds /\ ds_T ds' = ds_T ds /\ ds_unsat ds' = ds_unsat ds.
Proof.
  intros p bd ds Hfin HT HP. apply sem_of_block_constraints_congr. intros forder maxp.
  unfold rescope. rewrite mapM_map. apply mapM_ext. intros csc Hin. unfold sem_scoped. cbn [fst snd].
  destruct (expand_constraint p (fst csc)) as [cs|e|w]; cbn [bind]; try reflexivity.
  f_equal. apply mapM_ext. intros c _.
  unfold sem_constraint. rewrite scope_windows_rep; [reflexivity| |assumption|assumption].
  pose proof (fin_top _ Hfin) as Htop. rewrite Forall_forall in Htop. apply (Htop csc Hin).
Qed.

Lemma alignment_eqb_refl : forall a, alignment_eqb a a = true.
Proof. destruct a; reflexivity. Qed.

(** the [Merge] of one block, in REPEAT mode and with the block's own alignment *)
Lemma merge_single : forall inner, fin inner -> NoDup (b_design inner) ->
  merge [inner] [] DRepeat (b_alignment inner) false = Ok (with_constraints inner (rescope inner)).
Proof.
  intros inner [HT HP Hep Hk Htop] Hnd. destruct inner as [d cs T P k m al su rcc].
  cbn [b_design b_crossings b_T b_P b_constraints b_min_trials b_alignment b_sustain b_rcc] in *.
  unfold merge, finish, with_constraints, rescope. cbv zeta.
  cbn [b_design b_crossings b_T b_P b_constraints b_min_trials b_alignment b_sustain b_rcc
       forallb negb andb flat_map fold_left map app min_trials_of own_constraints filter].
  rewrite alignment_eqb_refl. cbn [negb andb]. rewrite !app_nil_r.
  fold (ep_check al cs). rewrite Hep. cbn [bind].
  cbn [b_design b_crossings b_T b_P b_constraints b_min_trials b_alignment b_sustain b_rcc].
  f_equal. f_equal.
  - apply (add_new_fresh d []). exact Hnd.
  - rewrite HT. cbn [list_max fold_right]. rewrite Nat.max_0_r. reflexivity.
  - rewrite HP. reflexivity.
  - rewrite !app_nil_r. destruct al; try reflexivity.
    unfold block_P in HP. rewrite <- HP, Nat.sub_diag. reflexivity.
  - cbn [list_max fold_right]. apply Nat.max_0_r.
  - apply (dict_update_fresh su []). exact Hk.
  - apply andb_true_r.
Qed.

(** *** the preamble is shorter than the block *)
Lemma list_max_in : forall x l, In x l -> x <= list_max l.
Proof. intros x l H. pose proof (proj1 (list_max_le l (list_max l)) (le_n _)) as F. rewrite Forall_forall in F. apply F. exact H. Qed.

Lemma suP_max : forall cs, Forall suP cs -> list_max (map (fun c => x_P c * x_su c) cs) <= list_max (map x_P cs).
Proof.
  induction cs as [|c cs IH]; intro H; [cbn; lia|]. inversion H as [|c' cs' Hc Hcs]; subst. specialize (IH Hcs).
  change (Nat.max (x_P c * x_su c) (list_max (map (fun c => x_P c * x_su c) cs)) <= Nat.max (x_P c) (list_max (map x_P cs))).
  destruct Hc as [E|E]; rewrite E; lia.
Qed.

Lemma preamble_lt_trials : forall p bd ds, fin bd -> Forall suP (b_crossings bd) ->
  sem_of_block p bd = Ok ds -> b_P bd < b_T bd.
Proof.
  intros p bd ds [HT HP _ _ _] HsuP H. rewrite HT, HP. destruct (b_crossings bd) as [|c0 cs] eqn:Ecs.
  - unfold block_P. destruct (b_alignment bd); cbn [map list_max fold_right]; apply finish_T_pos.
  - destruct (sem_of_block_inv _ _ _ H) as (? & ? & ? & crossings & ? & _ & _ & _ & Hx & _).
    rewrite Ecs in Hx. cbn [mapM] in Hx. inv_bind Hx as y Hy Hx. apply sem_crossing_inv in Hy. destruct Hy as [E _].
    assert (HS : 0 < x_S c0 * x_su c0) by (clear -E; lia).
    unfold finish_T, block_P. clear -HS HsuP. destruct (b_alignment bd).
    + pose proof (suP_max _ HsuP) as M.
      assert (x_S c0 * x_su c0 <= list_max (map (fun c => x_S c * x_su c) (c0 :: cs))) by (cbn [map list_max fold_right]; lia).
      lia.
    + cbn [map list_max fold_right]. lia.
    + cbn [map list_max fold_right]. lia.
Qed.

(** Merge([b]) (REPEAT mode, b's own alignment) and Repeat(b, []) have the semantic normal form
    of b itself, whenever b has one (design without repeated factors) *)
Theorem merge_one_same : forall p b bd ds,
  doc_block p b = Ok bd -> sem_of_block p bd = Ok ds -> NoDup (b_design bd) ->
  exists ds', doc_sem_block p (PMerge [b] [] DRepeat None) = Ok ds' /\
              ds_sem ds' = ds_sem ds /\ ds_forder ds' = ds_forder ds /\ ds_T ds' = ds_T ds /\ ds_unsat ds' = ds_unsat ds.
Proof.
  intros p b bd ds Hbd Hds Hnd. pose proof (doc_block_fin _ _ _ Hbd) as Hfin.
  destruct (doc_block_inv _ _ _ Hbd) as [HT _].
  unfold doc_sem_block. cbn [doc_block]. rewrite Hbd. cbn [bind]. rewrite (merge_single bd Hfin Hnd). cbn [bind].
  apply sem_of_block_rescope; try assumption. eapply preamble_lt_trials; eauto. eapply doc_block_suP; eauto.
Qed.

Theorem repeat_nil_same : forall p b bd ds,
  doc_block p b = Ok bd -> sem_of_block p bd = Ok ds ->
  b_alignment bd = EqualPreamble -> NoDup (b_design bd) ->
  exists ds', doc_sem_block p (PRepeat b []) = Ok ds' /\
              ds_sem ds' = ds_sem ds /\ ds_forder ds' = ds_forder ds /\ ds_T ds' = ds_T ds /\ ds_unsat ds' = ds_unsat ds.
Proof.
  intros p b bd ds Hbd Hds Hal Hnd. pose proof (doc_block_fin _ _ _ Hbd) as Hfin.
  destruct (doc_block_inv _ _ _ Hbd) as [HT _].
  unfold doc_sem_block. cbn [doc_block]. rewrite Hbd. cbn [bind]. rewrite <- Hal. rewrite (merge_single bd Hfin Hnd). cbn [bind].
  apply sem_of_block_rescope; try assumption. eapply preamble_lt_trials; eauto. eapply doc_block_suP; eauto.
Qed.

(** ... hence the same valid sequences *)
Corollary repeat_nil_valid : forall p b ds,
  doc_sem_block p b = Ok ds -> b_alignment (ds_block ds) = EqualPreamble -> NoDup (b_design (ds_block ds)) ->
  exists ds', doc_sem_block p (PRepeat b []) = Ok ds' /\ forall s, valid_b (ds_sem ds') s = valid_b (ds_sem ds) s.
Proof.
  intros p b ds H Hal Hnd. unfold doc_sem_block in H. inv_bind H as bd Hbd H.
  rewrite (proj1 (sem_of_block_block _ _ _ H)) in Hal, Hnd. destruct (repeat_nil_same p b bd ds Hbd H Hal Hnd) as [ds' [H1 [H2 _]]].
  exists ds'. split; [exact H1|]. intro s. rewrite H2. reflexivity.
Qed.

Corollary merge_one_valid : forall p b ds,
  doc_sem_block p b = Ok ds -> NoDup (b_design (ds_block ds)) ->
  exists ds', doc_sem_block p (PMerge [b] [] DRepeat None) = Ok ds' /\ forall s, valid_b (ds_sem ds') s = valid_b (ds_sem ds) s.
Proof.
  intros p b ds H Hnd. unfold doc_sem_block in H. inv_bind H as bd Hbd H.
  rewrite (proj1 (sem_of_block_block _ _ _ H)) in Hnd. destruct (merge_one_same p b bd ds Hbd H Hnd) as [ds' [H1 [H2 _]]].
  exists ds'. split; [exact H1|]. intro s. rewrite H2. reflexivity.
Qed.

(** ** weights multiply: the multiplicity of a combination is the product of its level weights
    ([combo_weight]) times the crossing weight times the sustain count *)
Lemma names_eqb_eq : forall a b, names_eqb a b = true -> a = b.
Proof. apply list_eqb_sound. intros x y. apply String.eqb_eq. Qed.

Lemma names_eqb_refl : forall a, names_eqb a a = true.
Proof. apply list_eqb_refl, String.eqb_refl. Qed.

Lemma dict_set_in : forall {K V} (eqb : K -> K -> bool), (forall x y, eqb x y = true -> x = y) ->
  forall k (v : V) d k' v', In (k', v') (dict_set eqb k v d) -> In (k', v') d \/ (k' = k /\ v' = v).
Proof.
  intros K V eqb Heq k v d k' v'. induction d as [|[k0 v0] d IH]; cbn; intro H.
  - destruct H as [H|[]]. injection H as <- <-. right. split; reflexivity.
  - destruct (eqb k k0) eqn:E.
    + destruct H as [H|H]; [|left; right; exact H]. injection H as <- <-. apply Heq in E. right. split; congruence.
    + destruct H as [H|H]; [left; left; exact H|]. destruct (IH H) as [H'|H']; [left; right; exact H'|right; exact H'].
Qed.

(** the fold of [all_combos] and [feasible_combos]: a property of the entries that every new
    entry has holds of all *)
Lemma fold_combos_inv : forall p cr (I : list name * nat -> Prop) l d0 d,
  fold_left (fun acc combo => d <- acc ;; w <- combo_weight p cr combo ;; Ok (dict_set names_eqb combo w d)) l (Ok d0) = Ok d ->
  (forall kv, In kv d0 -> I kv) -> (forall c w, In c l -> combo_weight p cr c = Ok w -> I (c, w)) ->
  forall kv, In kv d -> I kv.
Proof.
  intros p cr I l d0 d H H0 Hl.
  refine (fold_res_inv _ (fun d => forall kv, In kv d -> I kv) _ _ l _ d0 d H H0); try reflexivity.
  intros a x b Hx Ha E [k v] Hin. cbn [bind] in E. inv_bind E as w Hw E. apply Ok_inj in E. subst b.
  apply (dict_set_in _ names_eqb_eq) in Hin. destruct Hin as [Hin|[-> ->]]; [exact (Ha _ Hin)|exact (Hl _ _ Hx Hw)].
Qed.

Theorem all_combos_weight : forall p cr d combo w,
  all_combos p cr = Ok d -> In (combo, w) d -> combo_weight p cr combo = Ok w.
Proof.
  intros p cr d combo w H Hin. unfold all_combos in H. inv_bind H as doms Hd H.
  refine (fold_combos_inv p cr (fun kv => combo_weight p cr (fst kv) = Ok (snd kv)) _ _ _ H _ _ (combo, w) Hin);
    [intros kv []|intros c w' _ Hw; exact Hw].
Qed.

Lemma in_insert_by : forall {A} (leb : A -> A -> bool) x y l, In y (insert_by leb x l) <-> y = x \/ In y l.
Proof.
  intros A leb x y l. induction l as [|z l IH]; cbn [insert_by]; [cbn; intuition congruence|].
  destruct (leb z x); cbn [In]; [rewrite IH|]; intuition congruence.
Qed.

Lemma in_sort_by : forall {A} (leb : A -> A -> bool) l y, In y (sort_by leb l) <-> In y l.
Proof.
  intros A leb l y. unfold sort_by.
  assert (G : forall acc, In y (fold_left (fun acc x => insert_by leb x acc) l acc) <-> In y acc \/ In y l).
  { induction l as [|x l IH]; intro acc; cbn [fold_left In]; [tauto|]. rewrite IH, in_insert_by. intuition congruence. }
  rewrite G. cbn [In]. tauto.
Qed.

(** an entry of the multiplicity list of a crossing *)
Lemma sem_crossing_mult : forall p bd forder maxp c dc idx m,
  sem_crossing p bd forder maxp c = Ok dc -> In (idx, m) (c_mult dc) ->
  exists combo w, In (combo, w) (x_combos c) /\ m = w * x_cw c * x_su c /\
    mapM (fun fn => level_index p (fst fn) (snd fn)) (combine (x_factors c) combo) = Ok idx.
Proof.
  intros p bd forder maxp c dc idx m H Hin.
  destruct (sem_crossing_inv _ _ _ _ _ _ H) as (_ & mult & fs & Hm & _ & ->). cbn [c_mult] in Hin.
  destruct (mapM_in _ _ _ _ Hm Hin) as [[combo w] [Hcw Hx]]. apply in_sort_by in Hcw.
  inv_bind Hx as idx' Hidx Hx. apply Ok_inj in Hx. injection Hx as <- <-. exists combo, w. auto.
Qed.

Theorem crossing_multiplicity : forall p bd forder maxp c dc idx m,
  sem_crossing p bd forder maxp c = Ok dc -> In (idx, m) (c_mult dc) ->
  exists combo w, In (combo, w) (x_combos c) /\ m = w * x_cw c * x_su c.
Proof.
  intros p bd forder maxp c dc idx m H Hin.
  destruct (sem_crossing_mult _ _ _ _ _ _ _ _ H Hin) as (combo & w & H1 & H2 & _). eauto.
Qed.

(** for a crossing whose every combination is required ([require_complete_crossing]) *)
Theorem crossing_multiplicity_rcc : forall p d ex cr x bd forder maxp dc idx m,
  doc_crossing p d ex true cr = Ok x -> sem_crossing p bd forder maxp x = Ok dc -> In (idx, m) (c_mult dc) ->
  exists combo w, combo_weight p cr combo = Ok w /\ m = w * x_cw x * x_su x.
Proof.
  intros p d ex cr x bd forder maxp dc idx m Hx Hdc Hin.
  destruct (crossing_multiplicity _ _ _ _ _ _ _ _ Hdc Hin) as [combo [w [Hc Hm]]].
  destruct (doc_crossing_inv _ _ _ _ _ _ Hx) as (allc & ? & ? & Ha & _ & _ & ->). cbn [x_combos] in Hc.
  exists combo, w. split; [|exact Hm]. eapply all_combos_weight; eauto.
Qed.

(** * more well-formedness: constraint levels are levels of the constrained factor *)
Lemma index_of_lt : forall {A} (eqb : A -> A -> bool) x l i, index_of eqb x l = Some i -> i < List.length l.
Proof.
  intros A eqb x l. induction l as [|y l IH]; intros i H; cbn in H; [discriminate|].
  destruct (eqb x y); [injection H as <-; cbn; lia|]. destruct (index_of eqb x l) as [j|]; [|discriminate].
  injection H as <-. cbn. specialize (IH j eq_refl). lia.
Qed.

Lemma level_names_nlevels : forall fd ns, level_names fd = Ok ns -> nlevels fd = Ok (List.length ns).
Proof.
  intros fd ns H. unfold level_names, nlevels in *. destruct (pf_kind fd); try discriminate; apply Ok_inj in H; subst ns; rewrite map_length; reflexivity.
Qed.

Lemma level_index_lt : forall p fid ln li, level_index p fid ln = Ok li ->
  exists fd n, fm p fid = Ok fd /\ nlevels fd = Ok n /\ li < n.
Proof.
  intros p fid ln li H. unfold level_index in H. inv_bind H as fd Hfd H. inv_bind H as ns Hns H.
  unfold of_option in H. destruct (index_of String.eqb ln ns) as [i|] eqn:E; [|discriminate]. apply Ok_inj in H. subst i.
  exists fd, (List.length ns). split; [exact Hfd|]. split; [apply level_names_nlevels; exact Hns|eapply index_of_lt; eauto].
Qed.

Definition dfactor0 : dfactor := {| f_nlevels := 0; f_sustain := 0; f_derived := None |}.

Definition level_ok (S : sem) (k : dconstraint) : Prop :=
  k_level k = 0 \/ k_level k < f_nlevels (nth (k_factor k) (s_factors S) dfactor0).

Lemma level_lt_at : forall p bd forder factors fid ln pf li,
  mapM (sem_factor p bd forder) forder = Ok factors ->
  pos_of forder fid = Ok pf -> level_index p fid ln = Ok li -> li < f_nlevels (nth pf factors dfactor0).
Proof.
  intros p bd forder factors fid ln pf li Hf Hpf Hli. destruct (pos_of_nth _ _ _ Hpf) as [Hlt Hnth].
  pose proof (mapM_nth _ _ _ 0 dfactor0 pf Hf Hlt) as Hsf. rewrite Hnth in Hsf.
  destruct (sem_factor_inv _ _ _ _ _ Hsf) as (fd & E1 & E2 & _).
  destruct (level_index_lt _ _ _ _ Hli) as [fd' [n [E1' [E2' Hlt']]]]. rewrite E1 in E1'. apply Ok_inj in E1'. subst fd'.
  rewrite E2 in E2'. apply Ok_inj in E2'. subst. exact Hlt'.
Qed.

Theorem doc_sem_levels : forall p ds, doc_sem p = Ok ds ->
  forall k, In k (s_constraints (ds_sem ds)) -> level_ok (ds_sem ds) k.
Proof.
  intros p ds H k Hin. unfold doc_sem, doc_sem_block in H. inv_bind H as bd Hbd H.
  destruct (sem_of_block_inv _ _ _ H) as (depths & forder & factors & crossings & kss & _ & _ & Hf & _ & Hc & ->).
  unfold level_ok. cbv zeta in Hin |- *. cbn [ds_sem s_constraints s_factors] in Hin |- *.
  apply in_app_or in Hin. destruct Hin as [Hin|Hin].
  - destruct (constraints_in _ _ _ _ _ _ _ _ Hc Hin) as (csc & c & ks & _ & Hsem & Hk).
    destruct (sem_constraint_inv _ _ _ _ _ _ _ _ _ Hsem Hk) as (_ & _ & fid & _ & _ & _ & Hpos & [Z|[ln Hli]] & _); [left; exact Z|].
    right. exact (level_lt_at _ _ _ _ _ _ _ _ Hf Hpos Hli).
  - destruct (_ && _); [|contradiction]. destruct Hin as [<-|[]]. left. reflexivity.
Qed.

(** * more well-formedness: sustain counts are positive *)
Lemma doc_block_sustain_pos : forall p b bd, doc_block p b = Ok bd -> Forall (fun kv : nat * nat => 0 < snd kv) (b_sustain bd).
Proof.
  intros p. apply (doc_block_merge_ind p (fun bd => Forall (fun kv : nat * nat => 0 < snd kv) (b_sustain bd))).
  - intros d crs cs rcc mode al bd H. destruct (doc_cross_spec _ _ _ _ _ _ _ _ H) as (_ & _ & -> & _). constructor.
  - intros inners cs mode al nest bd H Hin. destruct (merge_spec _ _ _ _ _ _ H) as (_ & _ & _ & _ & -> & _).
    apply (fold_left_inv _ (Forall (fun kv : nat * nat => 0 < snd kv))); [|constructor].
    rewrite Forall_forall in Hin. intros d b Hb Hd. apply (dict_update_vals (fun n => 0 < n)); auto.
  - intros o outer n Ho IHo _ Hn. pose proof (doc_block_su_crossings _ _ _ Ho) as Hoc. rewrite Forall_forall in Hoc.
    cbn [scale_outer b_sustain]. apply (fold_left_inv _ (Forall (fun kv : nat * nat => 0 < snd kv))).
    { intros d c Hc Hd. apply (fold_left_inv _ (Forall (fun kv : nat * nat => 0 < snd kv))); [|exact Hd].
      intros d' f _ Hd'. apply (dict_set_vals (fun n => 0 < n)); [exact Hd'|apply Nat.mul_pos_pos; auto]. }
    apply Forall_forall. intros kv Hkv. apply in_map_iff in Hkv. destruct Hkv as [[f m] [<- Hfn]]. cbn [fst snd].
    rewrite Forall_forall in IHo. apply Nat.mul_pos_pos; [exact (IHo (f, m) Hfn)|exact Hn].
Qed.

Theorem doc_sem_sustain_pos : forall p ds, doc_sem p = Ok ds ->
  forall fd, In fd (s_factors (ds_sem ds)) -> 0 < f_sustain fd.
Proof.
  intros p ds H fd Hin. unfold doc_sem, doc_sem_block in H. inv_bind H as bd Hbd H.
  pose proof (doc_block_sustain_pos _ _ _ Hbd) as Hsu.
  destruct (sem_of_block_inv _ _ _ H) as (? & ? & factors & ? & ? & _ & _ & Hf & _ & _ & ->).
  cbv zeta in Hin. cbn [ds_sem s_factors] in Hin. destruct (mapM_in _ _ _ _ Hf Hin) as [f [_ Hsf]].
  destruct (sem_factor_inv _ _ _ _ _ Hsf) as (_ & _ & _ & -> & _).
  unfold sustain_get. destruct (dict_get Nat.eqb f (b_sustain bd)) as [n|] eqn:E; [|lia].
  unfold dict_get in E. destruct (find _ _) as [[k v]|] eqn:Ef; [|discriminate]. apply find_some in Ef. destruct Ef as [Ef _].
  cbn in E. injection E as ->. rewrite Forall_forall in Hsu. exact (Hsu _ Ef).
Qed.
