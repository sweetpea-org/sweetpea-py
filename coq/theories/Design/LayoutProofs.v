(** Proofs about the variable layout (Design/Layout.v), property C14:
    [encode_variable] is injective on the applicable (factor, level, trial)
    triples, its image is exactly 1..variables_per_sample, and
    [decode_variable] inverts it. *)
From Coq Require Import List Bool Arith Lia.
From SP Require Import Base.Lists Design.Flat Design.Layout Design.LayoutWf.
Import ListNotations.

Lemma sum_scaled {A} (h k : A -> nat) (c : nat) (l : list A) :
  (forall x, In x l -> h x = k x * c) -> list_sum (map h l) = c * list_sum (map k l).
Proof. intros H. rewrite (map_ext_in h (fun x => k x * c) l H), list_sum_scale. apply Nat.mul_comm. Qed.

Lemma filter_cons_true {A} (p : A -> bool) (x : A) (l : list A) :
  p x = true -> filter p (x :: l) = x :: filter p l.
Proof. intros H. simpl. rewrite H. reflexivity. Qed.

Lemma nodupb_NoDup (l : list nat) : nodupb l = true -> NoDup l.
Proof. exact (nodup_b_sound Nat.eqb nodupb Nat.eqb_refl (fun _ _ => eq_refl) l). Qed.

(** the offset of a factor in a block of variables, simple or complex: the sum of the sizes of
    the factors listed before it *)
Fixpoint pre (sz : nat -> nat) (fs : list nat) (f : nat) : nat :=
  match fs with
  | [] => 0
  | g :: gs => if g =? f then 0 else sz g + pre sz gs f
  end.

Lemma pre_bound : forall sz fs f, In f fs -> pre sz fs f + sz f <= list_sum (map sz fs).
Proof.
  induction fs as [|g fs IH]; intros f Hin; [contradiction|].
  cbn [pre map]. change (list_sum (sz g :: map sz fs)) with (sz g + list_sum (map sz fs)). destruct (g =? f) eqn:E.
  - apply Nat.eqb_eq in E. subst g. lia.
  - destruct Hin as [Hin|Hin]; [subst g; rewrite Nat.eqb_refl in E; discriminate|].
    specialize (IH f Hin). lia.
Qed.

Lemma pre_disjoint : forall sz fs f f', In f fs -> In f' fs -> f <> f' ->
  pre sz fs f + sz f <= pre sz fs f' \/ pre sz fs f' + sz f' <= pre sz fs f.
Proof.
  induction fs as [|g fs IH]; intros f f' Hin Hin' Hne; [contradiction|].
  cbn [pre]. destruct (g =? f) eqn:E; destruct (g =? f') eqn:E'.
  - apply Nat.eqb_eq in E. apply Nat.eqb_eq in E'. congruence.
  - apply Nat.eqb_eq in E. subst g. left. lia.
  - apply Nat.eqb_eq in E'. subst g. right. lia.
  - destruct Hin as [Hin|Hin]; [subst g; rewrite Nat.eqb_refl in E; discriminate|].
    destruct Hin' as [Hin'|Hin']; [subst g; rewrite Nat.eqb_refl in E'; discriminate|].
    destruct (IH f f' Hin Hin' Hne); [left|right]; lia.
Qed.

Section LayoutProofs.
Variable fb : flat.

Notation A := (fl_act fb).
Notation SA := (simple_act fb).
Notation CA := (complex_act fb).
Notation T := (fl_trials fb).
Notation nl := (nlevels fb).
Notation vpt := (variables_per_trial fb).
Notation grid := (grid_variables fb).
Notation vps := (variables_per_sample fb).
Notation vff := (fun f => variables_for_factor fb f 0 0).

Definition count (f : nat) : nat := length (filter (applies_at fb f) (seq 1 T)).

(** an applicable choice: a level of a factor of [act_design] at a trial (1-based)
    of the sequence to which the factor applies *)
Definition applicable (f l t : nat) : Prop :=
  In f A /\ l < nl f /\ 1 <= t <= T /\ applies_at fb f t = true.

Lemma vpt_sum : vpt = list_sum (map nl SA).
Proof. unfold variables_per_trial. rewrite fold_add_sum. reflexivity. Qed.

Lemma vff_count : forall f, variables_for_factor fb f 0 0 = nl f * count f.
Proof.
  intros f. unfold variables_for_factor, count, trials. cbn [Nat.eqb Nat.add].
  rewrite Nat.sub_0_r, fold_cond_count. reflexivity.
Qed.

Lemma in_SA : forall f, In f SA <-> In f A /\ is_complex fb f = false.
Proof.
  intros f. unfold simple_act. rewrite filter_In. rewrite negb_true_iff. reflexivity.
Qed.

Lemma in_CA : forall f, In f CA <-> In f A /\ is_complex fb f = true.
Proof. intros f. unfold complex_act. rewrite filter_In. reflexivity. Qed.

Hypothesis wf : wf_layout fb = true.

Lemma act_nodup : NoDup A.
Proof.
  unfold wf_layout in wf. apply andb_prop in wf. destruct wf as [_ H]. apply nodupb_NoDup. exact H.
Qed.

Lemma simple_applies : forall f t, In f SA -> applies_at fb f t = true.
Proof.
  intros f t Hf. apply in_SA in Hf. destruct Hf as [HfA Hc].
  unfold wf_layout in wf. apply andb_prop in wf. destruct wf as [Hall _].
  rewrite forallb_forall in Hall. specialize (Hall f HfA). rewrite Hc in Hall. cbn [orb] in Hall.
  unfold applies_at, applies_to_trial. unfold always_applies in Hall.
  destruct (factor_at fb f) as [fd|]; [|reflexivity].
  destruct (ff_window fd) as [w|]; [|reflexivity].
  apply andb_prop in Hall. destruct Hall as [Hs Hst].
  apply Nat.eqb_eq in Hs. apply Nat.eqb_eq in Hst. rewrite Hs, Hst.
  rewrite Nat.mod_1_r. cbn [Nat.eqb andb Nat.add].
  apply andb_true_intro. split; [apply Nat.leb_le; lia | reflexivity].
Qed.

Lemma simple_count : forall f, In f SA -> count f = T.
Proof.
  intros f Hf. unfold count. rewrite filter_all.
  - apply seq_length.
  - intros t _. apply simple_applies. exact Hf.
Qed.

Lemma grid_sum : grid = list_sum (map vff SA).
Proof.
  unfold grid_variables, trials. rewrite vpt_sum. symmetry. apply sum_scaled.
  intros f Hf. rewrite vff_count, simple_count by exact Hf. reflexivity.
Qed.

Lemma vps_split : vps = grid + list_sum (map vff CA).
Proof.
  unfold variables_per_sample. rewrite fold_add_sum. cbn [Nat.add].
  rewrite (list_sum_filter_split (is_complex fb) vff A), Nat.add_comm, grid_sum. reflexivity.
Qed.

Notation prev := (previous_trials_count fb).

Lemma prev_simple : forall f t, In f SA -> prev f t = t - 1.
Proof.
  intros f t Hf. unfold previous_trials_count. rewrite filter_all.
  - apply seq_length.
  - intros x _. apply simple_applies. exact Hf.
Qed.

Lemma seq_split3 : forall a n, 1 <= a <= n -> seq 1 n = seq 1 (a - 1) ++ a :: seq (S a) (n - a).
Proof.
  intros a n H.
  replace n with ((a - 1) + S (n - a)) at 1 by lia.
  rewrite seq_app. f_equal. cbn [seq]. replace (1 + (a - 1)) with a by lia. reflexivity.
Qed.

Lemma prev_lt_count : forall f t, 1 <= t <= T -> applies_at fb f t = true -> prev f t < count f.
Proof.
  intros f t Ht Happ. unfold previous_trials_count, count.
  change (fun t0 : nat => applies_at fb f t0) with (applies_at fb f).
  rewrite (seq_split3 t T Ht), filter_app, (filter_cons_true _ _ _ Happ).
  rewrite app_length. simpl length. lia.
Qed.

Lemma prev_mono : forall f t t', 1 <= t -> t < t' -> applies_at fb f t = true -> prev f t < prev f t'.
Proof.
  intros f t t' H1 Hlt Happ. unfold previous_trials_count.
  change (fun t0 : nat => applies_at fb f t0) with (applies_at fb f).
  rewrite (seq_split3 t (t' - 1) ltac:(lia)), filter_app, (filter_cons_true _ _ _ Happ).
  rewrite app_length. simpl length. lia.
Qed.

Lemma prev_inj : forall f t t',
    1 <= t -> 1 <= t' -> applies_at fb f t = true -> applies_at fb f t' = true ->
    prev f t = prev f t' -> t = t'.
Proof.
  intros f t t' H1 H1' Ha Ha' Heq.
  destruct (Nat.lt_trichotomy t t') as [Hlt|[Heq'|Hgt]]; [|exact Heq'|].
  - pose proof (prev_mono f t t' H1 Hlt Ha). lia.
  - pose proof (prev_mono f t' t H1' Hgt Ha'). lia.
Qed.

Lemma so_pre : forall fs f o, simple_offset fb fs f = Some o <-> In f fs /\ o = pre nl fs f.
Proof.
  induction fs as [|g fs IH]; intros f o; cbn [simple_offset pre In]; [split; [discriminate|tauto]|].
  destruct (g =? f) eqn:E.
  - apply Nat.eqb_eq in E. split; [intro H; injection H as <-; auto|intros [_ ->]; reflexivity].
  - apply Nat.eqb_neq in E. destruct (simple_offset fb fs f) as [p|] eqn:Hp; cbn [option_map].
    + destruct (proj1 (IH f p) Hp) as [Hin ->]. split; [intro H; injection H as <-; auto|intros [_ ->]; reflexivity].
    + split; [discriminate|]. intros [[Hg|Hin] _]; [contradiction|].
      rewrite (proj2 (IH f _) (conj Hin eq_refl)) in Hp. discriminate.
Qed.

Lemma co_pre : forall fs f l, In f fs -> complex_offset fb fs f l = pre vff fs f + l.
Proof.
  induction fs as [|g fs IH]; intros f l Hin; [contradiction|].
  cbn [complex_offset pre]. destruct (g =? f) eqn:E; [reflexivity|].
  destruct Hin as [Hin|Hin]; [subst g; rewrite Nat.eqb_refl in E; discriminate|].
  rewrite (IH f l Hin). apply Nat.add_assoc.
Qed.

Lemma so_some : forall fs f, In f fs -> exists o, simple_offset fb fs f = Some o.
Proof. intros fs f Hin. eexists. apply so_pre. split; [exact Hin|reflexivity]. Qed.

Lemma so_bound : forall fs f o, simple_offset fb fs f = Some o -> o + nl f <= list_sum (map nl fs).
Proof. intros fs f o H. apply so_pre in H. destruct H as [Hin ->]. apply pre_bound, Hin. Qed.

Lemma so_nth : forall fs f o l,
    simple_offset fb fs f = Some o -> l < nl f -> nth_simple_tuple fb fs (o + l) = Some (f, l).
Proof.
  induction fs as [|g fs IH]; intros f o l H Hl; [discriminate|].
  cbn [simple_offset] in H. cbn [nth_simple_tuple]. destruct (g =? f) eqn:E.
  - apply Nat.eqb_eq in E. subst g. injection H as <-. cbn [Nat.add].
    replace (l <? nl f) with true by (symmetry; apply Nat.ltb_lt; exact Hl). reflexivity.
  - destruct (simple_offset fb fs f) as [p|] eqn:Hp; [|discriminate].
    cbn [option_map] in H. injection H as <-.
    replace (nl g + p + l <? nl g) with false by (symmetry; apply Nat.ltb_ge; lia).
    replace (nl g + p + l - nl g) with (p + l) by lia. apply IH; assumption.
Qed.

Lemma co_l : forall fs f l, In f fs -> complex_offset fb fs f l = complex_offset fb fs f 0 + l.
Proof. intros fs f l Hin. rewrite !co_pre by exact Hin. lia. Qed.

Lemma co_bound : forall fs f, In f fs ->
  complex_offset fb fs f 0 + variables_for_factor fb f 0 0 <= list_sum (map vff fs).
Proof. intros fs f Hin. rewrite co_pre, Nat.add_0_r by exact Hin. apply (pre_bound vff), Hin. Qed.

Lemma co_disjoint : forall fs f f', In f fs -> In f' fs -> f <> f' ->
  complex_offset fb fs f 0 + variables_for_factor fb f 0 0 <= complex_offset fb fs f' 0 \/
  complex_offset fb fs f' 0 + variables_for_factor fb f' 0 0 <= complex_offset fb fs f 0.
Proof. intros fs f f' Hin Hin'. rewrite !co_pre, !Nat.add_0_r by assumption. apply (pre_disjoint vff); assumption. Qed.

Lemma enc_simple : forall f l t,
    In f SA -> l < nl f ->
    exists o, simple_offset fb SA f = Some o /\
              encode_variable fb f l t = Some (o + l + vpt * (t - 1) + 1).
Proof.
  intros f l t Hf Hl. pose proof Hf as Hf'. apply in_SA in Hf'. destruct Hf' as [_ Hc].
  destruct (so_some SA f Hf) as [o Ho]. exists o. split; [exact Ho|].
  unfold encode_variable, first_variable_for_level. rewrite Hc.
  replace (l <? nl f) with true by (symmetry; apply Nat.ltb_lt; exact Hl).
  rewrite Ho. cbn [option_map]. rewrite prev_simple by exact Hf. reflexivity.
Qed.

Lemma enc_complex : forall f l t,
    In f CA ->
    encode_variable fb f l t
    = Some (grid + complex_offset fb CA f 0 + l + nl f * prev f t + 1).
Proof.
  intros f l t Hf. pose proof Hf as Hf'. apply in_CA in Hf'. destruct Hf' as [_ Hc].
  unfold encode_variable, first_variable_for_level. rewrite Hc.
  rewrite (co_l CA f l Hf). f_equal. lia.
Qed.

Lemma act_cases : forall f, In f A -> In f SA \/ In f CA.
Proof.
  intros f Hf. destruct (is_complex fb f) eqn:E.
  - right. apply in_CA. split; assumption.
  - left. apply in_SA. split; assumption.
Qed.

Lemma simple_var_bounds : forall f l t o,
    In f SA -> l < nl f -> 1 <= t <= T -> simple_offset fb SA f = Some o ->
    o + l < vpt /\ o + l + vpt * (t - 1) + 1 <= grid.
Proof.
  intros f l t o Hf Hl Ht Ho. pose proof (so_bound SA f o Ho) as Hb. rewrite <- vpt_sum in Hb.
  split; [lia|]. unfold grid_variables, trials.
  assert (vpt * (t - 1) + vpt <= T * vpt) by nia. lia.
Qed.

Lemma complex_var_bounds : forall f l t,
    In f CA -> l < nl f -> 1 <= t <= T -> applies_at fb f t = true ->
    l + nl f * prev f t < variables_for_factor fb f 0 0 /\
    grid + complex_offset fb CA f 0 + l + nl f * prev f t + 1 <= vps.
Proof.
  intros f l t Hf Hl Ht Happ. pose proof (prev_lt_count f t Ht Happ) as Hp.
  pose proof (co_bound CA f Hf) as Hb. rewrite vps_split. rewrite vff_count in *.
  assert (l + nl f * prev f t < nl f * count f) by nia. split; lia.
Qed.

Theorem encode_range : forall f l t,
    applicable f l t -> exists v, encode_variable fb f l t = Some v /\ 1 <= v <= vps.
Proof.
  intros f l t [HfA [Hl [Ht Happ]]]. destruct (act_cases f HfA) as [Hf|Hf].
  - destruct (enc_simple f l t Hf Hl) as [o [Ho He]]. rewrite He. eexists. split; [reflexivity|].
    destruct (simple_var_bounds f l t o Hf Hl Ht Ho) as [_ Hg]. rewrite vps_split.
    pose proof (Nat.le_0_l (vpt * (t - 1))). lia.
  - rewrite (enc_complex f l t Hf). eexists. split; [reflexivity|].
    destruct (complex_var_bounds f l t Hf Hl Ht Happ) as [_ Hg]. lia.
Qed.

(** the search of [decode_variable] among the complex factors, as a global function *)
Definition dgo (v0 : nat) : list nat -> option (nat * nat) :=
  fix go (fs : list nat) : option (nat * nat) :=
    match fs with
    | [] => None
    | g :: gs =>
      match first_variable_for_level fb g 0 with
      | Some start =>
        if (start <=? v0) && (v0 <? start + variables_for_factor fb g 0 0)
        then Some (g, (v0 - start) mod nlevels fb g) else go gs
      | None => go gs
      end
    end.

Lemma dgo_cons : forall v0 g gs,
    dgo v0 (g :: gs)
    = match first_variable_for_level fb g 0 with
      | Some start =>
        if (start <=? v0) && (v0 <? start + variables_for_factor fb g 0 0)
        then Some (g, (v0 - start) mod nlevels fb g) else dgo v0 gs
      | None => dgo v0 gs
      end.
Proof. reflexivity. Qed.

Lemma decode_variable_unfold : forall v,
    decode_variable fb v
    = if v - 1 <? grid then nth_simple_tuple fb SA ((v - 1) mod vpt) else dgo (v - 1) CA.
Proof. intros v. reflexivity. Qed.

Lemma dgo_spec : forall fs f v0,
    incl fs CA -> In f fs ->
    grid + complex_offset fb CA f 0 <= v0 < grid + complex_offset fb CA f 0 + variables_for_factor fb f 0 0 ->
    dgo v0 fs = Some (f, (v0 - (grid + complex_offset fb CA f 0)) mod nl f).
Proof.
  induction fs as [|g fs IH]; intros f v0 Hca Hin Hv; [contradiction|].
  apply incl_cons_inv in Hca. destruct Hca as [HgCA Hca].
  rewrite dgo_cons. unfold first_variable_for_level. rewrite (proj2 (proj1 (in_CA g) HgCA)).
  destruct (Nat.eq_dec g f) as [->|Hne].
  - rewrite (proj2 (Nat.leb_le _ _)), (proj2 (Nat.ltb_lt _ _)) by lia. reflexivity.
  - assert (Hf : In f fs) by (destruct Hin; [contradiction|assumption]).
    (* the blocks of [g] and [f] are disjoint: [v0] is above or below the block of [g] *)
    destruct (co_disjoint CA g f HgCA (Hca f Hf) Hne);
      [rewrite (proj2 (Nat.ltb_ge _ _)), andb_false_r by lia|rewrite (proj2 (Nat.leb_gt _ _)) by lia; cbn [andb]];
      apply IH; assumption.
Qed.

Theorem decode_encode : forall f l t v,
    applicable f l t -> encode_variable fb f l t = Some v -> decode_variable fb v = Some (f, l).
Proof.
  intros f l t v [HfA [Hl [Ht Happ]]] He. rewrite decode_variable_unfold.
  destruct (act_cases f HfA) as [Hf|Hf].
  - destruct (enc_simple f l t Hf Hl) as [o [Ho He']]. rewrite He' in He. injection He as <-.
    destruct (simple_var_bounds f l t o Hf Hl Ht Ho) as [Hb Hg].
    replace (o + l + vpt * (t - 1) + 1 - 1) with (o + l + (t - 1) * vpt)
      by (rewrite Nat.add_sub; f_equal; apply Nat.mul_comm).
    replace (o + l + (t - 1) * vpt <? grid) with true by (symmetry; apply Nat.ltb_lt; lia).
    rewrite Nat.mod_add by lia. rewrite Nat.mod_small by exact Hb.
    apply so_nth; assumption.
  - rewrite (enc_complex f l t Hf) in He. injection He as <-.
    destruct (complex_var_bounds f l t Hf Hl Ht Happ) as [Hb Hg].
    set (v0 := grid + complex_offset fb CA f 0 + l + nl f * prev f t + 1 - 1).
    replace (v0 <? grid) with false by (symmetry; apply Nat.ltb_ge; unfold v0; lia).
    rewrite (dgo_spec CA f v0 (incl_refl _) Hf ltac:(unfold v0; lia)).
    f_equal. f_equal. unfold v0.
    replace (grid + complex_offset fb CA f 0 + l + nl f * prev f t + 1 - 1 - (grid + complex_offset fb CA f 0))
      with (l + prev f t * nl f) by lia.
    rewrite Nat.mod_add by lia. apply Nat.mod_small. exact Hl.
Qed.

(** the decoder recovers factor and level; for a fixed factor and level the variable grows with the trial *)
Theorem encode_inj : forall f l t f' l' t',
    applicable f l t -> applicable f' l' t' ->
    encode_variable fb f l t = encode_variable fb f' l' t' ->
    f = f' /\ l = l' /\ t = t'.
Proof.
  intros f l t f' l' t' Ha Ha' Heq. destruct (encode_range f l t Ha) as [v [He _]].
  pose proof (decode_encode f l t v Ha He) as D. rewrite Heq in He.
  rewrite (decode_encode f' l' t' v Ha' He) in D. injection D as -> ->.
  split; [reflexivity|]. split; [reflexivity|].
  destruct Ha as [HfA [Hl [Ht Happ]]], Ha' as [_ [_ [Ht' Happ']]]. destruct (act_cases f HfA) as [Hf|Hf].
  - destruct (enc_simple f l t Hf Hl) as [o [Ho E]]. destruct (enc_simple f l t' Hf Hl) as [o' [Ho' E']].
    rewrite E, E', Ho in *. injection Ho' as <-. injection Heq as Heq.
    destruct (simple_var_bounds f l t o Hf Hl Ht Ho) as [Hb _].
    assert (X : vpt * (t - 1) = vpt * (t' - 1)) by lia. apply Nat.mul_cancel_l in X; lia.
  - rewrite !enc_complex in Heq by exact Hf. injection Heq as Heq.
    assert (X : nl f * prev f t = nl f * prev f t') by lia. apply Nat.mul_cancel_l in X; [|lia].
    apply (prev_inj f); try assumption; lia.
Qed.

(** ** onto: the list of all applicable triples, and pigeonhole *)

Definition triples : list (nat * nat * nat) :=
  flat_map (fun f => flat_map (fun t => map (fun l => (f, l, t)) (seq 0 (nl f)))
                              (filter (applies_at fb f) (seq 1 T))) A.

Lemma in_triples : forall f l t, In (f, l, t) triples <-> applicable f l t.
Proof.
  intros f l t. unfold triples, applicable. rewrite in_flat_map. split.
  - intros [f0 [Hf0 Hin]]. apply in_flat_map in Hin. destruct Hin as [t0 [Ht0 Hin]].
    apply in_map_iff in Hin. destruct Hin as [l0 [Heq Hl0]]. injection Heq as <- <- <-.
    apply filter_In in Ht0. destruct Ht0 as [Ht0 Happ]. apply in_seq in Ht0. apply in_seq in Hl0.
    repeat split; try assumption; lia.
  - intros [HfA [Hl [Ht Happ]]]. exists f. split; [exact HfA|].
    apply in_flat_map. exists t. split.
    + apply filter_In. split; [apply in_seq; lia | exact Happ].
    + apply in_map_iff. exists l. split; [reflexivity | apply in_seq; lia].
Qed.

Lemma triples_length : length triples = vps.
Proof.
  unfold triples. rewrite flat_map_len. unfold variables_per_sample. rewrite fold_add_sum. cbn [Nat.add].
  f_equal. apply map_ext. intros f. rewrite vff_count, flat_map_len.
  unfold count. induction (filter (applies_at fb f) (seq 1 T)) as [|t ts IH]; simpl.
  - lia.
  - rewrite IH, map_length, seq_length. lia.
Qed.

Lemma triples_nodup : NoDup triples.
Proof.
  unfold triples. apply NoDup_flat_map.
  - exact act_nodup.
  - intros f _. apply NoDup_flat_map.
    + apply NoDup_filter. apply seq_NoDup.
    + intros t _. apply NoDup_map_inj_in; [|apply seq_NoDup]. intros x y _ _ H. congruence.
    + intros t t' b _ _ Hb Hb'. apply in_map_iff in Hb. apply in_map_iff in Hb'.
      destruct Hb as [x [<- _]]. destruct Hb' as [y [Hy _]]. congruence.
  - intros f f' b _ _ Hb Hb'. apply in_flat_map in Hb. apply in_flat_map in Hb'.
    destruct Hb as [t [_ Hb]]. destruct Hb' as [t' [_ Hb']].
    apply in_map_iff in Hb. apply in_map_iff in Hb'.
    destruct Hb as [x [<- _]]. destruct Hb' as [y [Hy _]]. congruence.
Qed.

Definition enc_or_0 (x : nat * nat * nat) : nat :=
  match encode_variable fb (fst (fst x)) (snd (fst x)) (snd x) with Some v => v | None => 0 end.

Lemma enc_or_0_spec : forall f l t, applicable f l t -> encode_variable fb f l t = Some (enc_or_0 (f, l, t)).
Proof.
  intros f l t H. unfold enc_or_0. cbn [fst snd]. destruct (encode_range f l t H) as [v [-> _]]. reflexivity.
Qed.

Theorem encode_onto : forall v,
    1 <= v <= vps -> exists f l t, applicable f l t /\ encode_variable fb f l t = Some v.
Proof.
  intros v Hv.
  assert (Hnd : NoDup (map enc_or_0 triples)).
  { apply NoDup_map_inj_in; [|exact triples_nodup].
    intros [[f l] t] [[f' l'] t'] Hx Hy Heq. apply in_triples in Hx. apply in_triples in Hy.
    destruct (encode_inj f l t f' l' t' Hx Hy) as [-> [-> ->]]; [|reflexivity].
    rewrite (enc_or_0_spec _ _ _ Hx), (enc_or_0_spec _ _ _ Hy), Heq. reflexivity. }
  assert (Hincl : incl (map enc_or_0 triples) (seq 1 vps)).
  { intros a Ha. apply in_map_iff in Ha. destruct Ha as [[[f l] t] [<- Hx]]. apply in_triples in Hx.
    destruct (encode_range f l t Hx) as [b [Hb Hr]]. rewrite (enc_or_0_spec _ _ _ Hx) in Hb. injection Hb as <-.
    apply in_seq. lia. }
  assert (Hback : incl (seq 1 vps) (map enc_or_0 triples)).
  { apply NoDup_length_incl; [exact Hnd | rewrite map_length, triples_length, seq_length; lia | exact Hincl]. }
  assert (Hin : In v (map enc_or_0 triples)) by (apply Hback; apply in_seq; lia).
  apply in_map_iff in Hin. destruct Hin as [[[f l] t] [<- Hx]]. apply in_triples in Hx.
  exists f, l, t. split; [exact Hx|apply enc_or_0_spec; exact Hx].
Qed.

Theorem fresh_above : forall f l t v,
    applicable f l t -> encode_variable fb f l t = Some v -> v < vps + 1.
Proof.
  intros f l t v Happ He. destruct (encode_range f l t Happ) as [v' [He' Hr]].
  rewrite He in He'. injection He' as <-. lia.
Qed.

End LayoutProofs.
