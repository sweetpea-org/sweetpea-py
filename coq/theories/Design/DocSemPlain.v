(** [doc_sem] on plain designs (every design factor simple): closed form of
    [feasible_combos], and the law "an Exclude of a crossed level removes exactly the
    combinations that contain it". *)
From Coq Require Import ZArith List Bool Arith Lia String.
From SP Require Import Base.Lists Design.Sem Design.Flat Design.DocSem Design.DocSemProofs Design.ListSums.
Import ListNotations.
Local Open Scope nat_scope.
Local Open Scope list_scope.

Lemma mapM_all_ok : forall {A B} (f : A -> res B) (g : A -> B) l,
  (forall x, In x l -> f x = Ok (g x)) -> mapM f l = Ok (map g l).
Proof.
  intros A B f g l H. induction l as [|x l IH]; [reflexivity|]. cbn. rewrite (H x (or_introl eq_refl)). cbn.
  rewrite IH; [reflexivity|]. intros y Hy. apply H. right. exact Hy.
Qed.

Lemma filterM_all_ok : forall {A} (f : A -> res bool) (g : A -> bool) l,
  (forall x, In x l -> f x = Ok (g x)) -> filterM f l = Ok (filter g l).
Proof.
  intros A f g l H. induction l as [|x l IH]; [reflexivity|]. cbn. rewrite (H x (or_introl eq_refl)). cbn.
  rewrite IH; [reflexivity|]. intros y Hy. apply H. right. exact Hy.
Qed.

Lemma fold_left_ext_in : forall {A B} (F G : A -> B -> A) l a,
  (forall a x, In x l -> F a x = G a x) -> fold_left F l a = fold_left G l a.
Proof.
  intros A B F G l. induction l as [|x l IH]; intros a H; [reflexivity|]. cbn. rewrite (H a x (or_introl eq_refl)).
  apply IH. intros a' y Hy. apply H. right. exact Hy.
Qed.

Lemma product_singletons : forall {A} (l : list A), product (map (fun x => [x]) l) = [l].
Proof. intros A l. induction l as [|x l IH]; [reflexivity|]. cbn. rewrite IH. reflexivity. Qed.

Lemma dict_get_in : forall {V} (d : list (nat * V)) k v, NoDup (map fst d) -> In (k, v) d -> dict_get Nat.eqb k d = Some v.
Proof.
  intros V d k v. induction d as [|[k0 v0] d IH]; intros Hnd Hin; [contradiction|]. unfold dict_get. cbn.
  inversion Hnd; subst. destruct Hin as [E|Hin].
  - inversion E; subst. rewrite Nat.eqb_refl. reflexivity.
  - destruct (Nat.eqb_spec k k0) as [->|Hne].
    + exfalso. apply H1. apply in_map_iff. exists (k0, v). split; [reflexivity|exact Hin].
    + apply IH; assumption.
Qed.

Lemma dict_get_some_in : forall {V} (d : list (nat * V)) k v, dict_get Nat.eqb k d = Some v -> In (k, v) d.
Proof.
  intros V d k v. induction d as [|[k0 v0] d IH]; unfold dict_get; cbn; intro H; [discriminate|].
  destruct (Nat.eqb_spec k k0) as [->|Hne]; cbn in H; [inversion H; left; reflexivity|]. right. apply IH. exact H.
Qed.

Lemma dict_set_keys_iff : forall {K V} (eqb : K -> K -> bool), (forall x y, eqb x y = true -> x = y) ->
  forall k (v : V) d k', In k' (map fst (dict_set eqb k v d)) <-> In k' (map fst d) \/ k' = k.
Proof.
  intros K V eqb Heq k v d k'. induction d as [|[k0 v0] d IH]; cbn.
  - split; [intros [E|[]]; right; symmetry; exact E|intros [[]|E]; left; symmetry; exact E].
  - destruct (eqb k k0) eqn:E; cbn.
    + apply Heq in E. subst k0. split; [intros H; left; exact H|intros [H|E]; [exact H|left; symmetry; exact E]].
    + rewrite IH. tauto.
Qed.

Lemma dict_of_keys : forall {V} (kvs : list (nat * V)) k, In k (map fst (dict_of Nat.eqb kvs)) <-> In k (map fst kvs).
Proof.
  intros V kvs k. unfold dict_of.
  assert (G : forall d, In k (map fst (fold_left (fun d kv => dict_set Nat.eqb (fst kv) (snd kv) d) kvs d)) <->
                        In k (map fst d) \/ In k (map fst kvs)).
  { induction kvs as [|[k0 v0] kvs IH]; intro d; cbn [fold_left map]; [cbn; tauto|].
    rewrite IH. cbn [fst snd]. rewrite (dict_set_keys_iff _ (fun x y => proj1 (Nat.eqb_eq x y))). cbn.
    split; [intros [[H|E]|H]; [auto|right; left; symmetry; exact E|auto]|intros [H|[E|H]]; [auto|left; right; symmetry; exact E|auto]]. }
  rewrite G. cbn. tauto.
Qed.

Lemma dict_of_nodup : forall {V} (kvs : list (nat * V)), NoDup (map fst (dict_of Nat.eqb kvs)).
Proof. intros V kvs. apply (dict_update_keys kvs []). constructor. Qed.

Lemma dict_get_present : forall {V} (d : list (nat * V)) k, In k (map fst d) -> exists v, dict_get Nat.eqb k d = Some v.
Proof.
  intros V d k. induction d as [|[k0 v0] d IH]; intro H; [contradiction|]. unfold dict_get. cbn.
  destruct (Nat.eqb_spec k k0) as [->|Hne]; [exists v0; reflexivity|]. destruct H as [E|H]; [cbn in E; congruence|]. apply IH. exact H.
Qed.

Section Plain.
Variable p : program.

Definition simple_id (f : nat) : Prop := exists fd, fm p f = Ok fd /\ is_simple fd = true.

Definition fd_of (f : nat) : pfactor :=
  match fm p f with Ok fd => fd | _ => {| pf_id := f; pf_name := EmptyString; pf_kind := FContinuous |} end.

Definition names_of (f : nat) : list name :=
  match pf_kind (fd_of f) with
  | FSimple levels => map fst levels
  | FDerived _ levels => map dl_name levels
  | FContinuous => []
  end.

Lemma simple_fm : forall f, simple_id f -> fm p f = Ok (fd_of f) /\ is_simple (fd_of f) = true.
Proof. intros f [fd [H1 H2]]. unfold fd_of. rewrite H1. split; [reflexivity|exact H2]. Qed.

Lemma simple_not_derived : forall fd, is_simple fd = true -> is_derived fd = false.
Proof. intros fd H. unfold is_simple, is_derived in *. destruct (pf_kind fd); congruence. Qed.

Lemma simple_names : forall f, simple_id f -> level_names (fd_of f) = Ok (names_of f).
Proof.
  intros f H. destruct (simple_fm f H) as [_ Hs]. unfold level_names, names_of, is_simple in *.
  destruct (pf_kind (fd_of f)); try discriminate. reflexivity.
Qed.

Definition assign_of (design : list nat) (vals : list name) : assignment := dict_of Nat.eqb (combine design vals).
Definition aval (a : assignment) (f : nat) : name :=
  match dict_get Nat.eqb f a with Some v => v | None => EmptyString end.

Definition plain_excl (cr : list nat) (excludes : list (nat * name)) : list (nat * name) :=
  filter (fun fn => DocSem.mem (fst fn) cr) excludes.

Definition skip (design : list nat) (excl : list (nat * name)) (a : assignment) : bool :=
  existsb (fun bv => DocSem.mem (fst bv) design && memb level_eqb bv excl) a.

Definition plain_step (design cr : list nat) (excl : list (nat * name)) (acc : res combos) (vals : list name) : res combos :=
  feasible <- acc ;;
  let a := assign_of design vals in
  if skip design excl a then Ok feasible
  else w <- combo_weight p cr (map (aval a) cr) ;; Ok (dict_set names_eqb (map (aval a) cr) w feasible).

Definition plain_feasible (design cr : list nat) (excludes : list (nat * name)) : res combos :=
  fold_left (plain_step design cr (plain_excl cr excludes)) (product (map names_of design)) (Ok []).

Lemma basics_plain : forall design, Forall simple_id design ->
  map fst (filter (fun x : nat * pfactor => is_simple (snd x)) (map (fun f => (f, fd_of f)) design)) = design.
Proof.
  intros design H. induction H as [|f design Hf _ IH]; [reflexivity|]. cbn. destruct (simple_fm f Hf) as [_ ->]. cbn. f_equal. exact IH.
Qed.

Lemma collect_simple : forall design f e, simple_id f -> In f design -> collect p (fuel0 p) design f e = Ok e.
Proof.
  intros design f e Hf Hin. unfold fuel0. cbn [collect]. destruct (simple_fm f Hf) as [E Hs]. rewrite E. cbn [bind].
  unfold is_simple in Hs. destruct (pf_kind (fd_of f)); try discriminate.
  rewrite (mem_true _ _ Hin). reflexivity.
Qed.

Lemma extra_plain : forall design l, Forall simple_id l -> incl l design ->
  fold_left (fun acc f => e <- acc ;; collect p (fuel0 p) design f e) l (Ok []) = Ok [].
Proof.
  intros design l H. induction H as [|f l Hf _ IH]; intro Hincl; [reflexivity|]. cbn [fold_left bind].
  rewrite collect_simple; [|exact Hf|apply Hincl; left; reflexivity].
  apply IH. intros x Hx. apply Hincl. right. exact Hx.
Qed.

Theorem feasible_plain : forall design cr excludes,
  Forall simple_id design -> incl cr design -> Forall (fun fn => simple_id (fst fn)) excludes ->
  feasible_combos p design cr excludes = plain_feasible design cr excludes.
Proof.
  intros design cr excludes Hd Hcr Hex. rewrite Forall_forall in Hd, Hex. unfold feasible_combos.
  rewrite (mapM_all_ok _ (fun f => (f, fd_of f))) by (intros f Hf; destruct (simple_fm f (Hd f Hf)) as [-> _]; reflexivity).
  cbn [bind]. rewrite (basics_plain design) by (apply Forall_forall; exact Hd).
  rewrite (extra_plain design design) by (try (apply Forall_forall; exact Hd); apply incl_refl).
  cbn [bind]. rewrite app_nil_r.
  rewrite (filterM_all_ok _ (fun _ => false)).
  2:{ intros [f fd] Hin. apply in_map_iff in Hin. destruct Hin as [f' [E Hf']]. inversion E; subst. cbn [snd].
      destruct (simple_fm f (Hd f Hf')) as [_ Hs]. rewrite (simple_not_derived _ Hs). reflexivity. }
  cbn [bind]. rewrite (filter_none _ _ (fun _ _ => eq_refl)).
  rewrite (filterM_all_ok _ (fun fn => DocSem.mem (fst fn) cr)).
  2:{ intros fn Hin. destruct (DocSem.mem (fst fn) cr); [reflexivity|].
      destruct (simple_fm _ (Hex fn Hin)) as [-> Hs]. cbn [bind]. rewrite (simple_not_derived _ Hs). reflexivity. }
  cbn [bind].
  rewrite (mapM_all_ok _ names_of).
  2:{ intros f Hf. destruct (simple_fm f (Hd f Hf)) as [-> _]. cbn [bind]. apply simple_names. exact (Hd f Hf). }
  cbn [bind]. unfold plain_feasible. apply fold_left_ext_in. intros acc vals Hvals.
  unfold plain_step. destruct acc as [feasible|e|w]; cbn [bind]; try reflexivity.
  fold (assign_of design vals). fold (plain_excl cr excludes). fold (skip design (plain_excl cr excludes) (assign_of design vals)).
  destruct (skip _ _ _); [reflexivity|]. cbn [fold_left bind].
  assert (Hlen : List.length vals = List.length design) by (rewrite (in_product_length _ _ Hvals), map_length; reflexivity).
  rewrite (mapM_all_ok _ (fun f => [aval (assign_of design vals) f])).
  2:{ intros f Hf. destruct (simple_fm f (Hd f (Hcr f Hf))) as [-> Hs]. cbn [bind]. rewrite Hs.
      destruct (dict_get_present (assign_of design vals) f) as [v Hv].
      { unfold assign_of. apply dict_of_keys. rewrite map_fst_combine by (symmetry; exact Hlen). apply Hcr. exact Hf. }
      unfold aval. rewrite Hv. reflexivity. }
  cbn [bind]. rewrite <- (map_map (aval (assign_of design vals)) (fun x => [x])). rewrite product_singletons.
  cbn [fold_left bind]. reflexivity.
Qed.

(** ** which combinations are feasible *)
Lemma plain_fold_keys : forall design cr excl l d0 d,
  fold_left (plain_step design cr excl) l (Ok d0) = Ok d ->
  forall combo, In combo (map fst d) <->
                In combo (map fst d0) \/
                exists vals, In vals l /\ skip design excl (assign_of design vals) = false /\
                             map (aval (assign_of design vals)) cr = combo.
Proof.
  intros design cr excl l. induction l as [|x l IH]; intros d0 d H combo; cbn [fold_left] in H.
  - inversion H; subst. split; [intro Hc; left; exact Hc|intros [Hc|[vals [[] _]]]; exact Hc].
  - unfold plain_step at 2 in H. cbn [bind] in H. cbv zeta in H. destruct (skip design excl (assign_of design x)) eqn:Sk.
    + rewrite (IH _ _ H combo). split; intros [Hc|[vals [Hin [Hs Hp]]]]; auto.
      * right. exists vals. split; [right; exact Hin|split; assumption].
      * destruct Hin as [->|Hin]; [congruence|]. right. exists vals. split; [exact Hin|split; assumption].
    + destruct (combo_weight p cr (map (aval (assign_of design x)) cr)) as [w|e|s] eqn:W; cbn [bind] in H.
      * rewrite (IH _ _ H combo). rewrite (dict_set_keys_iff _ names_eqb_eq). split.
        -- intros [[Hc|Hc]|[vals [Hin [Hs Hp]]]]; auto.
           ++ right. exists x. split; [left; reflexivity|split; [exact Sk|congruence]].
           ++ right. exists vals. split; [right; exact Hin|split; assumption].
        -- intros [Hc|[vals [Hin [Hs Hp]]]]; auto. destruct Hin as [->|Hin]; [left; right; congruence|].
           right. exists vals. split; [exact Hin|split; assumption].
      * exfalso. revert H. apply fold_res_err; try (intros; reflexivity). intros d'; discriminate.
      * exfalso. revert H. apply fold_res_err; try (intros; reflexivity). intros d'; discriminate.
Qed.

Lemma plain_fold_weight : forall design cr excl l d0 d,
  fold_left (plain_step design cr excl) l (Ok d0) = Ok d ->
  (forall k v, In (k, v) d0 -> combo_weight p cr k = Ok v) ->
  forall k v, In (k, v) d -> combo_weight p cr k = Ok v.
Proof.
  intros design cr excl l d0 d H H0.
  refine (fold_res_inv _ (fun d => forall k v, In (k, v) d -> combo_weight p cr k = Ok v) _ _ l _ d0 d H H0); try reflexivity.
  intros a x b _ Ha E k v Hin. unfold plain_step in E. cbn [bind] in E. cbv zeta in E.
  destruct (skip design excl (assign_of design x)); [apply Ok_inj in E; subst b; exact (Ha _ _ Hin)|].
  inv_bind E as w W E. apply Ok_inj in E. subst b. apply (dict_set_in _ names_eqb_eq) in Hin.
  destruct Hin as [Hin|[-> ->]]; [exact (Ha _ _ Hin)|exact W].
Qed.

(** ** Exclude of a crossed level removes exactly the combinations that contain it *)
Lemma level_eqb_eq : forall a b, level_eqb a b = true <-> a = b.
Proof.
  intros [f n] [g m]. unfold level_eqb. cbn. rewrite andb_true_iff, Nat.eqb_eq, String.eqb_eq. split; [intros [-> ->]; reflexivity|intro E; inversion E; auto].
Qed.

Lemma skip_app : forall design excl f n a, In f design ->
  skip design (excl ++ [(f, n)]) a = false <-> skip design excl a = false /\ ~ In (f, n) a.
Proof.
  intros design excl f n a Hf. unfold skip. rewrite <- !not_true_iff_false. split.
  - intro H. split.
    + intro E. apply H. apply existsb_exists in E. destruct E as [bv [Hbv E]]. apply existsb_exists. exists bv. split; [exact Hbv|].
      apply andb_true_iff in E. destruct E as [E1 E2]. rewrite E1. cbn. unfold memb in *. rewrite existsb_app, E2. reflexivity.
    + intro Hin. apply H. apply existsb_exists. exists (f, n). split; [exact Hin|]. cbn [fst].
      rewrite (mem_true _ _ Hf). cbn. unfold memb. rewrite existsb_app. cbn. rewrite (proj2 (level_eqb_eq (f, n) (f, n)) eq_refl). rewrite !orb_true_r. reflexivity.
  - intros [H1 H2] E. apply existsb_exists in E. destruct E as [bv [Hbv E]]. apply andb_true_iff in E. destruct E as [E1 E2].
    unfold memb in E2. rewrite existsb_app in E2. apply orb_true_iff in E2. destruct E2 as [E2|E2].
    + apply H1. apply existsb_exists. exists bv. split; [exact Hbv|]. rewrite E1. exact E2.
    + cbn in E2. rewrite orb_false_r in E2. apply level_eqb_eq in E2. subst bv. contradiction.
Qed.

Lemma assign_in_aval : forall design vals f n, List.length vals = List.length design -> In f design ->
  In (f, n) (assign_of design vals) <-> aval (assign_of design vals) f = n.
Proof.
  intros design vals f n Hlen Hf. unfold aval.
  assert (Hk : In f (map fst (assign_of design vals))).
  { unfold assign_of. apply dict_of_keys. rewrite map_fst_combine by (symmetry; exact Hlen). exact Hf. }
  destruct (dict_get_present _ _ Hk) as [v Hv]. rewrite Hv. split.
  - intro Hin. pose proof (dict_get_in _ _ _ (dict_of_nodup _) Hin) as E. unfold assign_of in Hv. congruence.
  - intros <-. apply dict_get_some_in. exact Hv.
Qed.

(** one more excluded level of a crossed factor: an assignment of the whole design stays iff its
    combination does not have that level *)
Lemma skip_app_combo : forall design cr excl f n vals,
  List.length vals = List.length design -> incl cr design -> In f cr ->
  (skip design (excl ++ [(f, n)]) (assign_of design vals) = false <->
   skip design excl (assign_of design vals) = false /\ ~ In (f, n) (combine cr (map (aval (assign_of design vals)) cr))).
Proof.
  intros design cr excl f n vals Hlen Hcr Hf.
  rewrite (skip_app design excl f n _ (Hcr f Hf)), in_combine_map, (assign_in_aval design vals f n Hlen (Hcr f Hf)).
  split; intros [Hs Hn]; (split; [exact Hs|]); [intros [_ E]|intro E]; apply Hn; [|split; [exact Hf|]]; symmetry; exact E.
Qed.

Theorem exclude_removes_exactly : forall design cr excludes f n fe fe',
  Forall simple_id design -> incl cr design -> Forall (fun fn => simple_id (fst fn)) excludes -> In f cr ->
  feasible_combos p design cr excludes = Ok fe ->
  feasible_combos p design cr (excludes ++ [(f, n)]) = Ok fe' ->
  forall combo, In combo (map fst fe') <-> In combo (map fst fe) /\ ~ In (f, n) (combine cr combo).
Proof.
  intros design cr excludes f n fe fe' Hd Hcr Hex Hf H H' combo.
  assert (Hex' : Forall (fun fn => simple_id (fst fn)) (excludes ++ [(f, n)])).
  { apply Forall_app. split; [exact Hex|]. constructor; [|constructor]. cbn. rewrite Forall_forall in Hd. apply Hd, Hcr, Hf. }
  rewrite feasible_plain in H, H' by assumption. unfold plain_feasible in H, H'.
  assert (Ee : plain_excl cr (excludes ++ [(f, n)]) = plain_excl cr excludes ++ [(f, n)]).
  { unfold plain_excl. rewrite filter_app. cbn.
    rewrite (mem_true _ _ Hf). reflexivity. }
  rewrite Ee in H'.
  assert (K : forall vals, In vals (product (map names_of design)) -> List.length vals = List.length design)
    by (intros vals Hin; rewrite (in_product_length _ _ Hin); apply map_length).
  rewrite (plain_fold_keys _ _ _ _ _ _ H' combo), (plain_fold_keys _ _ _ _ _ _ H combo). cbn [map]. split.
  - intros [[]|[vals [Hin [Hs Hp]]]]. apply (skip_app_combo design cr _ f n vals (K vals Hin) Hcr Hf) in Hs.
    rewrite Hp in Hs. destruct Hs as [Hs Hn]. split; [right; exists vals; auto|exact Hn].
  - intros [[[]|[vals [Hin [Hs Hp]]]] Hn]. right. exists vals. split; [exact Hin|]. split; [|exact Hp].
    apply (skip_app_combo design cr _ f n vals (K vals Hin) Hcr Hf). rewrite Hp. split; assumption.
Qed.

End Plain.

(** the same for the crossing of the block ([require_complete_crossing = False]) *)
Corollary exclude_removes_exactly_crossing : forall p design cr excludes f n x x',
  Forall (simple_id p) design -> incl cr design -> Forall (fun fn => simple_id p (fst fn)) excludes -> In f cr ->
  doc_crossing p design excludes false cr = Ok x ->
  doc_crossing p design (excludes ++ [(f, n)]) false cr = Ok x' ->
  forall combo, In combo (map fst (x_combos x')) <-> In combo (map fst (x_combos x)) /\ ~ In (f, n) (combine cr combo).
Proof.
  intros p design cr excludes f n x x' Hd Hcr Hex Hf H H'.
  destruct (doc_crossing_inv _ _ _ _ _ _ H) as (allc & feas & P & _ & Hfe & _ & ->).
  destruct (doc_crossing_inv _ _ _ _ _ _ H') as (allc' & feas' & P' & _ & Hfe' & _ & ->).
  cbn [x_combos]. eapply exclude_removes_exactly; eauto.
Qed.

(** every feasible combination of a plain design carries the product of its level weights *)
Corollary feasible_plain_weight : forall p design cr excludes fe combo w,
  Forall (simple_id p) design -> incl cr design -> Forall (fun fn => simple_id p (fst fn)) excludes ->
  feasible_combos p design cr excludes = Ok fe -> In (combo, w) fe -> combo_weight p cr combo = Ok w.
Proof.
  intros p design cr excludes fe combo w Hd Hcr Hex H Hin. rewrite feasible_plain in H by assumption.
  eapply plain_fold_weight; [exact H| |exact Hin]. intros k v [].
Qed.
