(** Proofs about [Layout.map_block_trial_ranges] (property C26): the windows a
    block-level constraint is applied to. *)
From Coq Require Import List Bool Arith Lia.
From SP Require Import Design.Flat Design.Layout Design.CeilDiv.
Import ListNotations.

Section Ranges.
Variable fb : flat.

Let T := fl_trials fb.

(** the [while] loop, closed form: windows number 0 .. n-1, where n is the number
    of j with start + j*step < stop *)
Lemma ranges_loop_closed :
  forall fuel start e step stop,
    0 < step -> stop <= start + fuel ->
    ranges_loop fb fuel start e step stop
    = map (fun j => (start + j * step, Nat.min (e + j * step) T)) (seq 0 (DocSem.ceil_div (stop - start) step)).
Proof.
  induction fuel as [|fuel IH]; intros start e step stop Hs Hf; cbn [ranges_loop].
  - replace (stop - start) with 0 by lia. rewrite ceil_div_0 by exact Hs. reflexivity.
  - destruct (start <? stop) eqn:E.
    + apply Nat.ltb_lt in E. rewrite (ceil_div_succ (stop - start) step Hs) by lia.
      cbn [seq map]. rewrite Nat.mul_0_l, !Nat.add_0_r. f_equal.
      rewrite IH by lia. replace (stop - (start + step)) with (stop - start - step) by lia.
      rewrite <- seq_shift, map_map. apply map_ext. intro j. cbn [Nat.mul]. f_equal; [|f_equal]; lia.
    + apply Nat.ltb_ge in E. replace (stop - start) with 0 by lia. rewrite ceil_div_0 by exact Hs. reflexivity.
Qed.

Definition window_of (g : geometry) (j : nat) : nat * nat :=
  let step := g_trials g - g_preamble g in
  (j * step, Nat.min (j * step + g_trials g) T).

(** Block-level constraints ([within_block = Some g], alignment other than
    POST_PREAMBLE): window j is [j*step, min(j*step + num_trials_b, T)) for every
    j with j*step < T - preamble_b, in order, where step = num_trials_b - preamble_b. *)
Lemma ranges_closed :
  forall g,
    g_preamble g < g_trials g ->
    fl_alignment fb <> PostPreamble ->
    map_block_trial_ranges fb (Some g)
    = Some (map (window_of g) (seq 0 (DocSem.ceil_div (T - g_preamble g) (g_trials g - g_preamble g)))).
Proof.
  intros g Hp Hal. unfold map_block_trial_ranges.
  replace (g_trials g <=? g_preamble g) with false by (symmetry; apply Nat.leb_gt; exact Hp).
  cbn [andb].
  destruct (fl_alignment fb); [contradiction Hal; reflexivity| |];
    rewrite ranges_loop_closed by (unfold trials; lia); rewrite Nat.sub_0_r; f_equal;
    apply map_ext; intro j; unfold window_of; f_equal; f_equal; lia.
Qed.

Lemma ranges_spec :
  forall g,
    g_preamble g < g_trials g ->
    fl_alignment fb <> PostPreamble ->
    exists n,
      map_block_trial_ranges fb (Some g) = Some (map (window_of g) (seq 0 n))
      /\ (forall j, j < n <-> j * (g_trials g - g_preamble g) < T - g_preamble g).
Proof.
  intros g Hp Hal. eexists. split; [exact (ranges_closed g Hp Hal)|]. intro j. apply ceil_div_lt. lia.
Qed.

(** Combinator-level / top-level constraints ([within_block = None]): the whole sequence. *)
Lemma ranges_none : 0 < T -> map_block_trial_ranges fb None = Some [(0, T)].
Proof.
  intros HT. unfold map_block_trial_ranges. rewrite ranges_loop_closed by (unfold trials; lia).
  unfold trials. fold T. rewrite Nat.sub_0_r, ceil_div_same by exact HT. cbn [seq map].
  rewrite Nat.mul_0_l, !Nat.add_0_r, Nat.min_id. reflexivity.
Qed.

(** every window is a non-empty range inside [0, T) *)
Lemma ranges_inside :
  forall g rs s e,
    g_preamble g < g_trials g ->
    fl_alignment fb <> PostPreamble ->
    map_block_trial_ranges fb (Some g) = Some rs ->
    In (s, e) rs -> s < e /\ e <= T.
Proof.
  intros g rs s e Hp Hal Hrs Hin.
  destruct (ranges_spec g Hp Hal) as [n [Heq Hn]].
  rewrite Heq in Hrs. injection Hrs as <-.
  apply in_map_iff in Hin. destruct Hin as [j [Hj Hjn]].
  apply in_seq in Hjn. assert (Hlt : j < n) by lia. apply Hn in Hlt.
  unfold window_of in Hj. injection Hj as <- <-. split; lia.
Qed.

(** every trial lies in some window *)
Lemma ranges_cover :
  forall g rs t,
    g_preamble g < g_trials g ->
    g_preamble g < T ->
    fl_alignment fb <> PostPreamble ->
    map_block_trial_ranges fb (Some g) = Some rs ->
    t < T ->
    exists s e, In (s, e) rs /\ s <= t < e.
Proof.
  intros g rs t Hp HpT Hal Hrs Ht.
  destruct (ranges_spec g Hp Hal) as [n [Heq Hn]].
  rewrite Heq in Hrs. injection Hrs as <-.
  set (step := g_trials g - g_preamble g) in *.
  assert (Hstep : 0 < step) by (unfold step; lia).
  assert (Hn0 : 0 < n) by (apply Hn; lia).
  (* the window index: t / step if that window exists, else the last one *)
  destruct (Nat.lt_ge_cases (t / step) n) as [Hq|Hq].
  - exists ((t / step) * step), (Nat.min ((t / step) * step + g_trials g) T). split.
    + apply in_map_iff. exists (t / step). split; [reflexivity|]. apply in_seq. lia.
    + pose proof (Nat.div_mod t step ltac:(lia)) as Hdm.
      pose proof (Nat.mod_upper_bound t step ltac:(lia)) as Hmb.
      split; [lia|]. apply Nat.min_glb_lt; [|exact Ht].
      unfold step in *. lia.
  - exists ((n - 1) * step), (Nat.min ((n - 1) * step + g_trials g) T). split.
    + apply in_map_iff. exists (n - 1). split; [reflexivity|]. apply in_seq. lia.
    + assert (Hlast : ~ n * step < T - g_preamble g) by (intros H; apply Hn in H; lia).
      pose proof (Nat.div_mod t step ltac:(lia)) as Hdm.
      split.
      * assert ((n - 1) * step <= (t / step) * step) by (apply Nat.mul_le_mono_r; lia). lia.
      * apply Nat.min_glb_lt; [|exact Ht].
        assert (n * step = (n - 1) * step + step) by (clear -Hn0; destruct n; [lia|cbn; lia]).
        unfold step in *. lia.
Qed.

End Ranges.
