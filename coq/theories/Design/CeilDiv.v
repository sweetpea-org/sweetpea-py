(** Arithmetic of [DocSem.ceil_div]: [ceil_div a s] is the number of rounds of a loop that
    goes from 0 in steps of [s] while below [a]; both window loops, [DocSem.rep_windows] of the
    documented semantics and [Layout.ranges_loop] of the model of the code, are such loops. *)
From Coq Require Import Arith Lia.
From SP Require Import Design.DocSem.

Lemma ceil_div_lt : forall a s j, 0 < s -> (j < ceil_div a s <-> j * s < a).
Proof.
  intros a s j Hs. unfold ceil_div. split; intro H.
  - destruct (Nat.lt_ge_cases (j * s) a) as [L|L]; [exact L|]. exfalso.
    assert ((a + s - 1) / s < j + 1) by (apply Nat.div_lt_upper_bound; lia). lia.
  - assert (j + 1 <= (a + s - 1) / s) by (apply Nat.div_le_lower_bound; lia). lia.
Qed.

(** ... and the only such number *)
Lemma ceil_div_unique : forall a s n, 0 < s -> (forall j, j < n <-> j * s < a) -> n = ceil_div a s.
Proof.
  intros a s n Hs Hn. destruct (Nat.lt_trichotomy n (ceil_div a s)) as [H|[H|H]]; [|exact H|].
  - apply ceil_div_lt, Hn in H; [lia|exact Hs].
  - apply Hn, ceil_div_lt in H; [lia|exact Hs].
Qed.

Lemma ceil_div_0 : forall s, 0 < s -> ceil_div 0 s = 0.
Proof. intros s Hs. unfold ceil_div. apply Nat.div_small. lia. Qed.

Lemma ceil_div_succ : forall a s, 0 < s -> 0 < a -> ceil_div a s = S (ceil_div (a - s) s).
Proof.
  intros a s Hs Ha. symmetry. apply ceil_div_unique; [exact Hs|]. intros [|j].
  - split; intros _; lia.
  - rewrite <- Nat.succ_lt_mono, (ceil_div_lt (a - s) s j Hs). cbn [Nat.mul]. lia.
Qed.

Lemma ceil_div_mul : forall m n, 0 < n -> ceil_div (m * n) n = m.
Proof. intros m n Hn. symmetry. apply ceil_div_unique; [exact Hn|]. intro j. rewrite <- Nat.mul_lt_mono_pos_r by exact Hn. reflexivity. Qed.

Lemma ceil_div_same : forall n, 0 < n -> ceil_div n n = 1.
Proof. intros n Hn. rewrite <- (Nat.mul_1_l n) at 1. apply ceil_div_mul, Hn. Qed.
