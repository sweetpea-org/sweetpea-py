(** Property C26, documentation side = code side: the windows the documented semantics
    ([DocSem.scope_windows], Design/DocSemScope.v) gives to a constraint of a repeated block are
    literally the trial ranges the model of the code ([Layout.map_block_trial_ranges],
    Design/RangesProofs.v) computes for a constraint carrying that block's geometry. *)
From Coq Require Import List Arith Lia.
From SP Require Import Design.Flat Design.Layout Design.RangesProofs.
From SP Require Import Design.DocSem Design.DocSemScope.
Import ListNotations.

(** a constraint given to a block of [g_trials g] trials, [g_preamble g] of them preamble, inside a
    sequence of [fl_trials fb] trials (alignment other than POST_PREAMBLE, where the code shifts the
    start of the windows and not their end) *)
Theorem doc_scope_eq_code_ranges : forall (fb : flat) (g : geometry),
  g_preamble g < g_trials g ->
  fl_alignment fb <> PostPreamble ->
  exists ws,
    scope_windows (ScRep ScNone (g_trials g) (g_preamble g) 0) (fl_trials fb) = Ok (ws, 1) /\
    map_block_trial_ranges fb (Some g) = Some ws /\
    ws = map (rep_window (g_trials g) (g_preamble g) (fl_trials fb))
             (seq 0 (rep_count (g_trials g) (g_preamble g) (fl_trials fb))).
Proof.
  intros fb g HP Hal. eexists. split; [apply scope_windows_rep_none; exact HP|]. split; [|reflexivity].
  rewrite (ranges_closed fb g HP Hal). reflexivity.
Qed.

(** a constraint given to the outermost combinator: the whole sequence on both sides *)
Theorem doc_scope_eq_code_ranges_none : forall fb : flat,
  0 < fl_trials fb ->
  scope_windows ScNone (fl_trials fb) = Ok ([(0, fl_trials fb)], 1) /\
  map_block_trial_ranges fb None = Some [(0, fl_trials fb)].
Proof. intros fb H. split; [reflexivity|apply ranges_none; exact H]. Qed.
