(** Proofs about Design/Derive.v (the model of generate_derivations):
    overlap is reported iff two levels accept a common tuple of the cross
    product, uncovered tuples and empty levels are reported exactly, an outcome
    without error means every tuple has exactly one accepting level (the one
    [select_level] returns), the [ElseLevel] predicate is the complement of the
    other levels, and the window of every applicable trial lies in the cross
    product (dependencies that are defined from the first trial on). *)
From Coq Require Import List Bool Arith Lia.
From SP Require Import Base.Lists Design.Flat Design.Layout Design.Derive Design.ListSums.
Import ListNotations.

Lemma cell_eqb_eq : forall a b, cell_eqb a b = true <-> a = b.
Proof.
  intros [x| |] [y| |]; cbn; split; intro H; try congruence; try reflexivity.
  - apply Nat.eqb_eq in H. congruence.
  - inversion H. apply Nat.eqb_refl.
Qed.

Lemma tuple_eqb_eq : forall a b, tuple_eqb a b = true <-> a = b.
Proof.
  induction a as [|x a IH]; intros [|y b]; cbn; split; intro H; try congruence; try reflexivity.
  - apply andb_true_iff in H. destruct H as [H1 H2]. apply cell_eqb_eq in H1. apply IH in H2. congruence.
  - inversion H. subst. apply andb_true_iff. split; [apply cell_eqb_eq | apply IH]; reflexivity.
Qed.

Lemma tuple_eqb_refl : forall a, tuple_eqb a a = true.
Proof. intro a. apply tuple_eqb_eq. reflexivity. Qed.

Lemma tuple_eqb_neq : forall a b, a <> b -> tuple_eqb a b = false.
Proof. intros a b H. destruct (tuple_eqb a b) eqn:E; [apply tuple_eqb_eq in E; contradiction | reflexivity]. Qed.

Lemma lookup_cons : forall t t' l a,
  lookup t ((t', l) :: a) = if tuple_eqb t t' then Some l else lookup t a.
Proof. reflexivity. Qed.

(** * The cross product: [DocSem.product] at cells *)
Lemma product_docsem : forall ls, product ls = DocSem.product ls.
Proof. induction ls as [|l r IH]; [reflexivity|]. cbn. rewrite IH. reflexivity. Qed.

Lemma nodup_product : forall ls, Forall (@NoDup cell) ls -> NoDup (product ls).
Proof. intros ls. rewrite product_docsem. apply NoDup_product. Qed.

Lemma nodup_levels_of : forall d dp i, NoDup (levels_of d dp i).
Proof.
  intros d dp i. unfold levels_of. apply NoDup_app_intro.
  - apply NoDup_map_inj_in; [intros a b _ _ E; congruence | apply seq_NoDup].
  - destruct (_ <? _); constructor; [intros [] | constructor].
  - intros x Hx Hin. apply in_map_iff in Hx. destruct Hx as [n [Hn _]]. subst x.
    destruct (_ <? _); cbn in Hin; [destruct Hin as [E|[]]; discriminate | contradiction].
Qed.

Lemma nodup_domain : forall d, NoDup (domain d).
Proof.
  intro d. apply nodup_product. unfold domain_lists. apply Forall_forall. intros l Hl.
  apply in_flat_map in Hl. destruct Hl as [dp [_ Hl]]. apply in_map_iff in Hl.
  destruct Hl as [i [Hi _]]. subst l. apply nodup_levels_of.
Qed.

Lemma scan_inr : forall d li l cp acc valid acc' valid',
  scan d li l cp acc valid = inr (acc', valid') ->
  valid' = valid ++ filter (accepts_level d l) cp /\
  (forall t, In t cp -> accepts_level d l t = true -> lookup t acc = None /\ lookup t acc' = Some li) /\
  (forall t, lookup t acc' = lookup t acc \/
             (In t cp /\ accepts_level d l t = true /\ lookup t acc = None /\ lookup t acc' = Some li)).
Proof.
  intros d li l cp. induction cp as [|t0 r IH]; intros acc valid acc' valid' H; cbn in H.
  - inversion H; subst. cbn. rewrite app_nil_r. split; [reflexivity|]. split; [intros t []|]. intro t. left. reflexivity.
  - destruct (accepts_level d l t0) eqn:Eacc.
    + destruct (lookup t0 acc) eqn:El; [discriminate|].
      apply IH in H. destruct H as [Hv [H2 H3]].
      split; [|split].
      * cbn. rewrite Eacc. rewrite Hv. rewrite <- app_assoc. reflexivity.
      * intros t [Ht|Ht] Ha.
        -- subst t. split; [assumption|].
           destruct (H3 t0) as [E|[_ [_ [_ E]]]]; [|assumption].
           rewrite E. rewrite lookup_cons. rewrite tuple_eqb_refl. reflexivity.
        -- destruct (H2 t Ht Ha) as [E1 E2]. split; [|assumption].
           rewrite lookup_cons in E1. destruct (tuple_eqb t t0); [discriminate|assumption].
      * intro t. destruct (H3 t) as [E|[Hin [Ha [E1 E2]]]].
        -- rewrite lookup_cons in E. destruct (tuple_eqb t t0) eqn:Et.
           ++ apply tuple_eqb_eq in Et. subst t. right. repeat split; try assumption. left; reflexivity.
           ++ left. assumption.
        -- rewrite lookup_cons in E1. destruct (tuple_eqb t t0); [discriminate|].
           right. repeat split; try assumption. right; assumption.
    + apply IH in H. destruct H as [Hv [H2 H3]].
      split; [|split].
      * cbn. rewrite Eacc. assumption.
      * intros t [Ht|Ht] Ha; [subst t; congruence | apply H2; assumption].
      * intro t. destruct (H3 t) as [E|[Hin [Ha [E1 E2]]]]; [left; assumption|].
        right. repeat split; try assumption. right; assumption.
Qed.

Lemma scan_inl : forall d li l cp acc valid l0 l2 t,
  NoDup cp -> scan d li l cp acc valid = inl (l0, l2, t) ->
  l2 = li /\ In t cp /\ accepts_level d l t = true /\ lookup t acc = Some l0.
Proof.
  intros d li l cp. induction cp as [|t0 r IH]; intros acc valid l0 l2 t Hnd H; cbn in H; [discriminate|].
  inversion Hnd as [|? ? Hnot Hr]; subst.
  destruct (accepts_level d l t0) eqn:Eacc.
  - destruct (lookup t0 acc) eqn:El.
    + inversion H; subst. repeat split; try assumption. left; reflexivity.
    + apply IH in H; [|assumption]. destruct H as [E [Hin [Ha Hl]]].
      repeat split; try assumption; [right; assumption|].
      rewrite lookup_cons in Hl. rewrite tuple_eqb_neq in Hl; [assumption|].
      intro E2. subst. contradiction.
  - apply IH in H; [|assumption]. destruct H as [E [Hin [Ha Hl]]].
    repeat split; try assumption. right; assumption.
Qed.

Definition Inv (d : dfac) (cp : list tuple) (li : nat) (acc : assoc) : Prop :=
  (forall t l0, lookup t acc = Some l0 -> l0 < li /\ In t cp /\ accepts d l0 t = true) /\
  (forall t l0, l0 < li -> In t cp -> accepts d l0 t = true -> lookup t acc = Some l0).

Lemma accepts_at : forall d pre l r t, df_levels d = pre ++ l :: r ->
  accepts d (length pre) t = accepts_level d l t.
Proof.
  intros d pre l r t H. unfold accepts. rewrite H. rewrite nth_error_app2 by lia.
  rewrite Nat.sub_diag. reflexivity.
Qed.

Lemma accepts_lt : forall d l t, accepts d l t = true -> l < length (df_levels d).
Proof.
  intros d l t H. unfold accepts in H. destruct (nth_error (df_levels d) l) eqn:E; [|discriminate].
  apply nth_error_Some. congruence.
Qed.

Lemma filter_nil_iff {A} (f : A -> bool) : forall l, filter f l = [] <-> forall x, In x l -> f x = false.
Proof.
  induction l as [|x l IH]; cbn; [split; [intros _ y []|reflexivity]|].
  destruct (f x) eqn:E; split; intro H.
  - discriminate.
  - specialize (H x (or_introl eq_refl)). congruence.
  - intros y [Hy|Hy]; [subst; assumption | apply IH; assumption].
  - apply IH. intros y Hy. apply H. right; assumption.
Qed.

(** scanning one more level without overlap extends the invariant to that level *)
Lemma Inv_step : forall d cp li l acc acc1 valid,
  (forall t, accepts d li t = accepts_level d l t) -> Inv d cp li acc ->
  scan d li l cp acc [] = inr (acc1, valid) -> Inv d cp (S li) acc1.
Proof.
  intros d cp li l acc acc1 valid Hacc [I1 I2] Es. apply scan_inr in Es. destruct Es as [_ [H2 H3]]. split.
  - intros t l0 Hl. destruct (H3 t) as [E|[Hin [Ha [E1 E2]]]].
    + rewrite E in Hl. destruct (I1 t l0 Hl) as [A [B C]]. repeat split; try assumption. lia.
    + rewrite E2 in Hl. injection Hl as <-. repeat split; try assumption; [lia|]. rewrite Hacc. assumption.
  - intros t l0 Hlt Hin Ha. assert (Hc : l0 < li \/ l0 = li) by lia. destruct Hc as [Hc|Hc].
    + pose proof (I2 t l0 Hc Hin Ha) as E. destruct (H3 t) as [E3|[_ [_ [E1 _]]]]; congruence.
    + subst l0. rewrite Hacc in Ha. apply (H2 t Hin Ha).
Qed.

Definition errs_spec (d : dfac) (cx : dctx) (cp : list tuple) (lo hi : nat) (errs errs' : list derr) : Prop :=
  forall e, In e errs' <->
    In e errs \/ exists l, lo <= l < hi /\ e = NoMatchLevel l (cx_crossed cx) (cx_rcc cx) /\
                           forall t, In t cp -> accepts d l t = false.

Lemma errs_spec_trans : forall d cx cp lo mid hi e0 e1 e2, lo <= mid <= hi ->
  errs_spec d cx cp lo mid e0 e1 -> errs_spec d cx cp mid hi e1 e2 -> errs_spec d cx cp lo hi e0 e2.
Proof.
  intros d cx cp lo mid hi e0 e1 e2 Hm H1 H2 e. rewrite (H2 e), (H1 e). split.
  - intros [[He|[l0 [Hl Hr]]]|[l0 [Hl Hr]]]; [left; assumption| |]; right; exists l0; (split; [lia|assumption]).
  - intros [He|[l0 [Hl Hr]]]; [left; left; assumption|].
    destruct (Nat.lt_ge_cases l0 mid); [left; right|right]; exists l0; (split; [lia|assumption]).
Qed.

(** level [li] is reported exactly when it accepts no tuple of the cross product *)
Lemma errs_spec_step : forall d cx cp li l errs,
  (forall t, accepts d li t = accepts_level d l t) ->
  errs_spec d cx cp li (S li) errs
    (match filter (accepts_level d l) cp with [] => errs ++ [NoMatchLevel li (cx_crossed cx) (cx_rcc cx)] | _ => errs end).
Proof.
  intros d cx cp li l errs Hacc e. destruct (filter (accepts_level d l) cp) as [|v vs] eqn:Hv.
  - pose proof (proj1 (filter_nil_iff _ _) Hv) as Hno. rewrite in_app_iff. cbn. split.
    + intros [He|[He|[]]]; [left; assumption|]. right. exists li. repeat split; try lia; [congruence|].
      intros t Ht. rewrite Hacc. apply Hno; assumption.
    + intros [He|[l0 [Hl [He _]]]]; [left; assumption|]. right. left. assert (l0 = li) by lia. subst. reflexivity.
  - split; [intro He; left; assumption|]. intros [He|[l0 [Hl [He Hno]]]]; [assumption|].
    assert (l0 = li) by lia. subst l0. exfalso.
    assert (Hin : In v (filter (accepts_level d l) cp)) by (rewrite Hv; left; reflexivity).
    apply filter_In in Hin. destruct Hin as [Hin Ha]. specialize (Hno v Hin). rewrite Hacc in Hno. congruence.
Qed.

Lemma gen_levels_state : forall d cx cp, NoDup cp ->
  forall ls pre acc errs ders acc' errs' ders',
  df_levels d = pre ++ ls -> Inv d cp (length pre) acc ->
  gen_levels d cx cp (length pre) ls acc errs ders = LState acc' errs' ders' ->
  Inv d cp (length (df_levels d)) acc' /\ errs_spec d cx cp (length pre) (length (df_levels d)) errs errs'.
Proof.
  intros d cx cp Hnd. induction ls as [|l r IH]; intros pre acc errs ders acc' errs' ders' Hlev Hinv H; cbn in H.
  - inversion H; subst. rewrite Hlev. rewrite app_nil_r. split; [assumption|].
    intro e. split; [intro He; left; assumption|]. intros [He|[l [Hl _]]]; [assumption|lia].
  - destruct (scan d (length pre) l cp acc []) as [[[l1 l2] t]|[acc1 valid]] eqn:Es; [discriminate|].
    assert (Hacc : forall t, accepts d (length pre) t = accepts_level d l t) by (intro t; eapply accepts_at; eassumption).
    pose proof (Inv_step _ _ _ _ _ _ _ Hacc Hinv Es) as Hinv1.
    apply scan_inr in Es. destruct Es as [Hv _]. cbn in Hv. subst valid.
    pose proof (errs_spec_step d cx cp _ l errs Hacc) as Hstep.
    set (errs1 := match filter (accepts_level d l) cp with [] => errs ++ [NoMatchLevel (length pre) (cx_crossed cx) (cx_rcc cx)] | _ => errs end) in *.
    assert (Hlev1 : df_levels d = (pre ++ [l]) ++ r) by (rewrite <- app_assoc; assumption).
    assert (Hlen : length (pre ++ [l]) = S (length pre)) by (rewrite app_length; cbn; lia).
    assert (Hlt : length pre < length (df_levels d)) by (rewrite Hlev, app_length; cbn; lia).
    rewrite <- Hlen in H, Hinv1.
    assert (G : forall ders0, gen_levels d cx cp (length (pre ++ [l])) r acc1 errs1 ders0 = LState acc' errs' ders' ->
                Inv d cp (length (df_levels d)) acc' /\ errs_spec d cx cp (length pre) (length (df_levels d)) errs errs').
    { intros ders0 H0. destruct (IH _ _ _ _ _ _ _ Hlev1 Hinv1 H0) as [A B]. split; [assumption|].
      rewrite Hlen in B. refine (errs_spec_trans _ _ _ _ (S (length pre)) _ _ _ _ _ Hstep B). lia. }
    destruct (cx_in_act cx); [destruct (derivation d cx (length pre) _) as [dv|]; [|discriminate]|]; exact (G _ H).
Qed.

Lemma gen_levels_overlap : forall d cx cp, NoDup cp ->
  forall ls pre acc errs ders l1 l2 t,
  df_levels d = pre ++ ls -> Inv d cp (length pre) acc ->
  gen_levels d cx cp (length pre) ls acc errs ders = LOverlap l1 l2 t ->
  l1 < l2 /\ In t cp /\ accepts d l1 t = true /\ accepts d l2 t = true.
Proof.
  intros d cx cp Hnd. induction ls as [|l r IH]; intros pre acc errs ders l1 l2 t Hlev Hinv H; cbn in H; [discriminate|].
  assert (Hacc : forall t, accepts d (length pre) t = accepts_level d l t) by (intro t0; eapply accepts_at; eassumption).
  destruct (scan d (length pre) l cp acc []) as [[[a b] t0]|[acc1 valid]] eqn:Es.
  - inversion H; subst. apply scan_inl in Es; [|assumption]. destruct Es as [E [Hin [Ha Hl]]]. subst.
    destruct Hinv as [I1 _]. destruct (I1 _ _ Hl) as [A [B C]]. repeat split; try assumption. rewrite Hacc. assumption.
  - pose proof (Inv_step _ _ _ _ _ _ _ Hacc Hinv Es) as Hinv1.
    assert (Hlev1 : df_levels d = (pre ++ [l]) ++ r) by (rewrite <- app_assoc; assumption).
    assert (Hlen : length (pre ++ [l]) = S (length pre)) by (rewrite app_length; cbn; lia).
    rewrite <- Hlen in H, Hinv1.
    destruct (cx_in_act cx).
    + destruct (derivation d cx (length pre) valid) as [dv|]; [|discriminate].
      eapply IH; eassumption.
    + eapply IH; eassumption.
Qed.

Lemma inv_init : forall d cp, Inv d cp 0 [].
Proof. intros d cp. split; [intros t l0 H; discriminate | intros t l0 H; lia]. Qed.

Definition ambiguous (d : dfac) : Prop :=
  exists l1 l2 t, l1 <> l2 /\ In t (domain d) /\ accepts d l1 t = true /\ accepts d l2 t = true.

Lemma gen_factor_ok_inv : forall d cx errs ders, gen_factor d cx = DOk errs ders ->
  exists acc errs0, Inv d (domain d) (length (df_levels d)) acc /\
    errs_spec d cx (domain d) 0 (length (df_levels d)) [] errs0 /\
    errs = errs0 ++ map Uncovered (filter (fun t => is_none (lookup t acc)) (domain d)).
Proof.
  intros d cx errs ders H. unfold gen_factor in H.
  destruct (gen_levels d cx (domain d) 0 (df_levels d) [] [] []) as [? ? ?| |acc errs0 ders0] eqn:E; try discriminate.
  inversion H; subst. exists acc, errs0.
  pose proof (gen_levels_state d cx (domain d) (nodup_domain d) (df_levels d) [] [] [] [] _ _ _ eq_refl (inv_init d _) E) as [A B].
  split; [exact A|]. split; [exact B|]. reflexivity.
Qed.

Theorem overlap_witness : forall d cx l1 l2 t, gen_factor d cx = DOverlap l1 l2 t ->
  l1 < l2 /\ In t (domain d) /\ accepts d l1 t = true /\ accepts d l2 t = true.
Proof.
  intros d cx l1 l2 t H. unfold gen_factor in H.
  destruct (gen_levels d cx (domain d) 0 (df_levels d) [] [] []) as [a b t0| |acc errs0 ders0] eqn:E; try discriminate.
  inversion H; subst.
  exact (gen_levels_overlap d cx (domain d) (nodup_domain d) (df_levels d) [] [] [] [] l1 l2 t eq_refl (inv_init d _) E).
Qed.

Theorem ok_unique : forall d cx errs ders, gen_factor d cx = DOk errs ders ->
  forall t l1 l2, In t (domain d) -> accepts d l1 t = true -> accepts d l2 t = true -> l1 = l2.
Proof.
  intros d cx errs ders H t l1 l2 Hin H1 H2.
  destruct (gen_factor_ok_inv _ _ _ _ H) as [acc [errs0 [[I1 I2] _]]].
  pose proof (I2 t l1 (accepts_lt _ _ _ H1) Hin H1) as E1.
  pose proof (I2 t l2 (accepts_lt _ _ _ H2) Hin H2) as E2. congruence.
Qed.

Theorem overlap_rejected : forall d cx, gen_factor d cx <> DBadIndex ->
  ((exists l1 l2 t, gen_factor d cx = DOverlap l1 l2 t) <-> ambiguous d).
Proof.
  intros d cx Hbad. split.
  - intros [l1 [l2 [t H]]]. apply overlap_witness in H. destruct H as [A [B [C D]]].
    exists l1, l2, t. repeat split; try assumption. lia.
  - intros [l1 [l2 [t [Hne [Hin [H1 H2]]]]]].
    destruct (gen_factor d cx) as [a b t0| |errs ders] eqn:E.
    + exists a, b, t0. reflexivity.
    + contradiction.
    + exfalso. apply Hne. eapply ok_unique; eassumption.
Qed.

Lemma gen_levels_not_bad : forall d cx cp, cx_in_act cx = false ->
  forall ls li acc errs ders, gen_levels d cx cp li ls acc errs ders <> LBad.
Proof.
  intros d cx cp Hact. induction ls as [|l r IH]; intros li acc errs ders; cbn; [discriminate|].
  destruct (scan d li l cp acc []) as [[[a b] t0]|[acc1 valid]]; [discriminate|].
  rewrite Hact. apply IH.
Qed.

Theorem check_factor_not_bad : forall d crossed rcc, check_factor d crossed rcc <> DBadIndex.
Proof.
  intros d crossed rcc. unfold check_factor, gen_factor.
  destruct (gen_levels d (no_ctx crossed rcc) (domain d) 0 (df_levels d) [] [] []) eqn:E; try discriminate.
  exfalso. eapply gen_levels_not_bad; [|eassumption]. reflexivity.
Qed.

Theorem uncovered_reported : forall d cx errs ders, gen_factor d cx = DOk errs ders ->
  forall t, In (Uncovered t) errs <-> (In t (domain d) /\ forall l, accepts d l t = false).
Proof.
  intros d cx errs ders H t.
  destruct (gen_factor_ok_inv _ _ _ _ H) as [acc [errs0 [[I1 I2] [Hs He]]]]. subst errs.
  rewrite in_app_iff. split.
  - intros [Hin|Hin].
    + apply Hs in Hin. destruct Hin as [[]|[l [_ [E _]]]]. discriminate.
    + apply in_map_iff in Hin. destruct Hin as [t0 [E Hin]]. inversion E; subst t0.
      apply filter_In in Hin. destruct Hin as [Hin Hn]. split; [assumption|].
      intro l. destruct (accepts d l t) eqn:Ea; [|reflexivity].
      rewrite (I2 t l (accepts_lt _ _ _ Ea) Hin Ea) in Hn. discriminate.
  - intros [Hin Hno]. right. apply in_map_iff. exists t. split; [reflexivity|].
    apply filter_In. split; [assumption|].
    destruct (lookup t acc) eqn:El; [|reflexivity].
    destruct (I1 _ _ El) as [_ [_ C]]. rewrite Hno in C. discriminate.
Qed.

Theorem nomatch_reported : forall d cx errs ders, gen_factor d cx = DOk errs ders ->
  forall l c r, In (NoMatchLevel l c r) errs <->
    (l < length (df_levels d) /\ c = cx_crossed cx /\ r = cx_rcc cx /\
     forall t, In t (domain d) -> accepts d l t = false).
Proof.
  intros d cx errs ders H l c r.
  destruct (gen_factor_ok_inv _ _ _ _ H) as [acc [errs0 [_ [Hs He]]]]. subst errs.
  rewrite in_app_iff. split.
  - intros [Hin|Hin].
    + apply Hs in Hin. destruct Hin as [[]|[l0 [Hl [E Hno]]]]. inversion E; subst. repeat split; try assumption; lia.
    + apply in_map_iff in Hin. destruct Hin as [t0 [E _]]. discriminate.
  - intros [Hl [Hc [Hr Hno]]]. subst. left. apply Hs. right. exists l. repeat split; try assumption; lia.
Qed.

Lemma first_accepting_some : forall d t ls li,
  (exists k lv, nth_error ls k = Some lv /\ accepts_level d lv t = true) ->
  exists k lv, first_accepting d t li ls = Some (li + k) /\ nth_error ls k = Some lv /\ accepts_level d lv t = true.
Proof.
  intros d t. induction ls as [|l r IH]; intros li [k [lv [Hn Ha]]]; [destruct k; discriminate|].
  cbn. destruct (accepts_level d l t) eqn:E.
  - exists 0, l. rewrite Nat.add_0_r. repeat split; assumption.
  - destruct k as [|k]; [cbn in Hn; inversion Hn; subst; congruence|].
    destruct (IH (S li) (ex_intro _ k (ex_intro _ lv (conj Hn Ha)))) as [k' [lv' [A [B C]]]].
    exists (S k'), lv'. repeat split; try assumption. rewrite A. f_equal. lia.
Qed.

Lemma first_accepting_none : forall d t ls li,
  first_accepting d t li ls = None -> forall k lv, nth_error ls k = Some lv -> accepts_level d lv t = false.
Proof.
  intros d t. induction ls as [|l r IH]; intros li H k lv Hn; [destruct k; discriminate|].
  cbn in H. destruct (accepts_level d l t) eqn:E; [discriminate|].
  destruct k as [|k]; [cbn in Hn; inversion Hn; subst; assumption|]. eapply IH; eassumption.
Qed.

Lemma first_accepting_sound : forall d t ls li l, first_accepting d t li ls = Some l ->
  exists k lv, l = li + k /\ nth_error ls k = Some lv /\ accepts_level d lv t = true.
Proof.
  intros d t. induction ls as [|x r IH]; intros li l H; cbn in H; [discriminate|].
  destruct (accepts_level d x t) eqn:Ea.
  - inversion H; subst. exists 0, x. repeat split; [lia | assumption].
  - destruct (IH _ _ H) as [k [lv [A [B C]]]]. exists (S k), lv. repeat split; [lia | assumption | assumption].
Qed.

Theorem select_level_accepts : forall d t l, select_level d t = Some l -> accepts d l t = true.
Proof.
  intros d t l H. unfold select_level in H.
  destruct (first_accepting_sound _ _ _ _ _ H) as [k [lv [A [B C]]]]. cbn in A. subst l.
  unfold accepts. rewrite B. assumption.
Qed.

Theorem select_level_none : forall d t, select_level d t = None -> forall l, accepts d l t = false.
Proof.
  intros d t H l. unfold accepts. destruct (nth_error (df_levels d) l) eqn:E; [|reflexivity].
  eapply first_accepting_none; eassumption.
Qed.

Theorem derive_ok_unique : forall d cx errs ders,
  gen_factor d cx = DOk errs ders -> forallb is_warning errs = true ->
  forall t, In t (domain d) ->
  exists l, accepts d l t = true /\ (forall l', accepts d l' t = true -> l' = l) /\ select_level d t = Some l.
Proof.
  intros d cx errs ders H Hw t Hin.
  destruct (select_level d t) as [l|] eqn:Es.
  - exists l. pose proof (select_level_accepts _ _ _ Es) as Ha. repeat split; try assumption.
    intros l' Hl'. eapply ok_unique; eassumption.
  - exfalso. assert (Hu : In (Uncovered t) errs).
    { apply (uncovered_reported _ _ _ _ H). split; [assumption | apply select_level_none; assumption]. }
    rewrite forallb_forall in Hw. specialize (Hw _ Hu). discriminate.
Qed.

Lemma in_table_levels : forall d tab, In tab (table_levels d) <-> exists l, nth_error (df_levels d) l = Some (DTable tab).
Proof.
  intros d tab. unfold table_levels. rewrite in_flat_map. split.
  - intros [lv [Hin Ht]]. destruct lv as [tab0|]; [|destruct Ht].
    destruct Ht as [E|[]]. subst. apply In_nth_error in Hin. assumption.
  - intros [l Hl]. exists (DTable tab). split; [eapply nth_error_In; eassumption | left; reflexivity].
Qed.

Theorem else_complement : forall d l, nth_error (df_levels d) l = Some DElse ->
  forall t, accepts d l t = true <->
            (forall l' tab, nth_error (df_levels d) l' = Some (DTable tab) -> accepts d l' t = false).
Proof.
  intros d l Hl t. unfold accepts at 1. rewrite Hl. cbn. rewrite negb_true_iff. split.
  - intros H l' tab Hl'. unfold accepts. rewrite Hl'. cbn.
    destruct (in_table t tab) eqn:E; [|reflexivity].
    assert (Hex : existsb (in_table t) (table_levels d) = true).
    { apply existsb_exists. exists tab. split; [apply in_table_levels; exists l'; assumption | assumption]. }
    congruence.
  - intro H. destruct (existsb (in_table t) (table_levels d)) eqn:E; [|reflexivity].
    apply existsb_exists in E. destruct E as [tab [Hin Ht]]. apply in_table_levels in Hin. destruct Hin as [l' Hl'].
    specialize (H l' tab Hl'). unfold accepts in H. rewrite Hl' in H. cbn in H. congruence.
Qed.

Theorem else_total : forall d l, nth_error (df_levels d) l = Some DElse ->
  forall t, exists l', accepts d l' t = true.
Proof.
  intros d l Hl t. destruct (accepts d l t) eqn:E; [exists l; assumption|].
  unfold accepts in E. rewrite Hl in E. cbn in E. apply negb_false_iff in E.
  apply existsb_exists in E. destruct E as [tab [Hin Ht]]. apply in_table_levels in Hin. destruct Hin as [l' Hl'].
  exists l'. unfold accepts. rewrite Hl'. assumption.
Qed.

Theorem else_never_uncovered : forall d cx l errs ders, nth_error (df_levels d) l = Some DElse ->
  gen_factor d cx = DOk errs ders -> forall t, ~ In (Uncovered t) errs.
Proof.
  intros d cx l errs ders Hl H t Hin. apply (uncovered_reported _ _ _ _ H) in Hin. destruct Hin as [_ Hno].
  destruct (else_total d l Hl t) as [l' Hl']. rewrite Hno in Hl'. discriminate.
Qed.

(** * The window of an applicable trial lies in the cross product *)
Lemma in_product : forall ls t, In t (product ls) <-> Forall2 (fun c l => In c l) t ls.
Proof. intros ls t. rewrite product_docsem. apply in_product_iff. Qed.

Lemma all_some_map_Forall2 {A B} (f : A -> option B) (P : B -> A -> Prop) : forall l,
  (forall a, In a l -> exists b, f a = Some b /\ P b a) ->
  exists bs, all_some' (map f l) = Some bs /\ Forall2 P bs l.
Proof.
  induction l as [|a l IH]; intro H; cbn.
  - exists []. split; [reflexivity|constructor].
  - destruct (H a (or_introl eq_refl)) as [b [Hb Hp]]. rewrite Hb.
    destruct IH as [bs [Hbs Hf]]; [intros a0 Ha0; apply H; right; assumption|].
    rewrite Hbs. exists (b :: bs). split; [reflexivity | constructor; assumption].
Qed.

Definition col_ok (n : nat) (dp : ddep) (col : list cell) : Prop :=
  length col = n /\ Forall (fun c => exists k, c = CLevel k /\ k < dp_nlevels dp) col.

Definition wcell (w su i : nat) (col : list cell) (j : nat) : option cell :=
  let back := (w - 1 - j) * su in if back <=? i then nth_error col (i - back) else Some CBefore.

Lemma window_args_eq : forall cols w i su,
  window_args cols w i su =
  option_map (@concat cell) (all_some' (map (fun col => all_some' (map (wcell w su i col) (seq 0 w))) cols)).
Proof. reflexivity. Qed.

Lemma all_some_concat_product : forall (f : list cell -> option (list cell)) cols lss,
  Forall2 (fun col ls => exists cs, f col = Some cs /\ Forall2 (fun c l => In c l) cs ls) cols lss ->
  exists t, option_map (@concat cell) (all_some' (map f cols)) = Some t /\ In t (product (concat lss)).
Proof.
  intros f cols lss H. induction H as [|col ls cols lss [cs [Hcs Hf]] Hrest IH]; cbn.
  - exists []. split; [reflexivity | left; reflexivity].
  - destruct IH as [t [Ht Hin]]. rewrite Hcs.
    destruct (all_some' (map f cols)) as [rest|]; [|discriminate]. cbn in Ht. inversion Ht; subst t.
    cbn. exists (cs ++ concat rest). split; [reflexivity|].
    apply in_product. apply Forall2_app; [assumption | apply in_product; assumption].
Qed.

Theorem window_in_domain : forall d cols n su g,
  1 <= su ->
  Forall (fun dp => dp_ready dp = 0) (df_deps d) ->
  Forall2 (col_ok n) (df_deps d) cols ->
  df_start d <= g -> g * su < n ->
  exists t, window_args cols (df_width d) (g * su) su = Some t /\ In t (domain d).
Proof.
  intros d cols n su g Hsu Hready Hcols Hstart Hlt.
  rewrite window_args_eq. unfold domain, domain_lists. rewrite flat_map_concat_map.
  apply all_some_concat_product.
  remember (df_width d) as w eqn:Ew.
  remember (df_deps d) as deps0 eqn:Ed. clear Ed.
  revert Hready. induction Hcols as [|dp col deps cols' [Hlen Hall] Hrest IH]; intro Hready; cbn; [constructor|].
  pose proof (Forall_inv Hready) as Hr. pose proof (Forall_inv_tail Hready) as Hready'. cbn in Hr.
  constructor; [|apply IH; assumption].
  destruct (all_some_map_Forall2 (wcell w su (g * su) col) (fun c j => In c (levels_of d dp j)) (seq 0 w)) as [cs [Hcs Hf]].
  - intros j Hj. apply in_seq in Hj. unfold wcell. cbn zeta. destruct ((w - 1 - j) * su <=? g * su) eqn:Eb.
    + apply Nat.leb_le in Eb.
      destruct (nth_error col (g * su - (w - 1 - j) * su)) as [c|] eqn:En.
      * exists c. split; [reflexivity|]. apply nth_error_In in En. rewrite Forall_forall in Hall.
        destruct (Hall _ En) as [k [Ek Hk]]. subst c. unfold levels_of. apply in_or_app. left.
        apply in_map. apply in_seq. lia.
      * exfalso. apply nth_error_None in En. rewrite Hlen in En. clear - En Hlt. lia.
    + apply Nat.leb_gt in Eb. exists CBefore. split; [reflexivity|].
      unfold levels_of. apply in_or_app. right. rewrite Hr. rewrite <- Ew.
      assert (Hgw : g < w - 1 - j) by nia.
      assert (Hc : df_start d + j + 1 <? 0 + w = true) by (apply Nat.ltb_lt; lia).
      rewrite Hc. left. reflexivity.
  - exists cs. split; [assumption|]. apply Forall2_map_r. assumption.
Qed.

(** the level a trial receives: unique, and the one [select_level_for_sample] picks *)
Theorem trial_unique : forall d cx errs ders cols n su g,
  gen_factor d cx = DOk errs ders -> forallb is_warning errs = true ->
  1 <= su -> Forall (fun dp => dp_ready dp = 0) (df_deps d) ->
  Forall2 (col_ok n) (df_deps d) cols ->
  applies_group d g = true -> g * su < n ->
  exists t l, window_args cols (df_width d) (g * su) su = Some t /\
              select_level_for_sample d cols (g * su) su = SelLevel l /\
              accepts d l t = true /\ forall l', accepts d l' t = true -> l' = l.
Proof.
  intros d cx errs ders cols n su g H Hw Hsu Hr Hc Happ Hlt.
  unfold applies_group in Happ. apply andb_true_iff in Happ. destruct Happ as [Hs _]. apply Nat.leb_le in Hs.
  destruct (window_in_domain d cols n su g Hsu Hr Hc Hs Hlt) as [t [Ht Hin]].
  destruct (derive_ok_unique _ _ _ _ H Hw t Hin) as [l [Ha [Hu Hsel]]].
  exists t, l. repeat split; try assumption.
  unfold select_level_for_sample. rewrite Ht, Hsel. reflexivity.
Qed.

Lemma dfac_of_flat_window : forall fb f d, dfac_of_flat fb f = Some d ->
  exists fd w, factor_at fb f = Some fd /\ ff_window fd = Some w.
Proof.
  intros fb f d H. unfold dfac_of_flat in H. destruct (factor_at fb f) as [fd|] eqn:Ef; [|discriminate].
  destruct (ff_window fd) as [w|] eqn:Ew; [|discriminate]. exists fd, w. split; [reflexivity|assumption].
Qed.

Lemma gen_block_ok : forall fb fs errs ders errs' ders',
  gen_block fb fs errs ders = GOk errs' ders' ->
  (forall x, In x errs -> In x errs') /\
  forall f d, In f fs -> dfac_of_flat fb f = Some d ->
    exists w es ds, gen_factor d (ctx_of_flat fb f w) = DOk es ds /\ forall e, In e es -> In (f, e) errs'.
Proof.
  intros fb. induction fs as [|f0 r IH]; intros errs ders errs' ders' H; cbn in H.
  - inversion H; subst. split; [auto | intros f d []].
  - destruct (dfac_of_flat fb f0) as [d0|] eqn:Ed.
    + destruct (dfac_of_flat_window _ _ _ Ed) as [fd [w [Ef Ew]]]. rewrite Ef in H. cbn in H. rewrite Ew in H.
      destruct (gen_factor d0 (ctx_of_flat fb f0 w)) as [| |es ds] eqn:Eg; try discriminate.
      destruct (IH _ _ _ _ H) as [Hmono Hrest]. split.
      * intros x Hx. apply Hmono. apply in_or_app. left. assumption.
      * intros f d [Hf|Hf] Hd.
        -- subst f0. rewrite Ed in Hd. inversion Hd; subst d0. exists w, es, ds. split; [assumption|].
           intros e He. apply Hmono. apply in_or_app. right. apply in_map_iff. exists e. split; [reflexivity|assumption].
        -- apply Hrest; assumption.
    + assert (H' : gen_block fb r errs ders = GOk errs' ders').
      { destruct (option_map (fun fd => ff_window fd) (factor_at fb f0)) as [[w|]|]; assumption. }
      destruct (IH _ _ _ _ H') as [Hmono Hrest]. split; [assumption|].
      intros f d [Hf|Hf] Hd; [subst f0; congruence | apply Hrest; assumption].
Qed.

Lemma gen_block_overlap : forall fb fs errs ders f l1 l2 t,
  gen_block fb fs errs ders = GOverlap f l1 l2 t ->
  exists d w, dfac_of_flat fb f = Some d /\ gen_factor d (ctx_of_flat fb f w) = DOverlap l1 l2 t.
Proof.
  intros fb. induction fs as [|f0 r IH]; intros errs ders f l1 l2 t H; cbn in H; [discriminate|].
  destruct (dfac_of_flat fb f0) as [d0|] eqn:Ed.
  - destruct (dfac_of_flat_window _ _ _ Ed) as [fd [w [Ef Ew]]]. rewrite Ef in H. cbn in H. rewrite Ew in H.
    destruct (gen_factor d0 (ctx_of_flat fb f0 w)) as [a b t0| |es ds] eqn:Eg; try discriminate.
    + inversion H; subst. exists d0, w. split; assumption.
    + eapply IH; eassumption.
  - assert (H' : gen_block fb r errs ders = GOverlap f l1 l2 t).
    { destruct (option_map (fun fd => ff_window fd) (factor_at fb f0)) as [[w|]|]; assumption. }
    eapply IH; eassumption.
Qed.

Theorem block_overlap_sound : forall fb f l1 l2 t, generate_derivations fb = GOverlap f l1 l2 t ->
  exists d, dfac_of_flat fb f = Some d /\ l1 < l2 /\ In t (domain d) /\ accepts d l1 t = true /\ accepts d l2 t = true.
Proof.
  intros fb f l1 l2 t H. apply gen_block_overlap in H. destruct H as [d [w [Hd Hg]]].
  exists d. split; [assumption|]. eapply overlap_witness; eassumption.
Qed.

Theorem block_ok_unique : forall fb errs ders, generate_derivations fb = GOk errs ders ->
  forallb (fun p => is_warning (snd p)) errs = true ->
  forall f d, dfac_of_flat fb f = Some d -> forall t, In t (domain d) ->
  exists l, accepts d l t = true /\ (forall l', accepts d l' t = true -> l' = l) /\ select_level d t = Some l.
Proof.
  intros fb errs ders H Hw f d Hd t Hin.
  destruct (gen_block_ok _ _ _ _ _ _ H) as [_ Hall].
  assert (Hf : In f (seq 0 (length (fl_design fb)))).
  { destruct (dfac_of_flat_window _ _ _ Hd) as [fd [w [Ef _]]]. unfold factor_at in Ef.
    apply in_seq. split; [lia|]. cbn. apply nth_error_Some. congruence. }
  destruct (Hall f d Hf Hd) as [w [es [ds [Hg Hes]]]].
  eapply derive_ok_unique; [eassumption| |assumption].
  apply forallb_forall. intros e He. rewrite forallb_forall in Hw. apply (Hw (f, e)). apply Hes. assumption.
Qed.

Theorem uncovered_fails : forall d cx errs ders t, gen_factor d cx = DOk errs ders ->
  In t (domain d) -> (forall l, accepts d l t = false) -> outcome_fails (gen_factor d cx) = true.
Proof.
  intros d cx errs ders t H Hin Hno. rewrite H. cbn. apply negb_true_iff.
  destruct (forallb is_warning errs) eqn:E; [|reflexivity].
  rewrite forallb_forall in E.
  specialize (E (Uncovered t) (proj2 (uncovered_reported d cx errs ders H t) (conj Hin Hno))). discriminate.
Qed.
