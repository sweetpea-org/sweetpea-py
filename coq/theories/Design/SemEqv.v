(** Two semantic normal forms that differ only in the order (and repetition) of the
    (combination, multiplicity) pairs of their crossings have the same valid sequences.
    [sem_eqv] is the relation decided per program by extract/drv_t2.ml between
    [code_sem (create_flat (plain_input p))] and [ds_sem (doc_sem p)]. *)
From Coq Require Import ZArith List Bool Arith Lia.
From SP Require Import Base.Lists Design.Sem Design.SemFacts.
Import ListNotations.

Definition same_set {A} (l1 l2 : list A) : Prop := forall x, In x l1 <-> In x l2.

Definition crossing_eqv (c1 c2 : dcrossing) : Prop :=
  c_factors c1 = c_factors c2 /\ c_first c1 = c_first c2 /\ c_chunk c1 = c_chunk c2 /\
  same_set (c_mult c1) (c_mult c2).

Definition sem_eqv (S1 S2 : sem) : Prop :=
  s_trials S1 = s_trials S2 /\ s_factors S1 = s_factors S2 /\ s_constraints S1 = s_constraints S2 /\
  Forall2 crossing_eqv (s_crossings S1) (s_crossings S2).

Lemma chunks_ok_eqv : forall S1 S2 s c1 c2, s_trials S1 = s_trials S2 -> crossing_eqv c1 c2 ->
  forall fuel a, chunks_ok fuel S1 s c1 a = chunks_ok fuel S2 s c2 a.
Proof.
  intros S1 S2 s c1 c2 HT [Hf [_ [Hc Hm]]] fuel. induction fuel as [|fuel IH]; intro a; [reflexivity|].
  cbn [chunks_ok]. rewrite HT, Hc, Hf, IH.
  rewrite (forallb_same_set _ _ _ Hm).
  rewrite (forallb_ext _ (fun t => existsb (fun cm => combo_eqb (fst cm) (combo_at s (c_factors c2) t)) (c_mult c2)));
    [reflexivity|]. intro t. apply existsb_same_set. exact Hm.
Qed.

Lemma crossing_ok_eqv : forall S1 S2 s c1 c2, s_trials S1 = s_trials S2 -> crossing_eqv c1 c2 ->
  crossing_ok S1 s c1 = crossing_ok S2 s c2.
Proof.
  intros S1 S2 s c1 c2 HT H. unfold crossing_ok. rewrite (chunks_ok_eqv S1 S2 s c1 c2 HT H).
  destruct H as [_ [Hfi [Hc _]]]. rewrite HT, Hfi, Hc. reflexivity.
Qed.

Lemma crossings_ok_eqv : forall S1 S2 s, s_trials S1 = s_trials S2 ->
  Forall2 crossing_eqv (s_crossings S1) (s_crossings S2) ->
  forallb (crossing_ok S1 s) (s_crossings S1) = forallb (crossing_ok S2 s) (s_crossings S2).
Proof.
  intros S1 S2 s HT HX. induction HX as [|c1 c2 l1 l2 Hc _ IH]; [reflexivity|].
  cbn [forallb]. rewrite IH, (crossing_ok_eqv S1 S2 s c1 c2 HT Hc). reflexivity.
Qed.
