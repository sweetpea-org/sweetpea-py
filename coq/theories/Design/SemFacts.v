(** Facts about the reference semantics ([Design/Sem.v]) that several directories use:
    its equality tests, [valid_b] as a conjunction, and what the clauses read of the
    normal form ([sem_nlevels]: the level count [latin_ok] reads).  For examples that count
    [all_valid] by evaluation: [valid_fast], [valid_b] with the conjuncts reordered, and the
    enumeration in stages ([all_valid_staged]: a test that every prefix of a valid sequence
    passes may be applied between two stages of [complete]). *)
From Coq Require Import List Bool Arith Lia.
From SP Require Import Base.Lists Design.Sem.
Import ListNotations.

Lemma list_eqb_sound : forall {A} (eqb : A -> A -> bool), (forall x y, eqb x y = true -> x = y) ->
  forall a b, list_eqb eqb a b = true -> a = b.
Proof.
  intros A eqb H a. induction a as [|x a IH]; intros [|y b] E; cbn in E; try discriminate; [reflexivity|].
  apply andb_true_iff in E. destruct E as [E1 E2]. f_equal; [apply H; exact E1|apply IH; exact E2].
Qed.

Lemma list_eqb_refl : forall {A} (eqb : A -> A -> bool), (forall x, eqb x x = true) -> forall a, list_eqb eqb a a = true.
Proof. intros A eqb H a. induction a as [|x a IH]; cbn; [reflexivity|]. rewrite H, IH. reflexivity. Qed.

Lemma list_eqb_iff : forall {A} (eqb : A -> A -> bool),
  (forall a b, eqb a b = true <-> a = b) -> forall l1 l2, list_eqb eqb l1 l2 = true <-> l1 = l2.
Proof.
  intros A eqb H l1 l2. split.
  - apply list_eqb_sound. intros x y. apply H.
  - intros <-. apply list_eqb_refl. intro x. apply H. reflexivity.
Qed.

Lemma cell_eqb_eq : forall a b, cell_eqb a b = true <-> a = b.
Proof.
  intros [x|] [y|]; cbn; split; intro H; try discriminate; try reflexivity.
  - apply Nat.eqb_eq in H. congruence.
  - inversion H. apply Nat.eqb_refl.
Qed.

Lemma cell_eqb_refl : forall a, cell_eqb a a = true.
Proof. intro a. apply cell_eqb_eq. reflexivity. Qed.

Lemma cell_eqb_sym : forall a b, cell_eqb a b = cell_eqb b a.
Proof. intros [x|] [y|]; cbn; try reflexivity. apply Nat.eqb_sym. Qed.

Lemma args_eqb_eq : forall a b, args_eqb a b = true <-> a = b.
Proof. apply list_eqb_iff, list_eqb_iff, cell_eqb_eq. Qed.

Lemma count_level_zero : forall l row t, count_level l row = 0 -> nth t row None <> Some l.
Proof.
  intros l row t H E. destruct (nth_in_or_default t row None) as [Hin|Hd]; [|congruence].
  assert (Hf : In (nth t row None) (filter (fun c => cell_eqb c (Some l)) row))
    by (apply filter_In; split; [exact Hin|apply cell_eqb_eq, E]).
  unfold count_level in H. destruct (filter _ row); [exact Hf|discriminate].
Qed.

Lemma forallb_index_from : forall {A} (P : nat -> A -> bool) (xs : list A) a,
  forallb (fun p => P (fst p) (snd p)) (combine (seq a (length xs)) xs) = true <->
  (forall f x, nth_error xs f = Some x -> P (a + f) x = true).
Proof.
  intros A P xs a. rewrite forallb_forall. split.
  - intros H f x Hf. apply (H (a + f, x)). apply in_combine_seq. rewrite Nat.add_comm, Nat.add_sub. split; [lia|exact Hf].
  - intros H [i x] Hi. apply in_combine_seq in Hi. destruct Hi as [Hi Hf]. cbn [fst snd].
    replace i with (a + (i - a)) by lia. apply H. exact Hf.
Qed.

Lemma forallb_index_list : forall {A} (P : nat -> A -> bool) (xs : list A),
  forallb (fun p => P (fst p) (snd p)) (index_list xs) = true <->
  (forall f x, nth_error xs f = Some x -> P f x = true).
Proof. intros A P xs. unfold index_list. rewrite forallb_index_from. reflexivity. Qed.

Lemma valid_b_conj : forall S s,
  valid_b S s = true <->
  length s = length (s_factors S) /\
  forallb (fun p => factor_ok S s (fst p) (snd p)) (index_list (s_factors S)) = true /\
  forallb (crossing_ok S s) (s_crossings S) = true /\
  forallb (constraint_ok S s) (s_constraints S) = true.
Proof. intros S s. unfold valid_b. rewrite !andb_true_iff, Nat.eqb_eq. tauto. Qed.

Lemma valid_b_iff : forall S s,
  valid_b S s = true <->
  length s = length (s_factors S) /\
  (forall f fd, nth_error (s_factors S) f = Some fd -> factor_ok S s f fd = true) /\
  (forall c, In c (s_crossings S) -> crossing_ok S s c = true) /\
  (forall k, In k (s_constraints S) -> constraint_ok S s k = true).
Proof. intros S s. rewrite valid_b_conj, forallb_index_list, !forallb_forall. reflexivity. Qed.

(** * The clauses read [S] only through [s_trials] ([constraint_ok] through the level count of
    the constrained factor as well), and a crossing reads the cells of its own factors only *)
Lemma factor_ok_shape : forall S1 S2 s f fd, s_trials S1 = s_trials S2 -> factor_ok S1 s f fd = factor_ok S2 s f fd.
Proof. intros S1 S2 s f fd H. unfold factor_ok. rewrite H. reflexivity. Qed.

Lemma chunks_ok_ext : forall S1 S2 s1 s2 c fuel a, s_trials S1 = s_trials S2 ->
  (forall f t, In f (c_factors c) -> get_cell s1 f t = get_cell s2 f t) ->
  chunks_ok fuel S1 s1 c a = chunks_ok fuel S2 s2 c a.
Proof.
  intros S1 S2 s1 s2 c fuel a HT H.
  assert (Hc : forall t, combo_at s1 (c_factors c) t = combo_at s2 (c_factors c) t)
    by (intro t; apply map_ext_in; intros f Hf; apply H, Hf).
  revert a. induction fuel as [|fuel IH]; intro a; [reflexivity|]. cbn [chunks_ok]. rewrite HT, IH.
  destruct (s_trials S2 <=? a); [reflexivity|]. f_equal. f_equal.
  - apply forallb_ext. intro cm. unfold count_combo.
    rewrite (filter_ext _ (fun t => combo_eqb (fst cm) (combo_at s2 (c_factors c) t))) by (intro t; rewrite Hc; reflexivity).
    reflexivity.
  - apply forallb_ext. intro t. apply existsb_ext. intro cm. rewrite Hc. reflexivity.
Qed.

Lemma crossing_ok_ext : forall S1 S2 s1 s2 c, s_trials S1 = s_trials S2 ->
  (forall f t, In f (c_factors c) -> get_cell s1 f t = get_cell s2 f t) ->
  crossing_ok S1 s1 c = crossing_ok S2 s2 c.
Proof. intros S1 S2 s1 s2 c HT H. unfold crossing_ok. rewrite HT, (chunks_ok_ext S1 S2 s1 s2 c _ _ HT H). reflexivity. Qed.

Lemma crossing_ok_shape : forall S1 S2 s c, s_trials S1 = s_trials S2 -> crossing_ok S1 s c = crossing_ok S2 s c.
Proof. intros S1 S2 s c H. apply crossing_ok_ext; [exact H|reflexivity]. Qed.

Definition sem_nlevels (S : sem) (f : nat) : nat :=
  match nth_error (s_factors S) f with Some fd => f_nlevels fd | None => 0 end.

Lemma constraint_ok_nlevels : forall S1 S2 s c,
  s_trials S1 = s_trials S2 -> sem_nlevels S1 (k_factor c) = sem_nlevels S2 (k_factor c) ->
  constraint_ok S1 s c = constraint_ok S2 s c.
Proof. intros S1 S2 s c H1 H2. unfold constraint_ok, latin_ok. fold (sem_nlevels S1 (k_factor c)) (sem_nlevels S2 (k_factor c)). rewrite H1, H2. reflexivity. Qed.

Lemma constraint_ok_shape : forall S1 S2 s c,
  s_trials S1 = s_trials S2 -> s_factors S1 = s_factors S2 -> constraint_ok S1 s c = constraint_ok S2 s c.
Proof. intros S1 S2 s c H1 H2. apply constraint_ok_nlevels; [exact H1|]. unfold sem_nlevels. rewrite H2. reflexivity. Qed.

(** two normal forms that differ only in their constraints, as lists with the same elements *)
Lemma valid_b_same_constraints : forall S1 S2 s,
  s_trials S1 = s_trials S2 -> s_factors S1 = s_factors S2 -> s_crossings S1 = s_crossings S2 ->
  (forall k, In k (s_constraints S1) <-> In k (s_constraints S2)) -> valid_b S1 s = valid_b S2 s.
Proof.
  intros S1 S2 s HT HF HX HK. unfold valid_b. rewrite <- HF, <- HX, <- (forallb_same_set _ _ _ HK).
  f_equal; [f_equal; [f_equal|]|]; apply forallb_ext; intro x.
  - apply factor_ok_shape, HT.
  - apply crossing_ok_shape, HT.
  - apply constraint_ok_shape; assumption.
Qed.

(** further constraints are further conjuncts *)
Lemma valid_b_add_constraints : forall S S' ks s,
  s_trials S' = s_trials S -> s_factors S' = s_factors S -> s_crossings S' = s_crossings S ->
  s_constraints S' = s_constraints S ++ ks ->
  valid_b S' s = valid_b S s && forallb (constraint_ok S s) ks.
Proof.
  intros S S' ks s HT HF HX HK. unfold valid_b. rewrite HF, HX, HK, forallb_app, andb_assoc.
  f_equal; [f_equal; [f_equal; [f_equal|]|]|]; apply forallb_ext; intro x.
  - apply factor_ok_shape, HT.
  - apply crossing_ok_shape, HT.
  - apply constraint_ok_shape; assumption.
  - apply constraint_ok_shape; assumption.
Qed.

(** [valid_b] with its conjuncts in the order that rejects a candidate soonest.
    Examples count [all_valid] by evaluation.  [if] (and not [&&], a function whose
    two arguments [vm_compute] evaluates before the call) stops at the first failing
    conjunct under [vm_compute] as well as under the kernel's lazy conversion; the
    factor conditions - which every candidate that [complete] enumerates meets, and
    which are the dearest - are then evaluated for the survivors only. *)
Definition valid_fast (S : sem) (s : tseq) : bool :=
  if forallb (constraint_ok S s) (s_constraints S) then
    if forallb (crossing_ok S s) (s_crossings S) then
      if length s =? length (s_factors S) then forallb (fun p => factor_ok S s (fst p) (snd p)) (index_list (s_factors S))
      else false
    else false
  else false.

Lemma all_valid_fast : forall S, all_valid S = filter (valid_fast S) (complete S (index_list (s_factors S)) [[]]).
Proof.
  intro S. apply filter_ext. intro s. unfold valid_b, valid_fast.
  destruct (length s =? _), (forallb _ (index_list _)), (forallb (crossing_ok S s) _), (forallb (constraint_ok S s) _);
    reflexivity.
Qed.

Lemma complete_app S fds : forall p1 p2,
  complete S fds (p1 ++ p2) = complete S fds p1 ++ complete S fds p2.
Proof.
  induction fds as [|[f fd] rest IH]; intros p1 p2; cbn [complete]; [reflexivity|].
  destruct (f_derived fd); rewrite flat_map_app; apply IH.
Qed.

Lemma complete_extends S fds : forall partial x,
  In x (complete S fds partial) -> exists s s', In s partial /\ x = s ++ s'.
Proof.
  induction fds as [|[f fd] rest IH]; intros partial x Hx; cbn [complete] in Hx.
  - exists x, []. now rewrite app_nil_r.
  - apply IH in Hx. destruct Hx as (s1 & s' & Hs1 & ->).
    assert (E : exists s row, In s partial /\ s1 = s ++ [row]).
    { destruct (f_derived fd); apply in_flat_map in Hs1; destruct Hs1 as (s & Hs & Hin).
      - destruct (derive_row S s f fd d) as [row|]; [|destruct Hin]. destruct Hin as [<-|[]]. now exists s, row.
      - apply in_map_iff in Hin. destruct Hin as (w & <- & _). now eexists s, _. }
    destruct E as (s & row & Hs & ->). exists s, ([row] ++ s'). now rewrite app_assoc.
Qed.

(** A test [q] that every prefix of an accepted sequence passes may be applied to
    the partial sequences before they are completed. *)
Lemma filter_complete_prune (v q : tseq -> bool) S fds :
  (forall s s', v (s ++ s') = true -> q s = true) ->
  forall partial, filter v (complete S fds partial) = filter v (complete S fds (filter q partial)).
Proof.
  intros H. induction partial as [|s r IH]; [reflexivity|].
  change (s :: r) with ([s] ++ r). rewrite complete_app, filter_app, IH. cbn [filter app].
  destruct (q s) eqn:E.
  - change (s :: filter q r) with ([s] ++ filter q r). now rewrite complete_app, filter_app.
  - rewrite (filter_none v (complete S fds [s])); [reflexivity|].
    intros x Hx. apply complete_extends in Hx. destruct Hx as (s0 & s' & [<-|[]] & ->).
    apply not_true_is_false. intros Hv. apply H in Hv. congruence.
Qed.

Lemma complete_stages S fds1 : forall fds2 partial,
  complete S (fds1 ++ fds2) partial = complete S fds2 (complete S fds1 partial).
Proof. induction fds1 as [|[f fd] r IH]; intros fds2 partial; [reflexivity|apply IH]. Qed.

Lemma all_valid_staged S q n :
  (forall s s', valid_fast S (s ++ s') = true -> q s = true) ->
  all_valid S = filter (valid_fast S) (complete S (skipn n (index_list (s_factors S)))
                                          (filter q (complete S (firstn n (index_list (s_factors S))) [[]]))).
Proof.
  intros H. rewrite <- (filter_complete_prune _ q S _ H), <- complete_stages, firstn_skipn. apply all_valid_fast.
Qed.

Lemma valid_fast_constraint S s c : valid_fast S s = true -> In c (s_constraints S) -> constraint_ok S s c = true.
Proof.
  unfold valid_fast. destruct (forallb (constraint_ok S s) (s_constraints S)) eqn:Hk; [intros _|discriminate].
  rewrite forallb_forall in Hk. apply Hk.
Qed.

(** Every constraint but [KLatin] reads the row of its own factor only, so it can be
    tested as soon as that row is there. *)
Definition own_row_ok S c (s : tseq) : bool := (length s <=? k_factor c) || constraint_ok S s c.

Lemma own_row_prefix S c s s' :
  In c (s_constraints S) -> match k_kind c with KLatin _ _ _ _ => False | _ => True end ->
  valid_fast S (s ++ s') = true -> own_row_ok S c s = true.
Proof.
  intros Hc Hk Hv. apply valid_fast_constraint with (c := c) in Hv; [|exact Hc].
  unfold own_row_ok. destruct (length s <=? k_factor c) eqn:El; [reflexivity|]. apply Nat.leb_gt in El.
  unfold constraint_ok in *. rewrite app_nth1 in Hv by exact El. destruct (k_kind c); [exact Hv..|destruct Hk].
Qed.
