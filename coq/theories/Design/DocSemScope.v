(** Property C26 about the documented semantics itself: the scope of a constraint in
    [doc_sem] (Design/DocSem.v).

    A constraint given to a block that is then repeated (Repeat, Merge of one block, the
    inner block of a Nest) applies within each repetition of that block; a constraint given
    to the combinator applies to the whole sequence; the constraints of the outer block of
    a Nest are scaled by the inner trial count.

    - closed form of [rep_windows] / [scope_windows] ([rep_closed]), and for a block without
      preamble the plain partition of [0, T) into chunks of the block's trial count;
    - which scopes [doc_block] gives to the constraints of Repeat / Merge [b] / Nest;
    - how [sem_of_block] turns scopes into the windows of the semantic constraints;
    - the meaning for [Sem.constraint_ok]: a run-length / count constraint whose windows are
      the repetition partition holds iff it holds on each repetition's slice taken alone;
    - the closed form coincides with the one of the code-side model
      [Layout.map_block_trial_ranges] (Design/RangesProofs.v). *)
From Coq Require Import ZArith List Bool Arith Lia.
From SP Require Import Base.Lists Design.Sem Design.Flat Design.DocSem Design.CeilDiv Design.DocSemProofs.
Import ListNotations.
Local Open Scope nat_scope.
Local Open Scope list_scope.

(** one window of the block, moved to the repetition that starts at [s] and cut at the end
    of the sequence (dropped when nothing is left) *)
Definition shift_clamp (s T : nat) (ab : nat * nat) : list (nat * nat) :=
  let lo := s + fst ab in
  let hi := Nat.min (s + snd ab) T in
  if lo <? hi then [(lo, hi)] else [].

(** repetition [j] starts at [off + j * step], for every [j] with [off + j * step < T - Pb] *)
Definition rep_closed (base : list (nat * nat)) (step T Pb off : nat) : list (nat * nat) :=
  flat_map (fun j => flat_map (shift_clamp (off + j * step) T) base)
           (seq 0 (ceil_div (T - Pb - off) step)).

Lemma rep_windows_closed : forall fuel base step T Pb start,
  0 < step -> T - Pb <= start + fuel ->
  rep_windows fuel base step T Pb start
  = flat_map (fun j => flat_map (shift_clamp (start + j * step) T) base)
             (seq 0 (ceil_div (T - Pb - start) step)).
Proof.
  induction fuel as [|fuel IH]; intros base step T Pb start Hs Hf; cbn [rep_windows].
  - replace (T - Pb - start) with 0 by lia. rewrite ceil_div_0 by exact Hs. reflexivity.
  - destruct (start <? T - Pb) eqn:E.
    + apply Nat.ltb_lt in E. rewrite (ceil_div_succ (T - Pb - start) step Hs) by lia.
      cbn [seq flat_map]. f_equal.
      * rewrite Nat.mul_0_l, Nat.add_0_r. reflexivity.
      * rewrite IH by lia. replace (T - Pb - (start + step)) with (T - Pb - start - step) by lia.
        rewrite <- seq_shift, flat_map_map.
        apply flat_map_ext. intro j. replace (start + step + j * step) with (start + S j * step) by lia. reflexivity.
    + apply Nat.ltb_ge in E. replace (T - Pb - start) with 0 by lia. rewrite ceil_div_0 by exact Hs. reflexivity.
Qed.

(** the windows of a constraint of a block of [Tb] trials ([Pb] of them preamble) repeated
    inside a sequence of [T] trials, from the windows [base] it has inside the block *)
Theorem scope_windows_rep_closed : forall inner Tb Pb off T base scale,
  scope_windows inner Tb = Ok (base, scale) -> Pb < Tb ->
  scope_windows (ScRep inner Tb Pb off) T = Ok (rep_closed base (Tb - Pb) T Pb off, scale).
Proof.
  intros inner Tb Pb off T base scale H HP. cbn [scope_windows]. rewrite H. cbn [bind].
  replace (Tb <=? Pb) with false by (symmetry; apply Nat.leb_gt; exact HP).
  rewrite rep_windows_closed by lia. reflexivity.
Qed.

(** ... and [scope_windows] succeeds on a repetition scope only in that way *)
Lemma scope_windows_rep_inv : forall inner Tb Pb off T ws scale,
  scope_windows (ScRep inner Tb Pb off) T = Ok (ws, scale) ->
  exists base, scope_windows inner Tb = Ok (base, scale) /\ Pb < Tb /\
               ws = rep_closed base (Tb - Pb) T Pb off.
Proof.
  intros inner Tb Pb off T ws scale H. cbn [scope_windows] in H. inv_bind H as bs Hb H. destruct bs as [base sc'].
  destruct (Tb <=? Pb) eqn:E; [discriminate|]. apply Nat.leb_gt in E.
  assert (sc' = scale) by congruence. subst sc'. exists base. split; [exact Hb|]. split; [exact E|].
  rewrite rep_windows_closed in H by lia. unfold rep_closed. congruence.
Qed.

Lemma concat_map_singleton : forall {A B} (f : A -> B) l, concat (map (fun x => [f x]) l) = map f l.
Proof. intros A B f l. rewrite <- flat_map_concat_map. apply flat_map_singleton. Qed.

Lemma flat_map_singleton_in : forall {A B} (g : A -> list B) (f : A -> B) l,
  (forall x, In x l -> g x = [f x]) -> flat_map g l = map f l.
Proof. intros A B g f l H. rewrite (flat_map_ext_in g (fun x => [f x]) l H). apply flat_map_singleton. Qed.

(** the repetition windows of a constraint whose scope inside its block is the whole block:
    window [j] is [j*step, min(j*step + Tb, T)), step = Tb - Pb, for every j with j*step < T - Pb *)
Definition rep_window (Tb Pb T j : nat) : nat * nat :=
  (j * (Tb - Pb), Nat.min (j * (Tb - Pb) + Tb) T).

Definition rep_count (Tb Pb T : nat) : nat := ceil_div (T - Pb) (Tb - Pb).

Lemma rep_count_spec : forall Tb Pb T j, Pb < Tb -> (j < rep_count Tb Pb T <-> j * (Tb - Pb) < T - Pb).
Proof. intros Tb Pb T j H. apply ceil_div_lt. lia. Qed.

Theorem rep_closed_whole_block : forall Tb Pb T, Pb < Tb ->
  rep_closed [(0, Tb)] (Tb - Pb) T Pb 0 = map (rep_window Tb Pb T) (seq 0 (rep_count Tb Pb T)).
Proof.
  intros Tb Pb T HP. unfold rep_closed, rep_count. rewrite Nat.sub_0_r.
  apply flat_map_singleton_in. intros j Hj. apply in_seq in Hj.
  assert (L : j * (Tb - Pb) < T - Pb) by (apply (ceil_div_lt (T - Pb) (Tb - Pb) j); lia).
  cbn [flat_map]. rewrite app_nil_r. unfold shift_clamp, rep_window. cbn [fst snd].
  rewrite !Nat.add_0_l, Nat.add_0_r.
  replace (j * (Tb - Pb) <? Nat.min (j * (Tb - Pb) + Tb) T) with true by (symmetry; apply Nat.ltb_lt; lia).
  reflexivity.
Qed.

Theorem scope_windows_rep_none : forall Tb Pb T, Pb < Tb ->
  scope_windows (ScRep ScNone Tb Pb 0) T = Ok (map (rep_window Tb Pb T) (seq 0 (rep_count Tb Pb T)), 1).
Proof.
  intros Tb Pb T HP. rewrite (scope_windows_rep_closed ScNone Tb Pb 0 T [(0, Tb)] 1 eq_refl HP).
  rewrite rep_closed_whole_block by exact HP. reflexivity.
Qed.

Theorem scope_windows_rep_none_spec : forall Tb Pb T, Pb < Tb ->
  scope_windows (ScRep ScNone Tb Pb 0) T
  = Ok (map (fun j => (j * (Tb - Pb), Nat.min (j * (Tb - Pb) + Tb) T)) (seq 0 (rep_count Tb Pb T)), 1)
  /\ forall j, j < rep_count Tb Pb T <-> j * (Tb - Pb) < T - Pb.
Proof.
  intros Tb Pb T H. split; [exact (scope_windows_rep_none Tb Pb T H)|intro j; exact (rep_count_spec Tb Pb T j H)].
Qed.

(** ** without preamble: the plain partition of [0, T) into chunks of [Tb] trials *)
Definition chunk_window (Tb T j : nat) : nat * nat := (j * Tb, Nat.min ((j + 1) * Tb) T).
Definition chunk_windows (Tb T : nat) : list (nat * nat) := map (chunk_window Tb T) (seq 0 (ceil_div T Tb)).

Theorem rep_windows_no_preamble : forall Tb T,
  map (rep_window Tb 0 T) (seq 0 (rep_count Tb 0 T)) = chunk_windows Tb T.
Proof.
  intros Tb T. unfold chunk_windows, rep_count. rewrite !Nat.sub_0_r. apply map_ext. intro j.
  unfold rep_window, chunk_window. rewrite Nat.sub_0_r. f_equal. f_equal. lia.
Qed.

Theorem scope_windows_chunks_spec : forall Tb T, 0 < Tb ->
  scope_windows (ScRep ScNone Tb 0 0) T
  = Ok (map (fun j => (j * Tb, Nat.min ((j + 1) * Tb) T)) (seq 0 (ceil_div T Tb)), 1)
  /\ forall j, j < ceil_div T Tb <-> j * Tb < T.
Proof.
  intros Tb T H. split; [|intro j; exact (ceil_div_lt T Tb j H)].
  rewrite (scope_windows_rep_none Tb 0 T H), rep_windows_no_preamble. reflexivity.
Qed.

(** it is a partition: trial [t] lies in window number [t / Tb] and in no other *)
Theorem chunk_windows_partition : forall Tb T j t, 0 < Tb ->
  (fst (chunk_window Tb T j) <= t < snd (chunk_window Tb T j) <-> t < T /\ t / Tb = j).
Proof.
  intros Tb T j t HTb. unfold chunk_window. cbn [fst snd].
  pose proof (Nat.div_mod t Tb ltac:(lia)) as D. pose proof (Nat.mod_upper_bound t Tb ltac:(lia)) as M.
  split.
  - intros [L U]. split; [lia|]. assert (U' : t < (j + 1) * Tb) by lia.
    symmetry. apply (Nat.div_unique t Tb j (t - j * Tb)); lia.
  - intros [L <-]. split; [lia|]. apply Nat.min_glb_lt; [lia|exact L].
Qed.

(** every window of the partition is non-empty, inside the sequence, of [Tb] trials except a shorter last one *)
Theorem chunk_windows_shape : forall Tb T j, 0 < Tb -> j < ceil_div T Tb ->
  fst (chunk_window Tb T j) < snd (chunk_window Tb T j) /\ snd (chunk_window Tb T j) <= T /\
  snd (chunk_window Tb T j) - fst (chunk_window Tb T j) <= Tb /\
  (S j < ceil_div T Tb -> snd (chunk_window Tb T j) - fst (chunk_window Tb T j) = Tb).
Proof.
  intros Tb T j HTb Hj. apply (ceil_div_lt T Tb j HTb) in Hj. unfold chunk_window. cbn [fst snd].
  repeat split; try lia. intro H. apply (ceil_div_lt T Tb (S j) HTb) in H. lia.
Qed.

(** the constraints of a combined block [b], each now scoped to the repetitions of [b] *)
Definition inherit (b : blockdoc) (off : nat) : list (pcons * scope) :=
  map (fun csc => (fst csc, ScRep (snd csc) (b_T b) (b_P b) off)) (b_constraints b).

(** the constraints of the outer block of a Nest: scaled by the inner trial count [n] *)
Definition inherit_scaled (outer : blockdoc) (n : nat) : list (pcons * scope) :=
  map (fun csc => (fst csc, ScRep (ScScaled (snd csc) n) (b_T outer * n) 0 0)) (b_constraints outer).

Definition maxp_of (bd : blockdoc) : nat := list_max (map (fun c => x_P c * x_su c) (b_crossings bd)).

Lemma merge_constraints : forall inners cs mode al nest bd,
  merge inners cs mode al nest = Ok bd ->
  b_constraints bd
  = flat_map (fun b => inherit b (match al with PostPreamble => maxp_of bd - b_P b | _ => 0 end)) inners
    ++ own_constraints cs.
Proof.
  intros inners cs mode al nest bd H. apply (merge_spec _ _ _ _ _ _ H).
Qed.

Lemma maxp_geom : forall cs cs', map geom cs = map geom cs' ->
  list_max (map (fun c => x_P c * x_su c) cs) = list_max (map (fun c => x_P c * x_su c) cs').
Proof.
  apply (geom_congr (fun cs => list_max (map (fun c => x_P c * x_su c) cs))). intro cs0. rewrite !map_map. reflexivity.
Qed.

(** one combined block, alignments checked: the repetitions start at trial 0 *)
Lemma merge_one_constraints : forall inner cs mode al bd, fin inner ->
  merge [inner] cs mode al false = Ok bd ->
  b_constraints bd = inherit inner 0 ++ own_constraints cs.
Proof.
  intros inner cs mode al bd Hfin H.
  rewrite (merge_constraints _ _ _ _ _ _ H). cbn [flat_map]. rewrite app_nil_r. f_equal.
  assert (Hal : alignment_eqb (b_alignment inner) al = true).
  { unfold merge in H. cbn [forallb negb andb] in H. destruct (alignment_eqb (b_alignment inner) al); [reflexivity|].
    cbn in H. discriminate. }
  destruct al; try reflexivity.
  destruct (b_alignment inner) eqn:Ea; try discriminate.
  destruct (merge_spec _ _ _ _ _ _ H) as (_ & _ & G & _). cbn [flat_map] in G. rewrite app_nil_r in G.
  unfold maxp_of. rewrite (maxp_geom _ _ G). rewrite (fin_P _ Hfin), Ea. unfold block_P. rewrite Nat.sub_diag. reflexivity.
Qed.

Theorem repeat_constraints : forall p b cs inner bd,
  doc_block p b = Ok inner -> doc_block p (PRepeat b cs) = Ok bd ->
  b_constraints bd = inherit inner 0 ++ own_constraints cs.
Proof.
  intros p b cs inner bd Hb H. cbn [doc_block] in H. rewrite Hb in H. cbn [bind] in H.
  eapply merge_one_constraints; [eapply doc_block_fin; eauto|exact H].
Qed.

Theorem merge1_constraints : forall p b cs mode al inner bd,
  doc_block p b = Ok inner -> doc_block p (PMerge [b] cs mode al) = Ok bd ->
  b_constraints bd = inherit inner 0 ++ own_constraints cs.
Proof.
  intros p b cs mode al inner bd Hb H. cbn [doc_block] in H. rewrite Hb in H. cbn [bind] in H.
  inv_bind H as al' Hal H.
  eapply merge_one_constraints; [eapply doc_block_fin; eauto|exact H].
Qed.

Lemma maxp_zero : forall cs, Forall (fun c => x_P c = 0) cs -> list_max (map (fun c => x_P c * x_su c) cs) = 0.
Proof. exact (block_P_zero PostPreamble). Qed.

(** Nest (which refuses preambles): the outer constraints are scaled by the inner trial count and
    scoped to the repetitions of the scaled outer block, the inner constraints to the repetitions of
    the inner block, both starting at trial 0 *)
Theorem nest_constraints : forall p o i cs al outer inner bd,
  doc_block p o = Ok outer -> doc_block p i = Ok inner -> doc_block p (PNest o i cs al) = Ok bd ->
  b_P outer = 0 /\ b_P inner = 0 /\
  b_constraints bd = inherit_scaled outer (b_T inner) ++ inherit inner 0 ++ own_constraints cs.
Proof.
  intros p o i cs al outer inner bd Ho Hi H.
  destruct (doc_nest_inv _ _ _ _ _ _ H) as (outer' & inner' & Ho' & Hi' & Zo & Zi & Po & Pi & _ & X).
  rewrite Ho in Ho'. rewrite Hi in Hi'. apply Ok_inj in Ho', Hi'. subst outer' inner'. clear H. rename X into H.
  split; [exact Po|]. split; [exact Pi|].
  rewrite (merge_constraints _ _ _ _ _ _ H). cbn [flat_map]. rewrite app_nil_r, <- app_assoc.
  assert (M : maxp_of bd = 0).
  { destruct (merge_spec _ _ _ _ _ _ H) as (_ & _ & G & _). unfold maxp_of. rewrite (maxp_geom _ _ G).
    apply maxp_zero. cbn [flat_map]. rewrite app_nil_r. apply Forall_app. split; [|exact Zi].
    cbn [scale_outer b_crossings]. apply Forall_forall. intros c Hc. apply in_map_iff in Hc. destruct Hc as [c0 [<- Hc0]].
    cbn. rewrite Forall_forall in Zo. apply Zo. exact Hc0. }
  rewrite M, Pi, Nat.sub_0_r. cbn [Nat.sub].
  assert (O0 : forall a : alignment, match a with PostPreamble => 0 | _ => 0 end = 0) by (intros []; reflexivity).
  f_equal; [|f_equal].
  - unfold inherit, inherit_scaled. cbn [scale_outer b_constraints b_T b_P]. rewrite map_map. apply map_ext. intro csc.
    cbn [fst snd]. rewrite Po. cbn [Nat.mul]. rewrite O0. reflexivity.
  - rewrite O0. reflexivity.
Qed.

Definition is_cross (b : pblock) : Prop :=
  match b with PCross _ _ _ _ | PMulti _ _ _ _ _ _ => True | _ => False end.

(** the constraints of a CrossBlock / MultiCrossBlock have the block itself as scope *)
Theorem cross_scopes_none : forall p b bd, is_cross b ->
  doc_block p b = Ok bd -> Forall (fun csc : pcons * scope => snd csc = ScNone) (b_constraints bd).
Proof.
  intros p b bd Hb H.
  assert (G : forall d crs cs rcc mode al, doc_cross p d crs cs rcc mode al = Ok bd ->
              Forall (fun csc : pcons * scope => snd csc = ScNone) (b_constraints bd)).
  { intros d crs cs rcc mode al X. destruct (doc_cross_spec _ _ _ _ _ _ _ _ X) as (_ & -> & _).
    unfold own_constraints. apply Forall_forall. intros x Hx. apply in_map_iff in Hx. destruct Hx as [c [<- _]]. reflexivity. }
  destruct b; try contradiction; cbn [doc_block] in H; eapply G; eauto.
Qed.

(** the kinds of semantic constraint that carry windows *)
Definition windowed (k : ckind) : bool :=
  match k with
  | KAtMost _ | KAtLeast _ | KExactlyInARow _ | KExactlyK _ | KPin _ _ => true
  | _ => false
  end.

(** what the kind of a semantic constraint keeps of the program constraint it came from
    ([scale]: the trial-group scale of its scope, 1 outside a Nest) *)
Definition src_kind (bd : blockdoc) (c : pcons) (scale : nat) (kk : ckind) : Prop :=
  match c with
  | PKRow kd k _ => kk = krow_kind kd k scale
  | PPin i f _ => kk = KPin i (sustain_get bd f)
  | _ => windowed kk = false
  end.

(** semantic constraint [k] comes from program constraint [fst csc], whose scope [snd csc] inside a
    block of [Tsrc] trials has windows [base] and scale [scale]; in the whole sequence its windows
    are [W base] and its scale [Sc scale] *)
Definition scoped (bd : blockdoc) (Tsrc : nat) (W : list (nat * nat) -> list (nat * nat)) (Sc : nat -> nat)
           (csc : pcons * scope) (k : dconstraint) : Prop :=
  exists base scale,
    scope_windows (snd csc) Tsrc = Ok (base, scale) /\
    src_kind bd (fst csc) (Sc scale) (k_kind k) /\
    k_windows k = if windowed (k_kind k) then W base else [].

(** the whole sequence *)
Definition global_scope (bd : blockdoc) (T : nat) (c : pcons) (k : dconstraint) : Prop :=
  src_kind bd c 1 (k_kind k) /\ k_windows k = if windowed (k_kind k) then [(0, T)] else [].

(** the constraint [doc_sem] adds when a crossing that must be complete cannot be *)
Definition marker (ds : docsem) : list dconstraint :=
  if ds_unsat ds && nonempty (ds_forder ds)
  then [{| k_kind := KExactlyK (ds_T ds + 1); k_factor := 0; k_level := 0; k_windows := [(0, ds_T ds)] |}]
  else [].

Lemma expand_constraint_src : forall p c cs c', expand_constraint p c = Ok cs -> In c' cs ->
  forall bd scale kk, src_kind bd c' scale kk -> src_kind bd c scale kk.
Proof.
  intros p c cs c' H Hin bd scale kk Hs. destruct c as [kd k tg|f n|ix f n|f|fs|n| |kind]; cbn [expand_constraint] in H;
    try (apply Ok_inj in H; subst cs; destruct Hin as [<-|[]]; exact Hs).
  inv_bind H as u Hu H. destruct tg as [f n|f].
  - apply Ok_inj in H. subst cs. destruct Hin as [<-|[]]. exact Hs.
  - inv_bind H as fd Hfd H. inv_bind H as ns Hns H. apply Ok_inj in H. subst cs. apply in_map_iff in Hin.
    destruct Hin as [n [<- _]]. exact Hs.
Qed.

Lemma sem_constraint_scoped : forall p bd forder maxp T c sc ks k,
  sem_constraint p bd forder maxp T c sc = Ok ks -> In k ks ->
  scoped bd T (fun base => base) (fun s => s) (c, sc) k.
Proof.
  intros p bd forder maxp T c sc ks k H Hk.
  destruct (sem_constraint_inv _ _ _ _ _ _ _ _ _ H Hk) as (wins & scale & fid & Hws & _ & _ & _ & _ & Hsrc).
  exists wins, scale. cbn [fst snd]. split; [exact Hws|].
  destruct c as [kd k0 tg| | | | | | |]; cbn [src_kind]; destruct Hsrc as [E1 E2].
  1: rewrite E1, E2; split; [reflexivity|]; destruct kd; reflexivity.
  2: rewrite E1, E2; split; reflexivity.
  all: rewrite E1; destruct (k_kind k); try contradiction; split; reflexivity.
Qed.

(** the constraints of the semantic normal form, grouped by the program constraint they come from *)
Theorem sem_of_block_constraints : forall p bd ds,
  sem_of_block p bd = Ok ds ->
  exists kss,
    s_constraints (ds_sem ds) = List.concat kss ++ marker ds /\
    Forall2 (fun csc ks => forall k, In k ks -> scoped bd (b_T bd) (fun base => base) (fun s => s) csc k)
            (b_constraints bd) kss.
Proof.
  intros p bd ds H.
  destruct (sem_of_block_inv _ _ _ H) as (depths & forder & factors & crossings & constraints & _ & _ & _ & _ & Hc & ->).
  clear H. exists constraints. split; [reflexivity|].
  apply mapM_ok in Hc. eapply Forall2_imp; [|exact Hc]. cbn beta. intros csc ks Hks k Hin.
  inv_bind Hks as cs Hcs Hks. inv_bind Hks as kss Hkss Hks. apply Ok_inj in Hks. subst ks.
  apply in_concat in Hin. destruct Hin as [ks' [Hks' Hin]].
  destruct (mapM_in _ _ _ _ Hkss Hks') as [c [Hc' Hsc]].
  destruct (sem_constraint_scoped _ _ _ _ _ _ _ _ _ Hsc Hin) as [base [scale [W1 [W2 W3]]]].
  exists base, scale. cbn [fst snd] in *. split; [exact W1|]. split; [|exact W3].
  eapply expand_constraint_src; eauto.
Qed.

(** combinator constraints: one window, the whole sequence *)
Lemma own_global : forall bd T cs kss,
  Forall2 (fun csc ks => forall k, In k ks -> scoped bd T (fun base => base) (fun s => s) csc k) (own_constraints cs) kss ->
  Forall2 (fun c ks => forall k : dconstraint, In k ks -> global_scope bd T c k)
          (filter (fun c => negb (is_min_trials c)) cs) kss.
Proof.
  intros bd T cs kss H. unfold own_constraints in H. apply Forall2_map_l in H.
  eapply Forall2_imp; [|exact H]. cbn beta. intros c ks Hks k Hin.
  destruct (Hks k Hin) as [base [scale [W1 [W2 W3]]]]. cbn [fst snd scope_windows] in *.
  injection W1 as <- <-. split; assumption.
Qed.

(** inherited constraints: the repetition windows of the block they were given to *)
Lemma inherit_rep_off : forall bd T inner off kss,
  Forall2 (fun csc ks => forall k, In k ks -> scoped bd T (fun base => base) (fun s => s) csc k) (inherit inner off) kss ->
  Forall2 (fun csc ks => forall k : dconstraint, In k ks ->
             b_P inner < b_T inner /\
             scoped bd (b_T inner) (fun base => rep_closed base (b_T inner - b_P inner) T (b_P inner) off) (fun s => s) csc k)
          (b_constraints inner) kss.
Proof.
  intros bd T inner off kss H. unfold inherit in H. apply Forall2_map_l in H.
  eapply Forall2_imp; [|exact H]. cbn beta. intros csc ks Hks k Hin.
  destruct (Hks k Hin) as [ws [scale [W1 [W2 W3]]]]. cbn [fst snd] in *.
  apply scope_windows_rep_inv in W1. destruct W1 as [base [B1 [B2 B3]]]. split; [exact B2|].
  exists base, scale. split; [exact B1|]. split; [exact W2|]. rewrite W3, B3. reflexivity.
Qed.

(** the windows of a scope inside the outer block, in trials of the nest *)
Definition scale_windows (n : nat) (base : list (nat * nat)) : list (nat * nat) :=
  map (fun ab => (fst ab * n, snd ab * n)) base.

Lemma inherit_scaled_rep : forall bd T outer n kss, 0 < n ->
  Forall2 (fun csc ks => forall k, In k ks -> scoped bd T (fun base => base) (fun s => s) csc k) (inherit_scaled outer n) kss ->
  Forall2 (fun csc ks => forall k : dconstraint, In k ks ->
             scoped bd (b_T outer) (fun base => rep_closed (scale_windows n base) (b_T outer * n) T 0 0) (fun s => s * n) csc k)
          (b_constraints outer) kss.
Proof.
  intros bd T outer n kss Hn H. unfold inherit_scaled in H. apply Forall2_map_l in H.
  eapply Forall2_imp; [|exact H]. cbn beta. intros csc ks Hks k Hin.
  destruct (Hks k Hin) as [ws [scale [W1 [W2 W3]]]]. cbn [fst snd] in *.
  apply scope_windows_rep_inv in W1. destruct W1 as [base' [B1 [B2 B3]]].
  cbn [scope_windows] in B1. rewrite Nat.div_mul in B1 by lia. inv_bind B1 as bs Hbs B1. destruct bs as [base sc0].
  injection B1 as <- <-. exists base, sc0. split; [exact Hbs|]. split; [exact W2|]. rewrite W3, B3, Nat.sub_0_r. reflexivity.
Qed.

(** a block whose constraint list ends with the constraints [cs] of a combinator: those are global *)
Lemma sem_of_block_own_split : forall p bd pre cs ds,
  b_constraints bd = pre ++ own_constraints cs -> sem_of_block p bd = Ok ds ->
  exists kss_b kss_c,
    s_constraints (ds_sem ds) = List.concat kss_b ++ List.concat kss_c ++ marker ds /\
    Forall2 (fun csc ks => forall k, In k ks -> scoped (ds_block ds) (ds_T ds) (fun base => base) (fun s => s) csc k) pre kss_b /\
    Forall2 (fun c ks => forall k : dconstraint, In k ks -> global_scope (ds_block ds) (ds_T ds) c k)
            (filter (fun c => negb (is_min_trials c)) cs) kss_c.
Proof.
  intros p bd pre cs ds Hcs H.
  destruct (sem_of_block_block _ _ _ H) as [Hb HT].
  destruct (sem_of_block_constraints _ _ _ H) as [kss [E F]]. rewrite Hcs in F.
  apply Forall2_app_inv_l in F. destruct F as [kss_b [kss_c [Fb [Fc ->]]]].
  exists kss_b, kss_c. rewrite Hb, HT. split; [rewrite E, concat_app, <- app_assoc; reflexivity|].
  split; [exact Fb|apply own_global; exact Fc].
Qed.

(** the semantic constraints of [ds] are, in this order: those that come from the constraints of
    the block [inner], each related to its source by [R]; those of the combinator itself ([cs]), on
    the whole sequence; the unsatisfiability marker *)
Definition split_scope (inner : blockdoc) (cs : list pcons) (ds : docsem)
           (R : pcons * scope -> dconstraint -> Prop) : Prop :=
  exists kss_b kss_c,
    s_constraints (ds_sem ds) = List.concat kss_b ++ List.concat kss_c ++ marker ds /\
    Forall2 (fun csc ks => forall k : dconstraint, In k ks -> R csc k) (b_constraints inner) kss_b /\
    Forall2 (fun c ks => forall k : dconstraint, In k ks -> global_scope (ds_block ds) (ds_T ds) c k)
            (filter (fun c => negb (is_min_trials c)) cs) kss_c.

Lemma rep_scope_generic : forall p bd inner cs ds,
  b_constraints bd = inherit inner 0 ++ own_constraints cs -> sem_of_block p bd = Ok ds ->
  split_scope inner cs ds (fun csc k =>
    b_P inner < b_T inner /\
    scoped (ds_block ds) (b_T inner) (fun base => rep_closed base (b_T inner - b_P inner) (ds_T ds) (b_P inner) 0) (fun s => s) csc k).
Proof.
  intros p bd inner cs ds Hcs H. destruct (sem_of_block_own_split _ _ _ _ _ Hcs H) as (kss_b & kss_c & E & Fb & Fc).
  exists kss_b, kss_c. split; [exact E|]. split; [apply inherit_rep_off; exact Fb|exact Fc].
Qed.

Theorem repeat_scope : forall p b cs inner ds,
  doc_block p b = Ok inner -> doc_sem_block p (PRepeat b cs) = Ok ds ->
  split_scope inner cs ds (fun csc k =>
    b_P inner < b_T inner /\
    scoped (ds_block ds) (b_T inner) (fun base => rep_closed base (b_T inner - b_P inner) (ds_T ds) (b_P inner) 0) (fun s => s) csc k).
Proof.
  intros p b cs inner ds Hb H. unfold doc_sem_block in H. inv_bind H as bd Hbd H.
  eapply rep_scope_generic; [eapply repeat_constraints; eauto|exact H].
Qed.

Theorem merge1_scope : forall p b cs mode al inner ds,
  doc_block p b = Ok inner -> doc_sem_block p (PMerge [b] cs mode al) = Ok ds ->
  split_scope inner cs ds (fun csc k =>
    b_P inner < b_T inner /\
    scoped (ds_block ds) (b_T inner) (fun base => rep_closed base (b_T inner - b_P inner) (ds_T ds) (b_P inner) 0) (fun s => s) csc k).
Proof.
  intros p b cs mode al inner ds Hb H. unfold doc_sem_block in H. inv_bind H as bd Hbd H.
  eapply rep_scope_generic; [eapply merge1_constraints; eauto|exact H].
Qed.

Theorem nest_scope : forall p o i cs al outer inner ds,
  doc_block p o = Ok outer -> doc_block p i = Ok inner -> doc_sem_block p (PNest o i cs al) = Ok ds ->
  let n := b_T inner in
  exists kss_o kss_i kss_c,
    s_constraints (ds_sem ds) = List.concat kss_o ++ List.concat kss_i ++ List.concat kss_c ++ marker ds /\
    (* outer constraints: scaled by n, one window group per repetition of the scaled outer block *)
    Forall2 (fun csc ks => forall k : dconstraint, In k ks ->
               scoped (ds_block ds) (b_T outer)
                      (fun base => rep_closed (scale_windows n base) (b_T outer * n) (ds_T ds) 0 0) (fun s => s * n) csc k)
            (b_constraints outer) kss_o /\
    (* inner constraints: within each group of n trials *)
    Forall2 (fun csc ks => forall k : dconstraint, In k ks ->
               scoped (ds_block ds) n (fun base => rep_closed base n (ds_T ds) 0 0) (fun s => s) csc k)
            (b_constraints inner) kss_i /\
    (* constraints of the Nest itself: the whole sequence *)
    Forall2 (fun c ks => forall k : dconstraint, In k ks -> global_scope (ds_block ds) (ds_T ds) c k)
            (filter (fun c => negb (is_min_trials c)) cs) kss_c.
Proof.
  intros p o i cs al outer inner ds Ho Hi H n. unfold doc_sem_block in H. inv_bind H as bd Hbd H.
  destruct (nest_constraints _ _ _ _ _ _ _ _ Ho Hi Hbd) as [Po [Pi Hcs]].
  destruct (doc_block_inv _ _ _ Hi) as [Hn _]. rewrite app_assoc in Hcs.
  destruct (sem_of_block_own_split _ _ _ _ _ Hcs H) as (kss & kss_c & E & F & Fc).
  apply Forall2_app_inv_l in F. destruct F as [kss_o [kss_i [Fo [Fi ->]]]].
  exists kss_o, kss_i, kss_c. split; [rewrite E, concat_app, <- app_assoc; reflexivity|].
  split; [|split; [|exact Fc]].
  - exact (inherit_scaled_rep _ _ outer n kss_o Hn Fo).
  - apply inherit_rep_off in Fi. eapply Forall2_imp; [|exact Fi]. cbn beta. intros csc ks Hks k Hin.
    destruct (Hks k Hin) as [_ S]. rewrite Pi, Nat.sub_0_r in S. exact S.
Qed.

(** ** the usual case: the repeated blocks are CrossBlocks / MultiCrossBlocks
    (their constraints have the block itself as scope) *)

(** [k] comes from [c] and applies within each repetition (of [Tb] trials, [Pb] of them preamble) *)
Definition rep_scope (bd : blockdoc) (Tb Pb T : nat) (c : pcons) (k : dconstraint) : Prop :=
  src_kind bd c 1 (k_kind k) /\
  k_windows k = if windowed (k_kind k) then map (rep_window Tb Pb T) (seq 0 (rep_count Tb Pb T)) else [].

Lemma scoped_none_rep : forall bd Tb Pb T csc k, snd csc = ScNone -> Pb < Tb ->
  scoped bd Tb (fun base => rep_closed base (Tb - Pb) T Pb 0) (fun s => s) csc k ->
  rep_scope bd Tb Pb T (fst csc) k.
Proof.
  intros bd Tb Pb T csc k Hn HP [base [scale [W1 [W2 W3]]]]. rewrite Hn in W1. cbn [scope_windows] in W1.
  injection W1 as <- <-. split; [exact W2|]. rewrite W3, rep_closed_whole_block by exact HP. reflexivity.
Qed.

Lemma rep_closed_chunks : forall Tb T, 0 < Tb -> rep_closed [(0, Tb)] Tb T 0 0 = chunk_windows Tb T.
Proof.
  intros Tb T H. pose proof (rep_closed_whole_block Tb 0 T H) as X. rewrite Nat.sub_0_r in X. rewrite X.
  apply rep_windows_no_preamble.
Qed.

(** the repetition windows of a constraint of a cross block are the whole repetitions *)
Lemma split_scope_cross : forall p b inner cs ds, is_cross b -> doc_block p b = Ok inner ->
  split_scope inner cs ds (fun csc k =>
    b_P inner < b_T inner /\
    scoped (ds_block ds) (b_T inner) (fun base => rep_closed base (b_T inner - b_P inner) (ds_T ds) (b_P inner) 0) (fun s => s) csc k) ->
  split_scope inner cs ds (fun csc k =>
    b_P inner < b_T inner /\ rep_scope (ds_block ds) (b_T inner) (b_P inner) (ds_T ds) (fst csc) k).
Proof.
  intros p b inner cs ds Hx Hb (kss_b & kss_c & E & Fb & Fc). exists kss_b, kss_c. split; [exact E|]. split; [|exact Fc].
  refine (Forall2_imp_Forall _ _ _ _ _ (cross_scopes_none p b inner Hx Hb) _ Fb).
  intros csc ks N Hk k Hin. destruct (Hk k Hin) as [HP S]. split; [exact HP|]. apply scoped_none_rep; assumption.
Qed.

Theorem repeat_cross_scope : forall p b cs inner ds,
  is_cross b -> doc_block p b = Ok inner -> doc_sem_block p (PRepeat b cs) = Ok ds ->
  split_scope inner cs ds (fun csc k =>
    b_P inner < b_T inner /\ rep_scope (ds_block ds) (b_T inner) (b_P inner) (ds_T ds) (fst csc) k).
Proof.
  intros p b cs inner ds Hx Hb H. exact (split_scope_cross p b inner cs ds Hx Hb (repeat_scope p b cs inner ds Hb H)).
Qed.

Theorem merge1_cross_scope : forall p b cs mode al inner ds,
  is_cross b -> doc_block p b = Ok inner -> doc_sem_block p (PMerge [b] cs mode al) = Ok ds ->
  split_scope inner cs ds (fun csc k =>
    b_P inner < b_T inner /\ rep_scope (ds_block ds) (b_T inner) (b_P inner) (ds_T ds) (fst csc) k).
Proof.
  intros p b cs mode al inner ds Hx Hb H. exact (split_scope_cross p b inner cs ds Hx Hb (merge1_scope p b cs mode al inner ds Hb H)).
Qed.

(** Nest of two cross blocks: a constraint of the inner block gets one window per group of
    [n] = inner trial count trials; a constraint of the outer block keeps, in trials of the nest, the
    window of each repetition of the outer block ([To * n] trials) and its count is scaled by [n]
    ([ExactlyK k] becomes [k * n]; a [Pin] carries the constrained factor's sustain count) *)
Definition nest_outer_scope (bd : blockdoc) (To n T : nat) (c : pcons) (k : dconstraint) : Prop :=
  src_kind bd c n (k_kind k) /\
  k_windows k = if windowed (k_kind k) then chunk_windows (To * n) T else [].

Definition nest_inner_scope (bd : blockdoc) (n T : nat) (c : pcons) (k : dconstraint) : Prop :=
  src_kind bd c 1 (k_kind k) /\
  k_windows k = if windowed (k_kind k) then chunk_windows n T else [].

Theorem nest_cross_scope : forall p o i cs al outer inner ds,
  is_cross o -> is_cross i ->
  doc_block p o = Ok outer -> doc_block p i = Ok inner -> doc_sem_block p (PNest o i cs al) = Ok ds ->
  let n := b_T inner in
  exists kss_o kss_i kss_c,
    s_constraints (ds_sem ds) = List.concat kss_o ++ List.concat kss_i ++ List.concat kss_c ++ marker ds /\
    Forall2 (fun csc ks => forall k : dconstraint, In k ks -> nest_outer_scope (ds_block ds) (b_T outer) n (ds_T ds) (fst csc) k)
            (b_constraints outer) kss_o /\
    Forall2 (fun csc ks => forall k : dconstraint, In k ks -> nest_inner_scope (ds_block ds) n (ds_T ds) (fst csc) k)
            (b_constraints inner) kss_i /\
    Forall2 (fun c ks => forall k : dconstraint, In k ks -> global_scope (ds_block ds) (ds_T ds) c k)
            (filter (fun c => negb (is_min_trials c)) cs) kss_c.
Proof.
  intros p o i cs al outer inner ds Xo Xi Ho Hi H n.
  destruct (nest_scope p o i cs al outer inner ds Ho Hi H) as [kss_o [kss_i [kss_c [E [Fo [Fi Fc]]]]]].
  fold n in Fo, Fi.
  destruct (doc_block_inv _ _ _ Hi) as [Hn _]. fold n in Hn. destruct (doc_block_inv _ _ _ Ho) as [HTo _].
  exists kss_o, kss_i, kss_c. split; [exact E|]. split; [|split; [|exact Fc]].
  - refine (Forall2_imp_Forall _ _ _ _ _ (cross_scopes_none p o outer Xo Ho) _ Fo).
    intros csc ks Hx Hk k Hin. destruct (Hk k Hin) as [base [scale [W1 [W2 W3]]]].
    rewrite Hx in W1. cbn [scope_windows] in W1. injection W1 as <- <-. split.
    + rewrite Nat.mul_1_l in W2. exact W2.
    + rewrite W3. unfold scale_windows. cbn [map fst snd]. rewrite Nat.mul_0_l.
      rewrite rep_closed_chunks by (apply Nat.mul_pos_pos; assumption). reflexivity.
  - refine (Forall2_imp_Forall _ _ _ _ _ (cross_scopes_none p i inner Xi Hi) _ Fi).
    intros csc ks Hx Hk k Hin. destruct (Hk k Hin) as [base [scale [W1 [W2 W3]]]].
    rewrite Hx in W1. cbn [scope_windows] in W1. injection W1 as <- <-. split; [exact W2|].
    rewrite W3, rep_closed_chunks by exact Hn. reflexivity.
Qed.

(** * What the windows mean: a constraint applies separately within each window *)
Definition row_kind (k : ckind) : bool :=
  match k with KAtMost _ | KAtLeast _ | KExactlyInARow _ | KExactlyK _ => true | _ => false end.

Definition set_windows (c : dconstraint) (ws : list (nat * nat)) : dconstraint :=
  {| k_kind := k_kind c; k_factor := k_factor c; k_level := k_level c; k_windows := ws |}.

(** the trials [a, b) of a sequence, taken alone *)
Definition slice_seq (s : tseq) (a b : nat) : tseq := map (fun row => slice row a b) s.

Lemma slice_nil : forall {A} a b, slice (@nil A) a b = [].
Proof. intros A a b. unfold slice. rewrite skipn_nil. apply firstn_nil. Qed.

Lemma nth_slice_seq : forall s f a b, nth f (slice_seq s a b) [] = slice (nth f s []) a b.
Proof.
  intros s f a b. unfold slice_seq. rewrite <- (slice_nil (A := cell) a b) at 1.
  apply (map_nth (fun row => slice row a b)).
Qed.

Lemma slice_slice_whole : forall {A} (row : list A) a b Tb, b - a <= Tb -> slice (slice row a b) 0 Tb = slice row a b.
Proof.
  intros A row a b Tb H. unfold slice. rewrite Nat.sub_0_r. cbn [skipn]. rewrite firstn_firstn.
  rewrite (Nat.min_r Tb (b - a) H). reflexivity.
Qed.

(** a run-length or count constraint holds on the sequence iff, for each of its windows, it holds
    on the trials of that window taken alone (as a sequence of at most [Tb] trials with the single
    window [0, Tb)) *)
Theorem constraint_ok_per_window : forall S S' s c Tb,
  row_kind (k_kind c) = true ->
  (forall w, In w (k_windows c) -> snd w - fst w <= Tb) ->
  constraint_ok S s c
  = forallb (fun w => constraint_ok S' (slice_seq s (fst w) (snd w)) (set_windows c [(0, Tb)])) (k_windows c).
Proof.
  intros S S' s c Tb Hk Hw. unfold constraint_ok. cbn [set_windows k_kind k_factor k_level k_windows].
  destruct (k_kind c); try discriminate; apply forallb_ext_in; intros w Hin; cbn [forallb fst snd];
    rewrite andb_true_r, nth_slice_seq, (slice_slice_whole _ _ _ Tb (Hw w Hin)); reflexivity.
Qed.

Corollary constraint_ok_per_window_iff : forall S S' s c Tb,
  row_kind (k_kind c) = true ->
  (forall w, In w (k_windows c) -> snd w - fst w <= Tb) ->
  (constraint_ok S s c = true <->
   forall w, In w (k_windows c) -> constraint_ok S' (slice_seq s (fst w) (snd w)) (set_windows c [(0, Tb)]) = true).
Proof.
  intros S S' s c Tb Hk Hw. rewrite (constraint_ok_per_window S S' s c Tb Hk Hw). apply forallb_forall.
Qed.

(** windows numbered [0 .. n-1] *)
Lemma constraint_ok_per_numbered : forall S S' s c Tb (w : nat -> nat * nat) n,
  row_kind (k_kind c) = true -> k_windows c = map w (seq 0 n) -> (forall j, snd (w j) - fst (w j) <= Tb) ->
  (constraint_ok S s c = true <->
   forall j, j < n -> constraint_ok S' (slice_seq s (fst (w j)) (snd (w j))) (set_windows c [(0, Tb)]) = true).
Proof.
  intros S S' s c Tb w n Hk Hw Hle.
  rewrite (constraint_ok_per_window_iff S S' s c Tb Hk).
  - rewrite Hw. split.
    + intros H j Hj. apply (H (w j)). apply in_map. apply in_seq. lia.
    + intros H x Hin. apply in_map_iff in Hin. destruct Hin as [j [<- Hj]]. apply in_seq in Hj. apply H. lia.
  - rewrite Hw. intros x Hin. apply in_map_iff in Hin. destruct Hin as [j [<- _]]. apply Hle.
Qed.

(** the repetition windows (with preamble: each window includes the preamble trials before the repetition) *)
Theorem constraint_ok_per_repetition : forall S S' s c Tb Pb T,
  row_kind (k_kind c) = true ->
  k_windows c = map (rep_window Tb Pb T) (seq 0 (rep_count Tb Pb T)) ->
  (constraint_ok S s c = true <->
   forall j, j < rep_count Tb Pb T ->
     constraint_ok S' (slice_seq s (j * (Tb - Pb)) (Nat.min (j * (Tb - Pb) + Tb) T)) (set_windows c [(0, Tb)]) = true).
Proof.
  intros S S' s c Tb Pb T Hk Hw. apply (constraint_ok_per_numbered S S' s c Tb (rep_window Tb Pb T) _ Hk Hw).
  intro j. unfold rep_window. cbn [fst snd]. lia.
Qed.

(** without preamble: the sequence is cut into consecutive chunks of [Tb] trials (the last one may be
    shorter) and the constraint holds iff it holds on every chunk taken alone *)
Theorem constraint_ok_per_chunk : forall S S' s c Tb T,
  row_kind (k_kind c) = true ->
  k_windows c = chunk_windows Tb T ->
  (constraint_ok S s c = true <->
   forall j, j < ceil_div T Tb ->
     constraint_ok S' (slice_seq s (j * Tb) (Nat.min ((j + 1) * Tb) T)) (set_windows c [(0, Tb)]) = true).
Proof.
  intros S S' s c Tb T Hk Hw. apply (constraint_ok_per_numbered S S' s c Tb (chunk_window Tb T) _ Hk Hw).
  intro j. unfold chunk_window. cbn [fst snd]. lia.
Qed.

(** a combinator constraint, with the single window [0, T), sees the whole rows *)
Theorem constraint_ok_global : forall S s c T,
  row_kind (k_kind c) = true -> k_windows c = [(0, T)] -> List.length (nth (k_factor c) s []) <= T ->
  constraint_ok S s c = constraint_ok S (slice_seq s 0 T) c /\
  slice (nth (k_factor c) s []) 0 T = nth (k_factor c) s [].
Proof.
  intros S s c T Hk Hw Hl.
  assert (E : slice (nth (k_factor c) s []) 0 T = nth (k_factor c) s []).
  { unfold slice. rewrite Nat.sub_0_r. cbn [skipn]. apply firstn_all2. exact Hl. }
  split; [|exact E]. unfold constraint_ok. rewrite Hw, nth_slice_seq, E.
  destruct (k_kind c); try discriminate; reflexivity.
Qed.

(** * When the trial count is a whole number of repetitions *)
(** [m] whole repetitions of [n] trials: the windows [j*n, (j+1)*n), j < m *)
Theorem chunk_windows_exact : forall m n, 0 < n ->
  chunk_windows n (m * n) = map (fun j => (j * n, (j + 1) * n)) (seq 0 m).
Proof.
  intros m n Hn. unfold chunk_windows. rewrite ceil_div_mul by exact Hn. apply map_ext_in. intros j Hj.
  apply in_seq in Hj. unfold chunk_window. f_equal. apply Nat.min_l. nia.
Qed.

(** one repetition: the whole sequence *)
Theorem chunk_windows_one : forall T, 0 < T -> chunk_windows T T = [(0, T)].
Proof.
  intros T HT. pose proof (chunk_windows_exact 1 T HT) as X. rewrite Nat.mul_1_l in X. rewrite X. cbn.
  rewrite Nat.add_0_r. reflexivity.
Qed.

(** * Merge of several blocks
    every constraint of each merged block applies within the repetitions of that block; under
    POST_PREAMBLE the repetitions of a block with a shorter preamble start later ([merge_off]) *)
Definition merge_off (bd inner : blockdoc) : nat :=
  match b_alignment bd with PostPreamble => maxp_of bd - b_P inner | _ => 0 end.

Lemma merge_alignment : forall inners cs mode al nest bd, merge inners cs mode al nest = Ok bd -> b_alignment bd = al.
Proof.
  intros inners cs mode al nest bd H. apply (merge_spec _ _ _ _ _ _ H).
Qed.

Lemma Forall2_flat_map_l : forall {A B C} (R : B -> C -> Prop) (g : A -> list B) l kss,
  Forall2 R (flat_map g l) kss ->
  exists ksss, kss = List.concat ksss /\ Forall2 (fun x ks' => Forall2 R (g x) ks') l ksss.
Proof.
  intros A B C R g l. induction l as [|x l IH]; intros kss H; cbn [flat_map] in H.
  - inversion H; subst. exists []. split; [reflexivity|constructor].
  - apply Forall2_app_inv_l in H. destruct H as [k1 [k2 [H1 [H2 ->]]]]. destruct (IH k2 H2) as [ksss [-> F]].
    exists (k1 :: ksss). split; [reflexivity|]. constructor; assumption.
Qed.

Theorem merge_scope : forall p bs cs mode al ds,
  doc_sem_block p (PMerge bs cs mode al) = Ok ds ->
  exists inners ksss kss_c,
    Forall2 (fun b bd => doc_block p b = Ok bd) bs inners /\
    s_constraints (ds_sem ds) = List.concat (List.concat ksss) ++ List.concat kss_c ++ marker ds /\
    Forall2 (fun inner kss =>
               Forall2 (fun csc ks => forall k : dconstraint, In k ks ->
                          b_P inner < b_T inner /\
                          scoped (ds_block ds) (b_T inner)
                                 (fun base => rep_closed base (b_T inner - b_P inner) (ds_T ds) (b_P inner)
                                                         (merge_off (ds_block ds) inner))
                                 (fun s => s) csc k)
                       (b_constraints inner) kss)
            inners ksss /\
    Forall2 (fun c ks => forall k : dconstraint, In k ks -> global_scope (ds_block ds) (ds_T ds) c k)
            (filter (fun c => negb (is_min_trials c)) cs) kss_c.
Proof.
  intros p bs cs mode al ds H. unfold doc_sem_block in H. inv_bind H as bd Hbd H.
  cbn [doc_block] in Hbd. inv_bind Hbd as inners Hi Hbd. inv_bind Hbd as al' Hal Hbd. apply go_ok in Hi.
  destruct (sem_of_block_block _ _ _ H) as [<- _]. pose proof (merge_alignment _ _ _ _ _ _ Hbd) as Ha.
  destruct (sem_of_block_own_split _ _ _ _ _ (merge_constraints _ _ _ _ _ _ Hbd) H) as (kss_b & kss_c & E & Fb & Fc).
  apply Forall2_flat_map_l in Fb. destruct Fb as [ksss [-> Fb]].
  exists inners, ksss, kss_c. split; [exact Hi|]. split; [exact E|]. split; [|exact Fc].
  eapply Forall2_imp; [|exact Fb]. cbn beta. intros inner kss Hk. apply inherit_rep_off.
  unfold merge_off. rewrite Ha. exact Hk.
Qed.
