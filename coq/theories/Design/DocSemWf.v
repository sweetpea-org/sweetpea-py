(** More well-formedness of the semantic normal form [doc_sem] produces:
    a derived factor is listed after the factors it depends on ([Sem.all_valid] fills the
    rows in list order); the combinations of a crossing have one in-range level per crossed factor. *)
From Coq Require Import ZArith List Bool Arith Lia String Sorted.
From SP Require Import Design.Sem Design.Flat Design.DocSem Design.DocSemProofs Design.DocSemPlain Design.ListSums.
Import ListNotations.
Local Open Scope nat_scope.
Local Open Scope list_scope.

(** * insertion sort by a numeric key is sorted *)
Section SortKey.
Variable A : Type.
Variable key : A -> nat.
Let leb (a b : A) : bool := key a <=? key b.
Let le (a b : A) : Prop := key a <= key b.

Lemma insert_sorted : forall x l, StronglySorted le l -> StronglySorted le (insert_by leb x l).
Proof.
  intros x l H. induction H as [|y l Hl IH Hy]; cbn; [constructor; constructor|].
  unfold leb at 1. destruct (Nat.leb_spec (key y) (key x)) as [Hle|Hlt].
  - constructor; [exact IH|]. apply Forall_forall. intros z Hz. apply in_insert_by in Hz. destruct Hz as [->|Hz]; [exact Hle|].
    rewrite Forall_forall in Hy. apply Hy. exact Hz.
  - constructor; [constructor; assumption|]. constructor; [unfold le; lia|]. rewrite Forall_forall in Hy |- *.
    intros z Hz. specialize (Hy z Hz). unfold le in *. lia.
Qed.

Lemma sort_by_sorted : forall l, StronglySorted le (sort_by leb l).
Proof.
  intro l. unfold sort_by.
  assert (G : forall acc, StronglySorted le acc -> StronglySorted le (fold_left (fun acc x => insert_by leb x acc) l acc)).
  { induction l as [|x l IH]; intros acc H; cbn [fold_left]; [exact H|]. apply IH. apply insert_sorted. exact H. }
  apply G. constructor.
Qed.

Lemma sorted_nth : forall l d a b, StronglySorted le l -> a <= b -> b < List.length l -> key (nth a l d) <= key (nth b l d).
Proof.
  intros l d a b H. revert a b. induction H as [|y l Hl IH Hy]; intros a b Hab Hb; [cbn in Hb; lia|].
  destruct a as [|a]; destruct b as [|b]; try lia; cbn in Hb |- *.
  - rewrite Forall_forall in Hy. apply Hy. apply nth_In. lia.
  - apply IH; lia.
Qed.
End SortKey.

Lemma mapM_impl : forall {A B} (f g : A -> res B) l ys, (forall x y, In x l -> f x = Ok y -> g x = Ok y) -> mapM f l = Ok ys -> mapM g l = Ok ys.
Proof.
  intros A B f g l. induction l as [|x l IH]; intros ys H Hm; [exact Hm|]. cbn in Hm |- *.
  inv_bind Hm as y Hy Hm. inv_bind Hm as ys' Hys Hm. rewrite (H x y (or_introl eq_refl) Hy). cbn.
  rewrite (IH ys' (fun a b Ha => H a b (or_intror Ha)) Hys). exact Hm.
Qed.

Lemma depth_unfold : forall p n f,
  depth p (S n) f =
  (fd <- fm p f ;;
   match pf_kind fd with
   | FDerived w _ => ds <- mapM (depth p n) (pw_deps w) ;;
                     match ds with [] => Crash "ValueError: max of empty" | _ => Ok (1 + list_max ds) end
   | _ => Ok 0
   end).
Proof. reflexivity. Qed.

Lemma depth_mono : forall p n f d, depth p n f = Ok d -> depth p (S n) f = Ok d.
Proof.
  intros p n. induction n as [|n IH]; intros f d H; [discriminate|]. rewrite depth_unfold in H. rewrite (depth_unfold p (S n)).
  destruct (fm p f) as [fd| |]; cbn [bind] in *; try discriminate. destruct (pf_kind fd) as [|w levels|]; try exact H.
  inv_bind H as ds Hds H. rewrite (mapM_impl _ (depth p (S n)) _ ds (fun x y _ => IH x y) Hds). exact H.
Qed.

Lemma depth_deps : forall p n f fd w levels df, fm p f = Ok fd -> pf_kind fd = FDerived w levels ->
  depth p (S n) f = Ok df -> forall d, In d (pw_deps w) -> exists dd, depth p n d = Ok dd /\ dd < df.
Proof.
  intros p n f fd w levels df Hfm Hk H d Hd. rewrite depth_unfold in H. rewrite Hfm in H. cbn [bind] in H. rewrite Hk in H.
  inv_bind H as ds Hds H. destruct ds as [|x ds]; [discriminate|]. assert (Edf : df = 1 + list_max (x :: ds)) by congruence. subst df. clear H.
  apply mapM_ok in Hds. revert Hd. revert Hds. generalize (x :: ds). generalize (pw_deps w). intros l0 ys0 Hds Hd.
  induction Hds as [|a b l ys Hab _ IH]; [contradiction|]. destruct Hd as [->|Hd].
  - exists b. split; [exact Hab|]. rewrite list_max_cons. lia.
  - destruct (IH Hd) as [dd [E1 E2]]. exists dd. split; [exact E1|]. rewrite list_max_cons. lia.
Qed.

Lemma window_params_deps : forall p fd deps width stride start, window_params p fd = Ok (deps, width, stride, start) ->
  exists w levels, pf_kind fd = FDerived w levels /\ deps = pw_deps w.
Proof.
  intros p fd deps width stride start H. unfold window_params, fuel0 in H. cbn [wp_cx fst] in H.
  destruct (pf_kind fd) as [|w levels|]; try discriminate. exists w, levels. split; [reflexivity|].
  destruct (pw_type w) as [| |wd st sa]; inv_bind H as dflt Hd H; congruence.
Qed.

Lemma forder_depth_sorted : forall p design depths i j,
  mapM (fun f => d <- depth p (fuel0 p) f ;; Ok (f, d)) design = Ok depths ->
  let forder := map fst (sort_by (fun a b : nat * nat => snd a <=? snd b) depths) in
  i <= j -> j < List.length forder ->
  exists di dj, depth p (fuel0 p) (nth i forder 0) = Ok di /\ depth p (fuel0 p) (nth j forder 0) = Ok dj /\ di <= dj.
Proof.
  intros p design depths i j Hd forder Hij Hj. unfold forder in *. clear forder. rewrite map_length in Hj.
  set (sorted := sort_by _ depths) in *.
  assert (Hent : forall k, k < List.length sorted ->
            depth p (fuel0 p) (nth k (map fst sorted) 0) = Ok (snd (nth k sorted (0, 0)))).
  { intros k Hk. replace (nth k (map fst sorted) 0) with (fst (nth k sorted (0, 0))) by (symmetry; exact (map_nth fst sorted (0, 0) k)).
    assert (Hin : In (nth k sorted (0, 0)) depths) by (apply (in_sort_by (fun a b : nat * nat => snd a <=? snd b)), nth_In, Hk).
    destruct (mapM_in _ _ _ _ Hd Hin) as [g [_ Hg]]. inv_bind Hg as dg Hdg Hg. apply Ok_inj in Hg. rewrite <- Hg. exact Hdg. }
  exists (snd (nth i sorted (0, 0))), (snd (nth j sorted (0, 0))). split; [apply Hent; lia|]. split; [apply Hent; exact Hj|].
  exact (sorted_nth _ snd sorted (0, 0) i j (sort_by_sorted _ snd depths) Hij Hj).
Qed.

(** * a derived factor is listed after its dependencies: a dependency is strictly less deep *)
Theorem sem_of_block_deps_before : forall p bd ds, sem_of_block p bd = Ok ds ->
  forall i fd w, nth_error (s_factors (ds_sem ds)) i = Some fd -> f_derived fd = Some w ->
  forall pd, In pd (w_deps w) -> pd < i.
Proof.
  intros p bd ds H i fd w Hi Hw pd Hpd.
  destruct (sem_of_block_inv _ _ _ H) as (depths & forder & factors & crossings & kss & Hd & -> & Hf & _ & _ & ->).
  cbv zeta in Hi. cbn [ds_sem s_factors] in Hi. clear H.
  set (forder := map fst _) in *.
  assert (Hlt : i < List.length forder) by (rewrite <- (mapM_length _ _ _ Hf); apply nth_error_Some; congruence).
  pose proof (mapM_nth _ _ _ 0 dfactor0 i Hf Hlt) as Hsf. rewrite (nth_error_nth _ _ dfactor0 Hi) in Hsf.
  destruct (sem_factor_inv _ _ _ _ _ Hsf) as (pfd & Hpfd & _ & _ & [Ew|(deps & wd & st & sa & tabs & enc & pdeps & Hq & _ & _ & Hp & Ew)]);
    rewrite Ew in Hw; [discriminate|]. injection Hw as <-. cbn [w_deps] in Hpd.
  destruct (mapM_in _ _ _ _ Hp Hpd) as [d [Hdin Hpos]]. destruct (pos_of_nth _ _ _ Hpos) as [Hpdlt Hnth].
  destruct (window_params_deps _ _ _ _ _ _ Hq) as [w' [levels [Hkind ->]]].
  destruct (Nat.lt_ge_cases pd i) as [Hlt'|Hge]; [exact Hlt'|]. exfalso.
  destruct (forder_depth_sorted p _ depths i pd Hd Hge Hpdlt) as (df & dd & Df & Dd & Hle). fold forder in Df, Dd. rewrite Hnth in Dd.
  unfold fuel0 in Df. destruct (depth_deps p _ _ pfd w' levels _ Hpfd Hkind Df d Hdin) as [dd' [Edd Hdd]].
  apply depth_mono in Edd. fold (fuel0 p) in Edd. rewrite Dd in Edd. apply Ok_inj in Edd. lia.
Qed.

Theorem doc_sem_deps_before : forall p ds, doc_sem p = Ok ds ->
  forall i fd w, nth_error (s_factors (ds_sem ds)) i = Some fd -> f_derived fd = Some w ->
  forall pd, In pd (w_deps w) -> pd < i.
Proof.
  intros p ds H. unfold doc_sem, doc_sem_block in H. inv_bind H as bd Hbd H. eapply sem_of_block_deps_before; eauto.
Qed.

(** * the combinations of a crossing have one level per crossed factor *)
Lemma all_combos_len : forall p cr d, all_combos p cr = Ok d -> forall kv, In kv d -> List.length (fst kv) = List.length cr.
Proof.
  intros p cr d H. unfold all_combos in H. inv_bind H as doms Hd H.
  apply (fold_combos_inv p cr (fun kv => List.length (fst kv) = List.length cr) _ _ _ H); [intros kv []|].
  intros c w Hc _. cbn [fst]. rewrite (in_product_length _ _ Hc). apply (mapM_length _ _ _ Hd).
Qed.

Lemma feasible_len : forall p design crossing ex fe, feasible_combos p design crossing ex = Ok fe ->
  forall kv, In kv fe -> List.length (fst kv) = List.length crossing.
Proof.
  intros p design crossing ex fe H. unfold feasible_combos in H.
  inv_bind H as kinds Hk H. inv_bind H as extra Hextra H. inv_bind H as within Hw H. inv_bind H as excl He H. inv_bind H as doms Hd H.
  refine (fold_res_inv _ (fun d : combos => forall kv, In kv d -> List.length (fst kv) = List.length crossing) _ _ _ _ [] fe H _);
    try reflexivity; [|intros kv []].
  intros d0 vals r _ Hi Hr. cbn [bind] in Hr. cbv zeta in Hr.
  match type of Hr with (if ?c then _ else _) = _ => destruct c end; [apply Ok_inj in Hr; subst; exact Hi|].
  inv_bind Hr as wv Hwv Hr. destruct wv as [wv|]; [|apply Ok_inj in Hr; subst; exact Hi].
  inv_bind Hr as parts Hp Hr. apply (fold_combos_inv p crossing _ _ _ _ Hr Hi).
  intros c w Hc _. cbn [fst]. rewrite (in_product_length _ _ Hc). apply (mapM_length _ _ _ Hp).
Qed.

Definition combos_len (c : dcross) : Prop := forall kv, In kv (x_combos c) -> List.length (fst kv) = List.length (x_factors c).

Lemma doc_block_len : forall p b bd, doc_block p b = Ok bd -> Forall combos_len (b_crossings bd).
Proof.
  intros p. apply doc_block_crossings; unfold combos_len.
  - intros c c' _ Hf. unfold fc in Hf. injection Hf as -> ->. trivial.
  - intros d ex rcc cr x H. destruct (doc_crossing_inv _ _ _ _ _ _ H) as (allc & feas & ? & Ha & Hf & _ & ->). cbn [x_combos x_factors].
    destruct rcc; [apply (all_combos_len _ _ _ Ha)|apply (feasible_len _ _ _ _ _ Hf)].
  - intros c n Hc _ _. exact Hc.
Qed.

(** the multiplicity list of a crossing of the normal form *)
Theorem doc_sem_mult_shape : forall p ds, doc_sem p = Ok ds ->
  forall c, In c (s_crossings (ds_sem ds)) -> forall im, In im (c_mult c) -> List.length (fst im) = List.length (c_factors c).
Proof.
  intros p ds H c Hc [idx m] Him. unfold doc_sem, doc_sem_block in H. inv_bind H as bd Hbd H.
  pose proof (doc_block_len _ _ _ Hbd) as Hlen.
  destruct (sem_of_block_inv _ _ _ H) as (depths & forder & factors & crossings & kss & _ & _ & _ & Hx & _ & ->).
  cbv zeta in Hc. cbn [ds_sem s_crossings] in Hc. destruct (mapM_in _ _ _ _ Hx Hc) as [x [Hxin Hsx]].
  destruct (sem_crossing_mult _ _ _ _ _ _ _ _ Hsx Him) as (combo & w & Hin & _ & Hidx).
  destruct (sem_crossing_inv _ _ _ _ _ _ Hsx) as (_ & mult & fs & _ & Hfs & ->). cbn [fst c_factors].
  rewrite (mapM_length _ _ _ Hidx), (mapM_length _ _ _ Hfs), combine_length.
  rewrite Forall_forall in Hlen. pose proof (Hlen x Hxin (combo, w) Hin) as E. cbn [fst] in E. rewrite E. apply Nat.min_id.
Qed.

(** * levels in range: the combinations of the crossings and the cells of the acceptance tables *)
Lemma mult_levels_gen : forall p bd forder factors (xf : list nat) (combo : list name) idx fs,
  mapM (sem_factor p bd forder) forder = Ok factors ->
  mapM (fun fn : nat * name => level_index p (fst fn) (snd fn)) (combine xf combo) = Ok idx ->
  mapM (pos_of forder) xf = Ok fs -> List.length combo = List.length xf ->
  Forall2 (fun l cf => l < f_nlevels (nth cf factors dfactor0)) idx fs.
Proof.
  intros p bd forder factors xf. induction xf as [|f xf IH]; intros combo idx fs Hf Hidx Hfs Hlen.
  - cbn in Hidx, Hfs. apply Ok_inj in Hidx, Hfs. subst. constructor.
  - destruct combo as [|n combo]; [discriminate|]. cbn [combine mapM fst snd] in Hidx, Hfs.
    inv_bind Hidx as l Hl Hidx. inv_bind Hidx as idx' Hidx' Hidx. apply Ok_inj in Hidx; subst idx.
    inv_bind Hfs as cf Hcf Hfs. inv_bind Hfs as fs' Hfs' Hfs. apply Ok_inj in Hfs; subst fs.
    constructor; [eapply level_lt_at; eauto|]. eapply IH; eauto.
Qed.

Theorem doc_sem_mult_levels : forall p ds, doc_sem p = Ok ds ->
  forall c, In c (s_crossings (ds_sem ds)) -> forall im, In im (c_mult c) ->
  Forall2 (fun l cf => l < f_nlevels (nth cf (s_factors (ds_sem ds)) dfactor0)) (fst im) (c_factors c).
Proof.
  intros p ds H c Hc [idx m] Him. unfold doc_sem, doc_sem_block in H. inv_bind H as bd Hbd H.
  pose proof (doc_block_len _ _ _ Hbd) as Hlen.
  destruct (sem_of_block_inv _ _ _ H) as (depths & forder & factors & crossings & kss & _ & _ & Hf & Hx & _ & ->).
  cbv zeta in Hc |- *. cbn [ds_sem s_crossings s_factors] in Hc |- *. destruct (mapM_in _ _ _ _ Hx Hc) as [x [Hxin Hsx]].
  destruct (sem_crossing_mult _ _ _ _ _ _ _ _ Hsx Him) as (combo & w & Hin & _ & Hidx).
  destruct (sem_crossing_inv _ _ _ _ _ _ Hsx) as (_ & mult & fs & _ & Hfs & ->). cbn [fst c_factors].
  rewrite Forall_forall in Hlen. exact (mult_levels_gen _ _ _ _ _ _ _ _ Hf Hidx Hfs (Hlen x Hxin (combo, w) Hin)).
Qed.

(** the acceptance table of a derived factor: every row has at most one column per dependency, and
    every cell that names a level names a level of that dependency *)
Definition row_ok (factors : list dfactor) (deps : list nat) (row : list (list (option nat))) : Prop :=
  List.length row <= List.length deps /\
  forall j col, nth_error row j = Some col ->
    forall i, In (Some i) col -> i < f_nlevels (nth (nth j deps 0) factors dfactor0).

Lemma enc_row_ok : forall p bd forder factors (deps pdeps : list nat) (cols : entry) row,
  mapM (sem_factor p bd forder) forder = Ok factors -> mapM (pos_of forder) deps = Ok pdeps ->
  mapM (fun dc : nat * list (option name) =>
          dd <- fm p (fst dc) ;; ns <- level_names dd ;;
          mapM (fun o : option name => match o with
                                       | None => Ok None
                                       | Some n => i <- of_option "ValueError: table name" (index_of String.eqb n ns) ;; Ok (Some i)
                                       end) (snd dc)) (combine deps cols) = Ok row ->
  row_ok factors pdeps row.
Proof.
  intros p bd forder factors deps. induction deps as [|d deps IH]; intros pdeps cols row Hf Hp Hrow.
  - cbn in Hrow. apply Ok_inj in Hrow. subst row. split; [cbn; lia|]. intros j col Hj. destruct j; discriminate.
  - cbn [mapM] in Hp. inv_bind Hp as pd Hpd Hp. inv_bind Hp as pdeps' Hp' Hp. apply Ok_inj in Hp; subst pdeps.
    destruct cols as [|col cols]; [cbn in Hrow; apply Ok_inj in Hrow; subst row; split; [cbn; lia|intros j c Hj; destruct j; discriminate]|].
    cbn [combine mapM fst snd] in Hrow. inv_bind Hrow as ecol Hecol Hrow. inv_bind Hrow as row' Hrow' Hrow. apply Ok_inj in Hrow; subst row.
    destruct (IH pdeps' cols row' Hf Hp' Hrow') as [IH1 IH2]. split; [cbn; lia|].
    intros j c Hj i Hi. destruct j as [|j]; cbn in Hj |- *.
    + injection Hj as <-. inv_bind Hecol as dd Hdd Hecol. inv_bind Hecol as ns Hns Hecol.
      destruct (mapM_in _ _ _ _ Hecol Hi) as [o [_ Ho]]. destruct o as [n|]; [|discriminate].
      inv_bind Ho as i' Hi' Ho. apply Ok_inj in Ho. injection Ho as ->.
      eapply (level_lt_at p bd forder factors d n pd i Hf Hpd). unfold level_index. rewrite Hdd. cbn [bind]. rewrite Hns. cbn [bind].
      unfold of_option in Hi' |- *. destruct (index_of String.eqb n ns); [exact Hi'|discriminate].
    + eapply IH2; eauto.
Qed.

Theorem doc_sem_tables_shape : forall p ds, doc_sem p = Ok ds ->
  forall fd w, In fd (s_factors (ds_sem ds)) -> f_derived fd = Some w ->
  forall rows, In rows (w_table w) -> forall row, In row rows -> row_ok (s_factors (ds_sem ds)) (w_deps w) row.
Proof.
  intros p ds H fd w Hfd Hw rows Hrows row Hrow. unfold doc_sem, doc_sem_block in H. inv_bind H as bd Hbd H.
  destruct (sem_of_block_inv _ _ _ H) as (depths & forder & factors & crossings & kss & _ & _ & Hf & _ & _ & ->).
  cbv zeta in Hfd |- *. cbn [ds_sem s_factors] in Hfd |- *. destruct (mapM_in _ _ _ _ Hf Hfd) as [f [_ Hsf]].
  destruct (sem_factor_inv _ _ _ _ _ Hsf) as (pfd & _ & _ & _ & [E|(deps & wd & st & sa & tabs & enc & pdeps & _ & _ & He & Hp & E)]);
    rewrite E in Hw; [discriminate|]. injection Hw as <-. cbn [w_table w_deps] in *. unfold enc_table in He.
  destruct (mapM_in _ _ _ _ He Hrows) as [tab [_ Htab]]. destruct (mapM_in _ _ _ _ Htab Hrow) as [cols [_ Hcols]].
  eapply enc_row_ok; eauto.
Qed.
