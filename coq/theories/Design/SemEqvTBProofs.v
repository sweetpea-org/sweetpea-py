(** Soundness of the checker [sem_eqv_tb] (Design/SemEqvTB.v) for [sem_eqv_t] (Design/SemEqvT.v),
    hence: when the checker says yes, the two normal forms have the same valid sequences. *)
From Coq Require Import ZArith List Bool Arith Lia.
From SP Require Import Design.Sem Design.SemFacts Design.SemEqv Design.SemEqvT Design.SemEqvTB.
Import ListNotations.

Lemma nat_list_eqb_sound : forall a b, nat_list_eqb a b = true -> a = b.
Proof. unfold nat_list_eqb. apply list_eqb_sound. intros x y E. apply Nat.eqb_eq. exact E. Qed.

Lemma existsb_args_in : forall args t, existsb (args_eqb args) t = true <-> In args t.
Proof.
  intros args t. rewrite existsb_exists. split.
  - intros [e [He E]]. apply args_eqb_eq in E. subst. exact He.
  - intro H. exists args. split; [exact H|apply args_eqb_eq; reflexivity].
Qed.

Lemma entry_some_iff : forall args, entry_some args = true <-> all_some_args args.
Proof.
  intro args. unfold entry_some, all_some_args. rewrite forallb_forall, Forall_forall. split; intros H col Hc.
  - specialize (H col Hc). rewrite forallb_forall in H. apply Forall_forall. intros c Hin E. specialize (H c Hin). subst. discriminate.
  - specialize (H col Hc). rewrite Forall_forall in H. apply forallb_forall. intros c Hin. specialize (H c Hin). destruct c; [reflexivity|congruence].
Qed.

Lemma table_incl_sound : forall t1 t2 args, table_incl_b t1 t2 = true -> all_some_args args -> In args t1 -> In args t2.
Proof.
  intros t1 t2 args H Hs Hin. unfold table_incl_b in H. rewrite forallb_forall in H.
  apply existsb_args_in. apply H. apply filter_In. split; [exact Hin|apply entry_some_iff; exact Hs].
Qed.

Lemma table_eqb_sound : forall t1 t2 args, table_eqb t1 t2 = true -> all_some_args args ->
  existsb (args_eqb args) t1 = existsb (args_eqb args) t2.
Proof.
  intros t1 t2 args H Hs. unfold table_eqb in H. apply andb_true_iff in H. destruct H as [H1 H2].
  apply eq_true_iff_eq. rewrite !existsb_args_in.
  split; [exact (table_incl_sound _ _ _ H1 Hs)|exact (table_incl_sound _ _ _ H2 Hs)].
Qed.

Lemma window_eqb_sound : forall w1 w2, window_eqb w1 w2 = true -> window_eqv w1 w2.
Proof.
  intros w1 w2 H. unfold window_eqb in H. rewrite !andb_true_iff in H. destruct H as [[[[H1 H2] H3] H4] H5].
  apply nat_list_eqb_sound in H1. apply Nat.eqb_eq in H2, H3, H4.
  repeat split; try assumption. intros l args Hs. unfold accepts.
  rewrite forallb_forall in H5.
  destruct (Nat.lt_ge_cases l (Nat.max (length (w_table w1)) (length (w_table w2)))) as [Hl|Hl].
  - apply table_eqb_sound; [|exact Hs]. apply H5. apply in_seq. lia.
  - rewrite (nth_overflow (w_table w1)) by lia. rewrite (nth_overflow (w_table w2)) by lia. reflexivity.
Qed.

Lemma plain_dep_b_sound : forall fs d, plain_dep_b fs d = true -> plain_dep fs d.
Proof.
  intros fs d H. unfold plain_dep_b in H. destruct (nth_error fs d) as [fd|] eqn:E; [|discriminate].
  exists fd. split; [exact E|]. destruct (f_derived fd); [discriminate|reflexivity].
Qed.

Lemma factor_eqv_tb_sound : forall fs fd1 fd2, factor_eqv_tb fs fd1 fd2 = true -> factor_eqv_t fs fd1 fd2.
Proof.
  intros fs fd1 fd2 H. unfold factor_eqv_tb in H. rewrite !andb_true_iff in H. destruct H as [[H1 H2] H3].
  apply Nat.eqb_eq in H1, H2. unfold factor_eqv_t. repeat split; try assumption.
  destruct (f_derived fd1) as [w1|]; destruct (f_derived fd2) as [w2|]; try discriminate; [|exact I].
  rewrite !andb_true_iff in H3. destruct H3 as [[Hw Hwd] Hp]. right. split; [|split].
  - apply window_eqb_sound. exact Hw.
  - apply Nat.eqb_eq. exact Hwd.
  - apply Forall_forall. intros d Hd. rewrite forallb_forall in Hp. apply plain_dep_b_sound. apply Hp. exact Hd.
Qed.

Lemma forall2b_sound : forall {A B} (f : A -> B -> bool) (R : A -> B -> Prop),
  (forall x y, f x y = true -> R x y) -> forall l1 l2, forall2b f l1 l2 = true -> Forall2 R l1 l2.
Proof.
  intros A B f R H l1. induction l1 as [|x l1 IH]; intros [|y l2] E; cbn in E; try discriminate; [constructor|].
  apply andb_true_iff in E. destruct E as [E1 E2]. constructor; [apply H; exact E1|apply IH; exact E2].
Qed.

Lemma natpair_eqb_sound : forall a b, natpair_eqb a b = true -> a = b.
Proof.
  intros [a1 a2] [b1 b2] E. unfold natpair_eqb in E. cbn in E. apply andb_true_iff in E. destruct E as [E1 E2].
  apply Nat.eqb_eq in E1, E2. congruence.
Qed.

Lemma ckind_eqb_sound : forall a b, ckind_eqb a b = true -> a = b.
Proof.
  intros a b E. destruct a, b; cbn in E; try discriminate; try reflexivity;
    try (apply Nat.eqb_eq in E; congruence).
  - apply andb_true_iff in E. destruct E as [E1 E2]. apply Z.eqb_eq in E1. apply Nat.eqb_eq in E2. congruence.
  - apply andb_true_iff in E. destruct E as [E1 E2]. apply Nat.eqb_eq in E1, E2. congruence.
  - rewrite !andb_true_iff in E. destruct E as [[[E1 E2] E3] E4].
    apply (list_eqb_sound natpair_eqb natpair_eqb_sound) in E1. apply Nat.eqb_eq in E2, E3, E4. congruence.
Qed.

Lemma dconstraint_eqb_sound : forall a b, dconstraint_eqb a b = true -> a = b.
Proof.
  intros [k1 f1 l1 w1] [k2 f2 l2 w2] E. unfold dconstraint_eqb in E. cbn in E.
  rewrite !andb_true_iff in E. destruct E as [[[E1 E2] E3] E4].
  apply ckind_eqb_sound in E1. apply Nat.eqb_eq in E2, E3.
  apply (list_eqb_sound natpair_eqb natpair_eqb_sound) in E4. congruence.
Qed.

Lemma mult_eqb_sound : forall a b, mult_eqb a b = true -> a = b.
Proof.
  intros [a1 a2] [b1 b2] E. unfold mult_eqb in E. cbn in E. apply andb_true_iff in E. destruct E as [E1 E2].
  apply nat_list_eqb_sound in E1. apply Nat.eqb_eq in E2. congruence.
Qed.

Lemma mult_incl_sound : forall m1 m2 x, mult_incl_b m1 m2 = true -> In x m1 -> In x m2.
Proof.
  intros m1 m2 x H Hin. unfold mult_incl_b in H. rewrite forallb_forall in H. specialize (H x Hin).
  rewrite existsb_exists in H. destruct H as [y [Hy E]]. apply mult_eqb_sound in E. subst. exact Hy.
Qed.

Lemma crossing_eqvb_sound : forall c1 c2, crossing_eqvb c1 c2 = true -> crossing_eqv c1 c2.
Proof.
  intros c1 c2 H. unfold crossing_eqvb in H. rewrite !andb_true_iff in H. destruct H as [[[[H1 H2] H3] H4] H5].
  apply nat_list_eqb_sound in H1. apply Nat.eqb_eq in H2, H3. repeat split; try assumption.
  - apply mult_incl_sound. exact H4.
  - apply mult_incl_sound. exact H5.
Qed.

Theorem sem_eqv_tb_sound : forall S1 S2, sem_eqv_tb S1 S2 = true -> sem_eqv_t S1 S2.
Proof.
  intros S1 S2 H. unfold sem_eqv_tb in H. rewrite !andb_true_iff in H. destruct H as [[[H1 H2] H3] H4].
  repeat split.
  - apply Nat.eqb_eq. exact H1.
  - eapply forall2b_sound; [|exact H2]. apply factor_eqv_tb_sound.
  - eapply list_eqb_sound; [|exact H3]. exact dconstraint_eqb_sound.
  - eapply forall2b_sound; [|exact H4]. exact crossing_eqvb_sound.
Qed.

Corollary sem_eqv_tb_valid : forall S1 S2, sem_eqv_tb S1 S2 = true -> forall s, valid_b S1 s = valid_b S2 s.
Proof. intros S1 S2 H. apply sem_eqv_t_valid. apply sem_eqv_tb_sound. exact H. Qed.
