(** Proofs about Text/Dimacs.v: both parsers recover what the printers wrote,
    the header declares the highest variable, the update step adds exactly the
    blocking clause. *)
From Coq Require Import String Ascii ZArith List Bool Lia Permutation.
From SP Require Import Base.Sat Core.Card Text.Tok Text.TokProofs Text.Dimacs.
Import ListNotations.
Open Scope Z_scope.

(** * Items of the printed lines *)

Definition is_nil {A} (l : list A) : bool := match l with [] => true | _ => false end.

Definition clause_it (c : clause) : item := match c with [] => ISkip | _ => IClause c end.

Lemma drop_last_zero_snoc l : drop_last_zero (l ++ [0]) = l.
Proof. unfold drop_last_zero. rewrite rev_app_distr. cbn [rev app]. apply rev_involutive. Qed.

Lemma line_starts2_TI a b z r : line_starts2 a b (TI z :: r) = false.
Proof. destruct r; reflexivity. Qed.

Lemma cms_item_clause_line c : cms_item (clause_line c) = Some (clause_it c).
Proof.
  unfold cms_item.
  assert (E : is_empty_line (clause_line c) || line_starts "c" (clause_line c) = false
              /\ line_starts "p" (clause_line c) = false).
  { destruct c; split; reflexivity. }
  destruct E as [E1 E2]. rewrite E1, E2.
  unfold clause_line. rewrite ints_of_clause_toks, drop_last_zero_snoc.
  destruct c; reflexivity.
Qed.

Lemma nonzero_toks_TI l : nonzero l -> nonzero_toks (map TI l) = map TI l.
Proof.
  induction l as [|z l IH]; intros H; [reflexivity|].
  apply nonzero_cons in H. destruct H as [Hz Hl].
  cbn [map nonzero_toks filter]. fold (nonzero_toks (map TI l)). rewrite (IH Hl).
  destruct z; [contradiction|reflexivity|reflexivity].
Qed.

Lemma nonzero_toks_clause_line l : nonzero l -> nonzero_toks (map TI l ++ [TI 0]) = map TI l.
Proof.
  intros H. unfold nonzero_toks. rewrite filter_app. fold (nonzero_toks (map TI l)).
  rewrite (nonzero_toks_TI l H). cbn [filter is_zero_tok negb]. apply app_nil_r.
Qed.

Lemma unigen_item_clause_line c :
  nonzero c -> unigen_item (clause_line c) = Some (clause_it c).
Proof.
  intros H. unfold unigen_item.
  assert (E : is_empty_line (clause_line c) = false
              /\ line_starts2 "c" "ind" (clause_line c) = false
              /\ line_starts "c" (clause_line c) = false
              /\ line_starts2 "p" "cnf" (clause_line c) = false
              /\ line_starts "p" (clause_line c) = false).
  { destruct c as [|l c]; [repeat split; reflexivity|].
    unfold clause_line. cbn [map app]. rewrite !line_starts2_TI. repeat split; reflexivity. }
  destruct E as [E1 [E2 [E3 [E4 E5]]]]. rewrite E1, E2, E3, E4, E5.
  unfold clause_line. rewrite (nonzero_toks_clause_line c H), ints_of_TI.
  destruct c; reflexivity.
Qed.

Lemma cms_item_ind_line ch : cms_item (ind_line ch) = Some ISkip.
Proof. reflexivity. Qed.

Lemma unigen_item_ind_line ch : nonzero ch -> unigen_item (ind_line ch) = Some (IInd ch).
Proof.
  intros H. unfold unigen_item, ind_line.
  cbn [is_empty_line line_starts2 is_word word_prefix String.eqb String.prefix Ascii.eqb Bool.eqb andb skipn].
  now rewrite (nonzero_toks_clause_line ch H), ints_of_TI.
Qed.

Lemma chunks10_concat fuel l : (length l <= fuel)%nat -> concat (chunks10 fuel l) = l.
Proof.
  revert l. induction fuel as [|f IH]; intros l H.
  - destruct l; [reflexivity|cbn in H; lia].
  - destruct l as [|x l]; [reflexivity|].
    cbn [chunks10 concat]. rewrite IH.
    + apply firstn_skipn.
    + rewrite skipn_length. cbn [length] in *. lia.
Qed.

Lemma chunks10_nonzero ss ch :
  nonzero ss -> In ch (chunks10 (length ss) ss) -> nonzero ch.
Proof.
  intros H Hch x Hx. apply H.
  rewrite <- (chunks10_concat (length ss) ss) by lia.
  apply in_concat. exists ch. split; assumption.
Qed.

Lemma items_nv_app a b n : items_nv (a ++ b) n = items_nv b (items_nv a n).
Proof.
  revert n. induction a as [|i a IH]; intros n; [reflexivity|].
  destruct i; cbn [app items_nv]; apply IH.
Qed.

Definition no_hdr (its : list item) : Prop := forall n, ~ In (IHdr n) its.

Lemma items_nv_no_hdr its n : no_hdr its -> items_nv its n = n.
Proof.
  revert n. induction its as [|i its IH]; intros n H; [reflexivity|].
  assert (H' : no_hdr its) by (intros m Hm; apply (H m); now right).
  destruct i; cbn [items_nv]; try apply (IH _ H').
  exfalso. apply (H n0). now left.
Qed.

Lemma items_clauses_app a b : items_clauses (a ++ b) = items_clauses a ++ items_clauses b.
Proof. apply flat_map_app. Qed.
Lemma items_inds_app a b : items_inds (a ++ b) = items_inds a ++ items_inds b.
Proof. apply flat_map_app. Qed.

Definition nonempty_clauses (cls : cnf) : cnf := filter (fun c => negb (is_nil c)) cls.

Lemma items_clauses_cons i its : items_clauses (i :: its) = items_clauses [i] ++ items_clauses its.
Proof. unfold items_clauses. cbn [flat_map]. now rewrite app_nil_r. Qed.

Lemma items_inds_cons i its : items_inds (i :: its) = items_inds [i] ++ items_inds its.
Proof. unfold items_inds. cbn [flat_map]. now rewrite app_nil_r. Qed.

Lemma items_clauses_clause_it l : items_clauses (map clause_it l) = nonempty_clauses l.
Proof.
  induction l as [|c l IH]; [reflexivity|].
  cbn [map]. rewrite items_clauses_cons, IH. destruct c; reflexivity.
Qed.
Lemma items_inds_clause_it l : items_inds (map clause_it l) = [].
Proof. induction l as [|c l IH]; [reflexivity|]. cbn [map]. destruct c; exact IH. Qed.
Lemma no_hdr_clause_it l : no_hdr (map clause_it l).
Proof.
  intros n H. apply in_map_iff in H. destruct H as [c [E _]]. destruct c; discriminate.
Qed.

Lemma items_clauses_inds chs : items_clauses (map IInd chs) = [].
Proof. induction chs as [|c l IH]; [reflexivity|exact IH]. Qed.
Lemma items_inds_inds chs : items_inds (map IInd chs) = concat chs.
Proof. induction chs as [|c l IH]; [reflexivity|]. cbn [map concat]. now rewrite <- IH. Qed.
Lemma no_hdr_inds chs : no_hdr (map IInd chs).
Proof. intros n H. apply in_map_iff in H. destruct H as [c [E _]]. discriminate. Qed.

Lemma items_clauses_skips k : items_clauses (repeat ISkip k) = [].
Proof. induction k; [reflexivity|exact IHk]. Qed.
Lemma items_inds_skips k : items_inds (repeat ISkip k) = [].
Proof. induction k; [reflexivity|exact IHk]. Qed.
Lemma no_hdr_skips k : no_hdr (repeat ISkip k).
Proof. intros n H. apply repeat_spec in H. discriminate. Qed.

Lemma no_hdr_app a b : no_hdr a -> no_hdr b -> no_hdr (a ++ b).
Proof. intros Ha Hb n H. apply in_app_or in H. destruct H; [now apply (Ha n)|now apply (Hb n)]. Qed.

(** * print, then parse *)

(** The lines between the header and the clauses. *)
Definition ind_block (ss : list Z) : file :=
  match chunks10 (length ss) ss with [] => [[]] | ch => map ind_line ch end.

Lemma unigen_lines_eq nv ss cls :
  unigen_lines nv ss cls
  = header nv (Z.of_nat (length cls)) :: ind_block ss ++ map clause_line (rev cls) ++ [[]].
Proof. reflexivity. Qed.

Lemma map_opt_cms_ind ss :
  map_opt cms_item (ind_block ss)
  = Some (repeat ISkip (match chunks10 (length ss) ss with [] => 1%nat | ch => length ch end)).
Proof.
  unfold ind_block. destruct (chunks10 (length ss) ss) as [|c chs]; [reflexivity|].
  generalize (c :: chs). intros l. induction l as [|x l IH]; [reflexivity|].
  cbn [map map_opt length repeat]. rewrite cms_item_ind_line, IH. reflexivity.
Qed.

Lemma map_opt_unigen_ind ss :
  nonzero ss ->
  exists its,
    map_opt unigen_item (ind_block ss) = Some its /\ items_clauses its = [] /\ items_inds its = ss /\ no_hdr its.
Proof.
  intros H.
  pose proof (chunks10_concat (length ss) ss (le_n _)) as C.
  pose proof (fun ch => chunks10_nonzero ss ch H) as N.
  unfold ind_block. destruct (chunks10 (length ss) ss) as [|c chs] eqn:E.
  - exists [ISkip]. cbn in C. subst ss. repeat split. intros n [F|[]]. discriminate.
  - exists (map IInd (c :: chs)). split; [|split; [|split]].
    + apply map_opt_map. intros ch Hch. apply unigen_item_ind_line. now apply N.
    + apply items_clauses_inds.
    + rewrite items_inds_inds. exact C.
    + apply no_hdr_inds.
Qed.

(** The two parsers differ only in the item a line yields.  For any reader
    [it] that yields [IHdr nv] on a header line: *)
Section Reader.
  Variable it : line -> option item.
  Hypothesis it_header : forall nv m, it (header nv m) = Some (IHdr nv).

  Lemma map_opt_header nv m r :
    map_opt it (header nv m :: r) = option_map (cons (IHdr nv)) (map_opt it r).
  Proof. cbn [map_opt]. rewrite it_header. now destruct (map_opt it r). Qed.

  Lemma map_opt_unigen_lines nv ss cls X :
    it [] = Some ISkip -> map_opt it (ind_block ss) = Some X ->
    (forall c, In c cls -> it (clause_line c) = Some (clause_it c)) ->
    map_opt it (unigen_lines nv ss cls) = Some (IHdr nv :: X ++ map clause_it (rev cls) ++ [ISkip]).
  Proof.
    intros Hb HX Hc. rewrite unigen_lines_eq, map_opt_header, !map_opt_app, HX.
    rewrite (map_opt_map it clause_line clause_it) by (intros c H; apply Hc; now apply in_rev).
    cbn [map_opt]. now rewrite Hb.
  Qed.

  Lemma map_opt_update nv m rest b its :
    it (clause_line b) = Some (clause_it b) ->
    map_opt it (header nv m :: rest) = Some its ->
    map_opt it (header nv (m + 1) :: rest ++ [clause_line b]) = Some (its ++ [clause_it b]).
  Proof.
    intros Hb. rewrite !map_opt_header, map_opt_app. cbn [map_opt]. rewrite Hb.
    destruct (map_opt it rest) as [r|]; [|discriminate]. cbn [option_map]. now intros [= <-].
  Qed.
End Reader.

(** What the parsers keep of the items of a printed file, [X] being the items
    of the lines between the header and the clauses. *)
Lemma items_printed nv X l :
  no_hdr X ->
  items_nv (IHdr nv :: X ++ map clause_it l ++ [ISkip]) 0 = nv /\
  items_clauses (IHdr nv :: X ++ map clause_it l ++ [ISkip]) = items_clauses X ++ nonempty_clauses l /\
  items_inds (IHdr nv :: X ++ map clause_it l ++ [ISkip]) = items_inds X.
Proof.
  intros HX. split; [|split].
  - cbn [items_nv]. apply items_nv_no_hdr.
    repeat apply no_hdr_app; [exact HX|apply no_hdr_clause_it|apply (no_hdr_skips 1)].
  - rewrite (items_clauses_cons (IHdr nv)), !items_clauses_app, items_clauses_clause_it.
    cbn [items_clauses flat_map app]. now rewrite app_nil_r.
  - rewrite (items_inds_cons (IHdr nv)), !items_inds_app, items_inds_clause_it.
    cbn [items_inds flat_map app]. now rewrite app_nil_r.
Qed.

Theorem parse_cms_unigen_lines nv ss cls :
  parse_cms (unigen_lines nv ss cls) = Some (nv, nonempty_clauses (rev cls)).
Proof.
  unfold parse_cms.
  rewrite (map_opt_unigen_lines cms_item (fun _ _ => eq_refl) nv ss cls _ eq_refl (map_opt_cms_ind ss)
                                (fun c _ => cms_item_clause_line c)).
  pose proof (fun k => items_printed nv (repeat ISkip k) (rev cls) (no_hdr_skips k)) as P.
  now rewrite (proj1 (P _)), (proj1 (proj2 (P _))), items_clauses_skips.
Qed.

Theorem parse_unigen_unigen_lines nv ss (cls : cnf) :
  nonzero ss -> (forall c, In c cls -> nonzero c) ->
  parse_unigen (unigen_lines nv ss cls) = Some (nonempty_clauses (rev cls), sort_uniq ss, nv).
Proof.
  intros Hss Hcls. unfold parse_unigen.
  destruct (map_opt_unigen_ind ss Hss) as [X [E [I1 [I2 I3]]]].
  rewrite (map_opt_unigen_lines unigen_item (fun _ _ => eq_refl) nv ss cls X eq_refl E)
    by (intros c Hc; apply unigen_item_clause_line, Hcls, Hc).
  destruct (items_printed nv X (rev cls) I3) as (E1 & E2 & E3).
  cbv beta iota. now rewrite E1, E2, E3, I1, I2.
Qed.

Definition no_empty_clause (cls : cnf) : Prop := ~ In [] cls.

Lemma nonempty_clauses_id cls : no_empty_clause cls -> nonempty_clauses cls = cls.
Proof.
  induction cls as [|c cls IH]; intros H; [reflexivity|].
  cbn [nonempty_clauses filter]. fold (nonempty_clauses cls).
  rewrite IH by (intros F; apply H; now right).
  destruct c; [exfalso; apply H; now left|reflexivity].
Qed.

Lemma no_empty_clause_rev cls : no_empty_clause cls -> no_empty_clause (rev cls).
Proof. intros H F. apply H. now apply in_rev. Qed.

Fixpoint increasing (l : list Z) : Prop :=
  match l with
  | [] => True
  | x :: r => match r with [] => True | y :: _ => x < y end /\ increasing r
  end.

Lemma sort_uniq_increasing l : increasing l -> sort_uniq l = l.
Proof.
  induction l as [|x l IH]; intros H; [reflexivity|].
  destruct H as [H1 H2]. cbn [sort_uniq fold_right]. fold (sort_uniq l). rewrite (IH H2).
  destruct l as [|y l]; [reflexivity|].
  cbn [insert_uniq]. now replace (x <? y) with true by lia.
Qed.

Lemma increasing_seq start k : increasing (map Z.of_nat (seq start k)).
Proof.
  revert start. induction k as [|k IH]; intros start; [exact I|].
  cbn [seq map increasing]. split; [|apply IH].
  destruct k; [exact I|]. cbn [seq map]. lia.
Qed.

Lemma sort_uniq_support_set n : sort_uniq (support_set n) = support_set n.
Proof. apply sort_uniq_increasing, increasing_seq. Qed.

Lemma support_set_nonzero n : nonzero (support_set n).
Proof.
  intros x Hx. unfold support_set in Hx. apply in_map_iff in Hx.
  destruct Hx as [k [<- Hk]]. apply in_seq in Hk. lia.
Qed.

Lemma support_set_spec n v : In v (support_set n) <-> 1 <= v <= n.
Proof.
  unfold support_set. rewrite in_map_iff. split.
  - intros [k [<- Hk]]. apply in_seq in Hk. lia.
  - intros H. exists (Z.to_nat v). split; [lia|]. apply in_seq. lia.
Qed.

(** * What [save_cnf] writes and the parsers read back *)

Theorem save_cnf_parse_cms cls support :
  parse_cms (save_cnf_lines cls support) = Some (cnf_num_vars cls, nonempty_clauses (rev cls)).
Proof. apply parse_cms_unigen_lines. Qed.

Theorem save_cnf_parse_unigen cls n :
  (forall c, In c cls -> nonzero c) ->
  parse_unigen (save_cnf_lines cls (Some n))
  = Some (nonempty_clauses (rev cls), support_set n, cnf_num_vars cls).
Proof.
  intros H. unfold save_cnf_lines.
  rewrite parse_unigen_unigen_lines by (try apply support_set_nonzero; exact H).
  now rewrite sort_uniq_support_set.
Qed.

(** The sampling set handed to pyunigen is [1..support] (for [support >= 1];
    with no [c ind] line it is every declared variable). *)
Theorem save_cnf_sampler_input solve cls n :
  (forall c, In c cls -> nonzero c) -> 1 <= n -> nonempty_clauses (rev cls) <> [] ->
  solve (nonempty_clauses (rev cls)) = true ->
  sampler_input solve (save_cnf_lines cls (Some n))
  = Some (Some (nonempty_clauses (rev cls), support_set n)).
Proof.
  intros H Hn Hne Hsat. unfold sampler_input. rewrite (save_cnf_parse_unigen cls n H).
  destruct (nonempty_clauses (rev cls)) as [|c r] eqn:E; [contradiction|].
  rewrite Hsat.
  destruct (support_set n) as [|x xs] eqn:S; [|reflexivity].
  exfalso. assert (In 1 (support_set n)) by (apply support_set_spec; lia).
  rewrite S in H0. contradiction.
Qed.

(** If the pre-check says unsatisfiable, nothing is sampled. *)
Theorem save_cnf_sampler_input_unsat solve cls n :
  (forall c, In c cls -> nonzero c) ->
  solve (nonempty_clauses (rev cls)) = false ->
  sampler_input solve (save_cnf_lines cls (Some n)) = Some None.
Proof.
  intros H Hsat. unfold sampler_input. rewrite (save_cnf_parse_unigen cls n H).
  destruct (nonempty_clauses (rev cls)) as [|c r] eqn:E; [reflexivity|]. now rewrite Hsat.
Qed.

(** An empty clause is lost by both parsers: an unsatisfiable formula is read
    back as a satisfiable one. *)
Lemma parse_print_empty_clause_refuted :
  exists cls s cs,
    sat s cls = false /\
    parse_cms (save_cnf_lines cls (Some 1)) = Some (cnf_num_vars cls, cs) /\
    parse_unigen (save_cnf_lines cls (Some 1)) = Some (cs, [1], cnf_num_vars cls) /\
    sat s cs = true /\ ~ Permutation cs cls.
Proof.
  exists [[1]; []], (fun _ => true), [[1]].
  repeat split; try (vm_compute; reflexivity).
  intros P. apply Permutation_length in P. discriminate P.
Qed.

Definition max_var (cls : cnf) : Z := fold_right Z.max 0 (map Z.abs (concat cls)).

Lemma fold_max_ge l x : In x l -> x <= fold_right Z.max 0 l.
Proof.
  induction l as [|y l IH]; intros H; [contradiction|].
  cbn [fold_right]. destruct H as [<-|H]; [lia|]. specialize (IH H). lia.
Qed.

Lemma fold_max_le l n : 0 <= n -> (forall x, In x l -> x <= n) -> fold_right Z.max 0 l <= n.
Proof.
  intros Hn. induction l as [|y l IH]; intros H; [exact Hn|].
  cbn [fold_right]. assert (y <= n) by (apply H; now left).
  assert (fold_right Z.max 0 l <= n) by (apply IH; intros x Hx; apply H; now right). lia.
Qed.

(** The declared count is the highest variable index: it bounds every literal. *)
Theorem header_vars_bound cls c l : In c cls -> In l c -> Z.abs l <= cnf_num_vars cls.
Proof.
  intros Hc Hl. unfold cnf_num_vars. apply fold_max_ge.
  apply in_map. apply in_concat. exists c. split; assumption.
Qed.

Theorem header_vars_upto cls : (forall c, In c cls -> nonzero c) -> vars_upto (cnf_num_vars cls) cls.
Proof.
  intros H c l Hc Hl. split; [specialize (H c Hc l Hl); lia | now apply (header_vars_bound cls c l)].
Qed.

(** ... and it is tight: some literal has that index (unless there is none). *)
Theorem header_vars_tight cls :
  0 < cnf_num_vars cls -> exists c l, In c cls /\ In l c /\ Z.abs l = cnf_num_vars cls.
Proof.
  unfold cnf_num_vars. intros H.
  assert (G : forall L, 0 < fold_right Z.max 0 L -> In (fold_right Z.max 0 L) L).
  { induction L as [|y L IH]; cbn [fold_right]; intros HL; [lia|].
    destruct (Z.max_spec y (fold_right Z.max 0 L)) as [[A ->]|[A ->]]; [right; apply IH; lia|now left]. }
  specialize (G _ H). apply in_map_iff in G. destruct G as [l [E Hl]].
  apply in_concat in Hl. destruct Hl as [c [Hc Hlc]]. exists c, l. repeat split; assumption.
Qed.

(** When the variables used are exactly [1..n] the declared count is [n]. *)
Theorem header_vars_contiguous cls n :
  0 <= n -> (forall v, In v (map Z.abs (concat cls)) <-> 1 <= v <= n) -> cnf_num_vars cls = n.
Proof.
  intros Hn H. unfold cnf_num_vars. apply Z.le_antisymm.
  - apply fold_max_le; [exact Hn|]. intros x Hx. apply H in Hx. lia.
  - destruct (Z.eq_dec n 0) as [->|Hz].
    + clear. induction (map Z.abs (concat cls)); cbn [fold_right]; lia.
    + apply fold_max_ge. apply H. lia.
Qed.

Lemma save_cnf_header cls support :
  hd [] (save_cnf_lines cls support) = header (cnf_num_vars cls) (Z.of_nat (length cls)).
Proof. reflexivity. Qed.

(** A reader that skips blank lines sees a file as its stripped part between
    skipped items, and those change none of the aggregates. *)
Lemma map_opt_blanks (it : line -> option item) k :
  it [] = Some ISkip -> map_opt it (repeat [] k) = Some (repeat ISkip k).
Proof. intros H. induction k as [|k IH]; [reflexivity|]. cbn [repeat map_opt]. now rewrite H, IH. Qed.

Lemma map_opt_strip (it : line -> option item) f :
  it [] = Some ISkip ->
  exists a b, map_opt it f
              = option_map (fun X => repeat ISkip a ++ X ++ repeat ISkip b) (map_opt it (strip_file f)).
Proof.
  intros H. destruct (strip_file_pad f) as (a & b & E). exists a, b. rewrite E at 1.
  rewrite !map_opt_app, !map_opt_blanks by exact H. now destruct (map_opt it (strip_file f)).
Qed.

Lemma items_padded a b X :
  (forall n, items_nv (repeat ISkip a ++ X ++ repeat ISkip b) n = items_nv X n) /\
  items_clauses (repeat ISkip a ++ X ++ repeat ISkip b) = items_clauses X /\
  items_inds (repeat ISkip a ++ X ++ repeat ISkip b) = items_inds X.
Proof.
  rewrite !items_clauses_app, !items_inds_app, !items_clauses_skips, !items_inds_skips, !app_nil_r.
  repeat split. intros n. rewrite !items_nv_app.
  now rewrite (items_nv_no_hdr (repeat ISkip b)), (items_nv_no_hdr (repeat ISkip a)) by apply no_hdr_skips.
Qed.

Lemma parse_cms_strip f : parse_cms (strip_file f) = parse_cms f.
Proof.
  destruct (map_opt_strip cms_item f eq_refl) as (a & b & E). unfold parse_cms. rewrite E.
  destruct (map_opt cms_item (strip_file f)) as [X|]; [|reflexivity]. cbn [option_map].
  destruct (items_padded a b X) as (E1 & E2 & _). now rewrite E1, E2.
Qed.

Lemma parse_unigen_strip f : parse_unigen (strip_file f) = parse_unigen f.
Proof.
  destruct (map_opt_strip unigen_item f eq_refl) as (a & b & E). unfold parse_unigen. rewrite E.
  destruct (map_opt unigen_item (strip_file f)) as [X|]; [|reflexivity]. cbn [option_map].
  destruct (items_padded a b X) as (E1 & E2 & E3). now rewrite E1, E2, E3.
Qed.

(** A file whose first non-blank line is a [p cnf nv m] header. *)
Definition has_header (f : file) (nv m : Z) (rest : file) : Prop :=
  strip_file f = header nv m :: rest.

Lemma update_file_shape f nv m rest sol :
  has_header f nv m rest ->
  update_file f sol = Some (header nv (m + 1) :: rest ++ [clause_line (blocking_clause sol)]).
Proof. intros H. unfold update_file. rewrite H. reflexivity. Qed.

Lemma clause_line_not_empty c : is_empty_line (clause_line c) = false.
Proof. destruct c; reflexivity. Qed.

(** The updated file has a header again, with the clause count one higher, so
    the step can be iterated. *)
Lemma update_file_has_header f nv m rest sol :
  has_header f nv m rest ->
  has_header (header nv (m + 1) :: rest ++ [clause_line (blocking_clause sol)])
             nv (m + 1) (rest ++ [clause_line (blocking_clause sol)]).
Proof.
  intros _. unfold has_header. apply strip_file_fixed; [reflexivity|apply clause_line_not_empty].
Qed.

Lemma parse_cms_update f nv m rest sol n cs :
  has_header f nv m rest -> parse_cms f = Some (n, cs) ->
  parse_cms (header nv (m + 1) :: rest ++ [clause_line (blocking_clause sol)])
  = Some (n, cs ++ items_clauses [clause_it (blocking_clause sol)]).
Proof.
  intros H P. rewrite <- parse_cms_strip, H in P. unfold parse_cms in *.
  destruct (map_opt cms_item (header nv m :: rest)) as [its|] eqn:E; [|discriminate].
  rewrite (map_opt_update cms_item (fun _ _ => eq_refl) nv m rest _ its (cms_item_clause_line _) E).
  injection P as <- <-. rewrite items_nv_app, items_clauses_app. do 2 f_equal.
  exact (items_nv_no_hdr _ _ (no_hdr_clause_it [_])).
Qed.

Lemma parse_unigen_update f nv m rest sol n cs ss :
  nonzero sol ->
  has_header f nv m rest -> parse_unigen f = Some (cs, ss, n) ->
  parse_unigen (header nv (m + 1) :: rest ++ [clause_line (blocking_clause sol)])
  = Some (cs ++ items_clauses [clause_it (blocking_clause sol)], ss, n).
Proof.
  intros Hs H P. rewrite <- parse_unigen_strip, H in P. unfold parse_unigen in *.
  destruct (map_opt unigen_item (header nv m :: rest)) as [its|] eqn:E; [|discriminate].
  rewrite (map_opt_update unigen_item (fun _ _ => eq_refl) nv m rest (blocking_clause sol) its
                          (unigen_item_clause_line _ (nonzero_opp _ Hs)) E).
  injection P as <- <- <-. rewrite items_nv_app, items_clauses_app, items_inds_app.
  pose proof (items_inds_clause_it [blocking_clause sol]) as E1. cbn [map] in E1.
  rewrite E1, app_nil_r. do 2 f_equal.
  exact (items_nv_no_hdr _ _ (no_hdr_clause_it [_])).
Qed.

Lemma clause_it_blocking sol : sol <> [] -> items_clauses [clause_it (blocking_clause sol)] = [blocking_clause sol].
Proof. intros H. destruct sol; [contradiction|reflexivity]. Qed.

(** The empty solution ([support = 0]) is NOT blocked: its blocking clause is
    the empty clause, which the parsers drop. *)
Lemma clause_it_blocking_nil : items_clauses [clause_it (blocking_clause [])] = [].
Proof. reflexivity. Qed.

Lemma csat_blocking s sol :
  nonzero sol -> csat s (blocking_clause sol) = negb (forallb (lit_true s) sol).
Proof. apply csat_opp. Qed.
