(** [sample_non_uniform.update_file] at character level: whenever the
    token-level step [Dimacs.update_file] succeeds on the tokens of a text [s]
    (ANY text), the character-level step [update_file_text] succeeds on [s] and
    the text it writes lexes to the token-level result.  The work is the
    relation between [str.strip()] on the text and the removal of blank lines at
    both ends of the token file. *)
From Coq Require Import String Ascii ZArith List Bool Lia.
From SP Require Import Base.Sat Core.Card Text.Tok Text.TokProofs Text.Chars Text.CharsProofs.
From SP Require Import Text.Dimacs Text.SolverIO Text.Opb Text.DimacsProofs Text.TextChars Text.TextCharsProofs.
Import ListNotations.
Open Scope Z_scope.

Definition blank (s : string) : bool := str_forall is_ws s.
Definition rstrip := rstrip_p is_ws.
Definition lstrip := lstrip_p is_ws.

(** * split() ignores blanks at both ends *)

Lemma split_go_rstrip l : split_go (rstrip l) = split_go l.
Proof.
  induction l as [|c r IH]; [reflexivity|].
  unfold rstrip in *. cbn [rstrip_p]. destruct (rstrip_p is_ws r) as [|c2 r2] eqn:E.
  - cbn [split_go]. rewrite <- IH. cbn [split_go]. destruct (is_ws c) eqn:Hc; cbn [split_go]; rewrite ?Hc; reflexivity.
  - cbn [split_go]. rewrite <- IH. reflexivity.
Qed.

Lemma split_ws_rstrip l : split_ws (rstrip l) = split_ws l.
Proof. unfold split_ws. now rewrite split_go_rstrip. Qed.

Lemma split_ws_nil l : split_ws l = [] <-> blank l = true.
Proof.
  induction l as [|c r IH]; [split; reflexivity|]. unfold blank, split_ws in *. cbn [str_forall split_go].
  destruct (split_go r) as [w ws]. destruct (is_ws c); [exact IH|split; discriminate].
Qed.

Lemma blank_lex l : is_empty_line (lex_line l) = blank l.
Proof.
  unfold lex_line. destruct (split_ws l) eqn:S.
  - symmetry. now apply split_ws_nil.
  - destruct (blank l) eqn:B; [|reflexivity]. apply split_ws_nil in B. congruence.
Qed.

Lemma rstrip_empty l : rstrip l = EmptyString <-> blank l = true.
Proof.
  induction l as [|c r IH]; [split; reflexivity|]. unfold blank, rstrip in *. cbn [str_forall rstrip_p].
  destruct (rstrip_p is_ws r).
  - rewrite (proj1 IH eq_refl), andb_true_r. destruct (is_ws c); split; (reflexivity || discriminate).
  - destruct (str_forall is_ws r); [discriminate (proj2 IH eq_refl)|]. rewrite andb_false_r. split; discriminate.
Qed.

Lemma rstrip_cons c r :
  rstrip (String c r) = if blank (String c r) then EmptyString else String c (rstrip r).
Proof.
  pose proof (rstrip_empty r) as E. unfold blank, rstrip in *. cbn [str_forall rstrip_p].
  destruct (rstrip_p is_ws r).
  - rewrite (proj1 E eq_refl), andb_true_r. reflexivity.
  - destruct (str_forall is_ws r); [discriminate (proj2 E eq_refl)|]. now rewrite andb_false_r.
Qed.

(** * Lines of a right-stripped text *)

(** blank lines at the end go, the last remaining line is right-stripped *)
Fixpoint rstrip_lines (ls : list string) : list string :=
  match ls with
  | [] => []
  | l :: r =>
    match rstrip_lines r with
    | [] => if blank l then [] else [rstrip l]
    | r' => l :: r'
    end
  end.

Lemma lines_cons c r :
  lines (String c r)
  = if Ascii.eqb c nl then EmptyString :: lines r
    else String c (hd EmptyString (lines r)) :: tl (lines r).
Proof.
  unfold lines. cbn [lines_go]. destruct (lines_go r) as [l ls]. destruct (Ascii.eqb c nl); reflexivity.
Qed.

Lemma lines_nonempty s : lines s <> [].
Proof. unfold lines. destruct (lines_go s). discriminate. Qed.

Lemma blank_lines t : blank t = forallb blank (lines t).
Proof.
  induction t as [|c r IH]; [reflexivity|]. rewrite lines_cons.
  change (blank (String c r)) with (is_ws c && blank r). rewrite IH. destruct (Ascii.eqb c nl) eqn:Hn; [now rewrite (nl_is_ws _ Hn)|].
  destruct (lines r) as [|l ls] eqn:L; [now apply lines_nonempty in L|]. apply andb_assoc.
Qed.

Lemma rstrip_lines_nil ls : rstrip_lines ls = [] <-> forallb blank ls = true.
Proof.
  induction ls as [|l r IH]; [split; reflexivity|]. cbn [rstrip_lines forallb]. destruct (rstrip_lines r).
  - rewrite (proj1 IH eq_refl), andb_true_r. destruct (blank l); split; (reflexivity || discriminate).
  - destruct (forallb blank r); [discriminate (proj2 IH eq_refl)|]. rewrite andb_false_r. split; discriminate.
Qed.

Lemma lines_rstrip t :
  lines (rstrip t) = match rstrip_lines (lines t) with [] => [EmptyString] | ls => ls end.
Proof.
  induction t as [|c r IH]; [reflexivity|]. rewrite rstrip_cons. destruct (blank (String c r)) eqn:B.
  - rewrite blank_lines in B. now rewrite (proj2 (rstrip_lines_nil _) B).
  - rewrite !lines_cons, IH. change (blank (String c r)) with (is_ws c && blank r) in B.
    rewrite blank_lines in B. destruct (Ascii.eqb c nl) eqn:Hn.
    + (* newline: the rest is not blank *)
      rewrite (nl_is_ws _ Hn) in B. cbn [rstrip_lines andb] in *.
      destruct (rstrip_lines (lines r)) eqn:R; [|reflexivity]. apply rstrip_lines_nil in R. congruence.
    + (* another character: it joins the first line of [r] *)
      destruct (lines r) as [|l ls] eqn:L; [now apply lines_nonempty in L|]. cbn [hd tl rstrip_lines forallb] in *.
      destruct (rstrip_lines ls) eqn:R; [|reflexivity]. rewrite (proj1 (rstrip_lines_nil _) R), andb_true_r in B.
      change (is_ws c && blank l) with (blank (String c l)) in B. rewrite rstrip_cons, B.
      destruct (blank l) eqn:BL; [|reflexivity]. now rewrite (proj2 (rstrip_empty l) BL).
Qed.

Lemma lex_rstrip_lines ls : map lex_line (rstrip_lines ls) = drop_trailing (map lex_line ls).
Proof.
  induction ls as [|l r IH]; [reflexivity|]. cbn [rstrip_lines map drop_trailing].
  rewrite <- IH. destruct (rstrip_lines r) as [|x xs]; cbn [map].
  - rewrite blank_lex. destruct (blank l); [reflexivity|].
    cbn [map]. unfold lex_line. now rewrite split_ws_rstrip.
  - reflexivity.
Qed.

(** * Lines of a left-stripped text *)

Lemma lex_file_ws c r :
  is_ws c = true -> Ascii.eqb c nl = false -> lex_file (String c r) = lex_file r.
Proof.
  intros Hw Hn. unfold lex_file. rewrite lines_cons, Hn.
  destruct (lines r) as [|l ls] eqn:E; [now apply lines_nonempty in E|].
  cbn [hd tl map]. f_equal. unfold lex_line. now rewrite split_ws_lead.
Qed.

Lemma lex_lstrip s : drop_leading (lex_file (lstrip s)) = drop_leading (lex_file s).
Proof.
  induction s as [|c r IH]; [reflexivity|]. unfold lstrip in *. cbn [lstrip_p].
  destruct (is_ws c) eqn:Hw; [|reflexivity]. rewrite IH.
  destruct (Ascii.eqb c nl) eqn:Hn.
  - apply Ascii.eqb_eq in Hn. subst c. now rewrite lex_file_nl.
  - now rewrite lex_file_ws.
Qed.

Lemma lstrip_head s c r : lstrip s = String c r -> is_ws c = false.
Proof.
  induction s as [|x t IH]; [discriminate|]. unfold lstrip in *. cbn [lstrip_p].
  destruct (is_ws x) eqn:Hx; [exact IH|]. intros E. injection E as -> _. exact Hx.
Qed.

Lemma lex_file_head_nonblank c r :
  is_ws c = false -> drop_leading (lex_file (String c r)) = lex_file (String c r).
Proof.
  intros Hw. unfold lex_file. rewrite lines_cons, (not_ws_not_nl _ Hw). cbn [map drop_leading].
  rewrite blank_lex. unfold blank. cbn [str_forall]. now rewrite Hw.
Qed.

(** * strip() on the text = removal of blank lines at both ends of the token file *)

Theorem lex_strip s :
  (strip s = EmptyString -> strip_file (lex_file s) = []) /\
  (strip s <> EmptyString -> lex_file (strip s) = strip_file (lex_file s)).
Proof.
  change (strip s) with (rstrip (lstrip s)). unfold strip_file. rewrite <- lex_lstrip.
  destruct (lstrip s) as [|c r] eqn:E; [split; [reflexivity|intros H; now contradiction H]|].
  rewrite (lex_file_head_nonblank _ _ (lstrip_head _ _ _ E)). unfold lex_file.
  rewrite <- lex_rstrip_lines, lines_rstrip, rstrip_empty, blank_lines, <- rstrip_lines_nil.
  destruct (rstrip_lines (lines (String c r))); split; (reflexivity || discriminate || congruence).
Qed.

Lemma flush_words w ws : no_ws w = true -> words ws -> words (flush w ws).
Proof.
  intros Hw Hs. destruct w as [|c r]; [exact Hs|]. constructor; [exact Hw|exact Hs].
Qed.

Lemma split_go_words s : no_ws (fst (split_go s)) = true /\ words (snd (split_go s)).
Proof.
  induction s as [|c r [IH1 IH2]]; [split; [reflexivity|constructor]|].
  cbn [split_go]. destruct (split_go r) as [w ws]. cbn [fst snd] in *.
  destruct (is_ws c) eqn:Hc; cbn [fst snd].
  - split; [reflexivity|now apply flush_words].
  - split; [now apply no_ws_String|exact IH2].
Qed.

Theorem split_ws_words s : words (split_ws s).
Proof.
  unfold split_ws. destruct (split_go_words s) as [A B]. destruct (split_go s) as [w ws].
  now apply flush_words.
Qed.

Theorem lines_all_no_nl s : all_no_nl (lines s).
Proof.
  induction s as [|c r IH]; [repeat constructor|]. rewrite lines_cons.
  destruct (Ascii.eqb c nl) eqn:Hc; [now constructor|].
  destruct (lines r) as [|l ls] eqn:L; [now apply lines_nonempty in L|].
  inversion IH; subst. constructor; [now apply no_nl_String|assumption].
Qed.

(** * [int] of a word the token level reads as an integer *)

Lemma canon_Z_sound w z : canon_Z w = Some z -> Z_of_string w = Some z /\ w = string_of_Z z.
Proof.
  unfold canon_Z. destruct (Z_of_string w) as [x|]; [|discriminate].
  destruct (String.eqb (string_of_Z x) w) eqn:E; [|discriminate].
  intros H. injection H as <-. apply String.eqb_eq in E. now split.
Qed.

Lemma Z_of_string_plus z : 0 <= z -> Z_of_string (String "+" (string_of_Z z)) = Some z.
Proof.
  intros H. unfold Z_of_string. rewrite strip_c_no_ws.
  - cbn. unfold string_of_Z. replace (z <? 0) with false by lia.
    now apply digits_val_string_of_nonneg.
  - apply no_ws_String. split; [reflexivity|apply string_of_Z_no_ws].
Qed.

Theorem tok_int_sound w m : tok_int (tok_of_string w) = Some m -> Z_of_string w = Some m.
Proof.
  unfold tok_of_string. destruct (canon_Z w) as [z|] eqn:C.
  - cbn [tok_int]. intros H. injection H as <-. now apply canon_Z_sound in C.
  - destruct (plus_tok w) as [t|] eqn:P.
    + unfold plus_tok in P. destruct w as [|c r]; [discriminate|].
      destruct (Ascii.eqb c "+") eqn:Ec; [|discriminate]. apply Ascii.eqb_eq in Ec. subst c.
      destruct (canon_Z r) as [z|] eqn:Cr; [|discriminate].
      destruct (0 <=? z) eqn:Hz; [|discriminate]. injection P as <-.
      cbn [tok_int]. rewrite Hz. intros H. injection H as <-.
      apply canon_Z_sound in Cr. destruct Cr as [_ ->]. apply Z_of_string_plus. lia.
    + destruct (v_tok w) as [t|] eqn:V.
      * unfold v_tok in V. destruct w as [|c r]; [discriminate|].
        destruct (Ascii.eqb c "v"); [|discriminate]. destruct (canon_Z r); [|discriminate].
        injection V as <-. discriminate.
      * destruct (freq_tok w) as [t|] eqn:F; [|discriminate].
        unfold freq_tok in F. destruct (cut_colon w) as [[a b]|]; [|discriminate].
        destruct (canon_Z a); [|discriminate]. destruct (canon_Z b); [|discriminate].
        injection F as <-. discriminate.
Qed.

Definition block_text (sol : list Z) : string := join sp (map string_of_Z (blocking_clause sol ++ [0])).

Lemma lex_block_text sol : lex_line (block_text sol) = clause_line (blocking_clause sol).
Proof.
  unfold block_text, clause_line. rewrite lex_line_join by apply words_map_Z.
  now rewrite map_tok_Z, map_app.
Qed.

Lemma no_nl_block_text sol : no_nl (block_text sol) = true.
Proof. apply no_nl_join, words_map_Z. Qed.

Theorem update_file_text_correct s sol f' :
  update_file (lex_file s) sol = Some f' ->
  exists t, update_file_text s sol = Some t /\ lex_file t = f'.
Proof.
  unfold update_file, update_file_text. destruct (lex_strip s) as [SE SN].
  destruct (string_dec (strip s) EmptyString) as [Z|N]; [now rewrite (SE Z)|].
  rewrite <- (SN N). unfold lex_file at 1.
  pose proof (lines_all_no_nl (strip s)) as NL.
  destruct (lines (strip s)) as [|h rest]; [discriminate|]. cbn [map].
  inversion NL as [|? ? Hh Hrest]; subst.
  unfold lex_line at 1, update_header_text. pose proof (split_ws_words h) as W.
  destruct (split_ws h) as [|wa [|wb [|wc [|wd more]]]]; try discriminate. cbn [map].
  destruct (tok_int (tok_of_string wd)) as [m|] eqn:Ti; [|discriminate].
  rewrite (tok_int_sound _ _ Ti). intros H. injection H as <-.
  eexists. split; [reflexivity|].
  inversion W as [|? ? Wa W1]; subst. inversion W1 as [|? ? Wb W2]; subst.
  inversion W2 as [|? ? Wc W3]; subst.
  assert (WH : words [wa; wb; wc; string_of_Z (m + 1)]).
  { repeat constructor; try assumption. apply string_of_Z_word. }
  fold (block_text sol). rewrite lex_file_join; [|constructor|discriminate].
  - cbn [map]. rewrite map_app. cbn [map]. rewrite lex_block_text. f_equal.
    rewrite lex_line_join by exact WH. cbn [map]. now rewrite tok_of_string_Z.
  - now apply no_nl_join.
  - apply Forall_app. split; [exact Hrest|]. constructor; [apply no_nl_block_text|constructor].
Qed.
