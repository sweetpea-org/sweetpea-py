(** Proofs about Text/SolverIO.v: what is parsed from the solver's output is
    the solver's assignment. *)
From Coq Require Import String Ascii ZArith List Bool Lia.
From SP Require Import Base.Lists Base.Sat Text.Tok Text.TokProofs Text.Dimacs Text.SolverIO.
Import ListNotations.
Open Scope Z_scope.

Lemma lits_from_length i bs : length (lits_from i bs) = length bs.
Proof. revert i. induction bs as [|b r IH]; intros i; cbn [lits_from length]; [reflexivity|now rewrite IH]. Qed.

Lemma lits_from_nonzero i bs : 0 < i -> nonzero (lits_from i bs).
Proof.
  revert i. induction bs as [|b r IH]; intros i Hi; [intros x []|].
  cbn [lits_from]. apply nonzero_cons. split; [destruct b; lia | apply IH; lia].
Qed.

Lemma firstn_lits_from k i bs : firstn k (lits_from i bs) = lits_from i (firstn k bs).
Proof.
  revert i bs. induction k as [|k IH]; intros i bs; [reflexivity|].
  destruct bs as [|b r]; [reflexivity|]. cbn [lits_from firstn]. now rewrite IH.
Qed.

(** [s] carries the values [bs] on the variables [i, i+1, ...]. *)
Definition asg_matches (s : asg) (i : Z) (bs : list bool) : Prop :=
  forall j, (j < length bs)%nat -> s (i + Z.of_nat j) = nth j bs false.

Lemma lits_from_sat s i bs :
  0 < i -> forallb (lit_true s) (lits_from i bs) = true <-> asg_matches s i bs.
Proof.
  revert i. induction bs as [|b r IH]; intros i Hi.
  - split; [intros _ j Hj; cbn in Hj; lia | reflexivity].
  - cbn [lits_from forallb]. rewrite andb_true_iff, (IH (i + 1)) by lia.
    assert (E : lit_true s (if b then i else - i) = true <-> s i = b).
    { destruct b; [rewrite lit_true_pos by lia | rewrite lit_true_neg by lia];
        destruct (s i); cbn [negb]; intuition congruence. }
    rewrite E. split.
    + intros [H0 H1] j Hj. destruct j as [|j].
      * cbn [nth]. now rewrite Z.add_0_r.
      * cbn [nth]. cbn [length] in Hj. rewrite <- (H1 j) by lia. f_equal. lia.
    + intros H. split.
      * specialize (H 0%nat). cbn [nth length] in H. rewrite Z.add_0_r in H. apply H. lia.
      * intros j Hj. specialize (H (S j)). cbn [nth length] in H. rewrite <- H by lia. f_equal. lia.
Qed.

(** The previous solution as the solver reports it: the assignment [p]
    restricted to the support variables [1..n]. *)
Definition sol_of (p : asg) (n : Z) : list Z := lits_of (map p (support_set n)).

Lemma sol_of_nonzero p n : nonzero (sol_of p n).
Proof. apply lits_from_nonzero. lia. Qed.

Lemma sol_of_sat s p n :
  forallb (lit_true s) (sol_of p n) = true <-> agree_upto n s p.
Proof.
  unfold sol_of, lits_of. rewrite lits_from_sat by lia. unfold asg_matches, support_set.
  (* the support variables as [fun j => 1 + j] over [0 .. n-1] *)
  rewrite <- seq_shift, !map_map, map_length, seq_length. split.
  - intros H v Hv. specialize (H (Z.to_nat (v - 1)) ltac:(lia)). rewrite nth_map_seq in H by lia.
    replace (1 + Z.of_nat (Z.to_nat (v - 1))) with v in H by lia.
    now replace (Z.of_nat (S (Z.to_nat (v - 1)))) with v in H by lia.
  - intros H j Hj. rewrite nth_map_seq by lia.
    replace (Z.of_nat (S j)) with (1 + Z.of_nat j) by lia. apply H. lia.
Qed.

(** * pycryptosat path: print, then parse *)

Lemma parse_v_cms_output bs : parse_v_lines (cms_output bs) = Some (lits_of bs ++ [0]).
Proof.
  unfold parse_v_lines, cms_output.
  cbn [map_opt v_line_toks line_starts starts_with Ascii.eqb Bool.eqb is_word String.eqb concat app].
  rewrite app_nil_r. apply ints_of_clause_toks.
Qed.

(** [compute_solutions] keeps [solution[:support]]: the assignment of the
    support variables, provided the solver knows at least [support] variables. *)
Lemma solve_result_cms_output bs support :
  0 <= support <= Z.of_nat (length bs) ->
  solve_result (cms_output bs) support = Some (lits_of (firstn (Z.to_nat support) bs)).
Proof.
  intros H. unfold solve_result. rewrite parse_v_cms_output. f_equal.
  unfold lits_of. rewrite firstn_app, lits_from_length.
  replace (Z.to_nat support - length bs)%nat with 0%nat by lia.
  cbn [firstn]. rewrite app_nil_r. apply firstn_lits_from.
Qed.

(** Otherwise the terminating 0 of the [v] line leaks into the "solution". *)
Lemma solve_result_terminator_leaks :
  exists bs support l, solve_result (cms_output bs) support = Some l /\ In 0 l.
Proof. exists [true], 2, [1; 0]. split; [vm_compute; reflexivity | right; now left]. Qed.

(** * CLI-shaped output: the literals spread over any number of [v] lines *)

Lemma ints_of_concat_TI chunks :
  ints_of (concat (map (fun ch => map TI ch) chunks)) = Some (concat chunks).
Proof.
  induction chunks as [|ch chunks IH]; [reflexivity|].
  cbn [map concat]. now rewrite ints_of_app, ints_of_TI, IH.
Qed.

Lemma parse_v_cli_output chunks : parse_v_lines (cli_output chunks) = Some (concat chunks).
Proof.
  unfold parse_v_lines, cli_output.
  cbn [map_opt v_line_toks line_starts starts_with Ascii.eqb Bool.eqb].
  rewrite (map_opt_map v_line_toks (fun ch => TW "v" :: map TI ch) (fun ch => map TI ch))
    by reflexivity.
  cbn [concat app]. apply ints_of_concat_TI.
Qed.

(** * Sampler output: pyunigen / pycmsgen samples, then [build_solution] *)

Lemma filter_not_v_TI l t :
  is_word "v" t = false ->
  filter (fun t => negb (is_word "v" t)) (map TI l ++ [t]) = map TI l ++ [t].
Proof.
  intros Ht. induction l as [|z l IH]; cbn [map app filter is_word negb].
  - now rewrite Ht.
  - now rewrite IH.
Qed.

Lemma build_solution_unigen smp :
  build_solution (TW "v" :: map TI smp ++ [TFreq 0 1]) = Some (smp, 1).
Proof.
  unfold build_solution. cbn [filter is_word String.eqb Ascii.eqb Bool.eqb negb].
  rewrite filter_not_v_TI by reflexivity.
  rewrite rev_app_distr. cbn [rev app]. rewrite rev_involutive, ints_of_TI. reflexivity.
Qed.

Lemma build_solution_cmsgen smp :
  build_solution (TW "v" :: map TI smp ++ [TI 0]) = Some (smp, 0).
Proof.
  unfold build_solution. cbn [filter is_word String.eqb Ascii.eqb Bool.eqb negb].
  rewrite filter_not_v_TI by reflexivity.
  rewrite rev_app_distr. cbn [rev app]. rewrite rev_involutive, ints_of_TI. reflexivity.
Qed.

Lemma parse_sampler_lines (mk : list Z -> line) (fq : Z) (samples : list (list Z)) :
  (forall smp, exists r, mk smp = TW "v" :: r) ->
  (forall smp, build_solution (mk smp) = Some (smp, fq)) ->
  parse_sampler_output (map mk samples ++ [[]]) = Some (map (fun smp => (smp, fq)) samples).
Proof.
  intros Hv Hb. unfold parse_sampler_output.
  assert (NE : all_nonempty (map mk samples)).
  { intros l Hl. apply in_map_iff in Hl. destruct Hl as [smp [<- _]].
    destruct (Hv smp) as [r ->]. reflexivity. }
  rewrite (strip_file_lines_blank _ NE).
  assert (F : filter (fun l => negb (is_empty_line l) && negb (line_starts "c" l)) (map mk samples)
              = map mk samples).
  { induction samples as [|smp samples IH]; [reflexivity|].
    cbn [map filter]. destruct (Hv smp) as [r Hr]. rewrite Hr.
    cbn [is_empty_line line_starts starts_with Ascii.eqb Bool.eqb negb andb].
    f_equal. apply IH.
    intros l Hl. apply NE. now right. }
  rewrite F. apply map_opt_map. intros smp _. apply Hb.
Qed.

Lemma parse_sampler_unigen samples :
  parse_sampler_output (unigen_format samples) = Some (map (fun smp => (smp, 1)) samples).
Proof.
  unfold unigen_format.
  apply (parse_sampler_lines (fun smp => TW "v" :: map TI smp ++ [TFreq 0 1]) 1).
  - intros smp. eexists. reflexivity.
  - apply build_solution_unigen.
Qed.

Lemma parse_sampler_cmsgen ss sols :
  parse_sampler_output (cmsgen_format ss sols)
  = Some (map (fun sol => (map (cms_lit sol) ss, 0)) sols).
Proof.
  unfold cmsgen_format.
  rewrite <- (map_map (fun sol => map (cms_lit sol) ss) (fun smp => TW "v" :: map TI smp ++ [TI 0])).
  rewrite <- (map_map (fun sol => map (cms_lit sol) ss) (fun smp => (smp, 0))).
  apply (parse_sampler_lines (fun smp => TW "v" :: map TI smp ++ [TI 0]) 0).
  - intros smp. eexists. reflexivity.
  - apply build_solution_cmsgen.
Qed.

(** The literal pycmsgen's tuple yields for a sampling-set variable it knows. *)
Lemma cms_lit_known sol v :
  0 < v < Z.of_nat (length sol) ->
  cms_lit sol v = if nth (Z.to_nat v) sol false then v else - v.
Proof. intros H. unfold cms_lit. replace (v <? Z.of_nat (length sol)) with true by lia. reflexivity. Qed.
