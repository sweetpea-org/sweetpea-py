(** Property C27 on token files, assembled from DimacsProofs / SolverIOProofs:
    print then parse ([parse_print]), the header line ([header_vars]), the
    solver's output ([solver_output_roundtrip]), [update_file]
    ([update_file_blocks]) and what its blocking clause excludes
    ([blocking_excludes_exactly], on which Sample/Iterate builds). *)
From Coq Require Import String Ascii ZArith List Bool Lia Permutation.
From SP Require Import Base.Sat Text.Tok Text.TokProofs Text.Dimacs Text.SolverIO.
From SP Require Import Text.DimacsProofs Text.SolverIOProofs.
Import ListNotations.
Open Scope Z_scope.

Lemma parse_print (cls : cnf) n :
  (forall c, In c cls -> nonzero c) -> no_empty_clause cls ->
  parse_cms (save_cnf_lines cls (Some n)) = Some (cnf_num_vars cls, rev cls) /\
  parse_unigen (save_cnf_lines cls (Some n)) = Some (rev cls, support_set n, cnf_num_vars cls) /\
  Permutation (rev cls) cls.
Proof.
  intros Hnz Hne.
  assert (E : nonempty_clauses (rev cls) = rev cls)
    by (apply nonempty_clauses_id; now apply no_empty_clause_rev).
  rewrite save_cnf_parse_cms, (save_cnf_parse_unigen cls n Hnz).
  split; [do 2 f_equal; exact E|]. split; [do 3 f_equal; exact E|].
  apply Permutation_sym, Permutation_rev.
Qed.

Lemma header_vars (cls : cnf) support :
  hd [] (save_cnf_lines cls support) = header (cnf_num_vars cls) (Z.of_nat (length cls)) /\
  (forall c l, In c cls -> In l c -> Z.abs l <= cnf_num_vars cls) /\
  (0 < cnf_num_vars cls -> exists c l, In c cls /\ In l c /\ Z.abs l = cnf_num_vars cls).
Proof.
  split; [apply save_cnf_header|]. split; [apply header_vars_bound|apply header_vars_tight].
Qed.

Lemma solver_output_roundtrip bs support :
  0 <= support <= Z.of_nat (length bs) ->
  parse_v_lines (cms_output bs) = Some (lits_of bs ++ [0]) /\
  solve_result (cms_output bs) support = Some (lits_of (firstn (Z.to_nat support) bs)) /\
  (forall s, forallb (lit_true s) (lits_of bs) = true <-> asg_matches s 1 bs).
Proof.
  intros H. split; [apply parse_v_cms_output|]. split; [now apply solve_result_cms_output|].
  intros s. apply lits_from_sat. lia.
Qed.

Lemma update_file_blocks f nv m rest sol :
  has_header f nv m rest -> sol <> [] -> nonzero sol ->
  exists f',
    update_file f sol = Some f' /\
    has_header f' nv (m + 1) (rest ++ [clause_line (blocking_clause sol)]) /\
    (forall n cs, parse_cms f = Some (n, cs) ->
                  parse_cms f' = Some (n, cs ++ [blocking_clause sol])) /\
    (forall cs ss n, parse_unigen f = Some (cs, ss, n) ->
                     parse_unigen f' = Some (cs ++ [blocking_clause sol], ss, n)) /\
    (forall s, csat s (blocking_clause sol) = negb (forallb (lit_true s) sol)).
Proof.
  intros H Hne Hnz.
  exists (header nv (m + 1) :: rest ++ [clause_line (blocking_clause sol)]).
  split; [now apply update_file_shape|].
  split; [now apply (update_file_has_header f)|].
  split; [|split].
  - intros n cs P. rewrite <- (clause_it_blocking sol Hne). now apply (parse_cms_update f nv m rest).
  - intros cs ss n P. rewrite <- (clause_it_blocking sol Hne). now apply (parse_unigen_update f nv m rest).
  - intros s. now apply csat_blocking.
Qed.

Lemma blocking_excludes_exactly s p n :
  csat s (blocking_clause (sol_of p n)) = true <-> ~ agree_upto n s p.
Proof.
  rewrite csat_blocking by apply sol_of_nonzero.
  rewrite negb_true_iff, <- not_true_iff_false. now rewrite sol_of_sat.
Qed.
