(** Generic lemmas about Text/Tok.v used by the Dimacs / SolverIO proofs. *)
From Coq Require Import String Ascii ZArith List Bool Lia.
From SP Require Import Base.Sat Text.Tok.
Import ListNotations.
Open Scope Z_scope.

Definition nonzero (c : list Z) : Prop := forall l, In l c -> l <> 0.

Lemma nonzero_cons l c : nonzero (l :: c) <-> l <> 0 /\ nonzero c.
Proof.
  split.
  - intros H. split; [apply H; now left | intros x Hx; apply H; now right].
  - intros [H1 H2] x [<-|Hx]; [exact H1 | now apply H2].
Qed.

Lemma nonzero_opp c : nonzero c -> nonzero (map Z.opp c).
Proof.
  intros H x Hx. apply in_map_iff in Hx. destruct Hx as [y [<- Hy]].
  specialize (H y Hy). lia.
Qed.

Lemma map_opt_app {A B} (f : A -> option B) a b :
  map_opt f (a ++ b) =
  match map_opt f a, map_opt f b with
  | Some x, Some y => Some (x ++ y)
  | _, _ => None
  end.
Proof.
  induction a as [|x a IH]; cbn [app map_opt].
  - destruct (map_opt f b); reflexivity.
  - destruct (f x) as [y|]; [|reflexivity]. rewrite IH.
    destruct (map_opt f a); [|reflexivity]. destruct (map_opt f b); reflexivity.
Qed.

Lemma map_opt_map {A B C} (f : B -> option C) (g : A -> B) (h : A -> C) l :
  (forall a, In a l -> f (g a) = Some (h a)) ->
  map_opt f (map g l) = Some (map h l).
Proof.
  induction l as [|a l IH]; intros H; [reflexivity|].
  cbn [map map_opt]. rewrite (H a) by now left.
  rewrite IH by (intros x Hx; apply H; now right). reflexivity.
Qed.

Lemma ints_of_TI l : ints_of (map TI l) = Some l.
Proof.
  unfold ints_of. rewrite (map_opt_map tok_int TI (fun z => z)); [now rewrite map_id|reflexivity].
Qed.

Lemma ints_of_app a b :
  ints_of (a ++ b) =
  match ints_of a, ints_of b with Some x, Some y => Some (x ++ y) | _, _ => None end.
Proof. apply map_opt_app. Qed.

Lemma ints_of_clause_toks l : ints_of (map TI l ++ [TI 0]) = Some (l ++ [0]).
Proof. rewrite ints_of_app, ints_of_TI. reflexivity. Qed.

Definition all_nonempty (f : file) : Prop := forall l, In l f -> is_empty_line l = false.

Lemma is_empty_line_true l : is_empty_line l = true -> l = [].
Proof. destruct l; [reflexivity|discriminate]. Qed.

Lemma drop_trailing_last f l :
  is_empty_line l = false -> drop_trailing (f ++ [l]) = f ++ [l].
Proof.
  intros Hl. induction f as [|x f IH].
  - cbn [app drop_trailing]. now rewrite Hl.
  - cbn [app drop_trailing]. rewrite IH.
    destruct (f ++ [l]) eqn:E; [|reflexivity].
    now destruct f.
Qed.

Lemma drop_trailing_blank f :
  all_nonempty f -> drop_trailing (f ++ [[]]) = f.
Proof.
  induction f as [|x f IH]; intros H; [reflexivity|].
  cbn [app drop_trailing]. rewrite IH by (intros l Hl; apply H; now right).
  destruct f as [|y f]; [|reflexivity].
  now rewrite (H x) by now left.
Qed.

(** [strip_file] removes blank lines, and nothing else, at both ends. *)
Lemma drop_leading_pad f : exists a, f = repeat [] a ++ drop_leading f.
Proof.
  induction f as [|l f [a IH]]; [now exists 0%nat|]. cbn [drop_leading].
  destruct (is_empty_line l) eqn:E; [|now exists 0%nat].
  apply is_empty_line_true in E. subst l. exists (S a). cbn [repeat app]. now f_equal.
Qed.

Lemma drop_trailing_pad f : exists b, f = drop_trailing f ++ repeat [] b.
Proof.
  induction f as [|l f [b IH]]; [now exists 0%nat|]. cbn [drop_trailing].
  destruct (drop_trailing f) as [|x r]; [|exists b; cbn [app]; now f_equal].
  destruct (is_empty_line l) eqn:E; [|exists b; cbn [app] in *; now f_equal].
  apply is_empty_line_true in E. subst l. exists (S b). cbn [app repeat] in *. now f_equal.
Qed.

Lemma strip_file_pad f : exists a b, f = repeat [] a ++ strip_file f ++ repeat [] b.
Proof.
  destruct (drop_leading_pad f) as [a Ha]. destruct (drop_trailing_pad (drop_leading f)) as [b Hb].
  exists a, b. unfold strip_file. now rewrite <- Hb.
Qed.

Lemma drop_leading_nonempty l f :
  is_empty_line l = false -> drop_leading (l :: f) = l :: f.
Proof. intros H. cbn [drop_leading]. now rewrite H. Qed.

Lemma strip_file_lines_blank f :
  all_nonempty f -> strip_file (f ++ [[]]) = f.
Proof.
  intros H. unfold strip_file. destruct f as [|l f]; [reflexivity|].
  cbn [app]. rewrite drop_leading_nonempty by (apply H; now left).
  apply (drop_trailing_blank (l :: f) H).
Qed.

Lemma strip_file_fixed l f x :
  is_empty_line l = false -> is_empty_line x = false ->
  strip_file (l :: f ++ [x]) = l :: f ++ [x].
Proof.
  intros Hl Hx. unfold strip_file. rewrite drop_leading_nonempty by exact Hl.
  apply (drop_trailing_last (l :: f) x Hx).
Qed.

Lemma csat_opp s sol :
  nonzero sol -> csat s (map Z.opp sol) = negb (forallb (lit_true s) sol).
Proof.
  induction sol as [|l sol IH]; intros H; [reflexivity|].
  apply nonzero_cons in H. destruct H as [Hl Hs].
  unfold csat in *. cbn [map existsb forallb].
  rewrite IH by exact Hs. rewrite lit_true_opp by exact Hl.
  now rewrite negb_andb.
Qed.
