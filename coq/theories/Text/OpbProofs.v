(** Proofs about Text/Opb.v: the OPB text means what the clauses and the
    cardinality requests mean (reference semantics: [csat]/[sat] of Base/Sat.v
    and the number of true variables of a request). *)
From Coq Require Import String Ascii ZArith List Bool Lia.
From SP Require Import Base.Lists Base.Sat Core.Card Text.Tok Text.Opb Text.TokProofs.
Import ListNotations.
Open Scope Z_scope.

Fixpoint zcount {A : Type} (p : A -> bool) (l : list A) : Z :=
  match l with
  | [] => 0
  | a :: r => (if p a then 1 else 0) + zcount p r
  end.

(** Number of true variables among [vs] (with multiplicity). *)
Definition count_true (s : asg) (vs : list Z) : Z := zcount s vs.

Lemma zcount_bounds {A} (p : A -> bool) l : 0 <= zcount p l <= Z.of_nat (length l).
Proof.
  induction l as [|a l IH]; cbn [zcount length]; [lia|].
  destruct (p a); lia.
Qed.

Lemma existsb_zcount {A} (p : A -> bool) l : existsb p l = (1 <=? zcount p l).
Proof.
  induction l as [|a l IH]; cbn [existsb zcount]; [reflexivity|].
  pose proof (zcount_bounds p l) as B.
  destruct (p a); cbn [orb].
  - symmetry. apply Z.leb_le. lia.
  - rewrite IH. f_equal.
Qed.

Lemma forallb_zcount {A} (p : A -> bool) l :
  forallb p l = (zcount p l =? Z.of_nat (length l)).
Proof.
  induction l as [|a l IH]; cbn [forallb zcount length]; [reflexivity|].
  pose proof (zcount_bounds p l) as B.
  destruct (p a); cbn [andb].
  - rewrite IH. apply eq_true_iff_eq. rewrite !Z.eqb_eq. lia.
  - symmetry. apply Z.eqb_neq. lia.
Qed.

Lemma count_neg_zcount c : count_neg c = zcount (fun v => v <? 0) c.
Proof.
  unfold count_neg. induction c as [|l c IH]; [reflexivity|].
  cbn [filter zcount]. destruct (l <? 0); cbn [length]; lia.
Qed.

Definition term_of (l : Z) : Z * Z := if l <? 0 then (-1, - l) else (1, l).

Lemma parse_terms_word w r : parse_terms (TW w :: r) = ([], TW w :: r).
Proof. destruct r as [|t r]; [reflexivity|]. destruct t; reflexivity. Qed.

Lemma parse_terms_opb c rest :
  parse_terms rest = ([], rest) ->
  parse_terms (flat_map opb_term c ++ rest) = (map term_of c, rest).
Proof.
  intros Hr. induction c as [|l c IH]; [exact Hr|].
  cbn [flat_map map]. unfold opb_term at 1, term_of at 1.
  destruct (l <? 0); cbn [app parse_terms coef_tok]; rewrite IH; reflexivity.
Qed.

Lemma parse_terms_plus vs rest :
  parse_terms rest = ([], rest) ->
  parse_terms (flat_map (fun x => [TPlus 1; TV x]) vs ++ rest) = (map (fun x => (1, x)) vs, rest).
Proof.
  intros Hr. induction vs as [|v vs IH]; [exact Hr|].
  cbn [flat_map map app parse_terms coef_tok]. rewrite IH. reflexivity.
Qed.

Lemma ilp_term_opb x : ilp_term x = opb_term x.
Proof.
  unfold ilp_term, opb_term. destruct (x <? 0) eqn:E; [|reflexivity].
  rewrite Z.abs_neq by lia. reflexivity.
Qed.

Lemma lhs_clause s c :
  nonzero c ->
  pb_lhs s (map term_of c) = zcount (lit_true s) c - zcount (fun v => v <? 0) c.
Proof.
  induction c as [|l c IH]; intros Hc; [reflexivity|].
  assert (Hl : l <> 0) by (apply Hc; now left).
  assert (Hc' : nonzero c) by (intros x Hx; apply Hc; now right).
  cbn [map pb_lhs fold_right zcount]. fold (pb_lhs s (map term_of c)). rewrite (IH Hc').
  unfold term_of, lit_true. destruct (l <? 0) eqn:E.
  - replace (0 <? l) with false by lia. cbn [fst snd]. destruct (s (- l)); cbn [negb]; lia.
  - replace (0 <? l) with true by lia. cbn [fst snd]. destruct (s l); lia.
Qed.

Lemma lhs_plus s vs : pb_lhs s (map (fun x => (1, x)) vs) = count_true s vs.
Proof.
  unfold count_true. induction vs as [|v vs IH]; [reflexivity|].
  cbn [map pb_lhs fold_right zcount fst snd]. fold (pb_lhs s (map (fun x => (1, x)) vs)).
  rewrite IH. reflexivity.
Qed.

Lemma opb_clause_line_sat s c :
  nonzero c -> pb_line_sat s (opb_clause_line c) = Some (csat s c).
Proof.
  intros Hc. unfold pb_line_sat, parse_pb_line, opb_clause_line.
  rewrite parse_terms_opb by apply parse_terms_word.
  cbn [is_word String.eqb Ascii.eqb Bool.eqb op_tok pbc_sat].
  rewrite (lhs_clause s c Hc), count_neg_zcount.
  unfold csat. rewrite existsb_zcount. f_equal.
  apply eq_true_iff_eq. rewrite !Z.leb_le. lia.
Qed.

(** What a request line says, for an arbitrary right-hand side of GT. *)
Definition req_holds_with (gt : Z -> Z) (s : asg) (r : kind * Z * list Z) : bool :=
  let '(kd, k, vs) := r in
  match kd with
  | EQ => count_true s vs =? k
  | LT => count_true s vs <=? k - 1
  | GT => gt k <=? count_true s vs
  end.

Lemma opb_request_line_sat gt s r :
  pb_line_sat s (opb_request_line_with gt r) = Some (req_holds_with gt s r).
Proof.
  destruct r as [[kd k] vs].
  unfold pb_line_sat, parse_pb_line, opb_request_line_with.
  destruct kd; cbn [cmp_toks app];
    (rewrite parse_terms_plus by apply parse_terms_word);
    cbn [is_word String.eqb Ascii.eqb Bool.eqb op_tok pbc_sat req_holds_with];
    rewrite lhs_plus; reflexivity.
Qed.

(** The reference meaning of a request: "exactly", "fewer than", "more than". *)
Definition rel (kd : kind) (cnt k : Z) : Prop :=
  match kd with EQ => cnt = k | LT => cnt < k | GT => cnt > k end.
Definition relb (kd : kind) (cnt k : Z) : bool :=
  match kd with EQ => cnt =? k | LT => cnt <? k | GT => k <? cnt end.
Definition req_holds (s : asg) (r : kind * Z * list Z) : bool :=
  let '(kd, k, vs) := r in relb kd (count_true s vs) k.

Lemma relb_rel kd c k : relb kd c k = true <-> rel kd c k.
Proof. destruct kd; cbn [relb rel]; [apply Z.eqb_eq | apply Z.ltb_lt | rewrite Z.ltb_lt; lia]. Qed.

Lemma req_holds_with_succ s r : req_holds_with (fun k => k + 1) s r = req_holds s r.
Proof.
  destruct r as [[kd k] vs]. destruct kd; cbn [req_holds_with req_holds relb]; [reflexivity| |];
    apply eq_true_iff_eq; rewrite Z.leb_le, Z.ltb_lt; lia.
Qed.

(** The text the code writes: [gt_rhs k = k + 1], so all three kinds are right. *)
Lemma gt_rhs_succ k : gt_rhs k = k + 1.
Proof. reflexivity. Qed.

Lemma opb_request_equiv s kd k vs :
  pb_line_sat s (opb_request_line (kd, k, vs)) = Some true <-> rel kd (count_true s vs) k.
Proof.
  unfold opb_request_line, gt_rhs. rewrite opb_request_line_sat, (req_holds_with_succ s (kd, k, vs)).
  cbn [req_holds]. rewrite <- relb_rel. split; [now intros [= ->] | now intros ->].
Qed.

Lemma pb_file_sat_app s f g :
  pb_file_sat s (f ++ g) =
  match pb_file_sat s f, pb_file_sat s g with
  | Some a, Some b => Some (a && b)
  | _, _ => None
  end.
Proof.
  induction f as [|l f IH]; cbn [app pb_file_sat].
  - destruct (pb_file_sat s g); reflexivity.
  - destruct (is_empty_line l); [exact IH|].
    rewrite IH. destruct (pb_line_sat s l) as [a|]; [|reflexivity].
    destruct (pb_file_sat s f) as [b|]; [|reflexivity].
    destruct (pb_file_sat s g) as [c|]; [|reflexivity].
    now rewrite andb_assoc.
Qed.

Lemma not_empty_app (a : line) t b : is_empty_line (a ++ t :: b) = false.
Proof. destruct a; reflexivity. Qed.

Lemma pb_file_sat_clause_lines s cls :
  (forall c, In c cls -> nonzero c) ->
  pb_file_sat s (map opb_clause_line cls) = Some (sat s cls).
Proof.
  induction cls as [|c cls IH]; intros H; [reflexivity|].
  cbn [map pb_file_sat]. unfold opb_clause_line at 1. rewrite not_empty_app.
  fold (opb_clause_line c). rewrite opb_clause_line_sat by (apply H; now left).
  rewrite IH by (intros c' Hc'; apply H; now right). reflexivity.
Qed.

Lemma pb_file_sat_join s ls : pb_file_sat s (join_lines ls) = pb_file_sat s ls.
Proof. destruct ls; reflexivity. Qed.

Lemma pb_file_sat_opb_lines s cls :
  (forall c, In c cls -> nonzero c) ->
  pb_file_sat s (opb_lines cls) = Some (sat s cls).
Proof.
  intros H. unfold opb_lines. rewrite pb_file_sat_join, pb_file_sat_clause_lines.
  - f_equal. symmetry. apply forallb_perm, Permutation.Permutation_rev.
  - intros c Hc. apply H. now apply in_rev.
Qed.

Lemma request_line_not_empty gt r : is_empty_line (opb_request_line_with gt r) = false.
Proof.
  destruct r as [[kd k] vs]. unfold opb_request_line_with.
  destruct kd; cbn [cmp_toks app]; apply not_empty_app.
Qed.

Lemma pb_file_sat_request_lines gt s reqs :
  pb_file_sat s (map (opb_request_line_with gt) reqs) = Some (forallb (req_holds_with gt s) reqs).
Proof.
  induction reqs as [|r reqs IH]; [reflexivity|].
  cbn [map pb_file_sat forallb].
  now rewrite request_line_not_empty, opb_request_line_sat, IH.
Qed.

Lemma opb_file_sat_with gt s cls reqs :
  (forall c, In c cls -> nonzero c) ->
  pb_file_sat s (opb_file_with gt cls reqs)
  = Some (sat s cls && forallb (req_holds_with gt s) reqs).
Proof.
  intros H. unfold opb_file_with.
  now rewrite pb_file_sat_app, pb_file_sat_opb_lines, pb_file_sat_request_lines.
Qed.

(** The export accepts exactly the assignments that satisfy the clauses and
    stand in every request's relation to its [k]. *)
Lemma opb_file_equiv s cls reqs :
  (forall c, In c cls -> nonzero c) ->
  pb_file_sat s (opb_file cls reqs) = Some (sat s cls && forallb (req_holds s) reqs).
Proof.
  intros H. unfold opb_file, gt_rhs. rewrite opb_file_sat_with by exact H. do 2 f_equal.
  apply forallb_ext, req_holds_with_succ.
Qed.

(** * The constraint added between iterations *)

Lemma ilp_block_line_sat s sol :
  nonzero sol ->
  pb_line_sat s (ilp_block_line sol) = Some (negb (forallb (lit_true s) sol)).
Proof.
  intros Hs. unfold pb_line_sat, parse_pb_line, ilp_block_line.
  rewrite (flat_map_ext ilp_term opb_term ilp_term_opb).
  rewrite parse_terms_opb by apply parse_terms_word.
  cbn [is_word String.eqb Ascii.eqb Bool.eqb op_tok pbc_sat].
  rewrite (lhs_clause s sol Hs), count_neg_zcount, forallb_zcount. f_equal.
  pose proof (zcount_bounds (lit_true s) sol) as B.
  apply eq_true_iff_eq. rewrite Z.leb_le, negb_true_iff, Z.eqb_neq. lia.
Qed.

Lemma ilp_update_sat s f sol :
  nonzero sol ->
  pb_file_sat s (ilp_update f sol) =
  match pb_file_sat s f with
  | Some b => Some (b && negb (forallb (lit_true s) sol))
  | None => None
  end.
Proof.
  intros Hs. unfold ilp_update. rewrite pb_file_sat_app.
  cbn [pb_file_sat is_empty_line]. unfold ilp_block_line at 1. rewrite not_empty_app.
  fold (ilp_block_line sol). rewrite (ilp_block_line_sat s sol Hs).
  destruct (pb_file_sat s f); [|reflexivity]. now rewrite andb_true_r.
Qed.
