(** The characters written by the writers of Text/TextChars.v, read with
    [split('\n')] / [split()] / the word classifier, ARE the token files of the
    token-level model (Dimacs.v, SolverIO.v, Opb.v): [lex_file (x_text a) = x_lines a].
    With that, every token-level theorem of C27/C28 lifts to the text. *)
From Coq Require Import String Ascii ZArith List Bool Lia.
From SP Require Import Base.Lists Base.Sat Core.Card Text.Tok Text.TokProofs Text.Chars Text.CharsProofs.
From SP Require Import Text.Dimacs Text.SolverIO Text.Opb Text.OpbProofs Text.TextChars.
Import ListNotations.
Open Scope Z_scope.

Lemma canon_Z_str z : canon_Z (string_of_Z z) = Some z.
Proof. unfold canon_Z. now rewrite Z_of_string_of_Z, String.eqb_refl. Qed.

Lemma tok_of_string_Z z : tok_of_string (string_of_Z z) = TI z.
Proof. unfold tok_of_string. now rewrite canon_Z_str. Qed.

Lemma Z_of_string_letter c r :
  digit_val c = None -> is_ws c = false -> c <> "-"%char -> c <> "+"%char -> no_ws r = true ->
  Z_of_string (String c r) = None.
Proof.
  intros Hd Hw H1 H2 Hr.
  rewrite (Z_of_string_unsigned (String c r) c r); [|apply strip_c_no_ws|exact H1|exact H2].
  - cbn [digits_val]. rewrite Hd. destruct (Ascii.eqb c "_"); reflexivity.
  - now apply no_ws_String.
Qed.

Lemma tok_of_string_V z : tok_of_string (String "v" (string_of_Z z)) = TV z.
Proof.
  unfold tok_of_string, canon_Z.
  rewrite Z_of_string_letter; [|reflexivity|reflexivity|discriminate|discriminate|apply string_of_Z_no_ws].
  cbn. now rewrite canon_Z_str.
Qed.

Lemma tok_s : tok_of_string "s" = TW "s". Proof. reflexivity. Qed.
Lemma tok_SAT : tok_of_string "SATISFIABLE" = TW "SATISFIABLE". Proof. reflexivity. Qed.
Lemma tok_0 : tok_of_string "0" = TI 0. Proof. reflexivity. Qed.
Lemma tok_m1 : tok_of_string "-1" = TI (-1). Proof. reflexivity. Qed.
Lemma tok_freq01 : tok_of_string "0:1" = TFreq 0 1. Proof. reflexivity. Qed.
Lemma tok_eq : tok_of_string "=" = TW "=". Proof. reflexivity. Qed.

Lemma map_tok_Z l : map tok_of_string (map string_of_Z l) = map TI l.
Proof. rewrite map_map. apply map_ext. apply tok_of_string_Z. Qed.

Lemma word_V z : is_word_s (String "v" (string_of_Z z)) = true.
Proof. apply no_ws_String. split; [reflexivity|apply string_of_Z_no_ws]. Qed.

Lemma join_empty_cons a l : join EmptyString (a :: l) = a +s+ join EmptyString l.
Proof. destruct l; [cbn [join]; now rewrite app_nil_r_s|reflexivity]. Qed.

Definition all_no_nl (ls : list string) : Prop := Forall (fun w => no_nl w = true) ls.

Lemma lines_join_nl ls : all_no_nl ls -> ls <> [] -> lines (join nl_s ls) = ls.
Proof.
  induction ls as [|a r IH]; intros H N; [congruence|].
  inversion H as [|? ? Ha Hr]; subst.
  destruct r as [|b r2]; [now apply lines_no_nl|].
  rewrite join_cons by discriminate. unfold nl_s at 1. cbn [String.append].
  rewrite lines_app_nl by exact Ha. now rewrite IH.
Qed.

(** [''.join(l + '\n' for l in ls) + rest] *)
Lemma lines_concat_nl ls rest :
  all_no_nl ls ->
  lines (join EmptyString (map (fun l => l +s+ nl_s) ls) +s+ rest) = ls ++ lines rest.
Proof.
  induction ls as [|a r IH]; intros H; [reflexivity|].
  inversion H as [|? ? Ha Hr]; subst.
  cbn [map]. rewrite join_empty_cons, !app_assoc_s. unfold nl_s at 1. cbn [String.append].
  rewrite lines_app_nl by exact Ha. now rewrite IH.
Qed.

Lemma lex_file_app_nl_gen a b : lex_file (a +s+ String nl b) = lex_file a ++ lex_file b.
Proof. unfold lex_file. now rewrite lines_app_nl_gen, map_app. Qed.

Lemma lex_file_app_nl a b : no_nl a = true -> lex_file (a +s+ String nl b) = lex_line a :: lex_file b.
Proof. intros H. unfold lex_file. now rewrite lines_app_nl. Qed.

Lemma lex_file_nl b : lex_file (String nl b) = [] :: lex_file b.
Proof. exact (lex_file_app_nl EmptyString b eq_refl). Qed.

Lemma lex_file_join ls : all_no_nl ls -> ls <> [] -> lex_file (join nl_s ls) = map lex_line ls.
Proof. intros H N. unfold lex_file. now rewrite lines_join_nl. Qed.

(** * A printed line is [' '.join] of words

    Every writer prints a line as words separated by single blanks, possibly
    with a [' '.join] of a list that may be empty in the middle (which then
    leaves two blanks, or a leading one).  Such a line has no newline, and
    [split()] gives back the words. *)

Lemma all_chars_join p l :
  p " "%char = true -> Forall (fun w => str_forall p w = true) l -> str_forall p (join sp l) = true.
Proof.
  intros Hs. induction l as [|a r IH]; intros H; [reflexivity|].
  inversion H as [|? ? Ha Hr]; subst. destruct r as [|b r2]; [exact Ha|].
  change (join sp (a :: b :: r2)) with (a +s+ sp +s+ join sp (b :: r2)).
  rewrite !str_forall_app, Ha, (IH Hr). cbn. now rewrite Hs.
Qed.

Lemma no_nl_join ws : words ws -> no_nl (join sp ws) = true.
Proof.
  intros H. apply all_chars_join; [reflexivity|].
  eapply Forall_impl; [|exact H]. exact word_no_nl.
Qed.

Lemma no_nl_join_app ws rest : words ws -> no_nl (join sp ws +s+ sp +s+ rest) = no_nl rest.
Proof. intros H. now rewrite !no_nl_app, no_nl_join. Qed.

Lemma lex_line_join ws : words ws -> lex_line (join sp ws) = map tok_of_string ws.
Proof. intros H. unfold lex_line. now rewrite split_ws_join. Qed.

Lemma lex_line_join_app ws rest :
  words ws -> lex_line (join sp ws +s+ sp +s+ rest) = map tok_of_string ws ++ lex_line rest.
Proof. intros H. unfold lex_line. now rewrite split_ws_join_app, map_app. Qed.

Lemma no_nl_cons w rest : is_word_s w = true -> no_nl (w +s+ sp +s+ rest) = no_nl rest.
Proof. intros H. apply (no_nl_join_app [w]). now constructor. Qed.

Lemma lex_line_cons w rest :
  is_word_s w = true -> lex_line (w +s+ sp +s+ rest) = tok_of_string w :: lex_line rest.
Proof. intros H. apply (lex_line_join_app [w]). now constructor. Qed.

Lemma lex_line_word w : is_word_s w = true -> lex_line w = [tok_of_string w].
Proof. intros H. unfold lex_line. now rewrite split_ws_single. Qed.

(** * DIMACS: the printed lines, tokenised *)

Definition hdr_text (nv m : Z) : string := "p cnf " +s+ string_of_Z nv +s+ sp +s+ string_of_Z m.

Lemma header_text_app nv m x :
  header_text nv m +s+ x = hdr_text nv m +s+ String nl (String nl x).
Proof.
  unfold header_text, hdr_text. rewrite !app_assoc_s. reflexivity.
Qed.

Lemma hdr_text_words nv m :
  hdr_text nv m = join sp ["p"; "cnf"; string_of_Z nv; string_of_Z m]%string /\
  words ["p"; "cnf"; string_of_Z nv; string_of_Z m]%string.
Proof. split; [reflexivity|repeat constructor; apply string_of_Z_word]. Qed.

Lemma no_nl_hdr nv m : no_nl (hdr_text nv m) = true.
Proof. destruct (hdr_text_words nv m) as [-> W]. now apply no_nl_join. Qed.

Lemma lex_hdr nv m : lex_line (hdr_text nv m) = header nv m.
Proof.
  destruct (hdr_text_words nv m) as [-> W]. rewrite lex_line_join by exact W.
  cbn [map]. now rewrite !tok_of_string_Z.
Qed.

Lemma clause_text_eq c : clause_text c = join sp (map string_of_Z c) +s+ sp +s+ string_of_Z 0.
Proof. reflexivity. Qed.

Lemma no_nl_clause_text c : no_nl (clause_text c) = true.
Proof.
  rewrite clause_text_eq, no_nl_join_app by apply words_map_Z. apply string_of_Z_no_nl.
Qed.

(** Tokenising the printed clause line gives the literals and the 0 - also
    for the empty clause, whose line [" 0"] begins with a blank. *)
Lemma lex_clause_text c : lex_line (clause_text c) = clause_line c.
Proof.
  unfold lex_line, clause_line. rewrite clause_text_eq, split_ws_clause_line.
  rewrite map_tok_Z, map_app. reflexivity.
Qed.

Lemma ind_text_eq ch : ind_text ch = "c" +s+ sp +s+ "ind" +s+ sp +s+ clause_text ch.
Proof. reflexivity. Qed.

Lemma no_nl_ind_text ch : no_nl (ind_text ch) = true.
Proof. rewrite ind_text_eq, !no_nl_cons by reflexivity. apply no_nl_clause_text. Qed.

Lemma lex_ind_text ch : lex_line (ind_text ch) = ind_line ch.
Proof. now rewrite ind_text_eq, !lex_line_cons, lex_clause_text by reflexivity. Qed.

Lemma all_no_nl_map {A} (f : A -> string) l :
  (forall a, no_nl (f a) = true) -> all_no_nl (map f l).
Proof. intros H. apply Forall_map, Forall_forall. auto. Qed.

Lemma lines_str_text cls : lines (str_text cls) = map clause_text (rev cls) ++ [EmptyString].
Proof.
  unfold str_text. rewrite <- (app_nil_r_s (join _ _)).
  rewrite <- (map_map clause_text (fun l => l +s+ nl_s)).
  rewrite lines_concat_nl by (apply all_no_nl_map, no_nl_clause_text). reflexivity.
Qed.

Lemma lex_str_text cls : lex_file (str_text cls) = str_lines cls ++ [[]].
Proof.
  unfold lex_file, str_lines. rewrite lines_str_text, map_app, map_map. cbn [map].
  f_equal. apply map_ext, lex_clause_text.
Qed.

Theorem lex_dimacs_text nv cls : lex_file (dimacs_text nv cls) = dimacs_lines nv cls.
Proof.
  unfold dimacs_text, dimacs_lines.
  rewrite header_text_app, lex_file_app_nl, lex_file_nl, lex_hdr by apply no_nl_hdr.
  do 2 f_equal. apply lex_str_text.
Qed.

Lemma lex_support_string ss :
  lex_file (support_string ss)
  = match chunks10 (length ss) ss with [] => [[]] | ch => map ind_line ch end.
Proof.
  unfold support_string. destruct (chunks10 (length ss) ss) as [|c r] eqn:E; [reflexivity|].
  rewrite lex_file_join, map_map; [|apply all_no_nl_map, no_nl_ind_text|discriminate].
  apply map_ext, lex_ind_text.
Qed.

(** [as_unigen_string]: the replacement of the first newline lands right after
    the header line. *)
Lemma unigen_text_eq nv ss cls :
  unigen_text nv ss cls
  = hdr_text nv (Z.of_nat (length cls)) +s+ String nl (support_string ss +s+ String nl (str_text cls)).
Proof.
  unfold unigen_text, dimacs_text. rewrite header_text_app.
  rewrite replace_first_nl_app by apply no_nl_hdr.
  unfold nl_s. cbn [String.append]. reflexivity.
Qed.

Theorem lex_unigen_text nv ss cls : lex_file (unigen_text nv ss cls) = unigen_lines nv ss cls.
Proof.
  rewrite unigen_text_eq, lex_file_app_nl by apply no_nl_hdr.
  now rewrite lex_file_app_nl_gen, lex_hdr, lex_support_string, lex_str_text.
Qed.

Theorem lex_save_cnf_text cls support :
  lex_file (save_cnf_text cls support) = save_cnf_lines cls support.
Proof. apply lex_unigen_text. Qed.

Lemma save_cnf_first_line cls support :
  hd EmptyString (lines (save_cnf_text cls support))
  = hdr_text (cnf_num_vars cls) (Z.of_nat (length cls)).
Proof.
  unfold save_cnf_text. rewrite unigen_text_eq, lines_app_nl by apply no_nl_hdr. reflexivity.
Qed.

Theorem lex_combine_save_text initial fresh support reqs :
  match combine_save_text initial fresh support reqs, combine_save_lines initial fresh support reqs with
  | Some t, Some f => lex_file t = f
  | None, None => True
  | _, _ => False
  end.
Proof.
  unfold combine_save_text, combine_save_lines.
  destruct (combine_requests initial fresh reqs) as [[ok n] cls].
  destruct ok; [apply lex_save_cnf_text|exact I].
Qed.

(** When no clause is empty the text is also the plain rendering of the token
    file (one blank between tokens, one newline between lines); the empty
    clause is the one place where the writer deviates (its line is [" 0"]). *)
Lemma render_clause_line c : c <> [] -> render_line (clause_line c) = clause_text c.
Proof.
  intros H. unfold render_line, clause_line, clause_text.
  rewrite map_app, map_map. cbn [map string_of_tok].
  rewrite <- join_snoc by (destruct c; [congruence|discriminate]). reflexivity.
Qed.

Lemma render_empty_clause_refuted :
  render_line (clause_line []) <> clause_text [] /\ lex_line (clause_text []) = clause_line [].
Proof. split; [discriminate|reflexivity]. Qed.

Definition v_text (ws : list string) : string := "v" +s+ String " " (join sp ws).

Lemma cms_output_text_eq bs :
  cms_output_text bs
  = "s SATISFIABLE" +s+ String nl (v_text (map string_of_Z (lits_of bs) ++ ["0"%string]) +s+ String nl EmptyString).
Proof. reflexivity. Qed.

Lemma v_text_eq ws : v_text ws = "v" +s+ sp +s+ join sp ws.
Proof. reflexivity. Qed.

Lemma lex_v_text ws : words ws -> lex_line (v_text ws) = TW "v" :: map tok_of_string ws.
Proof.
  intros H. now rewrite v_text_eq, lex_line_cons, lex_line_join by first [exact H | reflexivity].
Qed.

Lemma no_nl_v_text ws : words ws -> no_nl (v_text ws) = true.
Proof. intros H. rewrite v_text_eq, no_nl_cons by reflexivity. now apply no_nl_join. Qed.

Theorem lex_cms_output_text bs : lex_file (cms_output_text bs) = cms_output bs.
Proof.
  assert (W : words (map string_of_Z (lits_of bs) ++ ["0"%string]))
    by (apply words_app; [apply words_map_Z|now constructor]).
  rewrite cms_output_text_eq, lex_file_app_nl by reflexivity.
  rewrite lex_file_app_nl, lex_v_text, map_app, map_tok_Z by first [exact W | now apply no_nl_v_text].
  reflexivity.
Qed.

(** * OPB: the printed constraint lines, tokenised *)

Lemma first_minus_str v : first_minus (string_of_Z v) = (v <? 0).
Proof. exact (string_of_Z_sign v). Qed.

Definition term_w1 (v : Z) : string := if v <? 0 then "-1"%string else "+1"%string.
Definition term_w2 (v : Z) : string := String "v" (string_of_Z (if v <? 0 then - v else v)).
Definition term_words (v : Z) : list string := [term_w1 v; term_w2 v].

Lemma opb_term_text_eq v : opb_term_text v = term_w1 v +s+ sp +s+ term_w2 v.
Proof.
  unfold opb_term_text, term_w1, term_w2. rewrite first_minus_str.
  destruct (v <? 0) eqn:E; [|reflexivity].
  rewrite (string_of_Z_neg v) by lia. reflexivity.
Qed.

Lemma ilp_term_text_eq x : ilp_term_text x = opb_term_text x.
Proof.
  rewrite opb_term_text_eq. unfold ilp_term_text, term_w1, term_w2. rewrite first_minus_str.
  destruct (x <? 0) eqn:E; [|reflexivity].
  replace (Z.abs x) with (- x) by lia. reflexivity.
Qed.

Lemma count_false_text_eq c : count_false_text c = count_neg c.
Proof.
  unfold count_false_text, count_neg. do 2 f_equal. apply filter_ext. intros v. apply first_minus_str.
Qed.

Lemma join_opb_terms c : join sp (map opb_term_text c) = join sp (flat_map term_words c).
Proof.
  rewrite (map_ext _ _ opb_term_text_eq). apply join_pairs.
Qed.

Lemma words_flat_map {A} (f : A -> list string) l :
  (forall a, words (f a)) -> words (flat_map f l).
Proof. intros H. apply Forall_flat_map, Forall_forall. intros a _. apply H. Qed.

Lemma words_term v : words (term_words v).
Proof.
  unfold term_words, term_w1. repeat constructor; [now destruct (v <? 0)|apply word_V].
Qed.

Lemma toks_term v : map tok_of_string (term_words v) = opb_term v.
Proof.
  unfold term_words, term_w1, term_w2, opb_term. cbn [map]. rewrite tok_of_string_V.
  destruct (v <? 0); reflexivity.
Qed.

Lemma toks_terms c : map tok_of_string (flat_map term_words c) = flat_map opb_term c.
Proof. rewrite map_flat_map. apply flat_map_ext. apply toks_term. Qed.

Definition plus_words (x : Z) : list string := ["+1"%string; String "v" (string_of_Z x)].

Lemma join_plus_terms vs :
  join sp (map (fun x => "+1 v" +s+ string_of_Z x) vs) = join sp (flat_map plus_words vs).
Proof. exact (join_pairs (fun _ => "+1"%string) (fun x => String "v" (string_of_Z x)) vs). Qed.

Lemma words_plus x : words (plus_words x).
Proof. repeat constructor. apply word_V. Qed.

Lemma toks_plus vs :
  map tok_of_string (flat_map plus_words vs) = flat_map (fun x => [TPlus 1; TV x]) vs.
Proof.
  rewrite map_flat_map. apply flat_map_ext. intros x. cbn [plus_words map].
  now rewrite tok_of_string_V.
Qed.

(** [terms + ' ' + op + ' ' + str(k) + ' ;' + trail] *)
Definition constraint_text (W : list string) (op : string) (k : Z) (trail : string) : string :=
  join sp W +s+ sp +s+ (op +s+ String " " (string_of_Z k +s+ String " " (String ";" trail))).

Lemma constraint_text_eq W op k trail :
  constraint_text W op k trail
  = join sp W +s+ sp +s+ op +s+ sp +s+ string_of_Z k +s+ sp +s+ String ";" trail.
Proof. reflexivity. Qed.

Lemma lex_constraint W op k trail :
  words W -> is_word_s op = true -> split_ws (String ";" trail) = [";"%string] ->
  lex_line (constraint_text W op k trail) = map tok_of_string W ++ [tok_of_string op; TI k; TW ";"].
Proof.
  intros HW Hop Ht.
  rewrite constraint_text_eq, lex_line_join_app by exact HW.
  rewrite !lex_line_cons by first [exact Hop | apply string_of_Z_word].
  unfold lex_line. rewrite Ht. cbn [map]. now rewrite tok_of_string_Z.
Qed.

Lemma no_nl_constraint W op k trail :
  words W -> is_word_s op = true -> no_nl trail = true -> no_nl (constraint_text W op k trail) = true.
Proof.
  intros HW Hop Ht.
  rewrite constraint_text_eq, no_nl_join_app by exact HW.
  rewrite !no_nl_cons by first [exact Hop | apply string_of_Z_word]. now apply no_nl_String.
Qed.

Lemma opb_clause_text_eq c :
  opb_clause_text c = constraint_text (flat_map term_words c) ">=" (- count_neg c + 1) EmptyString.
Proof.
  unfold opb_clause_text, constraint_text. rewrite join_opb_terms, count_false_text_eq.
  reflexivity.
Qed.

Lemma lex_opb_clause_text c : lex_line (opb_clause_text c) = opb_clause_line c.
Proof.
  rewrite opb_clause_text_eq, lex_constraint by (apply words_flat_map, words_term || reflexivity).
  unfold opb_clause_line. now rewrite toks_terms.
Qed.

Lemma no_nl_opb_clause_text c : no_nl (opb_clause_text c) = true.
Proof.
  rewrite opb_clause_text_eq. apply no_nl_constraint; [apply words_flat_map, words_term| |]; reflexivity.
Qed.

Definition request_body (r : kind * Z * list Z) : string :=
  let '(kd, k, vs) := r in
  constraint_text (flat_map plus_words vs)
                  (match kd with EQ => "=" | LT => "<=" | GT => ">=" end)
                  (match kd with EQ => k | LT => k - 1 | GT => gt_rhs k end) " ".

Lemma opb_request_text_eq r : opb_request_text r = String nl (request_body r).
Proof.
  destruct r as [[kd k] vs]. unfold opb_request_text, request_body, constraint_text.
  rewrite join_plus_terms. unfold nl_s. cbn [String.append]. f_equal.
  destruct kd; unfold cmp_text; rewrite !app_assoc_s; reflexivity.
Qed.

Lemma lex_request_body r : lex_line (request_body r) = opb_request_line r.
Proof.
  destruct r as [[kd k] vs]. unfold request_body.
  rewrite lex_constraint; [|apply words_flat_map, words_plus|now destruct kd|reflexivity].
  unfold opb_request_line, opb_request_line_with, cmp_toks. rewrite toks_plus.
  destruct kd; reflexivity.
Qed.

Lemma no_nl_request_body r : no_nl (request_body r) = true.
Proof.
  destruct r as [[kd k] vs]. unfold request_body.
  apply no_nl_constraint; [apply words_flat_map, words_plus|now destruct kd|reflexivity].
Qed.

Lemma lines_requests t reqs :
  lines (t +s+ join EmptyString (map opb_request_text reqs)) = lines t ++ map request_body reqs.
Proof.
  revert t. induction reqs as [|r rs IH]; intros t.
  - cbn [map join]. now rewrite app_nil_r_s, app_nil_r.
  - cbn [map]. rewrite join_empty_cons, opb_request_text_eq.
    change (String nl (request_body r) +s+ ?x) with (String nl (request_body r +s+ x)).
    replace (t +s+ String nl (request_body r +s+ join EmptyString (map opb_request_text rs)))
      with ((t +s+ String nl (request_body r)) +s+ join EmptyString (map opb_request_text rs))
      by (rewrite app_assoc_s; reflexivity).
    rewrite IH, lines_app_nl_gen, (lines_no_nl _ (no_nl_request_body r)), <- app_assoc. reflexivity.
Qed.

Lemma lex_opb_text cls : lex_file (opb_text cls) = opb_lines cls.
Proof.
  unfold opb_text, opb_lines, join_lines.
  destruct (rev cls) as [|c r] eqn:E; [reflexivity|].
  rewrite lex_file_join, map_map; [|apply all_no_nl_map, no_nl_opb_clause_text|discriminate].
  apply map_ext, lex_opb_clause_text.
Qed.

(** [combine_and_save_opb] *)
Theorem lex_opb_file_text cls reqs : lex_file (opb_file_text cls reqs) = opb_file cls reqs.
Proof.
  unfold opb_file_text, opb_file, opb_file_with. unfold lex_file at 1.
  rewrite lines_requests, map_app, map_map. f_equal; [apply lex_opb_text|].
  apply map_ext, lex_request_body.
Qed.

(** [sample_ilp.update_file] *)
Lemma ilp_update_text_eq f sol :
  ilp_update_text f sol
  = f +s+ String nl (constraint_text (flat_map term_words sol) "<="
                                     (Z.of_nat (length sol) - 1 - count_neg sol) EmptyString
                     +s+ String nl EmptyString).
Proof.
  unfold ilp_update_text, constraint_text.
  rewrite (map_ext _ _ ilp_term_text_eq), join_opb_terms.
  rewrite !app_assoc_s. cbn [String.append sp nl_s]. rewrite !app_assoc_s. reflexivity.
Qed.

Theorem lex_ilp_update_text f sol :
  lex_file (ilp_update_text f sol) = ilp_update (lex_file f) sol.
Proof.
  rewrite ilp_update_text_eq, lex_file_app_nl_gen. unfold ilp_update. f_equal.
  rewrite lex_file_app_nl.
  2:{ apply no_nl_constraint; [apply words_flat_map, words_term| |]; reflexivity. }
  rewrite lex_constraint by (apply words_flat_map, words_term || reflexivity).
  unfold ilp_block_line. rewrite toks_terms.
  rewrite (flat_map_ext _ _ (fun x => eq_sym (OpbProofs.ilp_term_opb x))). reflexivity.
Qed.

(** * Sampler output ([call_unigen_python], [call_cmsgen_python]) *)

Lemma lex_sample_lines {A} (mk_text : A -> string) (mk_line : A -> line) xs :
  (forall x, no_nl (mk_text x) = true) -> (forall x, lex_line (mk_text x) = mk_line x) -> xs <> [] ->
  lex_file (join nl_s (map mk_text xs) +s+ nl_s) = map mk_line xs ++ [[]].
Proof.
  intros Hn Hl Hx. unfold nl_s at 2. rewrite lex_file_app_nl_gen.
  rewrite lex_file_join, map_map; [|now apply all_no_nl_map|destruct xs; [congruence|discriminate]].
  f_equal. now apply map_ext.
Qed.

Definition sample_text (lits : list Z) (term : string) : string :=
  "v" +s+ String " " (join sp (map string_of_Z lits) +s+ sp +s+ term).

Lemma sample_text_eq lits term :
  sample_text lits term
  = "v" +s+ sp +s+ join sp (map string_of_Z lits) +s+ sp +s+ term.
Proof. reflexivity. Qed.

Lemma lex_sample_text lits term :
  is_word_s term = true ->
  lex_line (sample_text lits term) = TW "v" :: map TI lits ++ [tok_of_string term].
Proof.
  intros H. rewrite sample_text_eq, lex_line_cons, lex_line_join_app by first [apply words_map_Z | reflexivity].
  now rewrite lex_line_word, map_tok_Z.
Qed.

Lemma no_nl_sample_text lits term : no_nl term = true -> no_nl (sample_text lits term) = true.
Proof.
  intros H. now rewrite sample_text_eq, no_nl_cons, no_nl_join_app by first [apply words_map_Z | reflexivity].
Qed.

Theorem lex_unigen_format_text samples : lex_file (unigen_format_text samples) = unigen_format samples.
Proof.
  unfold unigen_format_text, unigen_format. destruct samples as [|s r]; [reflexivity|].
  apply (lex_sample_lines unigen_sample_text); [| |discriminate].
  - intros x. exact (no_nl_sample_text x "0:1" eq_refl).
  - intros x. exact (lex_sample_text x "0:1" eq_refl).
Qed.

Theorem lex_cmsgen_format_text ss sols :
  sols <> [] -> lex_file (cmsgen_format_text ss sols) = cmsgen_format ss sols.
Proof.
  intros H. unfold cmsgen_format_text, cmsgen_format.
  apply (lex_sample_lines (cmsgen_sample_text ss)); [| |exact H].
  - intros x. exact (no_nl_sample_text _ "0" eq_refl).
  - intros x. exact (lex_sample_text _ "0" eq_refl).
Qed.

(** Without any solution [call_cmsgen_python] returns ["\n"], one blank line more
    than the token-level [cmsgen_format] has; both parse to no sample. *)
Lemma lex_cmsgen_format_text_nil ss : lex_file (cmsgen_format_text ss []) = [[]; []].
Proof. reflexivity. Qed.
