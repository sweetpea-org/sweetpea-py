(** Proofs about the character layer Text/Chars.v: [int(str(z)) = z],
    [' '.join(toks).split() = toks], [str(z)] is a word (non-empty, no blank, no
    newline), [split('\n')] of newline-joined lines, [replace('\n', x, 1)]. *)
From Coq Require Import String Ascii ZArith List Bool Lia.
From SP Require Import Text.Chars.
Import ListNotations.
Open Scope Z_scope.

Lemma app_assoc_s a b c : (a +s+ b) +s+ c = a +s+ (b +s+ c).
Proof. induction a as [|x a IH]; cbn [String.append]; [reflexivity|now rewrite IH]. Qed.

Lemma app_nil_r_s a : a +s+ EmptyString = a.
Proof. induction a as [|x a IH]; cbn [String.append]; [reflexivity|now rewrite IH]. Qed.

Lemma str_forall_app p a b : str_forall p (a +s+ b) = str_forall p a && str_forall p b.
Proof.
  induction a as [|x a IH]; cbn [String.append str_forall]; [reflexivity|].
  now rewrite IH, andb_assoc.
Qed.

Lemma str_forall_impl (p q : ascii -> bool) s :
  (forall c, p c = true -> q c = true) -> str_forall p s = true -> str_forall q s = true.
Proof.
  intros H. induction s as [|x s IH]; cbn [str_forall]; [reflexivity|].
  rewrite !andb_true_iff. intros [A B]. split; [now apply H|now apply IH].
Qed.

Lemma str_forall_String p c s :
  str_forall p (String c s) = true <-> p c = true /\ str_forall p s = true.
Proof. apply andb_true_iff. Qed.

Lemma no_ws_String c s : no_ws (String c s) = true <-> is_ws c = false /\ no_ws s = true.
Proof. unfold no_ws. now rewrite str_forall_String, negb_true_iff. Qed.

Lemma no_nl_String c s : no_nl (String c s) = true <-> Ascii.eqb c nl = false /\ no_nl s = true.
Proof. unfold no_nl. now rewrite str_forall_String, negb_true_iff. Qed.

Definition is_digit (c : ascii) : bool := match digit_val c with Some _ => true | None => false end.

Lemma digit_val_char d : 0 <= d < 10 -> digit_val (digit_char d) = Some d.
Proof.
  intros H.
  assert (C : d = 0 \/ d = 1 \/ d = 2 \/ d = 3 \/ d = 4 \/ d = 5 \/ d = 6 \/ d = 7 \/ d = 8 \/ d = 9) by lia.
  repeat (destruct C as [-> | C]; [reflexivity|]). now subst.
Qed.

(** [digit_char] tests [d] against 0..8 bit by bit; anything else is ["9"]. *)
Lemma is_digit_char d : is_digit (digit_char d) = true.
Proof.
  destruct d as [|p|p]; [reflexivity| |reflexivity].
  destruct p as [p|p|]; try reflexivity; destruct p as [p|p|]; try reflexivity;
    destruct p as [p|p|]; try reflexivity; destruct p; reflexivity.
Qed.

Lemma is_digit_neq c x : is_digit c = true -> is_digit x = false -> Ascii.eqb c x = false.
Proof. intros Hc Hx. destruct (Ascii.eqb_spec c x) as [->|_]; [congruence|reflexivity]. Qed.

Lemma is_digit_not_ws c : is_digit c = true -> is_ws c = false.
Proof. intros H. unfold is_ws. now rewrite !(is_digit_neq c _ H) by reflexivity. Qed.

Lemma is_digit_not_nl c : is_digit c = true -> Ascii.eqb c nl = false.
Proof. intros H. now apply is_digit_neq. Qed.

Definition all_digits (s : string) : bool := str_forall is_digit s.

Lemma nat_digits_forall p f : forall n acc,
  (forall d, p (digit_char d) = true) -> str_forall p acc = true ->
  str_forall p (nat_digits f n acc) = true.
Proof.
  induction f as [|f IH]; intros n acc Hp Hacc; cbn [nat_digits]; [exact Hacc|].
  destruct (n <? 10).
  - cbn [str_forall]. now rewrite Hp, Hacc.
  - apply IH; [exact Hp|]. cbn [str_forall]. now rewrite Hp, Hacc.
Qed.

Lemma string_of_nonneg_digits n : all_digits (string_of_nonneg n) = true.
Proof. apply nat_digits_forall; [apply is_digit_char|reflexivity]. Qed.

Lemma nat_digits_cons f : forall n d acc,
  exists d' r, nat_digits f n (String (digit_char d) acc) = String (digit_char d') r.
Proof.
  induction f as [|f IH]; intros n d acc; cbn [nat_digits]; [now exists d, acc|].
  destruct (n <? 10); [now eexists _, _|]. apply IH.
Qed.

(** [str(n)] for [n >= 0] begins with a digit: it is not empty. *)
Lemma string_of_nonneg_first n : exists d r, string_of_nonneg n = String (digit_char d) r.
Proof.
  unfold string_of_nonneg. cbn [nat_digits].
  destruct (n <? 10); [now eexists _, _|]. apply nat_digits_cons.
Qed.

Lemma digits_val_nat_digits f : forall n acc prev,
  0 <= n < 2 ^ Z.of_nat (S f) ->
  digits_val prev 0 (nat_digits (S f) n acc) = digits_val true n acc.
Proof.
  assert (U : forall g n acc, nat_digits (S g) n acc
                = if n <? 10 then String (digit_char (n mod 10)) acc
                  else nat_digits g (n / 10) (String (digit_char (n mod 10)) acc)) by reflexivity.
  induction f as [|f IH]; intros n acc prev Hn; rewrite U; destruct (n <? 10) eqn:E.
  1,3: cbn [digits_val]; rewrite digit_val_char by (apply Z.mod_pos_bound; lia);
    rewrite Z.mod_small by lia; f_equal; lia.
  - change (2 ^ Z.of_nat 1) with 2 in Hn. lia.
  - rewrite IH.
    + cbn [digits_val]. rewrite digit_val_char by (apply Z.mod_pos_bound; lia).
      f_equal. pose proof (Z.div_mod n 10). lia.
    + rewrite (Nat2Z.inj_succ (S f)), Z.pow_succ_r in Hn by lia.
      split; [apply Z.div_pos; lia|apply Z.div_lt_upper_bound; lia].
Qed.

Lemma digits_val_string_of_nonneg n prev :
  0 <= n -> digits_val prev 0 (string_of_nonneg n) = Some n.
Proof.
  intros Hn. unfold string_of_nonneg. rewrite digits_val_nat_digits; [reflexivity|].
  split; [exact Hn|].
  rewrite Nat2Z.inj_succ, Z2Nat.id by apply Z.log2_nonneg.
  destruct (Z.eq_dec n 0) as [->|Hz]; [reflexivity|].
  apply (Z.log2_spec n). lia.
Qed.

Lemma string_of_Z_forall p z :
  (forall c, is_digit c = true -> p c = true) -> p "-"%char = true ->
  str_forall p (string_of_Z z) = true.
Proof.
  intros Hd Hm. unfold string_of_Z.
  destruct (z <? 0); cbn [str_forall]; [rewrite Hm; cbn [andb]|];
    (eapply str_forall_impl; [exact Hd|apply string_of_nonneg_digits]).
Qed.

Lemma string_of_Z_no_ws z : no_ws (string_of_Z z) = true.
Proof.
  apply string_of_Z_forall; [|reflexivity].
  intros c H. now rewrite is_digit_not_ws.
Qed.

Lemma string_of_Z_no_nl z : no_nl (string_of_Z z) = true.
Proof.
  apply string_of_Z_forall; [|reflexivity].
  intros c H. now rewrite is_digit_not_nl.
Qed.

Lemma string_of_Z_nonempty z : string_of_Z z <> EmptyString.
Proof.
  unfold string_of_Z. destruct (z <? 0); [discriminate|].
  destruct (string_of_nonneg_first z) as [d [r E]]. rewrite E. discriminate.
Qed.

(** [str(z)] is a word: [split()] cannot cut it or drop it. *)
Theorem string_of_Z_word z : is_word_s (string_of_Z z) = true.
Proof.
  pose proof (string_of_Z_no_ws z) as H. pose proof (string_of_Z_nonempty z) as N.
  unfold is_word_s. destruct (string_of_Z z); [congruence|exact H].
Qed.

Lemma rstrip_p_none p s : str_forall (fun c => negb (p c)) s = true -> rstrip_p p s = s.
Proof.
  induction s as [|c r IH]; [reflexivity|]. cbn [str_forall rstrip_p].
  rewrite andb_true_iff, negb_true_iff. intros [Hc Hr]. rewrite (IH Hr).
  destruct r; [now rewrite Hc|reflexivity].
Qed.

Lemma strip_p_none p s : str_forall (fun c => negb (p c)) s = true -> strip_p p s = s.
Proof.
  intros H. unfold strip_p.
  assert (L : lstrip_p p s = s).
  { destruct s as [|c r]; [reflexivity|]. apply str_forall_String in H.
    destruct H as [Hc _]. apply negb_true_iff in Hc. cbn [lstrip_p]. now rewrite Hc. }
  rewrite L. now apply rstrip_p_none.
Qed.

Lemma strip_no_ws s : no_ws s = true -> strip s = s.
Proof. apply strip_p_none. Qed.

Lemma is_cspace_ws c : is_cspace c = true -> is_ws c = true.
Proof.
  intros H.
  change (is_ws c) with (is_cspace c || Ascii.eqb c "028" || Ascii.eqb c "029"
                         || Ascii.eqb c "030" || Ascii.eqb c "031").
  now rewrite H.
Qed.

Lemma strip_c_no_ws s : no_ws s = true -> strip_p is_cspace s = s.
Proof.
  intros H. apply strip_p_none. eapply str_forall_impl; [|exact H].
  intros c Hc. cbv beta in *. apply negb_true_iff in Hc. apply negb_true_iff.
  destruct (is_cspace c) eqn:E; [|reflexivity]. apply is_cspace_ws in E. congruence.
Qed.

(** * int(str(z)) = z *)

Lemma Z_of_string_unsigned s c r :
  strip_p is_cspace s = String c r -> c <> "-"%char -> c <> "+"%char ->
  Z_of_string s = digits_val false 0 (String c r).
Proof.
  intros E H1 H2. unfold Z_of_string. rewrite E.
  (* the sign test reads the bits of [c] in order; "-" is 10110100, "+" is
     11010100: stop at the first bit that fits neither *)
  destruct c as [b0 b1 b2 b3 b4 b5 b6 b7]. destruct b0; [|reflexivity].
  destruct b1, b2; try reflexivity;
    (destruct b3; [|reflexivity]; destruct b4; [reflexivity|]; destruct b5; [|reflexivity];
     destruct b6; [reflexivity|]; destruct b7; [reflexivity|congruence]).
Qed.

Theorem Z_of_string_of_Z z : Z_of_string (string_of_Z z) = Some z.
Proof.
  pose proof (strip_c_no_ws _ (string_of_Z_no_ws z)) as S.
  unfold string_of_Z in *. destruct (z <? 0) eqn:E.
  - unfold Z_of_string. rewrite S. rewrite digits_val_string_of_nonneg by lia.
    f_equal. lia.
  - destruct (string_of_nonneg_first z) as [d [r F]]. rewrite F in S.
    rewrite F, (Z_of_string_unsigned _ _ _ S).
    + rewrite <- F. apply digits_val_string_of_nonneg. lia.
    + intros G. pose proof (is_digit_char d) as D. now rewrite G in D.
    + intros G. pose proof (is_digit_char d) as D. now rewrite G in D.
Qed.

(** [str] is injective (a consequence of the round trip). *)
Lemma string_of_Z_inj a b : string_of_Z a = string_of_Z b -> a = b.
Proof.
  intros H. pose proof (Z_of_string_of_Z a) as A. rewrite H, Z_of_string_of_Z in A. congruence.
Qed.

(** [str(z)[0] == '-'] iff [z < 0] (the test made by the OPB writers). *)
Lemma string_of_Z_sign z :
  match string_of_Z z with String c _ => Ascii.eqb c "-" | EmptyString => false end = (z <? 0).
Proof.
  unfold string_of_Z. destruct (z <? 0); [reflexivity|].
  destruct (string_of_nonneg_first z) as [d [r F]]. rewrite F.
  apply is_digit_neq; [apply is_digit_char|reflexivity].
Qed.

Lemma string_of_Z_neg z : z < 0 -> string_of_Z z = String "-" (string_of_Z (- z)).
Proof.
  intros H. unfold string_of_Z. replace (z <? 0) with true by lia.
  now replace (- z <? 0) with false by lia.
Qed.

Lemma split_go_word w s :
  no_ws w = true ->
  split_go (w +s+ s) = (w +s+ fst (split_go s), snd (split_go s)).
Proof.
  induction w as [|c r IH]; intros H; cbn [String.append].
  - now destruct (split_go s).
  - apply no_ws_String in H. destruct H as [Hc Hr].
    cbn [split_go]. now rewrite (IH Hr), Hc.
Qed.

Lemma is_word_no_ws w : is_word_s w = true -> no_ws w = true.
Proof. destruct w; [discriminate|auto]. Qed.

Lemma flush_word w ws : is_word_s w = true -> flush w ws = w :: ws.
Proof. destruct w; [discriminate|reflexivity]. Qed.

Lemma split_ws_cons w c rest :
  is_word_s w = true -> is_ws c = true ->
  split_ws (w +s+ String c rest) = w :: split_ws rest.
Proof.
  intros Hw Hc. unfold split_ws.
  rewrite (split_go_word _ _ (is_word_no_ws _ Hw)). cbn [split_go fst snd].
  destruct (split_go rest) as [w' ws']. rewrite Hc. cbn [fst snd].
  rewrite app_nil_r_s. now rewrite flush_word.
Qed.

Lemma split_ws_single w : is_word_s w = true -> split_ws w = [w].
Proof.
  intros Hw. unfold split_ws. rewrite <- (app_nil_r_s w) at 1.
  rewrite (split_go_word _ _ (is_word_no_ws _ Hw)). cbn [split_go fst snd].
  rewrite app_nil_r_s. now rewrite flush_word.
Qed.

Lemma split_ws_lead c rest : is_ws c = true -> split_ws (String c rest) = split_ws rest.
Proof.
  intros Hc. unfold split_ws. cbn [split_go]. destruct (split_go rest) as [w ws].
  rewrite Hc. reflexivity.
Qed.

Lemma split_go_ext s a b : split_go a = split_go b -> split_go (s +s+ a) = split_go (s +s+ b).
Proof.
  intros H. induction s as [|c r IH]; cbn [String.append split_go]; [exact H|now rewrite IH].
Qed.

Lemma split_ws_trail s c : is_ws c = true -> split_ws (s +s+ String c EmptyString) = split_ws s.
Proof.
  intros Hc. unfold split_ws.
  rewrite (split_go_ext s (String c EmptyString) EmptyString).
  - now rewrite app_nil_r_s.
  - cbn [split_go]. now rewrite Hc.
Qed.

Definition words (l : list string) : Prop := Forall (fun w => is_word_s w = true) l.

(** [' '.join(toks).split() == toks] *)
Theorem split_ws_join toks : words toks -> split_ws (join sp toks) = toks.
Proof.
  induction toks as [|w r IH]; intros H; [reflexivity|].
  inversion H as [|? ? Hw Hr]; subst.
  destruct r as [|w2 r2]; [now apply split_ws_single|].
  change (join sp (w :: w2 :: r2)) with (w +s+ sp +s+ join sp (w2 :: r2)).
  unfold sp at 1. cbn [String.append].
  rewrite split_ws_cons by (exact Hw || reflexivity). now rewrite (IH Hr).
Qed.

Lemma join_cons sep a l : l <> [] -> join sep (a :: l) = a +s+ sep +s+ join sep l.
Proof. destruct l; [congruence|reflexivity]. Qed.

Lemma join_snoc sep l w :
  l <> [] -> join sep l +s+ sep +s+ w = join sep (l ++ [w]).
Proof.
  induction l as [|a r IH]; intros H; [congruence|].
  destruct r as [|b r2]; [reflexivity|].
  change (join sep (a :: b :: r2)) with (a +s+ sep +s+ join sep (b :: r2)).
  change ((a :: b :: r2) ++ [w]) with (a :: (b :: r2 ++ [w])).
  change (join sep (a :: b :: r2 ++ [w])) with (a +s+ sep +s+ join sep ((b :: r2) ++ [w])).
  rewrite <- IH by discriminate. now rewrite !app_assoc_s.
Qed.

Lemma words_map_Z l : words (map string_of_Z l).
Proof. apply Forall_map, Forall_forall. intros z _. apply string_of_Z_word. Qed.

Lemma words_app a b : words a -> words b -> words (a ++ b).
Proof. intros. now apply Forall_app. Qed.

Theorem split_ws_join_app l rest :
  words l -> split_ws (join sp l +s+ sp +s+ rest) = l ++ split_ws rest.
Proof.
  induction l as [|a r IH]; intros H.
  - cbn [join String.append sp app]. now apply split_ws_lead.
  - inversion H as [|? ? Ha Hr]; subst. destruct r as [|b r2].
    + cbn [join sp String.append app]. now apply split_ws_cons.
    + change (join sp (a :: b :: r2)) with (a +s+ sp +s+ join sp (b :: r2)).
      rewrite !app_assoc_s. unfold sp at 1. cbn [String.append].
      rewrite split_ws_cons by (exact Ha || reflexivity).
      cbn [app]. f_equal. exact (IH Hr).
Qed.

(** a line of words, a blank, one more word: the shape [' '.join(ws) + ' ' + w]
    of every clause / constraint line (also when [ws] is empty: the line then
    begins with a blank). *)
Theorem split_ws_join_snoc l w :
  words l -> is_word_s w = true -> split_ws (join sp l +s+ sp +s+ w) = l ++ [w].
Proof. intros Hl Hw. now rewrite split_ws_join_app, split_ws_single. Qed.

Theorem split_ws_clause_line (c : list Z) :
  split_ws (join sp (map string_of_Z c) +s+ sp +s+ string_of_Z 0) = map string_of_Z (c ++ [0]).
Proof.
  rewrite map_app. apply split_ws_join_snoc; [apply words_map_Z|apply string_of_Z_word].
Qed.

(** ... and reading the tokens back with [int] gives the literals and the 0. *)
Fixpoint map_opt_s {B : Type} (f : string -> option B) (l : list string) : option (list B) :=
  match l with
  | [] => Some []
  | a :: r =>
    match f a, map_opt_s f r with
    | Some b, Some bs => Some (b :: bs)
    | _, _ => None
    end
  end.

Theorem ints_of_clause_line (c : list Z) :
  map_opt_s Z_of_string (split_ws (join sp (map string_of_Z c) +s+ sp +s+ string_of_Z 0))
  = Some (c ++ [0]).
Proof.
  rewrite split_ws_clause_line. induction (c ++ [0]) as [|z r IH]; [reflexivity|].
  cbn [map map_opt_s]. now rewrite Z_of_string_of_Z, IH.
Qed.

Lemma lines_go_app a s :
  no_nl a = true -> lines_go (a +s+ s) = (a +s+ fst (lines_go s), snd (lines_go s)).
Proof.
  induction a as [|c r IH]; intros H; cbn [String.append].
  - now destruct (lines_go s).
  - apply no_nl_String in H. destruct H as [Hc Hr].
    cbn [lines_go]. now rewrite (IH Hr), Hc.
Qed.

Theorem lines_no_nl a : no_nl a = true -> lines a = [a].
Proof.
  intros H. unfold lines. rewrite <- (app_nil_r_s a) at 1. rewrite (lines_go_app _ _ H).
  cbn [lines_go fst snd]. now rewrite app_nil_r_s.
Qed.

Theorem lines_app_nl_gen a b : lines (a +s+ String nl b) = lines a ++ lines b.
Proof.
  unfold lines. induction a as [|c r IH]; cbn [String.append lines_go].
  - now destruct (lines_go b).
  - destruct (lines_go (r +s+ String nl b)) as [l ls]. destruct (lines_go r) as [l' ls'].
    cbn [app] in IH. injection IH as -> ->. now destruct (Ascii.eqb c nl).
Qed.

Theorem lines_app_nl a b : no_nl a = true -> lines (a +s+ String nl b) = a :: lines b.
Proof. intros H. now rewrite lines_app_nl_gen, lines_no_nl. Qed.

Lemma lines_nl b : lines (String nl b) = EmptyString :: lines b.
Proof. exact (lines_app_nl_gen EmptyString b). Qed.

Theorem replace_first_nl_app a b x :
  no_nl a = true -> replace_first_nl (a +s+ String nl b) x = a +s+ x +s+ b.
Proof.
  induction a as [|c r IH]; intros H; cbn [String.append replace_first_nl].
  - now rewrite Ascii.eqb_refl.
  - apply no_nl_String in H. destruct H as [Hc Hr]. now rewrite Hc, (IH Hr).
Qed.

Lemma no_nl_app a b : no_nl (a +s+ b) = no_nl a && no_nl b.
Proof. apply str_forall_app. Qed.

Lemma nl_is_ws c : Ascii.eqb c nl = true -> is_ws c = true.
Proof. intros H. apply Ascii.eqb_eq in H. now subst. Qed.

Lemma not_ws_not_nl c : is_ws c = false -> Ascii.eqb c nl = false.
Proof. intros H. destruct (Ascii.eqb c nl) eqn:E; [|reflexivity]. apply nl_is_ws in E. congruence. Qed.

Lemma word_no_nl w : is_word_s w = true -> no_nl w = true.
Proof.
  intros H. apply is_word_no_ws in H. eapply str_forall_impl; [|exact H].
  intros c Hc. cbv beta in *. apply negb_true_iff in Hc. apply negb_true_iff. now apply not_ws_not_nl.
Qed.

(** [' '.join(a(x) + ' ' + b(x) for x in l)] is [' '.join] of the flattened words *)
Lemma join_pairs {A} (a b : A -> string) l :
  join sp (map (fun x => a x +s+ sp +s+ b x) l) = join sp (flat_map (fun x => [a x; b x]) l).
Proof.
  induction l as [|x r IH]; [reflexivity|].
  destruct r as [|y r2]; [reflexivity|].
  change (map ?f (x :: y :: r2)) with (f x :: map f (y :: r2)).
  rewrite (join_cons sp _ (map _ (y :: r2))) by discriminate.
  rewrite IH. cbn [flat_map app]. rewrite !app_assoc_s. reflexivity.
Qed.
