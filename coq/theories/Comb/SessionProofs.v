(** C13: what the statements about the two dispatchers of the prefix sampler
    ([count_prefixes_of_permutations_with_copies],
    [compute_jth_prefix_of_permutations_with_copies]) and about sessions of
    calls on one shared memo table are made of ([dispatch_rank],
    [op_in_range], [op_result_ok]), and the binomial theorem for the Pascal
    [binom]: the uniform branch [first_n <= m] counts [q ^ first_n].  The
    theorems themselves are in [TotalProofs]. *)
From Coq Require Import ZArith List Bool Lia ZifyBool.
From SP Require Import Comb.CombModel Comb.CombSpec Comb.BinomFacts Comb.RadixProofs
  Comb.MultiProofs Comb.PrefixProofs Comb.StackProofs Comb.DispatchProofs.
Import ListNotations.
Open Scope Z_scope.

(** * The binomial theorem: sum_u C(n,u) x^(n-u) = (x+1)^n *)

Lemma zsum_map_scale : forall (A : Type) (c : Z) (g : A -> Z) l,
  zsum (map (fun u => c * g u) l) = c * zsum (map g l).
Proof.
  intros A c g l. induction l as [|a l IH]; cbn [map zsum]; [lia|]. rewrite IH. lia.
Qed.

Lemma zsum_map_zero : forall (A : Type) (g : A -> Z) l,
  (forall u, In u l -> g u = 0) -> zsum (map g l) = 0.
Proof.
  intros A g l. induction l as [|a l IH]; intros H; cbn [map zsum]; [reflexivity|].
  rewrite H by (left; reflexivity). rewrite IH; [reflexivity|].
  intros u Hu. apply H. right. exact Hu.
Qed.

(** the general term; for [u > n] the coefficient is [0] (and the negative
    exponent makes the power [0] too) *)
Definition bterm (x : Z) (n u : nat) : Z := binom n u * x ^ (Z.of_nat n - Z.of_nat u).

Lemma bterm_S_0 : forall x n, bterm x (S n) 0 = x * bterm x n 0.
Proof.
  intros x n. unfold bterm. rewrite !binom_n_0.
  replace (Z.of_nat (S n) - Z.of_nat 0) with (Z.succ (Z.of_nat n - Z.of_nat 0)) by lia.
  rewrite Z.pow_succ_r by lia. lia.
Qed.

Lemma bterm_S_S : forall x n u, bterm x (S n) (S u) = bterm x n u + x * bterm x n (S u).
Proof.
  intros x n u. unfold bterm. rewrite binom_S_S.
  replace (Z.of_nat (S n) - Z.of_nat (S u)) with (Z.of_nat n - Z.of_nat u) by lia.
  destruct (le_lt_dec n u) as [H|H].
  - rewrite (binom_gt n (S u)) by lia. lia.
  - replace (Z.of_nat n - Z.of_nat u) with (Z.succ (Z.of_nat n - Z.of_nat (S u))) by lia.
    rewrite Z.pow_succ_r by lia. ring.
Qed.

Lemma zsum_seq_S : forall (g : nat -> Z) k,
  zsum (map g (seq 0 (S k))) = g 0%nat + zsum (map (fun u => g (S u)) (seq 0 k)).
Proof.
  intros g k. cbn [seq map zsum]. rewrite <- seq_shift, map_map. reflexivity.
Qed.

Theorem binomial_theorem : forall (x : Z) (n k : nat), (n < k)%nat ->
  zsum (map (bterm x n) (seq 0 k)) = (x + 1) ^ Z.of_nat n.
Proof.
  intros x. induction n as [|n IH]; intros k Hk.
  - destruct k as [|k]; [lia|]. rewrite zsum_seq_S.
    rewrite zsum_map_zero.
    + unfold bterm. cbn. reflexivity.
    + intros u _. unfold bterm. cbn [binom]. lia.
  - destruct k as [|k]; [lia|]. rewrite zsum_seq_S.
    rewrite (map_ext _ (fun u => bterm x n u + x * bterm x n (S u))) by (intros; apply bterm_S_S).
    rewrite zsum_map_add, zsum_map_scale, bterm_S_0, (IH k) by lia.
    pose proof (IH (S k) ltac:(lia)) as H. rewrite zsum_seq_S in H.
    rewrite Nat2Z.inj_succ, Z.pow_succ_r, <- H by lia. ring.
Qed.

(** no bound can be reached: the clean count is [q ^ need] *)

Theorem cnt_uniform_small : forall (q : nat) (m need : Z), 0 <= need <= m ->
  cnt (repeat m q) need = Z.of_nat q ^ need.
Proof.
  induction q as [|q IH]; intros m need H.
  - cbn [repeat]. rewrite cnt_nil. destruct (need =? 0) eqn:E.
    + assert (need = 0) by lia. subst need. reflexivity.
    + cbn [Z.of_nat]. rewrite Z.pow_0_l by lia. reflexivity.
  - cbn [repeat].
    pose proof (cnt_cons_sum m (repeat m q) need 1) as Hs. rewrite Z.mul_1_r in Hs. rewrite Hs.
    replace (Z.min m need + 1) with (Z.of_nat (S (Z.to_nat need))) by lia. rewrite Nat2Z.id.
    rewrite (map_ext_in _ (bterm (Z.of_nat q) (Z.to_nat need))).
    + rewrite binomial_theorem by lia. rewrite Z2Nat.id by lia.
      replace (Z.of_nat q + 1) with (Z.of_nat (S q)) by lia. reflexivity.
    + intros u Hu. apply in_seq in Hu. unfold subtree_size, bterm.
      rewrite IH by lia. rewrite binomZ_eq_binom by lia. rewrite Nat2Z.id, Z2Nat.id by lia. ring.
Qed.

Definition small_branch (mc : moc) (first_n : Z) : bool :=
  match mc with Uniform m => first_n <=? m | Counters _ => false end.
Definition dispatch_rank (q : Z) (mc : moc) (first_n : Z) (w : list Z) : Z :=
  if small_branch mc first_n then comb_rank q w else prefix_rank (cs_of q mc) w.

Lemma params_ok_q_nonneg : forall q mc, params_ok q mc -> 0 <= q.
Proof. intros q mc [H _]. lia. Qed.

Lemma params_ok_uniform_m : forall q m, params_ok q (Uniform m) -> 0 < q -> 0 <= m.
Proof.
  intros q m [_ H] Hq. cbn [cs_of] in H.
  destruct (Z.to_nat q) as [|k] eqn:E; [lia|]. cbn [repeat] in H. inversion H; assumption.
Qed.

(** the memoised recursion with no symbols at all *)
Lemma recur_count_prefixes_q0 : forall m first_n memo,
  recur_count_prefixes_of_permutations_with_copies 0 m first_n memo =
  Ok (cnt [] first_n, memo).
Proof.
  intros m first_n memo. unfold recur_count_prefixes_of_permutations_with_copies.
  rewrite recur_count_S, cnt_nil. destruct (first_n =? 0); reflexivity.
Qed.

Lemma prefix_unrank_bij : forall cs first_n j w,
  Forall (fun c => 0 <= c) cs -> 0 <= first_n -> 0 <= j < cnt cs first_n ->
  prefix_unrank cs first_n j = Some w ->
  bounded_word cs first_n w /\ prefix_rank cs w = j.
Proof.
  intros cs first_n j w Hcs Hn Hj Hu.
  destruct (prefix_copies_bij cs first_n Hcs Hn) as [H1 _].
  destruct (H1 j Hj) as (w' & Hu' & Hb & Hr). rewrite Hu in Hu'. inversion Hu'; subst w'.
  split; assumption.
Qed.

Definition op_in_range (q : Z) (mc : moc) (op : memo_op) : Prop :=
  match op with
  | OpCount fn => 0 <= fn
  | OpUnrank fn j => 0 <= fn /\ 0 <= j < cnt (cs_of q mc) fn
  end.
Definition op_result_ok (q : Z) (mc : moc) (op : memo_op) (r : res kres) : Prop :=
  match r with
  | Err _ => True
  | Ok v => match op with
            | OpCount fn => v = KCount (cnt (cs_of q mc) fn)
            | OpUnrank fn j => exists w, v = KPerm w /\ bounded_word (cs_of q mc) fn w /\ dispatch_rank q mc fn w = j
            end
  end.

(** the statements are not vacuous: a session mixing both calls on the uniform
    large branch, on the small branch and on explicit counters *)
Example session_example :
  memo_session 3 (Uniform 2) [OpCount 4; OpUnrank 4 17; OpCount 2; OpUnrank 2 5] [] =
  ([Ok (KCount 54); Ok (KPerm [2; 2; 1; 0]); Ok (KCount 9); Ok (KPerm [1; 2])],
   snd (memo_session 3 (Uniform 2) [OpCount 4] [])).
Proof. vm_compute. reflexivity. Qed.

Print Assumptions cnt_uniform_small.
