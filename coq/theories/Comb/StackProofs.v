(** The explicit-continuation-stack, memoised machine [krun]
    ([k_prefixes_of_permutations_with_copies]) and the memoised recursion
    [recur_count]: the setting ([cs_of], [params_ok], [memo_valid]), tests of
    the statements on small instances, the facts on [cnt] / [pick] / the memo
    table that the analysis of the machine in [TotalProofs] needs, the machine
    unfolded one step, and the memoised recursion [recur_count] against the
    clean [cnt] (with fuel beyond its depth it returns [Ok] with it; with any
    fuel, whenever it returns [Ok]). *)
From Coq Require Import ZArith List Bool Lia ZifyBool.
From SP Require Import Base.Lists Comb.CombModel Comb.CombSpec Comb.BinomFacts Comb.MultiProofs Comb.PrefixProofs.
Import ListNotations.
Open Scope Z_scope.

Local Notation nonneg cs := (Forall (fun c => 0 <= c) cs).

Definition cs_of (q : Z) (mc : moc) : list Z :=
  match mc with Counters cs => cs | Uniform m => repeat m (Z.to_nat q) end.

Definition params_ok (q : Z) (mc : moc) : Prop :=
  q = Z.of_nat (length (cs_of q mc)) /\ Forall (fun c => 0 <= c) (cs_of q mc).

(** every entry with a meaningful key holds the clean count of its suffix *)
Definition memo_valid (q : Z) (mc : moc) (memo : memo_t) : Prop :=
  forall s n v, memo_get (s, n) memo = Some v -> 0 <= s -> 0 < n ->
    v = cnt (skipn (Z.to_nat s) (cs_of q mc)) n.

(** * Tests of the statements on small instances *)
Definition test_count (q : Z) (mc : moc) (first_n : Z) : bool :=
  match k_prefixes_of_permutations_with_copies q mc first_n (-1) [] with
  | Ok (KCount z, _) => z =? cnt (cs_of q mc) first_n
  | _ => false
  end.
Definition list_eqb (a b : list Z) : bool :=
  (Nat.eqb (length a) (length b)) && forallb (fun p => fst p =? snd p) (combine a b).
Definition test_unrank (q : Z) (mc : moc) (first_n : Z) : bool :=
  forallb (fun j =>
    match k_prefixes_of_permutations_with_copies q mc first_n (Z.of_nat j) [],
          prefix_unrank (cs_of q mc) first_n (Z.of_nat j) with
    | Ok (KPerm w, _), Some w' => list_eqb w w'
    | _, _ => false
    end) (seq 0 (Z.to_nat (cnt (cs_of q mc) first_n))).
(** a session on a shared memo: count first, then unrank everything with the filled table *)
Definition test_unrank_shared (q : Z) (mc : moc) (first_n : Z) : bool :=
  match k_prefixes_of_permutations_with_copies q mc first_n (-1) [] with
  | Ok (_, memo) =>
    forallb (fun j =>
      match k_prefixes_of_permutations_with_copies q mc first_n (Z.of_nat j) memo,
            prefix_unrank (cs_of q mc) first_n (Z.of_nat j) with
      | Ok (KPerm w, _), Some w' => list_eqb w w'
      | _, _ => false
      end) (seq 0 (Z.to_nat (cnt (cs_of q mc) first_n)))
  | _ => false
  end.
Definition test_recur (q m first_n : Z) : bool :=
  match recur_count_prefixes_of_permutations_with_copies q m first_n [] with
  | Ok (z, _) => z =? cnt (repeat m (Z.to_nat q)) first_n
  | _ => false
  end.

Example test1 : test_count 3 (Counters [2;1;2]) 3 = true. Proof. vm_compute. reflexivity. Qed.
Example test2 : test_unrank 3 (Counters [2;1;2]) 3 = true. Proof. vm_compute. reflexivity. Qed.
Example test3 : test_unrank_shared 3 (Counters [2;1;2]) 3 = true. Proof. vm_compute. reflexivity. Qed.
Example test4 : test_unrank_shared 3 (Uniform 2) 4 = true. Proof. vm_compute. reflexivity. Qed.
Example test5 : test_count 4 (Uniform 2) 5 = true. Proof. vm_compute. reflexivity. Qed.
Example test6 : test_recur 4 2 5 = true. Proof. vm_compute. reflexivity. Qed.
Example test7 : test_unrank_shared 4 (Counters [0;2;0;3]) 4 = true. Proof. vm_compute. reflexivity. Qed.
Example test8 : cnt [2;1;2] 3 = 18. Proof. vm_compute. reflexivity. Qed.

Lemma count_interleavings_ok : forall v need, 0 <= v <= need ->
  count_interleavings v need = Ok (binomZ need v).
Proof.
  intros v need H. unfold count_interleavings.
  assert (Hnn : nonneg [need - v; v]) by (repeat constructor; lia).
  rewrite crp_eq_multinomial by exact Hnn. f_equal.
  pose proof (multinomial_pf [need - v; v] Hnn) as E. cbn [pf zsum] in E.
  replace (need - v + (v + 0)) with need in E by lia.
  unfold binomZ. rewrite <- E.
  replace (fact_nat (Z.to_nat (need - v)) * (fact_nat (Z.to_nat v) * 1))
    with (fact_nat (Z.to_nat v) * fact_nat (Z.to_nat (need - v))) by ring.
  symmetry. apply Z.div_mul.
  pose proof (fact_nat_pos (Z.to_nat v)). pose proof (fact_nat_pos (Z.to_nat (need - v))). nia.
Qed.

Lemma binomZ_0_0 : binomZ 0 0 = 1.
Proof. reflexivity. Qed.

Lemma cnt_zero : forall l, nonneg l -> cnt l 0 = 1.
Proof.
  induction 1 as [|c tl Hc Htl IH]; [reflexivity|].
  rewrite cnt_cons. replace (Z.to_nat (Z.min c 0 + 1)) with 1%nat by lia.
  rewrite cnt_loop_S. cbn [cnt_loop]. replace (0 - 0) with 0 by lia.
  rewrite IH, binomZ_0_0. reflexivity.
Qed.

Lemma cnt_loop_zero_terms : forall tl need k v acc,
  (forall u, v <= u < v + Z.of_nat k -> cnt tl (need - u) = 0) ->
  cnt_loop tl need k v acc = acc.
Proof.
  intros tl need. induction k as [|k IH]; intros v acc H; [reflexivity|].
  rewrite cnt_loop_S. rewrite (H v) by lia. rewrite IH by (intros u Hu; apply H; lia). lia.
Qed.

Lemma cnt_short : forall l, nonneg l -> forall need, 0 <= need -> zsum l < need -> cnt l need = 0.
Proof.
  induction 1 as [|c tl Hc Htl IH]; intros need Hn Hz.
  - rewrite cnt_nil. cbn [zsum] in Hz. destruct (need =? 0) eqn:E; lia.
  - cbn [zsum] in Hz. rewrite cnt_cons. apply cnt_loop_zero_terms.
    intros u Hu. apply IH; lia.
Qed.

Lemma cnt_loop_ge : forall tl need k v acc, acc <= cnt_loop tl need k v acc.
Proof.
  intros tl need. induction k as [|k IH]; intros v acc; [cbn [cnt_loop]; lia|].
  rewrite cnt_loop_S.
  pose proof (IH (v + 1) (acc + binomZ need v * cnt tl (need - v))).
  pose proof (binomZ_nonneg need v). pose proof (cnt_nonneg tl (need - v)). nia.
Qed.

Lemma pick_zero : forall l, nonneg l -> forall idx mult, 0 <= idx < mult ->
  pick l 0 idx mult = Some (repeat 0 (length l), idx).
Proof.
  induction 1 as [|c tl Hc Htl IH]; intros idx mult Hi.
  - rewrite pick_nil. cbn [Z.eqb length repeat].
    destruct ((true && (0 <=? idx)) && (idx <? mult)) eqn:E; [reflexivity|lia].
  - rewrite pick_cons. replace (Z.to_nat (Z.min c 0 + 1)) with 1%nat by lia.
    rewrite pick_loop_S. replace (0 - 0) with 0 by lia.
    rewrite cnt_zero by exact Htl. rewrite binomZ_0_0.
    replace (1 * (1 * mult)) with mult by lia. replace (1 * mult) with mult by lia.
    destruct (idx <? mult) eqn:E; [|lia].
    rewrite IH by exact Hi. reflexivity.
Qed.

Lemma key_eqb_true : forall a b c d, key_eqb (a, b) (c, d) = true <-> a = c /\ b = d.
Proof. intros. unfold key_eqb. cbn [fst snd]. lia. Qed.

Lemma key_eqb_refl : forall k, key_eqb k k = true.
Proof. intros [a b]. apply key_eqb_true. split; reflexivity. Qed.

Lemma key_eqb_trans_false : forall k k1 k2, key_eqb k k1 = false -> key_eqb k1 k2 = true -> key_eqb k k2 = false.
Proof. intros [a b] [c d] [e f]. unfold key_eqb. cbn [fst snd]. lia. Qed.

Lemma memo_get_remove : forall k k' m, key_eqb k' k = false ->
  memo_get k' (memo_remove k m) = memo_get k' m.
Proof.
  intros k k' m Hne. induction m as [|[k1 v1] t IH]; [reflexivity|].
  cbn [memo_remove memo_get]. destruct (key_eqb k k1) eqn:E1.
  - rewrite IH, (key_eqb_trans_false k' k k1 Hne E1). reflexivity.
  - cbn [memo_get]. rewrite IH. reflexivity.
Qed.

Lemma memo_get_set : forall k k' v m,
  memo_get k' (memo_set k v m) = if key_eqb k' k then Some v else memo_get k' m.
Proof.
  intros k k' v m. unfold memo_set. cbn [memo_get].
  destruct (key_eqb k' k) eqn:E; [reflexivity|]. apply memo_get_remove. exact E.
Qed.

Lemma memo_truthy_some : forall k m v, memo_truthy k m = Some v -> memo_get k m = Some v /\ v <> 0.
Proof.
  intros k m v H. unfold memo_truthy in H. destruct (memo_get k m) as [x|]; [|discriminate].
  destruct (x =? 0) eqn:E; [discriminate|]. inversion H; subst. split; [reflexivity|lia].
Qed.

Lemma memo_valid_nil : forall q mc, memo_valid q mc [].
Proof. intros q mc s n v H. discriminate. Qed.

Lemma memo_valid_set : forall q mc memo s n v,
  memo_valid q mc memo -> v = cnt (skipn (Z.to_nat s) (cs_of q mc)) n ->
  memo_valid q mc (memo_set (s, n) v memo).
Proof.
  intros q mc memo s n v Hv He s' n' v' Hg Hs Hn.
  rewrite memo_get_set in Hg. destruct (key_eqb (s', n') (s, n)) eqn:E.
  - apply key_eqb_true in E. destruct E; subst. inversion Hg; subst. reflexivity.
  - apply Hv; assumption.
Qed.

Lemma skipn_cons_inv : forall (l : list Z) i c tl, skipn i l = c :: tl ->
  (i < length l)%nat /\ c = nth i l 0 /\ tl = skipn (S i) l.
Proof.
  intros l i c tl H.
  assert (Hi : (i < length l)%nat).
  { destruct (le_lt_dec (length l) i) as [Hge|Hlt]; [|exact Hlt].
    rewrite skipn_all2 in H by exact Hge. discriminate. }
  rewrite (skipn_nth_cons l i 0 Hi) in H. inversion H; subst. repeat split. exact Hi.
Qed.

Lemma skipn_repeat : forall (m : Z) k i, skipn i (repeat m k) = repeat m (k - i).
Proof.
  intros m. induction k as [|k IH]; intros i; destruct i; cbn [skipn repeat Nat.sub]; try reflexivity.
  apply IH.
Qed.

Lemma available_after_ok : forall q mc i, params_ok q mc -> (i <= length (cs_of q mc))%nat ->
  available_after q mc (Z.of_nat i) = zsum (skipn i (cs_of q mc)).
Proof.
  intros q mc i [Hq _] Hi. destruct mc as [m|cs]; cbn [cs_of available_after] in *.
  - rewrite skipn_repeat, zsum_repeat. rewrite repeat_length in Hq, Hi.
    replace (Z.of_nat (Z.to_nat q - i)) with (q - Z.of_nat i) by lia. reflexivity.
  - rewrite Nat2Z.id, sumZ_zsum. reflexivity.
Qed.

Lemma available_at_ok : forall q mc i, (i < length (cs_of q mc))%nat ->
  available_at mc (Z.of_nat i) = Ok (nth i (cs_of q mc) 0).
Proof.
  intros q mc i Hi. destruct mc as [m|cs]; cbn [cs_of available_at] in *.
  - rewrite repeat_length in Hi. rewrite nth_repeat_lt by exact Hi. reflexivity.
  - destruct (Z.of_nat i <? 0) eqn:E; [lia|]. rewrite Nat2Z.id. apply get_nth. exact Hi.
Qed.

Lemma krun_nil : forall fuel q mc first_n value find memo,
  krun fuel q mc first_n [] value find memo = Ok (KCount value, memo).
Proof. intros. destruct fuel; reflexivity. Qed.

Lemma krun_DoRecord : forall f q mc first_n v s need count this_mult ks value find memo,
  krun (S f) q mc first_n (DoRecord v s need count this_mult :: ks) value find memo =
  krun f q mc first_n ks (count + value * this_mult) find
       (memo_set (s, need) (count + value * this_mult) memo).
Proof. reflexivity. Qed.

Lemma krun_DoNext : forall f q mc first_n v s need count b mult this_mult ks value find memo,
  krun (S f) q mc first_n (DoNext v s need count b mult this_mult :: ks) value find memo =
  (next_mult <- count_interleavings v need ;;
   aa <- available_at mc s ;;
   krun f q mc first_n
     (DoCount (s + 1) (need - v) (v :: b) (next_mult * mult)
      :: (if v <? Z.min aa need
          then DoNext (v + 1) s need (count + value * this_mult) b mult next_mult
          else DoRecord v s need (count + value * this_mult) next_mult) :: ks)
     value find memo).
Proof. reflexivity. Qed.

Lemma krun_DoCount : forall f q mc first_n s need b mult ks value find memo,
  krun (S f) q mc first_n (DoCount s need b mult :: ks) value find memo =
  if need =? 0 then
    if find >? -1 then
      if find <? mult then
        cs <- buckets_to_counters b q ;;
        p <- construct_with_copies find q first_n cs ;;
        Ok (KPerm p, memo)
      else krun f q mc first_n ks 1 (find - mult) memo
    else krun f q mc first_n ks 1 find memo
  else if s >=? q then krun f q mc first_n ks 0 find memo
  else if available_after q mc s <? need then krun f q mc first_n ks 0 find memo
  else
    match memo_truthy (s, need) memo with
    | Some mv =>
      if find >? -1 then
        if find <? mv * mult
        then krun f q mc first_n (DoNext 0 s need 0 b mult 0 :: ks) 0 find memo
        else krun f q mc first_n ks mv (find - mv * mult) memo
      else krun f q mc first_n ks mv find memo
    | None => krun f q mc first_n (DoNext 0 s need 0 b mult 0 :: ks) 0 find memo
    end.
Proof.
  intros. cbn [krun].
  destruct (need =? 0); [reflexivity|]. destruct (s >=? q); [reflexivity|].
  destruct (available_after q mc s <? need); [reflexivity|].
  destruct (memo_truthy (s, need) memo) as [mv|]; [|reflexivity].
  destruct (find >? -1); [|reflexivity]. destruct (find <? mv * mult); reflexivity.
Qed.

(** an [Ok] result does not depend on how much fuel was left over *)
Lemma krun_more_fuel : forall q mc first_n r f g, (f <= g)%nat -> forall ks value find memo,
  krun f q mc first_n ks value find memo = Ok r -> krun g q mc first_n ks value find memo = Ok r.
Proof.
  intros q mc first_n r. induction f as [|f IH]; intros g Hg ks value find memo H;
    (destruct ks as [|fr ks]; [rewrite krun_nil in *; exact H|]); [discriminate|].
  destruct g as [|g]; [lia|]. apply le_S_n in Hg. pose proof (IH g Hg) as IH'.
  destruct fr as [s need b mult|v s need count b mult tm|v s need count tm].
  - rewrite krun_DoCount in *.
    destruct (need =? 0); [destruct (find >? -1); [destruct (find <? mult)|]; auto|].
    destruct (s >=? q); [auto|]. destruct (available_after q mc s <? need); [auto|].
    destruct (memo_truthy (s, need) memo) as [mv|]; [|auto].
    destruct (find >? -1); [|auto]. destruct (find <? mv * mult); auto.
  - rewrite krun_DoNext in *. destruct (count_interleavings v need); [|discriminate].
    destruct (available_at mc s); [|discriminate]. cbn [bind] in *. auto.
  - rewrite krun_DoRecord in *. auto.
Qed.

Definition rc_loop (f : nat) (s need q m : Z) : nat -> Z -> Z -> memo_t -> res (Z * memo_t) :=
  fix loop (cnt : nat) (v combos : Z) (memo : memo_t) : res (Z * memo_t) :=
    match cnt with
    | O => Ok (combos, memo)
    | S cnt' =>
      r <- recur_count f (s + 1) (need - v) q m memo ;;
      ci <- count_interleavings v need ;;
      loop cnt' (v + 1) (combos + fst r * ci) (snd r)
    end.

Lemma rc_loop_S : forall f s need q m k v combos memo,
  rc_loop f s need q m (S k) v combos memo =
  (r <- recur_count f (s + 1) (need - v) q m memo ;;
   ci <- count_interleavings v need ;;
   rc_loop f s need q m k (v + 1) (combos + fst r * ci) (snd r)).
Proof. reflexivity. Qed.

Lemma recur_count_S : forall f s need q m memo,
  recur_count (S f) s need q m memo =
  if need =? 0 then Ok (1, memo)
  else if s <? q then
    if (q - s) * m >=? need then
      match memo_truthy (s, need) memo with
      | Some combos => Ok (combos, memo)
      | None =>
        r <- rc_loop f s need q m (Z.to_nat (Z.min m need + 1)) 0 0 memo ;;
        Ok (fst r, memo_set (s, need) (fst r) (snd r))
      end
    else Ok (0, memo)
  else Ok (0, memo).
Proof. reflexivity. Qed.

Lemma params_ok_uniform : forall q m, 0 <= q -> 0 <= m -> params_ok q (Uniform m).
Proof.
  intros q m Hq Hm. split; cbn [cs_of].
  - rewrite repeat_length. lia.
  - apply nonneg_repeat. exact Hm.
Qed.

(** with fuel beyond the depth [q - i] of the recursion: the clean count, and a valid table *)
Lemma recur_count_spec : forall q m, 0 <= q -> 0 <= m ->
  forall fuel i need memo,
  (i <= Z.to_nat q)%nat -> 0 <= need -> (Z.to_nat q - i < fuel)%nat -> memo_valid q (Uniform m) memo ->
  exists memo', recur_count fuel (Z.of_nat i) need q m memo =
                  Ok (cnt (skipn i (repeat m (Z.to_nat q))) need, memo') /\ memo_valid q (Uniform m) memo'.
Proof.
  intros q m Hq Hm.
  pose proof (params_ok_uniform q m Hq Hm) as [Hlq Hnn]. cbn [cs_of] in Hlq, Hnn.
  set (cs := repeat m (Z.to_nat q)) in *.
  assert (Hlen : length cs = Z.to_nat q) by (unfold cs; apply repeat_length). clear Hlq.
  induction fuel as [|f IH]; intros i need memo Hi Hneed Hf Hval; [lia|].
  rewrite recur_count_S.
  assert (Hsuf : nonneg (skipn i cs)) by (apply Forall_skipn; exact Hnn).
  destruct (need =? 0) eqn:En.
  { exists memo. split; [|exact Hval]. assert (need = 0) by lia. subst need.
    rewrite cnt_zero by exact Hsuf. reflexivity. }
  destruct (Z.of_nat i <? q) eqn:Eq.
  2:{ exists memo. split; [|exact Hval]. rewrite skipn_all2 by lia. rewrite cnt_nil, En. reflexivity. }
  destruct ((q - Z.of_nat i) * m >=? need) eqn:Ea.
  2:{ exists memo. split; [|exact Hval]. rewrite cnt_short; [reflexivity|exact Hsuf|lia|].
      unfold cs. rewrite skipn_repeat, zsum_repeat.
      replace (Z.of_nat (Z.to_nat q - i)) with (q - Z.of_nat i) by lia. lia. }
  assert (Hil : (i < length cs)%nat) by lia.
  pose proof (skipn_nth_cons cs i 0 Hil) as Hsk.
  assert (Hc : nth i cs 0 = m) by (unfold cs; apply nth_repeat_lt; lia).
  rewrite Hc in Hsk. set (tl := skipn (S i) cs) in *.
  destruct (memo_truthy (Z.of_nat i, need) memo) as [mv|] eqn:Em.
  { exists memo. split; [|exact Hval]. apply memo_truthy_some in Em. destruct Em as [Hg _].
    pose proof (Hval _ _ _ Hg ltac:(lia) ltac:(lia)) as Hg'. rewrite Nat2Z.id in Hg'.
    rewrite Hg'. reflexivity. }
  assert (Hloop : forall k v0 combos memo0,
            memo_valid q (Uniform m) memo0 -> 0 <= v0 -> v0 + Z.of_nat k <= need + 1 ->
            exists memo1, rc_loop f (Z.of_nat i) need q m k v0 combos memo0 =
                            Ok (cnt_loop tl need k v0 combos, memo1) /\ memo_valid q (Uniform m) memo1).
  { induction k as [|k IHk]; intros v0 combos memo0 Hv0 Hv0n Hk.
    - exists memo0. split; [reflexivity|exact Hv0].
    - rewrite rc_loop_S, cnt_loop_S. replace (Z.of_nat i + 1) with (Z.of_nat (S i)) by lia.
      destruct (IH (S i) (need - v0) memo0 ltac:(lia) ltac:(lia) ltac:(lia) Hv0) as (memo1 & E & V1).
      fold tl in E. rewrite E. cbn [bind]. rewrite count_interleavings_ok by lia. cbn [bind fst snd].
      replace (combos + cnt tl (need - v0) * binomZ need v0)
        with (combos + binomZ need v0 * cnt tl (need - v0)) by ring.
      apply IHk; [exact V1|lia|lia]. }
  destruct (Hloop (Z.to_nat (Z.min m need + 1)) 0 0 memo Hval ltac:(lia) ltac:(lia)) as (memo1 & E & V1).
  rewrite E. cbn [bind fst snd]. rewrite Hsk, cnt_cons.
  eexists. split; [reflexivity|]. apply memo_valid_set; [exact V1|].
  cbn [cs_of]. rewrite Nat2Z.id. fold cs. rewrite Hsk, cnt_cons. reflexivity.
Qed.

Lemma recur_count_more_fuel : forall q m f g, (f <= g)%nat -> forall r s need memo,
  recur_count f s need q m memo = Ok r -> recur_count g s need q m memo = Ok r.
Proof.
  intros q m. induction f as [|f IH]; intros g Hg r s need memo H; [discriminate|].
  destruct g as [|g]; [lia|]. apply le_S_n in Hg. rewrite recur_count_S in *.
  destruct (need =? 0); [exact H|]. destruct (s <? q); [|exact H].
  destruct ((q - s) * m >=? need); [|exact H].
  destruct (memo_truthy (s, need) memo); [exact H|].
  assert (Hloop : forall k v combos memo0 r0, rc_loop f s need q m k v combos memo0 = Ok r0 ->
                                              rc_loop g s need q m k v combos memo0 = Ok r0).
  { induction k as [|k IHk]; intros v combos memo0 r0 Hr; [exact Hr|]. rewrite rc_loop_S in *.
    destruct (recur_count f (s + 1) (need - v) q m memo0) as [x|e] eqn:E; [|discriminate].
    rewrite (IH g Hg _ _ _ _ E). cbn [bind] in *.
    destruct (count_interleavings v need); [|discriminate]. cbn [bind] in *. apply IHk. exact Hr. }
  destruct (rc_loop f s need q m (Z.to_nat (Z.min m need + 1)) 0 0 memo) as [x|e] eqn:E; [|discriminate].
  rewrite (Hloop _ _ _ _ _ E). exact H.
Qed.

(** with any fuel at all, an [Ok] is the clean count *)
Theorem recur_count_refines : forall q m first_n memo fuel v memo',
  0 <= q -> 0 <= m -> 0 <= first_n -> memo_valid q (Uniform m) memo ->
  recur_count fuel 0 first_n q m memo = Ok (v, memo') ->
  v = cnt (repeat m (Z.to_nat q)) first_n /\ memo_valid q (Uniform m) memo'.
Proof.
  intros q m first_n memo fuel v memo' Hq Hm Hn Hval Hrun.
  destruct (recur_count_spec q m Hq Hm (Nat.max fuel (S (Z.to_nat q))) 0%nat first_n memo
              ltac:(lia) Hn ltac:(lia) Hval) as (m' & E & V).
  change (Z.of_nat 0) with 0 in E.
  rewrite (recur_count_more_fuel _ _ _ _ (Nat.le_max_l fuel _) _ _ _ _ Hrun) in E.
  inversion E; subst. split; [reflexivity|exact V].
Qed.

Corollary recur_count_prefixes_refines : forall q m first_n memo v memo',
  0 <= q -> 0 <= m -> 0 <= first_n -> memo_valid q (Uniform m) memo ->
  recur_count_prefixes_of_permutations_with_copies q m first_n memo = Ok (v, memo') ->
  v = cnt (repeat m (Z.to_nat q)) first_n /\ memo_valid q (Uniform m) memo'.
Proof. intros q m first_n memo v memo'. apply recur_count_refines. Qed.

(** the hypotheses are satisfiable, the empty table is valid *)
Example params_ok_example : params_ok 3 (Counters [2; 1; 2]) /\ memo_valid 3 (Counters [2; 1; 2]) [].
Proof. split; [split; [reflexivity|repeat constructor; lia]|apply memo_valid_nil]. Qed.

Print Assumptions recur_count_refines.
Print Assumptions recur_count_prefixes_refines.
