(** C13, mixed radix ([extract_components]) and l-digit base-n
    ([compute_jth_combination]): rank / unrank are mutually inverse. *)
From Coq Require Import ZArith List Bool Lia.
From SP Require Import Comb.CombModel Comb.CombSpec.
Import ListNotations.
Open Scope Z_scope.

Lemma prodZ_pos : forall sizes, Forall (fun s => 0 < s) sizes -> 0 < prodZ sizes.
Proof. induction 1; cbn [prodZ]; nia. Qed.

Lemma radix_unrank : forall sizes, Forall (fun s => 0 < s) sizes ->
  forall n, 0 <= n < prodZ sizes ->
  exists ds, extract_components sizes n = Ok ds /\ digits_ok sizes ds /\ radix_rank sizes ds = n.
Proof.
  induction 1 as [|s tl Hs Htl IH]; intros n Hn.
  - exists []. cbn in *. repeat split; [constructor | lia].
  - cbn [prodZ] in Hn. cbn [extract_components].
    destruct (s =? 0) eqn:E; [lia|].
    assert (Hq : 0 <= n / s < prodZ tl).
    { split; [apply Z.div_pos; lia|]. apply Z.div_lt_upper_bound; lia. }
    destruct (IH _ Hq) as (ds & E1 & E2 & E3).
    exists (n mod s :: ds). rewrite E1. cbn [bind]. repeat split.
    + constructor; [apply Z.mod_pos_bound; lia | exact E2].
    + cbn [radix_rank]. rewrite E3. pose proof (Z.div_mod n s). lia.
Qed.

Lemma radix_rank_unrank : forall sizes, Forall (fun s => 0 < s) sizes ->
  forall ds, digits_ok sizes ds ->
  0 <= radix_rank sizes ds < prodZ sizes /\ extract_components sizes (radix_rank sizes ds) = Ok ds.
Proof.
  induction 1 as [|s tl Hs Htl IH]; intros ds Hd; inversion Hd as [|s' d st dt Hd1 Hd2]; subst.
  - cbn. split; [lia | reflexivity].
  - destruct (IH _ Hd2) as (Hr & E1). cbn [radix_rank prodZ extract_components].
    destruct (s =? 0) eqn:E; [lia|].
    set (r := radix_rank tl dt) in *.
    assert (Hdiv : (d + s * r) / s = r).
    { symmetry. apply (Z.div_unique_pos _ _ r d); lia. }
    assert (Hmod : (d + s * r) mod s = d).
    { symmetry. apply (Z.mod_unique_pos _ _ r d); lia. }
    rewrite Hdiv, Hmod, E1. cbn [bind]. split; [nia | reflexivity].
Qed.

Theorem radix_bij : forall sizes, Forall (fun s => 0 < s) sizes ->
  (forall n, 0 <= n < prodZ sizes ->
     exists ds, extract_components sizes n = Ok ds /\ digits_ok sizes ds /\ radix_rank sizes ds = n) /\
  (forall ds, digits_ok sizes ds ->
     0 <= radix_rank sizes ds < prodZ sizes /\ extract_components sizes (radix_rank sizes ds) = Ok ds).
Proof. intros sizes H. split; [apply radix_unrank | apply radix_rank_unrank]; exact H. Qed.

(** ** base n, most significant digit first *)
Lemma comb_rank_snoc : forall n ds d, comb_rank n (ds ++ [d]) = comb_rank n ds * n + d.
Proof. intros. unfold comb_rank. rewrite fold_left_app. reflexivity. Qed.

(** [jth_combination_loop] is the mixed-radix unranker with all sizes [n],
    its digits pushed on [acc] in reverse *)
Lemma comb_loop_radix : forall cnt n j acc,
  jth_combination_loop cnt n j acc =
  (ds <- extract_components (repeat n cnt) j ;; Ok (rev ds ++ acc)).
Proof.
  induction cnt as [|c IH]; intros n j acc; cbn [jth_combination_loop repeat extract_components]; [reflexivity|].
  destruct (n =? 0); [reflexivity|]. rewrite IH.
  destruct (extract_components (repeat n c) (j / n)) as [ds|e]; cbn [bind rev]; [|reflexivity].
  rewrite <- app_assoc. reflexivity.
Qed.

Lemma comb_rank_rev : forall n ds, comb_rank n (rev ds) = radix_rank (repeat n (length ds)) ds.
Proof.
  intros n. induction ds as [|d ds IH]; [reflexivity|]. cbn [rev length repeat radix_rank].
  rewrite comb_rank_snoc, IH. lia.
Qed.

Lemma prodZ_repeat : forall n l, prodZ (repeat n l) = n ^ Z.of_nat l.
Proof.
  induction l as [|l IH]; cbn [repeat prodZ]; [reflexivity|].
  rewrite IH, Nat2Z.inj_succ, Z.pow_succ_r by lia. reflexivity.
Qed.

Lemma digits_ok_repeat : forall n l ds,
  digits_ok (repeat n l) ds <-> length ds = l /\ Forall (fun d => 0 <= d < n) ds.
Proof.
  induction l as [|l IH]; intros ds; cbn [repeat]; split.
  - intros H. inversion H. split; [reflexivity|constructor].
  - intros [Hl _]. destruct ds; [constructor|discriminate].
  - intros H. inversion H as [|s d st dt Hd Ht]; subst. apply IH in Ht. destruct Ht as [Hl Hf].
    split; [cbn [length]; lia|constructor; assumption].
  - intros [Hl Hf]. destruct ds as [|d dt]; [discriminate|]. inversion Hf; subst.
    constructor; [assumption|]. apply IH. split; [cbn [length] in Hl; lia|assumption].
Qed.

Theorem comb_bij : forall (l : nat) (n : Z), 0 < n ->
  (forall j, 0 <= j < n ^ Z.of_nat l ->
     exists ds, compute_jth_combination (Z.of_nat l) n j = Ok ds /\ length ds = l /\
                Forall (fun d => 0 <= d < n) ds /\ comb_rank n ds = j) /\
  (forall ds, length ds = l -> Forall (fun d => 0 <= d < n) ds ->
     0 <= comb_rank n ds < n ^ Z.of_nat l /\
     compute_jth_combination (Z.of_nat l) n (comb_rank n ds) = Ok ds).
Proof.
  intros l n Hn. unfold compute_jth_combination. rewrite Nat2Z.id.
  assert (Hpos : Forall (fun s => 0 < s) (repeat n l)).
  { apply Forall_forall. intros x Hx. apply repeat_spec in Hx. lia. }
  destruct (radix_bij _ Hpos) as [F B]. rewrite prodZ_repeat in F, B. split.
  - intros j Hj. destruct (F j Hj) as (ds & E & D & R).
    apply digits_ok_repeat in D. destruct D as [Hl Hd].
    exists (rev ds). rewrite comb_loop_radix, E. cbn [bind]. rewrite app_nil_r.
    split; [reflexivity|]. split; [rewrite rev_length; exact Hl|]. split; [apply Forall_rev; exact Hd|].
    rewrite comb_rank_rev, Hl. exact R.
  - intros ds Hl Hd.
    assert (D : digits_ok (repeat n l) (rev ds)).
    { apply digits_ok_repeat. split; [rewrite rev_length; exact Hl|apply Forall_rev; exact Hd]. }
    destruct (B _ D) as [Hr E].
    assert (Er : radix_rank (repeat n l) (rev ds) = comb_rank n ds).
    { rewrite <- (rev_involutive ds) at 2. rewrite comb_rank_rev, rev_length, Hl. reflexivity. }
    rewrite Er in Hr, E. split; [exact Hr|].
    rewrite comb_loop_radix, E. cbn [bind]. rewrite rev_involutive, app_nil_r. reflexivity.
Qed.

Print Assumptions radix_bij.
Print Assumptions comb_bij.
