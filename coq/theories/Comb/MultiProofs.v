(** Arrangements of a multiset: [count_remaining_permutations] is the
    multinomial coefficient, the multinomial satisfies the first-symbol
    recurrence, and [construct_with_copies] is the lexicographic unranking
    bijection whose inverse is [multi_rank].  Proof file (no model definitions). *)
From Coq Require Import ZArith List Bool Lia.
From SP Require Import Comb.CombModel Comb.CombSpec Comb.BinomFacts.
Import ListNotations.
Open Scope Z_scope.

Local Notation nonneg cs := (Forall (fun c => 0 <= c) cs).

Fixpoint pf (cs : list Z) : Z :=
  match cs with [] => 1 | c :: t => fact_nat (Z.to_nat c) * pf t end.

Lemma pf_pos : forall cs, 0 < pf cs.
Proof.
  induction cs as [|c t IH]; cbn [pf]; [lia|].
  pose proof (fact_nat_pos (Z.to_nat c)). nia.
Qed.

Lemma fact_small : forall c, 0 <= c -> c <= 1 -> fact_nat (Z.to_nat c) = 1.
Proof. intros c H0 H1. assert (E : c = 0 \/ c = 1) by lia. destruct E as [-> | ->]; reflexivity. Qed.

Lemma fact_pred : forall c, 0 < c -> fact_nat (Z.to_nat c) = c * fact_nat (Z.to_nat (c - 1)).
Proof.
  intros c H. replace (Z.to_nat c) with (S (Z.to_nat (c - 1))) by lia.
  rewrite fact_nat_S. f_equal. lia.
Qed.

Lemma multinomial_pf : forall cs, nonneg cs ->
  multinomial cs * pf cs = fact_nat (Z.to_nat (zsum cs)).
Proof.
  induction 1 as [|c tl Hc Htl IH]; [reflexivity|].
  cbn [multinomial pf]. cbn [zsum].
  pose proof (zsum_nonneg tl Htl) as Hs.
  pose proof (binom_fact (Z.to_nat (c + zsum tl)) (Z.to_nat c) ltac:(lia)) as E.
  replace (Z.to_nat (c + zsum tl) - Z.to_nat c)%nat with (Z.to_nat (zsum tl)) in E by lia.
  rewrite <- E, <- IH. ring.
Qed.

Lemma multinomial_nonneg : forall cs, 0 <= multinomial cs.
Proof.
  induction cs as [|c tl IH]; cbn [multinomial]; [lia|].
  pose proof (binom_nonneg (Z.to_nat (zsum (c :: tl))) (Z.to_nat c)). nia.
Qed.

Lemma multinomial_pos : forall cs, nonneg cs -> 0 < multinomial cs.
Proof.
  induction 1 as [|c tl Hc Htl IH]; cbn [multinomial]; [lia|].
  pose proof (zsum_nonneg tl Htl) as Hs.
  apply Z.mul_pos_pos; [|exact IH].
  apply binom_pos. cbn [zsum]. lia.
Qed.

Lemma crp_den : forall cs, nonneg cs -> forall d, crp_denominator cs d = Ok (d * pf cs).
Proof.
  induction 1 as [|c tl Hc Htl IH]; intros d; cbn [crp_denominator pf].
  - f_equal. ring.
  - destruct (c >? 1) eqn:E.
    + rewrite factorial_ok by lia. cbn [bind]. rewrite IH. f_equal. ring.
    + rewrite IH. rewrite fact_small by lia. f_equal. ring.
Qed.

Theorem crp_eq_multinomial : forall cs, Forall (fun c => 0 <= c) cs ->
  count_remaining_permutations cs = Ok (multinomial cs).
Proof.
  intros cs H. unfold count_remaining_permutations.
  rewrite crp_den by exact H. cbn [bind].
  rewrite sumZ_zsum. rewrite factorial_ok by (apply zsum_nonneg; exact H). cbn [bind].
  f_equal. rewrite <- multinomial_pf by exact H. rewrite Z.mul_1_l.
  apply Z.div_mul. pose proof (pf_pos cs). lia.
Qed.

Lemma length_set_nth : forall cs i v, length (set_nth cs i v) = length cs.
Proof. induction cs as [|c t IH]; intros [|i] v; cbn [set_nth length]; auto. Qed.

Lemma nth_set_nth_eq : forall cs i v, (i < length cs)%nat -> nth i (set_nth cs i v) 0 = v.
Proof.
  induction cs as [|c t IH]; intros [|i] v H; cbn [length] in H; try lia; cbn [set_nth nth]; auto.
  apply IH. lia.
Qed.

Lemma nth_set_nth_neq : forall cs i j v, i <> j -> nth j (set_nth cs i v) 0 = nth j cs 0.
Proof.
  induction cs as [|c t IH]; intros [|i] [|j] v H; cbn [set_nth nth]; auto; try lia.
Qed.

Lemma zsum_set_nth : forall cs i v, (i < length cs)%nat ->
  zsum (set_nth cs i v) = zsum cs - nth i cs 0 + v.
Proof.
  induction cs as [|c t IH]; intros [|i] v H; cbn [length] in H; try lia; cbn [set_nth nth zsum].
  - lia.
  - rewrite IH by lia. lia.
Qed.

Lemma pf_set_nth : forall cs i v, (i < length cs)%nat ->
  pf (set_nth cs i v) * fact_nat (Z.to_nat (nth i cs 0)) = pf cs * fact_nat (Z.to_nat v).
Proof.
  induction cs as [|c t IH]; intros [|i] v H; cbn [length] in H; try lia; cbn [set_nth nth pf].
  - ring.
  - rewrite <- Z.mul_assoc, IH by lia. ring.
Qed.

Lemma Forall_set_nth : forall cs i v, nonneg cs -> 0 <= v -> nonneg (set_nth cs i v).
Proof.
  induction cs as [|c t IH]; intros [|i] v H Hv; cbn [set_nth]; auto;
    inversion H; subst; constructor; auto.
Qed.

Lemma nth_nonneg : forall cs i, nonneg cs -> 0 <= nth i cs 0.
Proof.
  induction cs as [|c t IH]; intros [|i] H; cbn [nth]; try lia; inversion H; subst; auto.
Qed.

Lemma length_dec : forall cs i, length (dec cs i) = length cs.
Proof. intros. apply length_set_nth. Qed.

Lemma nth_dec_eq : forall cs i, (i < length cs)%nat -> nth i (dec cs i) 0 = nth i cs 0 - 1.
Proof. intros. apply nth_set_nth_eq. assumption. Qed.

Lemma nth_dec_neq : forall cs i j, i <> j -> nth j (dec cs i) 0 = nth j cs 0.
Proof. intros. apply nth_set_nth_neq. assumption. Qed.

Lemma zsum_dec : forall cs i, (i < length cs)%nat -> zsum (dec cs i) = zsum cs - 1.
Proof. intros. unfold dec. rewrite zsum_set_nth by assumption. lia. Qed.

Lemma nonneg_dec : forall cs i, nonneg cs -> 0 < nth i cs 0 -> nonneg (dec cs i).
Proof. intros. apply Forall_set_nth; [assumption | lia]. Qed.

Lemma pf_dec : forall cs i, (i < length cs)%nat -> 0 < nth i cs 0 ->
  pf cs = nth i cs 0 * pf (dec cs i).
Proof.
  intros cs i H Hp. pose proof (pf_set_nth cs i (nth i cs 0 - 1) H) as E.
  fold (dec cs i) in E. rewrite (fact_pred (nth i cs 0) Hp) in E.
  pose proof (fact_nat_pos (Z.to_nat (nth i cs 0 - 1))) as Hf.
  apply (Z.mul_reg_r _ _ (fact_nat (Z.to_nat (nth i cs 0 - 1)))); [lia|].
  rewrite <- E. ring.
Qed.

Lemma get_nth : forall cs i, (i < length cs)%nat -> get cs i = Ok (nth i cs 0).
Proof.
  intros cs i H. unfold get.
  destruct (nth_error cs i) eqn:E.
  - f_equal. symmetry. apply nth_error_nth. exact E.
  - apply nth_error_None in E. lia.
Qed.

Lemma nonneg_zero_nth : forall cs, nonneg cs -> zsum cs = 0 -> forall i, nth i cs 0 = 0.
Proof.
  induction 1 as [|c tl Hc Htl IH]; intros Hz [|i]; cbn [nth]; try reflexivity;
    cbn [zsum] in Hz; pose proof (zsum_nonneg tl Htl).
  - lia.
  - apply IH. lia.
Qed.

Lemma multinomial_zero : forall cs, nonneg cs -> zsum cs = 0 -> multinomial cs = 1.
Proof.
  induction 1 as [|c tl Hc Htl IH]; intros Hz; [reflexivity|].
  cbn [multinomial]. rewrite Hz. cbn [zsum] in Hz. pose proof (zsum_nonneg tl Htl).
  rewrite IH by lia. replace c with 0 by lia. reflexivity.
Qed.

Lemma zero_nth_zsum : forall cs, (forall i, nth i cs 0 = 0) -> zsum cs = 0.
Proof.
  induction cs as [|c tl IH]; intros H; cbn [zsum]; [reflexivity|].
  pose proof (H O) as H0. cbn [nth] in H0. rewrite IH; [lia|].
  intros i. apply (H (S i)).
Qed.

Definition term (cs : list Z) (i : nat) : Z :=
  if nth i cs 0 >? 0 then multinomial (dec cs i) else 0.

(** [smaller_first cs] is the prefix sum of [term cs] *)
Lemma sf_0 : forall cs, smaller_first cs 0 = 0.
Proof. reflexivity. Qed.

Lemma sf_S : forall cs x, smaller_first cs (S x) = smaller_first cs x + term cs x.
Proof. intros. apply (psum_S (term cs)). Qed.

Lemma term_nonneg : forall cs i, 0 <= term cs i.
Proof.
  intros. unfold term. destruct (nth i cs 0 >? 0); [apply multinomial_nonneg | lia].
Qed.

Lemma sf_mono : forall cs x y, (x <= y)%nat -> smaller_first cs x <= smaller_first cs y.
Proof. intros cs. apply (psum_mono (term cs) (term_nonneg cs)). Qed.

Lemma term_pf : forall cs i, nonneg cs -> (i < length cs)%nat ->
  term cs i * pf cs = nth i cs 0 * fact_nat (Z.to_nat (zsum cs - 1)).
Proof.
  intros cs i H Hi. unfold term. pose proof (nth_nonneg cs i H) as Hn.
  destruct (nth i cs 0 >? 0) eqn:E.
  - assert (Hp : 0 < nth i cs 0) by lia.
    rewrite (pf_dec cs i Hi Hp).
    rewrite <- (zsum_dec cs i Hi).
    rewrite <- (multinomial_pf (dec cs i)) by (apply nonneg_dec; assumption).
    ring.
  - replace (nth i cs 0) with 0 by lia. ring.
Qed.

Lemma psum_all : forall cs, psum (fun i => nth i cs 0) (length cs) = zsum cs.
Proof.
  unfold psum. induction cs as [|c tl IH]; [reflexivity|].
  cbn [length]. cbn [seq]. rewrite <- seq_shift. cbn [map]. rewrite map_map. cbn [nth zsum].
  rewrite IH. reflexivity.
Qed.

Lemma sf_pf : forall cs x, nonneg cs -> (x <= length cs)%nat ->
  smaller_first cs x * pf cs = psum (fun i => nth i cs 0) x * fact_nat (Z.to_nat (zsum cs - 1)).
Proof.
  intros cs x H. induction x as [|x IH]; intros Hx.
  - reflexivity.
  - rewrite sf_S, psum_S, Z.mul_add_distr_r, IH by lia.
    rewrite term_pf by (auto; lia). ring.
Qed.

Theorem multinomial_step : forall cs, Forall (fun c => 0 <= c) cs -> 0 < zsum cs ->
  multinomial cs = smaller_first cs (length cs).
Proof.
  intros cs H Hs.
  pose proof (pf_pos cs) as Hp.
  apply (Z.mul_reg_r _ _ (pf cs)); [lia|].
  rewrite multinomial_pf by exact H.
  rewrite sf_pf by (auto; lia).
  rewrite psum_all. apply fact_pred. exact Hs.
Qed.

(** the scan from [i0] stops in the bucket [x] of [J] *)
Lemma cpc_inner_hit : forall cs, nonneg cs -> forall fuel i0 x J,
  (length cs - i0 <= fuel)%nat -> (i0 <= x < length cs)%nat ->
  smaller_first cs x <= J < smaller_first cs (S x) ->
  cpc_inner fuel (Z.of_nat (length cs)) i0 (J - smaller_first cs i0) cs
    = Ok (x, J - smaller_first cs x, dec cs x).
Proof.
  intros cs H. induction fuel as [|f IH]; intros i0 x J Hf Hx HJ; [lia|].
  cbn [cpc_inner].
  destruct (Z.of_nat i0 <? Z.of_nat (length cs)) eqn:E; [|lia].
  rewrite get_nth by lia. cbn [bind].
  pose proof (sf_S cs i0) as HS. unfold term in HS.
  destruct (Nat.eq_dec i0 x) as [->|Hne].
  - destruct (nth x cs 0 >? 0) eqn:Ec; [|lia].
    change (set_nth cs x (nth x cs 0 - 1)) with (dec cs x).
    rewrite crp_eq_multinomial by (apply nonneg_dec; [exact H | lia]). cbn [bind].
    destruct (J - smaller_first cs x >=? multinomial (dec cs x)) eqn:Eg; [lia|reflexivity].
  - pose proof (sf_mono cs (S i0) x ltac:(lia)) as Hm.
    specialize (IH (S i0) x J ltac:(lia) ltac:(lia) HJ).
    destruct (nth i0 cs 0 >? 0) eqn:Ec.
    + change (set_nth cs i0 (nth i0 cs 0 - 1)) with (dec cs i0).
      rewrite crp_eq_multinomial by (apply nonneg_dec; [exact H | lia]). cbn [bind].
      destruct (J - smaller_first cs i0 >=? multinomial (dec cs i0)) eqn:Eg; [|lia].
      replace (J - smaller_first cs i0 - multinomial (dec cs i0))
        with (J - smaller_first cs (S i0)) by lia.
      exact IH.
    + replace (J - smaller_first cs i0) with (J - smaller_first cs (S i0)) by lia. exact IH.
Qed.

Lemma count_sym_cons : forall y w i,
  count_sym (y :: w) i = (if y =? i then 1 else 0) + count_sym w i.
Proof.
  intros. unfold count_sym. cbn [count_occ]. destruct (Z.eq_dec y i), (Z.eqb_spec y i); lia.
Qed.

Lemma count_sym_nil : forall i, count_sym [] i = 0.
Proof. reflexivity. Qed.

Lemma count_sym_nonneg : forall w i, 0 <= count_sym w i.
Proof. intros. unfold count_sym. lia. Qed.

Lemma arr_cons : forall cs x w, (x < length cs)%nat ->
  arrangement_of (dec cs x) w -> arrangement_of cs (Z.of_nat x :: w).
Proof.
  intros cs x w Hx [Hs Hc]. unfold symbols_below in Hs. rewrite length_dec in Hs, Hc.
  split.
  - unfold symbols_below. constructor; [lia | exact Hs].
  - intros i Hi. rewrite count_sym_cons. specialize (Hc i Hi).
    destruct (Z.eqb_spec (Z.of_nat x) (Z.of_nat i)) as [e|n].
    + assert (x = i) by lia. subst i. rewrite nth_dec_eq in Hc by exact Hx. lia.
    + rewrite nth_dec_neq in Hc by lia. lia.
Qed.

Lemma arr_inv : forall cs y w, arrangement_of cs (y :: w) ->
  exists x, y = Z.of_nat x /\ (x < length cs)%nat /\ 0 < nth x cs 0 /\
            arrangement_of (dec cs x) w.
Proof.
  intros cs y w [Hs Hc]. unfold symbols_below in Hs.
  inversion Hs as [|y' w' Hy Hw]; subst.
  exists (Z.to_nat y). assert (Hlt : (Z.to_nat y < length cs)%nat) by lia.
  split; [lia|]. split; [exact Hlt|].
  assert (Hyy : Z.of_nat (Z.to_nat y) = y) by lia.
  split.
  - pose proof (Hc _ Hlt) as E. rewrite count_sym_cons, Hyy, Z.eqb_refl in E.
    pose proof (count_sym_nonneg w y). lia.
  - split.
    + unfold symbols_below. rewrite length_dec. exact Hw.
    + rewrite length_dec. intros i Hi. pose proof (Hc i Hi) as E.
      rewrite count_sym_cons in E.
      destruct (Z.eqb_spec y (Z.of_nat i)) as [e|n].
      * assert (i = Z.to_nat y) by lia. subst i. rewrite nth_dec_eq by exact Hlt. lia.
      * rewrite nth_dec_neq by lia. lia.
Qed.

Lemma arr_nonneg : forall cs w, arrangement_of cs w -> nonneg cs.
Proof.
  intros cs w [_ Hc]. apply Forall_forall. intros c Hin.
  destruct (In_nth cs c 0 Hin) as (i & Hi & E).
  rewrite <- E, <- (Hc i Hi). apply count_sym_nonneg.
Qed.

Lemma arr_nil_zero : forall cs, arrangement_of cs [] -> forall i, nth i cs 0 = 0.
Proof.
  intros cs [_ Hc] i. destruct (le_lt_dec (length cs) i) as [Hl|Hl].
  - apply nth_overflow. exact Hl.
  - rewrite <- (Hc i Hl). reflexivity.
Qed.

Lemma arr_length : forall w cs, arrangement_of cs w -> Z.of_nat (length w) = zsum cs.
Proof.
  induction w as [|y w IH]; intros cs Ha.
  - cbn [length]. symmetry. apply zero_nth_zsum. apply arr_nil_zero. exact Ha.
  - destruct (arr_inv cs y w Ha) as (x & Hy & Hx & Hp & Hd).
    specialize (IH _ Hd). rewrite zsum_dec in IH by exact Hx. cbn [length]. lia.
Qed.

Lemma arr_zero : forall cs, nonneg cs -> zsum cs = 0 -> arrangement_of cs [].
Proof.
  intros cs H Hz. split; [constructor|].
  intros i Hi. rewrite (nonneg_zero_nth cs H Hz). reflexivity.
Qed.

Lemma cpc_outer_fwd : forall cnt cs idx, nonneg cs -> zsum cs = Z.of_nat cnt ->
  0 <= idx < multinomial cs ->
  exists w, cpc_outer cnt (Z.of_nat (length cs)) idx cs = Ok w /\
            arrangement_of cs w /\ multi_rank cs w = idx.
Proof.
  induction cnt as [|c IH]; intros cs idx H Hz Hidx.
  - exists []. rewrite multinomial_zero in Hidx by (auto; lia).
    split; [reflexivity|]. split; [apply arr_zero; [exact H | lia]|].
    cbn [multi_rank]. lia.
  - rewrite (multinomial_step cs H) in Hidx by lia.
    destruct (bucket_exists (term cs) _ _ Hidx) as (x & Hx & Hb).
    change (smaller_first cs x <= idx < smaller_first cs (S x)) in Hb.
    pose proof (cpc_inner_hit cs H (length cs) 0%nat x idx ltac:(lia) ltac:(lia) Hb) as Hr.
    rewrite sf_0, Z.sub_0_r in Hr.
    pose proof (sf_S cs x) as HS. unfold term in HS.
    destruct (nth x cs 0 >? 0) eqn:Ec; [|lia].
    destruct (IH (dec cs x) (idx - smaller_first cs x)) as (w & Hw & Ha & Hrk).
    + apply nonneg_dec; [exact H|lia].
    + rewrite zsum_dec by lia. lia.
    + lia.
    + rewrite length_dec in Hw.
      exists (Z.of_nat x :: w). split; [|split].
      * cbn [cpc_outer]. rewrite Nat2Z.id, Hr. cbn [bind]. rewrite Hw. reflexivity.
      * apply arr_cons; [lia | exact Ha].
      * cbn [multi_rank]. rewrite Nat2Z.id, Hrk. lia.
Qed.

Lemma cpc_outer_bwd : forall w cs, arrangement_of cs w ->
  0 <= multi_rank cs w < multinomial cs /\
  cpc_outer (length w) (Z.of_nat (length cs)) (multi_rank cs w) cs = Ok w.
Proof.
  induction w as [|y w IH]; intros cs Ha; pose proof (arr_nonneg cs _ Ha) as H.
  - cbn [multi_rank length cpc_outer]. pose proof (multinomial_pos cs H). split; [lia | reflexivity].
  - destruct (arr_inv cs y w Ha) as (x & Hy & Hx & Hp & Hd). subst y.
    destruct (IH _ Hd) as [Hr Hout]. rewrite length_dec in Hout.
    pose proof (arr_length _ _ Ha) as Hlen. cbn [length] in Hlen.
    cbn [multi_rank]. rewrite Nat2Z.id.
    set (r := multi_rank (dec cs x) w) in *.
    pose proof (sf_S cs x) as HS. unfold term in HS.
    destruct (nth x cs 0 >? 0) eqn:Ec; [|lia].
    pose proof (sf_mono cs (S x) (length cs) ltac:(lia)) as Hm.
    pose proof (sf_mono cs 0 x ltac:(lia)) as Hm0. rewrite sf_0 in Hm0.
    rewrite (multinomial_step cs H) by lia.
    split; [lia|].
    pose proof (cpc_inner_hit cs H (length cs) 0%nat x (smaller_first cs x + r) ltac:(lia) ltac:(lia) ltac:(lia)) as Hr'.
    rewrite sf_0, Z.sub_0_r in Hr'.
    replace (smaller_first cs x + r - smaller_first cs x) with r in Hr' by lia.
    cbn [length cpc_outer]. rewrite Nat2Z.id, Hr'. cbn [bind]. rewrite Hout. reflexivity.
Qed.

Theorem multiperm_bij : forall cs, Forall (fun c => 0 <= c) cs ->
  (forall idx, 0 <= idx < multinomial cs ->
     exists w, construct_with_copies idx (Z.of_nat (length cs)) (zsum cs) cs = Ok w /\
               arrangement_of cs w /\ multi_rank cs w = idx) /\
  (forall w, arrangement_of cs w ->
     0 <= multi_rank cs w < multinomial cs /\
     construct_with_copies (multi_rank cs w) (Z.of_nat (length cs)) (zsum cs) cs = Ok w).
Proof.
  intros cs H. pose proof (zsum_nonneg cs H) as Hs. split.
  - intros idx Hidx. unfold construct_with_copies.
    apply cpc_outer_fwd; [exact H | lia | exact Hidx].
  - intros w Ha. destruct (cpc_outer_bwd w cs Ha) as [Hr Hout].
    split; [exact Hr|]. unfold construct_with_copies.
    rewrite <- (arr_length w cs Ha), Nat2Z.id. exact Hout.
Qed.

Print Assumptions crp_eq_multinomial.
Print Assumptions multinomial_step.
Print Assumptions multiperm_bij.
