(** Permutation prefixes: [compute_jth_permutation_prefix n m] is a bijection
    from [0, n!/(n-m)!) onto the injective m-lists over [0, n), with inverse
    [perm_rank].  Proof file (no model definitions).

    Two layers: (A) [inversion_loop] computes the mixed-radix digits for the
    radices [falling_sizes n m]; (B) [construct_permutation_loop] selects, for
    each digit, the free index with exactly that many free indices below it,
    which is the inverse of [perm_code]. *)
From Coq Require Import ZArith List Bool Lia ZifyBool Permutation.
From SP Require Import Base.Lists Comb.CombModel Comb.CombSpec Comb.BinomFacts Comb.RadixProofs.
Import ListNotations.
Open Scope Z_scope.

(** [inversion_loop] is the mixed-radix unranker on the falling sizes
    [n, n-1, ..] *)
Lemma inversion_loop_radix : forall m n j,
  inversion_loop m n j = extract_components (falling_sizes n m) j.
Proof.
  induction m as [|m IH]; intros n j; cbn [inversion_loop falling_sizes extract_components]; [reflexivity|].
  rewrite IH. reflexivity.
Qed.

Lemma prodZ_falling : forall m n, prodZ (falling_sizes n m) = ffact n m.
Proof. induction m as [|m IH]; intros n; cbn [falling_sizes prodZ ffact]; [reflexivity|]. rewrite IH. reflexivity. Qed.

Lemma falling_sizes_pos : forall m n, Z.of_nat m <= n -> Forall (fun s => 0 < s) (falling_sizes n m).
Proof. induction m as [|m IH]; intros n H; cbn [falling_sizes]; constructor; [lia|apply IH; lia]. Qed.

Lemma inv_loop_bij : forall m n, Z.of_nat m <= n ->
  (forall j, 0 <= j < ffact n m ->
     exists ds, inversion_loop m n j = Ok ds /\ digits_ok (falling_sizes n m) ds /\
                radix_rank (falling_sizes n m) ds = j) /\
  (forall ds, digits_ok (falling_sizes n m) ds ->
     0 <= radix_rank (falling_sizes n m) ds < ffact n m /\
     inversion_loop m n (radix_rank (falling_sizes n m) ds) = Ok ds).
Proof.
  intros m n H. destruct (radix_bij _ (falling_sizes_pos m n H)) as [F B].
  rewrite prodZ_falling in F, B.
  split; intros x Hx; rewrite inversion_loop_radix; [apply F|apply B]; exact Hx.
Qed.

(** number of free (not used) positions strictly below [i] *)
Fixpoint cfb (used : list bool) (i : nat) : nat :=
  match i with
  | O => O
  | S k => (cfb used k + match nth_error used k with Some false => 1 | _ => 0 end)%nat
  end.

Lemma cfb_S_free : forall used k, nth_error used k = Some false -> cfb used (S k) = S (cfb used k).
Proof. intros used k H. cbn [cfb]. rewrite H. lia. Qed.

Lemma cfb_S_used : forall used k, nth_error used k = Some true -> cfb used (S k) = cfb used k.
Proof. intros used k H. cbn [cfb]. rewrite H. lia. Qed.

Lemma cfb_mono : forall used i j, (i <= j)%nat -> (cfb used i <= cfb used j)%nat.
Proof. intros used i j H. induction H; [lia|]. cbn [cfb]. lia. Qed.

(** every number below the total is the count at some free position *)
Lemma cfb_surj : forall used b k, (k < cfb used b)%nat ->
  exists i, nth_error used i = Some false /\ cfb used i = k.
Proof.
  induction b as [|b IH]; intros k H; cbn [cfb] in H; [lia|].
  destruct (lt_dec k (cfb used b)) as [Hk|Hk]; [exact (IH k Hk)|].
  exists b. destruct (nth_error used b) as [[|]|]; [lia| |lia]. split; [reflexivity|lia].
Qed.

Lemma cfb_free_lt : forall used i j,
  nth_error used i = Some false -> (i < j)%nat -> (cfb used i < cfb used j)%nat.
Proof.
  intros used i j H Hij. pose proof (cfb_S_free _ _ H). pose proof (cfb_mono used (S i) j Hij). lia.
Qed.

Lemma nth_error_le_some : forall (used : list bool) i k b,
  nth_error used i = Some b -> (k <= i)%nat -> exists b', nth_error used k = Some b'.
Proof.
  intros used i k b H Hk. destruct (nth_error used k) as [b'|] eqn:E; [eauto|].
  apply nth_error_None in E. assert (i < length used)%nat by (apply nth_error_Some; congruence). lia.
Qed.

Lemma skip_used_eq : forall fuel used idx, skip_used fuel used idx =
  (b <- used_at used idx ;;
   if b then match fuel with O => Err OutOfFuel | S f => skip_used f used (S idx) end else Ok idx).
Proof. destruct fuel; reflexivity. Qed.

Lemma skip_free_eq : forall fuel used skip idx, skip_free fuel used skip idx =
  if skip >? 0 then
    match fuel with
    | O => Err OutOfFuel
    | S f => b <- used_at used idx ;; skip_free f used (if b then skip else skip - 1) (S idx)
    end
  else Ok idx.
Proof. destruct fuel; reflexivity. Qed.

(** [while used[idx]: idx += 1] stops at the free position [i] when no free position lies between *)
Lemma skip_used_spec : forall used i fuel idx,
  (idx <= i)%nat -> nth_error used i = Some false -> cfb used idx = cfb used i ->
  (i - idx <= fuel)%nat -> skip_used fuel used idx = Ok i.
Proof.
  intros used i. induction fuel; intros idx Hle Hi Hc Hf; rewrite skip_used_eq; unfold used_at.
  - assert (idx = i) by lia. subst. rewrite Hi. reflexivity.
  - destruct (nth_error_le_some used i idx false Hi Hle) as [[|] Hb]; rewrite Hb; cbn [bind].
    + assert (idx <> i) by congruence.
      apply IHfuel; [lia | exact Hi | rewrite <- Hc; apply cfb_S_used; exact Hb | lia].
    + destruct (Nat.eq_dec idx i) as [->|Hne]; [reflexivity|].
      pose proof (cfb_free_lt used idx i Hb ltac:(lia)). lia.
Qed.

(** the middle loop advances past exactly [skip] free positions *)
Lemma skip_free_spec : forall used fuel skip idx,
  0 <= skip -> Z.of_nat (cfb used idx) + skip <= Z.of_nat (cfb used (length used)) ->
  (idx <= length used)%nat -> (length used - idx <= fuel)%nat ->
  exists r, skip_free fuel used skip idx = Ok r /\ (idx <= r <= length used)%nat /\
            Z.of_nat (cfb used r) = Z.of_nat (cfb used idx) + skip.
Proof.
  induction fuel; intros skip idx Hs Hc Hi Hf; rewrite skip_free_eq; destruct (skip >? 0) eqn:Es.
  - assert (idx = length used) by lia. subst. lia.
  - exists idx. split; [reflexivity|]. split; lia.
  - assert (Hlt : (idx < length used)%nat).
    { destruct (Nat.eq_dec idx (length used)) as [->|]; lia. }
    destruct (nth_error used idx) as [b|] eqn:Hb; [|apply nth_error_None in Hb; lia].
    unfold used_at. rewrite Hb. cbn [bind]. destruct b.
    + pose proof (cfb_S_used _ _ Hb) as Hu.
      destruct (IHfuel skip (S idx)) as (r & E & Hr & Hcr); try lia.
      exists r. split; [exact E|]. split; lia.
    + pose proof (cfb_S_free _ _ Hb) as Hu.
      destruct (IHfuel (skip - 1) (S idx)) as (r & E & Hr & Hcr); try lia.
      exists r. split; [exact E|]. split; lia.
  - exists idx. split; [reflexivity|]. split; lia.
Qed.

(** the three scans together stop at the free position [i] when asked to pass as
    many free positions as lie below it *)
Lemma scan_spec : forall used i, nth_error used i = Some false ->
  exists i1 i2,
    skip_used (S (length used)) used 0 = Ok i1 /\
    skip_free (S (length used)) used (Z.of_nat (cfb used i)) i1 = Ok i2 /\
    skip_used (S (length used)) used i2 = Ok i.
Proof.
  intros used i Hi.
  assert (Hlen : (i < length used)%nat) by (apply nth_error_Some; congruence).
  pose proof (cfb_free_lt used i (length used) Hi Hlen) as Htot.
  destruct (cfb_surj used (length used) 0%nat) as (i1 & Hf1 & Hc1); [lia|].
  assert (Hl1 : (i1 < length used)%nat) by (apply nth_error_Some; congruence).
  destruct (skip_free_spec used (S (length used)) (Z.of_nat (cfb used i)) i1)
    as (i2 & E2 & Hr2 & Hc2); try lia.
  exists i1, i2. split; [apply skip_used_spec; [lia | exact Hf1 | cbn [cfb]; lia | lia]|].
  split; [exact E2|]. apply skip_used_spec; [|exact Hi|lia|lia].
  destruct (le_lt_dec i2 i) as [H|H]; [exact H|]. pose proof (cfb_free_lt used i i2 Hi H). lia.
Qed.

Lemma set_true_spec : forall used i b, nth_error used i = Some b ->
  exists used', set_true used i = Ok used' /\ length used' = length used /\
    forall k, nth_error used' k = if Nat.eqb k i then Some true else nth_error used k.
Proof.
  induction used as [|a t IH]; intros i b H.
  - destruct i; discriminate.
  - destruct i as [|i]; cbn [set_true].
    + exists (true :: t). split; [reflexivity|]. split; [reflexivity|]. intros [|k]; reflexivity.
    + cbn [nth_error] in H. destruct (IH i b H) as (t' & E & L & N). rewrite E. cbn [bind].
      exists (a :: t'). split; [reflexivity|]. split; [cbn [length]; lia|].
      intros [|k]; cbn [nth_error Nat.eqb]; [reflexivity | apply N].
Qed.

Definition inb (prev : list Z) (x : Z) : bool := existsb (Z.eqb x) prev.
Definition rel (n : nat) (used : list bool) (prev : list Z) : Prop :=
  length used = n /\ forall i, (i < n)%nat -> nth_error used i = Some (inb prev (Z.of_nat i)).
Definition below (n : nat) (l : list Z) : Prop := Forall (fun y => 0 <= y < Z.of_nat n) l.

Lemma inb_In : forall prev x, inb prev x = true <-> In x prev.
Proof.
  intros prev x. unfold inb. rewrite existsb_exists. split.
  - intros (y & Hy & E). apply Z.eqb_eq in E. subst. exact Hy.
  - intros H. exists x. split; [exact H | apply Z.eqb_refl].
Qed.

Lemma inb_false : forall prev x, ~ In x prev -> inb prev x = false.
Proof. intros prev x H. destruct (inb prev x) eqn:E; [apply inb_In in E; contradiction | reflexivity]. Qed.

Lemma sb_succ : forall prev x, NoDup prev ->
  smaller_before prev (x + 1) = smaller_before prev x + (if inb prev x then 1 else 0).
Proof.
  induction prev as [|y prev IH]; intros x Hnd.
  - reflexivity.
  - inversion Hnd as [|y' l' Hnin Hnd']; subst. specialize (IH x Hnd').
    unfold smaller_before in *. unfold inb in *. cbn [filter existsb].
    destruct (x =? y) eqn:Exy.
    + apply Z.eqb_eq in Exy. subst y. pose proof (inb_false prev x Hnin) as Ef. unfold inb in Ef.
      rewrite Ef in IH. cbn [orb].
      destruct (x <? x + 1) eqn:E1; [|lia]. destruct (x <? x) eqn:E2; [lia|].
      cbn [length]. lia.
    + cbn [orb]. destruct (y <? x + 1) eqn:E1; destruct (y <? x) eqn:E2; cbn [length]; lia.
Qed.

Lemma sb_zero : forall prev, Forall (fun y => 0 <= y) prev -> smaller_before prev 0 = 0.
Proof.
  induction 1 as [|y prev Hy H IH]; [reflexivity|].
  unfold smaller_before in *. cbn [filter]. destruct (y <? 0) eqn:E; [lia|exact IH].
Qed.

Lemma sb_all : forall prev n, Forall (fun y => y < n) prev -> smaller_before prev n = Z.of_nat (length prev).
Proof.
  induction 1 as [|y prev Hy H IH]; [reflexivity|].
  unfold smaller_before in *. cbn [filter]. destruct (y <? n) eqn:E; [|lia]. cbn [length]. lia.
Qed.

(** free positions below x = x minus the chosen values below x *)
Lemma cfb_rel : forall n used prev, rel n used prev -> NoDup prev -> below n prev ->
  forall x, (x <= n)%nat -> Z.of_nat (cfb used x) = Z.of_nat x - smaller_before prev (Z.of_nat x).
Proof.
  intros n used prev [Hlen Hrel] Hnd Hb. induction x; intros Hx.
  - cbn [cfb]. rewrite sb_zero; [lia|]. eapply Forall_impl; [|exact Hb]. cbn beta. intros; lia.
  - cbn [cfb]. rewrite (Hrel x) by lia.
    replace (Z.of_nat (S x)) with (Z.of_nat x + 1) by lia.
    rewrite sb_succ by exact Hnd. specialize (IHx ltac:(lia)).
    destruct (inb prev (Z.of_nat x)); lia.
Qed.

Lemma cfb_total : forall n used prev, rel n used prev -> NoDup prev -> below n prev ->
  Z.of_nat (cfb used (length used)) = Z.of_nat n - Z.of_nat (length prev).
Proof.
  intros n used prev Hrel Hnd Hb. pose proof (proj1 Hrel) as Hlen. rewrite Hlen.
  rewrite (cfb_rel n used prev Hrel Hnd Hb n) by lia.
  rewrite sb_all; [lia|]. eapply Forall_impl; [|exact Hb]. cbn beta. intros; lia.
Qed.

Lemma rel_init : forall n, rel n (repeat false n) [].
Proof.
  intros n. split; [apply repeat_length|]. intros i Hi. cbn. apply nth_error_repeat. exact Hi.
Qed.

Lemma NoDup_app_r : forall (A : Type) (l l' : list A), NoDup (l ++ l') -> NoDup l'.
Proof. induction l as [|a l IH]; intros l' H; [exact H|]. inversion H; subst. apply IH. assumption. Qed.

Lemma free_rel : forall n used prev i, rel n used prev ->
  (nth_error used i = Some false <-> (i < n)%nat /\ ~ In (Z.of_nat i) prev).
Proof.
  intros n used prev i [Hlen Hrel]. split.
  - intros H. assert (Hi : (i < n)%nat) by (rewrite <- Hlen; apply nth_error_Some; congruence).
    split; [exact Hi|]. intros Hin. apply inb_In in Hin. rewrite (Hrel i Hi), Hin in H. discriminate.
  - intros [Hi Hn]. rewrite (Hrel i Hi), inb_false by exact Hn. reflexivity.
Qed.

(** the digit of a free position, and its radix *)
Lemma free_digit : forall n used prev i, rel n used prev -> NoDup prev -> below n prev ->
  nth_error used i = Some false ->
  Z.of_nat (cfb used i) = Z.of_nat i - smaller_before prev (Z.of_nat i) /\
  0 <= Z.of_nat (cfb used i) < Z.of_nat n - Z.of_nat (length prev).
Proof.
  intros n used prev i Hrel Hnd Hb Hi.
  destruct (proj1 (free_rel n used prev i Hrel) Hi) as [Hin _].
  rewrite <- (cfb_total n used prev Hrel Hnd Hb).
  pose proof (cfb_free_lt used i (length used) Hi ltac:(rewrite (proj1 Hrel); exact Hin)).
  split; [apply (cfb_rel n used prev Hrel Hnd Hb)|]; lia.
Qed.

(** one round of the loop: the digit of the free position [i] selects [i] *)
Lemma cpl_step : forall n used prev i, rel n used prev -> nth_error used i = Some false ->
  exists used', rel n used' (Z.of_nat i :: prev) /\ forall tl,
    construct_permutation_loop (Z.of_nat (cfb used i) :: tl) used =
    (rest <- construct_permutation_loop tl used' ;; Ok (Z.of_nat i :: rest)).
Proof.
  intros n used prev i Hrel Hi.
  destruct (scan_spec used i Hi) as (i1 & i2 & E1 & E2 & E3).
  destruct (set_true_spec used i false Hi) as (used' & E4 & L & N).
  exists used'. split.
  - destruct Hrel as [Hlen Hrel]. split; [lia|].
    intros k Hk. rewrite N. unfold inb. cbn [existsb].
    destruct (Nat.eqb_spec k i) as [->|E]; [rewrite Z.eqb_refl; reflexivity|].
    destruct (Z.of_nat k =? Z.of_nat i) eqn:Ek; [lia|]. apply Hrel. exact Hk.
  - intros tl. cbn [construct_permutation_loop]. cbv zeta.
    rewrite E1. cbn [bind]. rewrite E2. cbn [bind]. rewrite E3. cbn [bind]. rewrite E4. reflexivity.
Qed.

(** digits to prefix *)
Lemma cpl_fwd : forall inv n used prev,
  rel n used prev -> NoDup prev -> below n prev ->
  digits_ok (falling_sizes (Z.of_nat n - Z.of_nat (length prev)) (length inv)) inv ->
  exists p, construct_permutation_loop inv used = Ok p /\ length p = length inv /\
            NoDup (p ++ prev) /\ below n p /\ perm_code prev p = inv.
Proof.
  induction inv as [|skip tl IH]; intros n used prev Hrel Hnd Hb D.
  - exists []. cbn [construct_permutation_loop length app perm_code].
    repeat split; try assumption. constructor.
  - unfold digits_ok in D. cbn [length falling_sizes] in D.
    inversion D as [|s d st dt Hd Ht]; subst.
    pose proof (cfb_total n used prev Hrel Hnd Hb) as Htot.
    destruct (cfb_surj used (length used) (Z.to_nat skip)) as (i & Hfree & Hc); [lia|].
    destruct (free_digit n used prev i Hrel Hnd Hb Hfree) as [Hcode _].
    destruct (proj1 (free_rel n used prev i Hrel) Hfree) as [Hi Hnotin].
    destruct (cpl_step n used prev i Hrel Hfree) as (used' & Hrel' & Estep).
    replace (Z.of_nat (cfb used i)) with skip in Estep, Hcode by lia.
    destruct (IH n used' (Z.of_nat i :: prev) Hrel') as (rest & E5 & Lr & NDr & Br & Cr).
    + constructor; assumption.
    + constructor; [lia|exact Hb].
    + cbn [length].
      replace (Z.of_nat n - Z.of_nat (S (length prev))) with (Z.of_nat n - Z.of_nat (length prev) - 1) by lia.
      exact Ht.
    + exists (Z.of_nat i :: rest). rewrite Estep, E5. cbn [bind].
      split; [reflexivity|]. split; [cbn [length]; lia|]. split.
      { cbn [app]. eapply Permutation_NoDup; [|exact NDr]. apply Permutation_sym, Permutation_middle. }
      split; [constructor; [lia|exact Br]|].
      cbn [perm_code]. rewrite Cr, <- Hcode. reflexivity.
Qed.

(** prefix to digits, and back through the loop *)
Lemma cpl_bwd : forall p n used prev,
  rel n used prev -> NoDup (p ++ prev) -> below n (p ++ prev) ->
  construct_permutation_loop (perm_code prev p) used = Ok p /\
  digits_ok (falling_sizes (Z.of_nat n - Z.of_nat (length prev)) (length p)) (perm_code prev p).
Proof.
  induction p as [|x tl IH]; intros n used prev Hrel Hnd Hb.
  - cbn [perm_code construct_permutation_loop length falling_sizes]. split; [reflexivity|constructor].
  - cbn [app] in Hnd, Hb.
    assert (Hnd' : NoDup (tl ++ x :: prev)).
    { eapply Permutation_NoDup; [|exact Hnd]. apply Permutation_middle. }
    assert (Hb' : below n (tl ++ x :: prev)).
    { unfold below. eapply Permutation_Forall; [|exact Hb]. apply Permutation_middle. }
    inversion Hnd as [|x' l' Hnin Hnd0]; subst.
    inversion Hb as [|x' l' Hx Hb0]; subst.
    assert (Hndp : NoDup prev) by (eapply NoDup_app_r; exact Hnd0).
    assert (Hbp : below n prev) by (apply Forall_app in Hb0; apply Hb0).
    destruct (Z_of_nat_complete x (proj1 Hx)) as [xi ->].
    assert (Hfx : nth_error used xi = Some false).
    { apply (free_rel n used prev xi Hrel). split; [lia|]. intros Hin. apply Hnin, in_or_app. right. exact Hin. }
    destruct (free_digit n used prev xi Hrel Hndp Hbp Hfx) as [Hcode Hrange].
    destruct (cpl_step n used prev xi Hrel Hfx) as (used' & Hrel' & Estep).
    destruct (IH n used' (Z.of_nat xi :: prev) Hrel' Hnd' Hb') as (E5 & D5).
    cbn [perm_code]. rewrite <- Hcode, Estep, E5.
    split; [reflexivity|].
    unfold digits_ok. cbn [length falling_sizes]. constructor; [exact Hrange|].
    cbn [length] in D5.
    replace (Z.of_nat n - Z.of_nat (S (length prev))) with (Z.of_nat n - Z.of_nat (length prev) - 1) in D5 by lia.
    exact D5.
Qed.

Lemma falling_sizes_length : forall m n, length (falling_sizes n m) = m.
Proof. induction m; intros n; cbn [falling_sizes length]; [reflexivity|]. rewrite IHm. reflexivity. Qed.

Lemma prefix_unfold : forall n m j,
  compute_jth_permutation_prefix (Z.of_nat n) (Z.of_nat m) j =
  (inv <- inversion_loop m (Z.of_nat n) j ;; construct_permutation_loop inv (repeat false n)).
Proof.
  intros. unfold compute_jth_permutation_prefix, compute_jth_inversion_sequence, construct_permutation.
  rewrite !Nat2Z.id. reflexivity.
Qed.

Theorem perm_prefix_bij : forall n m : nat, (m <= n)%nat ->
  (forall j, 0 <= j < ffact (Z.of_nat n) m ->
     exists p, compute_jth_permutation_prefix (Z.of_nat n) (Z.of_nat m) j = Ok p /\
               length p = m /\ injective_below (Z.of_nat n) p /\ perm_rank (Z.of_nat n) p = j) /\
  (forall p, length p = m -> injective_below (Z.of_nat n) p ->
     0 <= perm_rank (Z.of_nat n) p < ffact (Z.of_nat n) m /\
     compute_jth_permutation_prefix (Z.of_nat n) (Z.of_nat m) (perm_rank (Z.of_nat n) p) = Ok p).
Proof.
  intros n m Hmn. split.
  - intros j Hj.
    destruct (proj1 (inv_loop_bij m (Z.of_nat n) ltac:(lia)) j Hj) as (ds & E & D & R).
    pose proof (eq_sym (Forall2_length _ _ _ D)) as Lds. rewrite falling_sizes_length in Lds.
    destruct (cpl_fwd ds n (repeat false n) []) as (p & Ep & Lp & NDp & Bp & Cp).
    + apply rel_init.
    + constructor.
    + constructor.
    + cbn [length]. rewrite Lds. replace (Z.of_nat n - Z.of_nat 0) with (Z.of_nat n) by lia. exact D.
    + exists p. rewrite prefix_unfold, E. cbn [bind]. rewrite app_nil_r in NDp.
      split; [exact Ep|]. split; [lia|]. split; [split; [exact NDp|exact Bp]|].
      unfold perm_rank. rewrite Cp, Lp, Lds. exact R.
  - intros p Lp [NDp Bp].
    destruct (cpl_bwd p n (repeat false n) []) as (Ep & D).
    + apply rel_init.
    + rewrite app_nil_r. exact NDp.
    + rewrite app_nil_r. exact Bp.
    + cbn [length] in D. replace (Z.of_nat n - Z.of_nat 0) with (Z.of_nat n) in D by lia.
      rewrite Lp in D.
      destruct (proj2 (inv_loop_bij m (Z.of_nat n) ltac:(lia)) (perm_code [] p) D) as (R & E).
      unfold perm_rank. rewrite Lp. split; [exact R|].
      rewrite prefix_unfold, E. cbn [bind]. exact Ep.
Qed.

Print Assumptions perm_prefix_bij.
