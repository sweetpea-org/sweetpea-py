(** Proofs about [n_choose_m] and the combinatorial-number-system unranker
    [compute_jth_combination_without_replacement] of the model: the former
    computes the Pascal binomial, the latter is a bijection from
    [0, C(n,m)) onto the strictly decreasing m-lists below n, inverse to
    [cns_rank].  All sizes. *)
From Coq Require Import ZArith List Bool Lia ZifyBool.
From SP Require Import Comb.CombModel Comb.CombSpec Comb.BinomFacts.
Import ListNotations.
Open Scope Z_scope.

Lemma ncm_loop_spec : forall fuel n h p,
  (Z.to_nat (n - h) <= fuel)%nat ->
  ncm_loop fuel n h p = Ok (p * ffact n (Z.to_nat (n - h))).
Proof.
  induction fuel as [|f IH]; intros n h p Hf; cbn [ncm_loop]; destruct (n >? h) eqn:E.
  - lia.
  - replace (Z.to_nat (n - h)) with O by lia. cbn [ffact]. f_equal. ring.
  - rewrite IH by lia.
    replace (Z.to_nat (n - h)) with (S (Z.to_nat (n - 1 - h))) by lia.
    cbn [ffact]. f_equal. ring.
  - replace (Z.to_nat (n - h)) with O by lia. cbn [ffact]. f_equal. ring.
Qed.

Lemma ffact_binom : forall n m, (m <= n)%nat ->
  ffact (Z.of_nat n) m = binom n m * fact_nat m.
Proof.
  intros n m H.
  pose proof (ffact_fact n m H) as E1. pose proof (binom_fact n m H) as E2.
  pose proof (fact_nat_pos (n - m)) as P.
  apply (Z.mul_reg_r _ _ (fact_nat (n - m))); [lia|].
  rewrite E1, <- E2. ring.
Qed.

Theorem ncm_eq_binom : forall n m : nat,
  n_choose_m_given_m_factorial (Z.of_nat n) (Z.of_nat m) (fact_nat m) = Ok (binom n m).
Proof.
  intros n m. unfold n_choose_m_given_m_factorial.
  destruct (Z.of_nat n <? Z.of_nat m) eqn:E1.
  { rewrite binom_gt by lia. reflexivity. }
  destruct (Z.of_nat n =? Z.of_nat m) eqn:E2.
  { assert (n = m) by lia. subst. rewrite binom_n_n. reflexivity. }
  rewrite ncm_loop_spec by lia. cbn [bind].
  pose proof (fact_nat_pos m) as P.
  destruct (fact_nat m =? 0) eqn:E3; [lia|].
  replace (Z.to_nat (Z.of_nat n - (Z.of_nat n - Z.of_nat m))) with m by lia.
  rewrite ffact_binom by lia. rewrite Z.mul_1_l. rewrite Z.div_mul by lia. reflexivity.
Qed.

Theorem choose_eq_binom : forall n m : nat,
  n_choose_m (Z.of_nat n) (Z.of_nat m) = Ok (binom n m).
Proof.
  intros n m. unfold n_choose_m. rewrite factorial_ok by lia. rewrite Nat2Z.id.
  cbn [bind]. apply ncm_eq_binom.
Qed.

Lemma ncm_Z : forall c M, 0 <= c ->
  n_choose_m_given_m_factorial c (Z.of_nat M) (fact_nat M) = Ok (binom (Z.to_nat c) M).
Proof.
  intros c M H. rewrite <- (Z2Nat.id c H) at 1. apply ncm_eq_binom.
Qed.

Lemma binom_lt_inv : forall c b M, binom c M < binom b M -> (c < b)%nat.
Proof.
  intros c b M H. destruct (le_lt_dec b c) as [L|L]; [|exact L].
  pose proof (binom_mono_n b c M L). lia.
Qed.

Lemma cns_rank_cons : forall c tl,
  cns_rank (c :: tl) = binom (Z.to_nat c) (S (length tl)) + cns_rank tl.
Proof. reflexivity. Qed.

Lemma cns_rank_range : forall cs b, desc_below b cs ->
  0 <= cns_rank cs < binom (Z.to_nat b) (length cs).
Proof.
  induction cs as [|c tl IH]; intros b H.
  - cbn [cns_rank length]. rewrite binom_n_0. lia.
  - destruct H as [Hc Ht]. rewrite cns_rank_cons. cbn [length].
    specialize (IH c Ht).
    pose proof (binom_nonneg (Z.to_nat c) (S (length tl))) as P.
    pose proof (binom_mono_n (S (Z.to_nat c)) (Z.to_nat b) (S (length tl)) ltac:(lia)) as Q.
    rewrite binom_S_S in Q. lia.
Qed.

Lemma cns_rank_inj : forall cs cs' b b',
  length cs = length cs' -> desc_below b cs -> desc_below b' cs' ->
  cns_rank cs = cns_rank cs' -> cs = cs'.
Proof.
  induction cs as [|c tl IH]; intros cs' b b' HL H H' HR; destruct cs' as [|c' tl'];
    try discriminate HL; [reflexivity|].
  destruct H as [Hc Ht]. destruct H' as [Hc' Ht'].
  rewrite !cns_rank_cons in HR. injection HL as HL.
  pose proof (cns_rank_range tl c Ht) as R. pose proof (cns_rank_range tl' c' Ht') as R'.
  rewrite <- HL in R', HR.
  set (k := length tl) in *.
  assert (c = c') as ->.
  { destruct (Z.lt_trichotomy c c') as [L|[L|L]]; [|exact L|].
    - pose proof (binom_mono_n (S (Z.to_nat c)) (Z.to_nat c') (S k) ltac:(lia)) as Q.
      rewrite binom_S_S in Q. lia.
    - pose proof (binom_mono_n (S (Z.to_nat c')) (Z.to_nat c) (S k) ltac:(lia)) as Q.
      rewrite binom_S_S in Q. lia. }
  f_equal. apply (IH tl' c' c'); [exact HL|exact Ht|exact Ht'|lia].
Qed.

(** * the inner while loop: the largest c with C(c,m) <= j *)

Lemma cns_inner_spec : forall (M : nat) (n j : Z) fuel c,
  0 <= c -> (Z.to_nat (n - 1 - c) <= fuel)%nat ->
  exists c', cns_inner fuel n (Z.of_nat M) (fact_nat M) j c = Ok c' /\ c <= c' /\
    (c' = c \/ binom (Z.to_nat c') M <= j) /\
    (c' + 1 < n -> j < binom (Z.to_nat (c' + 1)) M).
Proof.
  intros M n j. induction fuel as [|f IH]; intros c Hc Hf; cbn [cns_inner];
    (destruct (c + 1 <? n) eqn:E;
     [ rewrite ncm_Z by lia; cbn [bind];
       destruct (binom (Z.to_nat (c + 1)) M <=? j) eqn:E2 | ]);
    (* the loop stops at [c] unless both tests hold; without fuel the first cannot *)
    try (exists c; repeat split; lia).
  destruct (IH (c + 1) ltac:(lia) ltac:(lia)) as (c' & Ec & L & B & U).
  exists c'. split; [exact Ec|]. split; [lia|]. split; [|exact U].
  right. destruct B as [->|B]; lia.
Qed.

Lemma cns_outer_0 : forall fuel n j, cns_outer fuel n 0 j = Ok [].
Proof. destruct fuel; reflexivity. Qed.

Lemma cns_outer_spec : forall (N : nat) fuel M b j,
  (M <= fuel)%nat -> (b <= N)%nat -> 0 <= j < binom b M ->
  exists cs, cns_outer fuel (Z.of_nat N) (Z.of_nat M) j = Ok cs /\
             length cs = M /\ desc_below (Z.of_nat b) cs /\ cns_rank cs = j.
Proof.
  intros N fuel M. revert fuel. induction M as [|M' IH]; intros fuel b j Hf Hb Hj.
  - rewrite binom_n_0 in Hj. exists []. change (Z.of_nat 0) with 0. rewrite cns_outer_0.
    cbn [length desc_below cns_rank]. repeat split; lia.
  - destruct fuel as [|f]; [lia|].
    assert (HMb : (S M' <= b)%nat).
    { destruct (le_lt_dec (S M') b) as [L|L]; [exact L|]. rewrite binom_gt in Hj by lia. lia. }
    cbn [cns_outer].
    destruct (Z.of_nat (S M') >? 0) eqn:E0; [|lia].
    rewrite factorial_ok by lia. rewrite Nat2Z.id. cbn [bind].
    replace (Z.of_nat (S M') - 1) with (Z.of_nat M') by lia.
    destruct (cns_inner_spec (S M') (Z.of_nat N) j
                (Z.to_nat (Z.of_nat N - Z.of_nat (S M'))) (Z.of_nat M')
                ltac:(lia) ltac:(lia)) as (c & Ec & L & B & U).
    rewrite Ec. cbn [bind]. rewrite ncm_Z by lia. cbn [bind].
    assert (Blo : binom (Z.to_nat c) (S M') <= j).
    { destruct B as [->|B]; [|exact B]. rewrite Nat2Z.id. rewrite binom_gt by lia. lia. }
    assert (Hcb : (Z.to_nat c < b)%nat) by (apply (binom_lt_inv _ _ (S M')); lia).
    assert (Bhi : j < binom (S (Z.to_nat c)) (S M')).
    { destruct (Z_lt_le_dec (c + 1) (Z.of_nat N)) as [Lt|Ge].
      - specialize (U Lt). replace (Z.to_nat (c + 1)) with (S (Z.to_nat c)) in U by lia. exact U.
      - pose proof (binom_mono_n b (S (Z.to_nat c)) (S M') ltac:(lia)). lia. }
    rewrite binom_S_S in Bhi.
    destruct (IH f (Z.to_nat c) (j - binom (Z.to_nat c) (S M'))
                ltac:(lia) ltac:(lia) ltac:(lia)) as (rest & Er & Lr & Dr & Rr).
    rewrite Er. cbn [bind]. exists (c :: rest).
    split; [reflexivity|]. split; [cbn [length]; lia|]. split.
    + cbn [desc_below]. split; [lia|]. rewrite Z2Nat.id in Dr by lia. exact Dr.
    + rewrite cns_rank_cons, Lr, Rr. lia.
Qed.

Theorem cns_bij : forall n m : nat,
  (forall j, 0 <= j < binom n m ->
     exists cs, compute_jth_combination_without_replacement (Z.of_nat n) (Z.of_nat m) j = Ok cs /\
                length cs = m /\ desc_below (Z.of_nat n) cs /\ cns_rank cs = j) /\
  (forall cs, length cs = m -> desc_below (Z.of_nat n) cs ->
     0 <= cns_rank cs < binom n m /\
     compute_jth_combination_without_replacement (Z.of_nat n) (Z.of_nat m) (cns_rank cs) = Ok cs).
Proof.
  intros n m.
  assert (F : forall j, 0 <= j < binom n m ->
     exists cs, compute_jth_combination_without_replacement (Z.of_nat n) (Z.of_nat m) j = Ok cs /\
                length cs = m /\ desc_below (Z.of_nat n) cs /\ cns_rank cs = j).
  { intros j Hj. unfold compute_jth_combination_without_replacement. rewrite Nat2Z.id.
    apply (cns_outer_spec n m m n j); lia. }
  split; [exact F|].
  intros cs HL HD.
  pose proof (cns_rank_range cs (Z.of_nat n) HD) as R. rewrite Nat2Z.id, HL in R.
  split; [exact R|].
  destruct (F (cns_rank cs) R) as (cs' & E & L' & D' & R').
  rewrite E. f_equal.
  apply (cns_rank_inj cs' cs (Z.of_nat n) (Z.of_nat n)); [lia|exact D'|exact HD|exact R'].
Qed.

Print Assumptions ncm_eq_binom.
Print Assumptions choose_eq_binom.
Print Assumptions cns_bij.
