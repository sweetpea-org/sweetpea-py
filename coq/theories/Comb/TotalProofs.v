(** C13: the explicit-stack / memo machine [krun]
    ([k_prefixes_of_permutations_with_copies]), the memoised recursion
    [recur_count], the two dispatchers and sessions on one shared memo table
    return [Ok] with the value of the clean recursion [cnt] / [pick] /
    [prefix_unrank], for every parameter tuple and every valid memo table,
    and leave a valid table.  The fuel the model supplies ([k_fuel] for the
    stack machine, [q + 2] for the memoised recursion) is sufficient and no
    other error value can come out.  The [_refines] statements are the
    [Ok]-relative weakenings.

    Measure for the stack machine (amortised over the memo table).  Let
    [L = q], [N = first_n], [C = 2 N + 4] and let [pend memo] be the number of
    keys [(s, nd)], [0 <= s < L], [1 <= nd <= N], that the table does not hold
    (a stored [0] counts as absent, as in the code).  A completed
    sub-computation [DoCount s nd ...] that does not contain the wanted index
    takes at most [1 + C * (pend memo - pend memo')] steps: an unmemoised key
    costs its own [DoCount], [k <= N + 1] [DoNext]s, one [DoRecord] and one
    step for each of its [k] children, i.e. [2 k + 2 <= C], and is then stored
    with a non-zero value (the count is positive whenever the symbols
    suffice), so [pend] drops by one; keys of the levels above are not
    touched meanwhile (frame property), so the key is still absent when
    [DoRecord] runs.  A sub-computation that contains the wanted index walks
    one root-to-leaf path: at most [C * (L - s) + 1] further steps.  Hence at
    most [C * L * (N + 1) + 1 <= k_fuel q first_n] steps in all.
    Proof file (no model definitions). *)
From Coq Require Import ZArith List Bool Lia ZifyBool.
From SP Require Import Base.Lists Comb.CombModel Comb.CombSpec Comb.BinomFacts Comb.RadixProofs
  Comb.MultiProofs Comb.PrefixProofs Comb.StackProofs Comb.DispatchProofs Comb.SessionProofs.
Import ListNotations.
Open Scope Z_scope.

Local Notation nonneg cs := (Forall (fun c => 0 <= c) cs).

(** a weaker test keeps at least as many elements, and one more for each element it adds *)
Lemma filt_len : forall (A : Type) (f g : A -> bool) l,
  (forall x, In x l -> f x = true -> g x = true) ->
  (length (filter f l) <= length (filter g l))%nat /\
  forall a, In a l -> f a = false -> g a = true -> (S (length (filter f l)) <= length (filter g l))%nat.
Proof.
  intros A f g. induction l as [|b l IH]; intros H; cbn [filter]; [split; [lia|intros a []]|].
  destruct (IH (fun x Hx => H x (or_intror Hx))) as [Hle Hlt].
  pose proof (H b (or_introl eq_refl)) as Hb.
  split.
  - destruct (f b) eqn:Ef; [rewrite (Hb eq_refl)|destruct (g b)]; cbn [length]; lia.
  - intros a [->|Hin] Hf Hg.
    + rewrite Hf, Hg. cbn [length]. lia.
    + specialize (Hlt a Hin Hf Hg).
      destruct (f b) eqn:Ef; [rewrite (Hb eq_refl)|destruct (g b)]; cbn [length]; lia.
Qed.

(** the potential: keys of the table not yet filled *)

Definition unset (memo : memo_t) (k : Z * Z) : bool :=
  match memo_truthy k memo with None => true | Some _ => false end.
Definition keys (L N : nat) : list (Z * Z) :=
  list_prod (map Z.of_nat (seq 0 L)) (map Z.of_nat (seq 1 N)).
Definition pend (L N : nat) (memo : memo_t) : nat := length (filter (unset memo) (keys L N)).

Lemma in_keys : forall L N i nd, (i < L)%nat -> 1 <= nd <= Z.of_nat N ->
  In (Z.of_nat i, nd) (keys L N).
Proof.
  intros L N i nd Hi Hnd. unfold keys. apply in_prod.
  - apply in_map. apply in_seq. lia.
  - replace nd with (Z.of_nat (Z.to_nat nd)) by lia. apply in_map. apply in_seq. lia.
Qed.

Lemma keys_length : forall L N, length (keys L N) = (L * N)%nat.
Proof. intros. unfold keys. rewrite prod_length, !map_length, !seq_length. reflexivity. Qed.

Lemma pend_le : forall L N memo, (pend L N memo <= L * N)%nat.
Proof. intros. unfold pend. rewrite <- keys_length. apply filter_length_le. Qed.

Lemma memo_truthy_set : forall k k' v m,
  memo_truthy k' (memo_set k v m) =
  if key_eqb k' k then (if v =? 0 then None else Some v) else memo_truthy k' m.
Proof.
  intros. unfold memo_truthy. rewrite memo_get_set. destruct (key_eqb k' k); reflexivity.
Qed.

Lemma unset_set_mono : forall k v memo x, v <> 0 ->
  unset (memo_set k v memo) x = true -> unset memo x = true.
Proof.
  intros k v memo x Hv Hx. unfold unset in *. rewrite memo_truthy_set in Hx.
  destruct (key_eqb x k).
  - destruct (v =? 0) eqn:E; [lia|discriminate].
  - exact Hx.
Qed.

Lemma pend_set_lt : forall L N k v memo, v <> 0 -> In k (keys L N) -> memo_truthy k memo = None ->
  (S (pend L N (memo_set k v memo)) <= pend L N memo)%nat.
Proof.
  intros L N k v memo Hv Hin Hnone. unfold pend.
  apply (proj2 (filt_len _ _ _ _ (fun x _ => unset_set_mono k v memo x Hv)) k Hin).
  - unfold unset. rewrite memo_truthy_set, key_eqb_refl. destruct (v =? 0) eqn:E; [lia|reflexivity].
  - unfold unset. rewrite Hnone. reflexivity.
Qed.

Lemma cnt_loop_ge_term : forall tl need k v acc u, v <= u < v + Z.of_nat k ->
  acc + binomZ need u * cnt tl (need - u) <= cnt_loop tl need k v acc.
Proof.
  intros tl need. induction k as [|k IH]; intros v acc u Hu; [lia|].
  rewrite cnt_loop_S.
  destruct (Z.eq_dec u v) as [->|Hne].
  - apply cnt_loop_ge.
  - pose proof (IH (v + 1) (acc + binomZ need v * cnt tl (need - v)) u ltac:(lia)) as H.
    pose proof (binomZ_nonneg need v). pose proof (cnt_nonneg tl (need - v)). nia.
Qed.

Lemma cnt_pos : forall l, nonneg l -> forall need, 0 <= need <= zsum l -> 0 < cnt l need.
Proof.
  induction 1 as [|c tl Hc Htl IH]; intros need Hn.
  - cbn [zsum] in Hn. assert (need = 0) by lia. subst need. rewrite cnt_nil. cbn. lia.
  - cbn [zsum] in Hn. rewrite cnt_cons.
    pose proof (zsum_nonneg tl Htl) as Hz.
    pose proof (cnt_loop_ge_term tl need (Z.to_nat (Z.min c need + 1)) 0 0 (Z.min c need) ltac:(lia)) as H.
    pose proof (binomZ_pos need (Z.min c need) ltac:(lia)) as Hb.
    pose proof (IH (need - Z.min c need) ltac:(lia)) as Hc'.
    pose proof (Z.mul_pos_pos _ _ Hb Hc') as Hp. lia.
Qed.

Lemma alloc_mult_app : forall l1 l2 n,
  alloc_mult n (l1 ++ l2) = alloc_mult n l1 * alloc_mult (n - zsum l1) l2.
Proof.
  induction l1 as [|a l1 IH]; intros l2 n; cbn [app alloc_mult zsum].
  - replace (n - 0) with n by lia. lia.
  - rewrite IH. replace (n - a - zsum l1) with (n - (a + zsum l1)) by lia. ring.
Qed.

Lemma alloc_mult_zeros : forall k, alloc_mult 0 (repeat 0 k) = 1.
Proof.
  induction k as [|k IH]; [reflexivity|]. cbn [repeat alloc_mult].
  change (0 - 0) with 0. rewrite IH, binomZ_0_0. reflexivity.
Qed.

(** the fuel of the model covers the step bound *)
Lemma fuel_covers : forall (L N steps p : nat) (q first_n : Z),
  q = Z.of_nat L -> first_n = Z.of_nat N -> (p <= L * N)%nat ->
  (steps <= (2 * N + 4) * L + 1 + (2 * N + 4) * p)%nat ->
  (steps <= k_fuel q first_n)%nat.
Proof.
  intros L N steps p q first_n -> -> Hp Hs. unfold k_fuel.
  rewrite !Z.max_l by lia.
  apply (Nat.mul_le_mono_l _ _ (2 * N + 4)) in Hp.
  assert (Hl : 0 <= Z.of_nat L) by lia. assert (Hn : 0 <= Z.of_nat N) by lia.
  (* the monomials of the two sides, so that [lia] suffices *)
  pose proof (Z.mul_nonneg_nonneg _ _ Hl Hn) as Hln.
  pose proof (Z.mul_nonneg_nonneg _ _ Hln Hn) as Hlnn.
  pose proof (Z.mul_nonneg_nonneg _ _ Hn Hn) as Hnn.
  apply Nat2Z.inj_le. rewrite Z2Nat.id; lia.
Qed.

(** the indices below child [v] of a node, and those past it, among the [(R - acc) * mult] still open *)
Lemma child_share : forall R acc bn R1 mult, acc + bn * R1 <= R -> 0 <= R1 -> 0 < bn -> 0 < mult ->
  0 <= R1 * (bn * mult) <= (R - acc) * mult /\ 0 <= (R - (acc + R1 * bn)) * mult.
Proof. intros. nia. Qed.

Section Total.
Variables (q : Z) (mc : moc) (first_n : Z).
Hypothesis Hpar : params_ok q mc.
Hypothesis Hfn : 0 <= first_n.
Local Notation cs := (cs_of q mc).
Local Notation L := (length (cs_of q mc)).
Local Notation N := (Z.to_nat first_n).
Local Notation C := (2 * Z.to_nat first_n + 4)%nat.

Definition phi (memo : memo_t) : nat := (C * pend L N memo)%nat.
Definition pathc (i : nat) : nat := (C * (L - i))%nat.

Lemma pathc_S : forall i, (i < L)%nat -> pathc i = (C + pathc (S i))%nat.
Proof.
  intros i Hi. unfold pathc. replace (L - i)%nat with (S (L - S i)) by lia.
  rewrite Nat.mul_succ_r. lia.
Qed.

Lemma phi_set_lt : forall i nd v memo, (i < L)%nat -> 1 <= nd <= first_n -> v <> 0 ->
  memo_truthy (Z.of_nat i, nd) memo = None ->
  (phi (memo_set (Z.of_nat i, nd) v memo) + C <= phi memo)%nat.
Proof.
  intros i nd v memo Hi Hnd Hv Hnone. unfold phi.
  pose proof (pend_set_lt L N (Z.of_nat i, nd) v memo Hv (in_keys L N i nd Hi ltac:(lia)) Hnone) as H.
  apply (Nat.mul_le_mono_l _ _ C) in H. rewrite Nat.mul_succ_r in H. lia.
Qed.

(** the machine state [DoCount i need b mult] is consistent: [b] the
    allocation so far, [mult] its number of interleavings *)
Definition inv (i : nat) (need : Z) (b : list Z) (mult : Z) : Prop :=
  (i <= L)%nat /\ 0 <= need <= first_n /\ length b = i /\ nonneg b /\
  mult = alloc_mult first_n (rev b) /\ need = first_n - zsum (rev b) /\ 0 < mult.

(** [n] steps lead from the first machine state to the second, whatever fuel is left *)
Definition runs (n : nat) (ks : list frame) (value find : Z) (memo : memo_t)
                (ks' : list frame) (value' find' : Z) (memo' : memo_t) : Prop :=
  forall f, krun (n + f) q mc first_n ks value find memo = krun f q mc first_n ks' value' find' memo'.

Lemma runs_trans : forall {n m ks v fd mm ks1 v1 fd1 mm1 ks2 v2 fd2 mm2},
  runs n ks v fd mm ks1 v1 fd1 mm1 -> runs m ks1 v1 fd1 mm1 ks2 v2 fd2 mm2 ->
  runs (n + m) ks v fd mm ks2 v2 fd2 mm2.
Proof. intros * H1 H2 f. rewrite <- Nat.add_assoc, H1. apply H2. Qed.

(** the wanted index once [T] sequences were passed over; [-1]: none is wanted *)
Definition past (find T : Z) : Z := if find =? -1 then -1 else find - T.

Lemma past_past : forall find T1 T2, find = -1 \/ T1 <= find ->
  past (past find T1) T2 = past find (T1 + T2).
Proof. intros find T1 T2 H. unfold past. destruct (find =? -1) eqn:E; [reflexivity|]. destruct (find - T1 =? -1) eqn:E1; lia. Qed.

(** the frame [fr] completes without finding the index: it hands [R] to the
    rest of the stack, with the index moved by [T] *)
Definition skip_out (i : nat) (fr : frame) (ks : list frame) (value find : Z) (memo : memo_t)
  (R T : Z) (cdrop cskip : nat) : Prop :=
  exists steps memo',
    memo_valid q mc memo' /\
    (forall s nd, s < Z.of_nat i -> memo_get (s, nd) memo' = memo_get (s, nd) memo) /\
    (steps + phi memo' + cdrop <= cskip + phi memo)%nat /\
    runs steps (fr :: ks) value find memo ks R (past find T) memo'.

(** [w] is the word built from the allocation [b] so far and the clean choice [pk] below it *)
Definition builds (b : list Z) (pk : option (list Z * Z)) (w : list Z) : Prop :=
  exists vs res, pk = Some (vs, res) /\ construct_with_copies res q first_n (rev b ++ vs) = Ok w.

(** the frame [fr] contains the index: the machine stops with the word *)
Definition found_out (fr : frame) (ks : list frame) (value find : Z) (memo : memo_t)
  (b : list Z) (pk : option (list Z * Z)) (cfound : nat) : Prop :=
  exists steps memo' w,
    (steps + phi memo' <= cfound + phi memo)%nat /\ builds b pk w /\ memo_valid q mc memo' /\
    forall f, krun (steps + f) q mc first_n (fr :: ks) value find memo = Ok (KPerm w, memo').

(** a run up to a state from which the frame on top skips, resp. finds *)
Lemma skip_after : forall {n i fr ks value find memo fr1 value1 find1 memo1 R T T1 d d1 c c1},
  runs n (fr :: ks) value find memo (fr1 :: ks) value1 find1 memo1 ->
  (forall s nd, s < Z.of_nat i -> memo_get (s, nd) memo1 = memo_get (s, nd) memo) ->
  (n + phi memo1 + c1 + d <= c + phi memo + d1)%nat ->
  past find1 T1 = past find T ->
  skip_out i fr1 ks value1 find1 memo1 R T1 d1 c1 -> skip_out i fr ks value find memo R T d c.
Proof.
  intros * Hrun Hfr Hc Hp (steps & memo' & Hv & Hfr' & Hb & Hr). exists (n + steps)%nat, memo'.
  split; [exact Hv|]. split; [intros s nd Hs; rewrite Hfr' by exact Hs; apply Hfr; exact Hs|].
  split; [lia|]. rewrite <- Hp. exact (runs_trans Hrun Hr).
Qed.

Lemma found_after : forall {n fr ks value find memo fr1 ks1 value1 find1 memo1 b pk b1 pk1 c c1},
  runs n (fr :: ks) value find memo (fr1 :: ks1) value1 find1 memo1 ->
  (n + phi memo1 + c1 <= c + phi memo)%nat ->
  (forall w, builds b1 pk1 w -> builds b pk w) ->
  found_out fr1 ks1 value1 find1 memo1 b1 pk1 c1 -> found_out fr ks value find memo b pk c.
Proof.
  intros * Hrun Hc Hw (steps & memo' & w & Hb & Hbw & Hm & Hr). exists (n + steps)%nat, memo', w.
  split; [lia|]. split; [apply Hw; exact Hbw|]. split; [exact Hm|].
  intros f. rewrite <- Nat.add_assoc, Hrun. apply Hr.
Qed.

Definition Pst_at (i : nat) (need : Z) (b : list Z) (mult : Z) (ks : list frame) (value find : Z)
  (memo : memo_t) : Prop :=
  ((find = -1 \/ cnt (skipn i cs) need * mult <= find) ->
     skip_out i (DoCount (Z.of_nat i) need b mult) ks value find memo
              (cnt (skipn i cs) need) (cnt (skipn i cs) need * mult) 0 1) /\
  (0 <= find < cnt (skipn i cs) need * mult ->
     found_out (DoCount (Z.of_nat i) need b mult) ks value find memo
               b (pick (skipn i cs) need find mult) (pathc i + 1)).

Definition Pst (i : nat) : Prop := forall need b mult ks value find memo,
  inv i need b mult -> -1 <= find -> memo_valid q mc memo -> Pst_at i need b mult ks value find memo.

Definition Qst (i k : nat) : Prop :=
  forall c tl need b mult ks value find memo v count this_mult,
  skipn i cs = c :: tl -> inv i need b mult -> 0 < need -> -1 <= find ->
  memo_valid q mc memo -> 0 <= v -> (1 <= k)%nat -> Z.of_nat k = Z.min c need + 1 - v ->
  need <= zsum (c :: tl) ->
  cnt_loop tl need k v (count + value * this_mult) = cnt (c :: tl) need ->
  ((find = -1 \/ (cnt (c :: tl) need - (count + value * this_mult)) * mult <= find) ->
     memo_truthy (Z.of_nat i, need) memo = None ->
     skip_out i (DoNext v (Z.of_nat i) need count b mult this_mult) ks value find memo
              (cnt (c :: tl) need) ((cnt (c :: tl) need - (count + value * this_mult)) * mult)
              C (2 * k + 1)) /\
  (0 <= find < (cnt (c :: tl) need - (count + value * this_mult)) * mult ->
     found_out (DoNext v (Z.of_nat i) need count b mult this_mult) ks value find memo
               b (pick_loop tl need mult k v find) (2 * k + pathc (S i))).

(** how a frame that knows its count [R] passes it on: the index moves by [T = R * mult] *)
Lemma hand_over : forall f ks R find T memo A, (find = -1 \/ T <= find) -> -1 <= find ->
  (if find >? -1 then if find <? T then A else krun f q mc first_n ks R (find - T) memo
   else krun f q mc first_n ks R find memo) = krun f q mc first_n ks R (past find T) memo.
Proof.
  intros f ks R find T memo A Hm Hf. unfold past.
  destruct (find >? -1) eqn:Ef; [destruct (find <? T) eqn:Elt; [lia|]|];
    f_equal; destruct (find =? -1) eqn:E; lia.
Qed.

(** one machine step that skips *)
Lemma skip_one : forall i fr ks value find memo R T,
  memo_valid q mc memo -> runs 1 (fr :: ks) value find memo ks R (past find T) memo ->
  skip_out i fr ks value find memo R T 0 1.
Proof.
  intros i fr ks value find memo R T Hval H. exists 1%nat, memo.
  split; [exact Hval|]. split; [reflexivity|]. split; [lia|exact H].
Qed.

(** [DoRecord] stores the count of a key that was absent *)
Lemma record_out : forall i v need acc bn ks R1 find memo R,
  (i < L)%nat -> 1 <= need <= first_n -> R = acc + R1 * bn -> R = cnt (skipn i cs) need -> R <> 0 ->
  memo_valid q mc memo -> memo_truthy (Z.of_nat i, need) memo = None ->
  skip_out i (DoRecord v (Z.of_nat i) need acc bn) ks R1 find memo R 0 C 1.
Proof.
  intros i v need acc bn ks R1 find memo R Hi Hn -> HR H0 Hval Hnone.
  exists 1%nat, (memo_set (Z.of_nat i, need) (acc + R1 * bn) memo).
  split; [apply memo_valid_set; [exact Hval|rewrite Nat2Z.id; exact HR]|].
  split.
  { intros s nd Hs. rewrite memo_get_set.
    destruct (key_eqb (s, nd) (Z.of_nat i, need)) eqn:E; [apply key_eqb_true in E; lia|reflexivity]. }
  split; [pose proof (phi_set_lt i need _ memo Hi Hn H0 Hnone); lia|].
  intros f. replace (past find 0) with find by (unfold past; destruct (find =? -1) eqn:E; lia).
  apply krun_DoRecord.
Qed.

Lemma DoNext_step : forall i v need count b mult tm ks value find memo,
  (i < L)%nat -> 0 <= v <= need ->
  runs 1 (DoNext v (Z.of_nat i) need count b mult tm :: ks) value find memo
       (DoCount (Z.of_nat (S i)) (need - v) (v :: b) (binomZ need v * mult)
        :: (if v <? Z.min (nth i cs 0) need
            then DoNext (v + 1) (Z.of_nat i) need (count + value * tm) b mult (binomZ need v)
            else DoRecord v (Z.of_nat i) need (count + value * tm) (binomZ need v)) :: ks)
       value find memo.
Proof.
  intros i v need count b mult tm ks value find memo Hi Hv f. change (1 + f)%nat with (S f).
  rewrite krun_DoNext, count_interleavings_ok by exact Hv.
  rewrite (available_at_ok q mc i Hi). cbn [bind].
  replace (Z.of_nat i + 1) with (Z.of_nat (S i)) by lia. reflexivity.
Qed.

Lemma inv_child : forall i need b mult v, inv i need b mult -> (i < L)%nat -> 0 <= v <= need ->
  inv (S i) (need - v) (v :: b) (binomZ need v * mult).
Proof.
  intros i need b mult v (Hi & Hn & Hlen & Hb & Hm & Hs & Hp) Hil Hv.
  pose proof (binomZ_pos need v Hv) as Hbn.
  unfold inv. cbn [rev length]. rewrite alloc_mult_app, zsum_app. cbn [alloc_mult zsum].
  rewrite <- Hm, <- Hs.
  split; [lia|]. split; [lia|]. split; [lia|]. split; [constructor; [lia|exact Hb]|].
  split; [ring|]. split; [lia|apply Z.mul_pos_pos; assumption].
Qed.

Lemma Q_vac : forall i k, (L <= i)%nat -> Qst i k.
Proof.
  intros i k Hi c tl need b mult ks value find memo v count this_mult Hsk.
  apply skipn_cons_inv in Hsk. lia.
Qed.

Lemma Q_step : forall i, Pst (S i) -> forall k, Qst i k.
Proof.
  intros i HP. induction k as [|k0 IHk];
    intros c tl need b mult ks value find memo v count this_mult
           Hsk Hinv Hneed Hfind Hval Hv Hk1 Hk Hav Hcl; [lia|].
  set (acc := count + value * this_mult) in *.
  pose proof (skipn_cons_inv _ _ _ _ Hsk) as (Hi & Hc & Htl).
  set (bn := binomZ need v) in *.
  set (R1 := cnt tl (need - v)).
  set (T1 := R1 * (bn * mult)).
  set (R := cnt (c :: tl) need) in *.
  set (T2 := (R - (acc + R1 * bn)) * mult).
  rewrite cnt_loop_S in Hcl. fold bn R1 in Hcl.
  pose proof Hinv as (_ & Hnd & _ & _ & _ & _ & Hmult).
  destruct (child_share R acc bn R1 mult) as [[HT10 HT1] HT20];
    [rewrite <- Hcl; apply cnt_loop_ge | apply cnt_nonneg | apply binomZ_pos; lia | exact Hmult|].
  fold T1 in HT10, HT1. fold T2 in HT20.
  replace ((R - acc) * mult) with (T1 + T2) by (unfold T1, T2; ring).
  pose proof (inv_child i need b mult v Hinv Hi ltac:(lia)) as Hinv'.
  pose proof (DoNext_step i v need count b mult this_mult ks value find memo Hi ltac:(lia)) as Hstep.
  rewrite <- Hc in Hstep. fold bn acc in Hinv', Hstep.
  match type of Hstep with runs _ _ _ _ _ (_ :: ?fr :: _) _ _ _ => set (k1 := fr) in Hstep end.
  destruct (HP (need - v) (v :: b) (bn * mult) (k1 :: ks) value find memo Hinv' Hfind Hval) as [HPs HPf].
  rewrite <- Htl in HPs, HPf. fold R1 T1 in HPs, HPf.
  pose proof (pick_loop_S tl need mult k0 v find) as Epk. fold bn R1 T1 in Epk.
  (* the frame [k1] under the child, given the count [R1] of the child: [DoRecord]
     after the last child, else the remaining iterations *)
  assert (Hcont : forall fd memo1, -1 <= fd -> memo_valid q mc memo1 ->
    ((fd = -1 \/ T2 <= fd) -> memo_truthy (Z.of_nat i, need) memo1 = None ->
       skip_out i k1 ks R1 fd memo1 R T2 C (2 * k0 + 1)) /\
    (0 <= fd < T2 ->
       found_out k1 ks R1 fd memo1 b (pick_loop tl need mult k0 (v + 1) fd) (2 * k0 + pathc (S i)))).
  { intros fd memo1 Hfd Hv1. unfold k1. destruct k0 as [|k'].
    - assert (Ek : (v <? Z.min c need) = false) by lia. rewrite Ek.
      cbn [cnt_loop] in Hcl.
      assert (HT2 : T2 = 0) by (unfold T2; replace (R - (acc + R1 * bn)) with 0 by lia; reflexivity).
      rewrite HT2. split; [intros _ Hn1|lia].
      assert (HRpos : 0 < R).
      { unfold R. apply cnt_pos; [|lia]. rewrite <- Hsk. apply Forall_skipn. apply Hpar. }
      apply record_out; try assumption; try lia. rewrite Hsk. reflexivity.
    - assert (Ek : (v <? Z.min c need) = true) by lia. rewrite Ek.
      assert (Hcl' : cnt_loop tl need (S k') (v + 1) (acc + R1 * bn) = cnt (c :: tl) need).
      { fold R. rewrite <- Hcl. f_equal. ring. }
      exact (IHk c tl need b mult ks R1 fd memo1 (v + 1) acc bn Hsk Hinv Hneed Hfd Hv1
                 ltac:(lia) ltac:(lia) ltac:(lia) Hav Hcl'). }
  split.
  - intros Hmode Hnone.
    destruct (HPs ltac:(lia)) as (steps1 & memo1 & Hv1 & Hfr1 & Hb1 & Hrun1).
    assert (Hn1 : memo_truthy (Z.of_nat i, need) memo1 = None).
    { unfold memo_truthy. rewrite Hfr1 by lia. exact Hnone. }
    assert (Hf1 : -1 <= past find T1 /\ (past find T1 = -1 \/ T2 <= past find T1))
      by (unfold past; destruct (find =? -1) eqn:E; lia).
    eapply skip_after with (1 := runs_trans Hstep Hrun1)
      (5 := proj1 (Hcont _ memo1 (proj1 Hf1) Hv1) (proj2 Hf1) Hn1).
    + intros s nd Hs. apply Hfr1. lia.
    + lia.
    + apply past_past. lia.
  - intros Hf. destruct (Z_lt_dec find T1) as [Hlt1|Hge1].
    + (* the index is inside the current child *)
      eapply found_after with (1 := Hstep) (4 := HPf ltac:(lia)); [lia|].
      intros w (vs & res & Hpk & Hcw). exists (v :: vs), res. split.
      * rewrite Epk, Hpk. destruct (find <? T1) eqn:E; [reflexivity|lia].
      * cbn [rev] in Hcw. rewrite <- app_assoc in Hcw. exact Hcw.
    + destruct (HPs ltac:(lia)) as (steps1 & memo1 & Hv1 & Hfr1 & Hb1 & Hrun1).
      replace (past find T1) with (find - T1) in Hrun1 by (unfold past; destruct (find =? -1) eqn:E; lia).
      eapply found_after with (1 := runs_trans Hstep Hrun1)
        (4 := proj2 (Hcont (find - T1) memo1 ltac:(lia) Hv1) ltac:(lia)); [lia|].
      rewrite Epk. destruct (find <? T1) eqn:E; [lia|]. auto.
Qed.

(** a complete allocation: one index per interleaving, unranked by [construct_with_copies] *)
Lemma P_leaf : forall i b mult ks value find memo,
  inv i 0 b mult -> -1 <= find -> memo_valid q mc memo -> Pst_at i 0 b mult ks value find memo.
Proof.
  intros i b mult ks value find memo (Hi & _ & Hlen & Hb & Hm & Hs & Hmult) Hfind Hval.
  destruct Hpar as [Hq Hnn].
  assert (Hsuf : nonneg (skipn i cs)) by (apply Forall_skipn; exact Hnn).
  unfold Pst_at. rewrite (cnt_zero _ Hsuf). split.
  - intros Hmode. apply skip_one; [exact Hval|]. intros f. change (1 + f)%nat with (S f).
    rewrite krun_DoCount. cbn [Z.eqb]. rewrite Z.mul_1_l in *. apply hand_over; assumption.
  - intros Hf.
    set (cs' := rev b ++ repeat 0 (Z.to_nat q - length (rev b))).
    assert (Hnn' : nonneg cs') by (apply Forall_app; split; [apply Forall_rev; exact Hb|apply nonneg_repeat; lia]).
    assert (Hlen' : Z.of_nat (length cs') = q).
    { unfold cs'. rewrite app_length, repeat_length, rev_length. lia. }
    assert (Hz' : zsum cs' = first_n).
    { unfold cs'. rewrite zsum_app, zsum_repeat. lia. }
    assert (Hmn : multinomial cs' = mult).
    { rewrite <- (alloc_mult_multinomial cs' first_n Hnn' Hz'). unfold cs'.
      rewrite alloc_mult_app, <- Hm. replace (first_n - zsum (rev b)) with 0 by lia.
      rewrite alloc_mult_zeros. lia. }
    destruct (multiperm_bij cs' Hnn') as [Hfwd _].
    destruct (Hfwd find ltac:(lia)) as (w & Hw & _).
    rewrite Hlen', Hz' in Hw.
    exists 1%nat, memo, w. split; [lia|]. split.
    { exists (repeat 0 (length (skipn i cs))), find.
      split; [apply pick_zero; [exact Hsuf|lia]|].
      rewrite skipn_length. replace (L - i)%nat with (Z.to_nat q - length (rev b))%nat
        by (rewrite rev_length; lia). exact Hw. }
    split; [exact Hval|].
    intros f. change (1 + f)%nat with (S f). rewrite krun_DoCount. cbn [Z.eqb].
    destruct (find >? -1) eqn:Ef; [|lia]. destruct (find <? mult) eqn:Elt; [|lia].
    unfold buckets_to_counters.
    destruct (Nat.ltb (Z.to_nat q) (length (rev b))) eqn:Eb;
      [apply Nat.ltb_lt in Eb; rewrite rev_length in Eb; lia|].
    cbn [bind]. fold cs'. rewrite Hw. reflexivity.
Qed.

(** nothing to count: one step hands [0] on *)
Lemma P_none : forall i need b mult ks value find memo, memo_valid q mc memo ->
  cnt (skipn i cs) need = 0 ->
  runs 1 (DoCount (Z.of_nat i) need b mult :: ks) value find memo ks 0 find memo ->
  Pst_at i need b mult ks value find memo.
Proof.
  intros i need b mult ks value find memo Hval Hz Hr. unfold Pst_at. rewrite Hz.
  split; [intros _|lia]. apply skip_one; [exact Hval|].
  replace (past find (0 * mult)) with find by (unfold past; destruct (find =? -1) eqn:E; lia).
  exact Hr.
Qed.

Lemma P_step : forall i, (forall k, Qst i k) -> Pst i.
Proof.
  intros i HQ need b mult ks value find memo Hinv Hfind Hval.
  destruct (need =? 0) eqn:En.
  { assert (need = 0) by lia. subst need. apply P_leaf; assumption. }
  pose proof Hinv as (Hi & Hnd & _).
  destruct Hpar as [Hq Hnn].
  assert (Hsuf : nonneg (skipn i cs)) by (apply Forall_skipn; exact Hnn).
  pose proof (fun f => krun_DoCount f q mc first_n (Z.of_nat i) need b mult ks value find memo) as Hstep.
  rewrite En in Hstep.
  destruct (Z.of_nat i >=? q) eqn:Eq.
  { apply P_none; [exact Hval| |exact Hstep]. rewrite skipn_all2 by lia. rewrite cnt_nil, En. reflexivity. }
  pose proof (available_after_ok q mc i (conj Hq Hnn) ltac:(lia)) as Hav.
  destruct (available_after q mc (Z.of_nat i) <? need) eqn:Ea.
  { apply P_none; [exact Hval| |exact Hstep]. apply cnt_short; [exact Hsuf|lia|lia]. }
  assert (Hil : (i < L)%nat) by lia.
  pose proof (skipn_nth_cons cs i 0 Hil) as Hsk. rewrite Hsk in Hav.
  set (c := nth i cs 0) in *. set (tl := skipn (S i) cs) in *.
  assert (Hc : 0 <= c) by (unfold c; apply nth_nonneg; exact Hnn).
  set (k := Z.to_nat (Z.min c need + 1)).
  assert (Hk2 : (2 * k <= 2 * N + 2)%nat) by (unfold k; lia).
  destruct (HQ k c tl need b mult ks 0 find memo 0 0 0 Hsk Hinv ltac:(lia) Hfind Hval ltac:(lia)
               ltac:(unfold k; lia) ltac:(unfold k; lia) ltac:(lia)
               (eq_sym (cnt_cons c tl need))) as [HQs HQf].
  replace ((cnt (c :: tl) need - (0 + 0 * 0)) * mult) with (cnt (c :: tl) need * mult) in HQs, HQf by ring.
  unfold Pst_at. rewrite Hsk.
  assert (Hmv : forall mv, memo_truthy (Z.of_nat i, need) memo = Some mv -> mv = cnt (c :: tl) need).
  { intros mv Em. pose proof (memo_truthy_some _ _ _ Em) as [Hg _].
    pose proof (Hval _ _ _ Hg ltac:(lia) ltac:(lia)) as Hg'. rewrite Nat2Z.id, Hsk in Hg'. exact Hg'. }
  (* the node is expanded unless the table knows its count and the index is not inside *)
  assert (Hd : memo_truthy (Z.of_nat i, need) memo = None \/ 0 <= find < cnt (c :: tl) need * mult ->
               runs 1 (DoCount (Z.of_nat i) need b mult :: ks) value find memo
                      (DoNext 0 (Z.of_nat i) need 0 b mult 0 :: ks) 0 find memo).
  { intros H f. change (1 + f)%nat with (S f). rewrite Hstep.
    destruct (memo_truthy (Z.of_nat i, need) memo) as [mv|]; [|reflexivity].
    destruct H as [H|H]; [discriminate|]. rewrite (Hmv mv eq_refl).
    destruct (find >? -1) eqn:Ef; [|lia]. destruct (find <? cnt (c :: tl) need * mult) eqn:Elt; [reflexivity|lia]. }
  split.
  - intros Hmode. destruct (memo_truthy (Z.of_nat i, need) memo) as [mv|].
    + apply skip_one; [exact Hval|]. intros f. change (1 + f)%nat with (S f).
      rewrite Hstep, (Hmv mv eq_refl). apply hand_over; assumption.
    + eapply skip_after with (1 := Hd (or_introl eq_refl)) (5 := HQs Hmode eq_refl); [reflexivity|lia|reflexivity].
  - intros Hf. eapply found_after with (1 := Hd (or_intror Hf)) (4 := HQf Hf); [rewrite (pathc_S i Hil); lia|auto].
Qed.

Lemma P_all : forall i, Pst i.
Proof.
  assert (H : forall d i, (L - i <= d)%nat -> Pst i).
  { induction d as [|d IH]; intros i Hd.
    - apply P_step. intros k. apply Q_vac. lia.
    - apply P_step. apply Q_step. apply IH. lia. }
  intros i. apply (H (L - i)%nat). lia.
Qed.

Lemma inv_start : inv 0 first_n [] 1.
Proof. unfold inv. cbn [rev length alloc_mult zsum]. repeat split; try lia. constructor. Qed.

(** a whole run, the path to a leaf and every key of the table, is within the fuel of the model *)
Lemma steps_covered : forall steps memo memo' c,
  (steps + phi memo' <= c + phi memo)%nat -> (c <= pathc 0 + 1)%nat -> (steps <= k_fuel q first_n)%nat.
Proof.
  intros steps memo memo' c Hb Hc. destruct Hpar as [Hq _].
  apply (fuel_covers L N steps (pend L N memo) q first_n Hq ltac:(lia) (pend_le L N memo)).
  unfold phi, pathc in *. replace (L - 0)%nat with L in Hc by lia. lia.
Qed.

(** the machine started on the whole problem, with any fuel at least [k_fuel] *)
Lemma krun_count_total : forall memo fuel, memo_valid q mc memo -> (k_fuel q first_n <= fuel)%nat ->
  exists memo', krun fuel q mc first_n [DoCount 0 first_n [] 1] 0 (-1) memo =
                  Ok (KCount (cnt cs first_n), memo') /\ memo_valid q mc memo'.
Proof.
  intros memo fuel Hval Hfuel.
  destruct (P_all 0%nat first_n [] 1 [] 0 (-1) memo inv_start ltac:(lia) Hval) as [Hs _].
  destruct (Hs (or_introl eq_refl)) as (steps & memo' & Hv' & _ & Hb & Hrun).
  pose proof (steps_covered steps memo memo' 1 ltac:(lia) ltac:(lia)) as Hle.
  exists memo'. split; [|exact Hv'].
  replace fuel with (steps + (fuel - steps))%nat by lia.
  change (Z.of_nat 0) with 0 in Hrun. rewrite Hrun. rewrite krun_nil. reflexivity.
Qed.

Lemma krun_unrank_total : forall memo fuel j, memo_valid q mc memo -> 0 <= j < cnt cs first_n ->
  (k_fuel q first_n <= fuel)%nat ->
  exists w memo', krun fuel q mc first_n [DoCount 0 first_n [] 1] 0 j memo = Ok (KPerm w, memo') /\
                  prefix_unrank cs first_n j = Some w /\ memo_valid q mc memo'.
Proof.
  intros memo fuel j Hval Hj Hfuel.
  destruct (P_all 0%nat first_n [] 1 [] 0 j memo inv_start ltac:(lia) Hval) as [_ Hf].
  cbn [skipn] in Hf.
  destruct (Hf ltac:(lia)) as (steps & memo' & w & Hb & (vs & res & Hpk & Hcw) & Hm & Hrun).
  pose proof (steps_covered steps memo memo' _ Hb (Nat.le_refl _)) as Hle.
  exists w, memo'. split; [|split; [|exact Hm]].
  - replace fuel with (steps + (fuel - steps))%nat by lia.
    change (Z.of_nat 0) with 0 in Hrun. apply Hrun.
  - unfold prefix_unrank. rewrite Hpk. destruct Hpar as [<- _]. cbn [rev app] in Hcw. rewrite Hcw. reflexivity.
Qed.

End Total.

Theorem k_prefixes_count_total : forall q mc first_n memo,
  params_ok q mc -> 0 <= first_n -> memo_valid q mc memo ->
  exists memo', k_prefixes_of_permutations_with_copies q mc first_n (-1) memo =
                  Ok (KCount (cnt (cs_of q mc) first_n), memo') /\ memo_valid q mc memo'.
Proof.
  intros q mc first_n memo Hp Hn Hval. unfold k_prefixes_of_permutations_with_copies.
  apply krun_count_total; try assumption. lia.
Qed.

Theorem k_prefixes_unrank_total : forall q mc first_n memo j,
  params_ok q mc -> 0 <= first_n -> memo_valid q mc memo -> 0 <= j < cnt (cs_of q mc) first_n ->
  exists w memo', k_prefixes_of_permutations_with_copies q mc first_n j memo = Ok (KPerm w, memo') /\
                  prefix_unrank (cs_of q mc) first_n j = Some w /\ memo_valid q mc memo'.
Proof.
  intros q mc first_n memo j Hp Hn Hval Hj. unfold k_prefixes_of_permutations_with_copies.
  apply krun_unrank_total; try assumption. lia.
Qed.

(** with any fuel at all, an [Ok] is the clean value: the run with enough fuel
    returns it, and more fuel does not change an [Ok] *)
Theorem kprefix_count_refines : forall q mc first_n memo fuel v memo',
  params_ok q mc -> 0 <= first_n -> memo_valid q mc memo ->
  krun fuel q mc first_n [DoCount 0 first_n [] 1] 0 (-1) memo = Ok (v, memo') ->
  v = KCount (cnt (cs_of q mc) first_n) /\ memo_valid q mc memo'.
Proof.
  intros q mc first_n memo fuel v memo' Hp Hn Hval Hrun.
  destruct (krun_count_total q mc first_n Hp Hn memo _ Hval (Nat.le_max_r fuel _)) as (m' & E & V).
  rewrite (krun_more_fuel _ _ _ _ _ _ (Nat.le_max_l fuel _) _ _ _ _ Hrun) in E.
  inversion E; subst. split; [reflexivity|exact V].
Qed.

Theorem kprefix_unrank_refines : forall q mc first_n memo fuel j v memo',
  params_ok q mc -> 0 <= first_n -> memo_valid q mc memo ->
  0 <= j < cnt (cs_of q mc) first_n ->
  krun fuel q mc first_n [DoCount 0 first_n [] 1] 0 j memo = Ok (v, memo') ->
  (exists w, v = KPerm w /\ prefix_unrank (cs_of q mc) first_n j = Some w) /\ memo_valid q mc memo'.
Proof.
  intros q mc first_n memo fuel j v memo' Hp Hn Hval Hj Hrun.
  destruct (krun_unrank_total q mc first_n Hp Hn memo _ j Hval Hj (Nat.le_max_r fuel _)) as (w & m' & E & U & V).
  rewrite (krun_more_fuel _ _ _ _ _ _ (Nat.le_max_l fuel _) _ _ _ _ Hrun) in E.
  inversion E; subst. split; [exists w; split; [reflexivity|exact U]|exact V].
Qed.

Corollary k_prefixes_count_refines : forall q mc first_n memo v memo',
  params_ok q mc -> 0 <= first_n -> memo_valid q mc memo ->
  k_prefixes_of_permutations_with_copies q mc first_n (-1) memo = Ok (v, memo') ->
  v = KCount (cnt (cs_of q mc) first_n) /\ memo_valid q mc memo'.
Proof. intros q mc first_n memo v memo'. apply kprefix_count_refines. Qed.

Corollary k_prefixes_unrank_refines : forall q mc first_n memo j v memo',
  params_ok q mc -> 0 <= first_n -> memo_valid q mc memo ->
  0 <= j < cnt (cs_of q mc) first_n ->
  k_prefixes_of_permutations_with_copies q mc first_n j memo = Ok (v, memo') ->
  (exists w, v = KPerm w /\ prefix_unrank (cs_of q mc) first_n j = Some w) /\ memo_valid q mc memo'.
Proof. intros q mc first_n memo j v memo'. apply kprefix_unrank_refines. Qed.

(** the memoised recursion is at most [q + 1 < q + 2] deep *)

Theorem recur_count_prefixes_total : forall q m first_n memo,
  0 <= q -> 0 <= m -> 0 <= first_n -> memo_valid q (Uniform m) memo ->
  exists memo', recur_count_prefixes_of_permutations_with_copies q m first_n memo =
                  Ok (cnt (repeat m (Z.to_nat q)) first_n, memo') /\ memo_valid q (Uniform m) memo'.
Proof.
  intros q m first_n memo Hq Hm Hn Hval.
  apply (recur_count_spec q m Hq Hm (S (Z.to_nat (q + 1))) 0%nat first_n memo); try assumption; lia.
Qed.

Theorem count_dispatch_total : forall q mc first_n memo,
  params_ok q mc -> 0 <= first_n -> memo_valid q mc memo ->
  exists memo', count_prefixes_of_permutations_with_copies q mc first_n memo =
                  Ok (KCount (cnt (cs_of q mc) first_n), memo') /\ memo_valid q mc memo'.
Proof.
  intros q mc first_n memo Hp Hn Hval. unfold count_prefixes_of_permutations_with_copies.
  destruct mc as [m|cs]; [|apply k_prefixes_count_total; assumption].
  pose proof (params_ok_q_nonneg _ _ Hp) as Hq.
  destruct (first_n <=? m) eqn:Es.
  { exists memo. split; [|exact Hval]. cbn [cs_of].
    rewrite cnt_uniform_small by lia. rewrite Z2Nat.id by lia. reflexivity. }
  destruct ((first_n <? 100) && (q <? 100)); [|apply k_prefixes_count_total; assumption].
  cbn [cs_of]. destruct (Z.eq_dec q 0) as [->|Hq0].
  - rewrite recur_count_prefixes_q0. exists memo. split; [reflexivity|exact Hval].
  - assert (Hm : 0 <= m) by (apply (params_ok_uniform_m q m Hp); lia).
    destruct (recur_count_prefixes_total q m first_n memo Hq Hm Hn Hval) as (memo' & E & V).
    rewrite E. exists memo'. split; [reflexivity|exact V].
Qed.

Theorem unrank_dispatch_total : forall q mc first_n memo j,
  params_ok q mc -> 0 <= first_n -> memo_valid q mc memo -> 0 <= j < cnt (cs_of q mc) first_n ->
  exists w memo', compute_jth_prefix_of_permutations_with_copies q mc first_n j memo = Ok (KPerm w, memo') /\
                  bounded_word (cs_of q mc) first_n w /\ dispatch_rank q mc first_n w = j /\
                  memo_valid q mc memo'.
Proof.
  intros q mc first_n memo j Hp Hn Hval Hj.
  unfold dispatch_rank, compute_jth_prefix_of_permutations_with_copies.
  destruct (small_branch mc first_n) eqn:Es.
  2:{ (* every other case runs the stack machine *)
      replace (match mc with Uniform _ => _ | Counters _ => _ end)
        with (k_prefixes_of_permutations_with_copies q mc first_n j memo)
        by (destruct mc; [cbn [small_branch] in Es; rewrite Es|]; reflexivity).
      destruct (k_prefixes_unrank_total q mc first_n memo j Hp Hn Hval Hj) as (w & memo' & E & Hu & V).
      destruct (prefix_unrank_bij _ _ _ _ (proj2 Hp) Hn Hj Hu) as [Hb Hr].
      exists w, memo'. tauto. }
  destruct mc as [m|cs]; [|discriminate].
  pose proof (params_ok_q_nonneg _ _ Hp) as Hq.
  cbn [small_branch cs_of] in *. rewrite Es.
  rewrite cnt_uniform_small in Hj by lia. rewrite Z2Nat.id in Hj by lia.
  destruct (Z.eq_dec q 0) as [->|Hq0].
  - destruct (Z.eq_dec first_n 0) as [->|Hn0]; [|rewrite Z.pow_0_l in Hj by lia; lia].
    assert (j = 0) by (cbn in Hj; lia). subst j. exists [], memo.
    split; [reflexivity|]. split; [|split; [reflexivity|exact Hval]].
    unfold bounded_word, symbols_below. cbn [length Z.to_nat repeat].
    repeat split; [constructor|]. intros i Hi. lia.
  - destruct (comb_bij (Z.to_nat first_n) q ltac:(lia)) as [H1 _].
    rewrite Z2Nat.id in H1 by lia.
    destruct (H1 j Hj) as (ds & Hc & Hl & Hd & Hr). rewrite Hc. cbn [bind]. exists ds, memo.
    split; [reflexivity|]. split; [|split; [exact Hr|exact Hval]].
    apply uniform_small_words; [lia|]. split; [lia|].
    rewrite Z2Nat.id by lia. exact Hd.
Qed.

Corollary count_dispatch_refines : forall q mc first_n memo v memo',
  params_ok q mc -> 0 <= first_n -> memo_valid q mc memo ->
  count_prefixes_of_permutations_with_copies q mc first_n memo = Ok (v, memo') ->
  v = KCount (cnt (cs_of q mc) first_n) /\ memo_valid q mc memo'.
Proof.
  intros q mc first_n memo v memo' Hp Hn Hval Hrun.
  destruct (count_dispatch_total q mc first_n memo Hp Hn Hval) as (m' & E & V).
  rewrite E in Hrun. inversion Hrun; subst. split; [reflexivity|exact V].
Qed.

Corollary unrank_dispatch_refines : forall q mc first_n memo j v memo',
  params_ok q mc -> 0 <= first_n -> memo_valid q mc memo ->
  0 <= j < cnt (cs_of q mc) first_n ->
  compute_jth_prefix_of_permutations_with_copies q mc first_n j memo = Ok (v, memo') ->
  (exists w, v = KPerm w /\ bounded_word (cs_of q mc) first_n w /\ dispatch_rank q mc first_n w = j) /\
  memo_valid q mc memo'.
Proof.
  intros q mc first_n memo j v memo' Hp Hn Hval Hj Hrun.
  destruct (unrank_dispatch_total q mc first_n memo j Hp Hn Hval Hj) as (w & m' & E & Hb & Hr & V).
  rewrite E in Hrun. inversion Hrun; subst. split; [exists w; tauto|exact V].
Qed.

(** sessions: every call whose arguments are in range returns [Ok] with the right value *)

Definition op_result_total (q : Z) (mc : moc) (op : memo_op) (r : res kres) : Prop :=
  exists v, r = Ok v /\ op_result_ok q mc op (Ok v).

Theorem session_total : forall q mc ops memo, params_ok q mc ->
  Forall (op_in_range q mc) ops -> memo_valid q mc memo ->
  Forall2 (op_result_total q mc) ops (fst (memo_session q mc ops memo)) /\
  memo_valid q mc (snd (memo_session q mc ops memo)).
Proof.
  intros q mc ops memo Hp. revert memo.
  induction ops as [|op tl IH]; intros memo Hr Hval.
  - cbn [memo_session fst snd]. split; [constructor|exact Hval].
  - inversion Hr as [|op' tl' Hop Htl]; subst op' tl'.
    assert (Hstep : exists v memo',
              match op with
              | OpCount fn => count_prefixes_of_permutations_with_copies q mc fn memo
              | OpUnrank fn j => compute_jth_prefix_of_permutations_with_copies q mc fn j memo
              end = Ok (v, memo') /\ op_result_ok q mc op (Ok v) /\ memo_valid q mc memo').
    { destruct op as [fn|fn j]; cbn [op_in_range op_result_ok] in *.
      - destruct (count_dispatch_total q mc fn memo Hp Hop Hval) as (memo' & H & Hm).
        exists (KCount (cnt (cs_of q mc) fn)), memo'. split; [exact H|]. split; [reflexivity|exact Hm].
      - destruct Hop as [Hfn Hj].
        destruct (unrank_dispatch_total q mc fn memo j Hp Hfn Hval Hj) as (w & memo' & H & Hb & Hrk & Hm).
        exists (KPerm w), memo'. split; [exact H|]. split; [|exact Hm].
        exists w. split; [reflexivity|]. split; assumption. }
    destruct Hstep as (v & memo' & He & Hv & Hm').
    cbn [memo_session]. rewrite He.
    destruct (IH memo' Htl Hm') as [IH1 IH2].
    destruct (memo_session q mc tl memo') as [rs mf]. cbn [fst snd] in *.
    split; [|exact IH2].
    constructor; [|exact IH1]. exists v. split; [reflexivity|exact Hv].
Qed.

Corollary session_refines : forall q mc ops memo, params_ok q mc ->
  Forall (op_in_range q mc) ops -> memo_valid q mc memo ->
  Forall2 (op_result_ok q mc) ops (fst (memo_session q mc ops memo)) /\
  memo_valid q mc (snd (memo_session q mc ops memo)).
Proof.
  intros q mc ops memo Hp Hr Hval. destruct (session_total q mc ops memo Hp Hr Hval) as [H V].
  split; [|exact V]. eapply Forall2_imp; [|exact H]. intros op r (v & -> & Hv). exact Hv.
Qed.

(** the fuel of the stack machine is not generous by orders of magnitude: the
    machine really takes a number of steps quadratic in [first_n] *)
Example k_fuel_example :
  k_fuel 3 4 = 736%nat /\
  (exists r, krun 60 3 (Uniform 2) 4 [DoCount 0 4 [] 1] 0 (-1) [] = Ok r) /\
  krun 40 3 (Uniform 2) 4 [DoCount 0 4 [] 1] 0 (-1) [] = Err OutOfFuel.
Proof. split; [vm_compute; reflexivity|]. split; [vm_compute; eauto|vm_compute; reflexivity]. Qed.

Print Assumptions k_prefixes_count_total.
Print Assumptions k_prefixes_unrank_total.
Print Assumptions recur_count_prefixes_total.
Print Assumptions count_dispatch_total.
Print Assumptions unrank_dispatch_total.
Print Assumptions session_total.
