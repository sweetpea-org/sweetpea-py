(** C13: the uniform dispatcher branch [first_n <= m] of
    [compute_jth_prefix_of_permutations_with_copies] / [count_prefixes_...]
    uses [compute_jth_combination first_n q j] and [pow(q, first_n)]; here: the
    words it ranges over (all base-q words of length first_n) are exactly the
    bounded-repetition words when no bound can be reached. *)
From Coq Require Import ZArith List Bool Lia.
From SP Require Import Comb.CombModel Comb.CombSpec Comb.BinomFacts.
Import ListNotations.
Open Scope Z_scope.

Lemma count_sym_le_length : forall w i, 0 <= count_sym w i <= Z.of_nat (length w).
Proof.
  intros w i. unfold count_sym. induction w as [|x w IH]; cbn [count_occ length]; [lia|].
  destruct (Z.eq_dec x i); lia.
Qed.

Theorem uniform_small_words : forall (q : nat) (m first_n : Z) (w : list Z), first_n <= m ->
  (bounded_word (repeat m q) first_n w <->
   Z.of_nat (length w) = first_n /\ Forall (fun d => 0 <= d < Z.of_nat q) w).
Proof.
  intros q m first_n w Hm. unfold bounded_word, symbols_below. rewrite repeat_length. split.
  - intros (H1 & H2 & _). auto.
  - intros (H1 & H2). repeat split; auto. intros i Hi. rewrite nth_repeat_lt by exact Hi.
    pose proof (count_sym_le_length w (Z.of_nat i)). lia.
Qed.

(** the dispatchers on the uniform small branch, literally *)
Theorem dispatch_uniform_small : forall q m first_n j memo, first_n <= m ->
  count_prefixes_of_permutations_with_copies q (Uniform m) first_n memo = Ok (KCount (q ^ first_n), memo) /\
  compute_jth_prefix_of_permutations_with_copies q (Uniform m) first_n j memo =
    match compute_jth_combination first_n q j with Ok p => Ok (KPerm p, memo) | Err e => Err e end.
Proof.
  intros. unfold count_prefixes_of_permutations_with_copies, compute_jth_prefix_of_permutations_with_copies.
  destruct (first_n <=? m) eqn:E; [|lia]. split; [reflexivity|].
  destruct (compute_jth_combination first_n q j); reflexivity.
Qed.

Print Assumptions uniform_small_words.
Print Assumptions dispatch_uniform_small.
