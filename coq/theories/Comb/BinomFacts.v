(** Shared arithmetic facts: factorial, Pascal binomial, the factorial quotient
    [binomZ] of the model, sums.  Proof file (no model definitions). *)
From Coq Require Import ZArith List Bool Lia.
From SP Require Import Comb.CombModel Comb.CombSpec.
Import ListNotations.
Open Scope Z_scope.

Lemma fact_nat_pos : forall n, 0 < fact_nat n.
Proof. induction n; cbn [fact_nat]; lia. Qed.

Lemma fact_nat_S : forall n, fact_nat (S n) = Z.of_nat (S n) * fact_nat n.
Proof. reflexivity. Qed.

Lemma binom_n_0 : forall n, binom n 0 = 1.
Proof. destruct n; reflexivity. Qed.

Lemma binom_S_S : forall n k, binom (S n) (S k) = binom n k + binom n (S k).
Proof. reflexivity. Qed.

Lemma binom_nonneg : forall n k, 0 <= binom n k.
Proof. induction n; destruct k; cbn [binom]; try lia. pose proof (IHn k). pose proof (IHn (S k)). lia. Qed.

Lemma binom_gt : forall n k, (n < k)%nat -> binom n k = 0.
Proof.
  induction n; intros k H; destruct k; try lia; cbn [binom]; try reflexivity.
  rewrite IHn by lia. rewrite IHn by lia. reflexivity.
Qed.

Lemma binom_n_n : forall n, binom n n = 1.
Proof. induction n; cbn [binom]; try reflexivity. rewrite IHn, binom_gt by lia. reflexivity. Qed.

Lemma binom_pos : forall n k, (k <= n)%nat -> 0 < binom n k.
Proof.
  induction n; intros k H; destruct k; cbn [binom]; try lia.
  pose proof (binom_nonneg n (S k)). specialize (IHn k). lia.
Qed.

Lemma binom_fact : forall n k, (k <= n)%nat -> binom n k * (fact_nat k * fact_nat (n - k)) = fact_nat n.
Proof.
  induction n; intros k H.
  - assert (k = 0)%nat by lia. subst. reflexivity.
  - destruct k.
    + rewrite binom_n_0. cbn [fact_nat Nat.sub]. lia.
    + rewrite binom_S_S. replace (S n - S k)%nat with (n - k)%nat by lia.
      destruct (Nat.eq_dec k n) as [->|Hne].
      * rewrite binom_n_n, binom_gt by lia. rewrite Nat.sub_diag. cbn [fact_nat]. lia.
      * assert (Hk : (k <= n)%nat) by lia. assert (Hk' : (S k <= n)%nat) by lia.
        pose proof (IHn k Hk) as E1. pose proof (IHn (S k) Hk') as E2.
        replace (n - k)%nat with (S (n - S k))%nat in * by lia.
        rewrite (fact_nat_S k) in *. rewrite (fact_nat_S (n - S k)) in *. rewrite (fact_nat_S n).
        replace (Z.of_nat (S n)) with (Z.of_nat (S k) + Z.of_nat (S (n - S k))) by lia.
        nia.
Qed.

Lemma binomZ_eq_binom : forall n k, 0 <= k <= n -> binomZ n k = binom (Z.to_nat n) (Z.to_nat k).
Proof.
  intros n k H. unfold binomZ.
  rewrite <- (binom_fact (Z.to_nat n) (Z.to_nat k)) by lia.
  replace (Z.to_nat (n - k)) with (Z.to_nat n - Z.to_nat k)%nat by lia.
  apply Z.div_mul.
  pose proof (fact_nat_pos (Z.to_nat k)). pose proof (fact_nat_pos (Z.to_nat n - Z.to_nat k)). nia.
Qed.

Lemma binom_absorb : forall n k, Z.of_nat (S k) * binom (S n) (S k) = Z.of_nat (S n) * binom n k.
Proof.
  intros n k. destruct (le_lt_dec k n) as [H|H].
  - pose proof (binom_fact (S n) (S k) ltac:(lia)) as E1. pose proof (binom_fact n k H) as E2.
    replace (S n - S k)%nat with (n - k)%nat in E1 by lia.
    rewrite (fact_nat_S k), (fact_nat_S n) in E1.
    pose proof (fact_nat_pos k). pose proof (fact_nat_pos (n - k)).
    assert (0 < fact_nat k * fact_nat (n - k)) by nia.
    apply (Z.mul_reg_r _ _ (fact_nat k * fact_nat (n - k))); [lia|]. nia.
  - rewrite !binom_gt by lia. lia.
Qed.

Lemma binom_mono_n : forall n n' k, (n <= n')%nat -> binom n k <= binom n' k.
Proof.
  intros n n' k H. induction H; [lia|].
  destruct k; [rewrite !binom_n_0; lia|]. rewrite binom_S_S. pose proof (binom_nonneg m k). lia.
Qed.

Lemma ffact_fact : forall n m : nat, (m <= n)%nat ->
  ffact (Z.of_nat n) m * fact_nat (n - m) = fact_nat n.
Proof.
  intros n m; revert n. induction m as [|m IH]; intros n H.
  - cbn [ffact]. rewrite Nat.sub_0_r. lia.
  - destruct n as [|n]; [lia|].
    cbn [ffact]. replace (Z.of_nat (S n) - 1) with (Z.of_nat n) by lia.
    replace (S n - S m)%nat with (n - m)%nat by lia.
    rewrite fact_nat_S. rewrite <- (IH n) by lia. ring.
Qed.

Lemma ffact_pos : forall n m : nat, (m <= n)%nat -> 0 < ffact (Z.of_nat n) m.
Proof.
  intros n m H. pose proof (ffact_fact n m H) as E.
  pose proof (fact_nat_pos (n - m)). pose proof (fact_nat_pos n). nia.
Qed.

Lemma sumZ_acc : forall l a, fold_left Z.add l a = a + zsum l.
Proof. induction l; intros; cbn [fold_left zsum]; [lia|]. rewrite IHl. lia. Qed.
Lemma sumZ_zsum : forall l, sumZ l = zsum l.
Proof. intros. unfold sumZ. rewrite sumZ_acc. lia. Qed.
Lemma zsum_app : forall a b, zsum (a ++ b) = zsum a + zsum b.
Proof. induction a; intros; cbn [app zsum]; [lia|]. rewrite IHa. lia. Qed.
Lemma zsum_nonneg : forall l, Forall (fun c => 0 <= c) l -> 0 <= zsum l.
Proof. induction 1; cbn [zsum]; lia. Qed.

(** prefix sums [psum f k = f 0 + .. + f (k-1)]; the bucket of [J] is an [x]
    with [psum f x <= J < psum f (S x)] *)
Definition psum (f : nat -> Z) (k : nat) : Z := zsum (map f (seq 0 k)).

Lemma psum_S : forall f k, psum f (S k) = psum f k + f k.
Proof. intros. unfold psum. rewrite seq_S, map_app, zsum_app. cbn [map zsum Nat.add]. lia. Qed.

Lemma bucket_exists : forall f k J, 0 <= J < psum f k ->
  exists x, (x < k)%nat /\ psum f x <= J < psum f (S x).
Proof.
  intros f. induction k as [|k IH]; intros J H; [unfold psum in H; cbn [seq map zsum] in H; lia|].
  destruct (Z_lt_dec J (psum f k)) as [Hlt|Hge].
  - destruct (IH J ltac:(lia)) as (x & Hx & Hb). exists x. split; [lia|exact Hb].
  - exists k. split; lia.
Qed.

Lemma psum_mono : forall f, (forall u, 0 <= f u) -> forall x y, (x <= y)%nat -> psum f x <= psum f y.
Proof. intros f Hf x y H. induction H as [|m _ IH]; [lia|]. rewrite psum_S. pose proof (Hf m). lia. Qed.

Lemma zsum_repeat : forall (m : Z) k, zsum (repeat m k) = Z.of_nat k * m.
Proof. induction k as [|k IH]; cbn [repeat zsum]; [lia|]. rewrite IH. lia. Qed.

Lemma nth_repeat_lt : forall (m : Z) k i, (i < k)%nat -> nth i (repeat m k) 0 = m.
Proof.
  induction k as [|k IH]; intros i H; [lia|]. destruct i; cbn [repeat nth]; [reflexivity|]. apply IH. lia.
Qed.

Lemma nonneg_repeat : forall (m : Z) k, 0 <= m -> Forall (fun c => 0 <= c) (repeat m k).
Proof. intros m k H. apply Forall_forall. intros x Hx. apply repeat_spec in Hx. lia. Qed.

Lemma factorial_ok : forall n, 0 <= n -> factorial n = Ok (fact_nat (Z.to_nat n)).
Proof. intros. unfold factorial. destruct (n <? 0) eqn:E; [lia|reflexivity]. Qed.
