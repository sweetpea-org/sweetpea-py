(** C13: the public wrappers around the multiset-permutation unranker and the
    closed-form count [count_permutations_with_copies q m (q*m)]. *)
From Coq Require Import ZArith List Bool Lia.
From SP Require Import Comb.CombModel Comb.CombSpec Comb.BinomFacts Comb.MultiProofs.
Import ListNotations.
Open Scope Z_scope.

Lemma pf_repeat : forall (m : Z) q, pf (repeat m q) = fact_nat (Z.to_nat m) ^ Z.of_nat q.
Proof.
  induction q; cbn [repeat pf]; [reflexivity|].
  rewrite IHq, Nat2Z.inj_succ, Z.pow_succ_r by lia. reflexivity.
Qed.

(** [construct_permutation_with_varying_copies] is the unranker of [C13_multiperm_bij] *)
Theorem cpwvc_eq : forall idx cs,
  construct_permutation_with_varying_copies idx (Z.of_nat (length cs)) cs =
  construct_with_copies idx (Z.of_nat (length cs)) (zsum cs) cs.
Proof. intros. unfold construct_permutation_with_varying_copies. rewrite sumZ_zsum. reflexivity. Qed.

(** [construct_permutation_with_copies]: the same with all counters equal to m *)
Theorem cpwc_eq : forall idx (q : nat) m,
  construct_permutation_with_copies idx (Z.of_nat q) m =
  construct_with_copies idx (Z.of_nat (length (repeat m q))) (zsum (repeat m q)) (repeat m q).
Proof.
  intros. unfold construct_permutation_with_copies.
  rewrite repeat_length, zsum_repeat, Nat2Z.id. reflexivity.
Qed.

(** the closed form (q m)! / (m!)^q is the multinomial coefficient *)
Theorem count_pwc_full : forall (q : nat) m, 0 <= m ->
  count_permutations_with_copies (Z.of_nat q) m (Z.of_nat q * m) =
  Ok (KCount (multinomial (repeat m q))).
Proof.
  intros q m Hm. unfold count_permutations_with_copies.
  rewrite Z.eqb_refl. rewrite !factorial_ok by nia. cbn [bind].
  pose proof (fact_nat_pos (Z.to_nat m)) as Hf.
  assert (Hp : 0 < fact_nat (Z.to_nat m) ^ Z.of_nat q) by (apply Z.pow_pos_nonneg; lia).
  destruct (fact_nat (Z.to_nat m) ^ Z.of_nat q =? 0) eqn:E; [lia|].
  do 2 f_equal.
  pose proof (multinomial_pf (repeat m q) (nonneg_repeat m q Hm)) as H.
  rewrite zsum_repeat, pf_repeat in H. rewrite <- H. apply Z.div_mul. lia.
Qed.

Print Assumptions cpwvc_eq.
Print Assumptions cpwc_eq.
Print Assumptions count_pwc_full.
