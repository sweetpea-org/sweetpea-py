(** Prefixes of permutations with bounded copies: the clean recursion
    [cnt] / [pick] / [prefix_unrank] of the model is a bijection between
    [0, cnt cs n) and the words of length [n] that use symbol [i] at most
    [cs_i] times, with inverse [prefix_rank]; the word itself comes from the
    multiset-permutation bijection for [construct_with_copies]
    ([MultiProofs.multiperm_bij]).  Proof file (no model definitions). *)
From Coq Require Import ZArith List Bool Lia ZifyBool.
From SP Require Import Base.Lists Comb.CombModel Comb.CombSpec Comb.BinomFacts Comb.MultiProofs.
Import ListNotations.
Open Scope Z_scope.

Lemma zsum_map_nonneg : forall (A : Type) (f : A -> Z) l,
  (forall x, 0 <= f x) -> 0 <= zsum (map f l).
Proof.
  intros A f l Hf. induction l as [|x l IH]; cbn [map zsum]; [lia|].
  pose proof (Hf x). lia.
Qed.

Lemma zsum_map_add : forall (A : Type) (f g : A -> Z) l,
  zsum (map (fun x => f x + g x) l) = zsum (map f l) + zsum (map g l).
Proof.
  intros A f g l. induction l as [|x l IH]; cbn [map zsum]; [lia|]. rewrite IH. lia.
Qed.

Lemma binomZ_nonneg : forall n k, 0 <= binomZ n k.
Proof.
  intros n k. unfold binomZ. apply Z.div_pos.
  - pose proof (fact_nat_pos (Z.to_nat n)). lia.
  - pose proof (fact_nat_pos (Z.to_nat k)). pose proof (fact_nat_pos (Z.to_nat (n - k))). nia.
Qed.

Lemma binomZ_pos : forall n k, 0 <= k <= n -> 0 < binomZ n k.
Proof. intros n k H. rewrite binomZ_eq_binom by exact H. apply binom_pos. lia. Qed.

(** * The inner loops of [cnt] and [pick] as standalone functions *)

Definition cnt_loop (tl : list Z) (need : Z) : nat -> Z -> Z -> Z :=
  fix loop (k : nat) (v acc : Z) : Z :=
    match k with
    | O => acc
    | S k' => loop k' (v + 1) (acc + binomZ need v * cnt tl (need - v))
    end.

Lemma cnt_cons : forall c tl need,
  cnt (c :: tl) need = cnt_loop tl need (Z.to_nat (Z.min c need + 1)) 0 0.
Proof. reflexivity. Qed.

Lemma cnt_nil : forall need, cnt [] need = if need =? 0 then 1 else 0.
Proof. reflexivity. Qed.

Lemma cnt_loop_S : forall tl need k v acc,
  cnt_loop tl need (S k) v acc = cnt_loop tl need k (v + 1) (acc + binomZ need v * cnt tl (need - v)).
Proof. reflexivity. Qed.

Definition pick_loop (tl : list Z) (need mult : Z) : nat -> Z -> Z -> option (list Z * Z) :=
  fix loop (k : nat) (v idx : Z) : option (list Z * Z) :=
    match k with
    | O => None
    | S k' =>
      let mult' := binomZ need v * mult in
      let sub := cnt tl (need - v) * mult' in
      if idx <? sub then
        match pick tl (need - v) idx mult' with
        | Some (vs, r) => Some (v :: vs, r)
        | None => None
        end
      else loop k' (v + 1) (idx - sub)
    end.

Lemma pick_cons : forall c tl need idx mult,
  pick (c :: tl) need idx mult = pick_loop tl need mult (Z.to_nat (Z.min c need + 1)) 0 idx.
Proof. reflexivity. Qed.

Lemma pick_nil : forall need idx mult,
  pick [] need idx mult = if (need =? 0) && (0 <=? idx) && (idx <? mult) then Some ([], idx) else None.
Proof. reflexivity. Qed.

Lemma pick_loop_S : forall tl need mult k v idx,
  pick_loop tl need mult (S k) v idx =
  if idx <? cnt tl (need - v) * (binomZ need v * mult) then
    match pick tl (need - v) idx (binomZ need v * mult) with
    | Some (vs, r) => Some (v :: vs, r)
    | None => None
    end
  else pick_loop tl need mult k (v + 1) (idx - cnt tl (need - v) * (binomZ need v * mult)).
Proof. reflexivity. Qed.

(** the number of indices owned by the subtree [v = u] *)
Definition subtree_size (tl : list Z) (need mult : Z) (u : nat) : Z :=
  cnt tl (need - Z.of_nat u) * (binomZ need (Z.of_nat u) * mult).

Lemma bucket_offset_cons : forall c ct need mult v vt,
  bucket_offset (c :: ct) need mult (v :: vt) =
  psum (subtree_size ct need mult) (Z.to_nat v)
  + bucket_offset ct (need - v) (binomZ need v * mult) vt.
Proof. reflexivity. Qed.

Lemma cnt_loop_sum : forall tl need mult k a acc,
  cnt_loop tl need k (Z.of_nat a) acc * mult =
  acc * mult + zsum (map (subtree_size tl need mult) (seq a k)).
Proof.
  intros tl need mult. induction k as [|k IH]; intros a acc.
  - cbn [cnt_loop seq map zsum]. lia.
  - rewrite cnt_loop_S. replace (Z.of_nat a + 1) with (Z.of_nat (S a)) by lia.
    rewrite IH. cbn [seq map zsum]. unfold subtree_size at 2. ring.
Qed.

(** [cnt (c :: tl) need] as a sum over [v = 0 .. min c need] *)
Lemma cnt_cons_sum : forall c tl need mult,
  cnt (c :: tl) need * mult =
  zsum (map (subtree_size tl need mult) (seq 0 (Z.to_nat (Z.min c need + 1)))).
Proof.
  intros c tl need mult. rewrite cnt_cons.
  pose proof (cnt_loop_sum tl need mult (Z.to_nat (Z.min c need + 1)) 0%nat 0) as H.
  cbn [Z.of_nat] in H. rewrite H. lia.
Qed.

Lemma cnt_loop_nonneg : forall tl need, (forall n', 0 <= cnt tl n') ->
  forall k v acc, 0 <= acc -> 0 <= cnt_loop tl need k v acc.
Proof.
  intros tl need Htl. induction k as [|k IH]; intros v acc Hacc.
  - exact Hacc.
  - rewrite cnt_loop_S. apply IH.
    pose proof (binomZ_nonneg need v). pose proof (Htl (need - v)). nia.
Qed.

Lemma cnt_nonneg : forall cs need, 0 <= cnt cs need.
Proof.
  induction cs as [|c tl IH]; intros need.
  - rewrite cnt_nil. destruct (need =? 0); lia.
  - rewrite cnt_cons. apply cnt_loop_nonneg; [exact IH|lia].
Qed.

Lemma subtree_size_nonneg : forall tl need mult u, 0 <= mult -> 0 <= subtree_size tl need mult u.
Proof.
  intros tl need mult u Hm. unfold subtree_size.
  pose proof (cnt_nonneg tl (need - Z.of_nat u)). pose proof (binomZ_nonneg need (Z.of_nat u)). nia.
Qed.

(** the loop of [pick] walks to the bucket containing the index *)
Lemma pick_loop_hit : forall tl need mult, 0 <= mult ->
  forall k a nv X, (a <= nv < a + k)%nat -> 0 <= X < subtree_size tl need mult nv ->
  pick_loop tl need mult k (Z.of_nat a) (zsum (map (subtree_size tl need mult) (seq a (nv - a))) + X) =
  match pick tl (need - Z.of_nat nv) X (binomZ need (Z.of_nat nv) * mult) with
  | Some (vs, r) => Some (Z.of_nat nv :: vs, r)
  | None => None
  end.
Proof.
  intros tl need mult Hm. induction k as [|k IH]; intros a nv X Hnv HX; [lia|].
  rewrite pick_loop_S. destruct (Nat.eq_dec a nv) as [->|Hne].
  - rewrite Nat.sub_diag. cbn [seq map zsum]. unfold subtree_size in HX.
    destruct (0 + X <? cnt tl (need - Z.of_nat nv) * (binomZ need (Z.of_nat nv) * mult)) eqn:E; [|lia].
    replace (0 + X) with X by lia. reflexivity.
  - replace (nv - a)%nat with (S (nv - S a)) by lia. cbn [seq map zsum].
    pose proof (zsum_map_nonneg nat (subtree_size tl need mult) (seq (S a) (nv - S a)) (fun u => subtree_size_nonneg tl need mult u Hm)) as Hs.
    fold (subtree_size tl need mult a).
    destruct (_ <? _) eqn:E; [lia|].
    replace (Z.of_nat a + 1) with (Z.of_nat (S a)) by lia.
    rewrite <- (IH (S a) nv X) by (lia || exact HX). f_equal. lia.
Qed.

(** [pick] on the index at offset [X] within bucket [nv] *)
Corollary pick_hit : forall c tl need mult nv X, 0 <= mult ->
  (nv < Z.to_nat (Z.min c need + 1))%nat -> 0 <= X < subtree_size tl need mult nv ->
  pick (c :: tl) need (psum (subtree_size tl need mult) nv + X) mult =
  match pick tl (need - Z.of_nat nv) X (binomZ need (Z.of_nat nv) * mult) with
  | Some (vs, r) => Some (Z.of_nat nv :: vs, r)
  | None => None
  end.
Proof.
  intros c tl need mult nv X Hm Hnv HX. rewrite pick_cons.
  pose proof (pick_loop_hit tl need mult Hm _ 0%nat nv X (conj (Nat.le_0_l nv) Hnv) HX) as Hhit.
  rewrite Nat.sub_0_r in Hhit. exact Hhit.
Qed.

Definition alloc_ok (cs : list Z) (need : Z) (vs : list Z) : Prop :=
  Forall2 (fun c v => 0 <= v <= c) cs vs /\ zsum vs = need.

Fixpoint alloc_mult (need : Z) (vs : list Z) : Z :=
  match vs with
  | [] => 1
  | v :: vt => binomZ need v * alloc_mult (need - v) vt
  end.

Lemma alloc_ok_nonneg : forall cs need vs, alloc_ok cs need vs -> Forall (fun v => 0 <= v) vs.
Proof.
  intros cs need vs [HF _]. induction HF as [|c v cs vs Hcv HF IH]; constructor; [lia|exact IH].
Qed.

Lemma alloc_ok_cs_nonneg : forall cs need vs, alloc_ok cs need vs -> Forall (fun c => 0 <= c) cs.
Proof.
  intros cs need vs [HF _]. induction HF as [|c v cs vs Hcv HF IH]; constructor; [lia|exact IH].
Qed.

Lemma alloc_mult_multinomial : forall vs need, Forall (fun v => 0 <= v) vs -> zsum vs = need ->
  alloc_mult need vs = multinomial vs.
Proof.
  induction vs as [|v vt IH]; intros need Hnn Hs; [reflexivity|].
  inversion Hnn as [|? ? Hv Hvt]; subst. cbn [alloc_mult multinomial].
  pose proof (zsum_nonneg vt Hvt) as Hz. cbn [zsum] in *.
  rewrite (IH (v + zsum vt - v)) by (exact Hvt || lia).
  rewrite binomZ_eq_binom by lia. reflexivity.
Qed.

Lemma alloc_mult_pos : forall vs need, Forall (fun v => 0 <= v) vs -> zsum vs = need ->
  0 < alloc_mult need vs.
Proof.
  induction vs as [|v vt IH]; intros need Hnn Hs; cbn [alloc_mult]; [lia|].
  inversion Hnn as [|? ? Hv Hvt]; subst. pose proof (zsum_nonneg vt Hvt) as Hz. cbn [zsum] in *.
  assert (0 < binomZ (v + zsum vt) v) by (apply binomZ_pos; lia).
  assert (0 < alloc_mult (v + zsum vt - v) vt) by (apply IH; [exact Hvt|lia]). nia.
Qed.

(** [pick] finds the allocation that owns [idx] *)
Lemma pick_fwd : forall cs need idx mult,
  Forall (fun c => 0 <= c) cs -> 0 <= need -> 0 < mult -> 0 <= idx < cnt cs need * mult ->
  exists vs r, pick cs need idx mult = Some (vs, r) /\ alloc_ok cs need vs /\
               0 <= r < mult * alloc_mult need vs /\
               idx = bucket_offset cs need mult vs + r.
Proof.
  induction cs as [|c tl IH]; intros need idx mult Hcs Hneed Hmult Hidx.
  - rewrite cnt_nil in Hidx. rewrite pick_nil.
    destruct (need =? 0) eqn:E; [|lia].
    destruct ((true && (0 <=? idx)) && (idx <? mult)) eqn:E2; [|lia].
    exists [], idx. split; [reflexivity|]. split.
    + split; [constructor|cbn [zsum]; lia].
    + cbn [alloc_mult bucket_offset]. lia.
  - inversion Hcs as [|? ? Hc Htl]; subst.
    rewrite cnt_cons_sum in Hidx.
    destruct (bucket_exists (subtree_size tl need mult) _ _ Hidx) as (nv & Hnv & Hbk).
    rewrite psum_S in Hbk. set (X := idx - psum (subtree_size tl need mult) nv).
    assert (HX : 0 <= X < subtree_size tl need mult nv) by (unfold X; lia).
    assert (He : idx = psum (subtree_size tl need mult) nv + X) by (unfold X; lia).
    assert (Hv : 0 <= Z.of_nat nv <= Z.min c need) by lia.
    assert (Hb : 0 < binomZ need (Z.of_nat nv)) by (apply binomZ_pos; lia).
    destruct (IH (need - Z.of_nat nv) X (binomZ need (Z.of_nat nv) * mult) Htl ltac:(lia) ltac:(nia))
      as (vt & r & Hp & Hok & Hr & HeX).
    { unfold subtree_size in HX. exact HX. }
    exists (Z.of_nat nv :: vt), r.
    rewrite He at 1. rewrite pick_hit, Hp by (lia || exact HX). split; [reflexivity|]. split.
    + destruct Hok as [HF Hz]. split; [constructor; [lia|exact HF]|]. cbn [zsum]. lia.
    + rewrite bucket_offset_cons. rewrite Nat2Z.id. cbn [alloc_mult]. split; [|lia].
      replace (mult * (binomZ need (Z.of_nat nv) * alloc_mult (need - Z.of_nat nv) vt))
        with (binomZ need (Z.of_nat nv) * mult * alloc_mult (need - Z.of_nat nv) vt) by ring.
      exact Hr.
Qed.

(** every index owned by a valid allocation is picked back *)
Lemma pick_bwd : forall cs need mult vs r,
  alloc_ok cs need vs -> 0 < mult -> 0 <= r < mult * alloc_mult need vs ->
  pick cs need (bucket_offset cs need mult vs + r) mult = Some (vs, r) /\
  0 <= bucket_offset cs need mult vs /\
  bucket_offset cs need mult vs + r < cnt cs need * mult.
Proof.
  induction cs as [|c tl IH]; intros need mult vs r [HF Hz] Hmult Hr.
  - inversion HF; subst. cbn [zsum bucket_offset alloc_mult] in *. rewrite pick_nil, cnt_nil.
    cbn [Z.eqb]. destruct ((true && (0 <=? 0 + r)) && (0 + r <? mult)) eqn:E; [|lia].
    replace (0 + r) with r by lia. split; [reflexivity|lia].
  - inversion HF as [|? v ? vt Hcv HFt]; subst. cbn [zsum alloc_mult] in *.
    assert (Hvt : Forall (fun v => 0 <= v) vt) by (apply (alloc_ok_nonneg tl (zsum vt) vt); split; [exact HFt|reflexivity]).
    pose proof (zsum_nonneg vt Hvt) as Hzt.
    set (need := v + zsum vt) in *.
    assert (Hb : 0 < binomZ need v) by (apply binomZ_pos; unfold need; lia).
    assert (Hok : alloc_ok tl (need - v) vt) by (split; [exact HFt|unfold need; lia]).
    destruct (IH (need - v) (binomZ need v * mult) vt r Hok ltac:(nia)) as (Hp & Hb0 & Hlt).
    { replace (binomZ need v * mult * alloc_mult (need - v) vt)
        with (mult * (binomZ need v * alloc_mult (need - v) vt)) by ring. exact Hr. }
    rewrite bucket_offset_cons.
    set (nv := Z.to_nat v). set (K := Z.to_nat (Z.min c need + 1)).
    assert (HnvK : (nv < K)%nat) by (unfold nv, K, need; lia).
    assert (Hvnv : Z.of_nat nv = v) by (unfold nv; lia).
    set (X := bucket_offset tl (need - v) (binomZ need v * mult) vt + r) in *.
    assert (HX : 0 <= X < subtree_size tl need mult nv) by (unfold subtree_size; rewrite Hvnv; lia).
    pose proof (fun u => subtree_size_nonneg tl need mult u ltac:(lia)) as Htn.
    assert (Hs0 : 0 <= psum (subtree_size tl need mult) nv) by apply zsum_map_nonneg, Htn.
    split; [|split].
    + rewrite <- Z.add_assoc. fold X. rewrite pick_hit, Hvnv, Hp by (lia || exact HX). reflexivity.
    + lia.
    + rewrite cnt_cons_sum. fold K.
      pose proof (psum_mono (subtree_size tl need mult) Htn (S nv) K ltac:(lia)) as Hmono.
      rewrite psum_S in Hmono. unfold psum in *. lia.
Qed.

Lemma usage_length : forall q w, length (usage q w) = q.
Proof. intros. unfold usage. rewrite map_length, seq_length. reflexivity. Qed.

Lemma usage_nth : forall q w i, (i < q)%nat -> nth i (usage q w) 0 = count_sym w (Z.of_nat i).
Proof.
  intros q w i Hi. unfold usage.
  rewrite (nth_indep _ 0 ((fun j => count_sym w (Z.of_nat j)) 0%nat)) by (rewrite map_length, seq_length; exact Hi).
  rewrite (map_nth (fun j => count_sym w (Z.of_nat j))). rewrite seq_nth by exact Hi. reflexivity.
Qed.

Lemma usage_eq : forall q w vs, length vs = q ->
  (forall i, (i < q)%nat -> count_sym w (Z.of_nat i) = nth i vs 0) -> usage q w = vs.
Proof.
  intros q w vs Hlen H. apply (nth_ext _ _ 0 0).
  - rewrite usage_length. lia.
  - intros i Hi. rewrite usage_length in Hi. rewrite usage_nth by exact Hi. apply H. exact Hi.
Qed.

Lemma zsum_indicator : forall x k a,
  zsum (map (fun i => if x =? Z.of_nat i then 1 else 0) (seq a k)) =
  if (Z.of_nat a <=? x) && (x <? Z.of_nat (a + k)) then 1 else 0.
Proof.
  intros x. induction k as [|k IH]; intros a.
  - cbn [seq map zsum]. destruct (_ && _) eqn:E; lia.
  - cbn [seq map zsum]. rewrite IH.
    destruct (x =? Z.of_nat a) eqn:E1;
    destruct ((Z.of_nat (S a) <=? x) && (x <? Z.of_nat (S a + k))) eqn:E2;
    destruct ((Z.of_nat a <=? x) && (x <? Z.of_nat (a + S k))) eqn:E3; lia.
Qed.

Lemma zsum_usage : forall q w, symbols_below q w -> zsum (usage q w) = Z.of_nat (length w).
Proof.
  intros q w H. unfold symbols_below in H. induction H as [|x w Hx HF IH].
  - unfold usage. cbn [length Z.of_nat].
    generalize (seq 0 q). intros l. induction l as [|y l IHl]; cbn [map zsum]; [reflexivity|].
    rewrite IHl. reflexivity.
  - unfold usage in *.
    rewrite (map_ext _ (fun i => (fun i => if x =? Z.of_nat i then 1 else 0) i + (fun i => count_sym w (Z.of_nat i)) i))
      by (intros i; apply count_sym_cons).
    rewrite zsum_map_add, IH, zsum_indicator.
    cbn [length]. destruct ((Z.of_nat 0 <=? x) && (x <? Z.of_nat (0 + q))) eqn:E; lia.
Qed.

Lemma usage_nonneg : forall q w, Forall (fun v => 0 <= v) (usage q w).
Proof.
  intros q w. unfold usage. apply Forall_forall. intros v Hv.
  apply in_map_iff in Hv. destruct Hv as (i & <- & _). apply count_sym_nonneg.
Qed.

Lemma arrangement_usage : forall q w, symbols_below q w -> arrangement_of (usage q w) w.
Proof.
  intros q w H. split; rewrite usage_length; [exact H|].
  intros i Hi. rewrite usage_nth by exact Hi. reflexivity.
Qed.

Lemma arrangement_usage_eq : forall vs w, arrangement_of vs w -> usage (length vs) w = vs.
Proof. intros vs w [_ H]. apply usage_eq; [reflexivity|exact H]. Qed.

Lemma bounded_word_alloc : forall cs n w,
  bounded_word cs n w <-> symbols_below (length cs) w /\ alloc_ok cs n (usage (length cs) w).
Proof.
  intros cs n w. split.
  - intros (Hlen & Hs & Hc). split; [exact Hs|]. split.
    + apply (Forall2_nth_intro _ _ _ 0 0); [rewrite usage_length; reflexivity|].
      intros i Hi. rewrite usage_nth by exact Hi.
      pose proof (count_sym_nonneg w (Z.of_nat i)). pose proof (Hc i Hi). lia.
    + rewrite zsum_usage by exact Hs. exact Hlen.
  - intros (Hs & HF & Hz). split; [|split; [exact Hs|]].
    + rewrite <- Hz. symmetry. apply zsum_usage. exact Hs.
    + intros i Hi. pose proof (Forall2_nth _ _ _ i 0 0 HF Hi) as H. cbv beta in H.
      rewrite usage_nth in H by exact Hi. lia.
Qed.

Theorem prefix_copies_bij : forall cs first_n, Forall (fun c => 0 <= c) cs -> 0 <= first_n ->
  (forall idx, 0 <= idx < cnt cs first_n ->
     exists w, prefix_unrank cs first_n idx = Some w /\ bounded_word cs first_n w /\ prefix_rank cs w = idx) /\
  (forall w, bounded_word cs first_n w ->
     0 <= prefix_rank cs w < cnt cs first_n /\ prefix_unrank cs first_n (prefix_rank cs w) = Some w).
Proof.
  intros cs first_n Hcs Hn. split.
  - intros idx Hidx.
    destruct (pick_fwd cs first_n idx 1 Hcs Hn ltac:(lia) ltac:(lia)) as (vs & r & Hp & Hok & Hr & He).
    pose proof (alloc_ok_nonneg _ _ _ Hok) as Hvs.
    pose proof (eq_sym (Forall2_length _ _ _ (proj1 Hok))) as Hlen.
    destruct Hok as [HF Hz].
    rewrite (alloc_mult_multinomial vs first_n Hvs Hz) in Hr.
    destruct (multiperm_bij vs Hvs) as [HM1 _].
    destruct (HM1 r ltac:(lia)) as (w & Hc & Harr & Hrk).
    rewrite Hlen, Hz in Hc.
    exists w. split; [unfold prefix_unrank; rewrite Hp, Hc; reflexivity|].
    pose proof (arrangement_usage_eq vs w Harr) as Hu. rewrite Hlen in Hu.
    pose proof (arr_length w vs Harr) as Hlw. rewrite Hz in Hlw.
    split.
    + apply bounded_word_alloc. split.
      * destruct Harr as [Hs _]. rewrite Hlen in Hs. exact Hs.
      * rewrite Hu. split; [exact HF|exact Hz].
    + unfold prefix_rank. cbv zeta. rewrite Hu, Hlw, Hrk. lia.
  - intros w Hw. apply bounded_word_alloc in Hw. destruct Hw as [Hs Hok].
    set (vs := usage (length cs) w) in *.
    pose proof (alloc_ok_nonneg _ _ _ Hok) as Hvs.
    pose proof (arrangement_usage _ _ Hs) as Harr. fold vs in Harr.
    assert (Hlen : length vs = length cs) by (unfold vs; apply usage_length).
    assert (Hz : zsum vs = first_n) by (destruct Hok as [_ Hz]; exact Hz).
    assert (Hlw : Z.of_nat (length w) = first_n) by (rewrite <- Hz; unfold vs; symmetry; apply zsum_usage; exact Hs).
    destruct (multiperm_bij vs Hvs) as [_ HM2].
    destruct (HM2 w Harr) as [Hrk Hc]. rewrite Hlen, Hz in Hc.
    destruct (pick_bwd cs first_n 1 vs (multi_rank vs w) Hok ltac:(lia)) as (Hp & Hb0 & Hlt).
    { rewrite (alloc_mult_multinomial vs first_n Hvs Hz). lia. }
    unfold prefix_rank. cbv zeta. fold vs. rewrite Hlw.
    split; [lia|]. unfold prefix_unrank. rewrite Hp, Hc. reflexivity.
Qed.

