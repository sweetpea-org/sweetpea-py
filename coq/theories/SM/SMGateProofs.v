(** Proofs about SM/SMGate.v: what the gate refuses, that nothing is handed to the
    search core, that no user constraint of an accepted design is ignored (the gate is
    total on the user constraint classes: the model follows /repo commit cac238c, before which
    the code accepted [witness_with KExactlyKInARow], [.. KSequential], [.. KLatin] and ignored
    the constraint), and the length of the
    sequences of accepted plain CrossBlocks. *)
From Coq Require Import List Bool Arith Lia.
From SP Require Import Base.Lists SM.SMGate.
Import ListNotations.

Lemma gate_not_block : forall s, sm_is_block s = false -> gate s = Crash CAssert.
Proof. intros s H. unfold gate. rewrite H. reflexivity. Qed.

Theorem gate_refuses_multicross : forall s, sm_is_block s = true -> sm_ncrossings s <> 1 -> gate s = Refuse RMultiCross.
Proof.
  intros s Hb Hn. unfold gate. rewrite Hb. cbn.
  destruct (sm_ncrossings s =? 1) eqn:E; [apply Nat.eqb_eq in E; contradiction | reflexivity].
Qed.

Lemma find_some_first {A} (p : A -> bool) : forall l x, In x l -> p x = true -> exists y, find p l = Some y /\ p y = true.
Proof.
  induction l as [|a l IH]; intros x Hin Hp; [destruct Hin|]. cbn. destruct (p a) eqn:E.
  - exists a. split; [reflexivity|assumption].
  - destruct Hin as [Hx|Hx]; [subst; congruence|]. eapply IH; eassumption.
Qed.

(** any design with a constraint of one of the nine refused kinds is refused, with the first such kind *)
Theorem gate_refuses_unsupported : forall s k,
  sm_is_block s = true -> sm_ncrossings s = 1 ->
  In k (sm_constraints s) -> refused_kind k = true ->
  exists k', gate s = Refuse (RConstraint k') /\ refused_kind k' = true /\ In k' (sm_constraints s).
Proof.
  intros s k Hb Hn Hin Hr. unfold gate. rewrite Hb, Hn. cbn.
  destruct (find_some_first refused_kind _ _ Hin Hr) as [y [Hf Hy]]. rewrite Hf.
  exists y. repeat split; try assumption. apply find_some in Hf. apply Hf.
Qed.

Theorem gate_refuses_window : forall s f,
  sm_is_block s = true -> sm_ncrossings s = 1 ->
  (forall k, In k (sm_constraints s) -> refused_kind k = false) ->
  unsupported_level s = Some f -> gate s = Refuse (RLevel f).
Proof.
  intros s f Hb Hn Hk Hu. unfold gate. rewrite Hb, Hn. cbn.
  destruct (find refused_kind (sm_constraints s)) as [k|] eqn:E.
  - apply find_some in E. destruct E as [Hin Hr]. rewrite (Hk _ Hin) in Hr. discriminate.
  - rewrite Hu. reflexivity.
Qed.

(** the refusals peeled off: what an [Accept] says about the design and the parameters *)
Lemma gate_accept_inv : forall s p, gate s = Accept p ->
  sm_ncrossings s = 1 /\ find refused_kind (sm_constraints s) = None /\
  p_handed p = [] /\ p_ignored p = filter (fun k => negb (realised_kind k)) (sm_constraints s) /\
  p_length p =
    (let m := prod_list (map (fun i => nth i (level_counts (sm_crossing_weight s) (sm_design s)) 0) (sm_crossing s)) in
     let pre := if existsb (is_tr_at s) (sm_crossing s) then 1 else 0 in
     if 1 <? sm_crossing_weight s then Nat.min (m + pre) (sm_trials s) else m + pre).
Proof.
  intros s p H. unfold gate in H.
  destruct (sm_is_block s); cbn [negb] in H; [|discriminate].
  destruct (sm_ncrossings s =? 1) eqn:En; cbn [negb] in H; [|discriminate].
  destruct (find refused_kind (sm_constraints s)); [discriminate|].
  destruct (unsupported_level s); [discriminate|].
  destruct (key_error s); [discriminate|].
  destruct (transition_args s); [discriminate|].
  destruct (attribute_error s); [discriminate|].
  destruct (transition_of_transition s); [discriminate|].
  inversion H; subst p; cbn [p_handed p_ignored p_length]. apply Nat.eqb_eq in En.
  repeat split; try assumption. destruct (1 <? sm_crossing_weight s); reflexivity.
Qed.

(** an accepted design contains no constraint of the refused kinds, and nothing reaches the core *)
Theorem gate_accept_facts : forall s p, gate s = Accept p ->
  sm_ncrossings s = 1 /\ (forall k, In k (sm_constraints s) -> refused_kind k = false) /\
  p_handed p = [] /\ p_ignored p = filter (fun k => negb (realised_kind k)) (sm_constraints s).
Proof.
  intros s p H. destruct (gate_accept_inv s p H) as (Hn & Hf & Hh & Hi & _).
  repeat split; try assumption.
  intros k Hin. destruct (refused_kind k) eqn:E; [|reflexivity].
  exfalso. eapply find_none in Hf; [|eassumption]. congruence.
Qed.

Lemma kind_cases : forall k, refused_kind k = true \/ realised_kind k = true \/ k = KSustain \/ k = KOther.
Proof. destruct k; cbn; auto. Qed.

(** the support test lists exactly the user constraint classes *)
Lemma user_kind_refused : forall k, user_kind k = refused_kind k.
Proof. destruct k; reflexivity. Qed.

Lemma user_not_realised : forall k, user_kind k = true -> realised_kind k = false.
Proof. destruct k; cbn; congruence. Qed.

Lemma ckind_eqb_eq : forall a b, ckind_eqb a b = true -> a = b.
Proof. destruct a, b; cbn; intro H; try discriminate; reflexivity. Qed.

(** every constraint of an accepted design is realised by the core's own machinery (crossing,
    consistency, derivations, Reify, MinimumTrials through the weight trick, ContinuousConstraint
    by the caller), or is the internal Sustain, or of a class unknown to constraint.py: no user
    constraint is left *)
Theorem gate_total_kinds : forall s p k, gate s = Accept p -> In k (sm_constraints s) ->
  user_kind k = false /\ (realised_kind k = true \/ k = KSustain \/ k = KOther).
Proof.
  intros s p k H Hin. destruct (gate_accept_facts s p H) as [_ [Hno _]].
  specialize (Hno k Hin). split; [rewrite user_kind_refused; assumption|].
  destruct (kind_cases k) as [Hr|Hc]; [congruence|assumption].
Qed.

Theorem gate_total_ignored : forall s p k, gate s = Accept p -> In k (p_ignored p) -> k = KSustain \/ k = KOther.
Proof.
  intros s p k H Hin. destruct (gate_accept_facts s p H) as [_ [_ [_ Hi]]]. rewrite Hi in Hin.
  apply filter_In in Hin. destruct Hin as [Hin Hnr].
  destruct (gate_total_kinds s p k H Hin) as [_ [Hr|Hc]]; [rewrite Hr in Hnr; discriminate | assumption].
Qed.

Lemma ignored_by_gate_spec : forall s k, ignored_by_gate s k = true ->
  exists p, gate s = Accept p /\ In k (sm_constraints s) /\ realised_kind k = false.
Proof.
  intros s k H. unfold ignored_by_gate in H. destruct (gate s) as [r|c|p] eqn:E; try discriminate.
  exists p. split; [reflexivity|].
  apply andb_prop in H. destruct H as [H _]. apply andb_prop in H. destruct H as [He Hn].
  apply existsb_exists in He. destruct He as [k' [Hin Hk]]. apply ckind_eqb_eq in Hk. subst k'.
  split; [assumption|]. destruct (realised_kind k); [discriminate|reflexivity].
Qed.

(** a constraint kind is ignored only if it is Sustain or unknown *)
Theorem ignored_only_sustain_other : forall s k, ignored_by_gate s k = true -> k = KSustain \/ k = KOther.
Proof.
  intros s k H. destruct (ignored_by_gate_spec s k H) as [p [Hg [Hin Hn]]].
  destruct (gate_total_kinds s p k Hg Hin) as [_ [Hr|Hc]]; [congruence|assumption].
Qed.

(** C29_gate_total: an accepted design has no user constraint; each of its constraints is realised,
    Sustain or unknown; and without Sustain / unknown classes nothing at all is ignored *)
Theorem gate_total : forall s p, gate s = Accept p ->
  (forall k, In k (sm_constraints s) -> user_kind k = false /\ (realised_kind k = true \/ k = KSustain \/ k = KOther)) /\
  (forall k, In k (p_ignored p) -> k = KSustain \/ k = KOther) /\
  (~ In KSustain (sm_constraints s) -> ~ In KOther (sm_constraints s) ->
   p_ignored p = [] /\ forall k, ignored_by_gate s k = false).
Proof.
  intros s p H. split; [intros k Hin; exact (gate_total_kinds s p k H Hin)|].
  split; [intros k Hin; exact (gate_total_ignored s p k H Hin)|].
  intros HnS HnO. assert (Hsub : forall k, In k (p_ignored p) -> In k (sm_constraints s)).
  { intros k Hin. destruct (gate_accept_facts s p H) as [_ [_ [_ Hi]]]. rewrite Hi in Hin.
    apply filter_In in Hin. apply Hin. }
  split.
  - assert (Hall : forall k, ~ In k (p_ignored p)).
    { intros k Hin. destruct (gate_total_ignored s p k H Hin) as [Hk|Hk]; subst k; [apply HnS | apply HnO]; apply Hsub; assumption. }
    destruct (p_ignored p) as [|k l]; [reflexivity|]. exfalso. apply (Hall k). left; reflexivity.
  - intros k. destruct (ignored_by_gate s k) eqn:E; [|reflexivity]. exfalso.
    destruct (ignored_by_gate_spec s k E) as [p' [_ [Hin _]]].
    destruct (ignored_only_sustain_other s k E) as [Hk|Hk]; subst k; [apply HnS | apply HnO]; assumption.
Qed.

Lemma prod_cons : forall x l, prod_list (x :: l) = x * prod_list l.
Proof. intros x l. unfold prod_list. cbn [fold_left]. rewrite Nat.mul_1_l. apply fold_mul_acc. Qed.

Lemma sum_cons : forall x l, sum_list (x :: l) = x + sum_list l.
Proof. intros x l. unfold sum_list. cbn [fold_left]. rewrite Nat.add_0_l. apply fold_add_acc. Qed.

Lemma sum_scale : forall c l, sum_list (map (fun w => c * w) l) = c * sum_list l.
Proof.
  intros c. induction l as [|x l IH]; [cbn; lia|].
  cbn [map]. rewrite !sum_cons. rewrite IH. lia.
Qed.

Definition first_primary (k : nat) (fs : list sfactor) : option nat :=
  find_index (fun f => negb (sf_derived f)) k fs.

Lemma find_index_ge {A} (p : A -> bool) : forall l k i, find_index p k l = Some i -> k <= i.
Proof.
  induction l as [|x l IH]; intros k i H; cbn in H; [discriminate|].
  destruct (p x); [inversion H; lia|]. apply IH in H. lia.
Qed.

(** the scaled counts differ from the unscaled ones only at the first non-derived factor *)
Lemma level_counts_nth : forall fs scale k i,
  nth i (level_counts scale fs) 0 =
  match first_primary k fs with
  | Some j => if j =? k + i then scale * nth i (level_counts 1 fs) 0 else nth i (level_counts 1 fs) 0
  | None => nth i (level_counts 1 fs) 0
  end.
Proof.
  induction fs as [|f r IH]; intros scale k i.
  - cbn. destruct i; reflexivity.
  - unfold first_primary. cbn [level_counts find_index]. fold (first_primary (S k) r).
    destruct (sf_derived f) eqn:Ed; cbn [negb]; destruct i as [|i]; cbn [nth].
    + destruct (first_primary (S k) r) as [j|] eqn:Ej; [|reflexivity].
      apply find_index_ge in Ej. destruct (j =? k + 0) eqn:E; [apply Nat.eqb_eq in E; lia | reflexivity].
    + rewrite (IH scale (S k) i). replace (S k + i) with (k + S i) by lia. reflexivity.
    + rewrite Nat.add_0_r, Nat.eqb_refl. rewrite !sum_scale. lia.
    + destruct (k =? k + S i) eqn:E; [apply Nat.eqb_eq in E; lia | reflexivity].
Qed.

Lemma prod_map_ext : forall (g h : nat -> nat) cr, (forall i, In i cr -> g i = h i) ->
  prod_list (map g cr) = prod_list (map h cr).
Proof.
  intros g h. induction cr as [|x cr IH]; intro H; [reflexivity|]. cbn [map]. rewrite !prod_cons.
  rewrite (H x (or_introl eq_refl)). rewrite IH; [reflexivity|]. intros i Hi. apply H. right; assumption.
Qed.

Lemma prod_scale_once : forall (g h : nat -> nat) i0 c cr,
  (forall i, i <> i0 -> g i = h i) -> g i0 = c * h i0 ->
  count_occ Nat.eq_dec cr i0 = 1 ->
  prod_list (map g cr) = c * prod_list (map h cr).
Proof.
  intros g h i0 c. induction cr as [|x cr IH]; intros Hne He Hc; [cbn in Hc; discriminate|].
  cbn [map]. rewrite !prod_cons. cbn in Hc. destruct (Nat.eq_dec x i0) as [E|E].
  - subst x. inversion Hc as [Hc']. rewrite He.
    rewrite (prod_map_ext g h cr); [lia|].
    intros i Hi. apply Hne. intro Ei. subst i.
    apply (count_occ_In Nat.eq_dec) in Hi. lia.
  - rewrite (Hne x E). rewrite IH; [lia|assumption|assumption|assumption].
Qed.

Lemma ceil_div_mul : forall a S, 0 < S -> a <= (a + S - 1) / S * S.
Proof.
  intros a S HS. pose proof (Nat.div_mod (a + S - 1) S ltac:(lia)) as H.
  pose proof (Nat.mod_upper_bound (a + S - 1) S ltac:(lia)) as Hr. nia.
Qed.

Lemma ceil_div_one : forall a S, 0 < S -> (a + S - 1) / S <= 1 -> a <= S.
Proof.
  intros a S HS H. destruct (le_lt_dec a S) as [Hle|Hgt]; [assumption|]. exfalso.
  assert (2 <= (a + S - 1) / S).
  { apply Nat.div_le_lower_bound; lia. }
  lia.
Qed.

Definition base_size (s : summary) : nat :=
  prod_list (map (fun i => nth i (level_counts 1 (sm_design s)) 0) (sm_crossing s)).
Definition preamble (s : summary) : nat := if existsb (is_tr_at s) (sm_crossing s) then 1 else 0.

(** [base_size] = the crossing size (product of the level-weight sums of the crossed factors),
    [preamble] = 1 iff a transition is crossed.  For a plain CrossBlock
    [trials_per_sample() = max(min_trials, size + preamble)] and
    [crossing_weight() = ceil((trials - preamble) / size)] (RepeatMode.WEIGHT in [_create]). *)
Theorem sm_length : forall s p, gate s = Accept p ->
  0 < base_size s -> base_size s + preamble s <= sm_trials s ->
  sm_crossing_weight s = (sm_trials s - preamble s + base_size s - 1) / base_size s ->
  (sm_crossing_weight s <= 1 \/
   exists i0, first_primary 0 (sm_design s) = Some i0 /\ count_occ Nat.eq_dec (sm_crossing s) i0 = 1) ->
  p_length p = sm_trials s.
Proof.
  intros s p H HS HT Hcw Hfirst.
  destruct (gate_accept_inv s p H) as (_ & _ & _ & _ & Hl). rewrite Hl. clear H Hl. cbv zeta.
  fold (preamble s).
  set (S := base_size s) in *. set (P := preamble s) in *. set (T := sm_trials s) in *. set (cw := sm_crossing_weight s) in *.
  assert (Hceil : T - P <= cw * S) by (rewrite Hcw; apply ceil_div_mul; assumption).
  destruct (1 <? cw) eqn:E1.
  - apply Nat.ltb_lt in E1. destruct Hfirst as [Hle|[i0 [Hfp Hocc]]]; [lia|].
    assert (HM : prod_list (map (fun i => nth i (level_counts cw (sm_design s)) 0) (sm_crossing s)) = cw * S).
    { unfold S, base_size. apply (prod_scale_once _ _ i0).
      - intros i Hi. rewrite (level_counts_nth (sm_design s) cw 0 i). rewrite Hfp. cbn.
        destruct (i0 =? i) eqn:E; [apply Nat.eqb_eq in E; congruence | reflexivity].
      - rewrite (level_counts_nth (sm_design s) cw 0 i0). rewrite Hfp. cbn. rewrite Nat.eqb_refl. reflexivity.
      - assumption. }
    rewrite HM. lia.
  - apply Nat.ltb_ge in E1.
    assert (Hcw1 : cw = 1).
    { assert (1 <= cw); [|lia]. rewrite Hcw. apply Nat.div_le_lower_bound; lia. }
    assert (HaS : T - P <= S) by (apply ceil_div_one; [assumption | rewrite <- Hcw; lia]).
    rewrite Hcw1. fold (base_size s). fold S. lia.
Qed.

Definition plain_factor (n : nat) : sfactor :=
  {| sf_derived := false; sf_window := WWithin; sf_args := []; sf_weights := repeat 1 n |}.

(** CrossBlock([f, g], [f, g], [c]) with f, g of two levels and one user constraint of kind k.
    The gate refuses it for every user constraint kind; the code before /repo commit cac238c
    accepts [witness_with KExactlyKInARow], [witness_with KSequential] and [witness_with KLatin]
    and returns sequences that violate the constraint. *)
Definition witness_with (k : ckind) : summary :=
  {| sm_is_block := true; sm_ncrossings := 1; sm_constraints := [KCross; KConsistency; k];
     sm_crossing_weight := 1; sm_trials := 4; sm_design := [plain_factor 2; plain_factor 2]; sm_crossing := [0; 1] |}.

Theorem witness_with_user_refused : forall k, user_kind k = true -> gate (witness_with k) = Refuse (RConstraint k).
Proof. destruct k; cbn; intro H; try discriminate; reflexivity. Qed.

Theorem witness_with_realised_accepted : forall k, realised_kind k = true ->
  exists p, gate (witness_with k) = Accept p /\ p_ignored p = [] /\ p_length p = 4.
Proof. destruct k; cbn; intro H; try discriminate; eexists; (split; [vm_compute; reflexivity|split; reflexivity]). Qed.

Theorem refused_never_ignored : forall s k, refused_kind k = true -> ignored_by_gate s k = false.
Proof.
  intros s k Hr. destruct (ignored_by_gate s k) eqn:E; [|reflexivity].
  destruct (ignored_by_gate_spec s k E) as (p & Hg & Hin & _).
  destruct (gate_accept_facts s p Hg) as (_ & Hno & _). rewrite (Hno k Hin) in Hr. discriminate.
Qed.

(** the exception of [gate_total] is inhabited: Nest(CrossBlock([f],[f],[]), CrossBlock([g],[],[MinimumTrials(3)]))
    has ONE crossing (the inner block has none), [block.constraints] = Cross, Consistency, MinimumTrials,
    Sustain (crossing_sustain_counts = [3]), trials_per_sample() = 6, crossing_weight() = 1: the gate lets it
    through, no Sustain is handed to the core, and the columns have 2 entries (replayed on the real code) *)
Definition witness_sustain : summary :=
  {| sm_is_block := true; sm_ncrossings := 1; sm_constraints := [KCross; KConsistency; KMinimumTrials; KSustain];
     sm_crossing_weight := 1; sm_trials := 6; sm_design := [plain_factor 2; plain_factor 3]; sm_crossing := [0] |}.

Theorem gate_sustain_refuted : exists s p,
  gate s = Accept p /\ In KSustain (sm_constraints s) /\ ~ In KSustain (p_handed p) /\ In KSustain (p_ignored p) /\
  ignored_by_gate s KSustain = true /\ p_length p = 2 /\ sm_trials s = 6.
Proof.
  exists witness_sustain. eexists. split; [vm_compute; reflexivity|].
  split; [cbn; auto|]. split; [intros []|]. split; [cbn; auto|]. split; [vm_compute; reflexivity|]. split; reflexivity.
Qed.

(** Repeat(CrossBlock([f],[f]), [MinimumTrials(4)]): trials 4, crossing weight 1 (RepeatMode.REPEAT
    does not re-weight), M = 2: two-trial sequences *)
Definition witness_repeat : summary :=
  {| sm_is_block := true; sm_ncrossings := 1; sm_constraints := [KCross; KConsistency; KMinimumTrials];
     sm_crossing_weight := 1; sm_trials := 4; sm_design := [plain_factor 2]; sm_crossing := [0] |}.

Theorem sm_length_repeat_refuted : exists s p, gate s = Accept p /\ p_length p = 2 /\ sm_trials s = 4.
Proof. exists witness_repeat. eexists. split; [vm_compute; reflexivity|]. split; reflexivity. Qed.

(** CrossBlock([f, g], [g], [MinimumTrials(6)]): the duplication that implements the crossing
    weight 3 is applied to f, the first non-derived factor of the design, which is not crossed *)
Definition witness_uncrossed : summary :=
  {| sm_is_block := true; sm_ncrossings := 1; sm_constraints := [KCross; KConsistency; KMinimumTrials];
     sm_crossing_weight := 3; sm_trials := 6; sm_design := [plain_factor 2; plain_factor 2]; sm_crossing := [1] |}.

Theorem sm_length_uncrossed_refuted : exists s p,
  gate s = Accept p /\ p_length p = 2 /\ sm_trials s = 6 /\
  0 < base_size s /\ base_size s + preamble s <= sm_trials s /\
  sm_crossing_weight s = (sm_trials s - preamble s + base_size s - 1) / base_size s.
Proof. exists witness_uncrossed. eexists. split; [vm_compute; reflexivity|]. vm_compute. repeat split; auto. Qed.
