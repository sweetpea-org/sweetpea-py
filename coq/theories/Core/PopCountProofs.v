(** Saturating ripple adder and population count of [Core/CnfModel.v]. *)
From Coq Require Import ZArith List Bool Lia Arith.
From SP Require Import Base.Lists Base.Sat Base.Bits Core.CnfModel Core.CnfProofs.
Import ListNotations.
Open Scope Z_scope.

Lemma rsat_aux_lt ps : forall i sa cin acc st,
  (i + length ps < sa)%nat ->
  rsat_aux ps i sa cin acc st = ripple_aux ps cin acc st.
Proof.
  induction ps as [|[x y] ps IH]; intros i sa cin acc st H; [reflexivity|].
  cbn [rsat_aux ripple_aux length] in *.
  replace (Nat.eqb (S i) sa) with false by (symmetry; apply Nat.eqb_neq; lia).
  unfold bind. destruct (full_adder x y cin st) as [[c s] st1]. apply IH. lia.
Qed.

Lemma rsat_aux_eq ps x y : forall i sa cin acc st,
  (i + length ps + 1 = sa)%nat ->
  rsat_aux (ps ++ [(x, y)]) i sa cin acc st
  = bind (ripple_aux ps cin acc)
         (fun r => s <- saturate_adder x y (fst r) ;; ret (fst r, snd r ++ [s])) st.
Proof.
  induction ps as [|[x' y'] ps IH]; intros i sa cin acc st H.
  - cbn [app rsat_aux ripple_aux length] in *.
    replace (Nat.eqb (S i) sa) with true by (symmetry; apply Nat.eqb_eq; lia).
    reflexivity.
  - cbn [app rsat_aux ripple_aux length] in *.
    replace (Nat.eqb (S i) sa) with false by (symmetry; apply Nat.eqb_neq; lia).
    unfold bind.
    destruct (full_adder x' y' cin st) as [[c s] st1]. rewrite IH by lia. reflexivity.
Qed.

(** The case of full width: a ripple adder on the low positions [xs], [ys],
    then a saturating adder on the top literals [xt], [yt] and the carry. *)
Definition rsat_top_post (n : Z) (xs ys : list Z) (xt yt : Z)
  (r : option Z * list Z) (n2 : Z) (new : cnf) : Prop :=
  exists co sums, r = (co, sums ++ [n2]) /\ length sums = length xs /\
    Forall (fresh_in n n2) sums /\ n < n2 /\
    forall s, sat s new = true ->
      lsbv (lits s sums) + 2 ^ Z.of_nat (length xs) * Z.b2z (olit s co)
      = msbv (lits s xs) + msbv (lits s ys) /\
      s n2 = lit_true s xt || lit_true s yt || olit s co.

Lemma rsat_top_spec n xs ys xt yt :
  0 <= n -> length xs = length ys -> Forall (inr n) xs -> Forall (inr n) ys ->
  inr n xt -> inr n yt ->
  Spec (r <- ripple_carry xs ys ;; s <- saturate_adder xt yt (fst r) ;; ret (fst r, snd r ++ [s])) n
       (rsat_top_post n xs ys xt yt).
Proof.
  intros Hn Hlen Hxs Hys Hxt Hyt.
  eapply spec_bind; [apply (ripple_carry_spec n xs ys); assumption|].
  intros [co sums] n1 new1 Hle (Hn1 & Hlen' & Hfr & Hco & Hsem). cbn [fst snd] in *.
  assert (Hco' : oinr n1 co).
  { destruct xs.
    - subst co. exact I.
    - destruct Hco as (c & -> & Hc). cbn [oinr]. apply (fresh_in_inr n); assumption. }
  eapply spec_bind.
  { apply (saturate_adder_spec n1 xt yt co); [lia| | |assumption]; eapply inr_le; eassumption. }
  intros sv n2 new2 Hle2 (-> & -> & Hsat).
  apply spec_ret; [lia|]. exists co, sums. split; [reflexivity|].
  split; [lia|]. split; [apply (Forall_fresh_le n n1); [lia|assumption]|].
  split; [lia|]. intros s Hs. rewrite app_nil_r in Hs.
  rewrite sat_app, andb_true_iff in Hs. destruct Hs as [Hs1 Hs2].
  split; [now apply Hsem|now apply Hsat].
Qed.

Definition ripple_saturate_post (n : Z) (xs ys : list Z) (sa : nat)
  (o : option (list Z)) (n' : Z) (new : cnf) : Prop :=
  exists out, o = Some out /\ Forall (fresh_in n n') out /\
    if (length xs <? sa)%nat then
      length out = S (length xs) /\
      forall s, sat s new = true ->
        msbv (lits s out) = msbv (lits s xs) + msbv (lits s ys)
    else
      length out = length xs /\
      forall s, sat s new = true -> exists cr : bool,
        msbv (lits s (tl out)) + 2 ^ (Z.of_nat (length xs) - 1) * Z.b2z cr
        = msbv (lits s (tl xs)) + msbv (lits s (tl ys)) /\
        lit_true s (hd 0 out)
        = lit_true s (hd 0 xs) || lit_true s (hd 0 ys) || cr.

Lemma ripple_saturate_spec n xs ys sa :
  0 <= n -> length xs = length ys -> (0 < length xs <= sa)%nat ->
  Forall (inr n) xs -> Forall (inr n) ys ->
  Spec (ripple_saturate xs ys sa) n (ripple_saturate_post n xs ys sa).
Proof.
  intros Hn Hlen Hw Hxs Hys. unfold ripple_saturate, ripple_saturate_post.
  destruct (length xs <? sa)%nat eqn:E.
  - apply Nat.ltb_lt in E.
    eapply spec_bind.
    { eapply spec_ext; [intros st; apply rsat_aux_lt; rewrite combine_length, !rev_length; lia|].
      apply (ripple_carry_spec n xs ys); assumption. }
    intros [co sums] n1 new1 Hle (Hn1 & Hls & Hfr & Hco & Hsem). cbn [fst snd] in *.
    destruct xs as [|x0 xs']; [cbn [length] in Hw; lia|]. destruct Hco as (c & -> & Hc).
    apply spec_ret; [lia|].
    exists (rev (sums ++ [c])). split; [reflexivity|].
    split. { apply Forall_rev. apply Forall_app. split; [assumption|]. now constructor. }
    split. { rewrite rev_length, app_length. cbn [length] in *. lia. }
    intros s Hs. rewrite app_nil_r in Hs. specialize (Hsem s Hs).
    rewrite lits_rev, msbv_rev, lits_app, lsbv_app, lits_length, Hls.
    cbn [lits map lsbv olit] in *. lia.
  - apply Nat.ltb_ge in E. assert (Hsa : length xs = sa) by lia.
    destruct xs as [|xt xs']; [cbn [length] in Hw; lia|].
    destruct ys as [|yt ys']; [discriminate|].
    cbn [length] in Hlen, Hsa. injection Hlen as Hlen.
    inversion Hxs as [|? ? Hxt Hxs']; subst. inversion Hys as [|? ? Hyt Hys']; subst.
    cbn [rev]. rewrite combine_app by (now rewrite !rev_length). cbn [combine].
    eapply spec_bind.
    { eapply spec_ext; [intros st; apply rsat_aux_eq; rewrite combine_length, !rev_length; cbn; lia|].
      apply (rsat_top_spec n xs' ys' xt yt); assumption. }
    intros r n2 new2 Hle2 (co & sums & -> & Hls & Hfr & Hlt & Hsem).
    cbn [length].
    apply spec_ret; [lia|].
    exists (rev (sums ++ [n2])). split; [reflexivity|].
    split.
    { apply Forall_rev. apply Forall_app. split; [assumption|].
      constructor; [unfold fresh_in; lia|constructor]. }
    split. { rewrite rev_length, app_length. cbn [length]. lia. }
    intros s Hs. rewrite app_nil_r in Hs. destruct (Hsem s Hs) as [H1 H2].
    exists (olit s co). rewrite rev_app_distr. cbn [rev app hd tl].
    rewrite lits_rev, msbv_rev. split.
    + rewrite pow2_pred. exact H1.
    + rewrite lit_true_pos by (clear - Hn Hlt; lia). exact H2.
Qed.

(** Width of the partial counts at level [lvl] (groups of [2^lvl] inputs). *)
Definition wd (sa lvl : nat) : nat :=
  match sa with O => S lvl | _ => Nat.min (S lvl) sa end.

(** [b] (MSB first) holds the saturated count [N] of a group of [2^lvl] inputs. *)
Definition Rep (sa lvl : nat) (s : asg) (b : list Z) (N : Z) : Prop :=
  msbv (lits s b) = satv sa N /\ 0 <= N <= 2 ^ Z.of_nat lvl.

Definition pair_add (x y : list Z) (sa : nat) : M (option (list Z)) :=
  if Nat.eqb sa 0 then
    cs <- ripple_carry x y ;;
    match fst cs with
    | Some c => ret (Some (c :: rev (snd cs)))
    | None => ret None
    end
  else ripple_saturate x y sa.

Definition pair_add_post (n : Z) (x y : list Z) (sa lvl : nat)
  (o : option (list Z)) (n' : Z) (new : cnf) : Prop :=
  exists out, o = Some out /\ length out = wd sa (S lvl) /\
    Forall (fresh_in n n') out /\
    forall s, sat s new = true -> forall Nx Ny,
      Rep sa lvl s x Nx -> Rep sa lvl s y Ny -> Rep sa (S lvl) s out (Nx + Ny).

Lemma pow2_le_mono (a b : nat) : (a <= b)%nat -> 2 ^ Z.of_nat a <= 2 ^ Z.of_nat b.
Proof. intros H. apply Z.pow_le_mono_r; lia. Qed.

Lemma pair_add_spec n x y sa lvl :
  0 <= n -> length x = wd sa lvl -> length y = wd sa lvl ->
  Forall (inr n) x -> Forall (inr n) y ->
  Spec (pair_add x y sa) n (pair_add_post n x y sa lvl).
Proof.
  intros Hn Hlx Hly Hx Hy. unfold pair_add, pair_add_post.
  destruct sa as [|m].
  - (* no saturation: ripple_carry *)
    cbn [Nat.eqb wd] in *.
    eapply spec_bind; [apply ripple_carry_spec; try assumption; lia|].
    intros [co sums] n1 new1 Hle (Hn1 & Hls & Hfr & Hco & Hsem). cbn [fst snd] in *.
    destruct x as [|x0 x']; [discriminate|].
    destruct Hco as (c & -> & Hc).
    apply spec_ret; [lia|].
    exists (c :: rev sums). split; [reflexivity|].
    split; [cbn [length]; rewrite rev_length; lia|].
    split; [constructor; [assumption|now apply Forall_rev]|].
    intros s Hs Nx Ny [Hx1 Hx2] [Hy1 Hy2]. rewrite app_nil_r in Hs.
    specialize (Hsem s Hs). cbn [satv] in *. split.
    + cbn [lits map]. rewrite msbv_cons. fold (lits s (rev sums)).
      rewrite lits_rev, msbv_rev, rev_length, lits_length, Hls.
      cbn [olit] in Hsem. cbn [satv]. lia.
    + rewrite pow2_S. lia.
  - cbn [Nat.eqb].
    assert (Hw : (0 < length x <= S m)%nat).
    { rewrite Hlx. cbn [wd]. lia. }
    eapply spec_conseq; [apply ripple_saturate_spec; try assumption; lia|].
    intros o n1 new1 Hle (out & -> & Hfr & Hcase).
    exists out. split; [reflexivity|].
    destruct (length x <? S m)%nat eqn:E.
    + apply Nat.ltb_lt in E. destruct Hcase as [Hlo Hsem].
      assert (Hlvl : (S lvl < S m)%nat).
      { rewrite Hlx in E. cbn [wd] in E. lia. }
      split. { rewrite Hlo, Hlx. cbn [wd]. lia. }
      split; [assumption|].
      intros s Hs Nx Ny [Hx1 Hx2] [Hy1 Hy2].
      pose proof (pow2_le_mono lvl m ltac:(lia)) as Hp1.
      pose proof (pow2_le_mono (S lvl) m ltac:(lia)) as Hp2.
      rewrite pow2_S in Hp2.
      replace (Z.of_nat m) with (Z.of_nat (S m) - 1) in Hp1, Hp2 by lia.
      rewrite satv_small in Hx1, Hy1 by (intros; lia).
      split; [|rewrite pow2_S; lia].
      rewrite (Hsem s Hs), satv_small by (intros; lia). lia.
    + apply Nat.ltb_ge in E. destruct Hcase as [Hlo Hsem].
      assert (Hlen : length x = S m) by lia.
      split. { rewrite Hlo. rewrite Hlx in *. cbn [wd] in *. lia. }
      split; [assumption|].
      intros s Hs Nx Ny [Hx1 Hx2] [Hy1 Hy2]. split; [|rewrite pow2_S; lia].
      destruct (Hsem s Hs) as (cr & Hlow & Htop).
      assert (Hly' : length y = S m) by congruence. assert (Hlo' : length out = S m) by congruence.
      rewrite Hlen, pow2_pred, !lits_tl in Hlow.
      rewrite (lits_hd s x m Hlen), (lits_hd s y m Hly'), (lits_hd s out m Hlo') in Htop.
      apply (satv_add_bits m (lits s x) (lits s y) (lits s out) Nx Ny cr);
        rewrite ?lits_length; try assumption; [apply Hx2|apply Hy2].
Qed.

Definition sumZ (l : list Z) : Z := fold_right Z.add 0 l.

Lemma sumZ_cons x a : sumZ (x :: a) = x + sumZ a.
Proof. reflexivity. Qed.

Lemma sumZ_nil : sumZ [] = 0.
Proof. reflexivity. Qed.

Lemma sumZ_app a b : sumZ (a ++ b) = sumZ a + sumZ b.
Proof. unfold sumZ. induction a as [|x a IH]; cbn [app fold_right] in *; lia. Qed.

Lemma sumZ_rev a : sumZ (rev a) = sumZ a.
Proof.
  induction a as [|x a IH]; [reflexivity|].
  cbn [rev]. rewrite sumZ_app, IH, !sumZ_cons, sumZ_nil. lia.
Qed.

Lemma Forall2_rev {A B} (R : A -> B -> Prop) l l' :
  Forall2 R l l' -> Forall2 R (rev l) (rev l').
Proof.
  induction 1 as [|x y l l' Hxy _ IH]; [constructor|].
  cbn [rev]. apply Forall2_app; [assumption|]. now repeat constructor.
Qed.

Definition wf_bits (n : Z) (sa lvl : nat) (bits : list (list Z)) : Prop :=
  Forall (fun b => length b = wd sa lvl /\ Forall (inr n) b) bits.

Lemma wf_bits_le n m sa lvl bits : n <= m -> wf_bits n sa lvl bits -> wf_bits m sa lvl bits.
Proof.
  intros H. apply Forall_impl. intros b [H1 H2]. split; [assumption|].
  now apply (Forall_inr_le n).
Qed.

Definition layer_post (n : Z) (l r : list (list Z)) (sa lvl : nat)
  (o : option (list (list Z))) (n' : Z) (new : cnf) : Prop :=
  exists vl, o = Some vl /\ length vl = length l /\ wf_bits n' sa (S lvl) vl /\
    forall s, sat s new = true -> forall Nl Nr,
      Forall2 (Rep sa lvl s) l Nl -> Forall2 (Rep sa lvl s) r Nr ->
      exists Ns, Forall2 (Rep sa (S lvl) s) vl Ns /\ sumZ Ns = sumZ Nl + sumZ Nr.

Lemma layer_pairs_spec sa lvl l : forall r n,
  0 <= n -> length l = length r -> wf_bits n sa lvl l -> wf_bits n sa lvl r ->
  Spec (layer_pairs l r sa) n (layer_post n l r sa lvl).
Proof.
  induction l as [|x l IH]; intros r n Hn Hlen Hl Hr.
  - cbn [layer_pairs]. apply spec_ret; [assumption|].
    exists []. split; [reflexivity|]. split; [reflexivity|]. split; [constructor|].
    intros s _ Nl Nr HNl HNr. inversion HNl; subst. destruct r; [|discriminate].
    inversion HNr; subst. exists []. split; [constructor|reflexivity].
  - destruct r as [|y r]; [discriminate|]. cbn [length] in Hlen.
    inversion Hl as [|? ? [Hx1 Hx2] Hl']; subst. inversion Hr as [|? ? [Hy1 Hy2] Hr']; subst.
    cbn [layer_pairs]. fold (pair_add x y sa).
    eapply spec_bind; [apply (pair_add_spec n x y sa lvl); assumption|].
    intros o n1 new1 Hle (out & -> & Hlo & Hfo & Hsem1).
    eapply spec_bind.
    { apply (IH r n1); [lia|lia| |]; apply (wf_bits_le n); assumption || lia. }
    intros o2 n2 new2 Hle2 (vl & -> & Hlv & Hwv & Hsem2).
    apply spec_ret; [lia|].
    exists (out :: vl). split; [reflexivity|]. split; [cbn [length]; lia|].
    split.
    { constructor; [|assumption]. split; [assumption|].
      apply (Forall_inr_le n1); [lia|]. apply (Forall_fresh_inr n); assumption. }
    intros s Hs Nl Nr HNl HNr. rewrite app_nil_r in Hs.
    rewrite sat_app, andb_true_iff in Hs. destruct Hs as [Hs1 Hs2].
    inversion HNl as [|? Nx ? Nl' HRx HNl']; subst.
    inversion HNr as [|? Ny ? Nr' HRy HNr']; subst.
    destruct (Hsem2 s Hs2 Nl' Nr' HNl' HNr') as (Ns & HNs & Hsum).
    exists ((Nx + Ny) :: Ns). split.
    + constructor; [|assumption]. now apply (Hsem1 s Hs1).
    + rewrite !sumZ_cons. lia.
Qed.

Lemma pop_layer_step f bits sa :
  (2 <= length bits)%nat ->
  pop_layer (S f) bits sa
  = (o <- layer_pairs (firstn (Nat.div (length bits) 2) bits)
                      (skipn (Nat.div (length bits) 2) bits) sa ;;
     match o with
     | Some vl => pop_layer f (rev vl) sa
     | None => ret None
     end).
Proof.
  intros H. destruct bits as [|b1 [|b2 rest]]; cbn [length] in H; try lia. reflexivity.
Qed.

Lemma pow2_nat_pos j : (0 < 2 ^ j)%nat.
Proof. induction j; cbn [Nat.pow]; lia. Qed.

Definition pop_layer_post (sa lvl j : nat) (bits : list (list Z))
  (o : option (list Z)) (n' : Z) (new : cnf) : Prop :=
  exists out, o = Some out /\ length out = wd sa (lvl + j) /\ Forall (inr n') out /\
    forall s, sat s new = true -> forall Ns,
      Forall2 (Rep sa lvl s) bits Ns -> Rep sa (lvl + j) s out (sumZ Ns).

Lemma pop_layer_spec sa j : forall fuel bits n lvl,
  0 <= n -> (j < fuel)%nat -> length bits = (2 ^ j)%nat -> wf_bits n sa lvl bits ->
  Spec (pop_layer fuel bits sa) n (pop_layer_post sa lvl j bits).
Proof.
  induction j as [|j IH]; intros fuel bits n lvl Hn Hf Hlen Hwf.
  - destruct fuel as [|f]; [lia|].
    destruct bits as [|b [|b2 rest]]; try discriminate.
    cbn [pop_layer]. apply spec_ret; [assumption|].
    inversion Hwf as [|? ? [Hb1 Hb2] _]; subst.
    exists b. split; [reflexivity|]. rewrite Nat.add_0_r.
    split; [assumption|]. split; [assumption|].
    intros s _ Ns HNs. inversion HNs as [|? N ? ? HR HNs']; subst. inversion HNs'; subst.
    rewrite sumZ_cons, sumZ_nil. now rewrite Z.add_0_r.
  - destruct fuel as [|f]; [lia|].
    pose proof (pow2_nat_pos j) as Hp.
    assert (Hlen2 : length bits = (2 ^ j + 2 ^ j)%nat).
    { rewrite Hlen. cbn [Nat.pow]. lia. }
    rewrite pop_layer_step by lia.
    assert (Hmid : Nat.div (length bits) 2 = (2 ^ j)%nat).
    { rewrite Hlen2. replace (2 ^ j + 2 ^ j)%nat with (2 ^ j * 2)%nat by lia.
      apply Nat.div_mul. lia. }
    rewrite Hmid.
    set (l := firstn (2 ^ j) bits). set (r := skipn (2 ^ j) bits).
    assert (Hbits : bits = l ++ r) by (symmetry; apply firstn_skipn).
    assert (Hll : length l = (2 ^ j)%nat) by (unfold l; rewrite firstn_length; lia).
    assert (Hlr : length r = (2 ^ j)%nat) by (unfold r; rewrite skipn_length; lia).
    rewrite Hbits in Hwf. apply Forall_app in Hwf. destruct Hwf as [Hwl Hwr].
    eapply spec_bind; [apply (layer_pairs_spec sa lvl l r n); try assumption; lia|].
    intros o n1 new1 Hle (vl & -> & Hlv & Hwv & Hsem1).
    eapply spec_conseq.
    { apply (IH f (rev vl) n1 (S lvl)); [lia|lia| |].
      - rewrite rev_length. lia.
      - apply Forall_rev. exact Hwv. }
    intros o2 n2 new2 Hle2 (out & -> & Hlo & Hro & Hsem2).
    exists out. split; [reflexivity|].
    replace (lvl + S j)%nat with (S lvl + j)%nat by lia.
    split; [assumption|]. split; [assumption|].
    intros s Hs Ns HNs. rewrite sat_app, andb_true_iff in Hs. destruct Hs as [Hs1 Hs2].
    rewrite Hbits in HNs. apply Forall2_app_inv_l in HNs.
    destruct HNs as (Nl & Nr & HNl & HNr & ->).
    destruct (Hsem1 s Hs1 Nl Nr HNl HNr) as (Ns' & HNs' & Hsum).
    rewrite sumZ_app, <- Hsum, <- sumZ_rev.
    apply (Hsem2 s Hs2). now apply Forall2_rev.
Qed.

Lemma log2_up_nat_spec fuel : forall n p,
  (n <= 2 ^ (p + fuel))%nat ->
  let r := log2_up_nat fuel n p in
  (n <= 2 ^ r /\ p <= r /\ (r = p \/ 2 ^ (r - 1) < n))%nat.
Proof.
  induction fuel as [|f IH]; intros n p H; cbn [log2_up_nat].
  - rewrite Nat.add_0_r in H. lia.
  - destruct (Nat.leb n (2 ^ p)) eqn:E.
    + apply Nat.leb_le in E. lia.
    + apply Nat.leb_gt in E.
      destruct (IH n (S p)) as (H1 & H2 & H3).
      { replace (S p + f)%nat with (p + S f)%nat by lia. exact H. }
      split; [assumption|]. split; [lia|]. right. destruct H3 as [H3|H3]; [|assumption].
      rewrite H3. replace (S p - 1)%nat with p by lia. exact E.
Qed.

Definition clog2 (n : nat) : nat := log2_up_nat n n 0.

Lemma clog2_spec n :
  (n <= 2 ^ clog2 n /\ (clog2 n = 0 \/ 2 ^ (clog2 n - 1) < n))%nat.
Proof.
  unfold clog2. destruct (log2_up_nat_spec n n 0) as (H1 & _ & H3).
  - cbn [Nat.add]. apply Nat.lt_le_incl. apply Nat.pow_gt_lin_r. lia.
  - split; assumption.
Qed.

Lemma clog2_lt n : (clog2 n <= n)%nat.
Proof.
  destruct (clog2_spec n) as [_ [H|H]]; [lia|].
  pose proof (Nat.pow_gt_lin_r 2 (clog2 n - 1) ltac:(lia)). lia.
Qed.

Definition pop_count_post (n : Z) (vs : list Z) (sa : nat)
  (o : option (list Z)) (n' : Z) (new : cnf) : Prop :=
  exists out, o = Some out /\ length out = wd sa (clog2 (length vs)) /\
    Forall (inr n') out /\
    forall s, sat s new = true -> msbv (lits s out) = satv sa (count s vs).

Lemma Rep_single sa s x : Rep sa 0 s [x] (Z.b2z (lit_true s x)).
Proof.
  split.
  - cbn [lits map]. rewrite msbv_cons, msbv_nil. cbn [length].
    change (Z.of_nat 0) with 0. rewrite Z.pow_0_r.
    rewrite satv_small; [lia|destruct (lit_true s x); cbn; lia|].
    intros Hsa. assert (0 < 2 ^ (Z.of_nat sa - 1)) by (apply Z.pow_pos_nonneg; lia).
    destruct (lit_true s x); cbn [Z.b2z]; lia.
  - change (Z.of_nat 0) with 0. rewrite Z.pow_0_r. destruct (lit_true s x); cbn; lia.
Qed.

Lemma Rep_singles sa s ls :
  Forall2 (Rep sa 0 s) (map (fun x => [x]) ls) (map (fun x => Z.b2z (lit_true s x)) ls).
Proof.
  induction ls as [|x ls IH]; cbn [map]; constructor; [apply Rep_single|assumption].
Qed.

Lemma sumZ_count s ls : sumZ (map (fun x => Z.b2z (lit_true s x)) ls) = count s ls.
Proof.
  induction ls as [|x ls IH]; [reflexivity|].
  cbn [map]. rewrite sumZ_cons, count_cons, IH. reflexivity.
Qed.

Lemma wd_0 sa : wd sa 0 = 1%nat.
Proof. destruct sa as [|m]; cbn [wd]; lia. Qed.

Lemma pop_count_unfold vs sa :
  vs <> [] ->
  pop_count vs sa
  = (aux <- nfresh (2 ^ clog2 (length vs) - length vs) ;;
     zero_out aux ;;;
     pop_layer (S (length vs)) (map (fun x => [x]) (vs ++ aux)) sa).
Proof. destruct vs; [congruence|reflexivity]. Qed.

Lemma pop_count_spec n vs sa :
  0 <= n -> vs <> [] -> Forall (inr n) vs ->
  Spec (pop_count vs sa) n (pop_count_post n vs sa).
Proof.
  intros Hn Hne Hvs. rewrite pop_count_unfold by assumption.
  set (p := clog2 (length vs)). set (k := (2 ^ p - length vs)%nat).
  destruct (clog2_spec (length vs)) as [Hp1 Hp2]. fold p in Hp1, Hp2.
  pose proof (clog2_lt (length vs)) as Hp3. fold p in Hp3.
  apply (spec_fresh_zero k (fun aux => pop_layer (S (length vs)) (map (fun x => [x]) (vs ++ aux)) sa)); [assumption|].
  eapply spec_conseq.
  { apply (pop_layer_spec sa p (S (length vs)) _ (n + Z.of_nat k) 0%nat); [lia|lia| |].
    - rewrite map_length, app_length, zseq_length. unfold k. lia.
    - apply Forall_forall. intros b Hb. apply in_map_iff in Hb. destruct Hb as (x & <- & Hx).
      split; [now rewrite wd_0|]. constructor; [|constructor].
      apply in_app_or in Hx. destruct Hx as [Hx|Hx].
      + rewrite Forall_forall in Hvs. apply (inr_le n); [lia|]. now apply Hvs.
      + apply zseq_In in Hx. unfold inr. lia. }
  intros o n' new Hle (out & -> & Hlo & Hro & Hsem).
  exists out. split; [reflexivity|]. cbn [Nat.add] in Hlo. split; [assumption|].
  split; [assumption|].
  intros s Hs. rewrite sat_app, andb_true_iff in Hs. destruct Hs as [Hs0 Hs1].
  pose proof (Hsem s Hs1 _ (Rep_singles sa s _)) as [Hv _].
  rewrite sumZ_count, count_app in Hv. rewrite Hv. f_equal.
  rewrite (count_all_false s (zseq (n + 1) k)); [lia|].
  apply zero_cls_sat in Hs0; [|apply zseq_pos; lia].
  rewrite Forall_forall in Hs0. exact Hs0.
Qed.

Lemma satv_exact sa p N :
  0 <= N <= 2 ^ Z.of_nat p -> (sa = 0 \/ wd sa p < sa)%nat -> satv sa N = N.
Proof.
  intros HN Hc. apply satv_small; [lia|]. intros Hsa.
  destruct sa as [|m]; [congruence|]. destruct Hc as [Hc|Hc]; [discriminate|].
  cbn [wd] in Hc. pose proof (pow2_le_mono p m ltac:(lia)).
  replace (Z.of_nat (S m) - 1) with (Z.of_nat m) by lia. lia.
Qed.

Lemma satv_split sa (bits : list bool) N :
  0 <= N -> sa <> O -> length bits = sa -> msbv bits = satv sa N ->
  msbv (tl bits) = N mod 2 ^ (Z.of_nat sa - 1) /\
  hd false bits = (2 ^ (Z.of_nat sa - 1) <=? N).
Proof.
  intros HN Hsa Hl Hv. destruct sa as [|m]; [congruence|].
  replace (Z.of_nat (S m) - 1) with (Z.of_nat m) by lia.
  destruct bits as [|t r]; [discriminate|]. cbn [length hd tl] in *.
  rewrite msbv_cons in Hv. cbn [satv] in Hv.
  assert (Hr : length r = m) by lia. rewrite Hr in Hv.
  pose proof (msbv_bounds r) as B. rewrite Hr in B.
  pose proof (pow2_pos m) as HM.
  pose proof (Z.mod_pos_bound N (2 ^ Z.of_nat m) HM) as BN.
  destruct (decomp_unique (2 ^ Z.of_nat m) (msbv r) (Z.b2z t)
              (N mod 2 ^ Z.of_nat m) (if 2 ^ Z.of_nat m <=? N then 1 else 0)) as [E1 E2];
    try assumption.
  { destruct (2 ^ Z.of_nat m <=? N); lia. }
  split; [exact E1|]. destruct (2 ^ Z.of_nat m <=? N), t; cbn [Z.b2z] in E2; try reflexivity; lia.
Qed.
