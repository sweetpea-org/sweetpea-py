(** Proofs about the cardinality encoders of [Core/Card.v]:
    [assert_k_of_n] (exactly k), [inequality] (fewer / more than k), [request] ([request_spec]).
    The file also defines what the proofs are stated in: [SpecA m n Q], a triple for a step [m] of the
    clause-emitting monad started at variable counter [n] (its clauses split into a [Defines] block and
    assertion clauses, [Q] holds of the result); the postcondition [card_post]; [sign_pad] and [cmp_tail],
    two parts of [inequality] written out as functions of their own ([cmp_tail_if] ties them to the
    model); and the request relations [ineq_rel] (LT / GT by a boolean) and [rel] (by [kind]). *)
From Coq Require Import ZArith List Bool Lia Arith.
From SP Require Import Base.Sat Base.Bits Core.CnfModel Core.CnfProofs
  Core.PopCountProofs Core.Card.
Import ListNotations.
Open Scope Z_scope.

Definition digit (d : Z) : Prop := d = 1 \/ d = -1.
(** Value of an MSB-first list of digits in {1, -1} (1 = set bit). *)
Definition pmv (ds : list Z) : Z := msbv (map (Z.ltb 0) ds).

(** the digits are produced from the least significant end; the last one
    pushed, the leading digit, is a 1 *)
Lemma to_bin_aux_spec f : forall v acc,
  0 <= v < 2 ^ Z.of_nat f ->
  exists ds, to_bin_aux f v acc = ds ++ acc /\ Forall digit ds /\ pmv ds = v /\
    (v = 0 -> ds = []) /\ (0 < v -> exists ds', ds = 1 :: ds').
Proof.
  induction f as [|f IH]; intros v acc Hv.
  - change (Z.of_nat 0) with 0 in Hv. rewrite Z.pow_0_r in Hv.
    exists []. cbn [to_bin_aux app]. repeat split; try constructor; try lia.
    unfold pmv. cbn. lia.
  - cbn [to_bin_aux]. destruct (v =? 0) eqn:E.
    + exists []. cbn [app]. repeat split; try constructor; try lia.
      unfold pmv. cbn. lia.
    + rewrite pow2_S in Hv.
      set (d := if v mod 2 =? 0 then -1 else 1).
      destruct (IH (v / 2) (d :: acc)) as (ds & Hrun & Hdig & Hval & Hz & Hpos).
      { split; [apply Z.div_pos; lia|]. apply Z.div_lt_upper_bound; lia. }
      exists (ds ++ [d]). rewrite Hrun, <- app_assoc. split; [reflexivity|].
      pose proof (Z.div_mod v 2 ltac:(lia)) as Hdm.
      pose proof (Z.mod_pos_bound v 2 ltac:(lia)) as Hmb.
      split.
      { apply Forall_app. split; [assumption|]. constructor; [|constructor].
        unfold digit, d. destruct (v mod 2 =? 0); lia. }
      split.
      { unfold pmv in *. rewrite map_app, msbv_app, Hval. cbn [map length].
        rewrite msbv_cons, msbv_nil. cbn [length]. change (Z.of_nat 0) with 0.
        change (Z.of_nat 1) with 1. rewrite Z.pow_0_r, Z.pow_1_r.
        unfold d. destruct (v mod 2 =? 0) eqn:E2; cbn [Z.ltb Z.compare Z.b2z]; lia. }
      split; [lia|]. intros _. destruct (Z.eq_dec (v / 2) 0) as [E0|E0].
      * rewrite (Hz E0). exists []. cbn [app]. f_equal. unfold d. destruct (v mod 2 =? 0) eqn:E2; lia.
      * destruct Hpos as [ds' ->]; [pose proof (Z.div_pos v 2 ltac:(lia) ltac:(lia)); lia|].
        now exists (ds' ++ [d]).
Qed.

Lemma pmv_lead ds :
  2 ^ (Z.of_nat (length (1 :: ds)) - 1) <= pmv (1 :: ds) < 2 ^ Z.of_nat (length (1 :: ds)).
Proof.
  unfold pmv. cbn [map length]. change (0 <? 1) with true. rewrite msbv_cons, pow2_pred, pow2_S.
  pose proof (msbv_bounds (map (Z.ltb 0) ds)) as B. rewrite map_length in *. cbn [Z.b2z]. lia.
Qed.

(** [int_to_binary k] has the digits of [k] and no more of them than needed *)
Lemma int_to_binary_spec k :
  0 <= k ->
  let bin := int_to_binary k in
  Forall digit bin /\ pmv bin = k /\ k < 2 ^ Z.of_nat (length bin) /\
  forall w : nat, k < 2 ^ Z.of_nat w -> (length bin <= w)%nat.
Proof.
  intros Hk bin. unfold bin, int_to_binary.
  destruct (to_bin_aux_spec (S (Z.to_nat (Z.log2 k) + 1)) k []) as (ds & Hrun & Hdig & Hval & Hz & Hpos).
  { split; [assumption|]. destruct (Z.eq_dec k 0) as [->|Hk0].
    - apply pow2_pos.
    - pose proof (Z.log2_spec k ltac:(lia)) as [_ H]. pose proof (Z.log2_nonneg k).
      eapply Z.lt_le_trans; [exact H|]. apply Z.pow_le_mono_r; lia. }
  rewrite Hrun, app_nil_r. split; [assumption|]. split; [assumption|].
  destruct (Z.eq_dec k 0) as [E|E].
  - rewrite (Hz E), E. split; [apply pow2_pos|intros w _; cbn [length]; lia].
  - destruct Hpos as [ds' ->]; [lia|]. rewrite <- Hval. destruct (pmv_lead ds') as [A B]. split; [exact B|].
    intros w Hw. apply Nat2Z.inj_le.
    assert (X : 2 ^ (Z.of_nat (length (1 :: ds')) - 1) < 2 ^ Z.of_nat w) by lia.
    apply Z.pow_lt_mono_r_iff in X; lia.
Qed.

Definition SpecA {A} (m : M A) (n : Z) (Q : A -> Z -> cnf -> cnf -> Prop) : Prop :=
  exists a n' defs asrt ext,
    (forall cs, m (mk n cs) = (a, mk n' (cs ++ defs ++ asrt)))
    /\ Defines n n' defs ext /\ vars_upto n' asrt /\ Q a n' defs asrt.

Lemma specA_bind {A B} (m : M A) (f : A -> M B) n Q1 (Q : B -> Z -> cnf -> cnf -> Prop) :
  Spec m n Q1 ->
  (forall a n1 new1, n <= n1 -> Q1 a n1 new1 ->
     SpecA (f a) n1 (fun b n2 defs asrt => Q b n2 (new1 ++ defs) asrt)) ->
  SpecA (bind m f) n Q.
Proof.
  intros (a & n1 & new1 & e1 & R1 & D1 & H1) Hf.
  pose proof (def_range _ _ _ _ D1) as Rg.
  destruct (Hf a n1 new1 ltac:(lia) H1) as (b & n2 & defs & asrt & e2 & R2 & D2 & V2 & H2).
  exists b, n2, (new1 ++ defs), asrt, (fun s => e2 (e1 s)). split; [|split; [|split]].
  - intros cs. unfold bind. rewrite R1, R2. now rewrite <- !app_assoc.
  - now apply (defines_seq n n1 n2).
  - exact V2.
  - exact H2.
Qed.

Lemma specA_prefix {B} (m m' : M B) n n1 new0 ext0 (Q : B -> Z -> cnf -> cnf -> Prop) :
  (forall cs, m (mk n cs) = m' (mk n1 (cs ++ new0))) ->
  Defines n n1 new0 ext0 ->
  SpecA m' n1 (fun b n2 defs asrt => Q b n2 (new0 ++ defs) asrt) ->
  SpecA m n Q.
Proof.
  intros Hrun D0 (b & n2 & defs & asrt & e2 & R2 & D2 & V2 & H2).
  exists b, n2, (new0 ++ defs), asrt, (fun s => e2 (ext0 s)). split; [|split; [|split]].
  - intros cs. rewrite Hrun, R2. now rewrite <- !app_assoc.
  - now apply (defines_seq n n1 n2).
  - exact V2.
  - exact H2.
Qed.

Lemma specA_conseq {A} (m : M A) n (Q Q' : A -> Z -> cnf -> cnf -> Prop) :
  SpecA m n Q ->
  (forall a n' defs asrt, n <= n' -> Q a n' defs asrt -> Q' a n' defs asrt) ->
  SpecA m n Q'.
Proof.
  intros (a & n1 & defs & asrt & e1 & R1 & D1 & V1 & H1) Himp.
  exists a, n1, defs, asrt, e1. split; [assumption|]. split; [assumption|].
  split; [assumption|]. apply Himp; [|assumption]. pose proof (def_range _ _ _ _ D1). lia.
Qed.

Lemma specA_emit {B} (c : cnf) (b : B) n (Q : B -> Z -> cnf -> cnf -> Prop) :
  0 <= n -> vars_upto n c -> Q b n [] c -> SpecA (emit c ;;; ret b) n Q.
Proof.
  intros Hn Hv HQ. exists b, n, [], c, (fun s => s). split; [|split; [|split]].
  - intros cs. reflexivity.
  - now apply defines_nil.
  - exact Hv.
  - exact HQ.
Qed.

(** What a successful request means: [defs] define the auxiliary variables,
    [asrt] holds exactly when the relation [P] does. *)
Definition card_post (P : asg -> Prop) (b : bool) (n' : Z) (defs asrt : cnf) : Prop :=
  b = true /\ forall s, sat s defs = true -> (sat s asrt = true <-> P s).

Definition digit_cls (ds bs : list Z) : cnf :=
  map (fun p => [fst p * snd p]) (combine ds bs).

Lemma digit_lit s d b : digit d -> b <> 0 ->
  lit_true s (d * b) = Bool.eqb (lit_true s b) (0 <? d).
Proof.
  intros [->| ->] Hb.
  - rewrite Z.mul_1_l. now destruct (lit_true s b).
  - replace (-1 * b) with (- b) by lia. rewrite lit_true_opp by assumption.
    now destruct (lit_true s b).
Qed.

Lemma digit_cls_sat s ds : forall bs,
  length ds = length bs -> Forall digit ds -> Forall (fun b => b <> 0) bs ->
  (sat s (digit_cls ds bs) = true <-> lits s bs = map (Z.ltb 0) ds).
Proof.
  induction ds as [|d ds IH]; intros [|b bs] Hl Hd Hb; try discriminate.
  - cbn. intuition.
  - inversion Hd; subst. inversion Hb; subst. cbn [length] in Hl.
    unfold digit_cls. cbn [combine map fst snd lits]. rewrite sat_cons, andb_true_iff.
    fold (digit_cls ds bs). fold (lits s bs). rewrite IH by (assumption || lia).
    unfold csat. cbn [existsb]. rewrite orb_false_r, digit_lit, eqb_true_iff by assumption.
    split.
    + intros [E1 E2]. now f_equal.
    + intros E0. injection E0 as E1 E2. now split.
Qed.

Lemma digit_cls_vars n ds : forall bs,
  Forall digit ds -> Forall (inr n) bs -> vars_upto n (digit_cls ds bs).
Proof.
  induction ds as [|d ds IH]; intros [|b bs] Hd Hb;
    try (intros c l Hc; cbn in Hc; contradiction).
  inversion Hd as [|? ? Hd1 Hd2]; subst. inversion Hb as [|? ? Hb1 Hb2]; subst.
  unfold digit_cls. cbn [combine map fst snd]. fold (digit_cls ds bs).
  intros c0 l0 [<-|Hc] Hl0.
  - destruct Hl0 as [<-|[]]. unfold inr in Hb1. destruct Hd1 as [->| ->]; lia.
  - now apply (IH bs Hd2 Hb2 c0 l0).
Qed.

Lemma Forall_inr_nz n ls : Forall (inr n) ls -> Forall (fun b => b <> 0) ls.
Proof. apply Forall_impl. intros a. apply inr_nz. Qed.

Lemma rev_repeat {A} (x : A) k : rev (repeat x k) = repeat x k.
Proof.
  induction k as [|k IH]; [reflexivity|].
  cbn [repeat rev]. rewrite IH. clear IH.
  induction k as [|k IH]; [reflexivity|]. cbn [repeat app]. now rewrite IH.
Qed.

Lemma map_repeat' {A B} (f : A -> B) x k : map f (repeat x k) = repeat (f x) k.
Proof. induction k as [|k IH]; [reflexivity|]. cbn [repeat map]. now rewrite IH. Qed.

Lemma satv_cmp L N k :
  0 <= N -> 0 <= k < 2 ^ Z.of_nat L -> (satv (S L) N ?= k) = (N ?= k).
Proof.
  intros HN Hk. unfold satv. pose proof (pow2_pos L) as HM.
  pose proof (Z.mod_pos_bound N (2 ^ Z.of_nat L) HM) as B.
  destruct (2 ^ Z.of_nat L <=? N) eqn:E.
  - transitivity Gt; [|symmetry]; apply Z.compare_gt_iff; lia.
  - rewrite Z.mod_small by lia. now rewrite Z.add_0_r.
Qed.

Lemma assert_k_of_n_spec n k vs :
  0 <= n -> 0 <= k -> vs <> [] -> Forall (inr n) vs ->
  SpecA (assert_k_of_n k vs) n (card_post (fun s => count s vs = k)).
Proof.
  intros Hn Hk Hne Hvs. unfold assert_k_of_n.
  pose proof (int_to_binary_spec k Hk) as Hspec. cbv zeta in Hspec.
  destruct Hspec as (Hdig & Hval & Hlt & Hmin).
  remember (int_to_binary k) as bin eqn:Ebin. remember (length bin) as L eqn:EL.
  eapply specA_bind; [apply pop_count_spec; assumption|].
  intros o n1 new1 Hle (sb & -> & Hlsb & Hrsb & Hsem).
  set (p := clog2 (length vs)) in *.
  destruct (clog2_spec (length vs)) as [Hp1 _]. fold p in Hp1.
  destruct (length sb <? L)%nat eqn:E.
  - (* k needs more bits than the count has *)
    apply Nat.ltb_lt in E.
    destruct sb as [|b sb']; [cbn [wd length] in Hlsb; lia|].
    pose proof (Forall_inv Hrsb) as Hb.
    apply specA_emit; [lia| |].
    { apply vars_upto_Forall. repeat constructor; unfold inr in *; lia. }
    split; [reflexivity|]. intros s Hs. rewrite app_nil_r in Hs.
    unfold sat, csat. cbn [forallb existsb]. rewrite lit_true_opp by (eapply inr_nz; eassumption).
    split; [destruct (lit_true s b); cbn; discriminate|].
    intros Hc. exfalso.
    pose proof (count_bounds s vs) as HN.
    assert (HpL : (S p < L)%nat) by (rewrite Hlsb in E; cbn [wd] in E; lia).
    apply Nat2Z.inj_le in Hp1. rewrite Nat2Z.inj_pow in Hp1. change (Z.of_nat 2) with 2 in Hp1.
    specialize (Hmin (S p)). rewrite pow2_S in Hmin. pose proof (pow2_pos p). lia.
  - apply Nat.ltb_ge in E.
    assert (Hfn : firstn (length sb) (rev bin) = rev bin).
    { apply firstn_all2. rewrite rev_length, <- EL. exact E. }
    rewrite Hfn, rev_app_distr, rev_involutive, rev_repeat, rev_length.
    rewrite <- EL. set (pad := repeat (-1) (length sb - L) ++ bin).
    fold (digit_cls pad sb).
    assert (Hpd : Forall digit pad).
    { apply Forall_app. split; [|assumption]. apply Forall_forall. intros x Hx.
      apply repeat_spec in Hx. right. exact Hx. }
    assert (Hpl : length pad = length sb).
    { unfold pad. rewrite app_length, repeat_length. lia. }
    assert (Hpv : pmv pad = k).
    { unfold pmv, pad. rewrite map_app, map_repeat'. change (0 <? -1) with false.
      rewrite msbv_repeat_false. exact Hval. }
    apply specA_emit; [lia| |].
    { now apply digit_cls_vars. }
    split; [reflexivity|]. intros s Hs. rewrite app_nil_r in Hs.
    rewrite digit_cls_sat by (try assumption; eapply Forall_inr_nz; eassumption).
    specialize (Hsem s Hs). pose proof (count_bounds s vs) as HN.
    rewrite <- (Z.compare_eq_iff (count s vs)), <- (satv_cmp L _ k), Z.compare_eq_iff by lia.
    rewrite <- Hsem. split.
    + intros H. rewrite H. exact Hpv.
    + intros H. apply msbv_inj; [now rewrite lits_length, map_length|].
      rewrite H. symmetry. exact Hpv.
Qed.

Lemma msbv_zeros_app s zs xs :
  Forall (fun v => lit_true s v = false) zs ->
  msbv (lits s (zs ++ xs)) = msbv (lits s xs).
Proof.
  induction 1 as [|z zs Hz _ IH]; [reflexivity|].
  cbn [app lits map]. rewrite Hz. fold (lits s (zs ++ xs)). now rewrite msbv_false_cons.
Qed.

Lemma zseq_inr n a m : 0 <= n -> n + Z.of_nat a <= m -> Forall (inr m) (zseq (n + 1) a).
Proof.
  intros Hn Hm. apply Forall_forall. intros v Hv. apply zseq_In in Hv. unfold inr. lia.
Qed.

(** Two zero-padded operands, [a] fresh zeros in front of [xs] and [b] in front of [ys],
    handed to [f]. *)
Definition pad_post {A} (n : Z) (a b : nat) (xs ys : list Z) (f : list Z -> list Z -> A)
  (r : A) (n' : Z) (new : cnf) : Prop :=
  exists p q, r = f p q /\
  length p = (a + length xs)%nat /\ length q = (b + length ys)%nat /\
  Forall (inr n') p /\ Forall (inr n') q /\
  forall s, sat s new = true ->
    msbv (lits s p) = msbv (lits s xs) /\ msbv (lits s q) = msbv (lits s ys).

Lemma pad_pair_spec {A} n a b xs ys (f : list Z -> list Z -> A) :
  0 <= n -> Forall (inr n) xs -> Forall (inr n) ys ->
  Spec (z1 <- nfresh a ;; zero_out z1 ;;; z2 <- nfresh b ;; zero_out z2 ;;; ret (f (z1 ++ xs) (z2 ++ ys))) n
       (pad_post n a b xs ys f).
Proof.
  intros Hn Hxs Hys.
  eapply spec_fresh_zero; [assumption|]. eapply spec_fresh_zero; [lia|].
  apply spec_ret; [lia|]. eexists _, _. split; [reflexivity|].
  split; [now rewrite app_length, zseq_length|]. split; [now rewrite app_length, zseq_length|].
  split. { apply Forall_app. split; [apply zseq_inr; lia|]. eapply Forall_inr_le; [|eassumption]. lia. }
  split. { apply Forall_app. split; [apply zseq_inr; lia|]. eapply Forall_inr_le; [|eassumption]. lia. }
  intros s Hs. rewrite app_nil_r, sat_app, andb_true_iff in Hs. destruct Hs as [Hs1 Hs2].
  apply zero_cls_sat in Hs1; [|apply zseq_pos; lia].
  apply zero_cls_sat in Hs2; [|apply zseq_pos; lia].
  split; now apply msbv_zeros_app.
Qed.

Definition msl_post (n : Z) (xs ys : list Z) (r : list Z * list Z) (n' : Z) (new : cnf)
  : Prop :=
  length (fst r) = length (snd r) /\
  Forall (inr n') (fst r) /\ Forall (inr n') (snd r) /\
  (if Nat.eqb (length xs) (length ys) then r = (xs, ys)
   else length (fst r) = S (Nat.max (length xs) (length ys))) /\
  forall s, sat s new = true ->
    msbv (lits s (fst r)) = msbv (lits s xs) /\ msbv (lits s (snd r)) = msbv (lits s ys).

Lemma make_same_length_spec n xs ys :
  0 <= n -> Forall (inr n) xs -> Forall (inr n) ys ->
  Spec (make_same_length xs ys) n (msl_post n xs ys).
Proof.
  intros Hn Hxs Hys. unfold make_same_length, msl_post.
  destruct (Nat.eqb (length xs) (length ys)) eqn:E.
  - apply Nat.eqb_eq in E. apply spec_ret; [assumption|]. cbn [fst snd].
    repeat (split; try assumption); reflexivity.
  - apply Nat.eqb_neq in E. destruct (Nat.ltb (length xs) (length ys)) eqn:E2.
    + apply Nat.ltb_lt in E2. eapply spec_conseq; [now apply (pad_pair_spec n _ 1 xs ys pair)|].
      intros r n' new _ (p & q & -> & L1 & L2 & F1 & F2 & Hs). cbn [fst snd].
      split; [lia|]. split; [assumption|]. split; [assumption|]. split; [lia|exact Hs].
    + apply Nat.ltb_ge in E2.
      eapply spec_conseq; [now apply (pad_pair_spec n _ 1 ys xs (fun p q => (q, p)))|].
      intros r n' new _ (p & q & -> & L1 & L2 & F1 & F2 & Hs). cbn [fst snd].
      split; [lia|]. split; [assumption|]. split; [assumption|]. split; [lia|].
      intros s H. now destruct (Hs s H).
Qed.

(** The optional sign bits of [inequality]. *)
Definition sign_pad (c : bool) (p : list Z * list Z) : M (list Z * list Z) :=
  if c then
    z1 <- nfresh 1 ;; zero_out z1 ;;;
    z2 <- nfresh 1 ;; zero_out z2 ;;;
    ret (z1 ++ fst p, z2 ++ snd p)
  else ret p.

Definition sign_pad_post (c : bool) (p r : list Z * list Z) (n' : Z) (new : cnf) : Prop :=
  (if c then length (fst r) = S (length (fst p)) /\ length (snd r) = S (length (snd p))
   else r = p) /\
  Forall (inr n') (fst r) /\ Forall (inr n') (snd r) /\
  forall s, sat s new = true ->
    msbv (lits s (fst r)) = msbv (lits s (fst p)) /\
    msbv (lits s (snd r)) = msbv (lits s (snd p)).

Lemma sign_pad_spec n c p :
  0 <= n -> Forall (inr n) (fst p) -> Forall (inr n) (snd p) ->
  Spec (sign_pad c p) n (sign_pad_post c p).
Proof.
  intros Hn Hx Hy. unfold sign_pad, sign_pad_post. destruct c.
  - eapply spec_conseq; [now apply (pad_pair_spec n 1 1 (fst p) (snd p) pair)|].
    intros r n' new _ (p1 & p2 & -> & L1 & L2 & F1 & F2 & Hs). cbn [fst snd].
    split; [now split|]. split; [assumption|]. split; [assumption|exact Hs].
  - apply spec_ret; [assumption|]. repeat (split; try assumption); reflexivity.
Qed.

Definition flip_cls (fl bits : list Z) : cnf :=
  flat_map (fun p => [[fst p; snd p]; [- fst p; - snd p]]) (combine fl bits).

Lemma flip_gate_sat s f b : 0 < f -> b <> 0 ->
  sat s [[f; b]; [- f; - b]] = Bool.eqb (s f) (negb (lit_true s b)).
Proof.
  intros Hf Hb. gate_lits Hf. now destruct (s f), (lit_true s b).
Qed.

Lemma flip_cls_defines bits m n0 :
  0 <= n0 <= m -> Forall (inr n0) bits ->
  exists ext, Defines m (m + Z.of_nat (length bits))
                (flip_cls (zseq (m + 1) (length bits)) bits) ext.
Proof.
  intros Hm Hb.
  assert (C : chain_ok (fun m p => fst p = m + 1 /\ inr m (snd p)) m
                (combine (zseq (m + 1) (length bits)) bits)).
  { revert m Hm. induction Hb as [|b bits Hb1 _ IH]; intros m Hm; [exact I|].
    cbn [length zseq combine chain_ok fst snd].
    split; [split; [reflexivity|apply (inr_le n0); [lia|assumption]]|apply IH; lia]. }
  eapply defines_gates in C; [|intros n [f b] Hn Hp; cbn [fst snd] in *; destruct Hp as [-> Hfb]|lia].
  - rewrite combine_length, zseq_length, Nat.min_id in C. exact C.
  - apply (gate_defines n [[n + 1; b]; [- (n + 1); - b]] (fun s => negb (lit_true s b))); [assumption| | |].
    + apply vars_upto_Forall. unfold inr in *. repeat constructor; lia.
    + intros s t A. f_equal. apply (lit_true_agree n); [assumption|exact Hfb].
    + intros s. apply flip_gate_sat; [lia|exact (inr_nz _ _ Hfb)].
Qed.

Lemma flip_cls_sat s fl : forall bits,
  length fl = length bits -> Forall (fun v => 0 < v) fl -> Forall (fun b => b <> 0) bits ->
  sat s (flip_cls fl bits) = true -> lits s fl = map negb (lits s bits).
Proof.
  induction fl as [|f fl IH]; intros [|b bits] Hl Hf Hb Hs; try discriminate; [reflexivity|].
  inversion Hf; subst. inversion Hb; subst. cbn [length] in Hl.
  unfold flip_cls in Hs. cbn [combine flat_map fst snd] in Hs.
  change (sat s ([[f; b]; [- f; - b]] ++ flip_cls fl bits) = true) in Hs.
  rewrite sat_app, andb_true_iff in Hs. destruct Hs as [Hs1 Hs2].
  rewrite flip_gate_sat in Hs1 by assumption. apply eqb_prop in Hs1.
  cbn [lits map]. rewrite lit_true_pos by assumption. rewrite Hs1. f_equal.
  apply IH; try assumption. lia.
Qed.

Lemma lsbv_negb bs : lsbv (map negb bs) = 2 ^ Z.of_nat (length bs) - 1 - lsbv bs.
Proof.
  induction bs as [|b bs IH].
  - cbn [map lsbv length]. change (Z.of_nat 0) with 0. rewrite Z.pow_0_r. lia.
  - cbn [map lsbv length]. rewrite IH, pow2_S. destruct b; cbn [negb Z.b2z]; lia.
Qed.

Lemma msbv_negb bs : msbv (map negb bs) = 2 ^ Z.of_nat (length bs) - 1 - msbv bs.
Proof. unfold msbv. rewrite <- map_rev, lsbv_negb, rev_length. reflexivity. Qed.

Definition ones_cls (ones : list Z) : cnf :=
  zero_cls (removelast ones) ++ match ones with [] => [] | _ => [[last ones 0]] end.

Lemma zseq_S_last a k : zseq a (S k) = zseq a k ++ [a + Z.of_nat k].
Proof.
  replace (S k) with (k + 1)%nat by lia. rewrite zseq_app. reflexivity.
Qed.

Lemma ones_cls_zseq a k :
  ones_cls (zseq a (S k)) = units (map Z.opp (zseq a k) ++ [a + Z.of_nat k]).
Proof.
  unfold ones_cls. rewrite zseq_S_last, removelast_last, last_last.
  destruct (zseq a k ++ [a + Z.of_nat k]) eqn:E.
  { destruct (zseq a k); discriminate. }
  rewrite zero_cls_units. unfold units. now rewrite map_app.
Qed.

Lemma ones_cls_defines m W :
  0 <= m -> exists ext, Defines m (m + Z.of_nat W) (ones_cls (zseq (m + 1) W)) ext.
Proof.
  intros Hm. destruct W as [|k].
  - exists (fun s => s). cbn [zseq ones_cls removelast zero_cls map app].
    replace (m + Z.of_nat 0) with m by lia. now apply defines_nil.
  - rewrite ones_cls_zseq.
    destruct (defines_units (map Z.opp (zseq (m + 1) k) ++ [m + 1 + Z.of_nat k]) m Hm) as [e D].
    { apply units_ok_app; [now apply units_ok_opp_zseq|].
      rewrite map_length, zseq_length. cbn [units_ok]. split; [lia|exact I]. }
    rewrite app_length, map_length, zseq_length in D. cbn [length] in D.
    replace (k + 1)%nat with (S k) in D by lia. now exists e.
Qed.

Lemma ones_cls_sat s m W :
  0 <= m -> sat s (ones_cls (zseq (m + 1) W)) = true ->
  msbv (lits s (zseq (m + 1) W)) = (if Nat.eqb W 0 then 0 else 1).
Proof.
  intros Hm Hs. destruct W as [|k]; [reflexivity|]. cbn [Nat.eqb].
  rewrite ones_cls_zseq in Hs. apply sat_units in Hs. apply Forall_app in Hs.
  destruct Hs as [Hs1 Hs2]. rewrite zseq_S_last.
  rewrite msbv_zeros_app.
  - cbn [lits map]. inversion Hs2 as [|? ? Hl _]; subst. rewrite Hl. reflexivity.
  - rewrite Forall_forall in *. intros v Hv.
    specialize (Hs1 (- v) (in_map _ _ _ Hv)). apply zseq_In in Hv.
    rewrite lit_true_opp in Hs1 by lia. now destruct (lit_true s v).
Qed.

Definition neg_twos_post (n : Z) (bits : list Z) (out : list Z) (n' : Z) (new : cnf) : Prop :=
  length out = length bits /\ Forall (inr n') out /\
  forall s, sat s new = true ->
    msbv (lits s out)
    = (2 ^ Z.of_nat (length bits) - msbv (lits s bits)) mod 2 ^ Z.of_nat (length bits).

Lemma neg_twos_spec n bits :
  0 <= n -> Forall (inr n) bits -> Spec (neg_twos bits) n (neg_twos_post n bits).
Proof.
  intros Hn Hb. set (W := length bits).
  set (fl := zseq (n + 1) W). set (ones := zseq (n + Z.of_nat W + 1) W).
  destruct (flip_cls_defines bits n n ltac:(lia) Hb) as [e1 D1]. fold W in D1. fold fl in D1.
  destruct (ones_cls_defines (n + Z.of_nat W) W ltac:(lia)) as [e2 D2]. fold ones in D2.
  pose proof (defines_seq _ _ _ _ _ _ _ D1 D2) as D.
  eapply (spec_prefix _ (r <- ripple_carry fl ones ;; ret (rev (snd r))) n
            (n + Z.of_nat W + Z.of_nat W) _ _); [|exact D|].
  { intros cs. unfold neg_twos, bind. rewrite nfresh_run. fold W. fold fl.
    rewrite emit_run. rewrite nfresh_run. fold ones. unfold zero_out.
    rewrite !emit_run. unfold ones_cls, flip_cls, zero_cls. rewrite <- !app_assoc. reflexivity. }
  assert (Hlf : length fl = W) by apply zseq_length.
  assert (Hlo : length ones = W) by apply zseq_length.
  eapply spec_bind.
  { apply ripple_carry_spec; [lia|lia| |]; apply zseq_inr; lia. }
  intros [co sums] n1 new1 Hle (Hn1 & Hls & Hfr & _ & Hsem). cbn [fst snd] in *.
  apply spec_ret; [lia|]. unfold neg_twos_post. fold W.
  split; [rewrite rev_length; lia|].
  split. { apply Forall_rev. apply (Forall_fresh_inr (n + Z.of_nat W + Z.of_nat W)); [lia|assumption]. }
  intros s Hs. rewrite app_nil_r, !sat_app, !andb_true_iff in Hs.
  destruct Hs as [[Hs1 Hs2] Hs3].
  apply flip_cls_sat in Hs1; [|lia|apply zseq_pos; lia|eapply Forall_inr_nz; eassumption].
  apply ones_cls_sat in Hs2; [|lia]. fold ones in Hs2.
  specialize (Hsem s Hs3). rewrite Hs1, msbv_negb, Hs2, lits_length, Hlf in Hsem. fold W in Hsem.
  rewrite lits_rev, msbv_rev.
  pose proof (lsbv_bounds (lits s sums)) as B. rewrite lits_length, Hls, Hlf in B.
  pose proof (msbv_bounds (lits s bits)) as By. rewrite lits_length in By. fold W in By.
  pose proof (pow2_pos W) as HP.
  destruct W as [|W'] eqn:EW.
  - change (Z.of_nat 0) with 0 in *. rewrite Z.pow_0_r in *. rewrite Z.mod_1_r. lia.
  - cbn [Nat.eqb] in Hsem.
    replace (2 ^ Z.of_nat (S W') - msbv (lits s bits))
      with (lsbv (lits s sums) + Z.b2z (olit s co) * 2 ^ Z.of_nat (S W')) by lia.
    rewrite Z_mod_plus_full, Z.mod_small by lia. reflexivity.
Qed.

Definition cmp_tail (kbs nbs : list Z) : M bool :=
  neg <- neg_twos nbs ;;
  r <- ripple_carry kbs neg ;;
  emit [[last (snd r) 0]] ;;; ret true.

Definition cmp_tail_post (kbs nbs : list Z) (b : bool) (n' : Z) (defs asrt : cnf) : Prop :=
  b = true /\
  forall s, sat s defs = true ->
    exists (low : Z) (top : bool),
      0 <= low < 2 ^ (Z.of_nat (length kbs) - 1) /\
      (msbv (lits s kbs)
       + (2 ^ Z.of_nat (length kbs) - msbv (lits s nbs)) mod 2 ^ Z.of_nat (length kbs))
        mod 2 ^ Z.of_nat (length kbs)
      = Z.b2z top * 2 ^ (Z.of_nat (length kbs) - 1) + low /\
      (sat s asrt = true <-> top = true).

Lemma cmp_tail_spec n kbs nbs :
  0 <= n -> length kbs = length nbs -> (0 < length kbs)%nat ->
  Forall (inr n) kbs -> Forall (inr n) nbs ->
  SpecA (cmp_tail kbs nbs) n (cmp_tail_post kbs nbs).
Proof.
  intros Hn Hlen Hpos Hk Hnb. unfold cmp_tail.
  eapply specA_bind; [apply neg_twos_spec; assumption|].
  intros neg n1 new1 Hle1 (Hln & Hrn & Hsem1).
  eapply specA_bind.
  { apply (ripple_carry_spec n1 kbs neg); [lia|lia| |assumption].
    eapply Forall_inr_le; [|eassumption]. lia. }
  intros [co sums] n2 new2 Hle2 (Hn2 & Hls & Hfr & _ & Hsem2). cbn [fst snd] in *.
  assert (Hne : sums <> []) by (destruct sums; [cbn [length] in Hls; lia|discriminate]).
  pose proof (app_removelast_last 0 Hne) as Hsplit.
  set (low := removelast sums) in *. set (t := last sums 0) in *.
  assert (Hll : length low = (length kbs - 1)%nat).
  { rewrite Hsplit, app_length in Hls. cbn [length] in Hls. lia. }
  assert (Ht : fresh_in n1 n2 t).
  { rewrite Forall_forall in Hfr. apply Hfr. rewrite Hsplit. apply in_or_app. right. now left. }
  apply specA_emit; [lia| |].
  { apply vars_upto_Forall. repeat constructor; unfold fresh_in in Ht; lia. }
  split; [reflexivity|]. intros s Hs. rewrite app_nil_r, sat_app, andb_true_iff in Hs.
  destruct Hs as [Hs1 Hs2]. specialize (Hsem1 s Hs1). specialize (Hsem2 s Hs2).
  exists (lsbv (lits s low)), (lit_true s t).
  pose proof (lsbv_bounds (lits s low)) as Bl. rewrite lits_length, Hll in Bl.
  replace (Z.of_nat (length kbs - 1)) with (Z.of_nat (length kbs) - 1) in Bl by lia.
  split; [exact Bl|]. split.
  - rewrite <- Hlen in Hsem1. rewrite <- Hsem1.
    pose proof (lsbv_bounds (lits s sums)) as Bs. rewrite lits_length, Hls in Bs.
    replace (msbv (lits s kbs) + msbv (lits s neg))
      with (lsbv (lits s sums) + Z.b2z (olit s co) * 2 ^ Z.of_nat (length kbs)) by lia.
    rewrite Z_mod_plus_full, Z.mod_small by lia.
    rewrite Hsplit, lits_app, lsbv_app, lits_length, Hll. cbn [lits map lsbv].
    replace (Z.of_nat (length kbs - 1)) with (Z.of_nat (length kbs) - 1) by lia. lia.
  - unfold sat, csat. cbn [forallb existsb]. rewrite orb_false_r, andb_true_r. reflexivity.
Qed.

Lemma cmp_decide (lt : bool) (L w W1 W : nat) (k xs low : Z) (c top : bool) :
  (0 < w)%nat -> 0 <= k < 2 ^ Z.of_nat L -> 0 <= xs < 2 ^ Z.of_nat w ->
  (if Nat.eqb L w then W1 = L else W1 = S (Nat.max L w)) ->
  c = Nat.eqb W1 L && negb (lt && (k =? 2 ^ (Z.of_nat L - 1))) ->
  (if c then W = S W1 else W = W1) ->
  0 <= low < 2 ^ (Z.of_nat W - 1) ->
  ((if lt then xs else k)
   + (2 ^ Z.of_nat W - (if lt then k else xs)) mod 2 ^ Z.of_nat W) mod 2 ^ Z.of_nat W
  = Z.b2z top * 2 ^ (Z.of_nat W - 1) + low ->
  top = (if lt then xs <? k else k <? xs).
Proof.
  intros Hw Hk Hxs HW1 Hc HW Hlow Heq.
  (* in each case both operands and their difference fit in [W] bits with sign *)
  assert (B : (0 < W)%nat /\
              - 2 ^ (Z.of_nat W - 1) <= (if lt then xs - k else k - xs) < 2 ^ (Z.of_nat W - 1)).
  { destruct (Nat.eqb L w) eqn:E.
    - apply Nat.eqb_eq in E. subst w W1. rewrite Nat.eqb_refl in Hc. cbn [andb] in Hc.
      destruct c; subst W.
      + rewrite pow2_pred. destruct lt; lia.
      + symmetry in Hc. apply negb_false_iff, andb_true_iff in Hc. destruct Hc as [-> Hc].
        apply Z.eqb_eq in Hc. destruct L as [|L']; [lia|]. rewrite pow2_pred in *. rewrite pow2_S in Hxs. lia.
    - apply Nat.eqb_neq in E. subst W1.
      replace (Nat.eqb (S (Nat.max L w)) L) with false in Hc by (symmetry; apply Nat.eqb_neq; lia).
      cbn [andb] in Hc. subst c W. rewrite pow2_pred.
      pose proof (pow2_le_mono L (Nat.max L w) ltac:(lia)).
      pose proof (pow2_le_mono w (Nat.max L w) ltac:(lia)).
      destruct lt; lia. }
  destruct B as [HWp Bd].
  destruct lt.
  - apply (twos_top_bit (Z.of_nat W) xs k low top); [lia|lia|lia|exact Bd|exact Hlow|exact Heq].
  - apply (twos_top_bit (Z.of_nat W) k xs low top); [lia|lia|lia|exact Bd|exact Hlow|exact Heq].
Qed.

Definition ineq_rel (lt : bool) (N k : Z) : Prop := if lt then N < k else k < N.

Lemma ineq_decide (lt : bool) (L w W1 W : nat) (k N low : Z) (c top : bool) :
  0 <= N -> (0 < w)%nat -> 0 <= k < 2 ^ Z.of_nat L -> 0 <= satv (S L) N < 2 ^ Z.of_nat w ->
  (if Nat.eqb L w then W1 = L else W1 = S (Nat.max L w)) ->
  c = Nat.eqb W1 L && negb (lt && (k =? 2 ^ (Z.of_nat L - 1))) ->
  (if c then W = S W1 else W = W1) ->
  0 <= low < 2 ^ (Z.of_nat W - 1) ->
  ((if lt then satv (S L) N else k)
   + (2 ^ Z.of_nat W - (if lt then k else satv (S L) N)) mod 2 ^ Z.of_nat W) mod 2 ^ Z.of_nat W
  = Z.b2z top * 2 ^ (Z.of_nat W - 1) + low ->
  top = true <-> ineq_rel lt N k.
Proof.
  intros HN Hw Hk Hxs HW1 Hc HW Hlow Heq.
  rewrite (cmp_decide lt L w W1 W k _ low c top Hw Hk Hxs HW1 Hc HW Hlow Heq).
  unfold ineq_rel. destruct lt; rewrite Z.ltb_lt.
  - unfold Z.lt. now rewrite satv_cmp.
  - rewrite <- !Z.gt_lt_iff. unfold Z.gt. now rewrite satv_cmp.
Qed.

(** [inequality] orders the operands by [lt]: [a] are the count bits, [b] the constant *)
Lemma cmp_tail_if (lt : bool) (a b : list Z) :
  (let '(kbs, nbs) := if lt then (a, b) else (b, a) in
   neg <- neg_twos nbs ;; r <- ripple_carry kbs neg ;; emit [[last (snd r) 0]] ;;; ret true)
  = cmp_tail (if lt then a else b) (if lt then b else a).
Proof. now destruct lt. Qed.

Lemma cmp_tail_lt_spec n (lt : bool) a b :
  0 <= n -> length a = length b -> (0 < length b)%nat -> Forall (inr n) a -> Forall (inr n) b ->
  SpecA (cmp_tail (if lt then a else b) (if lt then b else a)) n
    (fun r n' defs asrt => r = true /\
       forall s, sat s defs = true ->
         exists (low : Z) (top : bool),
           0 <= low < 2 ^ (Z.of_nat (length a) - 1) /\
           ((if lt then msbv (lits s a) else msbv (lits s b))
            + (2 ^ Z.of_nat (length a) - (if lt then msbv (lits s b) else msbv (lits s a)))
              mod 2 ^ Z.of_nat (length a)) mod 2 ^ Z.of_nat (length a)
           = Z.b2z top * 2 ^ (Z.of_nat (length a) - 1) + low /\
           (sat s asrt = true <-> top = true)).
Proof.
  intros Hn Hl Hp Ha Hb. destruct lt.
  - apply cmp_tail_spec; try assumption. now rewrite Hl.
  - rewrite Hl. apply cmp_tail_spec; try assumption. now symmetry.
Qed.

Lemma digit_cls_swap a : forall b, digit_cls a b = digit_cls b a.
Proof.
  induction a as [|x a IH]; intros [|y b]; try reflexivity.
  unfold digit_cls. cbn [combine map fst snd]. fold (digit_cls a b). fold (digit_cls b a).
  rewrite IH. now rewrite Z.mul_comm.
Qed.

Lemma digit_cls_units a b : digit_cls a b = units (map (fun p => fst p * snd p) (combine a b)).
Proof. unfold digit_cls, units. now rewrite map_map. Qed.

Lemma units_ok_digits ds : forall n,
  0 <= n -> Forall digit ds ->
  units_ok n (map (fun p => fst p * snd p) (combine (zseq (n + 1) (length ds)) ds)).
Proof.
  induction ds as [|d ds IH]; intros n Hn Hd; [exact I|].
  inversion Hd as [|? ? Hd1 Hd2]; subst.
  cbn [length zseq combine map fst snd units_ok]. split.
  - destruct Hd1 as [->| ->]; lia.
  - apply IH; [lia|assumption].
Qed.

(** the digits [bin] are written to fresh variables by unit clauses *)
Lemma specA_fresh_digits {B} bin (rest : list Z -> M B) n (Q : B -> Z -> cnf -> cnf -> Prop) :
  0 <= n -> Forall digit bin ->
  SpecA (rest (zseq (n + 1) (length bin))) (n + Z.of_nat (length bin))
        (fun b n2 defs asrt => Q b n2 (digit_cls (zseq (n + 1) (length bin)) bin ++ defs) asrt) ->
  SpecA (kv <- nfresh (length bin) ;; emit (digit_cls kv bin) ;;; rest kv) n Q.
Proof.
  intros Hn Hd. set (kv := zseq (n + 1) (length bin)).
  destruct (defines_units (map (fun p => fst p * snd p) (combine kv bin)) n Hn (units_ok_digits bin n Hn Hd))
    as [e D].
  rewrite <- digit_cls_units, map_length, combine_length in D. unfold kv in D at 1.
  rewrite zseq_length, Nat.min_id in D.
  apply (specA_prefix _ _ n _ _ e); [|exact D].
  intros cs. unfold bind at 1 2. rewrite nfresh_run, emit_run. reflexivity.
Qed.

(** the operands after [make_same_length] and [sign_pad] *)
Lemma widen_post n c xs ys r1 n1 new1 r2 n2 new2 :
  msl_post n xs ys r1 n1 new1 -> sign_pad_post c r1 r2 n2 new2 ->
  (if Nat.eqb (length xs) (length ys) then length (fst r1) = length xs
   else length (fst r1) = S (Nat.max (length xs) (length ys))) /\
  (if c then length (fst r2) = S (length (fst r1)) else length (fst r2) = length (fst r1)) /\
  length (snd r2) = length (fst r2) /\
  forall s, sat s (new1 ++ new2) = true ->
    msbv (lits s (fst r2)) = msbv (lits s xs) /\ msbv (lits s (snd r2)) = msbv (lits s ys).
Proof.
  intros (Hl1 & _ & _ & Hcase1 & Hsem1) (Hcase2 & _ & _ & Hsem2). split; [|split; [|split]].
  - destruct (Nat.eqb (length xs) (length ys)); [now subst r1|assumption].
  - destruct c; [apply Hcase2|now subst r2].
  - destruct c; [destruct Hcase2 as [-> ->]; now rewrite Hl1|now subst r2].
  - intros s Hs. rewrite sat_app, andb_true_iff in Hs. destruct Hs as [Hs1 Hs2].
    destruct (Hsem1 s Hs1) as [<- <-]. exact (Hsem2 s Hs2).
Qed.

Lemma inequality_spec n lt k vs :
  0 <= n -> 0 <= k -> vs <> [] -> Forall (inr n) vs ->
  SpecA (inequality lt k vs) n (card_post (fun s => ineq_rel lt (count s vs) k)).
Proof.
  intros Hn Hk Hne Hvs. unfold inequality.
  pose proof (int_to_binary_spec k Hk) as Hspec. cbv zeta in Hspec.
  destruct Hspec as (Hdig & Hval & Hlt & _).
  remember (int_to_binary k) as bin eqn:Ebin.
  eapply specA_bind; [apply pop_count_spec; assumption|].
  intros o n1 new1 Hle1 (sb & -> & Hlsb & Hrsb & Hsem1).
  apply specA_fresh_digits; [lia|assumption|].
  remember (length bin) as L eqn:EL.
  set (w := wd (S L) (clog2 (length vs))) in *. set (kv := zseq (n1 + 1) L).
  assert (Hw : (0 < w)%nat) by (unfold w; cbn [wd]; lia).
  assert (Hlkv : length kv = L) by apply zseq_length.
  assert (Hrkv : Forall (inr (n1 + Z.of_nat L)) kv) by (apply zseq_inr; lia).
  eapply specA_bind.
  { apply (make_same_length_spec (n1 + Z.of_nat L) kv sb); [lia|assumption|].
    eapply Forall_inr_le; [|eassumption]. lia. }
  intros [kv1 sb1] n3 new3 Hle3 P3.
  set (c := Nat.eqb (length (fst (kv1, sb1))) L && negb (lt && (k =? 2 ^ (Z.of_nat L - 1)))).
  eapply specA_bind.
  { destruct P3 as (_ & Hr1a & Hr1b & _). apply (sign_pad_spec n3 c (kv1, sb1)); [lia|assumption|assumption]. }
  intros [kv2 sb2] n4 new4 Hle4 P4.
  destruct (widen_post _ c kv sb _ _ _ _ _ _ P3 P4) as (HW1 & HW & HW' & Hsem34).
  destruct P4 as (_ & Hr2a & Hr2b & _). cbn [fst snd] in *. rewrite Hlkv, Hlsb in HW1.
  rewrite cmp_tail_if. eapply specA_conseq.
  { apply (cmp_tail_lt_spec n4 lt sb2 kv2); try assumption; [lia|].
    revert HW1 HW. destruct (Nat.eqb L w) eqn:E; [apply Nat.eqb_eq in E|]; destruct c; lia. }
  intros b n5 defs asrt Hle5 (-> & Hsem5). split; [reflexivity|].
  intros s Hs. rewrite !sat_app, !andb_true_iff in Hs. destruct Hs as (Hs1 & Hs2 & Hs3 & Hs4 & Hs5).
  destruct (Hsem34 s) as [Ek Es]; [now rewrite sat_app, Hs3, Hs4|].
  rewrite digit_cls_swap in Hs2.
  apply digit_cls_sat in Hs2; [|congruence|assumption|now apply (Forall_inr_nz (n1 + Z.of_nat L))].
  unfold pmv in Hval. rewrite Hs2, Hval in Ek. rewrite (Hsem1 s Hs1) in Es.
  pose proof (msbv_bounds (lits s sb)) as Bs. rewrite lits_length, Hlsb, (Hsem1 s Hs1) in Bs.
  destruct (Hsem5 s Hs5) as (low & top & Blow & Eq & Hiff).
  rewrite HW' in Blow, Eq. rewrite Ek, Es in Eq. rewrite Hiff.
  exact (ineq_decide lt L w (length kv1) (length kv2) k (count s vs) low c top
           (proj1 (count_bounds s vs)) Hw (conj Hk Hlt) Bs HW1 eq_refl HW Blow Eq).
Qed.

Definition rel (kd : kind) (N k : Z) : Prop :=
  match kd with EQ => N = k | LT => N < k | GT => N > k end.

Lemma request_spec n kd k vs :
  0 <= n -> 0 <= k -> vs <> [] -> Forall (inr n) vs ->
  SpecA (request kd k vs) n (card_post (fun s => rel kd (count s vs) k)).
Proof.
  intros Hn Hk Hne Hvs. destruct kd; cbn [request].
  - now apply assert_k_of_n_spec.
  - eapply specA_conseq; [now apply inequality_spec|].
    intros b n' defs asrt _ H. exact H.
  - eapply specA_conseq; [now apply inequality_spec|].
    intros b n' defs asrt _ [Hb H]. split; [assumption|].
    intros s Hs. rewrite (H s Hs). unfold ineq_rel, rel. lia.
Qed.

Lemma request_correct : forall kd k vs n,
  0 <= n -> 0 <= k -> vs <> [] -> Forall (inr n) vs ->
  exists n' clauses,
    request kd k vs {| next := n; cls := [] |}
    = (true, {| next := n'; cls := clauses |}) /\
    n <= n' /\ vars_upto n' clauses /\
    (forall s, (exists t, agree_upto n s t /\ sat t clauses = true)
               <-> rel kd (count s vs) k) /\
    (forall t1 t2, agree_upto n t1 t2 ->
       sat t1 clauses = true -> sat t2 clauses = true -> agree_upto n' t1 t2).
Proof.
  intros kd k vs n Hn Hk Hne Hvs.
  destruct (request_spec n kd k vs Hn Hk Hne Hvs)
    as (b & n' & defs & asrt & ext & R & D & V & -> & Hiff).
  exists n', (defs ++ asrt). split; [exact (R [])|].
  pose proof (def_range _ _ _ _ D) as Rg. split; [lia|].
  split; [apply vars_upto_app; [apply (def_vars _ _ _ _ D)|exact V]|].
  apply (ext_on_models n n' ext (fun t => sat t (defs ++ asrt) = true) (fun s => rel kd (count s vs) k)
           (defines_ext_on _ _ _ _ D)).
  - intros s. rewrite sat_app, andb_true_iff, <- (def_sat _ _ _ _ D).
    split; intros [Sd X]; (split; [exact Sd|]); now apply (Hiff s Sd).
  - intros s t A. now rewrite (count_agree n s t vs A Hvs).
Qed.
