(** Proofs about the clause builders of [Core/CnfModel.v] (adders, ripple
    adders, population count).

    Every builder is shown to satisfy a [Spec]: run from the state
    [{| next := n; cls := cs |}] it returns a state
    [{| next := n'; cls := cs ++ new |}] where [new] is a definitional block
    ([Defines n n' new ext]: each assignment of 1..n has exactly one extension
    to 1..n' satisfying [new]) and every assignment satisfying [new] gives the
    outputs the intended values. *)
From Coq Require Import ZArith List Bool Lia Arith.
From SP Require Import Base.Lists Base.Sat Base.Bits Core.CnfModel.
Import ListNotations.
Open Scope Z_scope.

Definition mk (n : Z) (cs : cnf) : st := {| next := n; cls := cs |}.

Definition Spec {A} (m : M A) (n : Z) (Q : A -> Z -> cnf -> Prop) : Prop :=
  exists a n' new ext,
    (forall cs, m (mk n cs) = (a, mk n' (cs ++ new)))
    /\ Defines n n' new ext /\ Q a n' new.

Lemma spec_ret {A} (a : A) n (Q : A -> Z -> cnf -> Prop) :
  0 <= n -> Q a n [] -> Spec (ret a) n Q.
Proof.
  intros Hn HQ. exists a, n, [], (fun s => s). split; [|split].
  - intros cs. unfold ret. now rewrite app_nil_r.
  - now apply defines_nil.
  - exact HQ.
Qed.

Lemma spec_bind {A B} (m : M A) (f : A -> M B) n Q1 (Q : B -> Z -> cnf -> Prop) :
  Spec m n Q1 ->
  (forall a n1 new1, n <= n1 -> Q1 a n1 new1 ->
     Spec (f a) n1 (fun b n2 new2 => Q b n2 (new1 ++ new2))) ->
  Spec (bind m f) n Q.
Proof.
  intros (a & n1 & new1 & e1 & R1 & D1 & H1) Hf.
  pose proof (def_range _ _ _ _ D1) as Rg.
  destruct (Hf a n1 new1 ltac:(lia) H1) as (b & n2 & new2 & e2 & R2 & D2 & H2).
  exists b, n2, (new1 ++ new2), (fun s => e2 (e1 s)). split; [|split].
  - intros cs. unfold bind. rewrite R1, R2. now rewrite app_assoc.
  - now apply (defines_seq n n1 n2).
  - exact H2.
Qed.

Lemma spec_conseq {A} (m : M A) n (Q Q' : A -> Z -> cnf -> Prop) :
  Spec m n Q -> (forall a n' new, n <= n' -> Q a n' new -> Q' a n' new) -> Spec m n Q'.
Proof.
  intros (a & n1 & new1 & e1 & R1 & D1 & H1) Himp.
  exists a, n1, new1, e1. split; [assumption|split; [assumption|]].
  apply Himp; [|assumption]. pose proof (def_range _ _ _ _ D1). lia.
Qed.

(** Straight-line prefix that allocates variables and emits their definitions. *)
Lemma spec_prefix {B} (m m' : M B) n n1 new0 ext0 (Q : B -> Z -> cnf -> Prop) :
  (forall cs, m (mk n cs) = m' (mk n1 (cs ++ new0))) ->
  Defines n n1 new0 ext0 ->
  Spec m' n1 (fun b n2 new2 => Q b n2 (new0 ++ new2)) ->
  Spec m n Q.
Proof.
  intros Hrun D0 (b & n2 & new2 & e2 & R2 & D2 & H2).
  exists b, n2, (new0 ++ new2), (fun s => e2 (ext0 s)). split; [|split].
  - intros cs. rewrite Hrun, R2. now rewrite app_assoc.
  - now apply (defines_seq n n1 n2).
  - exact H2.
Qed.

Lemma spec_ext {A} (m m' : M A) n Q :
  (forall st, m st = m' st) -> Spec m' n Q -> Spec m n Q.
Proof.
  intros E (a & n1 & new1 & e1 & R1 & D1 & H1).
  exists a, n1, new1, e1. split; [|split; assumption].
  intros cs. now rewrite E.
Qed.

Lemma vars_upto_Forall n f : Forall (Forall (inr n)) f -> vars_upto n f.
Proof.
  intros H c l Hc Hl. rewrite Forall_forall in H. specialize (H c Hc).
  rewrite Forall_forall in H. exact (H l Hl).
Qed.

Lemma inr_opp n l : inr n l -> inr n (- l).
Proof. unfold inr. lia. Qed.

Lemma inr_nz n l : inr n l -> l <> 0.
Proof. unfold inr. lia. Qed.

Lemma inr_var n v : 0 < v <= n -> inr n v.
Proof. unfold inr. lia. Qed.

Definition olit (s : asg) (o : option Z) : bool :=
  match o with Some c => lit_true s c | None => false end.
Definition oinr (n : Z) (o : option Z) : Prop :=
  match o with Some c => inr n c | None => True end.

Lemma oinr_le n m o : n <= m -> oinr n o -> oinr m o.
Proof. destruct o; cbn; [apply inr_le|trivial]. Qed.

Lemma olit_agree n s t o : agree_upto n s t -> oinr n o -> olit s o = olit t o.
Proof. destruct o; cbn; [apply lit_true_agree|reflexivity]. Qed.

(** proves [vars_upto n cls] for a literal list of clauses [cls]: every literal is a variable below [n], one
    bounded by a hypothesis [inr _ _] of the context, or the opposite of such a literal *)
Ltac vars_tac :=
  apply vars_upto_Forall;
  repeat (constructor; try (apply inr_opp);
          try (eapply inr_le; [|eassumption]; lia); try (apply inr_var; lia)).

Definition maj3 (a b c : bool) : bool := (a && b) || (a && c) || (b && c).

Definition and_cls (c a b : Z) : cnf := [[-c; a]; [-c; b]; [c; -a; -b]].
Definition xor_cls (x a b : Z) : cnf :=
  [[-x; a; b]; [-x; -a; -b]; [x; a; -b]; [x; -a; b]].
Definition maj_cls (c a b ci : Z) : cnf :=
  [[-c; a; b]; [-c; a; ci]; [-c; b; ci]; [c; -a; -b]; [c; -a; -ci]; [c; -b; -ci]].
Definition xor3_cls (x a b ci : Z) : cnf :=
  [[-x; -a; -b; ci]; [-x; -a; b; -ci]; [-x; a; -b; -ci]; [-x; a; b; ci];
   [x; -a; -b; -ci]; [x; -a; b; ci]; [x; a; -b; ci]; [x; a; b; -ci]].
Definition or2_cls (x a b : Z) : cnf := [[-x; a; b]; [x; -a]; [x; -b]].
Definition or3_cls (x a b ci : Z) : cnf := [[-x; a; b; ci]; [x; -a]; [x; -b]; [x; -ci]].

(** A gate block holds exactly when its output variable carries the gate's
    function of the input literals.  With a positive output variable and
    non-zero inputs every literal is a boolean or its negation, and the
    equation is a truth table. *)

(** unfolds [sat] on the clauses of a gate and, given [Hc : 0 < c] for the output variable [c], rewrites
    every literal into [s c], an input [lit_true s _], or the negation of one of these *)
Ltac gate_lits Hc :=
  unfold sat, csat; cbn [forallb existsb];
  rewrite (lit_true_neg _ _ Hc), (lit_true_pos _ _ Hc), !lit_true_opp by assumption.

Lemma and_cls_sat s c a b : 0 < c -> a <> 0 -> b <> 0 ->
  sat s (and_cls c a b) = Bool.eqb (s c) (lit_true s a && lit_true s b).
Proof. intros Hc Ha Hb. unfold and_cls. gate_lits Hc.
  now destruct (s c), (lit_true s a), (lit_true s b).
Qed.

Lemma xor_cls_sat s x a b : 0 < x -> a <> 0 -> b <> 0 ->
  sat s (xor_cls x a b) = Bool.eqb (s x) (xorb (lit_true s a) (lit_true s b)).
Proof. intros Hc Ha Hb. unfold xor_cls. gate_lits Hc.
  now destruct (s x), (lit_true s a), (lit_true s b).
Qed.

Lemma maj_cls_sat s c a b ci : 0 < c -> a <> 0 -> b <> 0 -> ci <> 0 ->
  sat s (maj_cls c a b ci) = Bool.eqb (s c) (maj3 (lit_true s a) (lit_true s b) (lit_true s ci)).
Proof. intros Hc Ha Hb Hi. unfold maj_cls. gate_lits Hc.
  now destruct (s c), (lit_true s a), (lit_true s b), (lit_true s ci).
Qed.

Lemma xor3_cls_sat s x a b ci : 0 < x -> a <> 0 -> b <> 0 -> ci <> 0 ->
  sat s (xor3_cls x a b ci) = Bool.eqb (s x) (xorb (xorb (lit_true s a) (lit_true s b)) (lit_true s ci)).
Proof. intros Hc Ha Hb Hi. unfold xor3_cls. gate_lits Hc.
  now destruct (s x), (lit_true s a), (lit_true s b), (lit_true s ci).
Qed.

Lemma or2_cls_sat s x a b : 0 < x -> a <> 0 -> b <> 0 ->
  sat s (or2_cls x a b) = Bool.eqb (s x) (lit_true s a || lit_true s b).
Proof. intros Hc Ha Hb. unfold or2_cls. gate_lits Hc.
  now destruct (s x), (lit_true s a), (lit_true s b).
Qed.

Lemma or3_cls_sat s x a b ci : 0 < x -> a <> 0 -> b <> 0 -> ci <> 0 ->
  sat s (or3_cls x a b ci) = Bool.eqb (s x) (lit_true s a || lit_true s b || lit_true s ci).
Proof. intros Hc Ha Hb Hi. unfold or3_cls. gate_lits Hc.
  now destruct (s x), (lit_true s a), (lit_true s b), (lit_true s ci).
Qed.

Lemma gate_defines n new (g : asg -> bool) :
  0 <= n -> vars_upto (n + 1) new ->
  (forall s t, agree_upto n s t -> g s = g t) ->
  (forall s, sat s new = Bool.eqb (s (n + 1)) (g s)) ->
  exists ext, Defines n (n + 1) new ext.
Proof.
  intros Hn V L S. exists (fun s => upd s (n + 1) (g s)). apply defines_gate; try assumption.
  intros s. rewrite S. apply eqb_true_iff.
Qed.

Lemma gate1_spec {R} n (c1 : cnf) (g1 : asg -> bool) (m : M R) (r : R) :
  0 <= n ->
  (forall cs, m (mk n cs) = (r, mk (n + 1) (cs ++ c1))) ->
  vars_upto (n + 1) c1 ->
  (forall s t, agree_upto n s t -> g1 s = g1 t) ->
  (forall s, sat s c1 = Bool.eqb (s (n + 1)) (g1 s)) ->
  Spec m n (fun a n' new => a = r /\ n' = n + 1 /\ forall s, sat s new = true -> s (n + 1) = g1 s).
Proof.
  intros Hn Hrun V1 L S1. destruct (gate_defines n c1 g1 Hn V1 L S1) as [e1 D1].
  exists r, (n + 1), c1, e1. split; [exact Hrun|]. split; [exact D1|].
  split; [reflexivity|]. split; [reflexivity|]. intros s Hs. apply eqb_prop. now rewrite <- S1.
Qed.

Lemma gate2_spec {R} n (c1 c2 : cnf) (g1 g2 : asg -> bool) (m : M R) (r : R) :
  0 <= n ->
  (forall cs, m (mk n cs) = (r, mk (n + 2) (cs ++ c1 ++ c2))) ->
  vars_upto (n + 1) c1 -> vars_upto (n + 1 + 1) c2 ->
  (forall s t, agree_upto n s t -> g1 s = g1 t /\ g2 s = g2 t) ->
  (forall s, sat s c1 = Bool.eqb (s (n + 1)) (g1 s)) ->
  (forall s, sat s c2 = Bool.eqb (s (n + 2)) (g2 s)) ->
  Spec m n (fun a n' new => a = r /\ n' = n + 2 /\
              forall s, sat s new = true -> s (n + 1) = g1 s /\ s (n + 2) = g2 s).
Proof.
  intros Hn Hrun V1 V2 L S1 S2. replace (n + 2) with (n + 1 + 1) in * by lia.
  destruct (gate_defines n c1 g1) as [e1 D1]; try assumption. { intros s t A. apply (L s t A). }
  destruct (gate_defines (n + 1) c2 g2) as [e2 D2]; [lia|assumption| |assumption|].
  { intros s t A. apply (L s t). apply (agree_upto_le (n + 1) n); [lia|exact A]. }
  exists r, (n + 1 + 1), (c1 ++ c2), (fun s => e2 (e1 s)).
  split; [exact Hrun|]. split; [now apply (defines_seq n (n + 1))|].
  split; [reflexivity|split; [reflexivity|]]. intros s Hs.
  rewrite sat_app, S1, S2, andb_true_iff, !eqb_true_iff in Hs. exact Hs.
Qed.

Definition half_adder_post (n a b : Z) (r : Z * Z) (n' : Z) (new : cnf) : Prop :=
  r = (n + 1, n + 2) /\ n' = n + 2 /\
  forall s, sat s new = true ->
    s (n + 1) = lit_true s a && lit_true s b /\
    s (n + 2) = xorb (lit_true s a) (lit_true s b).

Lemma half_adder_spec n a b :
  0 <= n -> inr n a -> inr n b ->
  Spec (half_adder a b) n (half_adder_post n a b).
Proof.
  intros Hn Ha Hb.
  pose proof (inr_nz _ _ Ha) as Ha0. pose proof (inr_nz _ _ Hb) as Hb0.
  apply (gate2_spec n (and_cls (n + 1) a b) (xor_cls (n + 2) a b)
           (fun s => lit_true s a && lit_true s b) (fun s => xorb (lit_true s a) (lit_true s b)));
    [assumption| | | | | |].
  - intros cs. unfold half_adder, bind, fresh, emit, ret, mk. cbn [next cls].
    replace (n + 1 + 1) with (n + 2) by lia. now rewrite <- app_assoc.
  - unfold and_cls. vars_tac.
  - unfold xor_cls. vars_tac.
  - intros s t A. now rewrite (lit_true_agree n s t a A Ha), (lit_true_agree n s t b A Hb).
  - intros s. apply and_cls_sat; [lia|assumption..].
  - intros s. apply xor_cls_sat; [lia|assumption..].
Qed.

Definition full_adder_post (n a b : Z) (cin : option Z) (r : Z * Z) (n' : Z) (new : cnf)
  : Prop :=
  r = (n + 1, n + 2) /\ n' = n + 2 /\
  forall s, sat s new = true ->
    s (n + 1) = maj3 (lit_true s a) (lit_true s b) (olit s cin) /\
    s (n + 2) = xorb (xorb (lit_true s a) (lit_true s b)) (olit s cin).

Lemma full_adder_spec n a b cin :
  0 <= n -> inr n a -> inr n b -> oinr n cin ->
  Spec (full_adder a b cin) n (full_adder_post n a b cin).
Proof.
  intros Hn Ha Hb Hc. destruct cin as [ci|].
  2:{ cbn [full_adder]. eapply spec_conseq; [now apply half_adder_spec|].
      intros r n' new _ (Hr & Hn' & Hs). split; [assumption|split; [assumption|]].
      intros s Hsat. destruct (Hs s Hsat) as [H1 H2]. cbn [olit]. unfold maj3.
      rewrite H1, H2. destruct (lit_true s a), (lit_true s b); now cbn. }
  cbn [oinr] in Hc.
  pose proof (inr_nz _ _ Ha) as Ha0. pose proof (inr_nz _ _ Hb) as Hb0.
  pose proof (inr_nz _ _ Hc) as Hc0.
  apply (gate2_spec n (maj_cls (n + 1) a b ci) (xor3_cls (n + 2) a b ci)
           (fun s => maj3 (lit_true s a) (lit_true s b) (lit_true s ci))
           (fun s => xorb (xorb (lit_true s a) (lit_true s b)) (lit_true s ci)));
    [assumption| | | | | |].
  - intros cs. unfold full_adder, bind, fresh, emit, ret, mk. cbn [next cls].
    replace (n + 1 + 1) with (n + 2) by lia. now rewrite <- app_assoc.
  - unfold maj_cls. vars_tac.
  - unfold xor3_cls. vars_tac.
  - intros s t A. now rewrite (lit_true_agree n s t a A Ha), (lit_true_agree n s t b A Hb),
      (lit_true_agree n s t ci A Hc).
  - intros s. apply maj_cls_sat; [lia|assumption..].
  - intros s. apply xor3_cls_sat; [lia|assumption..].
Qed.

Lemma full_adder_arith (c sm a b ci : bool) :
  c = maj3 a b ci -> sm = xorb (xorb a b) ci ->
  Z.b2z sm + 2 * Z.b2z c = Z.b2z a + Z.b2z b + Z.b2z ci.
Proof. intros -> ->. now destruct a, b, ci. Qed.

(** One more position of a ripple adder: [sm], [c] are the sum and carry of
    the new position, [S + PB] the value of the higher positions. *)
Lemma ripple_step_arith sm c a b ci S PB X Y :
  sm + 2 * c = a + b + ci -> S + PB = X + Y + c ->
  sm + 2 * S + 2 * PB = a + 2 * X + (b + 2 * Y) + ci.
Proof. lia. Qed.

Definition saturate_adder_post (n a b : Z) (cin : option Z) (r : Z) (n' : Z) (new : cnf)
  : Prop :=
  r = n + 1 /\ n' = n + 1 /\
  forall s, sat s new = true ->
    s (n + 1) = lit_true s a || lit_true s b || olit s cin.

Lemma saturate_adder_spec n a b cin :
  0 <= n -> inr n a -> inr n b -> oinr n cin ->
  Spec (saturate_adder a b cin) n (saturate_adder_post n a b cin).
Proof.
  intros Hn Ha Hb Hc.
  pose proof (inr_nz _ _ Ha) as Ha0. pose proof (inr_nz _ _ Hb) as Hb0.
  apply (gate1_spec n (match cin with Some ci => or3_cls (n + 1) a b ci | None => or2_cls (n + 1) a b end)
           (fun s => lit_true s a || lit_true s b || olit s cin)); [assumption| | | |].
  - intros cs. now destruct cin.
  - destruct cin; [unfold or3_cls|unfold or2_cls]; vars_tac.
  - intros s t A. now rewrite (lit_true_agree n s t a A Ha), (lit_true_agree n s t b A Hb),
      (olit_agree n s t cin A Hc).
  - intros s. destruct cin as [ci|]; cbn [olit].
    + apply or3_cls_sat; [lia|assumption..|exact (inr_nz _ _ Hc)].
    + rewrite orb_false_r. apply or2_cls_sat; [lia|assumption..].
Qed.

Definition pinr (n : Z) (p : Z * Z) : Prop := inr n (fst p) /\ inr n (snd p).

Lemma Forall_pinr_le n m ps : n <= m -> Forall (pinr n) ps -> Forall (pinr m) ps.
Proof.
  intros H. apply Forall_impl. intros [x y] [Hx Hy]. split; now apply (inr_le n).
Qed.

(** [ps] are the operand bit pairs, LSB first. *)
Definition ripple_aux_post (n : Z) (ps : list (Z * Z)) (cin : option Z) (acc : list Z)
  (r : option Z * list Z) (n' : Z) (new : cnf) : Prop :=
  n' = n + 2 * Z.of_nat (length ps) /\
  exists sums, snd r = acc ++ sums /\ length sums = length ps /\
    Forall (fresh_in n n') sums /\
    match ps with
    | [] => fst r = cin
    | _ => exists c, fst r = Some c /\ fresh_in n n' c
    end /\
    forall s, sat s new = true ->
      lsbv (lits s sums) + 2 ^ Z.of_nat (length ps) * Z.b2z (olit s (fst r))
      = lsbv (lits s (map fst ps)) + lsbv (lits s (map snd ps)) + Z.b2z (olit s cin).

Lemma ripple_aux_spec ps : forall n cin acc,
  0 <= n -> Forall (pinr n) ps -> oinr n cin ->
  Spec (ripple_aux ps cin acc) n (ripple_aux_post n ps cin acc).
Proof.
  induction ps as [|[x y] ps IH]; intros n cin acc Hn Hps Hcin.
  - cbn [ripple_aux]. apply spec_ret; [assumption|].
    split; [cbn [length]; lia|]. exists []. cbn [fst snd length].
    split; [now rewrite app_nil_r|]. split; [reflexivity|]. split; [constructor|].
    split; [reflexivity|]. intros s _. cbn [map lits lsbv]. change (Z.of_nat 0) with 0.
    rewrite Z.pow_0_r. lia.
  - cbn [ripple_aux]. inversion Hps as [|p ps' [Hx Hy] Hps']; subst. cbn [fst snd] in Hx, Hy.
    assert (Hp1 : 0 < n + 1) by lia. assert (Hp2 : 0 < n + 2) by lia.
    eapply spec_bind; [now apply full_adder_spec|].
    intros [c sm] n1 new1 Hle (Hr & Hn1 & Hfa). injection Hr as -> ->. subst n1.
    cbn [fst snd].
    eapply spec_conseq.
    { apply (IH (n + 2) (Some (n + 1)) (acc ++ [n + 2])); [lia| |].
      - apply (Forall_pinr_le n); [lia|assumption].
      - cbn [oinr]. apply inr_var. lia. }
    intros [co out] n2 new2 Hle2 (Hn2 & sums & Hout & Hlen & Hfr & Hco & Hsem).
    cbn [fst snd] in *.
    split; [cbn [length]; lia|]. exists ((n + 2) :: sums). cbn [fst snd].
    split; [rewrite Hout, <- app_assoc; reflexivity|].
    split; [cbn [length]; lia|].
    split.
    { constructor; [unfold fresh_in; lia|].
      apply (Forall_fresh_ge (n + 2)); [lia|assumption]. }
    split.
    { destruct ps as [|p ps'].
      - exists (n + 1). split; [assumption|]. unfold fresh_in. cbn [length] in Hn2. lia.
      - destruct Hco as (c & Hc1 & Hc2). exists c. split; [assumption|].
        unfold fresh_in in *. lia. }
    intros s Hs. rewrite sat_app, andb_true_iff in Hs. destruct Hs as [Hs1 Hs2].
    specialize (Hsem s Hs2). destruct (Hfa s Hs1) as [Hc Hsm].
    pose proof (full_adder_arith _ _ _ _ _ Hc Hsm) as Har.
    cbn [olit] in Hsem. rewrite (lit_true_pos s (n + 1) Hp1) in Hsem.
    cbn [map lits lsbv length fst snd]. fold (lits s sums).
    fold (lits s (map fst ps)). fold (lits s (map snd ps)).
    rewrite (lit_true_pos s (n + 2) Hp2). rewrite pow2_S.
    rewrite <- Z.mul_assoc. exact (ripple_step_arith _ _ _ _ _ _ _ _ _ Har Hsem).
Qed.

Lemma Forall_pinr_combine n xs ys :
  Forall (inr n) xs -> Forall (inr n) ys -> Forall (pinr n) (combine xs ys).
Proof.
  intros Hx. revert ys. induction Hx as [|x xs Hx _ IH]; intros ys Hy; [constructor|].
  destruct Hy as [|y ys Hy Hys]; [constructor|].
  cbn [combine]. constructor; [now split|]. now apply IH.
Qed.

(** [ripple_carry] on two MSB-first operands of equal width: the returned
    sums (LSB first) and carry encode the sum. *)
Definition ripple_carry_post (n : Z) (xs ys : list Z)
  (r : option Z * list Z) (n' : Z) (new : cnf) : Prop :=
  n' = n + 2 * Z.of_nat (length xs) /\
  length (snd r) = length xs /\
  Forall (fresh_in n n') (snd r) /\
  match xs with
  | [] => fst r = None
  | _ => exists c, fst r = Some c /\ fresh_in n n' c
  end /\
  forall s, sat s new = true ->
    lsbv (lits s (snd r)) + 2 ^ Z.of_nat (length xs) * Z.b2z (olit s (fst r))
    = msbv (lits s xs) + msbv (lits s ys).

Lemma ripple_carry_spec n xs ys :
  0 <= n -> length xs = length ys -> Forall (inr n) xs -> Forall (inr n) ys ->
  Spec (ripple_carry xs ys) n (ripple_carry_post n xs ys).
Proof.
  intros Hn Hlen Hxs Hys. unfold ripple_carry.
  assert (Hl : length (combine (rev xs) (rev ys)) = length xs).
  { rewrite combine_length, !rev_length. lia. }
  eapply spec_conseq.
  { apply (ripple_aux_spec (combine (rev xs) (rev ys)) n None []); [assumption| |exact I].
    apply Forall_pinr_combine; now apply Forall_rev. }
  intros [co out] n' new Hle (Hn' & sums & Hout & Hlen' & Hfr & Hco & Hsem).
  cbn [fst snd app] in *. subst out. rewrite Hl in *.
  split; [assumption|]. split; [assumption|]. split; [assumption|]. split.
  - destruct xs as [|x xs]; [exact Hco|].
    destruct (combine (rev (x :: xs)) (rev ys)); [discriminate|exact Hco].
  - intros s Hs. cbn [fst snd]. rewrite (Hsem s Hs).
    rewrite map_fst_combine, map_snd_combine by (now rewrite !rev_length).
    cbn [olit Z.b2z]. unfold msbv. rewrite !lits_rev. lia.
Qed.

Fixpoint zseq (a : Z) (k : nat) : list Z :=
  match k with O => [] | S k' => a :: zseq (a + 1) k' end.

Lemma zseq_length a k : length (zseq a k) = k.
Proof. revert a. induction k as [|k IH]; intros a; cbn [zseq length]; [reflexivity|]. now rewrite IH. Qed.

Lemma zseq_In a k v : In v (zseq a k) <-> a <= v < a + Z.of_nat k.
Proof.
  revert a. induction k as [|k IH]; intros a; cbn [zseq In].
  - lia.
  - rewrite IH. lia.
Qed.

Lemma zseq_fresh n k : Forall (fresh_in n (n + Z.of_nat k)) (zseq (n + 1) k).
Proof.
  apply Forall_forall. intros v Hv. apply zseq_In in Hv. unfold fresh_in. lia.
Qed.

Lemma zseq_app a k j : zseq a (k + j) = zseq a k ++ zseq (a + Z.of_nat k) j.
Proof.
  revert a. induction k as [|k IH]; intros a.
  - cbn [Nat.add zseq app]. f_equal. lia.
  - cbn [Nat.add zseq app]. rewrite IH. do 3 f_equal. lia.
Qed.

Lemma nfresh_run k : forall n cs,
  nfresh k (mk n cs) = (zseq (n + 1) k, mk (n + Z.of_nat k) cs).
Proof.
  induction k as [|k IH]; intros n cs.
  - cbn [nfresh zseq]. unfold ret. replace (n + Z.of_nat 0) with n by lia. reflexivity.
  - cbn [nfresh zseq]. unfold bind, fresh, mk. cbn [next cls].
    fold (mk (n + 1) cs). rewrite IH. unfold ret.
    replace (n + 1 + Z.of_nat k) with (n + Z.of_nat (S k)) by lia. reflexivity.
Qed.

Lemma emit_run c n cs : emit c (mk n cs) = (tt, mk n (cs ++ c)).
Proof. reflexivity. Qed.

(** Gates on the consecutive variables [n+1, n+2, ...], one per element of
    [xs]: [P m x] is what makes [blk x] define variable [m+1] from [1..m]. *)
Fixpoint chain_ok {X} (P : Z -> X -> Prop) (n : Z) (xs : list X) : Prop :=
  match xs with
  | [] => True
  | x :: xs' => P n x /\ chain_ok P (n + 1) xs'
  end.

Lemma defines_gates {X} (P : Z -> X -> Prop) (blk : X -> cnf) :
  (forall n x, 0 <= n -> P n x -> exists e, Defines n (n + 1) (blk x) e) ->
  forall xs n, 0 <= n -> chain_ok P n xs ->
  exists ext, Defines n (n + Z.of_nat (length xs)) (flat_map blk xs) ext.
Proof.
  intros HP. induction xs as [|x xs IH]; intros n Hn Hok.
  - exists (fun s => s). cbn [length flat_map]. replace (n + Z.of_nat 0) with n by lia.
    now apply defines_nil.
  - destruct Hok as [Hx Hok]. destruct (HP n x Hn Hx) as [e1 D1].
    destruct (IH (n + 1) ltac:(lia) Hok) as [e2 D2].
    exists (fun s => e2 (e1 s)). cbn [length flat_map].
    replace (n + Z.of_nat (S (length xs))) with (n + 1 + Z.of_nat (length xs)) by lia.
    now apply (defines_seq n (n + 1)).
Qed.

(** [ls] are literals of the consecutive variables [n+1, n+2, ...]. *)
Definition units_ok : Z -> list Z -> Prop := chain_ok (fun n l => Z.abs l = n + 1).

Definition units (ls : list Z) : cnf := map (fun l => [l]) ls.

Lemma sat_units s ls : sat s (units ls) = true <-> Forall (fun l => lit_true s l = true) ls.
Proof.
  induction ls as [|l ls IH]; cbn [units map].
  - split; [constructor|reflexivity].
  - rewrite sat_cons, andb_true_iff. fold (units ls). rewrite IH.
    unfold csat. cbn [existsb]. rewrite orb_false_r. split.
    + intros [H1 H2]. now constructor.
    + intros H. inversion H; subst. now split.
Qed.

Lemma defines_units ls n :
  0 <= n -> units_ok n ls ->
  exists ext, Defines n (n + Z.of_nat (length ls)) (units ls) ext.
Proof.
  replace (units ls) with (flat_map (fun l => [[l]]) ls)
    by (unfold units; induction ls; cbn [flat_map map app]; congruence).
  revert ls n. apply defines_gates. intros n l Hn Hl.
  apply (gate_defines n [[l]] (fun _ => 0 <? l)); [assumption| |reflexivity|].
  - apply vars_upto_Forall. repeat constructor; unfold inr; lia.
  - intros s. unfold sat, csat. cbn [forallb existsb]. rewrite orb_false_r, andb_true_r.
    destruct (0 <? l) eqn:E.
    + replace l with (n + 1) by lia. rewrite lit_true_pos by lia. now destruct (s (n + 1)).
    + replace l with (- (n + 1)) by lia. rewrite lit_true_neg by lia. now destruct (s (n + 1)).
Qed.

Lemma units_ok_app n a b :
  units_ok n a -> units_ok (n + Z.of_nat (length a)) b -> units_ok n (a ++ b).
Proof.
  unfold units_ok. revert n. induction a as [|x a IH]; intros n Ha Hb.
  - cbn [app length] in *. now replace (n + Z.of_nat 0) with n in Hb by lia.
  - cbn [app chain_ok length] in *. destruct Ha as [Hx Ha]. split; [assumption|].
    apply IH; [assumption|]. now replace (n + 1 + Z.of_nat (length a))
      with (n + Z.of_nat (S (length a))) by lia.
Qed.

Lemma units_ok_opp_zseq n k : 0 <= n -> units_ok n (map Z.opp (zseq (n + 1) k)).
Proof.
  unfold units_ok. revert n. induction k as [|k IH]; intros n Hn; cbn [zseq map chain_ok]; [exact I|].
  split; [lia|]. apply IH. lia.
Qed.

Definition zero_cls (vs : list Z) : cnf := map (fun v => [- v]) vs.

Lemma zero_cls_units vs : zero_cls vs = units (map Z.opp vs).
Proof. unfold zero_cls, units. now rewrite map_map. Qed.

Lemma zero_cls_defines n k :
  0 <= n -> exists ext, Defines n (n + Z.of_nat k) (zero_cls (zseq (n + 1) k)) ext.
Proof.
  intros Hn. rewrite zero_cls_units.
  destruct (defines_units (map Z.opp (zseq (n + 1) k)) n Hn (units_ok_opp_zseq n k Hn))
    as [e D].
  rewrite map_length, zseq_length in D. now exists e.
Qed.

Lemma spec_fresh_zero {B} a (rest : list Z -> M B) n Q :
  0 <= n ->
  Spec (rest (zseq (n + 1) a)) (n + Z.of_nat a)
       (fun b n2 new2 => Q b n2 (zero_cls (zseq (n + 1) a) ++ new2)) ->
  Spec (zp <- nfresh a ;; zero_out zp ;;; rest zp) n Q.
Proof.
  intros Hn H. destruct (zero_cls_defines n a Hn) as [e0 D0].
  eapply (spec_prefix _ _ n (n + Z.of_nat a) _ e0); [|exact D0|exact H].
  intros cs. unfold bind. rewrite nfresh_run. unfold zero_out. rewrite emit_run. reflexivity.
Qed.

Lemma zero_cls_sat s vs :
  Forall (fun v => 0 < v) vs -> sat s (zero_cls vs) = true ->
  Forall (fun v => lit_true s v = false) vs.
Proof.
  intros Hpos Hs. rewrite zero_cls_units in Hs. apply sat_units in Hs.
  rewrite Forall_forall in *. intros v Hv.
  specialize (Hs (- v) (in_map _ _ _ Hv)). specialize (Hpos v Hv).
  rewrite lit_true_opp in Hs by lia. now destruct (lit_true s v).
Qed.

Lemma zseq_pos a k : 0 < a -> Forall (fun v => 0 < v) (zseq a k).
Proof. intros H. apply Forall_forall. intros v Hv. apply zseq_In in Hv. lia. Qed.
