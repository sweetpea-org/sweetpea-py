(** The verdict of the checker and [Sem.valid_b] phase by phase
    ([no_mismatch_parts], [valid_b_parts]); the fragment [frag] of flat records
    without derived factors, sustain and crossed exclusions with its reading
    [code_sem fb]; the facts about candidates given as rows that every
    fragment shares. *)
From Coq Require Import ZArith List Bool Arith Lia.
From SP Require Import Base.Lists Design.Flat Design.Layout Check.Mismatch Check.MismatchProofs Check.CrossingProofs.
From SP Require Design.Sem Design.SemFacts.
Import ListNotations.

Definition flagged (bs : list bool) : list nat :=
  map fst (filter (fun p : nat * bool => negb (snd p)) (combine (seq 0 (length bs)) bs)).

Lemma flagged_nil_aux : forall bs a,
  map fst (filter (fun p : nat * bool => negb (snd p)) (combine (seq a (length bs)) bs)) = []
  <-> forallb (fun b => b) bs = true.
Proof.
  induction bs as [|b bs IH]; intros a; simpl; [tauto|].
  destruct b; simpl.
  - apply IH.
  - split; discriminate.
Qed.

Lemma flagged_nil : forall bs, flagged bs = [] <-> forallb (fun b => b) bs = true.
Proof. intros. apply flagged_nil_aux. Qed.

Lemma verdict_clean : forall fs cs xs,
  match VLists fs cs xs with VLists [] [] [] => true | _ => false end = true <-> fs = [] /\ cs = [] /\ xs = [].
Proof.
  intros [|] [|] [|]; split; try discriminate; auto; intros (? & ? & ?); discriminate.
Qed.

Lemma no_mismatch_parts : forall fb s fsl bs xs,
  (forall p, In p s -> length (snd p) = fl_trials fb) ->
  conversion_ok fb s = true ->
  mismatch_factors fb s = Ok fsl ->
  map_res (constraint_conforms fb s) (fl_constraints fb) = Ok bs ->
  mismatch_crossings fb s = Ok xs ->
  (no_mismatch fb s = true <-> fsl = [] /\ forallb (fun b => b) bs = true /\ xs = []).
Proof.
  intros fb s fsl bs xs Hlen Hconv HF HC HX. unfold no_mismatch, mismatch.
  assert (E1 : existsb (fun p : nat * list (option nat) => negb (length (snd p) =? T fb)) s = false).
  { destruct (existsb _ s) eqn:E; auto. apply existsb_exists in E. destruct E as [p [Hp E]].
    rewrite (Hlen p Hp) in E. unfold T in E. rewrite Nat.eqb_refl in E. discriminate. }
  rewrite E1, Hconv. simpl. rewrite HF.
  unfold mismatch_constraints. rewrite HC. simpl. rewrite HX.
  fold (flagged bs). rewrite <- flagged_nil. apply verdict_clean.
Qed.

Lemma valid_b_parts : forall S (s : Sem.tseq), length s = length (Sem.s_factors S) ->
  (Sem.valid_b S s = true <->
   forallb (fun p => Sem.factor_ok S s (fst p) (snd p)) (Sem.index_list (Sem.s_factors S)) = true /\
   forallb (Sem.crossing_ok S s) (Sem.s_crossings S) = true /\
   forallb (Sem.constraint_ok S s) (Sem.s_constraints S) = true).
Proof.
  intros S s H. rewrite SemFacts.valid_b_conj. tauto.
Qed.

(** * Constraint flags whose meaning depends on a side condition

    [Sustain] decides the condition [V] (clause V4); the flag of every other
    constraint is its reference clause once [V] holds.  When some constraint
    decides [V], the flags together are the clauses together. *)
Section Flags.
Context {A B : Type} (V : Prop) (sus : A -> bool) (ok : B -> bool) (sem : A -> list B).

Definition flag_spec (c : A) (b : bool) : Prop :=
  (sus c = true -> (b = true <-> V)) /\ (V -> b = forallb ok (sem c)).

Lemma flag_plain : forall c, sus c = false -> flag_spec c (forallb ok (sem c)).
Proof. intros c H. split; [congruence | reflexivity]. Qed.

Lemma flags_give_V : forall cs bs, Forall2 flag_spec cs bs ->
  existsb sus cs = true -> forallb (fun b => b) bs = true -> V.
Proof.
  induction 1 as [|c b cs bs [Hc _] _ IH]; simpl; [discriminate|].
  intros Hs Hb. apply andb_prop in Hb. destruct Hb as [Hb Hbs].
  destruct (sus c); [apply (Hc eq_refl), Hb | apply IH; auto].
Qed.

Lemma flags_are_clauses : forall cs bs, Forall2 flag_spec cs bs -> V ->
  (forallb (fun b => b) bs = true <-> forallb ok (flat_map sem cs) = true).
Proof.
  intros cs bs H HV. rewrite forallb_flat_map.
  induction H as [|c b cs bs [_ Hc] _ IH]; simpl; [tauto|]. rewrite (Hc HV), !andb_true_iff, IH. tauto.
Qed.
End Flags.

Fixpoint all_combos (ns : list nat) : list (list nat) :=
  match ns with
  | [] => [[]]
  | n :: r => flat_map (fun x => map (cons x) (all_combos r)) (seq 0 n)
  end.

Definition cw_of (fb : flat) (fs : list nat) : nat :=
  nth (first_index_of fs (fl_crossings fb)) (fl_weights fb) 0.
Definition sw_of (fb : flat) (fs : list nat) : nat :=
  cw_of fb fs * match fs with f0 :: _ => su_of fb f0 | [] => 1 end.
Definition mult_of (fb : flat) (fs : list nat) : list (list nat * nat) :=
  map (fun c => (c, combo_weight fb fs (map Some c) * sw_of fb fs)) (all_combos (map (nlev fb) fs)).
Definition chunk_of (fb : flat) (i : nat) (fs : list nat) : nat := nth i (fl_sizes fb) 0 * cw_of fb fs.

Definition crossing_sem (fb : flat) (p : nat * list nat) : Sem.dcrossing :=
  {| Sem.c_factors := snd p; Sem.c_first := crossing_preamble fb (fst p);
     Sem.c_chunk := chunk_of fb (fst p) (snd p); Sem.c_mult := mult_of fb (snd p) |}.

Definition rng (fb : flat) (wb : option geometry) : list (nat * nat) :=
  match map_block_trial_ranges fb wb with Some r => r | None => [] end.

Definition mk_c (k : Sem.ckind) (f l : nat) (ws : list (nat * nat)) : list Sem.dconstraint :=
  [{| Sem.k_kind := k; Sem.k_factor := f; Sem.k_level := l; Sem.k_windows := ws |}].

Definition csem (fb : flat) (c : fconstraint) : list Sem.dconstraint :=
  match c with
  | FAtMost k f l wb => mk_c (Sem.KAtMost k) f l (rng fb wb)
  | FAtLeast k f l wb => mk_c (Sem.KAtLeast k) f l (rng fb wb)
  | FExactlyK k f l wb => mk_c (Sem.KExactlyK k) f l (rng fb wb)
  | FExactlyKInARow k f l wb => mk_c (Sem.KExactlyInARow k) f l (rng fb wb)
  | FExclude f l => mk_c Sem.KExclude f l []
  | FPin i f l wb => mk_c (Sem.KPin i 1) f l (rng fb wb)
  | FSequential f => mk_c (Sem.KSequential (match factor_preamble fb f with Ok p => p | Err _ => 0 end) 1) f 0 []
  | _ => []
  end.

Definition code_sem (fb : flat) : Sem.sem :=
  {| Sem.s_trials := fl_trials fb;
     Sem.s_factors := map (fun fd => {| Sem.f_nlevels := length (ff_levels fd); Sem.f_sustain := 1; Sem.f_derived := None |})
                          (fl_design fb);
     Sem.s_crossings := map (crossing_sem fb) (combine (seq 0 (length (fl_crossings fb))) (fl_crossings fb));
     Sem.s_constraints := flat_map (csem fb) (fl_constraints fb) |}.

Definition ranges_ok (fb : flat) (wb : option geometry) : bool :=
  match map_block_trial_ranges fb wb with Some _ => true | None => false end.
Definition in_crossing (fb : flat) (f : nat) : bool := existsb (existsb (Nat.eqb f)) (fl_crossings fb).

Definition cfrag (fb : flat) (c : fconstraint) : bool :=
  let n := length (fl_design fb) in
  match c with
  | FCross | FConsistency | FSustain | FReify _ | FMinimumTrials _ | FContinuous => true
  | FAtMost _ f _ wb | FAtLeast _ f _ wb | FExactlyK _ f _ wb | FExactlyKInARow _ f _ wb => (f <? n) && ranges_ok fb wb
  | FExclude f _ => (f <? n) && negb (in_crossing fb f)
  | FPin _ f _ wb => (f <? n) && ranges_ok fb wb && (geometry_sustain fb wb f =? 1)
  | FSequential f => (f <? n) && match factor_preamble fb f with Ok _ => true | Err _ => false end
  | _ => false
  end.

Fixpoint nodupb (xs : list (list nat)) : bool :=
  match xs with
  | [] => true
  | x :: r => negb (existsb (list_all2 Nat.eqb x) r) && nodupb r
  end.

Definition xfrag (fb : flat) (p : nat * list nat) : bool :=
  let fs := snd p in
  forallb (fun f => f <? length (fl_design fb)) fs
  && nodupb (all_combos (map (nlev fb) fs))
  && (list_sum (map snd (mult_of fb fs)) =? chunk_of fb (fst p) fs)
  && (1 <=? chunk_of fb (fst p) fs).

(** no hidden / derived factors, no sustain (no Nest), every constraint of a kind
    with a per-kind lemma (Exclude only on uncrossed factors, so that every
    combination of levels is an allowed one), crossing sizes consistent *)
Definition frag (fb : flat) : bool :=
  forallb (fun fd => negb (ff_hidden fd) && match ff_window fd with None => true | Some _ => false end
                     && (1 <=? length (ff_levels fd))) (fl_design fb)
  && forallb (fun n => n =? 1) (fl_sustains fb)
  && forallb (cfrag fb) (fl_constraints fb)
  && forallb (xfrag fb) (combine (seq 0 (length (fl_crossings fb))) (fl_crossings fb)).

(** candidates of the property's domain (no derived factors: one level per trial
    everywhere), given as the list of rows in design order *)
Definition cand_of_rows (rows : list (list (option nat))) : cand := combine (seq 0 (length rows)) rows.

Definition wf_rows (fb : flat) (rows : list (list (option nat))) : Prop :=
  length rows = length (fl_design fb) /\
  forall f, f < length rows ->
    length (nth f rows []) = fl_trials fb /\
    forall c, In c (nth f rows []) -> exists l, c = Some l /\ l < nlev fb f.

(** what the checker needs of the rows before it looks at a cell *)
Definition rows_shape (fb : flat) (rows : list (list (option nat))) : Prop :=
  length rows = length (fl_design fb) /\ forall f, f < length rows -> length (nth f rows []) = fl_trials fb.

Lemma rows_entry : forall (rows : list (list (option nat))) p, In p (cand_of_rows rows) ->
  fst p < length rows /\ snd p = nth (fst p) rows [].
Proof.
  intros rows p H. apply in_enum in H. split.
  - apply nth_error_Some. congruence.
  - symmetry. apply nth_error_nth. exact H.
Qed.

Lemma entry_in_rows : forall (rows : list (list (option nat))) f, f < length rows ->
  In (f, nth f rows []) (cand_of_rows rows).
Proof. intros rows f H. apply in_enum. simpl. apply nth_error_nth'. exact H. Qed.

Lemma row_of_rows : forall rows f, f < length rows -> row_of (cand_of_rows rows) f = Ok (nth f rows []).
Proof.
  intros rows f H. unfold row_of, cand_of_rows.
  assert (G : forall (rs : list (list (option nat))) a i, i < length rs ->
            lookup (combine (seq a (length rs)) rs) (a + i) = Some (nth i rs [])).
  { induction rs as [|r rs IH]; intros a i Hi; simpl in *; [lia|]. destruct i as [|i].
    - rewrite Nat.add_0_r, Nat.eqb_refl. reflexivity.
    - replace (a =? a + S i) with false by (symmetry; apply Nat.eqb_neq; lia).
      replace (a + S i) with (S a + i) by lia. apply IH. lia. }
  pose proof (G rows 0 f H) as E. simpl in E. rewrite E. reflexivity.
Qed.

Lemma row_of_shape : forall fb rows f, rows_shape fb rows -> f < length (fl_design fb) ->
  row_of (cand_of_rows rows) f = Ok (nth f rows []) /\ length (nth f rows []) = fl_trials fb.
Proof. intros fb rows f [Hlen Hrows] Hf. rewrite <- Hlen in Hf. split; [apply row_of_rows | apply Hrows]; exact Hf. Qed.

Lemma rows_lengths : forall fb rows, rows_shape fb rows ->
  forall p, In p (cand_of_rows rows) -> length (snd p) = fl_trials fb.
Proof. intros fb rows [_ Hrows] p Hp. destruct (rows_entry _ _ Hp) as [Hi ->]. apply Hrows, Hi. Qed.

Lemma rows_agree_self : forall fb rows fs, rows_shape fb rows ->
  (forall f, In f fs -> f < length (fl_design fb)) -> rows_agree (cand_of_rows rows) rows fs fs.
Proof.
  intros fb rows fs [Hlen _] Hfs. unfold rows_agree.
  induction fs as [|f fs IH]; constructor.
  - apply row_of_rows. rewrite Hlen. apply Hfs. left; reflexivity.
  - apply IH. intros g Hg. apply Hfs. right; exact Hg.
Qed.

(** [sustain_of] is 1 or one of the recorded counts *)
Lemma sustain_of_ind : forall (P : nat -> Prop) fb f,
  P 1 -> (forall n, In n (fl_sustains fb) -> P n) -> P (sustain_of fb f).
Proof.
  intros P fb f H1 Hn. unfold sustain_of. apply fold_left_inv; [|exact H1].
  intros acc [c n] Hin Ha. simpl. destruct (existsb (Nat.eqb f) c); [exact (Hn n (in_combine_r _ _ _ _ Hin)) | exact Ha].
Qed.

Lemma sustain_of_one : forall fb f, forallb (fun n => n =? 1) (fl_sustains fb) = true -> su_of fb f = 1.
Proof.
  intros fb f H. unfold su_of. apply sustain_of_ind; [reflexivity|].
  intros n Hn. rewrite forallb_forall in H. apply Nat.eqb_eq, H, Hn.
Qed.

Lemma nlev_nth : forall fb f fd, nth_error (fl_design fb) f = Some fd -> nlev fb f = length (ff_levels fd).
Proof. intros. unfold nlev, nlevels, factor_at. rewrite H. reflexivity. Qed.

(** the design conjunct that [frag] and [nfrag] share *)
Lemma plain_design : forall fb f fd,
  forallb (fun fd => negb (ff_hidden fd) && match ff_window fd with None => true | Some _ => false end
                     && (1 <=? length (ff_levels fd))) (fl_design fb) = true ->
  nth_error (fl_design fb) f = Some fd ->
  ff_hidden fd = false /\ ff_window fd = None /\ 1 <= length (ff_levels fd).
Proof.
  intros fb f fd H E. rewrite forallb_forall in H. specialize (H fd (nth_error_In _ _ E)).
  rewrite !andb_true_iff in H. destruct H as [[H1 H2] H3].
  apply negb_true_iff in H1. apply Nat.leb_le in H3. destruct (ff_window fd); [discriminate|]. auto.
Qed.

Lemma all_combos_complete : forall ns c,
  Forall2 (fun x n => x < n) c ns -> In c (all_combos ns).
Proof.
  intros ns c H. induction H as [|x n c ns Hx Hc IH]; simpl; [left; auto|].
  apply in_flat_map. exists x. split; [apply in_seq; lia|]. apply in_map; auto.
Qed.

Lemma list_all2_eqb_eq : forall a b : list nat, list_all2 Nat.eqb a b = true <-> a = b.
Proof.
  induction a as [|x a IH]; destruct b as [|y b]; simpl; split; intros H; try discriminate; auto.
  - apply andb_prop in H. destruct H as [H1 H2]. apply Nat.eqb_eq in H1. apply IH in H2. subst; auto.
  - injection H as -> ->. rewrite Nat.eqb_refl. simpl. apply IH; auto.
Qed.

Lemma nodupb_NoDup : forall xs, nodupb xs = true -> NoDup xs.
Proof.
  exact (nodup_b_sound (list_all2 Nat.eqb) nodupb (fun x => proj2 (list_all2_eqb_eq x x) eq_refl) (fun _ _ => eq_refl)).
Qed.

Definition no_hidden (fb : flat) : Prop :=
  forall f fd, nth_error (fl_design fb) f = Some fd -> ff_hidden fd = false.

Lemma row_by_name_ok : forall fb rows f, no_hidden fb -> rows_shape fb rows -> f < length (fl_design fb) ->
  exists row, row_by_name fb (cand_of_rows rows) f = Ok row /\ length row = fl_trials fb.
Proof.
  intros fb rows f Hfr [Hlen Hrows] Hf. unfold row_by_name.
  destruct (nth_error (fl_design fb) f) as [fd|] eqn:E; [|apply nth_error_None in E; lia].
  pose proof (Hfr f fd E) as Hh.
  unfold is_hidden, factor_at. rewrite E, Hh.
  match goal with |- context [find ?P _] => set (pred := P) end.
  destruct (find pred (cand_of_rows rows)) as [p|] eqn:EF.
  - exists (snd p). split; auto. apply find_some in EF. destruct EF as [Hin _].
    destruct (rows_entry _ _ Hin) as [Hi ->]. apply Hrows; auto.
  - exfalso. assert (Hin := entry_in_rows rows f ltac:(lia)).
    pose proof (find_none _ _ EF _ Hin) as Hp. unfold pred in Hp. simpl in Hp.
    unfold name_of, factor_at in Hp. rewrite E in Hp. rewrite String.eqb_refl in Hp. discriminate.
Qed.

(** every crossed factor has its row, of full length: no crossing is flagged for a short row *)
Lemma rows_by_name_ok : forall fb rows fs, no_hidden fb -> rows_shape fb rows ->
  (forall f, In f fs -> f < length (fl_design fb)) ->
  exists rs, map_res (row_by_name fb (cand_of_rows rows)) fs = Ok rs /\
             filter (fun row : list (option nat) => negb (length row =? T fb)) rs = [].
Proof.
  intros fb rows fs Hh Hsh Hfs.
  destruct (map_res_forall2 (row_by_name fb (cand_of_rows rows)) (fun _ row => length row = fl_trials fb) fs)
    as [rs [Hrs Hall]].
  { intros f Hf. apply row_by_name_ok; auto. }
  exists rs. split; [exact Hrs|]. clear Hrs Hfs.
  induction Hall as [|f r fs rs Hr _ IH]; simpl; [reflexivity|].
  unfold T in *. rewrite Hr, Nat.eqb_refl. exact IH.
Qed.

Lemma crossing_mismatch_eq : forall fb s i fs,
  crossing_mismatch fb s i fs
  = (rows <- map_res (row_by_name fb s) fs ;;
     bad <- chunk_loop fb (S (fl_trials fb)) s fs (chunk_of fb i fs) (sw_of fb fs) (crossing_preamble fb i) ;;
     Ok (map (fun _ => i) (filter (fun row : list (option nat) => negb (length row =? T fb)) rows)
         ++ (if 0 <? bad then [i] else []))).
Proof. reflexivity. Qed.

Definition wf_rowsb (fb : flat) (rows : list (list (option nat))) : bool :=
  (length rows =? length (fl_design fb)) &&
  forallb (fun p : nat * list (option nat) =>
             (length (snd p) =? fl_trials fb) &&
             forallb (fun c => match c with Some l => l <? nlev fb (fst p) | None => false end) (snd p))
          (cand_of_rows rows).

Lemma wf_rowsb_wf : forall fb rows, wf_rowsb fb rows = true -> wf_rows fb rows.
Proof.
  intros fb rows H. unfold wf_rowsb in H. apply andb_prop in H. destruct H as [H1 H2].
  apply Nat.eqb_eq in H1. split; auto. intros f Hf.
  rewrite forallb_forall in H2. specialize (H2 _ (entry_in_rows rows f Hf)). simpl in H2.
  apply andb_prop in H2. destruct H2 as [H2 H3]. apply Nat.eqb_eq in H2. split; auto.
  intros c Hc. rewrite forallb_forall in H3. specialize (H3 c Hc).
  destruct c as [l|]; [|discriminate]. exists l. split; auto. apply Nat.ltb_lt; auto.
Qed.

(** * A concrete member of the fragment: weighted 2 x 2 crossing over 6 trials with one constraint of every kind *)
Definition ex_level (w : nat) : flevel := {| lv_name := String.EmptyString; lv_weight := w; lv_accepts := [] |}.
Definition ex_factor (ws : list nat) : ffactor :=
  {| ff_name := String.EmptyString; ff_hidden := false; ff_levels := map ex_level ws; ff_window := None; ff_complex := false |}.
Definition ex_fb : flat :=
  {| fl_design := [ex_factor [1; 1]; ex_factor [2; 1]; ex_factor [1; 1; 1]];
     fl_act := [0; 1; 2]; fl_crossings := [[0; 1]]; fl_sustains := [1]; fl_weights := [1]; fl_sizes := [6];
     fl_preambles := [0]; fl_alignment := EqualPreamble; fl_alignment_preamble := 0; fl_min_trials := 0;
     fl_trials := 6; fl_rcc := true; fl_exclude := []; fl_excluded_derived := [];
     fl_constraints := [FCross; FConsistency; FAtMost 2 1 0 (Some {| g_trials := 3; g_preamble := 0; g_sustain := [] |});
                        FExactlyK 3 0 1 None; FPin (-1) 2 2 None; FExclude 2 1; FAtLeast 1 2 0 None;
                        FExactlyKInARow 1 0 1 None; FSequential 0 ];
     fl_errors_fail := false |}.

Definition ex_rows_valid : list (list (option nat)) :=
  [[Some 0; Some 1; Some 0; Some 1; Some 0; Some 1];
   [Some 0; Some 1; Some 0; Some 0; Some 1; Some 0];
   [Some 0; Some 0; Some 0; Some 0; Some 0; Some 2]].
Definition ex_rows_invalid : list (list (option nat)) :=
  [[Some 0; Some 1; Some 0; Some 1; Some 0; Some 1];
   [Some 0; Some 0; Some 0; Some 1; Some 1; Some 0];
   [Some 0; Some 0; Some 0; Some 0; Some 0; Some 2]].
