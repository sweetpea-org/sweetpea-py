(** The mismatch checker against the reference semantics on designs WITH derived
    factors (fragment [dfrag] of Check/DerivedFrag.v): [Factor.test_trial] /
    [_trial_arguments] compute the factor-correctness clause of [Sem.factor_ok]
    (each derived cell is a level whose table accepts the window cells; windows
    reach back over earlier trials, [BeforeStart] arguments before the first
    trial), [Sustain] with factors that do not apply everywhere, and every
    constraint of the fragments as its reference clause ([constraint_gen]). *)
From Coq Require Import ZArith List Bool Arith Lia.
From SP Require Import Base.Lists Design.Flat Design.Layout Check.Mismatch Check.MismatchProofs Check.CrossingProofs
                       Check.FragmentProofs Check.NestProofs Check.DerivedFrag.
From SP Require Design.Sem.
Import ListNotations.

Definition wf_rows_d (fb : flat) (rows : list (list (option nat))) : Prop :=
  length rows = length (fl_design fb) /\
  forall f, f < length rows ->
    length (nth f rows []) = fl_trials fb /\
    forall t, t < fl_trials fb -> cell_okb fb f t (nth t (nth f rows []) None) = true.

Lemma wf_rows_d_shape : forall fb rows, wf_rows_d fb rows -> rows_shape fb rows.
Proof. intros fb rows [H1 H2]. split; [exact H1|]. intros f Hf. apply (H2 f Hf). Qed.

Lemma wf_rowsb_d_wf : forall fb rows, wf_rowsb_d fb rows = true -> wf_rows_d fb rows.
Proof.
  intros fb rows H. unfold wf_rowsb_d in H. apply andb_prop in H. destruct H as [H1 H2].
  apply Nat.eqb_eq in H1. split; auto. intros f Hf.
  rewrite forallb_forall in H2. specialize (H2 _ (entry_in_rows rows f Hf)). simpl in H2.
  apply andb_prop in H2. destruct H2 as [H2 H3]. apply Nat.eqb_eq in H2. split; auto.
  intros t Ht. rewrite forallb_forall in H3.
  apply (H3 (t, nth t (nth f rows []) None)). apply in_enum. simpl. apply nth_error_nth'. lia.
Qed.

Lemma wf_d_conversion : forall fb rows, wf_rows_d fb rows -> conversion_ok fb (cand_of_rows rows) = true.
Proof.
  intros fb rows [Hlen Hrows]. unfold conversion_ok. apply forallb_forall. intros p Hp.
  destruct (rows_entry _ _ Hp) as [Hi ->]. apply forallb_forall. intros c Hc.
  destruct c as [l|]; auto.
  destruct (In_nth _ _ None Hc) as [t [Ht Et]].
  destruct (Hrows _ Hi) as [HT Hk]. specialize (Hk t ltac:(lia)). rewrite Et in Hk. simpl in Hk.
  apply andb_prop in Hk. destruct Hk as [Hk _]. exact Hk.
Qed.

(** the part of [dfrag] about factors and sustain counts (shared with [efrag]) *)
Definition dbase (fb : flat) : bool :=
  forallb (ffrag_d fb) (fl_design fb)
  && forallb (fun su => (1 <=? su) && (fl_trials fb mod su =? 0)) (fl_sustains fb).

Lemma dfrag_dbase : forall fb, dfrag fb = true -> dbase fb = true.
Proof.
  intros fb H. unfold dfrag in H. rewrite !andb_true_iff in H. destruct H as [[[[H1 H2] _] _] _].
  unfold dbase. rewrite H1, H2. reflexivity.
Qed.

Lemma dfrag_cfrag : forall fb c, dfrag fb = true -> In c (fl_constraints fb) -> cfrag_d fb c = true.
Proof.
  intros fb c H Hin. unfold dfrag in H. rewrite !andb_true_iff in H. destruct H as [[_ H] _].
  rewrite forallb_forall in H. auto.
Qed.

Lemma dbase_design : forall fb f fd, dbase fb = true -> nth_error (fl_design fb) f = Some fd ->
  ff_hidden fd = false /\ 1 <= length (ff_levels fd) /\
  forall w, ff_window fd = Some w -> forall d, In d (win_deps w) -> dep_ok fb d = true.
Proof.
  intros fb f fd H E. unfold dbase in H. apply andb_prop in H. destruct H as [H _].
  rewrite forallb_forall in H. specialize (H fd (nth_error_In _ _ E)).
  unfold ffrag_d in H. rewrite !andb_true_iff in H. destruct H as [[H1 H2] H3].
  apply negb_true_iff in H1. apply Nat.leb_le in H2. split; auto. split; auto.
  intros w Hw d Hd. rewrite Hw in H3. rewrite forallb_forall in H3. auto.
Qed.

Lemma dbase_su : forall fb f, dbase fb = true -> 1 <= su_of fb f /\ fl_trials fb mod su_of fb f = 0.
Proof.
  intros fb f H. unfold dbase in H. apply andb_prop in H. destruct H as [_ H].
  rewrite forallb_forall in H. unfold su_of. apply sustain_of_ind.
  - split; [lia | apply Nat.mod_1_r].
  - intros n Hn. specialize (H n Hn). apply andb_prop in H. destruct H as [H1 H2].
    apply Nat.leb_le in H1. apply Nat.eqb_eq in H2. auto.
Qed.

Lemma applies_d : forall fb f fd t, nth_error (fl_design fb) f = Some fd ->
  Sem.applies (dfactor_of fb (f, fd)) t = app_at fb f t.
Proof.
  intros fb f fd t E. unfold Sem.applies, app_at, applies_to_trial, factor_at, dfactor_of, dwin_of.
  rewrite E. cbn [Sem.f_derived Sem.f_sustain fst snd]. destruct (ff_window fd) as [w|]; [|reflexivity].
  cbn [Sem.w_start Sem.w_stride]. rewrite !Nat.add_1_r. reflexivity.
Qed.

Lemma app_at_group : forall fb f t, 1 <= su_of fb f -> app_at fb f (t / su_of fb f * su_of fb f) = app_at fb f t.
Proof. intros. unfold app_at. rewrite group_start_div by auto. reflexivity. Qed.

Lemma dep_ok_applies : forall fb d t, dep_ok fb d = true -> app_at fb d t = true.
Proof.
  intros fb d t H. unfold dep_ok in H. unfold app_at, applies_to_trial.
  destruct (factor_at fb d) as [fd|]; [|discriminate].
  destruct (ff_window fd) as [w|]; [|reflexivity].
  apply andb_prop in H. destruct H as [H1 H2]. apply Nat.eqb_eq in H1. apply Nat.eqb_eq in H2.
  rewrite H1, H2. apply andb_true_intro. split; [apply Nat.leb_le; lia | rewrite Nat.mod_1_r; reflexivity].
Qed.

Lemma dep_ok_lt : forall fb d, dep_ok fb d = true -> d < length (fl_design fb).
Proof.
  intros fb d H. unfold dep_ok, factor_at in H.
  destruct (nth_error (fl_design fb) d) eqn:E; [|discriminate]. apply nth_error_Some. congruence.
Qed.

Lemma dep_ok_ready : forall fb d, dep_ok fb d = true -> ready_at fb d = 0.
Proof.
  intros fb d H. unfold dep_ok in H. unfold ready_at.
  destruct (factor_at fb d) as [fd|]; [|reflexivity].
  destruct (ff_window fd) as [w|]; [|reflexivity].
  apply andb_prop in H. destruct H as [H1 _]. apply Nat.eqb_eq in H1. destruct (ff_complex fd); auto.
Qed.

(** a cell of a candidate of the domain: a level where the factor applies, '' where it does not *)
Lemma wf_cell : forall fb rows f t, wf_rows_d fb rows -> f < length (fl_design fb) -> t < fl_trials fb ->
  match nth t (nth f rows []) None with
  | Some l => app_at fb f t = true /\ l < nlev fb f
  | None => app_at fb f t = false
  end.
Proof.
  intros fb rows f t [Hlen Hrows] Hf Ht.
  destruct (Hrows f ltac:(lia)) as [_ Hc]. specialize (Hc t Ht). unfold cell_okb in Hc.
  destruct (nth t (nth f rows []) None) as [l|].
  - apply andb_prop in Hc. destruct Hc as [Hl Ha]. apply Nat.ltb_lt in Hl. auto.
  - apply negb_true_iff, Hc.
Qed.

Lemma cell_some : forall fb rows f t, wf_rows_d fb rows -> f < length (fl_design fb) -> t < fl_trials fb ->
  app_at fb f t = true -> exists l, nth t (nth f rows []) None = Some l /\ l < nlev fb f.
Proof.
  intros fb rows f t Hwf Hf Ht Ha. pose proof (wf_cell fb rows f t Hwf Hf Ht) as H.
  destruct (nth t (nth f rows []) None) as [l|]; [exists l; tauto | congruence].
Qed.

Lemma cell_none : forall fb rows f t, wf_rows_d fb rows -> f < length (fl_design fb) -> t < fl_trials fb ->
  app_at fb f t = false -> nth t (nth f rows []) None = None.
Proof.
  intros fb rows f t Hwf Hf Ht Ha. pose proof (wf_cell fb rows f t Hwf Hf Ht) as H.
  destruct (nth t (nth f rows []) None) as [l|]; [destruct H; congruence | reflexivity].
Qed.

Lemma combo_at_levels_d : forall fb rows fs t, wf_rows_d fb rows ->
  (forall f, In f fs -> f < length (fl_design fb)) -> t < fl_trials fb ->
  (forall f, In f fs -> app_at fb f t = true) ->
  exists c, Sem.combo_at rows fs t = map Some c /\ Forall2 (fun x n => x < n) c (map (nlev fb) fs).
Proof.
  intros fb rows fs t Hwf Hfs Ht Happ. induction fs as [|f fs IH]; simpl.
  - exists []. split; [reflexivity|constructor].
  - destruct IH as [c [Hc Hall]]; [intros; apply Hfs; right; auto | intros; apply Happ; right; auto |].
    destruct (cell_some fb rows f t Hwf (Hfs f (or_introl eq_refl)) Ht (Happ f (or_introl eq_refl))) as [l [El Hl]].
    exists (l :: c). split.
    + unfold Sem.combo_at in *. simpl. unfold Sem.get_cell at 1. unfold Sem.cell in *. rewrite El, Hc. reflexivity.
    + constructor; auto.
Qed.

(** * The argument tuple of a derived level: [_trial_arguments] is the reference window *)

Definition parg_of_sem (c : option nat) : parg := match c with Some l => PName l | None => PNone end.

Lemma parg_matches_sem : forall c e, parg_matches (parg_of_sem c) e = Sem.cell_eqb c e.
Proof. intros [x|] [y|]; reflexivity. Qed.

Lemma col_matches_sem : forall col e, list_all2 parg_matches (map parg_of_sem col) e = Sem.list_eqb Sem.cell_eqb col e.
Proof.
  induction col as [|c col IH]; destruct e as [|x e]; simpl; auto.
  rewrite parg_matches_sem, IH. reflexivity.
Qed.

Lemma args_matches_sem : forall args e,
  list_all2 (list_all2 parg_matches) (map (map parg_of_sem) args) e = Sem.args_eqb args e.
Proof.
  unfold Sem.args_eqb. induction args as [|c args IH]; destruct e as [|x e]; simpl; auto.
  rewrite col_matches_sem, IH. reflexivity.
Qed.

Lemma accepts_args_sem : forall fd w l lv args,
  dwin_of fd = Some w -> nth_error (ff_levels fd) l = Some lv ->
  accepts_args lv (map (map parg_of_sem) args) = Sem.accepts w l args.
Proof.
  intros fd w l lv args Hw Hl. unfold dwin_of in Hw. destruct (ff_window fd) as [w0|]; [|discriminate].
  injection Hw as <-. unfold accepts_args, Sem.accepts. cbn [Sem.w_table].
  assert (E : nth l (map lv_accepts (ff_levels fd)) [] = lv_accepts lv).
  { apply nth_error_nth. apply map_nth_error. auto. }
  rewrite E. apply existsb_ext. intros e. apply args_matches_sem.
Qed.

Lemma combine_map_r : forall {A B} (g : A -> B) xs, combine xs (map g xs) = map (fun x => (x, g x)) xs.
Proof. induction xs as [|x xs IH]; simpl; auto. rewrite IH. reflexivity. Qed.

Section Window.
Variable fb : flat.
Variable rows : list (list (option nat)).
Hypothesis Hfr : dbase fb = true.
Hypothesis Hwf : wf_rows_d fb rows.
Variable f : nat.
Variable fd : ffactor.
Hypothesis Efd : nth_error (fl_design fb) f = Some fd.
Variable w : fwindow.
Hypothesis Ew : ff_window fd = Some w.
Variable q : nat.
Let su := su_of fb f.
Let i := q * su.
Hypothesis Hi : i < fl_trials fb.
Hypothesis Happ : app_at fb f i = true.

Let dw : Sem.dwindow :=
  {| Sem.w_deps := win_deps w; Sem.w_width := win_width w; Sem.w_stride := win_stride w;
     Sem.w_start := win_start w; Sem.w_table := map lv_accepts (ff_levels fd) |}.

Lemma su_pos : 1 <= su.
Proof. apply (dbase_su fb f Hfr). Qed.

Lemma i_group : i / su * su = i.
Proof. unfold i. rewrite Nat.div_mul by (pose proof su_pos; lia). reflexivity. Qed.

Lemma start_le_q : win_start w <= q.
Proof.
  pose proof su_pos as Hsu. unfold app_at, applies_to_trial, factor_at in Happ. rewrite Efd, Ew in Happ.
  apply andb_prop in Happ. destruct Happ as [H1 _]. apply Nat.leb_le in H1.
  fold su in H1. unfold i in H1. rewrite Nat.div_mul in H1 by lia. lia.
Qed.

Definition wcell (d j : nat) : option nat :=
  let back := (win_width w - 1 - j) * su in
  if back <=? i then Sem.get_cell rows d (i - back) else None.

Lemma window_args_eq :
  Sem.window_args rows (dfactor_of fb (f, fd)) dw i = map (fun d => map (wcell d) (seq 0 (win_width w))) (win_deps w).
Proof.
  unfold Sem.window_args, dfactor_of. cbn [Sem.f_sustain fst snd Sem.w_deps Sem.w_width dw].
  fold su. rewrite i_group. reflexivity.
Qed.

Lemma dwin_of_dw : dwin_of fd = Some dw.
Proof. unfold dwin_of. rewrite Ew. reflexivity. Qed.

Lemma dep_in : forall d, In d (win_deps w) -> dep_ok fb d = true.
Proof. intros d Hd. destruct (dbase_design fb f fd Hfr Efd) as [_ [_ Hdeps]]. exact (Hdeps w Ew d Hd). Qed.

Lemma dep_cell : forall d t, In d (win_deps w) -> t < fl_trials fb ->
  exists l, Sem.get_cell rows d t = Some l /\ l < nlev fb d.
Proof.
  intros d t Hd Ht. pose proof (dep_in d Hd) as Hok.
  apply (cell_some fb rows d t Hwf (dep_ok_lt fb d Hok) Ht (dep_ok_applies fb d t Hok)).
Qed.

Lemma trial_arguments_d :
  trial_arguments (cand_of_rows rows) w i su
  = Ok (map (map parg_of_sem) (Sem.window_args rows (dfactor_of fb (f, fd)) dw i)).
Proof.
  rewrite window_args_eq, map_map. unfold trial_arguments. apply map_res_ok. intros d Hd.
  pose proof (dep_ok_lt fb d (dep_in d Hd)) as Hdlt.
  destruct Hwf as [Hlen Hrows].
  rewrite row_of_rows by lia. cbn [bind]. rewrite map_map.
  rewrite (map_res_ok _ (fun j => parg_of_sem (wcell d j))); [reflexivity|].
  intros j Hj. apply in_seq in Hj. unfold wcell.
  set (back := (win_width w - 1 - j) * su).
  assert (Hidx : (Z.of_nat i + (Z.of_nat j - (Z.of_nat (win_width w) - 1)) * Z.of_nat su
                  = Z.of_nat i - Z.of_nat back)%Z).
  { unfold back. rewrite Nat2Z.inj_mul, !Nat2Z.inj_sub by lia. simpl. lia. }
  rewrite Hidx. destruct (back <=? i) eqn:Eb.
  - apply Nat.leb_le in Eb.
    assert (E0 : (0 <=? Z.of_nat i - Z.of_nat back)%Z = true) by (apply Z.leb_le; lia).
    rewrite E0. replace (Z.to_nat (Z.of_nat i - Z.of_nat back)) with (i - back) by lia.
    rewrite get_nth by (rewrite (proj1 (Hrows d ltac:(lia))); lia). cbn [bind].
    destruct (dep_cell d (i - back) Hd ltac:(lia)) as [l [El _]].
    unfold Sem.get_cell in *. unfold Sem.cell in *. rewrite El. reflexivity.
  - apply Nat.leb_gt in Eb.
    assert (E0 : (0 <=? Z.of_nat i - Z.of_nat back)%Z = false) by (apply Z.leb_gt; lia).
    rewrite E0. reflexivity.
Qed.

Lemma args_in_domain_d :
  args_in_domain fb w (map (map parg_of_sem) (Sem.window_args rows (dfactor_of fb (f, fd)) dw i)) = true.
Proof.
  rewrite window_args_eq, map_map. unfold args_in_domain.
  rewrite combine_map_r, forallb_map. apply forallb_forall. intros d Hd. cbn [fst snd].
  rewrite !map_length, seq_length. rewrite map_map, combine_map_r, forallb_map.
  apply forallb_forall. intros j Hj. apply in_seq in Hj. cbn [fst snd].
  unfold wcell. set (back := (win_width w - 1 - j) * su).
  destruct (back <=? i) eqn:Eb.
  - apply Nat.leb_le in Eb. destruct (dep_cell d (i - back) Hd ltac:(lia)) as [l [El Hl]].
    rewrite El. simpl. apply Nat.ltb_lt. auto.
  - apply Nat.leb_gt in Eb. simpl. rewrite (dep_ok_ready fb d (dep_in d Hd)).
    pose proof start_le_q as Hs. pose proof su_pos as Hsu.
    assert (q < win_width w - 1 - j).
    { unfold back, i in Eb. nia. }
    apply Z.ltb_lt. lia.
Qed.

End Window.

(** the check of one group start of a factor: a level whose table accepts the window cells *)
Definition gs_cell (fb : flat) (rows : list (list (option nat))) (f : nat) (fd : ffactor) (i : nat) : bool :=
  match nth i (nth f rows []) None with
  | None => true
  | Some l =>
    match dwin_of fd with
    | None => true
    | Some w => Sem.accepts w l (Sem.window_args rows (dfactor_of fb (f, fd)) w i)
    end
  end.

Definition gs_ok (fb : flat) (rows : list (list (option nat))) (f : nat) (fd : ffactor) : bool :=
  forallb (gs_cell fb rows f fd) (range_step (fl_trials fb) (su_of fb f)).

Lemma test_trial_d : forall fb rows f fd q,
  dbase fb = true -> wf_rows_d fb rows -> nth_error (fl_design fb) f = Some fd ->
  q * su_of fb f < fl_trials fb ->
  test_trial fb (cand_of_rows rows) f fd (q * su_of fb f) (su_of fb f) = Ok (gs_cell fb rows f fd (q * su_of fb f)).
Proof.
  intros fb rows f fd q Hfr Hwf E Hi. unfold test_trial, gs_cell.
  assert (Hf : f < length (fl_design fb)) by (apply nth_error_Some; congruence).
  destruct (ff_window fd) as [w|] eqn:Ew.
  - pose proof Hwf as [Hlen Hrows]. rewrite row_of_rows by lia. cbn [bind].
    rewrite get_nth by (rewrite (proj1 (Hrows f ltac:(lia))); lia). cbn [bind].
    destruct (nth (q * su_of fb f) (nth f rows []) None) as [l|] eqn:Ec; [|reflexivity].
    pose proof (wf_cell fb rows f _ Hwf Hf Hi) as Hcell. rewrite Ec in Hcell. destruct Hcell as [Happ Hl].
    rewrite (nlev_nth fb f fd E) in Hl.
    destruct (nth_error (ff_levels fd) l) as [lv|] eqn:El; [|apply nth_error_None in El; lia].
    rewrite (dwin_of_dw fd w Ew).
    rewrite (trial_arguments_d fb rows Hfr Hwf f fd E w Ew q Hi). cbn [bind].
    rewrite (args_in_domain_d fb rows Hfr Hwf f fd E w Ew q Hi Happ).
    rewrite (accepts_args_sem fd _ l lv _ (dwin_of_dw fd w Ew) El). reflexivity.
  - unfold dwin_of. rewrite Ew. destruct (nth (q * su_of fb f) (nth f rows []) None); reflexivity.
Qed.

Lemma factor_test_d : forall fb rows f fd,
  dbase fb = true -> wf_rows_d fb rows -> nth_error (fl_design fb) f = Some fd ->
  factor_test fb (cand_of_rows rows) f fd = Ok (gs_ok fb rows f fd).
Proof.
  intros fb rows f fd Hfr Hwf E. unfold factor_test, gs_ok.
  assert (Hf : f < length (fl_design fb)) by (apply nth_error_Some; congruence).
  pose proof Hwf as [Hlen Hrows]. rewrite row_of_rows by lia. cbn [bind].
  destruct (dbase_su fb f Hfr) as [Hsu _].
  assert (E0 : su_of fb f =? 0 = false) by (apply Nat.eqb_neq; lia). rewrite E0.
  rewrite (proj1 (Hrows f ltac:(lia))).
  rewrite (map_res_ok _ (gs_cell fb rows f fd)).
  - cbn [bind]. rewrite forallb_map. reflexivity.
  - intros i Hi. destruct (range_step_lt _ _ _ Hsu Hi) as [q [-> Hq]]. apply test_trial_d; auto.
Qed.

Lemma mismatch_factors_d : forall fb rows, dbase fb = true -> wf_rows_d fb rows ->
  mismatch_factors fb (cand_of_rows rows)
  = Ok (flagged (map (fun p => gs_ok fb rows (fst p) (snd p)) (combine (seq 0 (length (fl_design fb))) (fl_design fb)))).
Proof.
  intros fb rows Hfr Hwf. unfold mismatch_factors.
  rewrite (map_res_ok _ (fun p => gs_ok fb rows (fst p) (snd p))); [reflexivity|].
  intros [f fd] Hp. apply in_enum in Hp. simpl in Hp |- *.
  destruct (dbase_design fb f fd Hfr Hp) as [Hh _]. rewrite Hh.
  apply factor_test_d; auto.
Qed.

Lemma window_args_group : forall s fd w t, 1 <= Sem.f_sustain fd ->
  Sem.window_args s fd w (t / Sem.f_sustain fd * Sem.f_sustain fd) = Sem.window_args s fd w t.
Proof. intros. unfold Sem.window_args. cbv zeta. rewrite group_start_div by auto. reflexivity. Qed.

Definition V4f (fb : flat) (rows : list (list (option nat))) (f : nat) : Prop :=
  forall t, t < fl_trials fb ->
    nth (t / su_of fb f * su_of fb f) (nth f rows []) None = nth t (nth f rows []) None.

(** [Sem.factor_ok] reads the trial count of the design and nothing else *)
Lemma factor_ok_d : forall fb rows S f fd,
  dbase fb = true -> wf_rows_d fb rows -> Sem.s_trials S = fl_trials fb -> nth_error (fl_design fb) f = Some fd ->
  (Sem.factor_ok S rows f (dfactor_of fb (f, fd)) = true
   <-> V4f fb rows f /\ gs_ok fb rows f fd = true).
Proof.
  intros fb rows S f fd Hfr Hwf HS E.
  assert (Hf : f < length (fl_design fb)) by (apply nth_error_Some; congruence).
  pose proof Hwf as [Hlen Hrows]. destruct (Hrows f ltac:(lia)) as [HT _].
  destruct (dbase_su fb f Hfr) as [Hsu _].
  assert (Hcell := fun t Ht => wf_cell fb rows f t Hwf Hf Ht).
  unfold Sem.factor_ok. rewrite HS. unfold Sem.cell in *.
  rewrite HT, Nat.eqb_refl, andb_true_l. rewrite forallb_forall. unfold Sem.get_cell.
  cbn [Sem.f_sustain Sem.f_nlevels Sem.f_derived dfactor_of fst snd]. unfold Sem.cell in *.
  split.
  - intros H. split.
    + intros t Ht. specialize (H t ltac:(apply in_seq; lia)). specialize (Hcell t Ht).
      destruct (nth t (nth f rows []) None) as [l|] eqn:Ec.
      * rewrite !andb_true_iff in H. destruct H as [[[_ _] H] _].
        destruct (nth (t / su_of fb f * su_of fb f) (nth f rows []) None) as [x|]; simpl in H; [|discriminate].
        apply Nat.eqb_eq in H. congruence.
      * apply (cell_none fb rows f _ Hwf Hf).
        -- pose proof (group_start_le t (su_of fb f) Hsu). lia.
        -- rewrite app_at_group by auto. exact Hcell.
    + unfold gs_ok. apply forallb_forall. intros i Hi.
      destruct (range_step_lt _ _ _ Hsu Hi) as [q [Eq Hlt]].
      specialize (H i ltac:(apply in_seq; lia)). unfold gs_cell.
      destruct (nth i (nth f rows []) None) as [l|]; auto.
      rewrite !andb_true_iff in H. destruct H as [_ H]. exact H.
  - intros [HV HG] t Ht. apply in_seq in Ht. specialize (Hcell t ltac:(lia)).
    rewrite (applies_d fb f fd t E).
    destruct (nth t (nth f rows []) None) as [l|] eqn:Ec.
    + destruct Hcell as [Happ Hl].
      rewrite Happ. rewrite (nlev_nth fb f fd E) in Hl.
      apply Nat.ltb_lt in Hl. rewrite Hl. rewrite (HV t ltac:(lia)), Ec. simpl. rewrite Nat.eqb_refl. simpl.
      destruct (dwin_of fd) as [w|] eqn:Edw; auto.
      pose proof (window_args_group rows (dfactor_of fb (f, fd)) w t) as Hg.
      cbn [Sem.f_sustain dfactor_of fst] in Hg. rewrite <- Hg by auto.
      unfold gs_ok in HG. rewrite forallb_forall in HG.
      specialize (HG _ (range_step_in (fl_trials fb) (su_of fb f) t Hsu ltac:(lia))).
      unfold gs_cell in HG. rewrite (HV t ltac:(lia)), Ec, Edw in HG. exact HG.
    + rewrite Hcell. reflexivity.
Qed.

Definition gs_list (fb : flat) (rows : list (list (option nat))) : list bool :=
  map (fun p => gs_ok fb rows (fst p) (snd p)) (combine (seq 0 (length (fl_design fb))) (fl_design fb)).

(** the factor table of [code_sem_d] and [code_sem_x] *)
Definition dfactors (fb : flat) : list Sem.dfactor :=
  map (dfactor_of fb) (combine (seq 0 (length (fl_design fb))) (fl_design fb)).

Lemma dfactors_nth : forall fb f fd, nth_error (fl_design fb) f = Some fd ->
  nth_error (dfactors fb) f = Some (dfactor_of fb (f, fd)).
Proof. intros. unfold dfactors. rewrite nth_error_map, nth_error_combine_seq, H. reflexivity. Qed.

Lemma dfactors_in : forall fb p, In p (Sem.index_list (dfactors fb)) <->
  exists fd, nth_error (fl_design fb) (fst p) = Some fd /\ snd p = dfactor_of fb (fst p, fd).
Proof.
  intros fb p. unfold Sem.index_list. rewrite in_enum. unfold dfactors.
  rewrite nth_error_map, nth_error_combine_seq.
  destruct (nth_error (fl_design fb) (fst p)) as [fd|]; simpl; split.
  - intros [= <-]. eauto.
  - intros [fd' [[= <-] ->]]. reflexivity.
  - discriminate.
  - intros [fd' [[=] _]].
Qed.

Lemma factors_sem_d : forall fb rows S, dbase fb = true -> wf_rows_d fb rows ->
  Sem.s_trials S = fl_trials fb -> Sem.s_factors S = dfactors fb ->
  (forallb (fun p => Sem.factor_ok S rows (fst p) (snd p)) (Sem.index_list (Sem.s_factors S)) = true
   <-> V4 fb rows /\ forallb (fun b => b) (gs_list fb rows) = true).
Proof.
  intros fb rows S Hfr Hwf HT HS. rewrite HS. pose proof Hwf as [Hlen _].
  unfold gs_list. rewrite forallb_map, !forallb_forall. split.
  - intros H.
    assert (G : forall f fd, nth_error (fl_design fb) f = Some fd -> V4f fb rows f /\ gs_ok fb rows f fd = true).
    { intros f fd E. apply (factor_ok_d fb rows S f fd Hfr Hwf HT E).
      apply (H (f, dfactor_of fb (f, fd))). apply dfactors_in. eauto. }
    split.
    + intros f Hf t Ht.
      destruct (nth_error (fl_design fb) f) as [fd|] eqn:E; [|apply nth_error_None in E; lia].
      apply (G f fd E); auto.
    + intros [f fd] Hp. apply in_enum in Hp. apply (G f fd Hp).
  - intros [HV HG] [f sd] Hp. apply dfactors_in in Hp. destruct Hp as [fd [E ->]]. simpl in E |- *.
    apply (factor_ok_d fb rows S f fd Hfr Hwf HT E). split.
    + intros t Ht. apply HV; auto. rewrite Hlen. apply nth_error_Some. congruence.
    + apply (HG (f, fd)). apply in_enum. exact E.
Qed.

Definition sustain_row_ok_d (fb : flat) (f : nat) (row : list (option nat)) : bool :=
  forallb (fun i => if applies_to_trial fb f (i / su_of fb f + 1)
                    then forallb (fun j => cell_same (nth (i + j) row None) (nth i row None)) (seq 1 (su_of fb f - 1))
                    else true)
          (range_step (fl_trials fb) (su_of fb f)).

Lemma sustain_model_d : forall fb rows, dbase fb = true -> wf_rows_d fb rows ->
  sustain_conforms fb (cand_of_rows rows)
  = Ok (forallb (fun f => sustain_row_ok_d fb f (nth f rows [])) (seq 0 (length (fl_design fb)))).
Proof.
  intros fb rows Hfr [Hlen Hrows]. unfold sustain_conforms.
  apply all_res_ok. intros f Hf. apply in_seq in Hf.
  destruct (dbase_su fb f Hfr) as [Hsu Hmod].
  destruct (Hrows f ltac:(lia)) as [HT _].
  destruct (su_of fb f <=? 1) eqn:E1.
  - apply Nat.leb_le in E1. assert (E : su_of fb f = 1) by lia.
    unfold sustain_row_ok_d. rewrite E. replace (1 - 1) with 0 by lia. cbn [seq forallb].
    f_equal. symmetry. apply forallb_forall.
    intros i _. destruct (applies_to_trial fb f (i / 1 + 1)); reflexivity.
  - apply Nat.leb_gt in E1. rewrite row_of_rows by lia. simpl. rewrite HT.
    unfold sustain_row_ok_d. apply all_res_ok. intros i Hi.
    destruct (range_step_lt _ _ _ Hsu Hi) as [q [-> Hq]].
    destruct (applies_to_trial fb f (q * su_of fb f / su_of fb f + 1)); [|reflexivity].
    rewrite get_nth by lia. simpl.
    apply all_res_ok. intros j Hj. apply in_seq in Hj.
    assert (Hb : q * su_of fb f + j < fl_trials fb) by (apply group_bound; lia).
    rewrite get_nth by lia. reflexivity.
Qed.

Lemma sustain_model_V4_d : forall fb rows, dbase fb = true -> wf_rows_d fb rows ->
  (forallb (fun f => sustain_row_ok_d fb f (nth f rows [])) (seq 0 (length (fl_design fb))) = true <-> V4 fb rows).
Proof.
  intros fb rows Hfr Hwf. pose proof Hwf as [Hlen Hrows]. rewrite forallb_forall. unfold V4. split.
  - intros H f Hf t Ht. destruct (dbase_su fb f Hfr) as [Hsu Hmod].
    specialize (H f ltac:(apply in_seq; lia)). unfold sustain_row_ok_d in H. rewrite forallb_forall in H.
    specialize (H _ (range_step_in (fl_trials fb) _ t Hsu Ht)). fold (app_at fb f (t / su_of fb f * su_of fb f)) in H.
    (* [t] is trial [t - g] of the group that starts at [g] *)
    pose proof (group_start_le t _ Hsu) as Hle. pose proof (group_end t _ Hsu) as Hend.
    set (g := t / su_of fb f * su_of fb f) in *.
    destruct (Nat.eq_dec g t) as [->|Hne]; [reflexivity|].
    destruct (app_at fb f g) eqn:Ea.
    + rewrite forallb_forall in H. specialize (H (t - g) ltac:(apply in_seq; lia)).
      replace (g + (t - g)) with t in H by lia. unfold cell_same in H.
      destruct (nth t (nth f rows []) None) as [x|]; [|discriminate].
      destruct (nth g (nth f rows []) None) as [y|]; [|discriminate].
      apply Nat.eqb_eq in H. congruence.
    + rewrite (cell_none fb rows f g Hwf ltac:(lia) ltac:(lia) Ea).
      symmetry. apply (cell_none fb rows f t Hwf ltac:(lia) Ht).
      rewrite <- (app_at_group fb f t Hsu). exact Ea.
  - intros H f Hf. apply in_seq in Hf. destruct (dbase_su fb f Hfr) as [Hsu Hmod].
    unfold sustain_row_ok_d. apply forallb_forall. intros i Hi.
    destruct (range_step_lt _ _ _ Hsu Hi) as [q [-> Hq]].
    destruct (applies_to_trial fb f (q * su_of fb f / su_of fb f + 1)) eqn:Ea; [|reflexivity].
    apply forallb_forall. intros j Hj. apply in_seq in Hj.
    assert (Hb : q * su_of fb f + j < fl_trials fb) by (apply group_bound; lia).
    specialize (H f ltac:(lia) (q * su_of fb f + j) Hb). rewrite div_group in H by lia. rewrite <- H.
    destruct (cell_some fb rows f (q * su_of fb f) Hwf ltac:(lia) ltac:(lia) Ea) as [l [El _]].
    rewrite El. simpl. apply Nat.eqb_refl.
Qed.

Lemma sustain_conforms_V4_d : forall fb rows, dbase fb = true -> wf_rows_d fb rows ->
  exists b, sustain_conforms fb (cand_of_rows rows) = Ok b /\ (b = true <-> V4 fb rows).
Proof.
  intros fb rows H1 H2. eexists. split; [apply sustain_model_d; auto | apply sustain_model_V4_d; auto].
Qed.

(** * Constraints: each computes its reference clause, in any design [S] with the
      trial count and the factor table of the record *)

Section Constraints.
Variables (fb : flat) (rows : list (list (option nat))) (S : Sem.sem).
Hypothesis Hb : dbase fb = true.
Hypothesis Hwf : wf_rows_d fb rows.
Hypothesis HT : Sem.s_trials S = fl_trials fb.
Hypothesis HS : Sem.s_factors S = dfactors fb.
Let Hsh : rows_shape fb rows := wf_rows_d_shape fb rows Hwf.

Lemma kinarow_case : forall kind k ck f l wb,
  (f <? length (fl_design fb)) && ranges_ok fb wb = true -> sem_kind kind k = Some ck ->
  kinarow_conforms fb (cand_of_rows rows) kind k f l wb
  = Ok (forallb (Sem.constraint_ok S rows) (mk_c ck f l (rng fb wb))).
Proof.
  intros kind k ck f l wb Hc Hk. apply andb_prop in Hc. destruct Hc as [Hf Hr]. apply Nat.ltb_lt in Hf.
  destruct (row_of_shape fb rows f Hsh Hf) as [R L].
  unfold ranges_ok in Hr. unfold rng. destruct (map_block_trial_ranges fb wb) as [ranges|] eqn:ER; [|discriminate].
  rewrite (kinarow_conforms_sem fb _ kind k f l wb _ ranges ck S rows f R L ER Hk eq_refl).
  simpl. rewrite andb_true_r. reflexivity.
Qed.

Lemma exclude_case : forall f l, f <? length (fl_design fb) = true ->
  exclude_conforms (cand_of_rows rows) f l = Ok (forallb (Sem.constraint_ok S rows) (mk_c Sem.KExclude f l [])).
Proof.
  intros f l Hf. apply Nat.ltb_lt in Hf. destruct (row_of_shape fb rows f Hsh Hf) as [R _].
  rewrite (exclude_conforms_sem _ f l _ S rows f [] R eq_refl). simpl. rewrite andb_true_r. reflexivity.
Qed.

Lemma pin_case : forall i f l wb, cfrag_n fb (FPin i f l wb) = true ->
  pin_conforms fb (cand_of_rows rows) i f l wb
  = Ok (forallb (Sem.constraint_ok S rows) (csem_n fb (FPin i f l wb))).
Proof.
  intros i f l wb Hc. unfold cfrag_n in Hc. rewrite !andb_true_iff in Hc. destruct Hc as [[[Hf Hr] Hg] Htn].
  apply Nat.ltb_lt in Hf. apply Nat.leb_le in Hg. destruct (row_of_shape fb rows f Hsh Hf) as [R L].
  unfold ranges_ok in Hr. simpl. unfold rng.
  destruct (map_block_trial_ranges fb wb) as [ranges|] eqn:ER; [|discriminate].
  destruct (get_trial_numbers fb f i wb) as [tn|] eqn:ETN; [|discriminate].
  rewrite (pin_conforms_sem fb _ i f l wb _ ranges (geometry_sustain fb wb f) tn S rows f R ER eq_refl Hg ETN).
  - simpl. rewrite andb_true_r. reflexivity.
  - intros t Ht. rewrite forallb_forall in Htn. specialize (Htn t Ht). apply Nat.ltb_lt in Htn. lia.
  - reflexivity.
Qed.

(** [Sequential] looks at the first trial of each group: the reference clause on rows constant on groups *)
Lemma sequential_case : forall f, cfrag_n fb (FSequential f) = true ->
  exists b, sequential_conforms fb (cand_of_rows rows) f = Ok b /\
            (V4 fb rows -> b = forallb (Sem.constraint_ok S rows) (csem_n fb (FSequential f))).
Proof.
  intros f Hc. simpl in Hc. apply andb_prop in Hc. destruct Hc as [Hf Hp]. apply Nat.ltb_lt in Hf.
  destruct (row_of_shape fb rows f Hsh Hf) as [R L].
  destruct (factor_preamble fb f) as [first|] eqn:EP; [|discriminate]. apply Nat.eqb_eq in Hp.
  destruct (nth_error (fl_design fb) f) as [fd|] eqn:E; [|apply nth_error_None in E; lia].
  destruct (dbase_design fb f fd Hb E) as [_ [Hnl _]]. rewrite <- (nlev_nth fb f fd E) in Hnl.
  destruct (dbase_su fb f Hb) as [Hsu Hmod].
  eexists. split; [exact (sequential_conforms_val fb _ f _ first R L EP Hsu Hnl)|].
  intros HV. simpl. rewrite EP, andb_true_r.
  apply (seq_check_sem _ first _ _ S rows f (dfactor_of fb (f, fd)) 0 [] Hsu).
  - intros t Ht. rewrite seq_groups by lia. symmetry. apply HV; [rewrite (proj1 Hsh)|]; lia.
  - exact HT.
  - rewrite HS. apply dfactors_nth, E.
  - symmetry. apply nlev_nth, E.
Qed.

Lemma constraint_gen : forall c, cfrag_x fb c = true ->
  exists b, constraint_conforms fb (cand_of_rows rows) c = Ok b /\
            flag_spec (V4 fb rows) is_sustain (Sem.constraint_ok S rows) (csem_n fb) c b.
Proof.
  intros c Hc.
  assert (Hplain : forall r, is_sustain c = false ->
            r = Ok (forallb (Sem.constraint_ok S rows) (csem_n fb c)) ->
            exists b, r = Ok b /\ flag_spec (V4 fb rows) is_sustain (Sem.constraint_ok S rows) (csem_n fb) c b).
  { intros r Hs ->. eexists. split; [reflexivity | apply flag_plain, Hs]. }
  destruct c; simpl in Hc; try discriminate; try (apply Hplain; reflexivity).
  - destruct (sustain_conforms_V4_d fb rows Hb Hwf) as [b [E Hbv]]. exists b. split; [exact E|].
    split; [intros _; exact Hbv | intros HV; apply Hbv, HV].
  - apply Hplain; [reflexivity | apply (kinarow_case RAtMost); [exact Hc | reflexivity]].
  - apply Hplain; [reflexivity | apply (kinarow_case RAtLeast); [exact Hc | reflexivity]].
  - apply Hplain; [reflexivity | apply (kinarow_case RExactlyK); [exact Hc | reflexivity]].
  - apply Hplain; [reflexivity | apply (kinarow_case RExactlyRow); [exact Hc | reflexivity]].
  - apply Hplain; [reflexivity | apply exclude_case, Hc].
  - apply Hplain; [reflexivity | apply pin_case, Hc].
  - destruct (sequential_case f Hc) as [b [E Hbv]]. exists b. split; [exact E|].
    split; [discriminate | exact Hbv].
Qed.

End Constraints.

Lemma nfrag_app_at : forall fb f t, nfrag fb = true -> app_at fb f t = true.
Proof.
  intros fb f t H. unfold app_at, applies_to_trial, factor_at.
  destruct (nth_error (fl_design fb) f) as [fd|] eqn:E; [|reflexivity].
  destruct (nfrag_design fb f fd H E) as [_ [Hw _]]. rewrite Hw. reflexivity.
Qed.

Theorem nfrag_dfrag : forall fb, nfrag fb = true -> dfrag fb = true.
Proof.
  intros fb H. pose proof H as H0. unfold nfrag in H0. rewrite !andb_true_iff in H0.
  destruct H0 as [[[[H1 H2] H3] H4] H5].
  unfold dfrag. rewrite !andb_true_iff. repeat split; auto.
  - apply forallb_forall. intros fd Hfd. rewrite forallb_forall in H1. specialize (H1 fd Hfd).
    rewrite !andb_true_iff in H1. destruct H1 as [[Ha Hb] Hc]. unfold ffrag_d.
    destruct (ff_window fd); [discriminate|]. rewrite Ha, Hc. reflexivity.
  - apply forallb_forall. intros c Hc. rewrite forallb_forall in H4. specialize (H4 c Hc).
    destruct c; simpl in *; auto.
  - apply forallb_forall. intros p Hp. rewrite forallb_forall in H5. specialize (H5 p Hp).
    unfold xfrag_d. rewrite H5. simpl. apply forallb_forall. intros f _. apply forallb_forall. intros t _.
    apply nfrag_app_at; auto.
Qed.

Theorem nfrag_code_sem_d : forall fb, nfrag fb = true -> code_sem_d fb = code_sem_n fb.
Proof.
  intros fb H. unfold code_sem_d, code_sem_n. f_equal. apply map_ext_in. intros p Hp.
  apply in_enum in Hp. destruct (nfrag_design fb (fst p) (snd p) H Hp) as [_ [Hw _]].
  unfold dfactor_of, dwin_of. rewrite Hw. reflexivity.
Qed.

Theorem nfrag_wf_rowsb_d : forall fb rows, nfrag fb = true -> wf_rowsb_d fb rows = wf_rowsb fb rows.
Proof.
  intros fb rows H. unfold wf_rowsb_d, wf_rowsb. f_equal. apply forallb_ext_in. intros p _. f_equal.
  assert (G : forall (row : list (option nat)) a,
            forallb (fun tc : nat * option nat => cell_okb fb (fst p) (fst tc) (snd tc)) (combine (seq a (length row)) row)
            = forallb (fun c => match c with Some l => l <? nlev fb (fst p) | None => false end) row).
  { induction row as [|c row IH]; intros a; simpl; auto. rewrite IH. f_equal.
    unfold cell_okb. rewrite (nfrag_app_at fb (fst p) a H). destruct c; simpl; auto. apply andb_true_r. }
  apply G.
Qed.

Lemma nfrag_wf_rows_d : forall fb rows, nfrag fb = true -> wf_rows fb rows -> wf_rows_d fb rows.
Proof.
  intros fb rows H [Hlen Hrows]. split; [exact Hlen|]. intros f Hf. destruct (Hrows f Hf) as [HT Hcells].
  split; [exact HT|]. intros t Ht.
  destruct (Hcells (nth t (nth f rows []) None)) as [l [-> Hl]]; [apply nth_In; lia|].
  unfold cell_okb. rewrite (nfrag_app_at fb f t H), andb_true_r. apply Nat.ltb_lt, Hl.
Qed.

(** * A concrete member of the fragment beyond [nfrag] (the flat record of the real block
      CrossBlock([color, word, cong, tr], [color, tr], [AtMostKInARow(2, (cong, con))]):
      cong = WithinTrial(color = word), tr = Transition(color[-1] = color[0]); 5 trials, the
      crossing starts at trial 1) *)
From Coq Require Import String.
Definition exd_level (n : String.string) (acc : list (list (list (option nat)))) : flevel :=
  {| lv_name := n; lv_weight := 1; lv_accepts := acc |}.
Definition exd_fb : flat :=
  {| fl_design :=
       [ {| ff_name := "color"; ff_hidden := false; ff_levels := [exd_level "r" []; exd_level "g" []];
            ff_window := None; ff_complex := false |};
         {| ff_name := "word"; ff_hidden := false; ff_levels := [exd_level "r" []; exd_level "g" []];
            ff_window := None; ff_complex := false |};
         {| ff_name := "cong"; ff_hidden := false;
            ff_levels := [exd_level "con" [[[Some 0]; [Some 0]]; [[Some 1]; [Some 1]]];
                          exd_level "inc" [[[Some 0]; [Some 1]]; [[Some 1]; [Some 0]]]];
            ff_window := Some {| win_deps := [0; 1]; win_width := 1; win_stride := 1; win_start := 0; win_start_delta := 0 |};
            ff_complex := false |};
         {| ff_name := "tr"; ff_hidden := false;
            ff_levels := [exd_level "same" [[[Some 0; Some 0]]; [[Some 1; Some 1]]];
                          exd_level "diff" [[[Some 0; Some 1]]; [[Some 1; Some 0]]]];
            ff_window := Some {| win_deps := [0]; win_width := 2; win_stride := 1; win_start := 1; win_start_delta := 0 |};
            ff_complex := true |} ]%string;
     fl_act := [0; 1; 2; 3]; fl_crossings := [[0; 3]]; fl_sustains := [1]; fl_weights := [1]; fl_sizes := [4];
     fl_preambles := [1]; fl_alignment := EqualPreamble; fl_alignment_preamble := 1; fl_min_trials := 0;
     fl_trials := 5; fl_rcc := true; fl_exclude := []; fl_excluded_derived := [];
     fl_constraints := [FCross; FConsistency;
                        FAtMost 2 2 0 (Some {| g_trials := 5; g_preamble := 1; g_sustain := [(0, 1); (3, 1)] |});
                        FDerivation 4 [[DIdx 0; DIdx 2]; [DIdx 1; DIdx 3]] 2;
                        FDerivation 5 [[DIdx 0; DIdx 3]; [DIdx 1; DIdx 2]] 2;
                        FDerivation 30 [[DIdx 0; DIdx 6]; [DIdx 1; DIdx 7]] 3;
                        FDerivation 31 [[DIdx 0; DIdx 7]; [DIdx 1; DIdx 6]] 3];
     fl_errors_fail := false |}.

Definition exd_rows_valid : list (list (option nat)) :=
  [[Some 0; Some 0; Some 1; Some 1; Some 0];
   [Some 1; Some 0; Some 1; Some 0; Some 0];
   [Some 1; Some 0; Some 0; Some 1; Some 0];
   [None;   Some 0; Some 1; Some 0; Some 1]].
(* a within-trial cell that its table rejects (trial 1: color r, word r is not "inc") *)
Definition exd_rows_bad_within : list (list (option nat)) :=
  [[Some 0; Some 0; Some 1; Some 1; Some 0];
   [Some 1; Some 0; Some 1; Some 0; Some 0];
   [Some 1; Some 1; Some 0; Some 1; Some 0];
   [None;   Some 0; Some 1; Some 0; Some 1]].
(* a transition cell that its table rejects (trial 2: r -> g is not "same") with the crossing still balanced *)
Definition exd_rows_bad_transition : list (list (option nat)) :=
  [[Some 0; Some 0; Some 1; Some 1; Some 0];
   [Some 1; Some 0; Some 1; Some 0; Some 0];
   [Some 1; Some 0; Some 0; Some 1; Some 0];
   [None;   Some 0; Some 0; Some 1; Some 1]].
(* every derived cell right, the crossing unbalanced: (g, same) twice, (g, diff) missing ... *)
Definition exd_rows_bad_crossing : list (list (option nat)) :=
  [[Some 0; Some 0; Some 1; Some 1; Some 1];
   [Some 1; Some 0; Some 1; Some 0; Some 0];
   [Some 1; Some 0; Some 0; Some 1; Some 1];
   [None;   Some 0; Some 1; Some 0; Some 0]].
