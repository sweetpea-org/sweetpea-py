(** [combinations_mismatched_weights] / [sample_mismatch_crossing] of the model
    (Check/Mismatch.v) against clause V5 of the reference semantics
    ([Sem.chunks_ok]).  The real function only looks at combinations that occur
    in the chunk; the equivalence therefore needs the hypothesis that every
    occurring combination is an allowed one (the second conjunct of
    [Sem.chunks_ok]) - see [C17_crossing_clause_refuted] for the witness without it. *)
From Coq Require Import List Bool Arith Lia.
From SP Require Import Base.Lists Design.Flat Design.Layout Check.Mismatch Check.MismatchProofs.
From SP Require Design.Sem.
Import ListNotations.

Notation key := (list (option nat)).

Lemma key_eq_dec : forall a b : key, {a = b} + {a <> b}.
Proof. repeat decide equality. Qed.

Definition full (k : key) : Prop := forall c, In c k -> c <> None.

Lemma full_cons : forall c k, full (c :: k) <-> c <> None /\ full k.
Proof.
  unfold full; simpl; split.
  - intros H; split; [apply H; auto | intros c0 Hc; apply H; auto].
  - intros [H1 H2] c0 [E|Hc]; [subst; auto | auto].
Qed.

Lemma full_map_some : forall c : list nat, full (map Some c).
Proof. intros c x Hx. apply in_map_iff in Hx. destruct Hx as [y [<- _]]. discriminate. Qed.

Lemma map_some_inj : forall a b : list nat, map Some a = map Some b -> a = b.
Proof.
  induction a; destruct b; simpl; intros H; try discriminate; auto.
  injection H as -> H. f_equal. auto.
Qed.

Lemma combo_same_full : forall a b, full a -> (combo_same a b = true <-> a = b).
Proof.
  unfold combo_same. induction a as [|x a IH]; intros b Hf; destruct b as [|y b]; simpl; split; intros H;
    try reflexivity; try discriminate.
  - apply full_cons in Hf. destruct Hf as [Hx Hf].
    apply andb_prop in H. destruct H as [H1 H2].
    destruct x as [x|]; [|congruence]. destruct y as [y|]; simpl in H1; [|discriminate].
    apply Nat.eqb_eq in H1. subst. f_equal. apply IH; auto.
  - injection H as -> ->. apply full_cons in Hf. destruct Hf as [Hx Hf].
    destruct y as [y|]; [|congruence]. simpl. rewrite Nat.eqb_refl. simpl. apply IH; auto.
Qed.

Lemma combo_same_refl : forall a, full a -> combo_same a a = true.
Proof. intros. apply combo_same_full; auto. Qed.

Lemma combo_same_neq : forall a b, full a -> a <> b -> combo_same a b = false.
Proof.
  intros a b Hf Hn. destruct (combo_same a b) eqn:E; auto.
  apply combo_same_full in E; auto. contradiction.
Qed.

Definition cnt (k : key) (keys : list key) : nat := length (filter (combo_same k) keys).

Lemma cnt_app : forall k xs ys, cnt k (xs ++ ys) = cnt k xs + cnt k ys.
Proof. intros. unfold cnt. rewrite filter_app, app_length. reflexivity. Qed.

Lemma cnt_single : forall u k, cnt u [k] = if combo_same u k then 1 else 0.
Proof. intros. unfold cnt. simpl. destruct (combo_same u k); reflexivity. Qed.

Lemma cnt_snoc : forall u pre k, cnt u (pre ++ [k]) = cnt u pre + if combo_same u k then 1 else 0.
Proof. intros. rewrite cnt_app, cnt_single. reflexivity. Qed.

Lemma cnt_notin : forall k keys, full k -> ~ In k keys -> cnt k keys = 0.
Proof.
  intros k keys Hf Hn. unfold cnt. induction keys as [|x xs IH]; simpl; auto.
  destruct (combo_same k x) eqn:E.
  - apply combo_same_full in E; auto. subst. exfalso. apply Hn. left; auto.
  - apply IH. intros H. apply Hn. right; auto.
Qed.

Lemma cnt_in_pos : forall k keys, full k -> In k keys -> 1 <= cnt k keys.
Proof.
  intros k keys Hf Hin. unfold cnt. induction keys as [|x xs IH]; simpl in *; [contradiction|].
  destruct Hin as [E|Hin].
  - subst. rewrite combo_same_refl by auto. simpl. lia.
  - destruct (combo_same k x); simpl; [lia|auto].
Qed.

(** * The [combos] dictionary is the table of occurrence counts *)

Definition table (c : key -> nat) (us : list key) : list (key * nat) := map (fun k => (k, c k)) us.

Lemma combos_add_in : forall (c : key -> nat) k us,
  full k -> (forall u, In u us -> full u) -> NoDup us -> In k us ->
  combos_add k (table c us) = table (fun u => if combo_same u k then S (c u) else c u) us.
Proof.
  intros c k us Hk. induction us as [|u us IH]; intros Hf Hnd Hin; simpl in *; [contradiction|].
  inversion Hnd as [|? ? Hnu Hnd']; subst.
  destruct (combo_same u k) eqn:E.
  - apply combo_same_full in E; [|apply Hf; auto]. subst u.
    f_equal. unfold table. apply map_ext_in. intros v Hv.
    rewrite combo_same_neq; auto. intros ->. contradiction.
  - f_equal. apply IH; auto.
    destruct Hin as [->|Hin]; auto. rewrite combo_same_refl in E by auto. discriminate.
Qed.

Lemma combos_add_notin : forall (c : key -> nat) k us,
  full k -> (forall u, In u us -> full u) -> ~ In k us ->
  combos_add k (table c us) = table c us ++ [(k, 1)].
Proof.
  intros c k us Hk. induction us as [|u us IH]; intros Hf Hn; simpl in *; auto.
  destruct (combo_same u k) eqn:E.
  - apply combo_same_full in E; [|apply Hf; auto]. subst. exfalso. apply Hn. auto.
  - f_equal. apply IH; auto.
Qed.

Definition combos_of (d : list (key * nat)) (keys : list key) : list (key * nat) :=
  fold_left (fun d k => combos_add k d) keys d.

(** [d] is the dictionary after the keys [pre]: each of them once, with the number of its occurrences *)
Definition counts_of (pre : list key) (d : list (key * nat)) : Prop :=
  exists us, NoDup us /\ (forall k, In k us <-> In k pre) /\ d = table (fun k => cnt k pre) us.

Lemma combos_add_counts : forall pre d k, (forall x, In x pre -> full x) -> full k ->
  counts_of pre d -> counts_of (pre ++ [k]) (combos_add k d).
Proof.
  intros pre d k Hpre Hk [us [Hnd [Hiff ->]]].
  assert (Hus : forall u, In u us -> full u) by (intros u Hu; apply Hpre, Hiff, Hu).
  destruct (in_dec key_eq_dec k us) as [Hin|Hnin].
  - exists us. split; [exact Hnd|]. split.
    + intros x. rewrite in_app_iff. simpl. rewrite Hiff. split; auto.
      intros [Hx|[<-|[]]]; auto. apply Hiff; auto.
    + rewrite combos_add_in by auto. unfold table. apply map_ext_in. intros u Hu. f_equal.
      rewrite cnt_snoc. destruct (combo_same u k); lia.
  - exists (us ++ [k]). split; [apply NoDup_snoc; auto|]. split.
    + intros x. rewrite !in_app_iff. simpl. rewrite Hiff. tauto.
    + rewrite combos_add_notin by auto. unfold table. rewrite map_app. simpl. f_equal.
      * apply map_ext_in. intros u Hu. f_equal. rewrite cnt_snoc.
        rewrite combo_same_neq; auto. intros ->. contradiction.
      * rewrite cnt_snoc, cnt_notin, combo_same_refl by (auto; intros Hx; apply Hnin, Hiff; auto).
        reflexivity.
Qed.

Lemma combos_of_counts : forall ks pre d, (forall k, In k (pre ++ ks) -> full k) ->
  counts_of pre d -> counts_of (pre ++ ks) (combos_of d ks).
Proof.
  induction ks as [|k ks IH]; intros pre d Hf H; simpl.
  - rewrite app_nil_r. exact H.
  - replace (pre ++ k :: ks) with ((pre ++ [k]) ++ ks) in * by (rewrite <- app_assoc; reflexivity).
    apply IH; [exact Hf|].
    apply combos_add_counts; auto; intros; apply Hf; rewrite !in_app_iff; simpl; auto.
Qed.

Section Chunk.
Variable want : key -> nat.
Variable or_less : bool.

Definition devf (acc : nat) (kc : key * nat) : nat :=
  let w := want (fst kc) in
  let n := snd kc in
  if w <=? n then acc + (n - w) else if or_less then acc else acc + (w - n).

Definition cond (n w : nat) : Prop := if or_less then n <= w else n = w.

Lemma devf_step : forall acc kc, devf acc kc = 0 <-> acc = 0 /\ cond (snd kc) (want (fst kc)).
Proof.
  intros acc kc. unfold devf, cond.
  destruct (Nat.leb_spec (want (fst kc)) (snd kc)); destruct or_less; lia.
Qed.

Lemma devf_zero : forall combos acc,
  fold_left devf combos acc = 0 <-> acc = 0 /\ forall kc, In kc combos -> cond (snd kc) (want (fst kc)).
Proof.
  induction combos as [|kc r IH]; intros acc; simpl.
  - split; [intros; split; auto; intros ? [] | intros [H _]; auto].
  - rewrite IH, devf_step. split.
    + intros [[H1 H2] H3]. split; auto. intros kc0 [<-|H]; auto.
    + intros [H1 H2]. split; [split|]; auto.
Qed.

Lemma model_chunk_zero : forall keys,
  (forall k, In k keys -> full k) ->
  (fold_left devf (combos_of [] keys) 0 = 0 <-> forall k, In k keys -> cond (cnt k keys) (want k)).
Proof.
  intros keys Hf.
  destruct (combos_of_counts keys [] [] Hf) as [us [Hnd [Hin E]]].
  { exists []. split; [constructor|]. split; [tauto | reflexivity]. }
  simpl in E, Hin. rewrite E, devf_zero. split.
  - intros [_ H] k Hk. apply (H (k, cnt k keys)). unfold table. apply in_map_iff. exists k. split; auto. apply Hin; auto.
  - intros H. split; auto. intros kc Hkc. unfold table in Hkc. apply in_map_iff in Hkc.
    destruct Hkc as [k [<- Hk]]. simpl. apply H. apply Hin; auto.
Qed.

Lemma sum_indicator : forall (cs : list key) k,
  (forall c, In c cs -> full c) -> NoDup cs -> In k cs ->
  list_sum (map (fun c => if combo_same c k then 1 else 0) cs) = 1.
Proof.
  intros cs k Hf Hnd Hin. transitivity (count_occ key_eq_dec cs k); [| apply NoDup_count_occ'; assumption].
  clear Hnd Hin. induction cs as [|c cs IH]; simpl; [reflexivity|].
  rewrite IH by (intros; apply Hf; right; assumption).
  destruct (key_eq_dec c k) as [->|Hne].
  - rewrite combo_same_refl by (apply Hf; left; reflexivity). reflexivity.
  - rewrite combo_same_neq by (auto; apply Hf; left; reflexivity). reflexivity.
Qed.

Lemma partition_count : forall (cs : list key) keys,
  (forall c, In c cs -> full c) -> NoDup cs -> (forall k, In k keys -> In k cs) ->
  list_sum (map (fun c => cnt c keys) cs) = length keys.
Proof.
  intros cs keys Hf Hnd. induction keys as [|k keys IH]; intros Hin.
  - unfold cnt. simpl. clear. induction cs; simpl; auto.
  - simpl.
    assert (E : map (fun c => cnt c (k :: keys)) cs
                = map (fun c => (if combo_same c k then 1 else 0) + cnt c keys) cs).
    { apply map_ext. intros c. change (k :: keys) with ([k] ++ keys). rewrite cnt_app, cnt_single. reflexivity. }
    rewrite E.
    assert (S : forall (f g : key -> nat) xs, list_sum (map (fun c => f c + g c) xs) = list_sum (map f xs) + list_sum (map g xs)).
    { induction xs; simpl; auto. rewrite IHxs. lia. }
    rewrite S. rewrite sum_indicator; auto.
    + rewrite IH; auto. intros; apply Hin; right; auto.
    + apply Hin; left; auto.
Qed.

Theorem chunk_clause_iff : forall (keys : list key) (mult : list (list nat * nat)),
  NoDup (map fst mult) ->
  (forall cm, In cm mult -> snd cm = want (map Some (fst cm))) ->
  (forall k, In k keys -> exists cm, In cm mult /\ k = map Some (fst cm)) ->
  (or_less = false -> list_sum (map snd mult) = length keys) ->
  (fold_left devf (combos_of [] keys) 0 = 0
   <-> forall cm, In cm mult -> cond (cnt (map Some (fst cm)) keys) (snd cm)).
Proof.
  intros keys mult Hnd Hw H1 H4.
  assert (Hfull : forall k, In k keys -> full k).
  { intros k Hk. destruct (H1 k Hk) as [cm [_ ->]]. apply full_map_some. }
  rewrite model_chunk_zero by auto. split.
  - intros Hm.
    (* an allowed combination occurs at most as often as wanted: not at all, or by [Hm] *)
    assert (Hle : forall cm, In cm mult -> cnt (map Some (fst cm)) keys <= snd cm).
    { intros cm Hcm. destruct (in_dec key_eq_dec (map Some (fst cm)) keys) as [Hin|Hnin].
      - specialize (Hm _ Hin). unfold cond in Hm. rewrite (Hw cm Hcm). destruct or_less; lia.
      - rewrite cnt_notin; auto using full_map_some. lia. }
    destruct or_less eqn:EO.
    + intros cm Hcm. unfold cond. rewrite EO. apply Hle, Hcm.
    + (* full chunk: the counts add up to the chunk length, as the wanted numbers do *)
      set (cs := map (fun cm => map Some (fst cm)) mult).
      assert (Hcs_full : forall c, In c cs -> full c).
      { intros c Hc. apply in_map_iff in Hc. destruct Hc as [cm [<- _]]. apply full_map_some. }
      assert (Hcs_nd : NoDup cs).
      { unfold cs. rewrite <- (map_map fst (map Some)).
        apply NoDup_map_inj_in; auto. intros a b _ _. apply map_some_inj. }
      assert (Hcover : forall k, In k keys -> In k cs).
      { intros k Hk. destruct (H1 k Hk) as [cm [Hcm ->]]. unfold cs. apply in_map_iff. exists cm; auto. }
      assert (Hsum : list_sum (map (fun cm => cnt (map Some (fst cm)) keys) mult) = list_sum (map snd mult)).
      { rewrite H4 by auto. rewrite <- (partition_count cs keys Hcs_full Hcs_nd Hcover).
        unfold cs. rewrite map_map. reflexivity. }
      intros cm Hcm. unfold cond. rewrite EO.
      apply (list_sum_eq_pointwise (fun cm => cnt (map Some (fst cm)) keys) snd mult Hle Hsum cm Hcm).
  - intros Hs k Hk. destruct (H1 k Hk) as [cm [Hcm ->]]. rewrite <- (Hw cm Hcm). apply Hs; auto.
Qed.

End Chunk.

Lemma combo_eqb_same : forall c k, Sem.combo_eqb c k = combo_same (map Some c) k.
Proof.
  unfold Sem.combo_eqb, combo_same. induction c as [|x c IH]; destruct k as [|y k]; simpl; auto.
  rewrite IH. destruct y; reflexivity.
Qed.

Definition rows_agree (s : cand) (s' : Sem.tseq) (fs fs' : list nat) : Prop :=
  Forall2 (fun f f' => row_of s f = Ok (nth f' s' ([] : list Sem.cell))) fs fs'.

Lemma keys_ok : forall s (s' : Sem.tseq) fs fs' a b,
  rows_agree s s' fs fs' ->
  (forall f', In f' fs' -> b <= length (nth f' s' ([] : list Sem.cell))) ->
  map_res (fun t => map_res (fun f => row <- row_of s f ;; get row t) fs) (seq a (b - a))
  = Ok (map (Sem.combo_at s' fs') (seq a (b - a))).
Proof.
  intros s s' fs fs' a b Hrows Hlen.
  apply map_res_ok. intros t Ht. apply in_seq in Ht.
  unfold Sem.combo_at. induction Hrows as [|f f' fs fs' Hr Hrs IH]; simpl; auto.
  rewrite Hr. simpl. unfold Sem.cell in *.
  rewrite get_nth by (specialize (Hlen f' (or_introl eq_refl)); lia). simpl.
  rewrite IH; auto. intros; apply Hlen; right; auto.
Qed.

Theorem mismatched_weights_sem : forall fb s fs (s' : Sem.tseq) fs' a b weight or_less mult,
  rows_agree s s' fs fs' ->
  (forall f', In f' fs' -> b <= length (nth f' s' ([] : list Sem.cell))) ->
  NoDup (map fst mult) ->
  (forall cm, In cm mult -> snd cm = combo_weight fb fs (map Some (fst cm)) * weight) ->
  exists n, mismatched_weights fb s fs a b weight or_less = Ok n /\
    (forallb (fun t => existsb (fun cm => Sem.combo_eqb (fst cm) (Sem.combo_at s' fs' t)) mult) (seq a (b - a)) = true ->
     (or_less = false -> list_sum (map snd mult) = b - a) ->
     (n = 0 <-> forallb (fun cm => let c := Sem.count_combo s' fs' (fst cm) a b in
                                   if or_less then c <=? snd cm else c =? snd cm) mult = true)).
Proof.
  intros fb s fs s' fs' a b weight or_less mult Hrows Hlen Hnd Hw.
  unfold mismatched_weights. rewrite (keys_ok _ _ _ _ _ _ Hrows Hlen). simpl.
  set (keys := map (Sem.combo_at s' fs') (seq a (b - a))).
  set (want := fun k : key => combo_weight fb fs k * weight).
  exists (fold_left (devf want or_less) (combos_of [] keys) 0). split; [reflexivity|]. intros H1 H4.
  assert (Hcnt : forall c, Sem.count_combo s' fs' c a b = cnt (map Some c) keys).
  { intros c. unfold Sem.count_combo, cnt, keys. rewrite filter_map_comm, map_length.
    f_equal. apply filter_ext. intros t. apply combo_eqb_same. }
  rewrite (chunk_clause_iff want or_less keys mult Hnd Hw).
  - rewrite forallb_forall. unfold cond. split.
    + intros H cm Hcm. specialize (H cm Hcm). cbv zeta. rewrite Hcnt.
      destruct or_less; [apply Nat.leb_le | apply Nat.eqb_eq]; auto.
    + intros H cm Hcm. specialize (H cm Hcm). cbv zeta in H. rewrite Hcnt in H.
      destruct or_less; [apply Nat.leb_le | apply Nat.eqb_eq]; auto.
  - intros k Hk. unfold keys in Hk. apply in_map_iff in Hk. destruct Hk as [t [<- Ht]].
    rewrite forallb_forall in H1. specialize (H1 t Ht). apply existsb_exists in H1.
    destruct H1 as [cm [Hcm E]]. exists cm. split; auto.
    rewrite combo_eqb_same in E. apply combo_same_full in E; [auto | apply full_map_some].
  - intros EO. unfold keys. rewrite map_length, seq_length. auto.
Qed.

(** one round of the chunk loop, with the chunk end and the full/partial flag written as [Sem.chunks_ok] writes them *)
Lemma chunk_loop_step : forall fb fuel s fs size weight start, start < fl_trials fb ->
  chunk_loop fb (S fuel) s fs size weight start
  = (bad <- mismatched_weights fb s fs start (Nat.min (start + size) (fl_trials fb)) weight
              (negb (start + size <=? fl_trials fb)) ;;
     rest <- chunk_loop fb fuel s fs size weight (start + size) ;; Ok (bad + rest)).
Proof.
  intros fb fuel s fs size weight start H. simpl. unfold T.
  replace (fl_trials fb <=? start) with false by (symmetry; apply Nat.leb_gt, H).
  rewrite Nat.ltb_antisym. destruct (Nat.leb_spec (start + size) (fl_trials fb)); simpl.
  - rewrite Nat.min_l by assumption. reflexivity.
  - rewrite Nat.min_r by lia. reflexivity.
Qed.

Theorem chunk_loop_sem : forall fb s fs (s' : Sem.tseq) fs' size weight mult S first,
  rows_agree s s' fs fs' ->
  (forall f', In f' fs' -> fl_trials fb <= length (nth f' s' ([] : list Sem.cell))) ->
  NoDup (map fst mult) ->
  (forall cm, In cm mult -> snd cm = combo_weight fb fs (map Some (fst cm)) * weight) ->
  list_sum (map snd mult) = size -> 1 <= size ->
  Sem.s_trials S = fl_trials fb ->
  forall fuel start, first <= start -> fl_trials fb - start < fuel ->
  exists n, chunk_loop fb fuel s fs size weight start = Ok n /\
    ((forall t, first <= t < fl_trials fb ->
                existsb (fun cm => Sem.combo_eqb (fst cm) (Sem.combo_at s' fs' t)) mult = true) ->
     (n = 0 <-> Sem.chunks_ok fuel S s'
                  {| Sem.c_factors := fs'; Sem.c_first := first; Sem.c_chunk := size; Sem.c_mult := mult |}
                  start = true)).
Proof.
  intros fb s fs s' fs' size weight mult S first Hrows Hlen Hnd Hw Hsum Hsize HT.
  induction fuel as [|fuel IH]; intros start Hfirst Hfuel; [lia|].
  destruct (Nat.leb_spec (fl_trials fb) start) as [ET|ET].
  - exists 0. simpl. unfold T. rewrite HT. replace (fl_trials fb <=? start) with true by (symmetry; apply Nat.leb_le, ET).
    split; [reflexivity | tauto].
  - rewrite chunk_loop_step by exact ET. cbn [Sem.chunks_ok Sem.c_chunk Sem.c_mult Sem.c_factors]. rewrite HT.
    replace (fl_trials fb <=? start) with false by (symmetry; apply Nat.leb_gt, ET).
    set (e' := Nat.min (start + size) (fl_trials fb)). set (full := start + size <=? fl_trials fb).
    destruct (mismatched_weights_sem fb s fs s' fs' start e' weight (negb full) mult) as [bad [Hbad Hbz]]; auto.
    { intros f' Hf'. specialize (Hlen f' Hf'). lia. }
    destruct (IH (start + size)) as [rest [Hrest Hrz]]; [lia | lia |].
    rewrite Hbad, Hrest. exists (bad + rest). split; [reflexivity|]. intros H1.
    assert (H1c : forallb (fun t => existsb (fun cm => Sem.combo_eqb (fst cm) (Sem.combo_at s' fs' t)) mult)
                          (seq start (e' - start)) = true).
    { apply forallb_forall. intros t Ht. apply in_seq in Ht. apply H1. lia. }
    rewrite H1c, andb_true_r, andb_true_iff, <- (Hrz H1).
    (* the two sides write the flag with opposite polarity *)
    assert (Hb : bad = 0 <->
       forallb (fun cm => let n := Sem.count_combo s' fs' (fst cm) start e' in
                          if full then n =? snd cm else n <=? snd cm) mult = true).
    { rewrite (Hbz H1c); [destruct full; simpl; tauto|].
      intros EO. apply negb_false_iff, Nat.leb_le in EO. lia. }
    rewrite <- Hb. lia.
Qed.

(** * Without the hypothesis that every occurring combination is allowed the
      crossing clause alone is refuted: allowed {A, B} once each, the chunk
      holds A and an excluded C; the model (like the real
      [sample_mismatch_crossing], which returns [[]] on
      CrossBlock([f(a,b,c), g], [f], [Exclude(f, c)], False), f = [a, c])
      counts no mismatch, the reference clause does (B is missing). *)

Definition refute_fb : flat :=
  {| fl_design := [ {| ff_name := String.EmptyString; ff_hidden := false;
                       ff_levels := [ {| lv_name := String.EmptyString; lv_weight := 1; lv_accepts := [] |};
                                      {| lv_name := String.EmptyString; lv_weight := 1; lv_accepts := [] |};
                                      {| lv_name := String.EmptyString; lv_weight := 1; lv_accepts := [] |} ];
                       ff_window := None; ff_complex := false |} ];
     fl_act := [0]; fl_crossings := [[0]]; fl_sustains := [1]; fl_weights := [1]; fl_sizes := [2];
     fl_preambles := [0]; fl_alignment := EqualPreamble; fl_alignment_preamble := 0; fl_min_trials := 0;
     fl_trials := 2; fl_rcc := false; fl_exclude := [(0, 2)]; fl_excluded_derived := [];
     fl_constraints := [FCross; FConsistency; FExclude 0 2]; fl_errors_fail := false |}.

Definition refute_s : cand := [(0, [Some 0; Some 2])].
Definition refute_sem : Sem.sem :=
  {| Sem.s_trials := 2; Sem.s_factors := [ {| Sem.f_nlevels := 3; Sem.f_sustain := 1; Sem.f_derived := None |} ];
     Sem.s_crossings := [ {| Sem.c_factors := [0]; Sem.c_first := 0; Sem.c_chunk := 2; Sem.c_mult := [([0], 1); ([1], 1)] |} ];
     Sem.s_constraints := [] |}.
