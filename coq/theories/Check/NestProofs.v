(** Sustain counts (Nest / Repeat of blocks without derived factors): the
    fragment [nfrag], its reading [code_sem_n] with [Pin] and [Sequential] over
    trial groups, clause V4 of the reference semantics on the rows, and [frag]
    as the part of [nfrag] whose counts are all 1. *)
From Coq Require Import List Bool Arith Lia.
From SP Require Import Base.Lists Design.Flat Design.Layout Check.Mismatch Check.MismatchProofs Check.CrossingProofs
                       Check.FragmentProofs.
From SP Require Design.Sem.
Import ListNotations.

Definition csem_n (fb : flat) (c : fconstraint) : list Sem.dconstraint :=
  match c with
  | FAtMost k f l wb => mk_c (Sem.KAtMost k) f l (rng fb wb)
  | FAtLeast k f l wb => mk_c (Sem.KAtLeast k) f l (rng fb wb)
  | FExactlyK k f l wb => mk_c (Sem.KExactlyK k) f l (rng fb wb)
  | FExactlyKInARow k f l wb => mk_c (Sem.KExactlyInARow k) f l (rng fb wb)
  | FExclude f l => mk_c Sem.KExclude f l []
  | FPin i f l wb => mk_c (Sem.KPin i (geometry_sustain fb wb f)) f l (rng fb wb)
  | FSequential f =>
    mk_c (Sem.KSequential (match factor_preamble fb f with Ok p => p | Err _ => 0 end) (su_of fb f)) f 0 []
  | _ => []
  end.

Definition code_sem_n (fb : flat) : Sem.sem :=
  {| Sem.s_trials := fl_trials fb;
     Sem.s_factors := map (fun p : nat * ffactor =>
                             {| Sem.f_nlevels := length (ff_levels (snd p)); Sem.f_sustain := su_of fb (fst p);
                                Sem.f_derived := None |})
                          (combine (seq 0 (length (fl_design fb))) (fl_design fb));
     Sem.s_crossings := map (crossing_sem fb) (combine (seq 0 (length (fl_crossings fb))) (fl_crossings fb));
     Sem.s_constraints := flat_map (csem_n fb) (fl_constraints fb) |}.

Definition cfrag_n (fb : flat) (c : fconstraint) : bool :=
  let n := length (fl_design fb) in
  match c with
  | FCross | FConsistency | FSustain | FReify _ | FMinimumTrials _ | FContinuous => true
  | FAtMost _ f _ wb | FAtLeast _ f _ wb | FExactlyK _ f _ wb | FExactlyKInARow _ f _ wb => (f <? n) && ranges_ok fb wb
  | FExclude f _ => (f <? n) && negb (in_crossing fb f)
  | FPin i f _ wb =>
    (f <? n) && ranges_ok fb wb && (1 <=? geometry_sustain fb wb f) &&
    match get_trial_numbers fb f i wb with
    | Some tn => forallb (fun t => t <? fl_trials fb) tn
    | None => false
    end
  | FSequential f =>
    (f <? n) && match factor_preamble fb f with Ok p => p mod su_of fb f =? 0 | Err _ => false end
  | _ => false
  end.

Definition is_sustain (c : fconstraint) : bool := match c with FSustain => true | _ => false end.

(** like [frag], with sustain counts: every count divides the trial count, and
    the [Sustain] constraint is present as soon as one count is not 1 (as
    [_create] guarantees) *)
Definition nfrag (fb : flat) : bool :=
  forallb (fun fd => negb (ff_hidden fd) && match ff_window fd with None => true | Some _ => false end
                     && (1 <=? length (ff_levels fd))) (fl_design fb)
  && forallb (fun su => (1 <=? su) && (fl_trials fb mod su =? 0)) (fl_sustains fb)
  && (forallb (fun su => su =? 1) (fl_sustains fb) || existsb is_sustain (fl_constraints fb))
  && forallb (cfrag_n fb) (fl_constraints fb)
  && forallb (xfrag fb) (combine (seq 0 (length (fl_crossings fb))) (fl_crossings fb)).

(** clause V4 on the rows: within a sustain group all cells of a factor are equal *)
Definition V4 (fb : flat) (rows : list (list (option nat))) : Prop :=
  forall f, f < length rows -> forall t, t < fl_trials fb ->
    nth ((t / su_of fb f) * su_of fb f) (nth f rows []) None = nth t (nth f rows []) None.

Lemma nfrag_design : forall fb f fd, nfrag fb = true -> nth_error (fl_design fb) f = Some fd ->
  ff_hidden fd = false /\ ff_window fd = None /\ 1 <= length (ff_levels fd).
Proof.
  intros fb f fd H. unfold nfrag in H. rewrite !andb_true_iff in H. apply plain_design, H.
Qed.

Lemma V4_all_one : forall fb rows, (forall f, su_of fb f = 1) -> V4 fb rows.
Proof. intros fb rows H f Hf t Ht. rewrite H, Nat.div_1_r, Nat.mul_1_r. reflexivity. Qed.

Lemma cfrag_cfrag_n : forall fb c, (forall f, su_of fb f = 1) -> cfrag fb c = true -> cfrag_n fb c = true.
Proof.
  intros fb c Hsu Hc. destruct c; simpl in *; try exact Hc.
  - (* Pin: its trials lie inside their windows *)
    rewrite !andb_true_iff in Hc. destruct Hc as [[Hf Hr] Hg]. apply Nat.eqb_eq in Hg.
    rewrite Hf, Hr, Hg. simpl. unfold ranges_ok in Hr.
    destruct (map_block_trial_ranges fb wb) as [ranges|] eqn:ER; [|discriminate].
    rewrite (get_trial_numbers_spec _ _ _ _ _ ER), Hg. apply forallb_forall. intros t Ht.
    apply Nat.ltb_lt, (pin_trials_within fb wb ranges _ t ER Ht).
  - rewrite Hsu. destruct (factor_preamble fb f); [|exact Hc]. rewrite Nat.mod_1_r. exact Hc.
Qed.

Lemma frag_su : forall fb f, frag fb = true -> su_of fb f = 1.
Proof.
  intros fb f H. apply sustain_of_one. unfold frag in H. rewrite !andb_true_iff in H. tauto.
Qed.

Lemma frag_nfrag : forall fb, frag fb = true -> nfrag fb = true.
Proof.
  intros fb H. pose proof (fun f => frag_su fb f H) as Hsu.
  unfold frag in H. rewrite !andb_true_iff in H. destruct H as [[[H1 H2] H3] H4].
  unfold nfrag. rewrite H1, H2, H4, !andb_true_iff. repeat split.
  - apply forallb_forall. intros n Hn. rewrite forallb_forall in H2. rewrite (proj1 (Nat.eqb_eq n 1) (H2 n Hn)).
    rewrite Nat.mod_1_r. reflexivity.
  - apply forallb_forall. intros c Hc. rewrite forallb_forall in H3. apply cfrag_cfrag_n; auto.
Qed.

Lemma frag_code_sem_n : forall fb, frag fb = true -> code_sem_n fb = code_sem fb.
Proof.
  intros fb H. pose proof (fun f => frag_su fb f H) as Hsu.
  unfold code_sem_n, code_sem. f_equal.
  - rewrite <- (map_snd_combine (seq 0 (length (fl_design fb))) (fl_design fb) (seq_length _ _)) at 3.
    rewrite map_map. apply map_ext. intros p. rewrite Hsu. reflexivity.
  - unfold frag in H. rewrite !andb_true_iff in H. destruct H as [[_ H3] _]. rewrite forallb_forall in H3.
    rewrite !flat_map_concat_map. f_equal. apply map_ext_in. intros c Hc. specialize (H3 c Hc).
    destruct c; try reflexivity; simpl in *.
    + rewrite !andb_true_iff in H3. destruct H3 as [_ Hg]. apply Nat.eqb_eq in Hg. rewrite Hg. reflexivity.
    + rewrite Hsu. reflexivity.
Qed.

(** * The design of the known finding, as the real constructors flatten it:
      Nest(CrossBlock([s],[s],[Sequential(s)]), CrossBlock([A],[A],[])) with
      |s| = 3, |A| = 2: 6 trials, s sustained over 2 trials. *)
Definition nest_fb : flat :=
  {| fl_design := [ex_factor [1; 1; 1]; ex_factor [1; 1]];
     fl_act := [0; 1]; fl_crossings := [[0]; [1]]; fl_sustains := [2; 1]; fl_weights := [1; 1]; fl_sizes := [6; 2];
     fl_preambles := [0; 0]; fl_alignment := EqualPreamble; fl_alignment_preamble := 0; fl_min_trials := 0;
     fl_trials := 6; fl_rcc := true; fl_exclude := []; fl_excluded_derived := [];
     fl_constraints := [FCross; FConsistency; FSequential 0; FSustain];
     fl_errors_fail := false |}.

Definition nest_rows_valid : list (list (option nat)) :=
  [[Some 0; Some 0; Some 1; Some 1; Some 2; Some 2];
   [Some 1; Some 0; Some 0; Some 1; Some 1; Some 0]].
(* the sequence the pre-6ff33e3 checker demanded: levels by trial, not by trial group *)
Definition nest_rows_by_trial : list (list (option nat)) :=
  [[Some 0; Some 0; Some 2; Some 2; Some 1; Some 1];
   [Some 1; Some 0; Some 0; Some 1; Some 1; Some 0]].
Definition nest_rows_unsustained : list (list (option nat)) :=
  [[Some 0; Some 1; Some 1; Some 1; Some 2; Some 2];
   [Some 1; Some 0; Some 0; Some 1; Some 1; Some 0]].
