(** Proofs about the mismatch-checker model (Check/Mismatch.v): each
    [potential_sample_conforms] computes the corresponding clause of the
    reference semantics (Design/Sem.v) on the same row and the same windows. *)
From Coq Require Import ZArith List Bool Arith Lia.
From SP Require Import Base.Lists Design.Flat Design.Layout Check.Mismatch.
From SP Require Design.Sem.
Import ListNotations.

Lemma map_res_ok : forall {A B} (f : A -> res B) (g : A -> B) xs,
  (forall x, In x xs -> f x = Ok (g x)) -> map_res f xs = Ok (map g xs).
Proof.
  induction xs as [|x xs IH]; intros H; simpl; auto.
  rewrite (H x (or_introl eq_refl)). simpl. rewrite IH; auto.
  intros y Hy. apply H. right; auto.
Qed.

Lemma all_res_ok : forall {A} (f : A -> res bool) (g : A -> bool) xs,
  (forall x, In x xs -> f x = Ok (g x)) -> all_res f xs = Ok (forallb g xs).
Proof.
  induction xs as [|x xs IH]; intros H; simpl; auto.
  rewrite (H x (or_introl eq_refl)).
  destruct (g x); simpl; auto. apply IH. intros y Hy. apply H. right; auto.
Qed.

Lemma map_res_forall2 : forall {A B} (f : A -> res B) (P : A -> B -> Prop) xs,
  (forall x, In x xs -> exists y, f x = Ok y /\ P x y) -> exists ys, map_res f xs = Ok ys /\ Forall2 P xs ys.
Proof.
  induction xs as [|x xs IH]; intros H; simpl.
  - exists []. auto.
  - destruct (H x (or_introl eq_refl)) as [y [Hy Py]]. rewrite Hy. simpl.
    destruct IH as [ys [Hys Pys]]; [intros; apply H; right; auto|].
    rewrite Hys. simpl. exists (y :: ys). auto.
Qed.

Lemma cell_is_eqb : forall l c, cell_is l c = Sem.cell_eqb c (Some l).
Proof. intros l [x|]; reflexivity. Qed.

Lemma get_nth : forall row i, i < length row -> get row i = Ok (nth i row None).
Proof.
  intros row i H. unfold get.
  destruct (nth_error row i) eqn:E.
  - f_equal. symmetry. apply nth_error_nth. exact E.
  - apply nth_error_None in E. lia.
Qed.

Lemma get_err : forall row i, length row <= i -> get row i = Err EIndex.
Proof.
  intros row i H. unfold get. destruct (nth_error row i) eqn:E; auto.
  assert (i < length row) by (apply nth_error_Some; congruence). lia.
Qed.

Lemma firstn_skipn_nth : forall {A} (d : A) (xs : list A) a n,
  a + n <= length xs -> firstn n (skipn a xs) = map (fun i => nth i xs d) (seq a n).
Proof. intros A d xs a n H. rewrite <- (map_nth_seq xs d) at 1. apply firstn_skipn_map_seq, H. Qed.

Lemma slice_res_slice : forall row a b,
  b <= length row -> slice_res row a b = Ok (Sem.slice row a b).
Proof.
  intros row a b H. unfold slice_res, Sem.slice.
  destruct (le_lt_dec a b) as [Hab|Hab].
  - rewrite (@firstn_skipn_nth (option nat) None row a (b - a)) by lia.
    apply map_res_ok. intros i Hi. apply in_seq in Hi. apply get_nth. lia.
  - replace (b - a) with 0 by lia. reflexivity.
Qed.

Lemma counts_loop_runs_aux : forall l cells cur,
  counts_loop l cells cur = Sem.runs_aux l cells cur.
Proof.
  induction cells as [|c rest IH]; intros cur; simpl.
  - destruct cur; reflexivity.
  - rewrite <- cell_is_eqb. destruct (cell_is l c); simpl.
    + rewrite andb_false_r. apply IH.
    + rewrite andb_true_r. destruct cur; simpl; rewrite IH; reflexivity.
Qed.

Theorem counts_runs : forall l cells, counts l cells = Sem.runs l cells.
Proof. intros. apply counts_loop_runs_aux. Qed.

Lemma sum_runs_aux : forall l cells cur acc,
  fold_left Nat.add (Sem.runs_aux l cells cur) acc = acc + cur + Sem.count_level l cells.
Proof.
  induction cells as [|c rest IH]; intros cur acc; simpl.
  - unfold Sem.count_level; simpl. destruct cur; simpl; lia.
  - unfold Sem.count_level in *; simpl.
    destruct (Sem.cell_eqb c (Some l)); simpl.
    + rewrite IH. lia.
    + destruct cur; simpl; rewrite IH; lia.
Qed.

Lemma sum_runs : forall l cells, fold_left Nat.add (Sem.runs l cells) 0 = Sem.count_level l cells.
Proof. intros. unfold Sem.runs. rewrite sum_runs_aux. lia. Qed.

(** * [map_block_trial_ranges]: every window ends within the trials (since /repo 2f184ec) *)

Lemma ranges_loop_snd : forall fb fuel start e step stop r,
  In r (ranges_loop fb fuel start e step stop) -> snd r <= fl_trials fb.
Proof.
  induction fuel as [|fuel IH]; intros start e step stop r H; simpl in H.
  - contradiction.
  - destruct (start <? stop); [|contradiction].
    destruct H as [H|H].
    + subst r. simpl. unfold trials. apply Nat.le_min_r.
    + eapply IH; eauto.
Qed.

Local Opaque ranges_loop.
Lemma ranges_within_trials : forall fb wb ranges r,
  map_block_trial_ranges fb wb = Some ranges -> In r ranges -> snd r <= fl_trials fb.
Proof.
  intros fb wb ranges r H Hin. unfold map_block_trial_ranges in H.
  (* every successful branch returns the list of one [ranges_loop] *)
  assert (G : forall fuel start e step stop,
            Some (ranges_loop fb fuel start e step stop) = Some ranges -> snd r <= fl_trials fb).
  { intros fuel start e step stop [= <-]. exact (ranges_loop_snd _ _ _ _ _ _ _ Hin). }
  destruct wb as [g|]; [|exact (G _ _ _ _ _ H)].
  destruct ((g_trials g <=? g_preamble g) && (0 <? trials fb - g_preamble g)); [discriminate|].
  destruct (fl_alignment fb); [destruct (post_preamble_size fb <? g_preamble g); [discriminate|] | |];
    exact (G _ _ _ _ _ H).
Qed.
Local Transparent ranges_loop.

Definition sem_kind (kind : rowkind) (k : nat) : option Sem.ckind :=
  match kind with
  | RAtMost => Some (Sem.KAtMost k)
  | RAtLeast => Some (Sem.KAtLeast k)
  | RExactlyK => Some (Sem.KExactlyK k)
  | RExactlyRow => Some (Sem.KExactlyInARow k)
  | RMultiple => None
  end.

Definition win_ok (ck : Sem.ckind) (l : nat) (cells : list Sem.cell) : bool :=
  match ck with
  | Sem.KAtMost k => forallb (fun n => n <=? k) (Sem.runs l cells)
  | Sem.KAtLeast k => forallb (fun n => k <=? n) (Sem.runs l cells)
  | Sem.KExactlyInARow k => forallb (fun n => n =? k) (Sem.runs l cells)
  | Sem.KExactlyK k => Sem.count_level l cells =? k
  | _ => true
  end.

Lemma counts_conform_sem : forall kind k ck l cells, sem_kind kind k = Some ck ->
  counts_conform kind k (counts l cells) = Ok (win_ok ck l cells).
Proof.
  intros kind k ck l cells Hk. rewrite counts_runs.
  destruct kind; inversion Hk; simpl; rewrite ?sum_runs; reflexivity.
Qed.

Theorem kinarow_conforms_sem : forall fb s kind k f l wb row ranges ck S (s' : Sem.tseq) f',
  row_of s f = Ok row ->
  length row = fl_trials fb ->
  map_block_trial_ranges fb wb = Some ranges ->
  sem_kind kind k = Some ck ->
  nth f' s' ([] : list Sem.cell) = row ->
  kinarow_conforms fb s kind k f l wb
  = Ok (Sem.constraint_ok S s' {| Sem.k_kind := ck; Sem.k_factor := f'; Sem.k_level := l; Sem.k_windows := ranges |}).
Proof.
  intros fb s kind k f l wb row ranges ck S s' f' Hrow Hlen Hr Hk Hnth.
  unfold kinarow_conforms. rewrite Hrow. simpl. rewrite Hr.
  rewrite (map_res_ok _ (fun w => win_ok ck l (Sem.slice row (fst w) (snd w)))).
  - simpl. rewrite forallb_map. unfold Sem.constraint_ok. simpl. rewrite Hnth.
    destruct kind; inversion Hk; reflexivity.
  - intros r Hin. rewrite slice_res_slice by (rewrite Hlen; eapply ranges_within_trials; eauto).
    simpl. apply counts_conform_sem, Hk.
Qed.

Lemma existsb_count_level : forall l row,
  negb (existsb (cell_is l) row) = (Sem.count_level l row =? 0).
Proof.
  intros l row. unfold Sem.count_level.
  induction row as [|c rest IH]; simpl; auto.
  rewrite cell_is_eqb. destruct (Sem.cell_eqb c (Some l)); simpl; auto.
Qed.

Theorem exclude_conforms_sem : forall s f l row S (s' : Sem.tseq) f' ws,
  row_of s f = Ok row -> nth f' s' ([] : list Sem.cell) = row ->
  exclude_conforms s f l
  = Ok (Sem.constraint_ok S s' {| Sem.k_kind := Sem.KExclude; Sem.k_factor := f'; Sem.k_level := l; Sem.k_windows := ws |}).
Proof.
  intros. unfold exclude_conforms. rewrite H. simpl. unfold Sem.constraint_ok. simpl.
  rewrite H0. rewrite existsb_count_level. reflexivity.
Qed.

Definition pin_pos (i : Z) (su : nat) (w : nat * nat) : Z :=
  (if 0 <=? i then Z.of_nat (fst w) + i * Z.of_nat su else Z.of_nat (snd w) + i * Z.of_nat su)%Z.

Definition pin_in (i : Z) (su : nat) (w : nat * nat) : bool :=
  Sem.in_range (pin_pos i su w) (Z.of_nat (fst w)) (Z.of_nat (snd w)).

Definition pin_trials (i : Z) (su : nat) (w : nat * nat) : list nat :=
  if pin_in i su w then map (fun j => Z.to_nat (pin_pos i su w) + j) (seq 0 su) else [].

Lemma get_trial_numbers_spec : forall fb f i wb ranges,
  map_block_trial_ranges fb wb = Some ranges ->
  get_trial_numbers fb f i wb = Some (flat_map (pin_trials i (geometry_sustain fb wb f)) ranges).
Proof.
  intros fb f i wb ranges H. unfold get_trial_numbers. rewrite H. simpl. f_equal.
  apply flat_map_ext. intros r. unfold pin_trials, pin_in, pin_pos, Sem.in_range.
  destruct (Z.ltb_spec i 0); destruct (Z.leb_spec 0 i); try lia;
    rewrite (Z.mul_comm (Z.of_nat (geometry_sustain fb wb f)) i); reflexivity.
Qed.

Definition nonempty_all (g : nat -> bool) (tn : list nat) : bool :=
  match tn with [] => false | _ :: _ => forallb g tn end.

Lemma pin_trials_bound : forall i w t, In t (pin_trials i 1 w) -> t < snd w.
Proof.
  intros i w t H. unfold pin_trials in H. destruct (pin_in i 1 w) eqn:E; [|contradiction].
  simpl in H. destruct H as [<-|[]].
  unfold pin_in, Sem.in_range in E. apply andb_prop in E. destruct E as [E1 E2].
  apply Z.leb_le in E1. apply Z.ltb_lt in E2. lia.
Qed.

Lemma pin_trials_within : forall fb wb ranges i t, map_block_trial_ranges fb wb = Some ranges ->
  In t (flat_map (pin_trials i 1) ranges) -> t < fl_trials fb.
Proof.
  intros fb wb ranges i t ER Ht. apply in_flat_map in Ht. destruct Ht as [w [Hw Ht]].
  apply pin_trials_bound in Ht. pose proof (ranges_within_trials _ _ _ _ ER Hw). lia.
Qed.

Lemma nonempty_all_app : forall g xs ys, xs <> [] -> nonempty_all g (xs ++ ys) = forallb g (xs ++ ys).
Proof. intros g [|x xs] ys H; [congruence|reflexivity]. Qed.

Lemma pin_bool : forall (g : nat -> bool) i su ws, 1 <= su ->
  nonempty_all g (flat_map (pin_trials i su) ws)
  = existsb (pin_in i su) ws &&
    forallb (fun w => if pin_in i su w
                      then forallb (fun j => g (Z.to_nat (pin_pos i su w) + j)) (seq 0 su) else true) ws.
Proof.
  intros g i su ws Hsu.
  set (win := fun w => if pin_in i su w then forallb (fun j => g (Z.to_nat (pin_pos i su w) + j)) (seq 0 su) else true).
  assert (Hone : forall w, forallb g (pin_trials i su w) = win w).
  { intros w. unfold pin_trials, win. destruct (pin_in i su w); auto. apply forallb_map. }
  assert (Hall : forall ws, forallb g (flat_map (pin_trials i su) ws) = forallb win ws).
  { intros ws0. rewrite forallb_flat_map. apply forallb_ext_in. intros w _. apply Hone. }
  induction ws as [|w ws IH].
  - reflexivity.
  - cbn [flat_map existsb forallb].
    destruct (pin_in i su w) eqn:E.
    + assert (Hne : pin_trials i su w <> []).
      { unfold pin_trials. rewrite E. destruct su; [lia|]. simpl. discriminate. }
      rewrite (nonempty_all_app g _ _ Hne). rewrite forallb_app, Hall, Hone. reflexivity.
    + assert (He : pin_trials i su w = []) by (unfold pin_trials; rewrite E; reflexivity).
      rewrite He. unfold win at 1. rewrite E. apply IH.
Qed.

Theorem pin_conforms_sem : forall fb s i f l wb row ranges su tn S (s' : Sem.tseq) f',
  row_of s f = Ok row ->
  map_block_trial_ranges fb wb = Some ranges ->
  geometry_sustain fb wb f = su -> 1 <= su ->
  get_trial_numbers fb f i wb = Some tn ->
  (forall t, In t tn -> t < length row) ->
  nth f' s' ([] : list Sem.cell) = row ->
  pin_conforms fb s i f l wb
  = Ok (Sem.constraint_ok S s' {| Sem.k_kind := Sem.KPin i su; Sem.k_factor := f'; Sem.k_level := l; Sem.k_windows := ranges |}).
Proof.
  intros fb s i f l wb row ranges su tn S s' f' Hrow Hr Hsu Hsu1 Htn Hlt Hnth.
  unfold pin_conforms. rewrite Hrow. simpl. rewrite Htn.
  rewrite (get_trial_numbers_spec _ _ _ _ _ Hr) in Htn. rewrite Hsu in Htn. injection Htn as Htn.
  set (g := fun t => Sem.cell_eqb (nth t row None) (Some l)).
  assert (Hmodel : (match tn with
                    | [] => Ok false
                    | _ :: _ => all_res (fun t => c <- get row t ;; Ok (cell_is l c)) tn
                    end) = Ok (nonempty_all g tn)).
  { destruct tn as [|t0 tn0]; auto.
    apply all_res_ok. intros t Ht. rewrite (get_nth _ _ (Hlt t Ht)). simpl.
    rewrite cell_is_eqb. reflexivity. }
  rewrite Hmodel. f_equal. rewrite <- Htn. rewrite (pin_bool g i su ranges Hsu1).
  unfold Sem.constraint_ok. simpl. rewrite Hnth. reflexivity.
Qed.

(** * Trial groups: trial [t = q * su + j] with [j < su]; [range_step T su] lists the group starts *)

Lemma ceil_steps_lt : forall x su q, 0 < su -> q < (x + su - 1) / su -> q * su < x.
Proof.
  intros x su q Hsu Hq.
  assert (su * ((x + su - 1) / su) <= x + su - 1) by (apply Nat.mul_div_le; lia).
  nia.
Qed.

Lemma ceil_steps_in : forall x su y, 0 < su -> y < x -> y / su < (x + su - 1) / su.
Proof.
  intros x su y Hsu Hy.
  replace (x + su - 1) with ((x - 1) + 1 * su) by lia.
  rewrite Nat.div_add by lia.
  assert (y / su <= (x - 1) / su) by (apply Nat.div_le_mono; lia). lia.
Qed.

Lemma range_step_in : forall T su t, 1 <= su -> t < T -> In (t / su * su) (range_step T su).
Proof.
  intros T su t Hsu Ht. unfold range_step. apply in_map_iff. exists (t / su). split; auto.
  apply in_seq. split; [lia|]. simpl. apply ceil_steps_in; lia.
Qed.

Lemma range_step_lt : forall T su i, 1 <= su -> In i (range_step T su) -> exists q, i = q * su /\ i < T.
Proof.
  intros T su i Hsu Hi. unfold range_step in Hi. apply in_map_iff in Hi. destruct Hi as [q [<- Hq]].
  apply in_seq in Hq. exists q. split; auto. apply ceil_steps_lt; lia.
Qed.

Lemma div_group : forall q su j, j < su -> (q * su + j) / su = q.
Proof.
  intros q su j H. rewrite Nat.mul_comm. rewrite (Nat.mul_comm su q).
  rewrite Nat.div_add_l by lia. rewrite Nat.div_small by lia. lia.
Qed.

Lemma group_start_div : forall t su, 1 <= su -> (t / su * su) / su = t / su.
Proof. intros. apply Nat.div_mul. lia. Qed.

Lemma group_start_le : forall t su, 1 <= su -> t / su * su <= t.
Proof. intros. rewrite Nat.mul_comm. apply Nat.mul_div_le. lia. Qed.

Lemma group_end : forall t su, 1 <= su -> t < t / su * su + su.
Proof.
  intros t su H. rewrite Nat.mul_comm, (Nat.div_mod t su) at 1 by lia.
  pose proof (Nat.mod_upper_bound t su). lia.
Qed.

Lemma group_bound : forall T su q j, 1 <= su -> T mod su = 0 -> q * su < T -> j < su -> q * su + j < T.
Proof.
  intros T su q j Hsu Hmod Hq Hj.
  assert (T = su * (T / su)) by (apply Nat.div_exact; lia).
  assert (q < T / su) by nia. nia.
Qed.

Lemma seq_groups : forall p su t, 1 <= su -> p mod su = 0 -> p <= t -> p + ((t - p) / su) * su = (t / su) * su.
Proof.
  intros p su t Hsu Hmod Hpt.
  assert (Hp : p = su * (p / su)) by (apply Nat.div_exact; lia).
  set (a := p / su) in *.
  assert (Ht : t = (t - p) + a * su) by lia.
  assert (t / su = (t - p) / su + a).
  { rewrite Ht at 1. apply Nat.div_add. lia. }
  rewrite H. nia.
Qed.

Lemma while_steps_spec : forall fb first su, 1 <= su ->
  while_steps fb first su
  = Ok (if fl_trials fb <=? first then [] else map (Nat.add first) (range_step (fl_trials fb - first) su)).
Proof.
  intros fb first su Hsu. unfold while_steps, T, range_step. destruct (fl_trials fb <=? first); [reflexivity|].
  replace (su =? 0) with false by (symmetry; apply Nat.eqb_neq; lia). rewrite map_map. reflexivity.
Qed.

(** what [Sequential] computes: the check of the group starts from [first] on *)
Definition seq_check (T first su n : nat) (row : list (option nat)) : bool :=
  forallb (fun i => Sem.cell_eqb (nth i row None) (Some (((i - first) / su) mod n)))
          (if T <=? first then [] else map (Nat.add first) (range_step (T - first) su)).

Lemma sequential_conforms_val : forall fb s f row first,
  row_of s f = Ok row -> length row = fl_trials fb -> factor_preamble fb f = Ok first ->
  1 <= su_of fb f -> 1 <= nlev fb f ->
  sequential_conforms fb s f = Ok (seq_check (fl_trials fb) first (su_of fb f) (nlev fb f) row).
Proof.
  intros fb s f row first Hrow Hlen Hpre Hsu Hn.
  unfold sequential_conforms. rewrite Hpre. simpl. rewrite (while_steps_spec fb first _ Hsu). simpl.
  apply all_res_ok. intros i Hi. destruct (fl_trials fb <=? first); [contradiction|].
  apply in_map_iff in Hi. destruct Hi as [i0 [<- Hi0]]. destruct (range_step_lt _ _ _ Hsu Hi0) as [q [-> Hlt]].
  replace (nlev fb f =? 0) with false by (symmetry; apply Nat.eqb_neq; lia).
  rewrite Hrow. simpl. rewrite get_nth by lia. simpl. rewrite cell_is_eqb. reflexivity.
Qed.

(** ... which is the reference clause on a row that is constant on the sustain groups counted
    from [first] (clause V4 of the reference semantics: DESIGN.md, Appendix B) *)
Lemma seq_check_sem : forall T first su n S (s' : Sem.tseq) f' fd l0 ws,
  1 <= su ->
  (forall t, first <= t < T ->
     nth t (nth f' s' ([] : list Sem.cell)) None = nth (first + ((t - first) / su) * su) (nth f' s' []) None) ->
  Sem.s_trials S = T -> nth_error (Sem.s_factors S) f' = Some fd -> Sem.f_nlevels fd = n ->
  seq_check T first su n (nth f' s' [])
  = Sem.constraint_ok S s' {| Sem.k_kind := Sem.KSequential first su; Sem.k_factor := f'; Sem.k_level := l0; Sem.k_windows := ws |}.
Proof.
  intros T first su n S s' f' fd l0 ws Hsu Hconst HT Hfd Hnl.
  unfold seq_check, Sem.constraint_ok. simpl. rewrite Hfd, Hnl, HT. unfold Sem.cell in *.
  set (row := nth f' s' []) in *.
  destruct (T <=? first) eqn:ET.
  - symmetry. apply forallb_forall. intros t Ht. apply in_seq in Ht.
    apply Nat.leb_le in ET. replace (t <? first) with true by (symmetry; apply Nat.ltb_lt; lia). reflexivity.
  - apply Nat.leb_gt in ET. apply Bool.eq_iff_eq_true. rewrite forallb_map, !forallb_forall. split.
    + (* a trial is checked through the start of its group *)
      intros Hm t Ht. apply in_seq in Ht.
      destruct (t <? first) eqn:Etf; auto. apply Nat.ltb_ge in Etf.
      specialize (Hm _ (range_step_in (T - first) su (t - first) Hsu ltac:(lia))). simpl in Hm.
      replace (first + (t - first) / su * su - first) with ((t - first) / su * su) in Hm by lia.
      rewrite group_start_div in Hm by lia. rewrite (Hconst t) by lia. exact Hm.
    + intros Hs i Hi. destruct (range_step_lt _ _ _ Hsu Hi) as [q [-> Hlt]].
      specialize (Hs (first + q * su) ltac:(apply in_seq; lia)). simpl in Hs.
      replace (first + q * su <? first) with false in Hs by (symmetry; apply Nat.ltb_ge; lia). exact Hs.
Qed.
