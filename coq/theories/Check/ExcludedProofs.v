(** Exclusions of crossed levels (fragment [efrag] of Check/DerivedFrag.v): the
    crossing clause of the reference semantics (every admitted combination with
    its multiplicity, no other combination) against [sample_mismatch_crossing],
    which only looks at the combinations that occur - the equivalence holds
    THROUGH the [Exclude] checks: once no excluded level occurs in a row (what
    [Exclude.potential_sample_conforms] / clause [KExclude] decide), every
    occurring combination of crossed levels is an admitted one and
    [CrossingProofs.chunk_loop_sem] applies.  Assembly:
    [efrag fb -> (no_mismatch <-> valid_b (code_sem_x fb))]; the theorems for the
    smaller fragments follow (here for [dfrag], in Properties/C17.v for [nfrag]
    and [frag]), each fragment lying in the next with the same reference design. *)
From Coq Require Import List Bool Arith Lia.
From SP Require Import Base.Lists Design.Flat Design.Layout Check.Mismatch Check.MismatchProofs Check.CrossingProofs
                       Check.FragmentProofs Check.NestProofs Check.DerivedFrag Check.DerivedProofs.
From SP Require Design.Sem Design.SemFacts.
Import ListNotations.

Lemma efrag_inv : forall fb, efrag fb = true ->
  dbase fb = true /\
  (forallb (fun su => su =? 1) (fl_sustains fb) = true \/ existsb is_sustain (fl_constraints fb) = true) /\
  (forall c, In c (fl_constraints fb) -> cfrag_x fb c = true) /\
  (forall p, In p (combine (seq 0 (length (fl_crossings fb))) (fl_crossings fb)) -> xfrag_x fb p = true).
Proof.
  intros fb H. unfold efrag in H. rewrite !andb_true_iff in H. destruct H as [[[[H1 H2] H3] H4] H5].
  split; [unfold dbase; rewrite H1, H2; reflexivity|]. split; [apply orb_prop, H3|].
  split; apply forallb_forall; assumption.
Qed.

Lemma dbase_no_hidden : forall fb, dbase fb = true -> no_hidden fb.
Proof. intros fb H f fd E. apply (dbase_design fb f fd H E). Qed.

Definition NoExcl (fb : flat) (rows : list (list (option nat))) : Prop :=
  forall f l, excl_by_constraint fb f l = true -> Sem.count_level l (nth f rows []) = 0.

Lemma noexcl_of_constraints : forall fb rows S,
  forallb (Sem.constraint_ok S rows) (flat_map (csem_n fb) (fl_constraints fb)) = true -> NoExcl fb rows.
Proof.
  intros fb rows S H f l He. unfold excl_by_constraint in He. apply existsb_exists in He.
  destruct He as [c [Hc E]]. destruct c; try discriminate.
  apply andb_prop in E. destruct E as [E1 E2]. apply Nat.eqb_eq in E1. apply Nat.eqb_eq in E2. subst.
  rewrite forallb_forall in H.
  specialize (H {| Sem.k_kind := Sem.KExclude; Sem.k_factor := f; Sem.k_level := l; Sem.k_windows := [] |}).
  unfold Sem.constraint_ok in H. cbn [Sem.k_kind Sem.k_factor Sem.k_level] in H.
  apply Nat.eqb_eq. apply H. apply in_flat_map. exists (FExclude f l). split; auto. simpl. auto.
Qed.

Lemma combo_at_cell : forall (rows : list (list (option nat))) fs c t f l,
  Sem.combo_at rows fs t = map Some c -> In (f, l) (combine fs c) -> nth t (nth f rows []) None = Some l.
Proof.
  intros rows fs. induction fs as [|g fs IH]; intros c t f l H Hin; [contradiction|].
  destruct c as [|x c]; [contradiction|]. unfold Sem.combo_at in H. simpl in H. injection H as H0 H1.
  simpl in Hin. destruct Hin as [E|Hin].
  - injection E as <- <-. exact H0.
  - apply (IH c t f l); auto.
Qed.

Lemma NoDup_map_filter : forall {A B} (g : A -> B) (p : A -> bool) xs,
  NoDup (map g xs) -> NoDup (map g (filter p xs)).
Proof.
  induction xs as [|x xs IH]; intros H; simpl; auto. inversion H as [|y ys Hn Hd]. subst.
  destruct (p x); simpl; auto. constructor; auto.
  intros Hin. apply Hn. apply in_map_iff in Hin. destruct Hin as [z [Ez Hz]]. apply filter_In in Hz.
  apply in_map_iff. exists z. tauto.
Qed.

(** once no excluded level occurs in a row, every occurring combination of crossed levels is an admitted one *)
Lemma occurring_admitted : forall fb rows fs t, wf_rows_d fb rows -> NoExcl fb rows ->
  (forall f, In f fs -> f < length (fl_design fb)) -> t < fl_trials fb ->
  (forall f, In f fs -> app_at fb f t = true) ->
  existsb (fun cm => Sem.combo_eqb (fst cm) (Sem.combo_at rows fs t)) (mult_x fb fs) = true.
Proof.
  intros fb rows fs t Hwf HE Hfs Ht Happ.
  destruct (combo_at_levels_d fb rows fs t Hwf Hfs Ht Happ) as [c [Hc Hall]].
  apply existsb_exists. exists (c, combo_weight fb fs (map Some c) * sw_of fb fs). split.
  - unfold mult_x. apply filter_In. split.
    + unfold mult_of. apply in_map_iff. exists c. split; auto. apply all_combos_complete; auto.
    + cbn [fst]. unfold combo_admitted. apply negb_true_iff.
      destruct (existsb (fun fl : nat * nat => excl_by_constraint fb (fst fl) (snd fl)) (combine fs c)) eqn:Ex; auto.
      exfalso. apply existsb_exists in Ex. destruct Ex as [[f l] [Hin He]]. cbn [fst snd] in He.
      pose proof (combo_at_cell rows fs c t f l Hc Hin) as Ecell.
      apply (SemFacts.count_level_zero l (nth f rows []) t (HE f l He) Ecell).
  - simpl. rewrite Hc, combo_eqb_same. apply combo_same_refl. apply full_map_some.
Qed.

Lemma frag_crossing_x : forall fb rows p S, no_hidden fb -> xfrag_x fb p = true -> wf_rows_d fb rows ->
  Sem.s_trials S = fl_trials fb ->
  exists xs, crossing_mismatch fb (cand_of_rows rows) (fst p) (snd p) = Ok xs /\
             (NoExcl fb rows -> (xs = [] <-> Sem.crossing_ok S rows (crossing_sem_x fb p) = true)).
Proof.
  intros fb rows p S Hfr Hx Hwf HS. pose proof (wf_rows_d_shape fb rows Hwf) as Hsh.
  unfold xfrag_x in Hx. cbv zeta in Hx.
  rewrite !andb_true_iff in Hx. destruct Hx as [[[[Hfs Hnd] Hsum] Hsize] Happ].
  rewrite forallb_forall in Hfs. apply Nat.eqb_eq in Hsum. apply Nat.leb_le in Hsize.
  rewrite forallb_forall in Happ.
  assert (Hfs' : forall f, In f (snd p) -> f < length (fl_design fb)) by (intros f Hf; apply Nat.ltb_lt; auto).
  rewrite crossing_mismatch_eq.
  destruct (rows_by_name_ok fb rows (snd p) Hfr Hsh Hfs') as [rowsN [HrN Hshort]].
  rewrite HrN. cbn [bind]. rewrite Hshort. cbn [map app].
  pose proof (rows_agree_self fb rows (snd p) Hsh Hfs') as Hagree.
  assert (Hlens : forall f', In f' (snd p) -> fl_trials fb <= length (nth f' rows ([] : list Sem.cell))).
  { intros f Hf. unfold Sem.cell. rewrite (proj2 Hsh f); [lia|]. rewrite (proj1 Hsh). auto. }

  destruct (chunk_loop_sem fb (cand_of_rows rows) (snd p) rows (snd p) (chunk_of fb (fst p) (snd p)) (sw_of fb (snd p))
              (mult_x fb (snd p)) S (crossing_preamble fb (fst p))) with (fuel := Datatypes.S (fl_trials fb))
              (start := crossing_preamble fb (fst p)) as [n [Hn Hnz]]; auto.
  - unfold mult_x. apply NoDup_map_filter. unfold mult_of. rewrite map_map. simpl. rewrite map_id.
    apply nodupb_NoDup. auto.
  - intros cm Hcm. unfold mult_x in Hcm. apply filter_In in Hcm. destruct Hcm as [Hcm _].
    unfold mult_of in Hcm. apply in_map_iff in Hcm. destruct Hcm as [c [<- _]]. reflexivity.
  - lia.
  - rewrite Hn. cbn [bind].
    exists (if 0 <? n then [fst p] else []). split; auto.
    intros HE.
    unfold Sem.crossing_ok, crossing_sem_x. cbn [Sem.c_chunk Sem.c_first]. rewrite HS.
    assert (0 <? chunk_of fb (fst p) (snd p) = true) by (apply Nat.ltb_lt; lia).
    rewrite H. rewrite andb_true_l. rewrite <- Hnz.
    + destruct n; simpl; split; intros; try discriminate; auto.
    + intros t Ht. apply (occurring_admitted fb rows (snd p) t Hwf HE Hfs'); [lia|].
      intros f Hf. specialize (Happ f Hf). rewrite forallb_forall in Happ. apply Happ. apply in_seq. lia.
Qed.

Lemma concat_nil_forall2 : forall {A P} (g : P -> bool) ps (ls : list (list A)),
  Forall2 (fun p xs => xs = [] <-> g p = true) ps ls -> (concat ls = [] <-> forallb g ps = true).
Proof.
  induction 1 as [|p xs ps ls Hi _ IH]; simpl; [tauto|].
  rewrite andb_true_iff, <- Hi, <- IH. split.
  - intros E. apply app_eq_nil in E. auto.
  - intros [-> ->]. reflexivity.
Qed.

Lemma gen_crossings_x : forall fb rows S, no_hidden fb ->
  (forall p, In p (combine (seq 0 (length (fl_crossings fb))) (fl_crossings fb)) -> xfrag_x fb p = true) ->
  wf_rows_d fb rows -> Sem.s_trials S = fl_trials fb ->
  exists xs, mismatch_crossings fb (cand_of_rows rows) = Ok xs /\
             (NoExcl fb rows ->
              (xs = [] <-> forallb (Sem.crossing_ok S rows)
                                   (map (crossing_sem_x fb) (combine (seq 0 (length (fl_crossings fb))) (fl_crossings fb))) = true)).
Proof.
  intros fb rows S Hfr Hx Hwf HS. unfold mismatch_crossings.
  destruct (map_res_forall2 (fun p => crossing_mismatch fb (cand_of_rows rows) (fst p) (snd p))
              (fun p xs => NoExcl fb rows -> (xs = [] <-> Sem.crossing_ok S rows (crossing_sem_x fb p) = true))
              (combine (seq 0 (length (fl_crossings fb))) (fl_crossings fb))) as [ls [Hls Hi]].
  { intros p Hp. apply frag_crossing_x; auto. }
  rewrite Hls. simpl. exists (concat ls). split; auto. intros HE. rewrite forallb_map.
  apply concat_nil_forall2. eapply Forall2_imp; [|exact Hi]. intros p xs H. exact (H HE).
Qed.

Theorem efrag_mismatch_iff_valid : forall fb rows,
  efrag fb = true -> wf_rows_d fb rows ->
  (no_mismatch fb (cand_of_rows rows) = true <-> Sem.valid_b (code_sem_x fb) rows = true).
Proof.
  intros fb rows Hfr Hwf. destruct (efrag_inv fb Hfr) as [Hb [Hs [Hcs Hxs]]].
  pose proof (wf_rows_d_shape fb rows Hwf) as Hsh.
  destruct (map_res_forall2 (constraint_conforms fb (cand_of_rows rows))
              (flag_spec (V4 fb rows) is_sustain (Sem.constraint_ok (code_sem_x fb) rows) (csem_n fb))
              (fl_constraints fb)) as [bs [HC HP]].
  { intros c Hc. apply (constraint_gen fb rows (code_sem_x fb) Hb Hwf eq_refl eq_refl), Hcs, Hc. }
  destruct (gen_crossings_x fb rows (code_sem_x fb) (dbase_no_hidden fb Hb) Hxs Hwf eq_refl) as [xs [HX HXi]].
  rewrite (no_mismatch_parts fb _ _ bs xs (rows_lengths fb rows Hsh) (wf_d_conversion fb rows Hwf)
             (mismatch_factors_d fb rows Hb Hwf) HC HX).
  rewrite (valid_b_parts (code_sem_x fb) rows)
    by (simpl; rewrite map_length, combine_length, seq_length, Nat.min_id; apply (proj1 Hsh)).
  fold (gs_list fb rows).
  rewrite flagged_nil, (factors_sem_d fb rows (code_sem_x fb) Hb Hwf eq_refl eq_refl).
  change (Sem.s_crossings (code_sem_x fb))
    with (map (crossing_sem_x fb) (combine (seq 0 (length (fl_crossings fb))) (fl_crossings fb))).
  change (Sem.s_constraints (code_sem_x fb)) with (flat_map (csem_n fb) (fl_constraints fb)).
  (* [Sustain] is among the constraints as soon as a count is not 1: clean flags give clause V4 *)
  assert (HV : forallb (fun b => b) bs = true -> V4 fb rows).
  { destruct Hs as [Hone|Hex].
    - intros _. apply V4_all_one. intros f. apply sustain_of_one, Hone.
    - exact (flags_give_V _ _ _ _ _ _ HP Hex). }
  (* under V4 the flags are the constraint clauses; these exclude the excluded levels, so that
     the crossing flags are the crossing clauses *)
  pose proof (flags_are_clauses _ _ _ _ _ _ HP) as HCl.
  pose proof (noexcl_of_constraints fb rows (code_sem_x fb)) as HNE.
  clear - HV HCl HNE HXi. tauto.
Qed.

Theorem efrag_mismatch_iff_valid_b : forall fb rows,
  efrag fb = true -> wf_rowsb_d fb rows = true ->
  (no_mismatch fb (cand_of_rows rows) = true <-> Sem.valid_b (code_sem_x fb) rows = true).
Proof. intros. apply efrag_mismatch_iff_valid; auto. apply wf_rowsb_d_wf; auto. Qed.

Lemma dfrag_not_excl : forall fb fs f l, dfrag fb = true -> In fs (fl_crossings fb) -> In f fs ->
  excl_by_constraint fb f l = false.
Proof.
  intros fb fs f l H Hfs Hf. destruct (excl_by_constraint fb f l) eqn:E; auto. exfalso.
  unfold excl_by_constraint in E. apply existsb_exists in E. destruct E as [c [Hc E]].
  destruct c; try discriminate. apply andb_prop in E. destruct E as [E1 E2]. apply Nat.eqb_eq in E1. subst.
  pose proof (dfrag_cfrag fb _ H Hc) as Hk. simpl in Hk. apply andb_prop in Hk. destruct Hk as [_ Hk].
  apply negb_true_iff in Hk.
  assert (in_crossing fb f = true).
  { unfold in_crossing. apply existsb_exists. exists fs. split; auto. apply existsb_exists. exists f. split; auto.
    apply Nat.eqb_refl. }
  congruence.
Qed.

Lemma dfrag_mult_x : forall fb fs, dfrag fb = true -> In fs (fl_crossings fb) -> mult_x fb fs = mult_of fb fs.
Proof.
  intros fb fs H Hfs. unfold mult_x. apply filter_all. intros cm _. unfold combo_admitted.
  apply negb_true_iff.
  destruct (existsb (fun fl : nat * nat => excl_by_constraint fb (fst fl) (snd fl)) (combine fs (fst cm))) eqn:E; auto.
  apply existsb_exists in E. destruct E as [[f l] [Hin E]]. cbn [fst snd] in E.
  rewrite (dfrag_not_excl fb fs f l H Hfs (in_combine_l _ _ _ _ Hin)) in E. discriminate.
Qed.

Lemma in_combine_snd : forall {A B} (l : list A) (l' : list B) p, In p (combine l l') -> In (snd p) l'.
Proof. intros A B l l' [x y] H. apply (in_combine_r _ _ _ _ H). Qed.

Theorem dfrag_efrag : forall fb, dfrag fb = true -> efrag fb = true.
Proof.
  intros fb H. pose proof H as H0. unfold dfrag in H0. rewrite !andb_true_iff in H0.
  destruct H0 as [[[[H1 H2] H3] H4] H5].
  unfold efrag. rewrite !andb_true_iff. repeat split; auto.
  - apply forallb_forall. intros c Hc. rewrite forallb_forall in H4. specialize (H4 c Hc).
    destruct c; auto. simpl in H4. apply andb_prop in H4. destruct H4 as [H4 _]. exact H4.
  - apply forallb_forall. intros p Hp. rewrite forallb_forall in H5. specialize (H5 p Hp).
    unfold xfrag_d, xfrag in H5. rewrite !andb_true_iff in H5. destruct H5 as [[[[Ha Hb] Hc] Hd] He].
    unfold xfrag_x. cbv zeta. rewrite (dfrag_mult_x fb (snd p) H (in_combine_snd _ _ _ Hp)).
    rewrite Ha, Hb, Hc, Hd, He. reflexivity.
Qed.

Theorem dfrag_code_sem_x : forall fb, dfrag fb = true -> code_sem_x fb = code_sem_d fb.
Proof.
  intros fb H. unfold code_sem_x, code_sem_d. f_equal. apply map_ext_in. intros p Hp.
  unfold crossing_sem_x, crossing_sem. f_equal. apply dfrag_mult_x; auto. apply (in_combine_snd _ _ _ Hp).
Qed.

Theorem dfrag_mismatch_iff_valid_b : forall fb rows,
  dfrag fb = true -> wf_rowsb_d fb rows = true ->
  (no_mismatch fb (cand_of_rows rows) = true <-> Sem.valid_b (code_sem_d fb) rows = true).
Proof.
  intros fb rows H W. rewrite <- (dfrag_code_sem_x fb H).
  apply efrag_mismatch_iff_valid_b; [apply dfrag_efrag, H | exact W].
Qed.

(** * A concrete member beyond [dfrag]: the flat record of the real block
      CrossBlock([f(a, b:2, c), g(x, y)], [f, g], [Exclude(f, c)], require_complete_crossing=False):
      6 trials = the weight of the four unexcluded combinations *)
Definition exx_fb : flat :=
  {| fl_design := [ex_factor [1; 2; 1]; ex_factor [1; 1]];
     fl_act := [0; 1]; fl_crossings := [[0; 1]]; fl_sustains := [1]; fl_weights := [1]; fl_sizes := [6];
     fl_preambles := [0]; fl_alignment := EqualPreamble; fl_alignment_preamble := 0; fl_min_trials := 0;
     fl_trials := 6; fl_rcc := false; fl_exclude := [(0, 2)]; fl_excluded_derived := [];
     fl_constraints := [FCross; FConsistency; FExclude 0 2];
     fl_errors_fail := false |}.
Definition exx_rows_valid : list (list (option nat)) :=
  [[Some 0; Some 0; Some 1; Some 1; Some 1; Some 1];
   [Some 0; Some 1; Some 0; Some 0; Some 1; Some 1]].
(* the excluded (c, y) takes the place of (a, y): the crossing check alone does not see it
   ([C17_crossing_clause_refuted]), the Exclude check does *)
Definition exx_rows_excluded : list (list (option nat)) :=
  [[Some 0; Some 2; Some 1; Some 1; Some 1; Some 1];
   [Some 0; Some 1; Some 0; Some 0; Some 1; Some 1]].
Definition exx_rows_unbalanced : list (list (option nat)) :=
  [[Some 0; Some 0; Some 0; Some 1; Some 1; Some 1];
   [Some 0; Some 1; Some 0; Some 0; Some 1; Some 1]].
