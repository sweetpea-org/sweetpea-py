(** Bit-list arithmetic shared by the adder / population-count / cardinality
    proofs: values of boolean lists (LSB first and MSB first), literal lists
    read under an assignment, positional counting, and the few facts about
    saturation and two's complement that the cardinality encoders rely on. *)
From Coq Require Import ZArith List Bool Lia ZifyBool.
From SP Require Import Base.Sat.
Import ListNotations.
Open Scope Z_scope.

Fixpoint lsbv (bs : list bool) : Z :=
  match bs with
  | [] => 0
  | b :: r => Z.b2z b + 2 * lsbv r
  end.
Definition msbv (bs : list bool) : Z := lsbv (rev bs).

(** The literals [ls] read under the assignment [s]. *)
Definition lits (s : asg) (ls : list Z) : list bool := map (lit_true s) ls.

(** Number of true literals, positionally (duplicates count twice). *)
Definition count (s : asg) (vs : list Z) : Z :=
  Z.of_nat (length (filter (lit_true s) vs)).

(** A literal that is non-zero and whose variable is in 1..n. *)
Definition inr (n : Z) (l : Z) : Prop := 0 < Z.abs l <= n.
(** A (fresh) positive variable in lo+1..hi. *)
Definition fresh_in (lo hi : Z) (v : Z) : Prop := lo < v <= hi.

Lemma inr_le n m l : n <= m -> inr n l -> inr m l.
Proof. unfold inr. lia. Qed.

Lemma fresh_in_inr lo hi v : 0 <= lo -> fresh_in lo hi v -> inr hi v.
Proof. unfold fresh_in, inr. lia. Qed.

Lemma Forall_inr_le n m ls : n <= m -> Forall (inr n) ls -> Forall (inr m) ls.
Proof. intros H. apply Forall_impl. intros a. now apply inr_le. Qed.

Lemma Forall_fresh_inr lo hi ls :
  0 <= lo -> Forall (fresh_in lo hi) ls -> Forall (inr hi) ls.
Proof. intros H. apply Forall_impl. intros a. now apply fresh_in_inr. Qed.

Lemma Forall_fresh_le lo hi hi' ls :
  hi <= hi' -> Forall (fresh_in lo hi) ls -> Forall (fresh_in lo hi') ls.
Proof. intros H. apply Forall_impl. unfold fresh_in. intros a. lia. Qed.

Lemma Forall_fresh_ge lo lo' hi ls :
  lo' <= lo -> Forall (fresh_in lo hi) ls -> Forall (fresh_in lo' hi) ls.
Proof. intros H. apply Forall_impl. unfold fresh_in. intros a. lia. Qed.

Lemma lits_length s ls : length (lits s ls) = length ls.
Proof. apply map_length. Qed.

Lemma lits_app s a b : lits s (a ++ b) = lits s a ++ lits s b.
Proof. apply map_app. Qed.

Lemma lits_rev s a : lits s (rev a) = rev (lits s a).
Proof. apply map_rev. Qed.

Lemma lits_tl s ls : lits s (tl ls) = tl (lits s ls).
Proof. now destruct ls. Qed.

Lemma lits_hd s ls m : length ls = S m -> lit_true s (hd 0 ls) = hd false (lits s ls).
Proof. destruct ls; [discriminate|reflexivity]. Qed.

Lemma lits_agree n s t ls :
  agree_upto n s t -> Forall (inr n) ls -> lits s ls = lits t ls.
Proof.
  intros A H. induction H as [|l ls Hl _ IH]; [reflexivity|].
  cbn [lits map]. f_equal; [|exact IH]. now apply (lit_true_agree n).
Qed.

Lemma count_agree n s t vs :
  agree_upto n s t -> Forall (inr n) vs -> count s vs = count t vs.
Proof.
  intros A H. unfold count. f_equal. f_equal.
  induction H as [|l ls Hl _ IH]; [reflexivity|].
  cbn [filter]. rewrite (lit_true_agree n s t l A Hl). now rewrite IH.
Qed.

Lemma count_nil s : count s [] = 0.
Proof. reflexivity. Qed.

Lemma count_cons s v vs : count s (v :: vs) = Z.b2z (lit_true s v) + count s vs.
Proof.
  unfold count. cbn [filter]. destruct (lit_true s v); cbn [length Z.b2z]; lia.
Qed.

Lemma count_app s a b : count s (a ++ b) = count s a + count s b.
Proof.
  induction a as [|x a IH]; [now rewrite count_nil|].
  cbn [app]. rewrite !count_cons, IH. lia.
Qed.

Lemma count_bounds s vs : 0 <= count s vs <= Z.of_nat (length vs).
Proof.
  induction vs as [|v vs IH]; [cbn; lia|].
  rewrite count_cons. cbn [length]. destruct (lit_true s v); cbn [Z.b2z]; lia.
Qed.

Lemma count_all_false s vs :
  (forall v, In v vs -> lit_true s v = false) -> count s vs = 0.
Proof.
  induction vs as [|v vs IH]; intros H; [reflexivity|].
  rewrite count_cons, (H v) by now left. rewrite IH; [reflexivity|].
  intros w Hw. apply H. now right.
Qed.

Lemma pow2_pos (n : nat) : 0 < 2 ^ Z.of_nat n.
Proof. apply Z.pow_pos_nonneg; lia. Qed.

Lemma pow2_S (n : nat) : 2 ^ Z.of_nat (S n) = 2 * 2 ^ Z.of_nat n.
Proof. rewrite Nat2Z.inj_succ, Z.pow_succ_r by lia. reflexivity. Qed.

Lemma pow2_pred (n : nat) : 2 ^ (Z.of_nat (S n) - 1) = 2 ^ Z.of_nat n.
Proof. f_equal. lia. Qed.

Lemma lsbv_bounds bs : 0 <= lsbv bs < 2 ^ Z.of_nat (length bs).
Proof.
  induction bs as [|b r IH]; [cbn; lia|].
  cbn [lsbv length]. rewrite pow2_S. destruct b; cbn [Z.b2z]; lia.
Qed.

Lemma lsbv_app a b : lsbv (a ++ b) = lsbv a + 2 ^ Z.of_nat (length a) * lsbv b.
Proof.
  induction a as [|x a IH].
  { cbn [app lsbv length]. change (Z.of_nat 0) with 0. rewrite Z.pow_0_r. lia. }
  cbn [app lsbv length]. rewrite IH, pow2_S. lia.
Qed.

Lemma msbv_nil : msbv [] = 0.
Proof. reflexivity. Qed.

Lemma msbv_cons b r : msbv (b :: r) = Z.b2z b * 2 ^ Z.of_nat (length r) + msbv r.
Proof.
  unfold msbv. cbn [rev]. rewrite lsbv_app, rev_length. cbn [lsbv]. lia.
Qed.

Lemma msbv_app a b : msbv (a ++ b) = msbv a * 2 ^ Z.of_nat (length b) + msbv b.
Proof.
  unfold msbv. rewrite rev_app_distr, lsbv_app, rev_length. lia.
Qed.

Lemma msbv_rev bs : msbv (rev bs) = lsbv bs.
Proof. unfold msbv. now rewrite rev_involutive. Qed.

Lemma msbv_bounds bs : 0 <= msbv bs < 2 ^ Z.of_nat (length bs).
Proof. unfold msbv. rewrite <- (rev_length bs). apply lsbv_bounds. Qed.

Lemma msbv_false_cons r : msbv (false :: r) = msbv r.
Proof. rewrite msbv_cons. cbn [Z.b2z]. lia. Qed.

Lemma msbv_repeat_false k r : msbv (repeat false k ++ r) = msbv r.
Proof.
  induction k as [|k IH]; [reflexivity|].
  cbn [repeat app]. now rewrite msbv_false_cons.
Qed.

Lemma lsbv_inj a b : length a = length b -> lsbv a = lsbv b -> a = b.
Proof.
  revert b. induction a as [|x a IH]; intros [|y b] Hl Hv; try discriminate.
  - reflexivity.
  - cbn [lsbv] in Hv. cbn [length] in Hl.
    assert (x = y) by (destruct x, y; cbn [Z.b2z] in Hv; try reflexivity; lia).
    subst y. f_equal. apply IH; [lia|]. lia.
Qed.

Lemma msbv_inj a b : length a = length b -> msbv a = msbv b -> a = b.
Proof.
  intros Hl Hv. unfold msbv in Hv. apply lsbv_inj in Hv.
  - rewrite <- (rev_involutive a), <- (rev_involutive b). now f_equal.
  - now rewrite !rev_length.
Qed.

Lemma decomp_unique M a b a' b' :
  0 <= a < M -> 0 <= a' < M -> a + M * b = a' + M * b' -> a = a' /\ b = b'.
Proof.
  intros Ha Ha' E.
  destruct (Z.div_mod_unique M b b' a a') as [-> ->]; [now left|now left|lia|split; reflexivity].
Qed.

(** [satv sa N]: the value carried by a population-count register that
    saturates at width [sa] (no saturation for [sa = 0]): the low [sa-1] bits
    keep counting modulo [2^(sa-1)], the top bit is sticky. *)
Definition satv (sa : nat) (N : Z) : Z :=
  match sa with
  | O => N
  | S m => N mod 2 ^ Z.of_nat m + (if 2 ^ Z.of_nat m <=? N then 2 ^ Z.of_nat m else 0)
  end.

Lemma satv_small sa N :
  0 <= N -> (sa <> O -> N <= 2 ^ (Z.of_nat sa - 1)) -> satv sa N = N.
Proof.
  intros HN Hb. destruct sa as [|m]; [reflexivity|].
  specialize (Hb ltac:(discriminate)).
  replace (Z.of_nat (S m) - 1) with (Z.of_nat m) in Hb by lia.
  unfold satv. pose proof (pow2_pos m) as Hp.
  destruct (2 ^ Z.of_nat m <=? N) eqn:E.
  - assert (N = 2 ^ Z.of_nat m) by lia. subst N.
    rewrite Z.mod_same by lia. lia.
  - rewrite Z.mod_small by lia. lia.
Qed.

(** Adding two saturated registers of full width [S m]:  low parts add with a
    carry [cr], the top bit is the disjunction. *)
Lemma satv_add_full m Nx Ny xl yl ol (xt yt cr : bool) :
  0 <= Nx -> 0 <= Ny ->
  0 <= xl < 2 ^ Z.of_nat m -> 0 <= yl < 2 ^ Z.of_nat m -> 0 <= ol < 2 ^ Z.of_nat m ->
  Z.b2z xt * 2 ^ Z.of_nat m + xl = satv (S m) Nx ->
  Z.b2z yt * 2 ^ Z.of_nat m + yl = satv (S m) Ny ->
  ol + 2 ^ Z.of_nat m * Z.b2z cr = xl + yl ->
  Z.b2z (xt || yt || cr) * 2 ^ Z.of_nat m + ol = satv (S m) (Nx + Ny).
Proof.
  intros HNx HNy Hxl Hyl Hol Hx Hy Hs.
  unfold satv in *. set (M := 2 ^ Z.of_nat m) in *.
  assert (HM : 0 < M) by apply pow2_pos.
  pose proof (Z.mod_pos_bound Nx M HM) as Bx.
  pose proof (Z.mod_pos_bound Ny M HM) as By.
  pose proof (Z.mod_pos_bound (Nx + Ny) M HM) as Bs.
  assert (Ex : xl = Nx mod M /\ Z.b2z xt = (if M <=? Nx then 1 else 0)).
  { apply (decomp_unique M); [lia|lia|].
    destruct (M <=? Nx); lia. }
  assert (Ey : yl = Ny mod M /\ Z.b2z yt = (if M <=? Ny then 1 else 0)).
  { apply (decomp_unique M); [lia|lia|].
    destruct (M <=? Ny); lia. }
  destruct Ex as [Ex1 Ex2], Ey as [Ey1 Ey2].
  assert (Eo : ol = (Nx + Ny) mod M).
  { rewrite Z.add_mod by lia. rewrite <- Ex1, <- Ey1, <- Hs.
    rewrite Z.mul_comm, Z_mod_plus_full. symmetry. apply Z.mod_small. lia. }
  rewrite <- Eo.
  destruct (M <=? Nx) eqn:E1.
  { destruct xt; cbn [Z.b2z] in Ex2; [|lia]. cbn [orb Z.b2z].
    replace (M <=? Nx + Ny) with true by lia. lia. }
  destruct (M <=? Ny) eqn:E2.
  { destruct yt; cbn [Z.b2z] in Ey2; [|lia]. rewrite orb_true_r. cbn [orb Z.b2z].
    replace (M <=? Nx + Ny) with true by lia. lia. }
  destruct xt; cbn [Z.b2z] in Ex2; [lia|].
  destruct yt; cbn [Z.b2z] in Ey2; [lia|]. cbn [orb].
  rewrite Z.mod_small in Ex1 by lia. rewrite Z.mod_small in Ey1 by lia.
  destruct cr; cbn [Z.b2z] in *.
  - replace (M <=? Nx + Ny) with true by lia. lia.
  - replace (M <=? Nx + Ny) with false by lia. lia.
Qed.

(** The same on bit lists, MSB first: [o] is the output of the saturating
    ripple adder on [x] and [y], [cr] the carry out of the low parts. *)
Lemma satv_add_bits m (x y o : list bool) Nx Ny (cr : bool) :
  0 <= Nx -> 0 <= Ny -> length x = S m -> length y = S m -> length o = S m ->
  msbv x = satv (S m) Nx -> msbv y = satv (S m) Ny ->
  msbv (tl o) + 2 ^ Z.of_nat m * Z.b2z cr = msbv (tl x) + msbv (tl y) ->
  hd false o = hd false x || hd false y || cr ->
  msbv o = satv (S m) (Nx + Ny).
Proof.
  intros HNx HNy Hlx Hly Hlo Hx Hy Hlow Htop.
  destruct x as [|xt x']; [discriminate|]. destruct y as [|yt y']; [discriminate|].
  destruct o as [|ot o']; [discriminate|]. cbn [hd tl length] in *.
  injection Hlx as Hlx. injection Hly as Hly. injection Hlo as Hlo.
  rewrite msbv_cons in Hx, Hy |- *. rewrite Hlx in Hx. rewrite Hly in Hy. rewrite Hlo, Htop.
  pose proof (msbv_bounds x') as Bx. rewrite Hlx in Bx.
  pose proof (msbv_bounds y') as By. rewrite Hly in By.
  pose proof (msbv_bounds o') as Bo. rewrite Hlo in Bo.
  now apply (satv_add_full m Nx Ny (msbv x') (msbv y')).
Qed.

(** The top bit of the [W]-bit sum of [x] and the [W]-bit negation of [y]
    tells whether [x < y], provided the difference fits in [W] bits with sign. *)
Lemma twos_top_bit W x y low (top : bool) :
  0 < W -> 0 <= x -> 0 <= y -> - 2 ^ (W - 1) <= x - y < 2 ^ (W - 1) ->
  0 <= low < 2 ^ (W - 1) ->
  (x + (2 ^ W - y) mod 2 ^ W) mod 2 ^ W = Z.b2z top * 2 ^ (W - 1) + low ->
  top = (x <? y).
Proof.
  intros HW Hx Hy Hd Hl Hr.
  assert (HP : 2 ^ W = 2 * 2 ^ (W - 1)).
  { replace W with (Z.succ (W - 1)) at 1 by lia. rewrite Z.pow_succ_r by lia. reflexivity. }
  set (H := 2 ^ (W - 1)) in *. assert (0 < H) by (apply Z.pow_pos_nonneg; lia).
  rewrite HP, Zplus_mod_idemp_r in Hr.
  destruct (x <? y) eqn:E.
  - rewrite Z.mod_small in Hr by lia. destruct top; cbn [Z.b2z] in Hr; [reflexivity|lia].
  - replace (x + (2 * H - y)) with ((x - y) + 1 * (2 * H)) in Hr by lia.
    rewrite Z_mod_plus_full, Z.mod_small in Hr by lia.
    destruct top; cbn [Z.b2z] in Hr; [lia|reflexivity].
Qed.
