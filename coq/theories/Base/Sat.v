(** Propositional layer shared by every model: literals are non-zero integers
    (DIMACS convention, as [sweetpea.core.cnf.Var]), a clause is a list of
    literals, a CNF a list of clauses.  Assignments are total functions on the
    positive integers.  Every encoder proof goes through [Defines lo hi new ext] (the clauses [new]
    fix the variables lo+1..hi as the function [ext] of the variables 1..lo), its clause-free part
    [ext_on], and [ext_on_models]: an assertion over 1..lo holds of exactly the assignments that
    extend to a solution, and the extension is unique. *)
From Coq Require Import ZArith List Bool Lia.
Import ListNotations.
Open Scope Z_scope.

Definition lit := Z.
Definition clause := list Z.
Definition cnf := list clause.
Definition asg := Z -> bool.

Definition lit_true (s : asg) (l : Z) : bool :=
  if 0 <? l then s l else negb (s (- l)).
Definition csat (s : asg) (c : clause) : bool := existsb (lit_true s) c.
Definition sat (s : asg) (f : cnf) : bool := forallb (csat s) f.

Definition agree_upto (n : Z) (s t : asg) : Prop :=
  forall v, 0 < v <= n -> s v = t v.

Definition vars_upto (n : Z) (f : cnf) : Prop :=
  forall c l, In c f -> In l c -> 0 < Z.abs l <= n.

Lemma sat_app s f g : sat s (f ++ g) = sat s f && sat s g.
Proof. unfold sat. apply forallb_app. Qed.

Lemma sat_cons s c f : sat s (c :: f) = csat s c && sat s f.
Proof. reflexivity. Qed.

Lemma lit_true_opp s l : l <> 0 -> lit_true s (- l) = negb (lit_true s l).
Proof.
  intros Hl. unfold lit_true.
  destruct (0 <? l) eqn:E1; destruct (0 <? - l) eqn:E2; try lia.
  - now rewrite Z.opp_involutive.
  - now rewrite negb_involutive.
Qed.

Lemma lit_true_pos s v : 0 < v -> lit_true s v = s v.
Proof. intros H. unfold lit_true. now replace (0 <? v) with true by lia. Qed.

Lemma lit_true_neg s v : 0 < v -> lit_true s (- v) = negb (s v).
Proof.
  intros H. unfold lit_true. replace (0 <? - v) with false by lia.
  now rewrite Z.opp_involutive.
Qed.

Lemma agree_upto_refl n s : agree_upto n s s.
Proof. now intros v _. Qed.

Lemma agree_upto_sym n s t : agree_upto n s t -> agree_upto n t s.
Proof. intros H v Hv. symmetry. now apply H. Qed.

Lemma agree_upto_trans n s t u :
  agree_upto n s t -> agree_upto n t u -> agree_upto n s u.
Proof. intros H1 H2 v Hv. rewrite H1 by assumption. now apply H2. Qed.

Lemma agree_upto_le n m s t : m <= n -> agree_upto n s t -> agree_upto m s t.
Proof. intros Hle H v Hv. apply H. lia. Qed.

Lemma lit_true_local s t l : s (Z.abs l) = t (Z.abs l) -> lit_true s l = lit_true t l.
Proof.
  unfold lit_true. destruct (Z.ltb_spec 0 l) as [E|E]; intros H.
  - now rewrite (Z.abs_eq l) in H by lia.
  - rewrite (Z.abs_neq l) in H by lia. now rewrite H.
Qed.

Lemma lit_true_agree n s t l :
  agree_upto n s t -> 0 < Z.abs l <= n -> lit_true s l = lit_true t l.
Proof. intros H Hl. apply lit_true_local. now apply H. Qed.

Lemma csat_agree n s t c :
  agree_upto n s t -> (forall l, In l c -> 0 < Z.abs l <= n) ->
  csat s c = csat t c.
Proof.
  intros H. induction c as [|l c IH]; intros Hc; [reflexivity|].
  cbn [csat existsb]. rewrite (lit_true_agree n s t l H) by (apply Hc; now left).
  f_equal. apply IH. intros l' Hl'. apply Hc. now right.
Qed.

Lemma sat_agree n s t f :
  agree_upto n s t -> vars_upto n f -> sat s f = sat t f.
Proof.
  intros H. induction f as [|c f IH]; intros Hf; [reflexivity|].
  cbn [sat forallb]. rewrite (csat_agree n s t c H).
  - f_equal. apply IH. intros c' l Hc' Hl. apply (Hf c' l); [now right|assumption].
  - intros l Hl. apply (Hf c l); [now left|assumption].
Qed.

Lemma vars_upto_app n f g : vars_upto n f -> vars_upto n g -> vars_upto n (f ++ g).
Proof.
  intros Hf Hg c l Hc Hl. apply in_app_or in Hc. destruct Hc as [Hc|Hc].
  - now apply (Hf c l). - now apply (Hg c l).
Qed.

Lemma vars_upto_le n m f : n <= m -> vars_upto n f -> vars_upto m f.
Proof. intros Hle H c l Hc Hl. specialize (H c l Hc Hl). lia. Qed.

(** [Defines lo hi new ext]: the clauses [new] mention only variables 1..hi and
    are satisfied by [s] exactly when the variables lo+1..hi of [s] carry the
    values [ext s] computes for them; [ext] changes nothing outside that range
    and reads only variables 1..lo.  So each assignment of 1..lo has exactly one
    extension to 1..hi satisfying [new]. *)
Record Defines (lo hi : Z) (new : cnf) (ext : asg -> asg) : Prop := {
  def_range : 0 <= lo <= hi;
  def_vars  : vars_upto hi new;
  def_sat   : forall s, sat s new = true <-> (forall v, lo < v <= hi -> s v = ext s v);
  def_out   : forall s v, ~ (lo < v <= hi) -> ext s v = s v;
  def_local : forall s t, agree_upto lo s t -> forall v, lo < v <= hi -> ext s v = ext t v
}.

Lemma defines_nil lo : 0 <= lo -> Defines lo lo [] (fun s => s).
Proof.
  intros Hlo. constructor.
  - lia.
  - intros c l [].
  - intros s. split; [intros _ v Hv; lia | reflexivity].
  - reflexivity.
  - intros s t _ v Hv. lia.
Qed.

Lemma defines_sat_ext lo hi new ext s :
  Defines lo hi new ext -> sat (ext s) new = true.
Proof.
  intros D. apply (def_sat _ _ _ _ D). intros v Hv.
  apply (def_local _ _ _ _ D); [|assumption].
  intros w Hw. symmetry. apply (def_out _ _ _ _ D). lia.
Qed.

Lemma defines_ext_agree lo hi new ext s :
  Defines lo hi new ext -> agree_upto lo s (ext s).
Proof. intros D v Hv. symmetry. apply (def_out _ _ _ _ D). lia. Qed.

(** An extension function on lo+1..hi changes nothing outside that range and
    reads only 1..lo.  Two of them on adjacent ranges compose to one, and the
    composite's fixed points are the common fixed points. *)
Definition ext_on (lo hi : Z) (e : asg -> asg) : Prop :=
  (forall s v, ~ (lo < v <= hi) -> e s v = s v) /\
  (forall s t, agree_upto lo s t -> forall v, lo < v <= hi -> e s v = e t v).

Lemma defines_ext_on lo hi new ext : Defines lo hi new ext -> ext_on lo hi ext.
Proof. intros D. split; apply D. Qed.

Lemma ext_glue lo mid hi e1 e2 :
  0 <= lo <= mid -> mid <= hi -> ext_on lo mid e1 -> ext_on mid hi e2 ->
  ext_on lo hi (fun s => e2 (e1 s)) /\
  forall s, (forall v, lo < v <= hi -> s v = e2 (e1 s) v) <->
            (forall v, lo < v <= mid -> s v = e1 s v) /\ (forall v, mid < v <= hi -> s v = e2 s v).
Proof.
  intros R R' [O1 L1] [O2 L2].
  assert (A : forall s, (forall v, lo < v <= mid -> s v = e1 s v) -> agree_upto mid s (e1 s)).
  { intros s H1 w Hw. destruct (Z_lt_le_dec lo w); [apply H1; lia|symmetry; apply O1; lia]. }
  split; [split|].
  - intros s v Hv. rewrite O2 by lia. apply O1. lia.
  - intros s t Hst v Hv.
    assert (B : agree_upto mid (e1 s) (e1 t)).
    { intros w Hw. destruct (Z_lt_le_dec lo w); [apply L1; [assumption|lia]|]. rewrite !O1 by lia. apply Hst. lia. }
    destruct (Z_lt_le_dec mid v); [apply L2; [assumption|lia]|]. rewrite !O2 by lia. apply B. lia.
  - intros s. split.
    + intros H.
      assert (H1 : forall v, lo < v <= mid -> s v = e1 s v).
      { intros v Hv. rewrite H by lia. apply O2. lia. }
      split; [exact H1|]. intros v Hv. rewrite H by lia. symmetry. apply L2; [apply A, H1|lia].
    + intros [H1 H2] v Hv. destruct (Z_lt_le_dec mid v).
      * rewrite H2 by lia. apply L2; [apply A, H1|lia].
      * rewrite O2 by lia. apply H1. lia.
Qed.

Lemma defines_seq lo mid hi a b e1 e2 :
  Defines lo mid a e1 -> Defines mid hi b e2 ->
  Defines lo hi (a ++ b) (fun s => e2 (e1 s)).
Proof.
  intros D1 D2.
  pose proof (def_range _ _ _ _ D1) as R1. pose proof (def_range _ _ _ _ D2) as R2.
  destruct (ext_glue lo mid hi e1 e2 R1 (proj2 R2) (defines_ext_on _ _ _ _ D1) (defines_ext_on _ _ _ _ D2))
    as [[O L] S].
  constructor; [lia| | |exact O|exact L].
  - apply vars_upto_app; [|apply (def_vars _ _ _ _ D2)].
    apply (vars_upto_le mid); [lia|apply (def_vars _ _ _ _ D1)].
  - intros s. rewrite sat_app, andb_true_iff, (def_sat _ _ _ _ D1), (def_sat _ _ _ _ D2), S. tauto.
Qed.

(** What a block over the variables above [lo] says about the assignments of
    1..lo.  [S] are its solutions: the fixed points of [ext] on lo+1..hi that
    satisfy an assertion [P] reading only 1..lo.  Then [P] holds of exactly the
    assignments that extend to a solution, and the extension is unique. *)
Lemma ext_on_models lo hi ext (S P : asg -> Prop) :
  ext_on lo hi ext ->
  (forall s, S s <-> (forall v, lo < v <= hi -> s v = ext s v) /\ P s) ->
  (forall s t, agree_upto lo s t -> (P s <-> P t)) ->
  (forall s, (exists t, agree_upto lo s t /\ S t) <-> P s) /\
  (forall t1 t2, agree_upto lo t1 t2 -> S t1 -> S t2 -> agree_upto hi t1 t2).
Proof.
  intros [O Lc] HS L. split.
  - intros s. split.
    + intros (t & A & St). apply HS in St. apply (L s t A), St.
    + intros HP. exists (ext s).
      assert (A : agree_upto lo s (ext s)) by (intros v Hv; symmetry; apply O; lia).
      split; [exact A|]. apply HS. split; [intros v Hv; now apply Lc|now apply (L s (ext s) A)].
  - intros t1 t2 A S1 S2 v Hv. apply HS in S1. apply HS in S2.
    destruct (Z_lt_le_dec lo v) as [Hl|Hl]; [|apply A; lia].
    rewrite (proj1 S1), (proj1 S2) by lia. now apply Lc.
Qed.

Lemma defines_unique lo hi new ext s t :
  Defines lo hi new ext -> agree_upto lo s t ->
  sat s new = true -> sat t new = true -> agree_upto hi s t.
Proof.
  intros D. apply (ext_on_models lo hi ext (fun s => sat s new = true) (fun _ => True) (defines_ext_on _ _ _ _ D)).
  - intros u. rewrite (def_sat _ _ _ _ D). tauto.
  - tauto.
Qed.

Definition upd (s : asg) (v : Z) (b : bool) : asg := fun w => if w =? v then b else s w.

Lemma defines_gate lo new (g : asg -> bool) :
  0 <= lo ->
  vars_upto (lo + 1) new ->
  (forall s t, agree_upto lo s t -> g s = g t) ->
  (forall s, sat s new = true <-> s (lo + 1) = g s) ->
  Defines lo (lo + 1) new (fun s => upd s (lo + 1) (g s)).
Proof.
  intros Hlo Hv Hg Hs. constructor.
  - lia.
  - exact Hv.
  - intros s. rewrite Hs. split.
    + intros E v Hv'. assert (v = lo + 1) by lia. subst v. unfold upd.
      now rewrite Z.eqb_refl.
    + intros H. specialize (H (lo + 1) ltac:(lia)). unfold upd in H.
      now rewrite Z.eqb_refl in H.
  - intros s v Hv'. unfold upd. destruct (v =? lo + 1) eqn:E; [lia|reflexivity].
  - intros s t A v Hv'. unfold upd. destruct (v =? lo + 1) eqn:E; [now apply Hg|lia].
Qed.
