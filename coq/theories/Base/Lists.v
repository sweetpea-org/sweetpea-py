(** Facts about the standard list functions that Coq 8.16's [List] lacks and
    that several directories need.  Nothing here mentions the model. *)
From Coq Require Import List Bool Arith Lia Permutation.
Import ListNotations.

Lemma forallb_ext_in {A} (f g : A -> bool) l :
  (forall x, In x l -> f x = g x) -> forallb f l = forallb g l.
Proof.
  induction l as [|x l IH]; intros H; simpl; [reflexivity|].
  rewrite (H x (or_introl eq_refl)), IH; auto using in_cons.
Qed.

Lemma forallb_ext {A} (f g : A -> bool) l :
  (forall x, f x = g x) -> forallb f l = forallb g l.
Proof. intros H. apply forallb_ext_in. auto. Qed.

Lemma forallb_map {A B} (h : A -> B) (p : B -> bool) l :
  forallb p (map h l) = forallb (fun x => p (h x)) l.
Proof. induction l as [|x l IH]; simpl; [reflexivity|]. now rewrite IH. Qed.

Lemma forallb_flat_map {A B} (p : B -> bool) (h : A -> list B) l :
  forallb p (flat_map h l) = forallb (fun x => forallb p (h x)) l.
Proof. induction l as [|x l IH]; simpl; [reflexivity|]. now rewrite forallb_app, IH. Qed.

Lemma existsb_ext_in {A} (f g : A -> bool) l :
  (forall x, In x l -> f x = g x) -> existsb f l = existsb g l.
Proof.
  induction l as [|x l IH]; intros H; simpl; [reflexivity|].
  rewrite (H x (or_introl eq_refl)), IH; auto using in_cons.
Qed.

Lemma existsb_ext {A} (f g : A -> bool) l :
  (forall x, f x = g x) -> existsb f l = existsb g l.
Proof. intros H. apply existsb_ext_in. auto. Qed.

Lemma existsb_map {A B} (h : A -> B) (p : B -> bool) l :
  existsb p (map h l) = existsb (fun x => p (h x)) l.
Proof. induction l as [|x l IH]; simpl; [reflexivity|]. now rewrite IH. Qed.

Lemma existsb_flat_map {A B} (p : B -> bool) (h : A -> list B) l :
  existsb p (flat_map h l) = existsb (fun x => existsb p (h x)) l.
Proof. induction l as [|x l IH]; simpl; [reflexivity|]. now rewrite existsb_app, IH. Qed.

Lemma negb_forallb {A} (p : A -> bool) l : negb (forallb p l) = existsb (fun x => negb (p x)) l.
Proof. induction l as [|x l IH]; simpl; [reflexivity|]. now rewrite negb_andb, IH. Qed.

Lemma negb_existsb {A} (p : A -> bool) l : negb (existsb p l) = forallb (fun x => negb (p x)) l.
Proof. induction l as [|x l IH]; simpl; [reflexivity|]. now rewrite negb_orb, IH. Qed.

Lemma forallb_orb_r {A} (p : A -> bool) b l : forallb (fun x => p x || b) l = forallb p l || b.
Proof.
  induction l as [|x l IH]; simpl; [reflexivity|]. rewrite IH.
  destruct (p x), b; simpl; try reflexivity. now rewrite orb_true_r.
Qed.

Lemma forallb_orb_l {A} (p : A -> bool) b l : forallb (fun x => b || p x) l = b || forallb p l.
Proof. rewrite orb_comm, <- forallb_orb_r. apply forallb_ext. intros x. apply orb_comm. Qed.

Lemma forallb_same_set {A} (p : A -> bool) l1 l2 :
  (forall x, In x l1 <-> In x l2) -> forallb p l1 = forallb p l2.
Proof.
  intros H. apply eq_true_iff_eq. rewrite !forallb_forall. split; intros E x Hx; apply E; apply H; exact Hx.
Qed.

Lemma existsb_same_set {A} (p : A -> bool) l1 l2 :
  (forall x, In x l1 <-> In x l2) -> existsb p l1 = existsb p l2.
Proof.
  intros H. apply eq_true_iff_eq. rewrite !existsb_exists.
  split; intros [x [Hx Px]]; exists x; (split; [apply H; exact Hx|exact Px]).
Qed.

Lemma perm_same_set {A} (l l' : list A) : Permutation l l' -> forall x, In x l <-> In x l'.
Proof. intros P x. split; apply Permutation_in; [exact P | symmetry; exact P]. Qed.

Lemma forallb_perm {A} (p : A -> bool) l l' :
  Permutation l l' -> forallb p l = forallb p l'.
Proof. intros P. apply forallb_same_set, perm_same_set, P. Qed.

Lemma existsb_perm {A} (p : A -> bool) l l' :
  Permutation l l' -> existsb p l = existsb p l'.
Proof. intros P. apply existsb_same_set, perm_same_set, P. Qed.

Lemma existsb_eqb_In x l : existsb (Nat.eqb x) l = true <-> In x l.
Proof.
  rewrite existsb_exists. split.
  - intros [y [Hy E]]. apply Nat.eqb_eq in E. now subst.
  - intros H. exists x. split; [exact H|apply Nat.eqb_refl].
Qed.

Lemma filter_all {A} (p : A -> bool) l :
  (forall x, In x l -> p x = true) -> filter p l = l.
Proof.
  induction l as [|x l IH]; intros H; simpl; [reflexivity|].
  rewrite (H x (or_introl eq_refl)), IH; auto using in_cons.
Qed.

Lemma filter_none {A} (p : A -> bool) l :
  (forall x, In x l -> p x = false) -> filter p l = [].
Proof.
  induction l as [|x l IH]; intros H; simpl; [reflexivity|].
  rewrite (H x (or_introl eq_refl)), IH; auto using in_cons.
Qed.

Lemma filter_map_comm {A B} (h : A -> B) (p : B -> bool) l :
  filter p (map h l) = map h (filter (fun x => p (h x)) l).
Proof.
  induction l as [|x l IH]; simpl; [reflexivity|].
  destruct (p (h x)); simpl; now rewrite IH.
Qed.

Lemma filter_filter {A} (p q : A -> bool) l :
  filter p (filter q l) = filter (fun x => q x && p x) l.
Proof.
  induction l as [|x l IH]; simpl; [reflexivity|].
  destruct (q x); simpl; [destruct (p x); simpl|]; now rewrite IH.
Qed.

Lemma filter_length_le {A} (p : A -> bool) l : length (filter p l) <= length l.
Proof. induction l as [|x l IH]; simpl; [lia|]. destruct (p x); simpl; lia. Qed.

Lemma filter_idem {A} (p : A -> bool) l : filter p (filter p l) = filter p l.
Proof. rewrite filter_filter. apply filter_ext. intro x. apply andb_diag. Qed.

Lemma filter_const_length {A} (P : A -> bool) l (b : bool) :
  (forall x, In x l -> P x = b) -> length (filter P l) = if b then length l else 0.
Proof. intro H. destruct b; [now rewrite filter_all|now rewrite filter_none]. Qed.

Lemma count_repeat {A} (P : A -> bool) a n : length (filter P (repeat a n)) = if P a then n else 0.
Proof.
  rewrite (filter_const_length P _ (P a)) by (intros x Hx; apply repeat_spec in Hx; now subst x).
  now rewrite repeat_length.
Qed.

Lemma find_ext_in {A} (p q : A -> bool) l :
  (forall x, In x l -> p x = q x) -> find p l = find q l.
Proof.
  induction l as [|x l IH]; intros H; simpl; [reflexivity|].
  rewrite (H x (or_introl eq_refl)), IH; auto using in_cons.
Qed.

Lemma flat_map_map {A B C} (g : B -> list C) (h : A -> B) l :
  flat_map g (map h l) = flat_map (fun x => g (h x)) l.
Proof. induction l as [|x l IH]; simpl; [reflexivity|]. now rewrite IH. Qed.

Lemma flat_map_singleton {A B} (g : A -> B) l : flat_map (fun x => [g x]) l = map g l.
Proof. induction l as [|x l IH]; simpl; [reflexivity|]. now rewrite IH. Qed.

Lemma map_flat_map {A B C} (g : B -> C) (h : A -> list B) l :
  map g (flat_map h l) = flat_map (fun x => map g (h x)) l.
Proof. induction l as [|x l IH]; simpl; [reflexivity|]. now rewrite map_app, IH. Qed.

Lemma map_fst_combine {A B} (l : list A) (m : list B) :
  length l = length m -> map fst (combine l m) = l.
Proof.
  revert m. induction l as [|x l IH]; intros [|y m] H; simpl in *; try discriminate; [reflexivity|].
  f_equal. apply IH. lia.
Qed.

Lemma map_snd_combine {A B} (l : list A) (m : list B) :
  length l = length m -> map snd (combine l m) = m.
Proof.
  revert m. induction l as [|x l IH]; intros [|y m] H; simpl in *; try discriminate; [reflexivity|].
  f_equal. apply IH. lia.
Qed.

Lemma combine_app {A B} (l1 l2 : list A) (m1 m2 : list B) :
  length l1 = length m1 -> combine (l1 ++ l2) (m1 ++ m2) = combine l1 m1 ++ combine l2 m2.
Proof.
  revert m1. induction l1 as [|x l1 IH]; intros [|y m1] H; simpl in *; try discriminate; [reflexivity|].
  f_equal. apply IH. lia.
Qed.

Lemma in_combine_map {A B} (g : A -> B) l x y :
  In (x, y) (combine l (map g l)) <-> In x l /\ y = g x.
Proof.
  induction l as [|a l IH]; simpl; [tauto|]. rewrite IH. split.
  - intros [E|[H E]]; [inversion E; subst; auto|auto].
  - intros [[E|H] ->]; [subst; auto|auto].
Qed.

(** position and element of the entries of [combine (seq s _) l] *)
Lemma nth_error_combine_seq {A} (l : list A) s i :
  nth_error (combine (seq s (length l)) l) i = option_map (pair (s + i)) (nth_error l i).
Proof.
  revert s i. induction l as [|x l IH]; intros s [|i]; simpl; try reflexivity.
  - now rewrite Nat.add_0_r.
  - rewrite IH. now replace (S s + i) with (s + S i) by lia.
Qed.

Lemma in_combine_seq {A} (l : list A) s i x :
  In (i, x) (combine (seq s (length l)) l) <-> s <= i /\ nth_error l (i - s) = Some x.
Proof.
  split.
  - intros H. apply In_nth_error in H. destruct H as [k H].
    rewrite nth_error_combine_seq in H. destruct (nth_error l k) eqn:E; inversion H; subst.
    split; [lia|]. now replace (s + k - s) with k by lia.
  - intros [Hs H]. apply (nth_error_In _ (i - s)). rewrite nth_error_combine_seq, H. simpl.
    now replace (s + (i - s)) with i by lia.
Qed.

Lemma in_enum {A} (l : list A) p :
  In p (combine (seq 0 (length l)) l) <-> nth_error l (fst p) = Some (snd p).
Proof.
  destruct p as [i x]. rewrite in_combine_seq, Nat.sub_0_r. simpl.
  split; [tauto|auto using Nat.le_0_l].
Qed.

Lemma seq_shift_add k n a : seq (k + a) n = map (Nat.add k) (seq a n).
Proof.
  revert a. induction n as [|n IH]; intros a; simpl; [reflexivity|].
  now rewrite <- IH, Nat.add_succ_r.
Qed.

Lemma map_seq_shift0 {B} (g : nat -> B) s n : map g (seq s n) = map (fun i => g (s + i)) (seq 0 n).
Proof. rewrite <- (Nat.add_0_r s) at 1. now rewrite seq_shift_add, map_map. Qed.

Lemma nth_map_seq {A} (h : nat -> A) n i d : i < n -> nth i (map h (seq 0 n)) d = h i.
Proof.
  intros H. rewrite (nth_indep _ d (h 0)) by now rewrite map_length, seq_length.
  now rewrite map_nth, seq_nth.
Qed.

Lemma map_nth_seq {A} (l : list A) d : map (fun i => nth i l d) (seq 0 (length l)) = l.
Proof.
  apply (nth_ext _ _ d d); [now rewrite map_length, seq_length|].
  intros i Hi. rewrite map_length, seq_length in Hi.
  now rewrite (nth_map_seq (fun i => nth i l d)).
Qed.

Lemma nth_map_nth_error {A B} (g : A -> B) l i x d :
  nth_error l i = Some x -> nth i (map g l) d = g x.
Proof. intros E. apply nth_error_nth. now apply map_nth_error. Qed.

Lemma nth_firstn_lt {A} (l : list A) n i d : i < n -> nth i (firstn n l) d = nth i l d.
Proof.
  revert l i. induction n as [|n IH]; intros [|x l] [|i] H; simpl; try reflexivity; try lia.
  apply IH. lia.
Qed.

Lemma nth_skipn_add {A} (l : list A) n i d : nth i (skipn n l) d = nth (n + i) l d.
Proof.
  revert l. induction n as [|n IH]; intros [|x l]; simpl; try reflexivity; [now destruct i|apply IH].
Qed.

Lemma skipn_nth_cons {A} (l : list A) n d : n < length l -> skipn n l = nth n l d :: skipn (S n) l.
Proof.
  revert l. induction n as [|n IH]; intros [|x l] H; simpl in *; try lia; [reflexivity|].
  apply IH. lia.
Qed.

Lemma firstn_skipn_map_seq {B} (g : nat -> B) n a len :
  a + len <= n -> firstn len (skipn a (map g (seq 0 n))) = map g (seq a len).
Proof.
  intros H. rewrite skipn_map, firstn_map. f_equal.
  replace n with (a + (n - a)) by lia. rewrite seq_app, skipn_app, seq_length, Nat.sub_diag.
  rewrite (skipn_all2 (seq 0 a)) by (rewrite seq_length; lia). cbn [app skipn].
  replace (n - a) with (len + (n - a - len)) by lia. rewrite seq_app, firstn_app, seq_length, Nat.sub_diag.
  rewrite firstn_all2 by (rewrite seq_length; lia). cbn [firstn]. now rewrite app_nil_r.
Qed.

Lemma firstn_map_const {A B C} (c : C) (l : list A) (l' : list B) :
  length l' <= length l -> firstn (length l') (map (fun _ => c) l) = map (fun _ => c) l'.
Proof.
  revert l'. induction l as [|x l IH]; intros [|y l'] H; simpl in *; try reflexivity; try lia.
  f_equal. apply IH. lia.
Qed.

Lemma Forall_firstn {A} (P : A -> Prop) n l : Forall P l -> Forall P (firstn n l).
Proof. intros H. rewrite <- (firstn_skipn n l) in H. now apply Forall_app in H. Qed.

Lemma Forall_skipn {A} (P : A -> Prop) n l : Forall P l -> Forall P (skipn n l).
Proof. intros H. rewrite <- (firstn_skipn n l) in H. now apply Forall_app in H. Qed.

Lemma Forall2_length {A B} (R : A -> B -> Prop) l m : Forall2 R l m -> length l = length m.
Proof. induction 1; simpl; congruence. Qed.

Lemma Forall2_imp {A B} (R1 R2 : A -> B -> Prop) l m :
  (forall a b, R1 a b -> R2 a b) -> Forall2 R1 l m -> Forall2 R2 l m.
Proof. intros H. induction 1; constructor; auto. Qed.

Lemma Forall2_nth {A B} (R : A -> B -> Prop) l m i da db :
  Forall2 R l m -> i < length l -> R (nth i l da) (nth i m db).
Proof.
  intros H. revert i. induction H as [|x y l m Hxy _ IH]; intros [|i] Hi; simpl in *; try lia; [exact Hxy|].
  apply IH. lia.
Qed.

Lemma Forall2_nth_error_l {A B} (R : A -> B -> Prop) l m i x :
  Forall2 R l m -> nth_error l i = Some x -> exists y, nth_error m i = Some y /\ R x y.
Proof.
  intros H. revert i. induction H as [|a b l m Hab _ IH]; intros [|i] Hi; simpl in *; try discriminate.
  - inversion Hi; subst. exists b. auto.
  - apply IH. exact Hi.
Qed.

Lemma Forall2_nth_error_r {A B} (R : A -> B -> Prop) l m i y :
  Forall2 R l m -> nth_error m i = Some y -> exists x, nth_error l i = Some x /\ R x y.
Proof.
  intros H. revert i. induction H as [|a b l m Hab _ IH]; intros [|i] Hi; simpl in *; try discriminate.
  - inversion Hi; subst. exists a. auto.
  - apply IH. exact Hi.
Qed.

Lemma Forall2_nth_intro {A B} (R : A -> B -> Prop) l m da db :
  length l = length m -> (forall i, i < length l -> R (nth i l da) (nth i m db)) -> Forall2 R l m.
Proof.
  revert m. induction l as [|x l IH]; intros [|y m] E H; simpl in *; try discriminate; constructor.
  - apply (H 0). lia.
  - apply IH; [lia|]. intros i Hi. apply (H (S i)). lia.
Qed.

Lemma Forall2_in_l {A B} (R : A -> B -> Prop) l m x :
  Forall2 R l m -> In x l -> exists y, In y m /\ R x y.
Proof.
  induction 1 as [|a b l m Hab _ IH]; [intros []|]; intros [E|H]; subst.
  - exists b. simpl. auto.
  - destruct (IH H) as [y [Hy Hr]]. exists y. simpl. auto.
Qed.

Lemma Forall2_in_r {A B} (R : A -> B -> Prop) l m y :
  Forall2 R l m -> In y m -> exists x, In x l /\ R x y.
Proof.
  induction 1 as [|a b l m Hab _ IH]; [intros []|]; intros [E|H]; subst.
  - exists a. simpl. auto.
  - destruct (IH H) as [x [Hx Hr]]. exists x. simpl. auto.
Qed.

Lemma Forall2_diag {A} (R : A -> A -> Prop) l : (forall x, In x l -> R x x) -> Forall2 R l l.
Proof. induction l as [|x l IH]; intros H; constructor; simpl in H; auto. Qed.

Lemma Forall2_map_l {A B C} (R : C -> B -> Prop) (g : A -> C) l m :
  Forall2 R (map g l) m <-> Forall2 (fun x y => R (g x) y) l m.
Proof.
  revert m. induction l as [|x l IH]; intros [|y m]; simpl; split; intros H; inversion H; subst;
    constructor; auto; now apply IH.
Qed.

Lemma Forall2_map_r {A B C} (R : A -> C -> Prop) (g : B -> C) l m :
  Forall2 R l (map g m) <-> Forall2 (fun x y => R x (g y)) l m.
Proof.
  revert m. induction l as [|x l IH]; intros [|y m]; simpl; split; intros H; inversion H; subst;
    constructor; auto; now apply IH.
Qed.

Lemma Forall2_map_eq {A B C} (f : A -> C) (g : B -> C) l m :
  Forall2 (fun a b => f a = g b) l m -> map f l = map g m.
Proof. induction 1; simpl; congruence. Qed.

Lemma NoDup_app_intro {A} (l m : list A) :
  NoDup l -> NoDup m -> (forall x, In x l -> ~ In x m) -> NoDup (l ++ m).
Proof.
  induction 1 as [|x l Hx _ IH]; intros Hm H; simpl; [exact Hm|]. constructor.
  - rewrite in_app_iff. intros [F|F]; [auto|]. apply (H x); simpl; auto.
  - apply IH; [exact Hm|]. intros y Hy. apply H. simpl. auto.
Qed.

Lemma NoDup_snoc {A} (l : list A) x : NoDup l -> ~ In x l -> NoDup (l ++ [x]).
Proof.
  intros Hl Hx. apply NoDup_app_intro; [exact Hl|repeat constructor; auto|].
  intros y Hy [E|[]]. now subst.
Qed.

Lemma nodup_b_sound {A} (eqb : A -> A -> bool) (nd : list A -> bool) :
  (forall x, eqb x x = true) -> (forall x r, nd (x :: r) = negb (existsb (eqb x) r) && nd r) ->
  forall l, nd l = true -> NoDup l.
Proof.
  intros Hrefl Hnd. induction l as [|x l IH]; intro H; [constructor|].
  rewrite Hnd in H. apply andb_true_iff in H. destruct H as [H1 H2].
  constructor; [|exact (IH H2)]. intro Hin. apply negb_true_iff in H1.
  rewrite (proj2 (existsb_exists _ _) (ex_intro _ x (conj Hin (Hrefl x)))) in H1. discriminate.
Qed.

Lemma NoDup_map_inj_in {A B} (f : A -> B) l :
  (forall x y, In x l -> In y l -> f x = f y -> x = y) -> NoDup l -> NoDup (map f l).
Proof.
  intros H. induction 1 as [|x l Hx _ IH]; simpl; constructor.
  - rewrite in_map_iff. intros [y [E Hy]]. apply Hx.
    rewrite (H x y); simpl; auto.
  - apply IH. intros a b Ha Hb. apply H; simpl; auto.
Qed.

Lemma NoDup_map_cons {A} (x : A) l : NoDup l -> NoDup (map (cons x) l).
Proof. apply NoDup_map_inj_in. intros a b _ _ E. now inversion E. Qed.

(** one step of a cartesian product of lists *)
Lemma cons_product_NoDup {A} (xs : list A) (W : list (list A)) :
  NoDup xs -> NoDup W -> NoDup (flat_map (fun x => map (cons x) W) xs).
Proof.
  intros Hxs HW. induction Hxs as [|x l Hx _ IH]; simpl; [constructor|].
  apply NoDup_app_intro; [now apply NoDup_map_cons|exact IH|].
  intros w Hw Hin. apply in_map_iff in Hw. destruct Hw as [w' [<- _]].
  apply in_flat_map in Hin. destruct Hin as [y [Hy Hin]]. apply in_map_iff in Hin.
  destruct Hin as [w'' [E _]]. inversion E; subst. contradiction.
Qed.

Lemma NoDup_flat_map {A B} (h : A -> list B) l :
  NoDup l -> (forall x, In x l -> NoDup (h x)) ->
  (forall x y b, In x l -> In y l -> In b (h x) -> In b (h y) -> x = y) ->
  NoDup (flat_map h l).
Proof.
  induction 1 as [|x l Hx _ IH]; intros Hh Hd; simpl; [constructor|].
  apply NoDup_app_intro.
  - apply Hh. simpl. auto.
  - apply IH; [intros y Hy; apply Hh; simpl; auto|].
    intros a b c Ha Hb. apply Hd; simpl; auto.
  - intros b Hb F. apply in_flat_map in F. destruct F as [y [Hy Hby]].
    apply Hx. rewrite (Hd x y b); simpl; auto.
Qed.

Lemma list_sum_cons x l : list_sum (x :: l) = x + list_sum l.
Proof. reflexivity. Qed.

Lemma list_sum_scale {A} (g : A -> nat) k l : list_sum (map (fun x => g x * k) l) = list_sum (map g l) * k.
Proof. induction l as [|x l IH]; simpl; [reflexivity|]. rewrite IH. lia. Qed.

Lemma list_sum_filter_split {A} (p : A -> bool) (g : A -> nat) l :
  list_sum (map g l) = list_sum (map g (filter p l)) + list_sum (map g (filter (fun x => negb (p x)) l)).
Proof. induction l as [|x l IH]; simpl; [reflexivity|]. destruct (p x); simpl; lia. Qed.

Lemma list_sum_le_pointwise {A} (f g : A -> nat) l :
  (forall x, In x l -> f x <= g x) -> list_sum (map f l) <= list_sum (map g l).
Proof.
  induction l as [|a l IH]; intros H; simpl; [lia|].
  pose proof (H a (or_introl eq_refl)). pose proof (IH (fun x Hx => H x (or_intror Hx))). lia.
Qed.

Lemma list_sum_eq_pointwise {A} (f g : A -> nat) l :
  (forall x, In x l -> f x <= g x) -> list_sum (map f l) = list_sum (map g l) ->
  forall x, In x l -> f x = g x.
Proof.
  induction l as [|a l IH]; intros H E x Hx; simpl in *; [contradiction|].
  pose proof (H a (or_introl eq_refl)).
  pose proof (list_sum_le_pointwise f g l (fun y Hy => H y (or_intror Hy))).
  destruct Hx as [<-|Hx]; [lia|]. apply IH; auto. lia.
Qed.

Lemma list_sum_const {A} (g : A -> nat) c l :
  (forall x, In x l -> g x = c) -> list_sum (map g l) = length l * c.
Proof.
  induction l as [|a l IH]; intros H; simpl; [reflexivity|].
  rewrite (H a (or_introl eq_refl)), IH; [reflexivity|]. intros x Hx. apply H. now right.
Qed.

Lemma flat_map_len {A B} (g : A -> list B) l :
  length (flat_map g l) = list_sum (map (fun x => length (g x)) l).
Proof. induction l as [|x l IH]; simpl; [reflexivity|]. now rewrite app_length, IH. Qed.

Lemma fold_add_sum {A} (g : A -> nat) l a :
  fold_left (fun acc x => acc + g x) l a = a + list_sum (map g l).
Proof. revert a. induction l as [|x l IH]; intros a; simpl; [lia|]. rewrite IH. lia. Qed.

Lemma fold_cond_count {A} (p : A -> bool) k l a :
  fold_left (fun acc x => if p x then acc + k else acc) l a = a + k * length (filter p l).
Proof.
  revert a. induction l as [|x l IH]; intros a; simpl; [lia|].
  rewrite IH. destruct (p x); simpl; lia.
Qed.

Lemma fold_add_acc l a : fold_left Nat.add l a = a + fold_left Nat.add l 0.
Proof.
  revert a. induction l as [|x l IH]; intros a; simpl; [lia|].
  rewrite (IH (a + x)), (IH x). lia.
Qed.

Lemma fold_mul_acc l a : fold_left Nat.mul l a = a * fold_left Nat.mul l 1.
Proof.
  revert a. induction l as [|x l IH]; intros a; simpl; [lia|].
  rewrite Nat.add_0_r, (IH (a * x)), (IH x). lia.
Qed.

Lemma nth_map_lt {A B} (f : A -> B) l i dB dA : i < length l -> nth i (map f l) dB = f (nth i l dA).
Proof. intros H. rewrite (nth_indep _ dB (f dA)) by (now rewrite map_length). apply map_nth. Qed.

Lemma Forall2_imp_Forall {A B} (P : A -> Prop) (R R' : A -> B -> Prop) l m :
  Forall P l -> (forall x y, P x -> R x y -> R' x y) -> Forall2 R l m -> Forall2 R' l m.
Proof. intros HP H F. induction F; inversion HP; subst; constructor; auto. Qed.

Lemma flat_map_nil {A B} (f : A -> list B) l : (forall x, In x l -> f x = []) -> flat_map f l = [].
Proof.
  induction l as [|x l IH]; intros H; simpl; [reflexivity|].
  rewrite (H x (or_introl eq_refl)). apply IH. auto using in_cons.
Qed.

Lemma flat_map_ext_in {A B} (f g : A -> list B) l :
  (forall x, In x l -> f x = g x) -> flat_map f l = flat_map g l.
Proof.
  induction l as [|x l IH]; intros H; simpl; [reflexivity|].
  rewrite (H x (or_introl eq_refl)), IH; auto using in_cons.
Qed.

Lemma fold_left_inv {A B} (F : A -> B -> A) (I : A -> Prop) l :
  (forall a x, In x l -> I a -> I (F a x)) -> forall a, I a -> I (fold_left F l a).
Proof.
  induction l as [|x l IH]; intros Hs a Ha; [exact Ha|]. simpl.
  apply IH; [intros b y Hy; apply Hs; right; exact Hy|]. apply Hs; [left; reflexivity|exact Ha].
Qed.

Lemma fold_max_ge l : forall a n, In n l \/ n <= a -> n <= fold_left Nat.max l a.
Proof.
  induction l as [|x l IH]; intros a n H; simpl.
  - destruct H as [[]|H]; exact H.
  - apply IH. destruct H as [[<-|H]|H]; [right; lia|now left|right; lia].
Qed.

Lemma fold_max_zero l : (forall n, In n l -> n = 0) -> fold_left Nat.max l 0 = 0.
Proof.
  induction l as [|x l IH]; intros H; simpl; [reflexivity|].
  rewrite (H x (or_introl eq_refl)). apply IH. auto using in_cons.
Qed.
