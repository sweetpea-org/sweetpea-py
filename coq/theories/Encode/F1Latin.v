(** The [LatinSquare] constraint in F1 (unsustained factors without a complex
    window): (a) its contribution is a block - per segment of [diag] trials
    after the preamble and per trial of the segment the implications "main
    factor has its k-th level -> every other factor has its (k + rotation)-th
    level" (Tseitin) and per main level an "at most once in the segment"
    request; (b) on a one-hot grid that is [Sem.latin_ok]: the rotation vector
    of a segment is the digits of the segment number (Encode/MixedRadix.v). *)
From Coq Require Import ZArith List Bool Arith Lia.
From SP Require Import Base.Sat Base.Bits Base.Lists Core.Card Core.CardProofs.
From SP Require Import Logic.Formula Logic.Tseitin Logic.TseitinProofs.
From SP Require Import Design.Flat Design.Layout Design.Sem Design.SemFacts.
From SP Require Import Encode.Compile Encode.CodeSem Encode.Generic Encode.Blocks Encode.Runs
     Encode.GridLemmas Encode.CrossChunks Encode.LayoutF1 Encode.F1Lists Encode.F1Kinds Encode.F1Cross Encode.F1Sem Encode.MixedRadix.
Import ListNotations.
Close Scope Z_scope.
Open Scope nat_scope.

Lemma fold_max_in (l : list nat) : forall a, fold_left Nat.max l a = a \/ In (fold_left Nat.max l a) l.
Proof.
  induction l as [|x l IH]; intros a; cbn [fold_left]; [now left|].
  destruct (IH (Nat.max a x)) as [E|E].
  - rewrite E. destruct (Nat.max_spec a x) as [[_ ->]|[_ ->]]; [right; now left|now left].
  - right. now right.
Qed.

Lemma liw_app (p : nat -> bool) (l : list nat) x :
  last_index_where p (l ++ [x]) = if p x then length l else last_index_where p l.
Proof.
  unfold last_index_where. rewrite app_length. cbn [length]. rewrite Nat.add_1_r, seq_S. cbn [Nat.add].
  rewrite combine_app by now rewrite seq_length. cbn [combine]. rewrite fold_left_app. cbn [fold_left fst snd].
  reflexivity.
Qed.

Lemma liw_spec (p : nat -> bool) (l : list nat) :
  (exists x, In x l /\ p x = true) ->
  last_index_where p l < length l /\ p (nth (last_index_where p l) l 0) = true.
Proof.
  induction l as [|x l IH] using rev_ind; intros (y & Hy & Py); [destruct Hy|].
  rewrite liw_app, app_length. cbn [length]. destruct (p x) eqn:Px.
  - split; [lia|]. rewrite app_nth2 by lia. now rewrite Nat.sub_diag.
  - apply in_app_iff in Hy. destruct Hy as [Hy|[<-|[]]]; [|congruence].
    destruct (IH (ex_intro _ y (conj Hy Py))) as [A B]. split; [lia|]. now rewrite app_nth1 by lia.
Qed.

Section F1Latin.
Variable fb : flat.
Hypothesis HF1 : in_f1 fb = true.
Hypothesis HT : 0 < T fb.

Notation GZ := (GZ fb).
Notation bit := (bit fb).

Section One.
Variable fs : list nat.
Hypothesis Hfs : Forall (fun f => isact fb f = true /\ is_complex fb f = false) fs.
Hypothesis Hne : fs <> [].

Let nls : list nat := map (nlevels fb) fs.
Let diag : nat := fold_left Nat.max nls 0.
Let main : nat := last_index_where (fun n => n =? diag) nls.
Let mainf : nat := nth main fs 0.
Let nmain : nat := nth main nls 0.

Lemma fs_act idx : idx < length fs -> isact fb (nth idx fs 0) = true /\ is_complex fb (nth idx fs 0) = false.
Proof. intros H. exact (Forall_In _ _ _ Hfs (nth_In fs 0 H)). Qed.

Lemma nls_nth idx : idx < length fs -> nth idx nls 0 = nlevels fb (nth idx fs 0).
Proof.
  intros H. exact (nth_map_lt _ fs idx 0 0 H).
Qed.

Lemma nls_pos idx : idx < length fs -> 0 < nth idx nls 0.
Proof.
  intros H. rewrite (nls_nth idx H). destruct (fs_act idx H) as [Ha _].
  exact (f1_nlevels_pos fb HF1 _ (f1_act_lt fb HF1 _ Ha)).
Qed.

Lemma nls_le idx : idx < length fs -> nth idx nls 0 <= diag.
Proof. intros H. apply fold_max_ge. left. apply nth_In. unfold nls. now rewrite map_length. Qed.

Lemma diag_pos : 0 < diag.
Proof.
  assert (H0 : 0 < length fs) by (destruct fs; [contradiction|cbn; lia]).
  pose proof (nls_le 0 H0). pose proof (nls_pos 0 H0). lia.
Qed.

Lemma main_spec : main < length fs /\ nmain = diag.
Proof.
  assert (Hex : exists x, In x nls /\ (x =? diag) = true).
  { destruct (fold_max_in nls 0) as [E|E].
    - pose proof diag_pos. unfold diag in *. lia.
    - exists diag. split; [exact E|apply Nat.eqb_refl]. }
  destruct (liw_spec (fun n => n =? diag) nls Hex) as [A B]. fold main in A, B.
  unfold nls in A. rewrite map_length in A. split; [exact A|]. now apply Nat.eqb_eq in B.
Qed.

Lemma mainf_act : isact fb mainf = true /\ is_complex fb mainf = false /\ nlevels fb mainf = diag.
Proof.
  destruct main_spec as [A B]. destruct (fs_act main A) as [Ha Hc]. fold mainf in Ha, Hc.
  split; [exact Ha|]. split; [exact Hc|]. unfold nmain in B. now rewrite (nls_nth main A) in B.
Qed.

Lemma nls_mod idx a : idx < length fs -> a mod nth idx nls 0 < nlevels fb (nth idx fs 0).
Proof. intros H. rewrite <- (nls_nth idx H). exact (mod_lt a _ (nls_pos idx H)). Qed.

Lemma nmain_mod a : a mod nmain < nlevels fb mainf.
Proof. exact (nls_mod main a (proj1 main_spec)). Qed.

Lemma in_ifs idx f : In (idx, f) (combine (seq 0 (length fs)) fs) <-> idx < length fs /\ f = nth idx fs 0.
Proof.
  rewrite in_combine_seq, Nat.sub_0_r. split.
  - intros [_ H]. split; [apply nth_error_Some; congruence|symmetry; now apply nth_error_nth].
  - intros [H ->]. split; [apply Nat.le_0_l|now apply nth_error_nth'].
Qed.

Definition js (i : nat) : list nat := filter (fun j => i + j <? T fb) (seq 0 diag).

Definition lat_if (i j k : nat) (rots : list nat) (ixf : nat * nat) : list fm :=
  if fst ixf =? main then []
  else [FIf (fv (gvar fb (i + j) mainf ((k + nth main rots 0) mod nmain)))
            (fv (gvar fb (i + j) (snd ixf) ((k + nth (fst ixf) rots 0) mod nth (fst ixf) nls 0)))].

Definition lat_k (i : nat) (rots : list nat) (j k : nat) : list fm :=
  concat (map (lat_if i j k rots) (combine (seq 0 (length fs)) fs)).
Definition lat_j (i : nat) (rots : list nat) (j : nat) : list fm := concat (map (lat_k i rots j) (seq 0 diag)).
Definition seg_ands (i : nat) (rots : list nat) : list fm := concat (map (lat_j i rots) (js i)).

Definition seg_reqs (i : nat) : list req :=
  map (fun l => (Card.LT, 2%Z, zs (map (fun j => gvar fb (i + j) mainf l) (js i)))) (seq 0 nmain).

Definition latin_lists (fuel i : nat) (rots : list nat) : list fm * list req :=
  (strided (T fb) diag seg_ands (step_rotations main nls) fuel i rots,
   strided (T fb) diag (fun i _ => seg_reqs i) (step_rotations main nls) fuel i rots).

Lemma in_js i j : In j (js i) <-> j < diag /\ i + j < T fb.
Proof. unfold js. rewrite filter_In, in_seq, Nat.ltb_lt. lia. Qed.

Lemma js_nonempty i : i < T fb -> js i <> [].
Proof.
  intros Hi E. assert (H : In 0 (js i)) by (apply in_js; pose proof diag_pos; lia). rewrite E in H. destruct H.
Qed.

Lemma latin_loop_eq : forall fuel i rots, T fb - i < fuel ->
  latin_loop fb fuel fs nls main mainf diag 1 i rots = COk (latin_lists fuel i rots).
Proof.
  destruct main_spec as [Hm Hnm]. destruct mainf_act as (Hma & Hmc & Hml). pose proof diag_pos as Hd.
  induction fuel as [|fuel IH]; intros i rots Hfu; [lia|].
  unfold latin_lists. cbn [latin_loop strided]. destruct (i <? T fb) eqn:Ei; cbn [negb]; [|reflexivity].
  apply Nat.ltb_lt in Ei. fold (js i). fold nmain.
  rewrite (cmapM_ok _ (lat_j i rots)).
  2:{ intros j Hj. rewrite (cmapM_ok _ (lat_k i rots j)); [reflexivity|].
      intros k Hk. rewrite Nat.add_1_r.
      rewrite (f1_get_variable fb HF1 mainf _ (i + j) Hma (nmain_mod _)). cbn [cbind].
      rewrite (cmapM_ok _ (lat_if i j k rots)); [reflexivity|].
      intros [idx f] Hin. unfold lat_if. cbn [fst snd]. destruct (idx =? main); [reflexivity|].
      apply in_ifs in Hin. destruct Hin as [Hidx ->]. destruct (fs_act idx Hidx) as [Ha _].
      now rewrite (f1_get_variable fb HF1 _ _ (i + j) Ha (nls_mod idx _ Hidx)). }
  cbn [cbind].
  rewrite (cmapM_ok _ (fun l => (Card.LT, 2%Z, zs (map (fun j => gvar fb (i + j) mainf l) (js i))))).
  2:{ intros l Hl. apply in_seq in Hl.
      rewrite (cmapM_ok _ (fun j => gvar fb (i + j) mainf l)); [reflexivity|].
      intros j Hj. rewrite Nat.add_1_r. apply (f1_get_variable fb HF1 mainf l (i + j) Hma). rewrite Hml, <- Hnm. lia. }
  cbn [cbind]. rewrite Nat.mul_1_r, (IH (i + diag) _ ltac:(lia)). cbn [cbind]. reflexivity.
Qed.

Definition rots_from (rots : list nat) (r : nat) : list nat := Nat.iter r (step_rotations main nls) rots.

Lemma in_latin_ands x fuel i rots : T fb - i < fuel ->
  (In x (fst (latin_lists fuel i rots)) <->
   exists r, i + r * diag < T fb /\ In x (seg_ands (i + r * diag) (rots_from rots r))).
Proof. apply (in_strided _ _ seg_ands). exact diag_pos. Qed.

Lemma in_latin_reqs x fuel i rots : T fb - i < fuel ->
  (In x (snd (latin_lists fuel i rots)) <-> exists r, i + r * diag < T fb /\ In x (seg_reqs (i + r * diag))).
Proof. apply (in_strided _ _ (fun i _ => seg_reqs i)). exact diag_pos. Qed.

Lemma in_seg_ands x i rots :
  In x (seg_ands i rots) <->
  exists j k idx, In j (js i) /\ k < diag /\ idx < length fs /\ idx <> main /\
    x = FIf (fv (gvar fb (i + j) mainf ((k + nth main rots 0) mod nmain)))
            (fv (gvar fb (i + j) (nth idx fs 0) ((k + nth idx rots 0) mod nth idx nls 0))).
Proof.
  unfold seg_ands, lat_j, lat_k. rewrite <- flat_map_concat_map, in_flat_map. split.
  - intros (j & Hj & Hx). rewrite <- flat_map_concat_map, in_flat_map in Hx. destruct Hx as (k & Hk & Hx). apply in_seq in Hk.
    rewrite <- flat_map_concat_map, in_flat_map in Hx. destruct Hx as ([idx f] & Hin & Hx).
    apply in_ifs in Hin. destruct Hin as [Hidx ->].
    unfold lat_if in Hx. cbn [fst snd] in Hx. destruct (idx =? main) eqn:Em; [destruct Hx|]. destruct Hx as [<-|[]].
    exists j, k, idx. apply Nat.eqb_neq in Em. now repeat split.
  - intros (j & k & idx & Hj & Hk & Hidx & Hm & ->). exists j. split; [exact Hj|].
    rewrite <- flat_map_concat_map, in_flat_map. exists k. split; [now apply in_seq0|].
    rewrite <- flat_map_concat_map, in_flat_map. exists (idx, nth idx fs 0). split; [now apply in_ifs|].
    unfold lat_if. cbn [fst snd]. rewrite (proj2 (Nat.eqb_neq _ _) Hm). now left.
Qed.

Variable pre : nat.

Definition zeros : list nat := map (fun _ => 0) fs.
Definition LL : list fm * list req := latin_lists (S (T fb)) pre zeros.

Definition Platin_one (s : asg) : Prop := eval s (FAnd (fst LL)) = true /\ Forall (req_rel s) (snd LL).

Lemma fuel_ok : T fb - pre < S (T fb).
Proof. exact (proj2 (Nat.lt_succ_r _ _) (Nat.le_sub_l _ _)). Qed.

Lemma in_LL_ands x :
  In x (fst LL) <-> exists r, pre + r * diag < T fb /\ In x (seg_ands (pre + r * diag) (rots_from zeros r)).
Proof. exact (in_latin_ands x _ pre zeros fuel_ok). Qed.

Lemma in_LL_reqs x : In x (snd LL) <-> exists r, pre + r * diag < T fb /\ In x (seg_reqs (pre + r * diag)).
Proof. exact (in_latin_reqs x _ pre zeros fuel_ok). Qed.

Lemma fs_lappl idx t : idx < length fs -> lappl fb (nth idx fs 0) t = true.
Proof. intros H. destruct (fs_act idx H) as [Ha Hc]. exact (lappl_simple fb HF1 _ t Ha Hc). Qed.

Lemma latin_block fresh ct :
  (GZ < fresh)%Z -> tseitin_contrib (fst LL) (snd LL) fresh = COk ct ->
  exists ext, DefinesA (fresh - 1) (ct_fresh ct - 1) (ct_clauses ct) (ct_requests ct) ext Platin_one.
Proof.
  intros Hfr E. destruct main_spec as [Hm Hnm]. destruct (fs_act main Hm) as [Hma _]. fold mainf in Hma.
  assert (H1 : (1 <= fresh)%Z) by (pose proof (GZ_nonneg fb); lia).
  assert (HL : forall z, In z (leaves (FAnd (fst LL))) -> z <> 0%Z /\ (Z.abs z < fresh)%Z).
  { intros z Hz. cbn [leaves] in Hz. apply in_flat_map in Hz. destruct Hz as (x & Hx & Hz).
    apply in_LL_ands in Hx. destruct Hx as (r & Hr & Hx).
    apply in_seg_ands in Hx. destruct Hx as (j & k & idx & Hj & Hk & Hidx & Hne' & ->).
    apply in_js in Hj. destruct Hj as [Hj HjT]. destruct (fs_act idx Hidx) as [Ha _].
    cbn [leaves] in Hz. apply in_app_iff in Hz. destruct Hz as [Hz|Hz]; revert Hz; apply fv_gvar_leaf; try assumption.
    - apply nmain_mod.
    - exact (fs_lappl main _ Hm).
    - now apply nls_mod.
    - now apply fs_lappl. }
  apply (step_tseitin_requests (fst LL) (snd LL) fresh ct H1 HL); [|exact E].
  apply Forall_forall. intros x Hx. apply in_LL_reqs in Hx.
  destruct Hx as (r & Hr & Hx). unfold seg_reqs in Hx. apply in_map_iff in Hx. destruct Hx as (l & <- & Hl). apply in_seq in Hl.
  change 2%Z with (zn 2). apply req_ok_zs.
  - pose proof (js_nonempty (pre + r * diag) Hr). destruct (js (pre + r * diag)); [contradiction|discriminate].
  - apply Forall_map. apply Forall_forall. intros j Hj. apply in_js in Hj. destruct Hj as [Hj HjT].
    apply (gvar_ok fb HF1 HT _ mainf l _ HjT Hma); [|exact (fs_lappl main _ Hm)|clear - Hfr; lia].
    unfold mainf. rewrite <- (nls_nth main Hm). exact (proj2 Hl).
Qed.

Definition rot (r idx : nat) : nat := nth idx (rots_from zeros r) 0.

Definition Pseg (s : asg) : Prop :=
  (forall r j k idx, pre + r * diag + j < T fb -> j < diag -> k < diag -> idx < length fs -> idx <> main ->
     bit s (pre + r * diag + j) mainf ((k + rot r main) mod nmain) = true ->
     bit s (pre + r * diag + j) (nth idx fs 0) ((k + rot r idx) mod nth idx nls 0) = true) /\
  (forall r l, pre + r * diag < T fb -> l < nmain ->
     ntrue (map (fun j => bit s (pre + r * diag + j) mainf l) (js (pre + r * diag))) < 2).

Lemma platin_seg s : Platin_one s <-> Pseg s.
Proof.
  assert (Hpos : forall i l, Forall (fun v => 0 < v) (map (fun j => gvar fb (i + j) mainf l) (js i))).
  { intros i l. apply Forall_map. apply Forall_forall. intros j _. apply gvar_pos. }
  unfold Platin_one, Pseg. cbn [eval]. rewrite forallb_forall, Forall_forall. split.
  - intros [HA HB]. split.
    + intros r j k idx Ht Hj Hk Hidx Hne' Hb.
      specialize (HA (FIf (fv (gvar fb (pre + r * diag + j) mainf ((k + rot r main) mod nmain)))
                          (fv (gvar fb (pre + r * diag + j) (nth idx fs 0) ((k + rot r idx) mod nth idx nls 0))))).
      cbn [eval] in HA. rewrite !eval_fv_gvar, Hb in HA. apply HA.
      apply in_LL_ands. exists r. split; [exact (Nat.le_lt_trans _ _ _ (Nat.le_add_r _ j) Ht)|].
      apply in_seg_ands. exists j, k, idx. repeat split; try assumption. apply in_js. now split.
    + intros r l Hr Hl.
      specialize (HB (Card.LT, 2%Z, zs (map (fun j => gvar fb (pre + r * diag + j) mainf l) (js (pre + r * diag))))).
      change 2%Z with (zn 2) in HB. rewrite (req_rel_LT _ _ _ (Hpos _ l)), map_map in HB.
      apply HB. apply in_LL_reqs. exists r. split; [exact Hr|].
      unfold seg_reqs. apply (in_map (fun l0 => (Card.LT, 2%Z, zs (map (fun j => gvar fb (pre + r * diag + j) mainf l0) (js (pre + r * diag)))))).
      now apply in_seq0.
  - intros [HA HB]. split.
    + intros x Hx. apply in_LL_ands in Hx. destruct Hx as (r & Hr & Hx).
      apply in_seg_ands in Hx. destruct Hx as (j & k & idx & Hj & Hk & Hidx & Hne' & ->). apply in_js in Hj. destruct Hj as [Hj HjT].
      cbn [eval]. rewrite !eval_fv_gvar.
      destruct (bit s (pre + r * diag + j) mainf ((k + nth main (rots_from zeros r) 0) mod nmain)) eqn:Eb; [|reflexivity].
      exact (HA r j k idx HjT Hj Hk Hidx Hne' Eb).
    + intros x Hx. apply in_LL_reqs in Hx. destruct Hx as (r & Hr & Hx).
      unfold seg_reqs in Hx. apply in_map_iff in Hx. destruct Hx as (l & <- & Hl). apply in_seq in Hl.
      change 2%Z with (zn 2). rewrite (req_rel_LT _ _ _ (Hpos _ l)), map_map. exact (HB r l Hr (proj2 Hl)).
Qed.

Definition xs : list (nat * nat) := map (fun f => (f, nlevels fb f)) fs.
Definition others : list (nat * nat) := remove_nth main xs.

Lemma xs_length : length xs = length fs.
Proof. unfold xs. apply map_length. Qed.

Lemma xs_pos : Forall (fun x => 0 < snd x) xs.
Proof.
  unfold xs. apply Forall_map. apply Forall_forall. intros f Hf. cbn [snd].
  destruct (Forall_In _ _ _ Hfs Hf) as [Ha _]. exact (f1_nlevels_pos fb HF1 f (f1_act_lt fb HF1 f Ha)).
Qed.

Lemma main_xs : main < length xs.
Proof. rewrite xs_length. exact (proj1 main_spec). Qed.

Lemma rots_from_at r : rots_from zeros r = rots_at main xs r.
Proof.
  unfold rots_from, rots_at, zeros, xs, nls. rewrite !map_map. reflexivity.
Qed.

Lemma others_length : length others = length fs - 1.
Proof. unfold others. rewrite (remove_nth_length _ _ main_xs). now rewrite xs_length. Qed.

Lemma unskip_lt p : p < length fs - 1 -> unskip main p < length fs.
Proof. intros H. unfold unskip. destruct (Nat.ltb_spec p main); lia. Qed.

Lemma others_nth p : p < length fs - 1 ->
  nth p others (0, 0) = (nth (unskip main p) fs 0, nlevels fb (nth (unskip main p) fs 0)).
Proof.
  intros Hp. unfold others. rewrite (remove_nth_nth _ _ _ _ main_xs) by (rewrite xs_length; exact Hp).
  unfold xs. exact (nth_map_lt _ fs _ _ 0 (unskip_lt p Hp)).
Qed.

Lemma rot_main r : rot r main = 0.
Proof. unfold rot. rewrite rots_from_at. exact (rots_at_main main xs main_xs xs_pos r). Qed.

Lemma rot_other r p : p < length fs - 1 -> rot r (unskip main p) = nth p (rotations others r) 0.
Proof.
  intros Hp. unfold rot. rewrite rots_from_at.
  apply (rots_at_others main xs main_xs xs_pos). fold others. now rewrite others_length.
Qed.

Lemma rots_len r : length others = length (rotations others r).
Proof. symmetry. apply rotations_length. Qed.

Lemma unskip_surj idx : idx < length fs -> idx <> main -> exists p, p < length fs - 1 /\ idx = unskip main p.
Proof.
  intros Hi Hne'. destruct main_spec as [Hm _]. unfold unskip. destruct (Nat.lt_ge_cases idx main) as [C|C].
  - exists idx. split; [lia|]. now rewrite (proj2 (Nat.ltb_lt _ _) C).
  - exists (idx - 1). split; [lia|]. rewrite (proj2 (Nat.ltb_ge _ _)); lia.
Qed.

Lemma unskip_ne p : unskip main p <> main.
Proof. unfold unskip. destruct (Nat.ltb_spec p main); lia. Qed.

(** [forallb] over a combination, by index *)
Lemma forallb_combine_nth {A B} (g : A * B -> bool) (la : list A) (lb : list B) (da : A) (db : B) :
  length la = length lb ->
  (forallb g (combine la lb) = true <-> forall p, p < length la -> g (nth p la da, nth p lb db) = true).
Proof.
  revert lb. induction la as [|a la IH]; intros [|b lb] H; cbn [length] in H; try discriminate.
  - cbn. split; [intros _ p Hp; lia|reflexivity].
  - cbn [combine forallb length]. rewrite andb_true_iff, (IH lb ltac:(lia)). split.
    + intros [H0 Hr] [|p] Hp; [exact H0|]. cbn [nth]. apply Hr. lia.
    + intros Hall. split; [exact (Hall 0 ltac:(lia))|]. intros p Hp. exact (Hall (S p) ltac:(lia)).
Qed.

Lemma js_nodup i : NoDup (js i).
Proof. unfold js. apply NoDup_filter. apply seq_NoDup. Qed.

(** [latin_ok] by segment [r] and position [j] in the segment, on a sequence
    whose main factor has a level below [diag] in every trial *)
Lemma latin_ok_seg q :
  (forall t, t < T fb -> exists k, k < diag /\ get_cell q mainf t = Some k) ->
  (latin_ok (code_sem fb) q mainf others diag pre 1 = true <->
   forall r j k, j < diag -> pre + r * diag + j < T fb -> k < diag -> get_cell q mainf (pre + r * diag + j) = Some k ->
     (forall p, p < length fs - 1 ->
        get_cell q (nth (unskip main p) fs 0) (pre + r * diag + j) =
        Some ((k + nth p (rotations others r) 0) mod nlevels fb (nth (unskip main p) fs 0))) /\
     (forall j', j' < diag -> pre + r * diag + j' < T fb -> j' <> j -> get_cell q mainf (pre + r * diag + j') <> Some k)).
Proof.
  intros Hc. pose proof diag_pos as Hd.
  unfold latin_ok. change (s_trials (code_sem fb)) with (T fb). rewrite forallb_forall. split.
  - intros H r j k Hj Ht _ Ek. specialize (H _ (in_seq0 _ _ Ht)). cbv beta zeta in H.
    rewrite (proj2 (Nat.ltb_ge _ _) (seg_le pre r diag j)), !Nat.div_1_r, (seg_of pre r diag j Hj), Ek in H.
    apply andb_true_iff in H. destruct H as [H1 H2]. split.
    + intros p Hp. apply cell_eqb_eq. rewrite <- (others_length) in Hp.
      pose proof (proj1 (forallb_combine_nth _ others (rotations others r) (0, 0) 0 (rots_len r)) H1 p Hp) as H1p.
      rewrite others_length in Hp. now rewrite (others_nth p Hp) in H1p.
    + intros j' Hj' Ht' Hjj Ek'. rewrite forallb_forall in H2. specialize (H2 _ (in_seq0 _ _ Ht')). cbv beta in H2.
      rewrite !Nat.div_1_r, (seg_of pre r diag j' Hj'), Nat.eqb_refl, (proj2 (Nat.leb_le _ _) (seg_le pre r diag j')), !seg_sub in H2.
      rewrite (proj2 (Nat.eqb_neq _ _)) in H2 by (intros E; apply Hjj; exact (proj1 (Nat.add_cancel_l _ _ _) E)).
      cbn [andb negb] in H2. apply negb_true_iff in H2. apply (proj2 (cell_eqb_eq _ (Some k))) in Ek'. congruence.
  - intros H t Ht. apply in_seq in Ht. destruct Ht as [_ Ht]. destruct (t <? pre) eqn:Etp; [reflexivity|]. apply Nat.ltb_ge in Etp.
    destruct (seg_decomp pre diag t Hd Etp) as (r & j & -> & Hj). rewrite !Nat.div_1_r, (seg_of pre r diag j Hj).
    destruct (Hc _ Ht) as (k & Hk & Ek). rewrite Ek. destruct (H r j k Hj Ht Hk Ek) as [HA HB]. apply andb_true_iff. split.
    + apply (proj2 (forallb_combine_nth _ others (rotations others r) (0, 0) 0 (rots_len r))).
      intros p Hp. rewrite others_length in Hp. rewrite (others_nth p Hp). apply cell_eqb_eq. exact (HA p Hp).
    + apply forallb_forall. intros t' Ht'. apply in_seq in Ht'. destruct Ht' as [_ Ht']. rewrite !Nat.div_1_r.
      destruct ((pre <=? t') && ((t' - pre) / diag =? r) && negb (t' - pre =? pre + r * diag + j - pre)) eqn:Ec; [|reflexivity].
      rewrite !andb_true_iff in Ec. destruct Ec as [[E1 E2] E3]. apply Nat.leb_le in E1. apply Nat.eqb_eq in E2.
      apply negb_true_iff in E3. apply Nat.eqb_neq in E3.
      destruct (seg_decomp pre diag t' Hd E1) as (r' & j' & -> & Hj'). rewrite (seg_of pre r' diag j' Hj') in E2. subst r'.
      apply negb_true_iff, not_true_is_false. intros Hcc. apply cell_eqb_eq in Hcc.
      apply (HB j' Hj' Ht'); [|exact Hcc]. intros ->. now apply E3.
Qed.

Lemma ntrue_lt2 (g : nat -> bool) (l : list nat) : NoDup l ->
  (ntrue (map g l) < 2 <-> forall a b, In a l -> In b l -> g a = true -> g b = true -> a = b).
Proof.
  intros Hnd. rewrite ntrue_map_filter. split.
  - intros H a b. apply filter_le1_unique. lia.
  - intros H. destruct (filter g l) as [|a [|b r]] eqn:E; cbn [length]; try lia. exfalso.
    assert (Ha : In a (filter g l)) by (rewrite E; now left). assert (Hb : In b (filter g l)) by (rewrite E; right; now left).
    apply filter_In in Ha, Hb. destruct Ha as [Ha Ga], Hb as [Hb Gb]. pose proof (H a b Ha Hb Ga Gb) as Eab. subst b.
    pose proof (NoDup_filter g Hnd) as Hndf. rewrite E in Hndf. inversion Hndf as [|? ? Hnin _]; subst. apply Hnin. now left.
Qed.

Lemma fs_bit s q t idx l : onehot fb s q -> t < T fb -> idx < length fs -> l < nlevels fb (nth idx fs 0) ->
  (bit s t (nth idx fs 0) l = true <-> get_cell q (nth idx fs 0) t = Some l).
Proof. intros Ho Ht Hidx Hl. destruct (fs_act idx Hidx) as [Ha Hcx]. exact (onehot_bit_true fb HF1 s q t _ l Ho Ht Ha Hcx Hl). Qed.

Lemma main_bit s q t l : onehot fb s q -> t < T fb -> l < diag ->
  (bit s t mainf l = true <-> get_cell q mainf t = Some l).
Proof.
  intros Ho Ht Hl. destruct main_spec as [Hm _]. apply (fs_bit s q t main l Ho Ht Hm).
  fold mainf. now rewrite (proj2 (proj2 mainf_act)).
Qed.

Theorem latin_sem s q :
  onehot fb s q ->
  (Pseg s <-> latin_ok (code_sem fb) q mainf others diag pre 1 = true).
Proof.
  intros Ho. destruct main_spec as [Hm Hnm]. destruct mainf_act as (Hma & Hmc & Hml).
  rewrite latin_ok_seg.
  2:{ intros t Ht. rewrite <- Hml. exact (onehot_simple_cell fb HF1 s q t mainf Ho Ht Hma Hmc). }
  unfold Pseg. split.
  - intros [HA HB] r j k Hj Ht Hk Ek. split.
    + intros p Hp. pose proof (unskip_lt p Hp) as Hu.
      rewrite <- (nls_nth _ Hu), <- (rot_other r p Hp).
      apply (fs_bit s q _ _ _ Ho Ht Hu (nls_mod _ _ Hu)). apply (HA r j k _ Ht Hj Hk Hu (unskip_ne p)).
      rewrite rot_main, Nat.add_0_r, Hnm, (Nat.mod_small k diag Hk). now apply (main_bit s q _ k Ho Ht Hk).
    + intros j' Hj' Ht' Hjj Ek'. apply Hjj.
      rewrite <- Hnm in Hk. pose proof (HB r k (Nat.le_lt_trans _ _ _ (Nat.le_add_r _ j) Ht) Hk) as H2. rewrite Hnm in Hk.
      apply (proj1 (ntrue_lt2 _ _ (js_nodup _)) H2); [now apply in_js|now apply in_js| |]; now apply (main_bit s q _ k Ho).
  - intros H. split.
    + intros r j k idx Ht Hj Hk Hidx Hne' Hb.
      rewrite rot_main, Nat.add_0_r, Hnm, (Nat.mod_small k diag Hk) in Hb. apply (main_bit s q _ k Ho Ht Hk) in Hb.
      destruct (H r j k Hj Ht Hk Hb) as [HA _]. destruct (unskip_surj idx Hidx Hne') as (p & Hp & ->).
      pose proof (unskip_lt p Hp) as Hu. rewrite (rot_other r p Hp).
      apply (fs_bit s q _ _ _ Ho Ht Hu (nls_mod _ _ Hu)). rewrite (nls_nth _ Hu). exact (HA p Hp).
    + intros r l Hr Hl. rewrite Hnm in Hl. apply (ntrue_lt2 _ _ (js_nodup _)). intros a b Hja Hjb Ga Gb.
      apply in_js in Hja, Hjb. destruct Hja as [Ha1 Ha2], Hjb as [Hb1 Hb2].
      apply (main_bit s q _ l Ho Ha2 Hl) in Ga. apply (main_bit s q _ l Ho Hb2 Hl) in Gb.
      destruct (Nat.eq_dec a b) as [E|N]; [exact E|exfalso].
      destruct (H r b l Hb1 Hb2 Hl Gb) as [_ HB]. exact (HB a Ha1 Ha2 N Ga).
Qed.

End One.
Definition Platin (fs : list nat) (s : asg) : Prop :=
  match fs with
  | [] | [_] => True
  | f0 :: _ => Platin_one fs (pre_of fb f0) s
  end.

Lemma latin_guard f0 f1 r :
  constraint_f1 fb (FLatin (f0 :: f1 :: r)) = true ->
  Forall (fun f => isact fb f = true /\ is_complex fb f = false) (f0 :: f1 :: r) /\
  sustain_of fb f0 = 1 /\ factor_preamble_size fb f0 = COk (pre_of fb f0).
Proof.
  cbn [constraint_f1]. rewrite !andb_true_iff. intros [[A B] C]. apply Nat.eqb_eq in B. split; [|split; [exact B|]].
  - rewrite forallb_forall in A. apply Forall_forall. intros f Hf. specialize (A f Hf).
    apply andb_true_iff in A. destruct A as [A1 A2]. apply negb_true_iff in A2. now split.
  - unfold pre_of. destruct (factor_preamble_size fb f0); [reflexivity|discriminate].
Qed.

Lemma apply_latin_eq f0 f1 r fresh :
  constraint_f1 fb (FLatin (f0 :: f1 :: r)) = true ->
  apply_constraint fb (FLatin (f0 :: f1 :: r)) fresh =
  tseitin_contrib (fst (LL (f0 :: f1 :: r) (pre_of fb f0))) (snd (LL (f0 :: f1 :: r) (pre_of fb f0))) fresh.
Proof.
  intros Hc. destruct (latin_guard f0 f1 r Hc) as (Hfs & Hsu & Hpre).
  cbn [apply_constraint]. unfold apply_latin. rewrite Hpre, Hsu. cbn [cbind].
  rewrite (latin_loop_eq (f0 :: f1 :: r) Hfs ltac:(discriminate) (S (T fb)) (pre_of fb f0) _ ltac:(lia)). cbn [cbind].
  reflexivity.
Qed.

Lemma step_latin fs :
  constraint_f1 fb (FLatin fs) = true ->
  forall fresh ct, (GZ < fresh)%Z -> apply_constraint fb (FLatin fs) fresh = COk ct ->
  exists ext, DefinesA (fresh - 1) (ct_fresh ct - 1) (ct_clauses ct) (ct_requests ct) ext (Platin fs).
Proof.
  intros Hc fresh ct Hfr E. destruct fs as [|f0 [|f1 r]]; [discriminate Hc| |].
  - cbn [apply_constraint] in E. unfold apply_latin in E. inversion E. subst ct. cbn [ct_fresh ct_clauses ct_requests Platin].
    exists (fun s => s). apply definesA_nil. unfold F1Kinds.GZ, zn in Hfr. lia.
  - rewrite (apply_latin_eq f0 f1 r fresh Hc) in E. destruct (latin_guard f0 f1 r Hc) as (Hfs & _ & _).
    exact (latin_block (f0 :: f1 :: r) Hfs ltac:(discriminate) (pre_of fb f0) fresh ct Hfr E).
Qed.

Lemma latin_total fs fresh :
  constraint_f1 fb (FLatin fs) = true -> exists ct, apply_constraint fb (FLatin fs) fresh = COk ct.
Proof.
  intros Hc. destruct fs as [|f0 [|f1 r]]; [discriminate Hc| |].
  - cbn [apply_constraint]. unfold apply_latin. eexists. reflexivity.
  - rewrite (apply_latin_eq f0 f1 r fresh Hc). apply tseitin_contrib_total.
Qed.

Lemma remove_nth_map {A B} (g : A -> B) k (l : list A) : remove_nth k (map g l) = map g (remove_nth k l).
Proof. unfold remove_nth. now rewrite map_app, firstn_map, skipn_map. Qed.

Theorem latin_sem_c s q fs :
  onehot fb s q -> constraint_f1 fb (FLatin fs) = true ->
  (Platin fs s <-> forallb (constraint_ok (code_sem fb) q) (code_constraint fb (FLatin fs)) = true).
Proof.
  intros Ho Hc. destruct fs as [|f0 [|f1 r]]; [discriminate Hc| |].
  - cbn [Platin code_constraint forallb]. tauto.
  - destruct (latin_guard f0 f1 r Hc) as (Hfs & Hsu & _).
    assert (Hne : f0 :: f1 :: r <> []) by discriminate.
    change (Platin (f0 :: f1 :: r) s) with (Platin_one (f0 :: f1 :: r) (pre_of fb f0) s).
    rewrite (platin_seg _ Hfs Hne (pre_of fb f0) s), (latin_sem _ Hfs Hne (pre_of fb f0) s q Ho).
    unfold code_constraint. cbn [forallb]. rewrite andb_true_r.
    unfold constraint_ok, mk_c. cbn [k_kind k_factor k_level k_windows]. rewrite Hsu.
    rewrite (flat_map_remove_nth (fun f => (f, nlevels fb f))).
    unfold others, xs. rewrite remove_nth_map. reflexivity.
Qed.

End F1Latin.
