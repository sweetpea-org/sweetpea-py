(** Small generic lemmas between the counting functions of the propositional
    layer ([Bits.count], requests) and boolean lists ([Runs.ntrue]), slices of
    rows, and the chunking of [Cross.__add_weight_constraint] against the
    chunking of the reference semantics ([Sem.chunks_ok]). *)
From Coq Require Import ZArith List Bool Arith Lia.
From SP Require Import Base.Lists Base.Sat Base.Bits Core.Card Core.CardProofs Design.Sem.
From SP Require Import Encode.Compile Encode.Generic Encode.Runs.
Import ListNotations.
Close Scope Z_scope.
Open Scope nat_scope.

(** * count of positive variables = ntrue of their values *)
Lemma count_pos s (vs : list Z) :
  Forall (fun v => (0 < v)%Z) vs ->
  count s vs = Z.of_nat (ntrue (map s vs)).
Proof.
  intros H. unfold count, ntrue. f_equal.
  induction H as [|v vl Hv _ IH]; [reflexivity|].
  cbn [map filter]. rewrite lit_true_pos by lia.
  destruct (s v); cbn [length]; now rewrite IH.
Qed.

Lemma count_zs s (vl : list nat) :
  Forall (fun v => 0 < v) vl ->
  count s (zs vl) = Z.of_nat (ntrue (map (fun v => s (zn v)) vl)).
Proof.
  intros H. unfold zs. rewrite count_pos, map_map; [reflexivity|].
  apply Forall_map. eapply Forall_impl; [|exact H]. intros v Hv. cbv beta in Hv. unfold zn. lia.
Qed.

Lemma req_rel_LT s k vl :
  Forall (fun v => 0 < v) vl ->
  (req_rel s (LT, zn k, zs vl) <-> ntrue (map (fun v => s (zn v)) vl) < k).
Proof. intros H. cbn [req_rel rel]. rewrite (count_zs s vl H). unfold zn. lia. Qed.

Lemma req_rel_EQ s k vl :
  Forall (fun v => 0 < v) vl ->
  (req_rel s (EQ, zn k, zs vl) <-> ntrue (map (fun v => s (zn v)) vl) = k).
Proof. intros H. cbn [req_rel rel]. rewrite (count_zs s vl H). unfold zn. lia. Qed.

Lemma req_ok_zs n (kd : kind) k vl :
  vl <> [] -> Forall (fun v => 0 < v /\ (zn v <= n)%Z) vl -> req_ok n (kd, zn k, zs vl).
Proof.
  intros Hne H. cbn [req_ok]. split; [unfold zn; lia|]. split.
  - destruct vl; [contradiction|discriminate].
  - unfold zs. apply Forall_map. eapply Forall_impl; [|exact H]. intros v [A B]. unfold inr, zn in *. lia.
Qed.

Lemma slice_seq {A} (row : list A) (d : A) a b :
  b <= length row -> slice row a b = map (fun t => nth t row d) (seq a (b - a)).
Proof.
  unfold slice. revert a b. induction row as [|x row IH]; intros a b Hb.
  - cbn [length] in Hb. replace (b - a) with 0 by lia. now destruct a.
  - destruct a as [|a].
    + cbn [skipn]. rewrite Nat.sub_0_r. destruct b as [|b]; [reflexivity|].
      cbn [firstn seq map nth]. f_equal. cbn [length] in Hb.
      specialize (IH 0 b ltac:(lia)). cbn [skipn] in IH. rewrite Nat.sub_0_r in IH. rewrite IH.
      rewrite <- seq_shift, map_map. reflexivity.
    + cbn [skipn]. destruct b as [|b]; [reflexivity|]. cbn [length] in Hb.
      replace (S b - S a) with (b - a) by lia. rewrite (IH a b ltac:(lia)).
      rewrite <- seq_shift, map_map. reflexivity.
Qed.

Lemma map_seq_slice {A B} (g : A -> B) (row : list A) (d : A) a b :
  b <= length row ->
  map g (slice row a b) = map (fun t => g (nth t row d)) (seq a (b - a)).
Proof. intros H. rewrite (slice_seq row d a b H), map_map. reflexivity. Qed.

Lemma filter_length_eq {A} (p : A -> bool) (l : list A) :
  length (filter p l) = length l -> filter p l = l.
Proof.
  induction l as [|x l IH]; [reflexivity|]. cbn [filter]. destruct (p x); cbn [length]; intros H.
  - f_equal. apply IH. lia.
  - pose proof (filter_length_le p l). lia.
Qed.

Lemma Forall_iff_ext {A} (P Q : A -> Prop) (l : list A) :
  (forall x, In x l -> (P x <-> Q x)) -> (Forall P l <-> Forall Q l).
Proof.
  intros H. rewrite !Forall_forall. split; intros F x Hx; apply (H x Hx); now apply F.
Qed.
