(** The (b) half of [Cross] in the fragment F1: on a one-hot grid the chunked
    counting condition [Pcross1] of Encode/F1Cross.v is the documented meaning
    ([Sem.crossing_ok] on [code_crossing]) of the sequence the grid encodes. *)
From Coq Require Import ZArith List Bool Arith Lia.
From SP Require Import Base.Lists Base.Sat Base.Bits.
From SP Require Import Design.Flat Design.Layout Design.Sem Design.SemFacts.
From SP Require Import Encode.Compile Encode.CodeSem Encode.Runs Encode.GridLemmas Encode.CrossChunks
     Encode.LayoutF1 Encode.F1Lists Encode.F1Kinds Encode.F1Cross Encode.F1Sem.
Import ListNotations.
Close Scope Z_scope.
Open Scope nat_scope.

Lemma list_eqb_combo (g : nat -> cell) (di : list (nat * nat)) :
  list_eqb cell_eqb (map Some (map snd di)) (map g (map fst di)) =
  forallb (fun p => cell_eqb (Some (snd p)) (g (fst p))) di.
Proof. induction di as [|p di IH]; [reflexivity|]. cbn [map list_eqb forallb]. now rewrite IH. Qed.

Lemma combo_eqb_self (q : tseq) (lv : nat -> nat) (c : list nat) t :
  (forall f, In f c -> get_cell q f t = Some (lv f)) ->
  combo_eqb (map lv c) (combo_at q c t) = true.
Proof.
  unfold combo_eqb, combo_at. induction c as [|f c IH]; intros H; [reflexivity|].
  cbn [map list_eqb]. rewrite (H f (or_introl eq_refl)). cbn [cell_eqb]. rewrite Nat.eqb_refl, IH; [reflexivity|].
  intros g Hg. apply H. now right.
Qed.

Section F1CrossSem.
Variable fb : flat.
Hypothesis HF1 : in_f1 fb = true.
Hypothesis HT : 0 < T fb.

(** every in-range assignment of levels to the crossed factors is a combination *)
Lemma combos_mem (lv : nat -> nat) (c : list nat) :
  (forall f, In f c -> lv f < nlevels fb f) ->
  In (map (fun f => (f, lv f)) c) (crossing_combos fb c).
Proof.
  induction c as [|f c IH]; intros H; [now left|].
  rewrite combos_cons. apply in_flat_map. exists (lv f). split.
  - apply in_seq. pose proof (H f (or_introl eq_refl)). lia.
  - cbn [map]. apply in_map. apply IH. intros g Hg. apply H. now right.
Qed.

(** "trial t shows combination di" on the grid and on the sequence *)
Lemma cbit_combo s q di t :
  onehot fb s q -> t < T fb ->
  Forall (fun f => isact fb f = true) (map fst di) ->
  Forall (fun f => lappl fb f t = true) (map fst di) ->
  Forall (fun p => snd p < nlevels fb (fst p)) di ->
  combo_eqb (map snd di) (combo_at q (map fst di) t) = cbit fb s di t.
Proof.
  intros Ho Ht Hf Ha Hl. unfold combo_eqb, combo_at. rewrite list_eqb_combo. unfold cbit.
  apply forallb_ext_in. intros p Hp.
  assert (Hfp : isact fb (fst p) = true) by (apply (proj1 (Forall_forall _ _) Hf); now apply in_map).
  assert (Hap : lappl fb (fst p) t = true) by (apply (proj1 (Forall_forall _ _) Ha); now apply in_map).
  rewrite (onehot_bit fb s q t (fst p) (snd p) Ho Ht Hfp Hap (Forall_In _ _ _ Hl Hp)). unfold is_level. apply cell_eqb_sym.
Qed.

(** no trial of the grid shows a combination the crossing excludes (proved from
    the Exclude and Derivation constraints in Encode/F1Excl.v) *)
Definition NoExcl (s : asg) : Prop :=
  forall c di t, Forall (fun f => isact fb f = true) c -> Forall (fun f => lappl fb f t = true) c ->
    In di (crossing_combos fb c) -> t < T fb ->
    cbit fb s di t = true -> is_excluded_or_inconsistent fb di = false.

(** on a complete sequence every trial shows some admitted combination *)
Lemma onehot_matched s q c t (mul : list (nat * nat) -> nat) :
  onehot fb s q -> NoExcl s -> Forall (fun f => isact fb f = true) c -> Forall (fun f => lappl fb f t = true) c -> t < T fb ->
  existsb (fun cm : list nat * nat => combo_eqb (fst cm) (combo_at q c t))
          (map (fun di => (map snd di, mul di)) (trial_combinations_of fb c)) = true.
Proof.
  intros Ho Hne Hf Ha Ht. apply existsb_exists.
  set (lv := fun f => match get_cell q f t with Some l => l | None => 0 end).
  assert (Hlv : forall f, In f c -> lv f < nlevels fb f /\ get_cell q f t = Some (lv f)).
  { intros f Hin. destruct (onehot_level fb s q t f Ho Ht (Forall_In _ _ _ Hf Hin) (Forall_In _ _ _ Ha Hin)) as (l & Hl & El).
    unfold lv. rewrite El. split; [exact Hl|reflexivity]. }
  set (di0 := map (fun f => (f, lv f)) c).
  assert (Hfst : map fst di0 = c) by (unfold di0; rewrite map_map; cbn [fst]; apply map_id).
  assert (Hsnd : map snd di0 = map lv c) by (unfold di0; rewrite map_map; reflexivity).
  assert (Hin0 : In di0 (crossing_combos fb c)) by (apply combos_mem; intros f Hin; apply (Hlv f Hin)).
  assert (Hself : combo_eqb (map snd di0) (combo_at q c t) = true).
  { rewrite Hsnd. apply combo_eqb_self. intros f Hin. apply (Hlv f Hin). }
  assert (Hshow : cbit fb s di0 t = true).
  { destruct (combos_spec fb HF1 HT c di0 Hin0) as [_ B].
    rewrite <- (cbit_combo s q di0 t Ho Ht); [rewrite Hfst; exact Hself|rewrite Hfst; exact Hf|rewrite Hfst; exact Ha|exact B]. }
  exists (map snd di0, mul di0). split.
  - apply (in_map (fun di => (map snd di, mul di))). unfold trial_combinations_of. apply filter_In. split; [exact Hin0|].
    now rewrite (Hne c di0 t Hf Ha Hin0 Ht Hshow).
  - cbn [fst]. exact Hself.
Qed.

Theorem cross1_sem s q i c :
  onehot fb s q -> NoExcl s -> crossing_f1 fb i c = true ->
  (Pcross1 fb i c s <-> crossing_ok (code_sem fb) q (code_crossing fb i c) = true).
Proof.
  intros Ho Hne Hcf. pose proof (crossing_f1_factors fb i c Hcf) as Hc.
  destruct (crossing_f1_starts fb i c Hcf) as [Hpre Hc2].
  unfold crossing_f1 in Hcf. rewrite !andb_true_iff in Hcf. destruct Hcf as [[[_ Hsize] _] _].
  unfold crossing_ok.
  set (cc := code_crossing fb i c). set (pre := preamble_size fb i) in *.
  pose proof (fun t => starts_appl fb HF1 c pre t Hc Hc2) as Happ.
  assert (Hchunk : c_chunk cc = nth i (fl_sizes fb) 0 * crossing_weight fb c) by reflexivity.
  assert (Hfirst : c_first cc = pre) by reflexivity.
  assert (Hfac : c_factors cc = c) by reflexivity.
  assert (Hmult : c_mult cc = map (fun di => (map snd di, combination_weight fb di * sustain_of fb (hd 0 c) * crossing_weight fb c))
                                  (trial_combinations_of fb c)) by reflexivity.
  assert (Htr : s_trials (code_sem fb) = T fb) by reflexivity.
  assert (Hpos : 0 < c_chunk cc) by (rewrite Hchunk; apply Nat.ltb_lt; exact Hsize).
  assert (Hfuel : s_trials (code_sem fb) - pre < S (s_trials (code_sem fb))) by lia.
  rewrite Hfirst, Hchunk, Hsize, andb_true_l.
  rewrite (chunks_awc (code_sem fb) q cc Hpos (S (s_trials (code_sem fb))) pre Hfuel).
  assert (Hm : forall t, pre <= t < s_trials (code_sem fb) -> matched q cc t).
  { intros t Ht. rewrite Htr in Ht. unfold matched. rewrite Hfac, Hmult. apply (onehot_matched s q c t _ Ho Hne Hc); [apply Happ|]; lia. }
  rewrite Hmult, Forall_map, Hchunk. unfold Pcross1. fold pre.
  apply (iff_and_l _ _ _ Hm), Forall_iff_ext. intros di Hdi.
  destruct (combos_spec fb HF1 HT c di (tcs_sub fb c di Hdi)) as [A B].
  cbn [snd]. rewrite Htr. unfold cbits. rewrite Htr, Hfac. cbn [fst]. rewrite skipn_map_seq.
  replace (map (fun t => combo_eqb (map snd di) (combo_at q c t)) (seq pre (T fb - pre)))
    with (map (cbit fb s di) (seq pre (T fb - pre))).
  - apply awc_ok_fuel; [rewrite <- Hchunk; exact Hpos| |]; rewrite map_length, seq_length; lia.
  - apply map_ext_in. intros t Ht. apply in_seq in Ht. symmetry. rewrite <- A.
    apply cbit_combo; [exact Ho|lia|rewrite A; exact Hc|rewrite A; apply Happ; lia|exact B].
Qed.

Theorem crossings_sem s q : forall cs i,
  onehot fb s q -> NoExcl s -> crossings_f1 fb i cs = true ->
  (Pcrossings fb i cs s <-> forallb (crossing_ok (code_sem fb) q) (code_crossings fb i cs) = true).
Proof.
  induction cs as [|c cs IH]; intros i Ho Hne Hf.
  - cbn [Pcrossings code_crossings forallb]. split; trivial.
  - cbn [crossings_f1] in Hf. apply andb_true_iff in Hf. destruct Hf as [Hc Hcs].
    cbn [Pcrossings code_crossings forallb]. rewrite andb_true_iff, (cross1_sem s q i c Ho Hne Hc), (IH (S i) Ho Hne Hcs).
    reflexivity.
Qed.

End F1CrossSem.

Check cross1_sem.
Check crossings_sem.
Print Assumptions cross1_sem.
Print Assumptions crossings_sem.
