(** The [Sequential] constraint in the fragment F1: (a) its contribution to the
    backend request is a definitional block asserting that in the first trial
    of the k-th group of [sustain] trials after the preamble exactly level
    (k mod nlevels) of the factor is on; (b) on a one-hot grid whose rows are
    constant on the sustain groups that is the documented meaning
    ([Design/Sem.v], [KSequential]) on the decoded sequence. *)
From Coq Require Import ZArith List Bool Arith Lia.
From SP Require Import Base.Lists Base.Sat Base.Bits Core.Card Core.CardProofs.
From SP Require Import Logic.Formula Logic.Tseitin Logic.TseitinProofs.
From SP Require Import Design.Flat Design.Layout Design.Sem Design.SemFacts.
From SP Require Import Encode.Compile Encode.CodeSem Encode.Generic Encode.Blocks Encode.Runs
     Encode.GridLemmas Encode.CrossChunks Encode.LayoutF1 Encode.F1Lists Encode.F1Kinds Encode.F1Cross Encode.F1Sem Encode.F1Sustain.
Import ListNotations.
Close Scope Z_scope.
Open Scope nat_scope.

Section F1Sequential.
Variable fb : flat.
Hypothesis HF1 : in_f1 fb = true.
Hypothesis HT : 0 < T fb.

Notation GZ := (GZ fb).
Notation bit := (bit fb).

(** what Sequential says about the boolean grid: in the first trial of the k-th
    group after the preamble exactly level (k mod nlevels) is on *)
Definition Psequential (f : nat) (s : asg) : Prop :=
  forall k l, pre_of fb f + k * sustain_of fb f < T fb -> l < nlevels fb f ->
    bit s (pre_of fb f + k * sustain_of fb f) f l = (l =? k mod nlevels fb f).

(** the guard: a factor without a complex window whose preamble is a whole number of its sustain groups *)
Lemma seq_guard f : constraint_f1 fb (FSequential f) = true ->
  isact fb f = true /\ is_complex fb f = false /\ factor_preamble_size fb f = COk (pre_of fb f) /\
  pre_of fb f mod sustain_of fb f = 0.
Proof.
  cbn [constraint_f1]. rewrite !andb_true_iff. intros [[A B] C]. apply negb_true_iff in B.
  split; [exact A|]. split; [exact B|]. unfold pre_of.
  destruct (factor_preamble_size fb f) as [p|e]; [|discriminate]. split; [reflexivity|now apply Nat.eqb_eq].
Qed.

Definition seq_lit (f pre sc i l : nat) : fm :=
  if l =? ((i - pre) / sc) mod nlevels fb f then fv (gvar fb i f l) else FNot (fv (gvar fb i f l)).

Definition seq_lits (fuel f pre sc i : nat) : list fm :=
  strided (T fb) sc (fun i _ => map (seq_lit f pre sc i) (seq 0 (nlevels fb f))) (fun u : unit => u) fuel i tt.

Lemma seq_loop_unroll f pre sc : isact fb f = true -> 0 < sc -> forall fuel i,
  T fb - i < fuel -> seq_loop fb fuel f (nlevels fb f) sc pre i = COk (seq_lits fuel f pre sc i).
Proof.
  intros Hf Hsc. induction fuel as [|fuel IH]; intros i Hfu; [lia|].
  unfold seq_lits. cbn [seq_loop strided]. destruct (i <? T fb) eqn:Ei; cbn [negb]; [|reflexivity].
  apply Nat.ltb_lt in Ei.
  rewrite (cmapM_ok _ (seq_lit f pre sc i)).
  2:{ intros l Hl. apply in_seq in Hl. rewrite Nat.add_1_r, (f1_get_variable fb HF1 f l i Hf ltac:(lia)).
      cbn [cbind]. unfold seq_lit. reflexivity. }
  cbn [cbind]. rewrite (IH (i + sc) ltac:(lia)). reflexivity.
Qed.

Lemma in_seq_lits f pre sc x : 0 < sc -> forall fuel i, T fb - i < fuel ->
  (In x (seq_lits fuel f pre sc i) <->
   exists j l, i + j * sc < T fb /\ l < nlevels fb f /\ x = seq_lit f pre sc (i + j * sc) l).
Proof.
  intros Hsc fuel i Hfu. unfold seq_lits. rewrite (in_strided _ _ _ _ x Hsc fuel i tt Hfu). split.
  - intros (j & Hj & H). apply in_map_iff in H. destruct H as (l & <- & Hl). apply in_seq in Hl. exists j, l. now repeat split.
  - intros (j & l & Hj & Hl & ->). exists j. split; [exact Hj|]. apply in_map. now apply in_seq0.
Qed.

Lemma eval_seq_lit s f pre sc t l :
  eval s (seq_lit f pre sc t l) = eqb (bit s t f l) (l =? ((t - pre) / sc) mod nlevels fb f).
Proof.
  unfold seq_lit. destruct (l =? ((t - pre) / sc) mod nlevels fb f); cbn [eval]; rewrite eval_fv_gvar;
    destruct (bit s t f l); reflexivity.
Qed.

Lemma eval_seq_lits s f : 0 < sustain_of fb f ->
  eval s (FAnd (seq_lits (S (T fb)) f (pre_of fb f) (sustain_of fb f) (pre_of fb f))) = true <-> Psequential f s.
Proof.
  intros Hsc. cbn [eval]. rewrite forallb_forall. unfold Psequential. set (pre := pre_of fb f). set (sc := sustain_of fb f) in *.
  split.
  - intros H k l Ht Hl. specialize (H (seq_lit f pre sc (pre + k * sc) l)).
    rewrite eval_seq_lit, (grp_of pre k sc Hsc) in H. apply eqb_prop. apply H.
    apply (in_seq_lits f pre sc _ Hsc (S (T fb)) pre (sub_lt_S _ _)). exists k, l. auto.
  - intros H x Hx. apply (in_seq_lits f pre sc _ Hsc (S (T fb)) pre (sub_lt_S _ _)) in Hx.
    destruct Hx as (k & l & Ht & Hl & ->).
    rewrite eval_seq_lit, (grp_of pre k sc Hsc), (H k l Ht Hl). apply eqb_reflx.
Qed.

Lemma apply_sequential_eq f fresh : constraint_f1 fb (FSequential f) = true ->
  apply_constraint fb (FSequential f) fresh =
  tseitin_contrib (seq_lits (S (T fb)) f (pre_of fb f) (sustain_of fb f) (pre_of fb f)) [] fresh.
Proof.
  intros Hc. destruct (seq_guard f Hc) as (Hf & Hcx & Hfps & Hdiv). cbn [apply_constraint]. unfold apply_sequential.
  rewrite Hfps. cbn [cbind].
  pose proof (f1_nlevels_pos fb HF1 f (f1_act_lt fb HF1 f Hf)) as Hn.
  pose proof (f1_sustain_pos fb (in_f1_facts fb HF1) f) as Hsc.
  replace (nlevels fb f =? 0) with false by (symmetry; apply Nat.eqb_neq; lia).
  replace (sustain_of fb f =? 0) with false by (symmetry; apply Nat.eqb_neq; lia). cbn [orb]. rewrite andb_false_r.
  rewrite (seq_loop_unroll f (pre_of fb f) (sustain_of fb f) Hf Hsc (S (T fb)) (pre_of fb f) (sub_lt_S _ _)). cbn [cbind]. reflexivity.
Qed.

Lemma step_sequential f :
  constraint_f1 fb (FSequential f) = true ->
  forall fresh ct, (GZ < fresh)%Z -> apply_constraint fb (FSequential f) fresh = COk ct ->
  exists ext, DefinesA (fresh - 1) (ct_fresh ct - 1) (ct_clauses ct) (ct_requests ct) ext (Psequential f).
Proof.
  intros Hc0 fresh ct Hfr E. destruct (seq_guard f Hc0) as (Hc & Hcx & Hfps & Hdiv).
  pose proof (f1_sustain_pos fb (in_f1_facts fb HF1) f) as Hsc.
  rewrite (apply_sequential_eq f fresh Hc0) in E.
  pose proof (GZ_nonneg fb) as HGZ.
  assert (HL : forall z, In z (leaves (FAnd (seq_lits (S (T fb)) f (pre_of fb f) (sustain_of fb f) (pre_of fb f)))) ->
                         z <> 0%Z /\ (Z.abs z < fresh)%Z).
  { intros z Hz. cbn [leaves] in Hz. apply in_flat_map in Hz. destruct Hz as (x & Hx & Hz).
    apply (in_seq_lits f _ _ _ Hsc (S (T fb)) _ (sub_lt_S _ _)) in Hx. destruct Hx as (k & l & Ht & Hl & ->).
    unfold seq_lit in Hz. destruct (l =? _); cbn [leaves] in Hz; revert Hz;
      exact (fv_gvar_leaf fb HF1 HT _ f l fresh z Ht Hc Hl (lappl_simple fb HF1 f _ Hc Hcx) Hfr). }
  destruct (step_tseitin _ fresh ct ltac:(lia) HL E) as (ext & D).
  exists ext. apply (definesA_conseq _ _ _ _ _ _ _ D). intros s. now apply eval_seq_lits.
Qed.

Lemma sequential_total f fresh :
  constraint_f1 fb (FSequential f) = true -> exists ct, apply_constraint fb (FSequential f) fresh = COk ct.
Proof.
  intros Hc0. rewrite (apply_sequential_eq f fresh Hc0). apply tseitin_contrib_total.
Qed.

Lemma code_nlevels f :
  match nth_error (s_factors (code_sem fb)) f with Some fd => f_nlevels fd | None => 0 end = nlevels fb f.
Proof.
  unfold code_sem. cbn [s_factors]. rewrite List.nth_error_map, Base.Lists.nth_error_combine_seq. unfold nlevels, factor_at.
  destruct (nth_error (fl_design fb) f) as [fd|]; reflexivity.
Qed.

Theorem sequential_sem s q f :
  onehot fb s q -> grouped fb q -> constraint_f1 fb (FSequential f) = true ->
  (Psequential f s <-> forallb (constraint_ok (code_sem fb) q) (code_constraint fb (FSequential f)) = true).
Proof using HF1 HT.
  intros Ho Hg Hc0. destruct (seq_guard f Hc0) as (Hc & Hcx & Hfps & Hdiv).
  pose proof (f1_nlevels_pos fb HF1 f (f1_act_lt fb HF1 f Hc)) as Hn.
  pose proof (f1_sustain_pos fb (in_f1_facts fb HF1) f) as Hsc.
  cbn [code_constraint forallb]. rewrite andb_true_r.
  unfold constraint_ok, mk_c. cbn [k_kind k_factor k_level k_windows].
  rewrite code_nlevels. change (s_trials (code_sem fb)) with (T fb).
  rewrite forallb_forall. unfold Psequential. split.
  - intros H t Ht. apply in_seq in Ht. destruct Ht as [_ Ht]. destruct (t <? pre_of fb f) eqn:Etp; [reflexivity|]. apply Nat.ltb_ge in Etp.
    (* the group of a trial after the preamble starts at pre + k * sc: read the cell there *)
    pose proof (group_start _ _ t Hsc Hdiv Etp) as Eg. pose proof (group_le t (sustain_of fb f)) as Ht0. rewrite Eg in Ht0.
    pose proof (Nat.le_lt_trans _ _ _ Ht0 Ht) as HtT. pose proof (mod_lt ((t - pre_of fb f) / sustain_of fb f) _ Hn) as Hmn.
    change (nth t (nth f q []) None) with (get_cell q f t). apply cell_eqb_eq.
    rewrite <- (Hg f t Hc Ht), Eg. apply (onehot_bit_true fb HF1 s q _ f _ Ho HtT Hc Hcx Hmn).
    rewrite (H _ _ HtT Hmn). apply Nat.eqb_refl.
  - intros H k l Ht Hl. specialize (H _ (in_seq0 _ _ Ht)). cbv beta in H.
    rewrite (proj2 (Nat.ltb_ge _ _) (Nat.le_add_r _ _)), (grp_of _ k _ Hsc) in H.
    change (nth ?t (nth f q []) None) with (get_cell q f t) in H. apply cell_eqb_eq in H.
    rewrite (onehot_simple_bit fb HF1 s q _ f l Ho Ht Hc Hcx Hl), H, is_level_some. apply Nat.eqb_sym.
Qed.

End F1Sequential.

Check Psequential.
Check step_sequential.
Check sequential_total.
Check sequential_sem.
Print Assumptions step_sequential.
Print Assumptions sequential_total.
Print Assumptions sequential_sem.
