(** [compile_denotes]: in the fragment F1 the backend request compiled from a
    flat record denotes exactly the sequences valid for [code_sem fb]
    (reference semantics of Design/Sem.v): an assignment satisfies the request
    iff its auxiliary variables (Cross state variables, Tseitin variables) carry
    the values a fixed function [ext] of the grid computes, and its grid part is
    the one-hot image of a valid sequence.  Composed with the generic step from a
    request to the final CNF ([Blocks.block_full_cnf]) this gives the statements about the formula
    handed to the solver: soundness (C01), completeness (C02), unique
    extension (C03). *)
From Coq Require Import ZArith List Bool Arith Lia.
From SP Require Import Base.Lists Base.Sat Base.Bits Core.Card Core.CardProofs.
From SP Require Import Logic.Formula.
From SP Require Import Design.Flat Design.Layout Design.Sem Design.SemFacts.
From SP Require Import Encode.Compile Encode.CodeSem Encode.Generic Encode.Blocks Encode.Runs
     Encode.GridLemmas Encode.LayoutF1 Encode.F1Kinds Encode.F1Cross Encode.F1Deriv Encode.F1DerivC Encode.F1Sem Encode.F1Sustain Encode.F1Latin
     Encode.F1CrossSem Encode.F1DerivSem Encode.F1InARow Encode.F1Sequential Encode.F1Excl.
Import ListNotations.
Close Scope Z_scope.
Open Scope nat_scope.

Section F1.
Variable fb : flat.
Hypothesis HF1 : in_f1 fb = true.
Hypothesis HT : 0 < T fb.

Notation GZ := (GZ fb).
Notation Facts := (in_f1_facts fb HF1).

(** what each constraint says about the boolean grid *)
Definition Pc (c : fconstraint) (s : asg) : Prop :=
  match c with
  | FCross => Pcross fb s
  | FConsistency => Pcons fb s
  | FSustain => Psust fb s
  | FDerivation d deps f => Pderiv_any fb d deps f s
  | FAtMost k f l wb => Patmost fb k f l wb s
  | FExactlyK k f l wb => Pexactlyk fb k f l wb s
  | FAtLeast k f l wb => Patleast fb k f l wb s
  | FExactlyKInARow k f l wb => Pexactrow fb k f l wb s
  | FSequential f => Psequential fb f s
  | FLatin fs => Platin fb fs s
  | FExclude f l => Pexclude fb f l s
  | FPin i f l wb => Ppin fb i f l wb s
  | _ => True
  end.

Definition Pall (s : asg) : Prop := Forall (fun c => Pc c s) (fl_constraints fb).

Lemma GZ_nonneg' : (0 <= GZ)%Z.
Proof. unfold F1Kinds.GZ, zn. lia. Qed.

Lemma step_nothing fresh ct :
  (GZ < fresh)%Z -> nothing fresh = COk ct ->
  exists ext, DefinesA (fresh - 1) (ct_fresh ct - 1) (ct_clauses ct) (ct_requests ct) ext (fun _ => True).
Proof.
  intros Hfr E. unfold nothing in E. inversion E. subst ct. cbn [ct_fresh ct_clauses ct_requests].
  exists (fun s => s). apply definesA_nil. pose proof GZ_nonneg'. lia.
Qed.

(** * (a): every constraint of an F1 record contributes a block *)
Lemma all_steps : Forall (step_ok fb Pc GZ) (fl_constraints fb).
Proof.
  apply Forall_forall. intros c Hin. pose proof (f1_constraints fb Facts c Hin) as Hc.
  intros fresh ct Hfr E. destruct c; cbn [Pc]; try (cbn [constraint_f1] in Hc; discriminate).
  - exact (step_cross fb HF1 HT fresh ct Hfr E).
  - exact (step_consistency fb HF1 HT fresh ct Hfr E).
  - exact (step_sustain fb HF1 HT fresh ct Hfr E).
  - exact (step_deriv_any fb HF1 HT _ _ _ Hin fresh ct Hfr E).
  - exact (step_atmost fb HF1 HT _ _ _ _ Hc fresh ct Hfr E).
  - exact (step_atleast fb HF1 HT _ _ _ _ Hc fresh ct Hfr E).
  - exact (step_exactlyk fb HF1 HT _ _ _ _ Hc fresh ct Hfr E).
  - exact (step_exactrow fb HF1 HT _ _ _ _ Hc fresh ct Hfr E).
  - exact (step_exclude fb HF1 HT _ _ Hc fresh ct Hfr E).
  - exact (step_pin fb HF1 HT _ _ _ _ Hc fresh ct Hfr E).
  - exact (step_nothing fresh ct Hfr E).
  - exact (step_nothing fresh ct Hfr E).
  - exact (step_nothing fresh ct Hfr E).
  - exact (step_latin fb HF1 HT _ Hc fresh ct Hfr E).
  - exact (step_sequential fb HF1 HT _ Hc fresh ct Hfr E).
Qed.

Lemma GZ_vps : GZ = zn (variables_per_sample fb).
Proof. unfold F1Kinds.GZ. now rewrite (f1_vps fb HF1). Qed.

Theorem compile_is_block b :
  compile fb = COk b ->
  exists ext, DefinesA GZ (b_fresh b - 1) (b_clauses b) (b_requests b) ext Pall.
Proof. intros E. exact (compile_block fb Pc GZ b GZ_vps all_steps E). Qed.

(** * (b): the grid predicates are the documented meaning *)
Lemma nf_length : nf fb = length (fl_design fb).
Proof. reflexivity. Qed.

Lemma sem_factors_length : length (s_factors (code_sem fb)) = nf fb.
Proof. cbn [code_sem s_factors]. rewrite map_length, combine_length, seq_length. unfold nf. lia. Qed.

Lemma constraint_sem s q c :
  onehot fb s q -> grouped fb q -> In c (fl_constraints fb) ->
  match c with FCross | FConsistency | FSustain | FDerivation _ _ _ => True | _ =>
    (Pc c s <-> forallb (constraint_ok (code_sem fb) q) (code_constraint fb c) = true) end.
Proof.
  intros Ho Hg Hin. pose proof (f1_constraints fb Facts c Hin) as Hc.
  destruct c; try exact I; try (cbn [constraint_f1] in Hc; discriminate); cbn [Pc].
  - cbn [code_constraint forallb]; rewrite andb_true_r. exact (atmost_sem fb HF1 HT s q _ _ _ _ Ho Hc).
  - cbn [code_constraint forallb]; rewrite andb_true_r. exact (atleast_sem fb HF1 HT s q _ _ _ _ Ho Hc).
  - cbn [code_constraint forallb]; rewrite andb_true_r. exact (exactlyk_sem fb HF1 HT s q _ _ _ _ Ho Hc).
  - cbn [code_constraint forallb]; rewrite andb_true_r. exact (exactrow_sem fb HF1 HT s q _ _ _ _ Ho Hc).
  - cbn [code_constraint forallb]; rewrite andb_true_r. exact (exclude_sem fb HF1 HT s q _ _ Ho Hc).
  - cbn [code_constraint forallb]; rewrite andb_true_r. exact (pin_sem fb HF1 HT s q _ _ _ _ Ho Hc).
  - split; reflexivity.
  - split; reflexivity.
  - split; reflexivity.
  - exact (latin_sem_c fb HF1 HT s q _ Ho Hc).
  - exact (sequential_sem fb HF1 HT s q _ Ho Hg Hc).
Qed.

Theorem pall_valid s :
  Pall s <-> exists q, onehot fb s q /\ valid_b (code_sem fb) q = true.
Proof.
  unfold Pall. rewrite Forall_forall. split.
  - intros H.
    assert (Ho : onehot fb s (decode fb s)).
    { apply (pcons_onehot fb HF1). exact (H FConsistency (f1_has_consistency fb Facts)). }
    assert (Hg : grouped fb (decode fb s)).
    { destruct (f1_has_sustain fb Facts) as [Hone|Hsu]; [now apply grouped_trivial|].
      apply (sustain_sem fb HF1 HT s _ Ho). exact (H FSustain Hsu). }
    assert (Hfo : forallb (fun p => factor_ok (code_sem fb) (decode fb s) (fst p) (snd p))
                          (index_list (s_factors (code_sem fb))) = true).
    { apply (factors_sem fb HF1 HT s _ Ho Hg). intros d deps f Hin. exact (H _ Hin). }
    assert (Hne : NoExcl fb s).
    { apply (no_excluded_shown fb HF1 HT s (decode fb s) Ho); [|exact Hfo].
      intros p Hp. exact (H _ (f1_exclude_backed fb Facts p Hp)). }
    exists (decode fb s). split; [exact Ho|]. apply valid_b_conj. split; [|split; [|split]].
    + rewrite sem_factors_length. exact (proj1 Ho).
    + exact Hfo.
    + cbn [code_sem s_crossings]. apply (crossings_sem fb HF1 HT s _ _ 0 Ho Hne (f1_crossings fb Facts)).
      destruct (f1_has_cross fb Facts) as [Hx|Hx]; [exact (H FCross Hx)|]. rewrite Hx. exact I.
    + cbn [code_sem s_constraints]. rewrite forallb_flat_map. apply forallb_forall. intros c Hin.
      pose proof (constraint_sem s _ c Ho Hg Hin) as K. specialize (H c Hin).
      destruct c; try reflexivity; try (apply K; exact H).
  - intros (q & Ho & Hv) c Hin. apply valid_b_conj in Hv. destruct Hv as (_ & Hfac & Hcr & Hcs).
    cbn [code_sem s_constraints] in Hcs. rewrite forallb_flat_map, forallb_forall in Hcs.
    pose proof (factors_grouped fb HF1 HT s q Ho Hfac) as Hg.
    assert (Hne : NoExcl fb s).
    { apply (no_excluded_shown fb HF1 HT s q Ho); [|exact Hfac].
      intros p Hp. pose proof (f1_exclude_backed fb Facts p Hp) as Hb.
      apply (constraint_sem s q _ Ho Hg Hb). exact (Hcs _ Hb). }
    pose proof (constraint_sem s q c Ho Hg Hin) as K.
    destruct c; cbn [Pc]; try exact I; try (apply K; exact (Hcs _ Hin)).
    + unfold Pcross. apply (crossings_sem fb HF1 HT s q _ 0 Ho Hne (f1_crossings fb Facts)). exact Hcr.
    + exact (onehot_pcons fb s q Ho).
    + exact (proj2 (sustain_sem fb HF1 HT s q Ho) Hg).
    + exact (proj2 (factors_sem fb HF1 HT s q Ho Hg) Hfac _ _ _ Hin).
Qed.

(** [onehot] (hence [Pall]) reads only the trial variables *)
Lemma bit_local s t tr f l :
  agree_upto GZ s t -> tr < T fb -> isact fb f = true -> lappl fb f tr = true -> l < nlevels fb f ->
  F1Kinds.bit fb s tr f l = F1Kinds.bit fb t tr f l.
Proof.
  intros A Ht Hf Hap Hl. unfold F1Kinds.bit. apply A.
  pose proof (gvar_range fb HF1 tr f l Ht Hf Hl Hap). pose proof (gvar_le fb HF1 HT tr f l Ht Hf Hl Hap). unfold zn in *. lia.
Qed.

Lemma cell_act_local s t tr f :
  agree_upto GZ s t -> tr < T fb -> isact fb f = true -> cell_act fb s tr f = cell_act fb t tr f.
Proof.
  intros A Ht Hf. unfold cell_act. destruct (lappl fb f tr) eqn:Hap; [|reflexivity].
  apply find_ext_in. intros l Hl. apply in_seq in Hl.
  apply bit_local; auto; lia.
Qed.

Lemma cell_impl_local s t : agree_upto GZ s t ->
  forall f tr, tr < T fb -> f < nf fb -> isact fb f = false -> cell_impl fb s tr f = cell_impl fb t tr f.
Proof.
  intros A f. induction f as [f IHf] using lt_wf_ind. intros tr Ht Hf Hn.
  unfold cell_impl at 1. apply (cell_impl_char fb HF1 HT t (dec_upto fb s f) tr f Hf Hn Ht).
  intros d t' Hok Ht'. rewrite (base_reads fb HF1 HT s f d t' Hf Hn Hok ltac:(lia)). unfold cell_of.
  destruct (dep_ok_cases fb f d Hn Hok) as [Hs|(Hda & Hlt & _)].
  - destruct (sact_lappl fb HF1 d t' Hs) as [Hda _]. rewrite Hda. apply cell_act_local; [exact A|exact (Nat.le_lt_trans _ _ _ Ht' Ht)|exact Hda].
  - rewrite Hda. apply IHf; [exact Hlt|exact (Nat.le_lt_trans _ _ _ Ht' Ht)|exact (Nat.lt_trans _ _ _ Hlt Hf)|exact Hda].
Qed.

Lemma onehot_local s t q : agree_upto GZ s t -> onehot fb s q -> onehot fb t q.
Proof.
  intros A (H1 & H2 & H3 & H4 & H5 & H6). split; [exact H1|]. split; [exact H2|]. split; [exact H3|]. split; [|split; [|exact H6]].
  - intros tr f l Ht Hf Hap Hl. rewrite <- (H4 tr f l Ht Hf Hap Hl). symmetry. now apply bit_local.
  - intros tr f Ht Hf Hn. rewrite (H5 tr f Ht Hf Hn). now apply (cell_impl_local s t A).
Qed.

Lemma pall_local s t : agree_upto GZ s t -> (Pall s <-> Pall t).
Proof.
  intros A. rewrite !pall_valid. split; intros (q & Ho & Hv); exists q; (split; [|exact Hv]).
  - exact (onehot_local s t q A Ho).
  - exact (onehot_local t s q (agree_upto_sym _ _ _ A) Ho).
Qed.

Theorem compile_denotes b :
  compile fb = COk b ->
  exists ext,
    (forall s v, ~ (GZ < v <= b_fresh b - 1)%Z -> ext s v = s v) /\
    (forall s t, agree_upto GZ s t -> forall v, (GZ < v <= b_fresh b - 1)%Z -> ext s v = ext t v) /\
    forall s, br_sem s b <->
      (forall v, (GZ < v <= b_fresh b - 1)%Z -> s v = ext s v) /\
      exists q, onehot fb s q /\ valid_b (code_sem fb) q = true.
Proof.
  intros E. destruct (compile_is_block b E) as (ext & D). exists ext.
  split; [exact (da_out _ _ _ _ _ _ D)|]. split; [exact (da_local _ _ _ _ _ _ D)|].
  intros s. rewrite <- pall_valid. exact (da_sem _ _ _ _ _ _ D s).
Qed.

Theorem compile_full_cnf b :
  compile fb = COk b ->
  exists n' final,
    full_cnf b = (true, n', final) /\ (b_fresh b - 1 <= n')%Z /\ vars_upto n' final /\
    (forall s, (exists t, agree_upto GZ s t /\ sat t final = true) <->
               exists q, onehot fb s q /\ valid_b (code_sem fb) q = true) /\
    (forall t1 t2, agree_upto GZ t1 t2 -> sat t1 final = true -> sat t2 final = true -> agree_upto n' t1 t2).
Proof.
  intros E. destruct (compile_is_block b E) as (ext & D).
  destruct (block_full_cnf GZ b ext Pall D pall_local) as (n' & final & Ef & Hn & V & Hsem & Hu).
  exists n', final. split; [exact Ef|]. split; [exact Hn|]. split; [exact V|]. split; [|exact Hu].
  intros s. rewrite Hsem. apply pall_valid.
Qed.

End F1.
