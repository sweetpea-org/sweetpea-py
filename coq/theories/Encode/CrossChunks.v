(** The chunking of [Cross.__add_weight_constraint] (per combination: EQ on
    every full chunk of [size] state variables, LT weight+1 on the remaining
    ones) against the chunking of the reference semantics [Sem.chunks_ok] (per
    chunk: every admitted combination occurs exactly / at most its
    multiplicity). *)
From Coq Require Import ZArith List Bool Arith Lia.
From SP Require Import Base.Lists Base.Sat Base.Bits Core.Card Core.CardProofs Design.Sem.
From SP Require Import Encode.Compile Encode.Generic Encode.Runs Encode.GridLemmas.
Import ListNotations.
Close Scope Z_scope.
Open Scope nat_scope.

(** the requests of [add_weight_constraint] read on the boolean values of the variables *)
Fixpoint awc_ok (fuel : nat) (bs : list bool) (m size : nat) : Prop :=
  match fuel with
  | O => True
  | S fu =>
    match bs with
    | [] => True
    | _ => (if size <=? length bs then ntrue (firstn size bs) = m else ntrue bs <= m)
           /\ awc_ok fu (skipn size bs) m size
    end
  end.

Lemma awc_ok_step fu bs m size :
  bs <> [] ->
  (awc_ok (S fu) bs m size <->
   (if size <=? length bs then ntrue (firstn size bs) = m else ntrue bs <= m) /\ awc_ok fu (skipn size bs) m size).
Proof. destruct bs; [contradiction|]. intros _. reflexivity. Qed.

(** enough fuel is enough *)
Lemma awc_ok_fuel m size : 0 < size -> forall fu fu' bs, length bs < fu -> length bs < fu' ->
  (awc_ok fu bs m size <-> awc_ok fu' bs m size).
Proof.
  intros Hs. induction fu as [|fu IH]; intros fu' bs H1 H2; [lia|]. destruct fu' as [|fu']; [lia|].
  destruct bs as [|b bs]; [reflexivity|].
  rewrite !awc_ok_step by discriminate.
  assert (Hl : length (skipn size (b :: bs)) < length (b :: bs)).
  { rewrite skipn_length. cbn [length]. lia. }
  rewrite (IH fu' (skipn size (b :: bs))) by lia. reflexivity.
Qed.

Lemma awc_requests s fuel : forall vars w size cw reqs,
  Forall (fun v => (0 < v)%Z) vars ->
  add_weight_constraint fuel vars w size cw = COk reqs ->
  (Forall (req_rel s) reqs <-> awc_ok fuel (map s vars) (w * cw) size).
Proof.
  induction fuel as [|fu IH]; intros vars w size cw reqs Hp E; cbn [add_weight_constraint] in E; [discriminate|].
  destruct vars as [|v vars]; [inversion E; subst; cbn; split; constructor|].
  remember (v :: vars) as vs eqn:Evs.
  destruct (add_weight_constraint fu (skipn size vs) w size cw) as [rest|e] eqn:Er; cbn [cbind] in E; [|discriminate].
  inversion E; subst reqs. clear E.
  specialize (IH _ _ _ _ _ (Forall_skipn _ size vs Hp) Er).
  rewrite awc_ok_step by (subst vs; discriminate).
  rewrite map_length, skipn_map, firstn_map, <- IH, Forall_cons_iff.
  assert (K : req_rel s (if size <=? length vs then (Card.EQ, zn (w * cw), firstn size vs) else (Card.LT, zn (w * cw + 1), vs))
              <-> (if size <=? length vs then ntrue (map s (firstn size vs)) = w * cw else ntrue (map s vs) <= w * cw)).
  { destruct (size <=? length vs); cbn [req_rel rel].
    - rewrite (count_pos s _ (Forall_firstn _ size vs Hp)). unfold zn. lia.
    - rewrite (count_pos s _ Hp). unfold zn. lia. }
  rewrite K. reflexivity.
Qed.

Lemma awc_total fuel : forall vars w size cw,
  0 < size -> length vars < fuel -> exists reqs, add_weight_constraint fuel vars w size cw = COk reqs.
Proof.
  induction fuel as [|fu IH]; intros vars w size cw Hs Hl; [lia|].
  cbn [add_weight_constraint]. destruct vars as [|v vars]; [eexists; reflexivity|].
  destruct (IH (skipn size (v :: vars)) w size cw Hs) as [rest Er].
  - rewrite skipn_length. cbn [length] in *. lia.
  - rewrite Er. cbn [cbind]. eexists; reflexivity.
Qed.

Lemma awc_req_ok n fuel : forall vars w size cw reqs,
  0 < size -> Forall (fun v => (0 < v <= n)%Z) vars ->
  add_weight_constraint fuel vars w size cw = COk reqs -> Forall (req_ok n) reqs.
Proof.
  induction fuel as [|fu IH]; intros vars w size cw reqs Hs Hv E; cbn [add_weight_constraint] in E; [discriminate|].
  destruct vars as [|v vars]; [inversion E; constructor|].
  remember (v :: vars) as vs eqn:Evs.
  destruct (add_weight_constraint fu (skipn size vs) w size cw) as [rest|e] eqn:Er; cbn [cbind] in E; [|discriminate].
  inversion E; subst reqs. clear E. constructor.
  - assert (Hin : forall l, Forall (fun v => (0 < v <= n)%Z) l -> Forall (inr n) l).
    { intros l. apply Forall_impl. intros a. unfold inr. lia. }
    destruct (size <=? length vs); cbn [req_ok]; (split; [unfold zn; lia|split]).
    + subst vs. destruct size; [lia|]. discriminate.
    + apply Hin. now apply Forall_firstn.
    + subst vs. discriminate.
    + now apply Hin.
  - apply (IH _ _ _ _ _ Hs) in Er; [assumption|]. now apply Forall_skipn.
Qed.

(** * Against [Sem.chunks_ok] *)
Lemma skipn_skipn {A} (x y : nat) (l : list A) : skipn x (skipn y l) = skipn (y + x) l.
Proof.
  revert l. induction y as [|y IH]; intros l; [reflexivity|].
  destruct l as [|a l]; [now rewrite !skipn_nil|]. cbn [skipn plus]. apply IH.
Qed.

Lemma skipn_map_seq {B} (g : nat -> B) n a : skipn a (map g (seq 0 n)) = map g (seq a (n - a)).
Proof.
  destruct (Nat.le_gt_cases a n) as [H|H].
  - rewrite <- (firstn_skipn_map_seq g n a (n - a)) by lia.
    rewrite firstn_all2; [reflexivity|]. rewrite skipn_length, map_length, seq_length. lia.
  - rewrite skipn_all2 by (rewrite map_length, seq_length; lia). replace (n - a) with 0 by lia. reflexivity.
Qed.

Section Chunks.
Variable S0 : sem.
Variable q : tseq.
Variable c : dcrossing.

Definition cbits (cm : list nat * nat) : list bool :=
  map (fun t => combo_eqb (fst cm) (combo_at q (c_factors c) t)) (seq 0 (s_trials S0)).

Lemma cbits_length cm : length (cbits cm) = s_trials S0.
Proof. unfold cbits. now rewrite map_length, seq_length. Qed.

Lemma count_combo_bits cm a len :
  a + len <= s_trials S0 ->
  count_combo q (c_factors c) (fst cm) a (a + len) = ntrue (firstn len (skipn a (cbits cm))).
Proof.
  intros H. unfold count_combo, cbits. rewrite (firstn_skipn_map_seq _ _ a len H), ntrue_map_filter.
  now replace (a + len - a) with len by lia.
Qed.

Lemma count_combo_bits_tail cm a :
  count_combo q (c_factors c) (fst cm) a (s_trials S0) = ntrue (skipn a (cbits cm)).
Proof. unfold count_combo, cbits. now rewrite skipn_map_seq, ntrue_map_filter. Qed.

Definition matched (t : nat) : Prop :=
  existsb (fun cm => combo_eqb (fst cm) (combo_at q (c_factors c) t)) (c_mult c) = true.

Lemma chunks_awc : 0 < c_chunk c -> forall fuel a, s_trials S0 - a < fuel ->
  (chunks_ok fuel S0 q c a = true <->
   (forall t, a <= t < s_trials S0 -> matched t) /\
   Forall (fun cm => awc_ok fuel (skipn a (cbits cm)) (snd cm) (c_chunk c)) (c_mult c)).
Proof.
  intros Hc. induction fuel as [|fu IH]; intros a Hf; [lia|].
  cbn [chunks_ok]. destruct (s_trials S0 <=? a) eqn:Ea.
  - apply Nat.leb_le in Ea. split; [|reflexivity]. intros _. split; [intros t Ht; lia|].
    apply Forall_forall. intros cm _. rewrite skipn_all2 by (rewrite cbits_length; lia). exact I.
  - apply Nat.leb_gt in Ea. set (T0 := s_trials S0) in *. set (b := a + c_chunk c).
    rewrite !andb_true_iff, !forallb_forall, (IH b) by (unfold b; lia).
    assert (Hstep : forall cm,
      (let n := count_combo q (c_factors c) (fst cm) a (Nat.min b T0) in
       if b <=? T0 then n =? snd cm else n <=? snd cm) = true /\
      awc_ok fu (skipn b (cbits cm)) (snd cm) (c_chunk c) <->
      awc_ok (Datatypes.S fu) (skipn a (cbits cm)) (snd cm) (c_chunk c)).
    { intros cm. rewrite awc_ok_step.
      2:{ intros E. apply (f_equal (@length bool)) in E. rewrite skipn_length, cbits_length in E. cbn in E. fold T0 in E. lia. }
      rewrite skipn_length, cbits_length, skipn_skipn. fold T0. fold b.
      replace (c_chunk c <=? T0 - a) with (b <=? T0).
      2:{ unfold b. destruct (a + c_chunk c <=? T0) eqn:E1; destruct (c_chunk c <=? T0 - a) eqn:E2; try reflexivity;
          [apply Nat.leb_le in E1; apply Nat.leb_gt in E2|apply Nat.leb_gt in E1; apply Nat.leb_le in E2]; lia. }
      cbv zeta. destruct (b <=? T0) eqn:Eb.
      - apply Nat.leb_le in Eb. rewrite Nat.min_l by lia. unfold b at 1.
        rewrite count_combo_bits by (fold b; fold T0; lia). rewrite Nat.eqb_eq. reflexivity.
      - apply Nat.leb_gt in Eb. rewrite Nat.min_r by lia. unfold T0 at 1.
        rewrite count_combo_bits_tail. rewrite Nat.leb_le. reflexivity. }
    split.
    + intros [[H1 H2] [H3 H4]]. split.
      * intros t Ht. destruct (Nat.lt_ge_cases t b) as [Hb|Hb].
        -- apply H2. apply in_seq. destruct (Nat.min_spec b T0) as [[_ ->]|[_ ->]]; lia.
        -- apply H3. lia.
      * apply Forall_forall. intros cm Hcm. apply Hstep. split; [now apply H1|].
        apply (proj1 (Forall_forall _ _) H4 cm Hcm).
    + intros [H1 H2]. split; [split|split].
      * intros cm Hcm. apply (proj2 (Hstep cm)). apply (proj1 (Forall_forall _ _) H2 cm Hcm).
      * intros t Ht. apply in_seq in Ht. apply H1. destruct (Nat.min_spec b T0) as [[_ E]|[_ E]]; rewrite E in Ht; lia.
      * intros t Ht. apply H1. unfold b in Ht. lia.
      * apply Forall_forall. intros cm Hcm. apply (proj2 (Hstep cm)). apply (proj1 (Forall_forall _ _) H2 cm Hcm).
Qed.
End Chunks.
