(** Per-kind (a) halves in the fragment F1: what each constraint's contribution
    to the backend request says about the boolean grid
    [bit s t f l] = value of the variable of (trial t, factor f, level l). *)
From Coq Require Import ZArith List Bool Arith Lia.
From SP Require Import Base.Lists Base.Sat Base.Bits Core.Card Core.CardProofs.
From SP Require Import Logic.Formula Logic.Tseitin Logic.TseitinProofs.
From SP Require Import Design.Flat Design.Layout Design.Sem.
From SP Require Import Encode.Compile Encode.CodeSem Encode.Generic Encode.Blocks Encode.Runs
     Encode.GridLemmas Encode.CrossChunks Encode.LayoutF1 Encode.F1Lists.
Import ListNotations.
Close Scope Z_scope.
Open Scope nat_scope.

(** the contribution of a kind that asserts the formulas [F] and requests [R] *)
Definition tseitin_contrib (F : list fm) (R : list req) (fresh : Z) : cres contrib :=
  let '(cls, fresh') := cnf_fn F fresh in COk {| ct_fresh := fresh'; ct_clauses := cls; ct_requests := R |}.

Lemma tseitin_contrib_total F R fresh : exists ct, tseitin_contrib F R fresh = COk ct.
Proof. unfold tseitin_contrib. destruct (cnf_fn F fresh). eexists. reflexivity. Qed.

(** a Tseitin block followed by requests over variables that existed before it *)
Lemma step_tseitin_requests F R fresh ct :
  (1 <= fresh)%Z -> (forall z, In z (leaves (FAnd F)) -> z <> 0%Z /\ (Z.abs z < fresh)%Z) -> Forall (req_ok (fresh - 1)) R ->
  tseitin_contrib F R fresh = COk ct ->
  exists ext, DefinesA (fresh - 1) (ct_fresh ct - 1) (ct_clauses ct) (ct_requests ct) ext
                       (fun s => eval s (FAnd F) = true /\ Forall (req_rel s) R).
Proof.
  intros H1 HL Rok E. unfold tseitin_contrib in E. destruct (cnf_fn F fresh) as [cls fresh'] eqn:Ecnf. inversion E. subst ct.
  cbn [ct_fresh ct_clauses ct_requests].
  destruct (definesA_tseitin F fresh cls fresh' H1 HL Ecnf) as (extT & DT).
  pose proof (da_range _ _ _ _ _ _ DT) as RT.
  assert (DR : DefinesA (fresh' - 1) (fresh' - 1) [] R (fun s => s) (fun s => Forall (req_rel s) R)).
  { apply definesA_requests; [lia|]. eapply Forall_impl; [|exact Rok]. intros r. apply req_ok_le. lia. }
  pose proof (definesA_seq _ _ _ _ _ _ _ _ _ _ _ DT DR) as D2. rewrite app_nil_r in D2. now exists (fun s => extT s).
Qed.

Lemma step_tseitin F fresh ct :
  (1 <= fresh)%Z -> (forall z, In z (leaves (FAnd F)) -> z <> 0%Z /\ (Z.abs z < fresh)%Z) ->
  tseitin_contrib F [] fresh = COk ct ->
  exists ext, DefinesA (fresh - 1) (ct_fresh ct - 1) (ct_clauses ct) (ct_requests ct) ext (fun s => eval s (FAnd F) = true).
Proof.
  intros H1 HL E. unfold tseitin_contrib in E. destruct (cnf_fn F fresh) as [cls fresh'] eqn:Ecnf. inversion E. subst ct.
  exact (definesA_tseitin F fresh cls fresh' H1 HL Ecnf).
Qed.

Section F1Kinds.
Variable fb : flat.
Hypothesis HF1 : in_f1 fb = true.
Hypothesis HT : 0 < T fb.

(** the number of trial variables (grid variables, then those of the complex factors) *)
Definition GZ : Z := zn (VN fb).

Definition bit (s : asg) (t f l : nat) : bool := s (zn (gvar fb t f l)).
(** the column of a level over the trials of [a, b) in which the factor has a level *)
Definition col (s : asg) (f l a b : nat) : list bool := map (fun t => bit s t f l) (trials_of fb f a b).

Definition Pcons (s : asg) : Prop :=
  forall t f, t < T fb -> isact fb f = true -> lappl fb f t = true ->
    ntrue (map (bit s t f) (seq 0 (nlevels fb f))) = 1.

Definition Patmost (k f l : nat) (wb : option geometry) (s : asg) : Prop :=
  Forall (fun r => forall w, In w (windows (S k) (col s f l (fst r) (snd r))) -> ntrue w < S k) (windows_of fb wb).

Definition Pexactlyk (k f l : nat) (wb : option geometry) (s : asg) : Prop :=
  Forall (fun r => ntrue (col s f l (fst r) (snd r)) = k) (windows_of fb wb).

Definition Pexclude (f l : nat) (s : asg) : Prop := ntrue (col s f l 0 (T fb)) = 0.

Definition pins (i : Z) (f : nat) (wb : option geometry) : list nat :=
  match get_trial_numbers fb f i wb with Some ps => ps | None => [] end.

(** every pinned trial has the level (in particular the factor has a level there) *)
Definition Ppin (i : Z) (f l : nat) (wb : option geometry) (s : asg) : Prop :=
  pins i f wb <> [] /\ Forall (fun p => lappl fb f p = true /\ bit s p f l = true) (pins i f wb).

Lemma gvar_le t f l : t < T fb -> isact fb f = true -> l < nlevels fb f -> lappl fb f t = true ->
  (zn (gvar fb t f l) <= GZ)%Z.
Proof. intros A B C D. pose proof (gvar_range fb HF1 t f l A B C D). unfold GZ, zn. lia. Qed.

Lemma GZ_nonneg : (0 <= GZ)%Z.
Proof. exact (Nat2Z.is_nonneg _). Qed.

Lemma eval_fv_gvar s t f l : eval s (fv (gvar fb t f l)) = bit s t f l.
Proof. apply lit_true_pos. apply (Nat2Z.inj_lt 0). apply gvar_pos. Qed.

Lemma gvar_ok t f l n : t < T fb -> isact fb f = true -> l < nlevels fb f -> lappl fb f t = true -> (GZ <= n)%Z ->
  0 < gvar fb t f l /\ (zn (gvar fb t f l) <= n)%Z.
Proof. intros A B C D Hn. split; [apply gvar_pos|]. exact (Z.le_trans _ _ _ (gvar_le t f l A B C D) Hn). Qed.

Lemma fv_gvar_leaf t f l fresh z :
  t < T fb -> isact fb f = true -> l < nlevels fb f -> lappl fb f t = true -> (GZ < fresh)%Z ->
  In z (leaves (fv (gvar fb t f l))) -> z <> 0%Z /\ (Z.abs z < fresh)%Z.
Proof.
  intros A B C D Hfr [<-|[]]. destruct (gvar_ok t f l GZ A B C D (Z.le_refl _)) as [Hp Hle]. unfold zn in *. lia.
Qed.

(** per range the variables of a level, over the trials in which the factor has a level *)
Definition vls_of (f l : nat) (rs : list (nat * nat)) : list (list nat) :=
  map (fun r => map (fun t => gvar fb t f l) (trials_of fb f (fst r) (snd r))) rs.

Lemma range_vars_ok f l (r : nat * nat) fresh :
  isact fb f = true -> l < nlevels fb f -> snd r <= T fb -> (GZ < fresh)%Z ->
  Forall (fun v => 0 < v /\ (zn v <= fresh - 1)%Z) (map (fun t => gvar fb t f l) (trials_of fb f (fst r) (snd r))).
Proof.
  intros A B C D. apply Forall_forall. intros v Hv. apply in_map_iff in Hv. destruct Hv as (t & <- & Ht).
  apply in_trials_of in Ht. destruct Ht as [Ht Ha]. split; [apply gvar_pos|].
  pose proof (gvar_le t f l ltac:(lia) A B Ha). lia.
Qed.

Lemma Forall_sub {A} (P : A -> Prop) (l w : list A) n :
  Forall P l -> In w (windows n l) -> Forall P w.
Proof.
  intros H Hw. apply windows_spec in Hw. destruct Hw as (i & _ & _ & ->).
  apply Forall_firstn, Forall_skipn, H.
Qed.

Lemma geom_ok_some wb : geom_ok fb wb = true -> exists rs, map_block_trial_ranges fb wb = Some rs.
Proof. unfold geom_ok. destruct (map_block_trial_ranges fb wb) as [rs|]; [eauto|discriminate]. Qed.

(** the guard of the window kinds: an active factor, a level of it, window ranges within the trials *)
Lemma window_guard f l wb : isact fb f = true -> (l <? nlevels fb f) = true -> geom_ok fb wb = true ->
  l < nlevels fb f /\ Forall (fun r => fst r < T fb /\ snd r <= T fb) (windows_of fb wb) /\
  var_lists fb f l wb = COk (vls_of f l (windows_of fb wb)).
Proof.
  intros Hf Hl Hg. apply Nat.ltb_lt in Hl. destruct (geom_ok_some wb Hg) as [rs Ers]. unfold windows_of. rewrite Ers.
  split; [exact Hl|]. split; [exact (f1_ranges_bound fb wb rs Ers)|exact (f1_var_lists fb HF1 f l wb rs HT Hf Hl Ers)].
Qed.

Lemma col_vars s f l a b :
  map (fun v => s (zn v)) (map (fun t => gvar fb t f l) (trials_of fb f a b)) = col s f l a b.
Proof. unfold col, bit. now rewrite map_map. Qed.

Lemma apply_atmost_eq k f l wb fresh : constraint_f1 fb (FAtMost k f l wb) = true ->
  apply_constraint fb (FAtMost k f l wb) fresh =
  COk {| ct_fresh := fresh; ct_clauses := [];
         ct_requests := flat_map (map (fun sl => (Card.LT, zn (k + 1), zs sl)))
                                 (map (windows (k + 1)) (vls_of f l (windows_of fb wb))) |}.
Proof.
  cbn [constraint_f1]. rewrite !andb_true_iff. intros [[[Hf Hl] Hg] _]. destruct (window_guard f l wb Hf Hl Hg) as (_ & _ & Ev).
  cbn [apply_constraint]. unfold apply_atmost, sublistss. now rewrite Ev.
Qed.

Lemma step_atmost k f l wb :
  constraint_f1 fb (FAtMost k f l wb) = true ->
  forall fresh ct, (GZ < fresh)%Z -> apply_constraint fb (FAtMost k f l wb) fresh = COk ct ->
  exists ext, DefinesA (fresh - 1) (ct_fresh ct - 1) (ct_clauses ct) (ct_requests ct) ext (Patmost k f l wb).
Proof.
  intros Hc fresh ct Hfr E. rewrite (apply_atmost_eq k f l wb fresh Hc) in E. inversion E. subst ct. clear E.
  cbn [constraint_f1] in Hc. rewrite !andb_true_iff in Hc.
  destruct Hc as [[[Hf Hl0] Hg] _]. destruct (window_guard f l wb Hf Hl0 Hg) as (Hl & Hb & _).
  cbn [ct_fresh ct_clauses ct_requests]. unfold vls_of. exists (fun s => s).
  pose proof GZ_nonneg as HGZ.
  eapply definesA_conseq.
  - apply definesA_requests; [lia|]. rewrite Forall_flat_map, !Forall_map.
    apply Forall_forall. intros r Hr. rewrite Forall_map. apply Forall_forall. intros sl Hsl.
    pose proof (Forall_In _ _ _ Hb Hr) as [_ Hr2]. apply req_ok_zs.
    + apply windows_length in Hsl. destruct sl; [cbn in Hsl; lia|discriminate].
    + eapply Forall_sub; [|exact Hsl]. now apply range_vars_ok.
  - intros s. unfold Patmost. rewrite Forall_flat_map, Forall_map, Forall_map.
    apply Forall_iff_ext. intros r Hr. pose proof (Forall_In _ _ _ Hb Hr) as [_ Hr2].
    rewrite Forall_map, Nat.add_1_r, <- col_vars.
    set (vl := map (fun t => gvar fb t f l) (trials_of fb f (fst r) (snd r))).
    rewrite (windows_map nat bool (fun v => s (zn v)) (S k) vl), <- Forall_forall, Forall_map.
    apply Forall_iff_ext. intros sl Hsl. apply req_rel_LT, (vars_pos (GZ + 1 - 1)).
    eapply Forall_sub; [|exact Hsl]. apply range_vars_ok; try assumption; lia.
Qed.

Lemma exactlyk_requests_no_empty (k : nat) (vls : list (list nat)) :
  Forall (fun q : req => snd q <> [])
         (flat_map (fun vl : list nat => match vl with
                                         | [] => []
                                         | _ :: _ => [(Card.EQ, zn k, zs vl)]
                                         end) vls).
Proof.
  apply Forall_flat_map, Forall_forall. intros [|v vl] _; constructor; [discriminate|constructor].
Qed.

(** /repo 4d027cb: an empty variable list contributes And([1, -1]) (k <> 0) or nothing (k = 0) instead of an EQ
    request; under the guard every list is non-empty, so the contribution is one EQ request per list and no clause *)
Lemma apply_exactlyk_eq k f l wb fresh : constraint_f1 fb (FExactlyK k f l wb) = true ->
  apply_constraint fb (FExactlyK k f l wb) fresh =
  COk {| ct_fresh := fresh; ct_clauses := [];
         ct_requests := map (fun vl => (Card.EQ, zn k, zs vl)) (vls_of f l (windows_of fb wb)) |}.
Proof.
  cbn [constraint_f1]. rewrite !andb_true_iff, forallb_forall. intros [[[[Hf Hl] Hg] _] Hne].
  destruct (window_guard f l wb Hf Hl Hg) as (_ & _ & Ev).
  cbn [apply_constraint]. unfold apply_exactlyk. rewrite Ev. cbn [cbind].
  assert (Hvne : Forall (fun vl : list nat => vl <> []) (vls_of f l (windows_of fb wb))).
  { unfold vls_of. rewrite Forall_map. apply Forall_forall. intros r Hr. specialize (Hne r Hr).
    destruct (trials_of fb f (fst r) (snd r)); [discriminate Hne|discriminate]. }
  rewrite (flat_map_nonempty (if k =? 0 then [] else [[1%Z]; [(-1)%Z]]) (fun _ => []) _ Hvne).
  rewrite (flat_map_nonempty [] (fun vl => [(Card.EQ, zn k, zs vl)]) _ Hvne).
  now rewrite flat_map_nil, flat_map_singleton.
Qed.

Lemma step_exactlyk k f l wb :
  constraint_f1 fb (FExactlyK k f l wb) = true ->
  forall fresh ct, (GZ < fresh)%Z -> apply_constraint fb (FExactlyK k f l wb) fresh = COk ct ->
  exists ext, DefinesA (fresh - 1) (ct_fresh ct - 1) (ct_clauses ct) (ct_requests ct) ext (Pexactlyk k f l wb).
Proof.
  intros Hc fresh ct Hfr E. rewrite (apply_exactlyk_eq k f l wb fresh Hc) in E. inversion E. subst ct. clear E.
  cbn [constraint_f1] in Hc. rewrite !andb_true_iff, forallb_forall in Hc.
  destruct Hc as [[[[Hf Hl0] Hg] _] Hne]. destruct (window_guard f l wb Hf Hl0 Hg) as (Hl & Hb & _).
  cbn [ct_fresh ct_clauses ct_requests]. exists (fun s => s).
  pose proof GZ_nonneg as HGZ.
  eapply definesA_conseq.
  - apply definesA_requests; [lia|]. unfold vls_of. rewrite !Forall_map.
    apply Forall_forall. intros r Hr. pose proof (Forall_In _ _ _ Hb Hr) as [_ Hr2].
    apply req_ok_zs; [|now apply range_vars_ok].
    specialize (Hne r Hr). destruct (trials_of fb f (fst r) (snd r)); [discriminate Hne|discriminate].
  - intros s. unfold Pexactlyk, vls_of. rewrite !Forall_map.
    apply Forall_iff_ext. intros r Hr. pose proof (Forall_In _ _ _ Hb Hr) as [_ Hr2].
    rewrite <- col_vars. apply req_rel_EQ.
    apply (vars_pos (GZ + 1 - 1)), range_vars_ok; try assumption; lia.
Qed.

Lemma sat_neg_units s (vl : list nat) :
  Forall (fun v => 0 < v) vl ->
  (sat s (map (fun v => [(- zn v)%Z]) vl) = true <-> ntrue (map (fun v => s (zn v)) vl) = 0).
Proof.
  intros H. induction H as [|v vl Hv _ IH]; [cbn; tauto|].
  cbn [map sat forallb csat existsb]. rewrite andb_true_iff, orb_false_r, IH, ntrue_cons.
  rewrite lit_true_neg by (unfold zn; lia). destruct (s (zn v)); cbn [negb].
  - split; [intros [H _]; discriminate|lia].
  - split; [intros [_ H]; cbn; exact H|intros H; split; [reflexivity|exact H]].
Qed.

Lemma vars_upto_neg_units n (vl : list nat) :
  Forall (fun v => 0 < v /\ (zn v <= n)%Z) vl -> vars_upto n (map (fun v => [(- zn v)%Z]) vl).
Proof.
  intros H c x Hc Hx. apply in_map_iff in Hc. destruct Hc as (v & <- & Hv). destruct Hx as [<-|[]].
  destruct (Forall_In _ _ _ H Hv) as [A B]. unfold zn in *. lia.
Qed.

Lemma apply_exclude_eq f l fresh : constraint_f1 fb (FExclude f l) = true ->
  apply_constraint fb (FExclude f l) fresh =
  COk {| ct_fresh := fresh; ct_requests := [];
         ct_clauses := map (fun v => [(- zn v)%Z]) (map (fun t => gvar fb t f l) (trials_of fb f 0 (T fb))) |}.
Proof.
  cbn [constraint_f1]. rewrite !andb_true_iff. intros [[Hf Hl] _]. apply Nat.ltb_lt in Hl.
  cbn [apply_constraint]. unfold apply_exclude. rewrite (f1_var_lists_none fb HF1 f l HT Hf Hl).
  cbn [cbind flat_map]. now rewrite app_nil_r.
Qed.

Lemma step_exclude f l :
  constraint_f1 fb (FExclude f l) = true ->
  forall fresh ct, (GZ < fresh)%Z -> apply_constraint fb (FExclude f l) fresh = COk ct ->
  exists ext, DefinesA (fresh - 1) (ct_fresh ct - 1) (ct_clauses ct) (ct_requests ct) ext (Pexclude f l).
Proof.
  intros Hc fresh ct Hfr E. rewrite (apply_exclude_eq f l fresh Hc) in E. inversion E. subst ct. clear E.
  cbn [constraint_f1] in Hc. rewrite !andb_true_iff in Hc. destruct Hc as [[Hf Hl] _]. apply Nat.ltb_lt in Hl.
  cbn [ct_fresh ct_clauses ct_requests]. exists (fun s => s).
  pose proof GZ_nonneg as HGZ.
  pose proof (range_vars_ok f l (0, T fb) fresh Hf Hl (le_n _) Hfr) as Hv. cbn [fst snd] in Hv.
  eapply definesA_conseq.
  - apply definesA_clauses; [lia|]. now apply vars_upto_neg_units.
  - intros s. unfold Pexclude. rewrite <- col_vars. exact (sat_neg_units s _ (vars_pos _ _ Hv)).
Qed.

Lemma sat_pos_units s (vl : list nat) :
  Forall (fun v => 0 < v) vl ->
  (sat s (map (fun v => [zn v]) vl) = true <-> Forall (fun v => s (zn v) = true) vl).
Proof.
  intros H. induction H as [|v vl Hv _ IH]; [cbn; split; constructor|].
  cbn [map sat forallb csat existsb]. rewrite andb_true_iff, orb_false_r, IH, Forall_cons_iff.
  now rewrite lit_true_pos by (unfold zn; lia).
Qed.

Lemma pin_guard i f l wb :
  constraint_f1 fb (FPin i f l wb) = true ->
  isact fb f = true /\ l < nlevels fb f /\ (1 <= GZ)%Z /\
  get_trial_numbers fb f i wb = Some (pins i f wb) /\ Forall (fun p => p < T fb) (pins i f wb).
Proof.
  cbn [constraint_f1]. rewrite !andb_true_iff. intros [[[[[Hf Hl] Hv] _] _] Hp]. apply Nat.ltb_lt in Hl, Hv.
  split; [exact Hf|]. split; [exact Hl|]. split; [unfold GZ; rewrite <- (f1_vps fb HF1); unfold zn; lia|].
  unfold pins. destruct (get_trial_numbers fb f i wb) as [ps|]; [|discriminate]. split; [reflexivity|].
  rewrite forallb_forall in Hp. apply Forall_forall. intros p Hin. now apply Nat.ltb_lt, Hp.
Qed.

Lemma pin_guard_geom i f l wb :
  constraint_f1 fb (FPin i f l wb) = true -> 0 < geometry_sustain fb wb f /\ geom_ok fb wb = true.
Proof. cbn [constraint_f1]. rewrite !andb_true_iff. intros [[[_ Hg] Hs] _]. apply Nat.ltb_lt in Hs. now split. Qed.

(** the pinned trials: per range the [su] trials from the pinned position on *)
Definition pin_pos (i : Z) (su : nat) (r : nat * nat) : Z :=
  (if (0 <=? i)%Z then Z.of_nat (fst r) + i * Z.of_nat su else Z.of_nat (snd r) + i * Z.of_nat su)%Z.
Definition pin_in (i : Z) (su : nat) (r : nat * nat) : bool :=
  in_range (pin_pos i su r) (Z.of_nat (fst r)) (Z.of_nat (snd r)).
Definition pins_of (i : Z) (su : nat) (r : nat * nat) : list nat :=
  if pin_in i su r then map (fun j => Z.to_nat (pin_pos i su r) + j) (seq 0 su) else [].

Lemma pins_eq i f wb :
  geom_ok fb wb = true -> pins i f wb = flat_map (pins_of i (geometry_sustain fb wb f)) (windows_of fb wb).
Proof.
  clear HF1 HT. unfold geom_ok, pins, get_trial_numbers, windows_of.
  destruct (map_block_trial_ranges fb wb) as [rs|]; [intros _|discriminate]. cbn [option_map]. apply flat_map_ext. intros r.
  unfold pins_of, pin_in, in_range. cbv zeta.
  replace (pin_pos i (geometry_sustain fb wb f) r)
    with (if (i <? 0)%Z then Z.of_nat (snd r) + Z.of_nat (geometry_sustain fb wb f) * i
          else Z.of_nat (fst r) + Z.of_nat (geometry_sustain fb wb f) * i)%Z; [reflexivity|].
  unfold pin_pos. destruct (Z.leb_spec 0 i), (Z.ltb_spec i 0); lia.
Qed.

Lemma pins_nonempty i su rs : 0 < su -> (flat_map (pins_of i su) rs <> [] <-> existsb (pin_in i su) rs = true).
Proof.
  clear HF1 HT. intros Hsu. induction rs as [|r rs IH]; cbn [flat_map existsb]; [split; [congruence|discriminate]|].
  unfold pins_of at 1. destruct (pin_in i su r); cbn [orb app]; [|exact IH].
  destruct su; [lia|]. split; [reflexivity|discriminate].
Qed.

(** the clauses of one pinned trial *)
Definition pin_clauses (f l t : nat) : list (list Z) :=
  if lappl fb f t then [[zn (gvar fb t f l)]] else [[1%Z]; [(-1)%Z]].

Lemma pin_cmapM f l ps : isact fb f = true -> l < nlevels fb f ->
  cmapM (fun t => if negb (applies_at fb f (t + 1)) then COk [[1%Z]; [(-1)%Z]]
                  else v <~ get_variable fb (t + 1) f l ;; COk [[zn v]]) ps
  = COk (map (pin_clauses f l) ps).
Proof.
  intros Hf Hl. apply cmapM_ok. intros t _. rewrite Nat.add_1_r. change (applies_at fb f (S t)) with (lappl fb f t).
  unfold pin_clauses. destruct (lappl fb f t); cbn [negb]; [|reflexivity].
  now rewrite (f1_get_variable fb HF1 f l t Hf Hl).
Qed.

Lemma sat_unsat_pair s : sat s [[1%Z]; [(-1)%Z]] = false.
Proof. unfold sat, csat, lit_true. cbn. destruct (s 1%Z); reflexivity. Qed.

Lemma sat_pin_clauses s f l ps : Forall (fun p => p < T fb) ps ->
  (sat s (concat (map (pin_clauses f l) ps)) = true <-> Forall (fun p => lappl fb f p = true /\ bit s p f l = true) ps).
Proof.
  intros Hb. induction Hb as [|p ps Hp _ IH]; [cbn; split; constructor|].
  cbn [map concat]. unfold sat in *. rewrite forallb_app, andb_true_iff, IH, Forall_cons_iff.
  unfold pin_clauses. destruct (lappl fb f p).
  - cbn [forallb csat existsb]. rewrite andb_true_r, orb_false_r.
    rewrite lit_true_pos by (apply (Nat2Z.inj_lt 0), gvar_pos). unfold bit. tauto.
  - change (forallb (csat s) [[1%Z]; [(-1)%Z]]) with (sat s [[1%Z]; [(-1)%Z]]). rewrite sat_unsat_pair.
    split; [intros [H _]; discriminate|intros [[H _] _]; discriminate].
Qed.

Lemma apply_pin_eq i f l wb fresh : constraint_f1 fb (FPin i f l wb) = true ->
  apply_constraint fb (FPin i f l wb) fresh =
  COk {| ct_fresh := fresh; ct_requests := [];
         ct_clauses := match pins i f wb with [] => [[1%Z]; [(-1)%Z]] | ps => concat (map (pin_clauses f l) ps) end |}.
Proof.
  intros Hc. destruct (pin_guard i f l wb Hc) as (Hf & Hl & _ & Ep & _).
  cbn [apply_constraint]. unfold apply_pin. rewrite Ep. destruct (pins i f wb) as [|p ps]; [reflexivity|].
  now rewrite (pin_cmapM f l (p :: ps) Hf Hl).
Qed.

Lemma step_pin i f l wb :
  constraint_f1 fb (FPin i f l wb) = true ->
  forall fresh ct, (GZ < fresh)%Z -> apply_constraint fb (FPin i f l wb) fresh = COk ct ->
  exists ext, DefinesA (fresh - 1) (ct_fresh ct - 1) (ct_clauses ct) (ct_requests ct) ext (Ppin i f l wb).
Proof.
  intros Hc fresh ct Hfr E. rewrite (apply_pin_eq i f l wb fresh Hc) in E. inversion E. subst ct. clear E.
  destruct (pin_guard i f l wb Hc) as (Hf & Hl & HG1 & _ & Hpb).
  pose proof GZ_nonneg as HGZ.
  cbn [ct_fresh ct_clauses ct_requests]. exists (fun s => s). unfold Ppin.
  assert (Hpair : vars_upto (fresh - 1) [[1%Z]; [(-1)%Z]]).
  { intros c x Hc' Hx. destruct Hc' as [<-|[<-|[]]]; destruct Hx as [<-|[]]; lia. }
  destruct (pins i f wb) as [|p ps'] eqn:Epl.
  - eapply definesA_conseq; [apply definesA_clauses; [lia|exact Hpair]|].
    intros s. cbv beta. rewrite (sat_unsat_pair s). split; [discriminate|intros [H _]; now contradiction H].
  - change (pin_clauses f l p ++ concat (map (pin_clauses f l) ps')) with (concat (map (pin_clauses f l) (p :: ps'))).
    rewrite <- Epl in *. eapply definesA_conseq.
    + apply definesA_clauses; [lia|].
      intros c x Hc' Hx. apply in_concat in Hc'. destruct Hc' as (cl & Hcl & Hc').
      apply in_map_iff in Hcl. destruct Hcl as (t & <- & Ht). unfold pin_clauses in Hc'.
      pose proof (Forall_In _ _ _ Hpb Ht) as HtT. cbv beta in HtT.
      destruct (lappl fb f t) eqn:Hap; [|exact (Hpair c x Hc' Hx)].
      destruct Hc' as [<-|[]]. destruct Hx as [<-|[]].
      destruct (gvar_ok t f l (fresh - 1) HtT Hf Hl Hap ltac:(lia)). unfold zn in *. lia.
    + intros s. rewrite (sat_pin_clauses s f l _ Hpb).
      split; [intros H; split; [rewrite Epl; discriminate|exact H]|tauto].
Qed.

Lemma dep_ok_act f d : isact fb f = true -> dep_ok fb f d = true -> sact fb d = true.
Proof.
  intros Ha H. unfold dep_ok in H. rewrite Ha in H. cbn [negb andb] in H. now rewrite orb_false_r in H.
Qed.

Lemma nlevels_at f fd : nth_error (fl_design fb) f = Some fd -> nlevels fb f = length (ff_levels fd).
Proof. intros E. unfold nlevels, factor_at. now rewrite E. Qed.

Lemma is_complex_at f fd : nth_error (fl_design fb) f = Some fd -> is_complex fb f = ff_complex fd.
Proof. intros E. unfold is_complex, factor_at. now rewrite E. Qed.

Lemma row_vars_ok t f fresh : t < T fb -> isact fb f = true -> lappl fb f t = true -> (GZ < fresh)%Z ->
  Forall (fun v => 0 < v /\ (zn v <= fresh - 1)%Z) (map (fun l => gvar fb t f l) (seq 0 (nlevels fb f))).
Proof.
  intros Ht Hf Ha Hfr. apply Forall_map. apply Forall_forall. intros l Hl. apply in_seq in Hl.
  apply gvar_ok; [exact Ht|exact Hf|exact (proj2 Hl)|exact Ha|lia].
Qed.

(** the consistency requests are the rows of the act factors in the trials where they have a level *)
Lemma in_cons_all r : In r (cons_all fb) <->
  exists t f, t < T fb /\ isact fb f = true /\ lappl fb f t = true /\ r = cons_row fb t f.
Proof.
  unfold cons_all. rewrite in_app_iff, !in_flat_map. split.
  - intros [(t & Ht & Hr)|(f & Hf & Hr)].
    + apply in_seq in Ht. apply in_map_iff in Hr. destruct Hr as (f & <- & Hf). apply filter_In in Hf.
      destruct Hf as [_ Hf]. apply sact_split in Hf. destruct Hf as [Hf Hc].
      exists t, f. repeat split; [lia|exact Hf|now apply (lappl_simple fb HF1)].
    + apply filter_In in Hf. destruct Hf as [_ Hf]. apply cact_split in Hf. destruct Hf as [Hf Hc].
      apply in_map_iff in Hr. destruct Hr as (t & <- & Ht). apply in_trials_of in Ht. destruct Ht as [Ht Ha].
      exists t, f. repeat split; [lia|exact Hf|exact Ha].
  - intros (t & f & Ht & Hf & Ha & ->). pose proof (f1_act_lt fb HF1 f Hf) as Hlt.
    destruct (is_complex fb f) eqn:Hc.
    + right. exists f. split; [apply filter_In; split; [apply in_seq; lia|now apply cact_split]|].
      apply (in_map (fun t => cons_row fb t f)). apply in_trials_of. split; [lia|exact Ha].
    + left. exists t. split; [apply in_seq; lia|]. apply in_map. apply filter_In. split; [apply in_seq; lia|now apply sact_split].
Qed.

Lemma cons_row_rel s t f : req_rel s (cons_row fb t f) <-> ntrue (map (bit s t f) (seq 0 (nlevels fb f))) = 1.
Proof.
  unfold cons_row. rewrite <- (map_map (fun l => gvar fb t f l) Z.of_nat). change 1%Z with (zn 1).
  rewrite <- (map_map (fun l => gvar fb t f l) (fun v => s (zn v))). apply req_rel_EQ.
  apply Forall_map, Forall_forall. intros l _. apply gvar_pos.
Qed.

Lemma step_consistency :
  forall fresh ct, (GZ < fresh)%Z -> apply_constraint fb FConsistency fresh = COk ct ->
  exists ext, DefinesA (fresh - 1) (ct_fresh ct - 1) (ct_clauses ct) (ct_requests ct) ext Pcons.
Proof.
  intros fresh ct Hfr E. cbn [apply_constraint] in E. rewrite (f1_consistency fb HF1 fresh) in E.
  inversion E. subst ct. clear E. cbn [ct_fresh ct_clauses ct_requests]. exists (fun s => s).
  pose proof GZ_nonneg as HGZ.
  eapply definesA_conseq.
  - apply definesA_requests; [lia|]. apply Forall_forall. intros r Hr. apply in_cons_all in Hr.
    destruct Hr as (t & f & Ht & Hf & Ha & ->). unfold cons_row.
    rewrite <- (map_map (fun l => gvar fb t f l) Z.of_nat). change 1%Z with (zn 1).
    apply req_ok_zs; [|now apply row_vars_ok].
    pose proof (f1_nlevels_pos fb HF1 f (f1_act_lt fb HF1 f Hf)). destruct (nlevels fb f); [lia|discriminate].
  - intros s. unfold Pcons. rewrite Forall_forall. split.
    + intros H t f Ht Hf Ha. apply cons_row_rel, H, in_cons_all. now exists t, f.
    + intros H r Hr. apply in_cons_all in Hr. destruct Hr as (t & f & Ht & Hf & Ha & ->). now apply cons_row_rel, H.
Qed.

End F1Kinds.
