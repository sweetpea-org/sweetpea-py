(** Meaning of the implications that [AtLeastKInARow] and [ExactlyKInARow]
    (sweetpea/_internal/constraint.py, models [atleast_impls] and [ekr_impls] of
    Encode/Compile.v) emit for ONE window of trials: they hold under an
    assignment iff every maximal run of the level inside the window has length
    at least k, respectively exactly k.

    Everything is proved for every k >= 1 and every window length.

    Route: (1) the variable lists handed to the formula constructors are
    slices of the window ([is_slice]); (2) evaluation of every emitted
    implication is a condition on [E i], the value of the i-th variable of the
    window ([AL_idx], [EX_idx]); (3) these index conditions are equivalent to
    the run-start characterisations [atleast_runs_E] / [exact_runs_E] of
    Encode/Runs.v. *)
From Coq Require Import ZArith List Bool Lia Arith.
From SP Require Import Base.Lists Base.Sat Logic.Formula Encode.Compile Encode.Runs.
Import ListNotations.
Close Scope Z_scope.
Open Scope nat_scope.

(** Exhaustive test of the two statements (all boolean lists of length
    0..8, k = 1..5), checked by the kernel *)

Fixpoint allbits (n : nat) : list (list bool) :=
  match n with
  | O => [[]]
  | S m => flat_map (fun l => [true :: l; false :: l]) (allbits m)
  end.

Definition asg_of (bits : list bool) : Z -> bool :=
  fun z => nth (Z.to_nat z - 1) bits false.

Definition test_lhs1 (k : nat) (bits : list bool) : bool :=
  let vl := seq 1 (length bits) in
  eval (asg_of bits) (FAnd (atleast_impls k vl (windows (S k) vl))).
Definition test_rhs1 (k : nat) (bits : list bool) : bool :=
  forallb (fun n => k <=? n) (bruns (map (fun v => asg_of bits (zn v)) (seq 1 (length bits)))).
Definition test_lhs2 (k : nat) (bits : list bool) : bool :=
  let vl := seq 1 (length bits) in
  eval (asg_of bits) (FAnd (match windows k vl with
                            | [] => map (fun v => FNot (fv v)) vl
                            | sub => ekr_impls k sub
                            end)).
Definition test_rhs2 (k : nat) (bits : list bool) : bool :=
  forallb (fun n => n =? k) (bruns (map (fun v => asg_of bits (zn v)) (seq 1 (length bits)))).

Definition test_bad (lhs rhs : nat -> list bool -> bool) : list (nat * list bool * bool) :=
  flat_map (fun k =>
    flat_map (fun n =>
      flat_map (fun b => if Bool.eqb (lhs k b) (rhs k b) then [] else [(k, b, lhs k b)])
               (allbits n)) (seq 0 9)) (seq 1 5).

Example atleast_statement_tested : test_bad test_lhs1 test_rhs1 = [].
Proof. vm_compute. reflexivity. Qed.
Example exactly_statement_tested : test_bad test_lhs2 test_rhs2 = [].
Proof. vm_compute. reflexivity. Qed.

Lemma last_map_seq : forall A (f : nat -> A) m d, last (map f (seq 0 (S m))) d = f m.
Proof.
  intros A f m d. rewrite seq_S, map_app. cbn [map]. rewrite last_last. reflexivity.
Qed.

Lemma last_as_nth : forall A (l : list A) d, last l d = nth (length l - 1) l d.
Proof.
  intros A l d. induction l as [|a l IH]; [reflexivity|].
  destruct l as [|b r]; [reflexivity|].
  change (last (a :: b :: r) d) with (last (b :: r) d). rewrite IH. cbn [length].
  replace (S (S (length r)) - 1) with (S (length r)) by lia.
  replace (S (length r) - 1) with (length r) by lia. reflexivity.
Qed.

(** [w] lists the [len] elements of [l] from position [a] on *)
Definition is_slice (l w : list nat) (a len : nat) : Prop :=
  length w = len /\ forall t, t < len -> nth t w 0 = nth (a + t) l 0.

Lemma is_slice_window : forall l i L, i + L <= length l ->
  is_slice l (firstn L (skipn i l)) i L.
Proof.
  intros l i L H. split.
  - rewrite firstn_length, skipn_length. lia.
  - intros t Ht. rewrite nth_firstn_lt by exact Ht. apply nth_skipn_add.
Qed.

Lemma is_slice_self : forall l, is_slice l l 0 (length l).
Proof. intro l. split; [reflexivity|]. intros t _. reflexivity. Qed.

Lemma is_slice_skipn : forall l w a len c,
  is_slice l w a len -> is_slice l (skipn c w) (a + c) (len - c).
Proof.
  intros l w a len c [HL HN]. split.
  - rewrite skipn_length. lia.
  - intros t Ht. rewrite nth_skipn_add, HN by lia. f_equal. lia.
Qed.

Lemma is_slice_tl : forall l w a len, is_slice l w a len -> is_slice l (tl w) (a + 1) (len - 1).
Proof.
  intros l w a len H. replace (tl w) with (skipn 1 w) by (destruct w; reflexivity).
  apply is_slice_skipn. exact H.
Qed.

Lemma is_slice_removelast : forall l w a len,
  is_slice l w a len -> is_slice l (removelast w) a (len - 1).
Proof.
  intros l w a len [HL HN]. rewrite removelast_firstn_len. split.
  - rewrite firstn_length. lia.
  - intros t Ht. rewrite nth_firstn_lt by lia. apply HN. lia.
Qed.

Lemma is_slice_nth : forall l w a len j, is_slice l w a len -> j < len ->
  nth j w 0 = nth (a + j) l 0.
Proof. intros l w a len j [_ HN] Hj. apply HN. exact Hj. Qed.

Lemma is_slice_last : forall l w a len, is_slice l w a len -> 0 < len ->
  last w 0 = nth (a + (len - 1)) l 0.
Proof.
  intros l w a len [HL HN] Hlen. rewrite last_as_nth, HL. apply HN. lia.
Qed.

(** a list shorter than [k] has a run satisfying [P] only if ... it has no run *)
Lemma short_runs : forall (P : nat -> Prop) k bs,
  length bs < k -> (forall x, P x -> k <= x) ->
  (Forall P (bruns bs) <-> Forall (fun b => b = false) bs).
Proof.
  intros P k bs Hlen HP. rewrite <- bruns_nil_iff. split.
  - intro H. destruct (bruns bs) as [|x r] eqn:Eq; [reflexivity|]. exfalso.
    pose proof (bruns_all_le_length bs) as HL. rewrite Eq in HL.
    apply Forall_inv in H. apply Forall_inv in HL. apply HP in H. lia.
  - intro H. rewrite H. constructor.
Qed.

(** AtLeastKInARow on a window of [m + k] trials ([m >= 1] sublists of k+1):
    start corner case, "off then on implies the next k-1 on", end corner
    case, and no run start in the last k-1 trials *)
Definition AL_idx (k m : nat) (E : nat -> bool) : Prop :=
  (E 0 = true -> forall t, t < k - 1 -> E (1 + t) = true) /\
  (forall i, i < m -> E i = false -> E (i + 1) = true ->
             forall t, t < k - 1 -> E (i + 2 + t) = true) /\
  (E m = false -> forall t, t < k - 1 -> E (m + 1 + t) = false) /\
  (1 < m -> forall t, S t < k - 1 -> E (m + 1 + t) = false -> E (m + 1 + S t) = false).

(** ExactlyKInARow on a window of [k + d] trials ([d + 1] sublists of k) *)
Definition EX_idx (k d : nat) (E : nat -> bool) : Prop :=
  (forall idx, idx < (if 1 <? k then S d else d) ->
     E idx = true -> (idx = 0 \/ E (idx - 1) = false) ->
     (forall t, t < k - 1 -> E (idx + 1 + t) = true) /\ (idx < d -> E (idx + k) = false)) /\
  (1 < k -> forall t, S t < k -> E (d + S t) = true -> E (d + t) = true).

Section Comb.
Variable bs : list bool.
Variable E : nat -> bool.
Hypothesis HB : forall i, i < length bs -> nth i bs false = E i.

Lemma atleast_comb : forall k m, 0 < k -> 0 < m -> length bs = m + k ->
  (AL_idx k m E <-> Forall (fun x => k <= x) (bruns bs)).
Proof.
  intros k m Hk Hm Hlen. rewrite (atleast_runs_E bs E HB). rewrite Hlen. split.
  - intros (H1 & H2 & H3 & H4) i Hi Hn Hs.
    destruct Hs as [-> | Hs].
    { split; [lia|]. intros j Hj. destruct j as [|j]; [exact Hn|].
      apply (H1 Hn). lia. }
    destruct i as [|i]; [simpl in Hs; congruence|].
    replace (S i - 1) with i in Hs by lia.
    replace (S i) with (i + 1) in * by lia.
    destruct (Nat.lt_ge_cases i m) as [Him | Him].
    { split; [lia|]. intros j Hj. destruct j as [|j].
      - replace (i + 1 + 0) with (i + 1) by lia. exact Hn.
      - replace (i + 1 + S j) with (i + 2 + j) by lia. apply (H2 i Him Hs Hn). lia. }
    exfalso. destruct (E m) eqn:Em.
    + assert (Hne : i <> m) by (intro; subst i; congruence).
      destruct (Nat.lt_ge_cases 1 m) as [Hm1 | Hm1].
      * assert (Hf : E (m + 1 + S (i - m - 1)) = false).
        { apply (H4 Hm1); [lia|]. replace (m + 1 + (i - m - 1)) with i by lia. exact Hs. }
        replace (m + 1 + S (i - m - 1)) with (i + 1) in Hf by lia. congruence.
      * assert (Hm' : m = 1) by lia. subst m.
        destruct (E 0) eqn:E0.
        -- assert (Hf : E (1 + (i - 1)) = true) by (apply (H1 eq_refl); lia).
           replace (1 + (i - 1)) with i in Hf by lia. congruence.
        -- assert (Hf : E (0 + 2 + (i - 2)) = true) by (apply (H2 0); [lia | exact E0 | exact Em | lia]).
           replace (0 + 2 + (i - 2)) with i in Hf by lia. congruence.
    + assert (Hf : E (m + 1 + (i - m)) = false) by (apply (H3 eq_refl); lia).
      replace (m + 1 + (i - m)) with (i + 1) in Hf by lia. congruence.
  - intro HS. unfold AL_idx. split; [|split; [|split]].
    + intros H0 t Ht. destruct (HS 0) as [_ Hb]; [lia | exact H0 | left; reflexivity|].
      apply (Hb (1 + t)). lia.
    + intros i Hi Hoff Hon t Ht.
      destruct (HS (i + 1)) as [_ Hb]; [lia | exact Hon | right; replace (i + 1 - 1) with i by lia; exact Hoff|].
      replace (i + 2 + t) with (i + 1 + (1 + t)) by lia. apply Hb. lia.
    + intros Hoff t Ht. destruct (E (m + 1 + t)) eqn:Et; [exfalso | reflexivity].
      destruct (run_start_exists E _ Et) as [i [H1 [H2 [H3 H4]]]].
      assert (Hgt : m < i).
      { destruct (Nat.lt_ge_cases m i) as [Hlt | Hge]; [exact Hlt|].
        assert (Hf : E m = true) by (apply H4; lia). congruence. }
      destruct (HS i) as [Ha _]; [lia | exact H2 | exact H3 | lia].
    + intros Hm1 t Ht Hoff. destruct (E (m + 1 + S t)) eqn:Et; [exfalso | reflexivity].
      destruct (HS (m + 1 + S t)) as [Ha _]; [lia | exact Et | | lia].
      right. replace (m + 1 + S t - 1) with (m + 1 + t) by lia. exact Hoff.
Qed.

(** window of exactly k trials: all-or-nothing *)
Lemma atleast_comb_eq : forall k, 0 < k -> length bs = k ->
  ((forall t, t < k - 1 -> E 0 = E (0 + 1 + t)) <-> Forall (fun x => k <= x) (bruns bs)).
Proof.
  intros k Hk Hlen. rewrite (atleast_runs_E bs E HB). rewrite Hlen. split.
  - intros H i Hi Hn Hs.
    assert (Hall : forall j, j < k -> E j = E 0).
    { intros [|j] Hj; [reflexivity|]. symmetry. apply (H j). lia. }
    assert (H0 : E 0 = true) by (rewrite <- (Hall i Hi); exact Hn).
    destruct Hs as [-> | Hs].
    + split; [lia|]. intros j Hj. simpl. rewrite Hall by exact Hj. exact H0.
    + rewrite Hall in Hs by lia. congruence.
  - intros HS t Ht. destruct (E 0) eqn:E0.
    + destruct (HS 0) as [_ Hb]; [lia | exact E0 | left; reflexivity|].
      symmetry. apply (Hb (1 + t)). lia.
    + destruct (E (0 + 1 + t)) eqn:Et; [exfalso | reflexivity].
      destruct (run_start_exists E _ Et) as [i [H1 [H2 [H3 H4]]]].
      destruct (HS i) as [Ha _]; [lia | exact H2 | exact H3|].
      assert (Hi0 : i = 0) by lia. subst i. congruence.
Qed.

Lemma exact_comb : forall k d, 0 < k -> length bs = k + d ->
  (EX_idx k d E <-> Forall (fun x => x = k) (bruns bs)).
Proof.
  intros k d Hk Hlen. rewrite (exact_runs_E bs E HB k Hk). rewrite Hlen. split.
  - intros [H1 H2]. split.
    + intros i Hi Hn Hs.
      destruct (Nat.eq_dec k 1) as [-> | Hk1].
      { split; [lia|]. intros j Hj. replace (i + j) with i by lia. exact Hn. }
      assert (Hk2 : 1 < k) by lia.
      assert (Etrim : (1 <? k) = true) by (apply Nat.ltb_lt; exact Hk2).
      rewrite Etrim in H1.
      destruct (Nat.le_gt_cases i d) as [Hid | Hid].
      * destruct (H1 i) as [Hq _]; [lia | exact Hn | exact Hs|].
        split; [lia|]. intros j Hj. destruct j as [|j].
        -- replace (i + 0) with i by lia. exact Hn.
        -- replace (i + S j) with (i + 1 + j) by lia. apply Hq. lia.
      * exfalso.
        assert (Hf : E (d + (i - d - 1)) = true).
        { apply (H2 Hk2); [lia|]. replace (d + S (i - d - 1)) with i by lia. exact Hn. }
        replace (d + (i - d - 1)) with (i - 1) in Hf by lia.
        destruct Hs as [Hs | Hs]; [lia | congruence].
    + intros i Hi Hall Hs.
      assert (Hn : E i = true).
      { replace i with (i + 0) by lia. apply Hall. exact Hk. }
      destruct (H1 i) as [_ Hq]; [destruct (1 <? k); lia | exact Hn | exact Hs|].
      apply Hq. lia.
  - intros [HA HC]. split.
    + intros idx Hidx Hn Hs.
      assert (Hidx' : idx <= d) by (destruct (1 <? k); lia).
      destruct (HA idx) as [Ha Hb]; [lia | exact Hn | exact Hs|].
      split.
      * intros t Ht. replace (idx + 1 + t) with (idx + (1 + t)) by lia. apply Hb. lia.
      * intro Hlt. apply HC; [lia | exact Hb | exact Hs].
    + intros Hk2 t Ht Hon. destruct (E (d + t)) eqn:Et; [reflexivity | exfalso].
      destruct (HA (d + S t)) as [Ha _]; [lia | exact Hon | | lia].
      right. replace (d + S t - 1) with (d + t) by lia. exact Et.
Qed.

End Comb.

(** one implication of the main loop of [ExactlyKInARow]: "a run starts at the
    first trial of sublist [idx]" implies "it fills the sublist and ends there" *)
Definition ekr_guard (sublists : list (list nat)) (idx : nat) : fm :=
  let l := nth idx sublists [] in
  if idx =? 0 then fv (nth 0 l 0)
  else FAnd [FNot (fv (nth 0 (nth (idx - 1) sublists []) 0)); fv (nth 0 l 0)].

Definition ekr_body (k : nat) (sublists : list (list nat)) (idx : nat) : fm :=
  let l := nth idx sublists [] in
  if idx <? length sublists - 1 then
    let ql := map fv (tl l) ++ [FNot (fv (last (nth (idx + 1) sublists []) 0))] in
    match ql with [x] => x | _ => FAnd ql end
  else match tl l with
       | _ :: _ :: _ => FAnd (map fv (tl l))
       | _ => fv (nth (k - 1) l 0)
       end.

Definition ekr_one (k : nat) (sublists : list (list nat)) (idx : nat) : fm :=
  FIf (ekr_guard sublists idx) (ekr_body k sublists idx).

Lemma ekr_impls_unfold : forall k subs,
  ekr_impls k subs =
  map (ekr_one k subs) (seq 0 (if 1 <? k then length subs else length subs - 1))
  ++ (if 1 <? length (last subs []) then tail_impls (rev (last subs [])) else []).
Proof. reflexivity. Qed.

Section Sem.
Variable s : asg.

(** the value of variable [v] as the formulas see it *)
Definition ev (v : nat) : bool := eval s (fv v).

Lemma eval_and_cons : forall f l, eval s (FAnd (f :: l)) = eval s f && eval s (FAnd l).
Proof. reflexivity. Qed.

Lemma eval_and_app : forall l1 l2,
  eval s (FAnd (l1 ++ l2)) = eval s (FAnd l1) && eval s (FAnd l2).
Proof. intros l1 l2. cbn [eval]. apply forallb_app. Qed.

Lemma eval_and_nil : eval s (FAnd []) = true.
Proof. reflexivity. Qed.

Lemma eval_and_if : forall (b : bool) l,
  eval s (FAnd (if b then l else [])) = true <-> (b = true -> eval s (FAnd l) = true).
Proof. intros [|] l; [tauto|]. split; [discriminate|reflexivity]. Qed.

Lemma eval_and_map : forall A (f : A -> fm) l,
  eval s (FAnd (map f l)) = true <-> forall x, In x l -> eval s (f x) = true.
Proof.
  intros A f l. cbn [eval]. rewrite forallb_forall. split.
  - intros H x Hx. apply H. apply in_map. exact Hx.
  - intros H y Hy. apply in_map_iff in Hy. destruct Hy as [x [<- Hx]]. apply H. exact Hx.
Qed.

Lemma eval_if : forall p q, eval s (FIf p q) = true <-> (eval s p = true -> eval s q = true).
Proof. intros p q. cbn [eval]. apply implb_true_iff. Qed.

Lemma eval_not_true : forall p, eval s (FNot p) = true <-> eval s p = false.
Proof. intro p. cbn [eval]. apply negb_true_iff. Qed.

Lemma eval_nab : forall a b,
  eval s (FAnd [FNot (fv a); fv b]) = true <-> ev a = false /\ ev b = true.
Proof.
  intros a b. cbn [eval forallb]. unfold ev.
  destruct (eval s (fv a)), (eval s (fv b)); cbn; intuition congruence.
Qed.

Lemma evA : forall w,
  eval s (FAnd (map fv w)) = true <-> forall t, t < length w -> ev (nth t w 0) = true.
Proof.
  induction w as [|a w IH].
  - split; [intros _ t Ht; simpl in Ht; lia | reflexivity].
  - cbn [map length]. rewrite eval_and_cons, andb_true_iff, IH. split.
    + intros [Ha Hw] [|t] Ht; [exact Ha | apply Hw; lia].
    + intro H. split; [apply (H 0); lia | intros t Ht; apply (H (S t)); lia].
Qed.

Lemma evO : forall w,
  eval s (FOr (map fv w)) = false <-> forall t, t < length w -> ev (nth t w 0) = false.
Proof.
  induction w as [|a w IH].
  - split; [intros _ t Ht; simpl in Ht; lia | reflexivity].
  - cbn [map length].
    change (eval s (FOr (fv a :: map fv w))) with (ev a || eval s (FOr (map fv w))).
    rewrite orb_false_iff, IH. split.
    + intros [Ha Hw] [|t] Ht; [exact Ha | apply Hw; lia].
    + intro H. split; [apply (H 0); lia | intros t Ht; apply (H (S t)); lia].
Qed.

(** [not_pairs] and [tail_impls] are this recursion with two different [g] *)
Definition adj_map (g : nat -> nat -> fm) : list nat -> list fm :=
  fix go l :=
    match l with
    | a :: (b :: _) as r => g a b :: go r
    | _ => []
    end.

Lemma eval_adj : forall g w,
  eval s (FAnd (adj_map g w)) = true <->
  forall t, S t < length w -> eval s (g (nth t w 0) (nth (S t) w 0)) = true.
Proof.
  intros g. induction w as [|a [|b r] IH]; [split; [intros _ t Ht; simpl in Ht; lia | reflexivity]..|].
  change (adj_map g (a :: b :: r)) with (g a b :: adj_map g (b :: r)).
  rewrite eval_and_cons, andb_true_iff, IH. split.
  - intros [Hab Hr] [|t] Ht; [exact Hab | apply Hr; simpl in Ht |- *; lia].
  - intro H. split; [apply (H 0); simpl; lia|].
    intros t Ht. apply (H (S t)). simpl in Ht |- *. lia.
Qed.

Lemma ev_not_pairs : forall w,
  eval s (FAnd (not_pairs w)) = true <->
  forall t, S t < length w -> ev (nth t w 0) = false -> ev (nth (S t) w 0) = false.
Proof.
  intros w. change (not_pairs w) with (adj_map (fun a b => FIf (FNot (fv a)) (FNot (fv b))) w).
  rewrite eval_adj. split; intros H t Ht; specialize (H t Ht); rewrite eval_if, !eval_not_true in *; exact H.
Qed.

Lemma ev_tail_impls : forall w,
  eval s (FAnd (tail_impls w)) = true <->
  forall t, S t < length w -> ev (nth t w 0) = true -> ev (nth (S t) w 0) = true.
Proof.
  intros w. change (tail_impls w) with (adj_map (fun a b => FIf (fv a) (fv b)) w).
  rewrite eval_adj. split; intros H t Ht; specialize (H t Ht); rewrite eval_if in *; exact H.
Qed.

Lemma eval_all_not : forall vl,
  eval s (FAnd (map (fun v => FNot (fv v)) vl)) = true <->
  Forall (fun b => b = false) (map ev vl).
Proof.
  induction vl as [|a r IH].
  - split; [constructor | reflexivity].
  - cbn [map]. rewrite eval_and_cons, andb_true_iff, Forall_cons_iff, IH, eval_not_true.
    reflexivity.
Qed.

Lemma eval_single_or_and : forall ql,
  eval s (match ql with [x] => x | _ => FAnd ql end) = eval s (FAnd ql).
Proof.
  intros [|x [|y r]]; [reflexivity | | reflexivity].
  cbn [eval forallb]. rewrite andb_true_r. reflexivity.
Qed.

Section Window.
Variable vl : list nat.

Definition Ev (i : nat) : bool := ev (nth i vl 0).

Lemma Ev_link : forall i, i < length (map ev vl) -> nth i (map ev vl) false = Ev i.
Proof.
  intros i Hi. rewrite (nth_indep _ false (ev 0)) by exact Hi.
  rewrite map_nth. reflexivity.
Qed.

Lemma slA : forall w a len, is_slice vl w a len ->
  (eval s (FAnd (map fv w)) = true <-> forall t, t < len -> Ev (a + t) = true).
Proof.
  intros w a len [HL HN]. rewrite evA, HL. unfold Ev.
  split; intros H t Ht; [rewrite <- HN by exact Ht | rewrite HN by exact Ht]; apply H; exact Ht.
Qed.

Lemma slO : forall w a len, is_slice vl w a len ->
  (eval s (FOr (map fv w)) = false <-> forall t, t < len -> Ev (a + t) = false).
Proof.
  intros w a len [HL HN]. rewrite evO, HL. unfold Ev.
  split; intros H t Ht; [rewrite <- HN by exact Ht | rewrite HN by exact Ht]; apply H; exact Ht.
Qed.

Lemma sl_not_pairs : forall w a len, is_slice vl w a len ->
  (eval s (FAnd (not_pairs w)) = true <->
   forall t, S t < len -> Ev (a + t) = false -> Ev (a + S t) = false).
Proof.
  intros w a len [HL HN]. rewrite ev_not_pairs, HL. unfold Ev.
  split; intros H t Ht.
  - rewrite <- (HN t), <- (HN (S t)) by lia. apply H. exact Ht.
  - rewrite (HN t), (HN (S t)) by lia. apply H. exact Ht.
Qed.

Lemma sl_tail_rev : forall w a len, is_slice vl w a len ->
  (eval s (FAnd (tail_impls (rev w))) = true <->
   forall t, S t < len -> Ev (a + S t) = true -> Ev (a + t) = true).
Proof.
  intros w a len [HL HN]. rewrite ev_tail_impls, rev_length, HL. unfold Ev.
  split; intros H t Ht.
  - specialize (H (len - S (S t))).
    rewrite !rev_nth in H by lia. rewrite HL in H.
    replace (len - S (len - S (S t))) with (S t) in H by lia.
    replace (len - S (S (len - S (S t)))) with t in H by lia.
    rewrite (HN t), (HN (S t)) in H by lia. apply H. lia.
  - rewrite !rev_nth by lia. rewrite HL.
    specialize (H (len - S (S t))).
    replace (S (len - S (S t))) with (len - S t) in H by lia.
    rewrite !HN by lia. apply H. lia.
Qed.

(** the "off then on implies the next k-1 on" implication of one sublist *)
Lemma mid_impl_slice : forall k w i, 0 < k -> is_slice vl w i (S k) ->
  ((ev (nth 0 w 0) = false -> ev (nth 1 w 0) = true -> eval s (FAnd (map fv (skipn 2 w))) = true) <->
   (Ev i = false -> Ev (i + 1) = true -> forall t, t < k - 1 -> Ev (i + 2 + t) = true)).
Proof.
  intros k w i Hk H. rewrite (is_slice_nth _ _ _ _ 0 H), (is_slice_nth _ _ _ _ 1 H) by lia.
  rewrite (slA _ _ _ (is_slice_skipn _ _ _ _ 2 H)).
  replace (i + 0) with i by lia. replace (S k - 2) with (k - 1) by lia. reflexivity.
Qed.

Lemma atleast_eval : forall k subs, subs <> [] ->
  let first := hd [] subs in
  let lst := last subs [] in
  (eval s (FAnd (atleast_impls k vl subs)) = true <->
   (ev (nth 0 first 0) = true -> eval s (FAnd (map fv (removelast (tl first)))) = true) /\
   (forall sub, In sub subs -> ev (nth 0 sub 0) = false -> ev (nth 1 sub 0) = true ->
                eval s (FAnd (map fv (skipn 2 sub))) = true) /\
   (ev (nth 1 lst 0) = false -> eval s (FOr (map fv (skipn 2 lst))) = false) /\
   (1 < length subs -> eval s (FAnd (not_pairs (skipn 2 lst))) = true)).
Proof.
  intros k subs Hne first lst.
  destruct subs as [|f0 rest]; [congruence|].
  unfold atleast_impls. cbv zeta. fold lst. subst first. cbn [hd].
  remember (f0 :: rest) as subs eqn:Esubs.
  rewrite eval_and_cons, !eval_and_app, !andb_true_iff, eval_and_cons, eval_and_nil, andb_true_r.
  rewrite eval_and_map, !eval_if, eval_not_true.
  assert (Hlast : (eval s (FNot (FOr (map fv (skipn 2 lst)))) = true) <->
                  eval s (FOr (map fv (skipn 2 lst))) = false) by apply eval_not_true.
  rewrite Hlast.
  assert (Hmid : (forall x, In x subs ->
                    eval s (FIf (FAnd [FNot (fv (nth 0 x 0)); fv (nth 1 x 0)])
                                (FAnd (map fv (skipn 2 x)))) = true) <->
                 (forall sub, In sub subs -> ev (nth 0 sub 0) = false -> ev (nth 1 sub 0) = true ->
                    eval s (FAnd (map fv (skipn 2 sub))) = true)).
  { split; intros H x Hx.
    - intros Ha Hb. apply (proj1 (eval_if _ _) (H x Hx)). apply eval_nab. split; assumption.
    - apply eval_if. intro Hp. apply eval_nab in Hp. destruct Hp as [Ha Hb]. apply H; assumption. }
  rewrite Hmid.
  rewrite eval_and_if, Nat.ltb_lt. unfold ev. tauto.
Qed.

Lemma atleast_bridge : forall k m, 0 < k -> 0 < m -> length vl = m + k ->
  (eval s (FAnd (atleast_impls k vl (windows (S k) vl))) = true <-> AL_idx k m Ev).
Proof.
  intros k m Hk Hm Hlen.
  rewrite windows_seq by lia. rewrite Hlen.
  replace (S (m + k) - S k) with m by lia.
  set (W := fun i => firstn (S k) (skipn i vl)).
  assert (HW : forall i, i < m -> is_slice vl (W i) i (S k)).
  { intros i Hi. apply is_slice_window. lia. }
  destruct m as [|m']; [lia|].
  set (subs := map W (seq 0 (S m'))).
  assert (Hne : subs <> []) by (unfold subs; cbn [seq map]; discriminate).
  rewrite (atleast_eval k subs Hne). cbv zeta.
  assert (Hfirst : hd [] subs = W 0) by reflexivity.
  assert (Hlst : last subs [] = W m') by apply last_map_seq.
  assert (Hlens : length subs = S m') by (unfold subs; rewrite map_length, seq_length; reflexivity).
  rewrite Hfirst, Hlst, Hlens.
  assert (HW0 := HW 0 Hm).
  assert (HWm : is_slice vl (W m') m' (S k)) by (apply HW; lia).
  (* first corner *)
  rewrite (is_slice_nth _ _ _ _ 0 HW0) by lia.
  rewrite (slA _ _ _ (is_slice_removelast _ _ _ _ (is_slice_tl _ _ _ _ HW0))).
  (* last corner *)
  rewrite (is_slice_nth _ _ _ _ 1 HWm) by lia.
  rewrite (slO _ _ _ (is_slice_skipn _ _ _ _ 2 HWm)).
  rewrite (sl_not_pairs _ _ _ (is_slice_skipn _ _ _ _ 2 HWm)).
  replace (S k - 1 - 1) with (k - 1) by lia.
  replace (S k - 2) with (k - 1) by lia.
  replace (0 + 0) with 0 by lia. replace (0 + 1) with 1 by lia.
  replace (m' + 1) with (S m') by lia. replace (m' + 2) with (S m' + 1) by lia.
  fold (Ev 0). fold (Ev (S m')).
  unfold AL_idx.
  assert (Hmid :
    (forall sub, In sub subs -> ev (nth 0 sub 0) = false -> ev (nth 1 sub 0) = true ->
                 eval s (FAnd (map fv (skipn 2 sub))) = true) <->
    (forall i, i < S m' -> Ev i = false -> Ev (i + 1) = true ->
               forall t, t < k - 1 -> Ev (i + 2 + t) = true)).
  { split.
    - intros H i Hi. apply (mid_impl_slice k _ i Hk (HW i Hi)), H. unfold subs. apply in_map, in_seq. lia.
    - intros H sub Hin. unfold subs in Hin. apply in_map_iff in Hin. destruct Hin as [i [<- Hi]].
      apply in_seq in Hi. apply (mid_impl_slice k _ i Hk (HW i ltac:(lia))), H. lia. }
  rewrite Hmid. reflexivity.
Qed.

(** the Iff chain of the window of exactly k trials *)
Lemma sl_iffs : forall w a len h, is_slice vl w a len ->
  (eval s (FAnd (map (fun v => FIff (fv h) (fv v)) w)) = true <->
   forall t, t < len -> ev h = Ev (a + t)).
Proof.
  intros w a len h [HL HN]. rewrite eval_and_map. unfold Ev. split.
  - intros H t Ht. rewrite <- HN by exact Ht.
    assert (Hin : In (nth t w 0) w) by (apply nth_In; lia).
    specialize (H _ Hin). cbn [eval] in H. apply (proj1 (eqb_true_iff _ _)) in H. exact H.
  - intros H x Hx. destruct (In_nth _ _ 0 Hx) as [t [Ht <-]].
    cbn [eval]. apply (proj2 (eqb_true_iff _ _)). fold (ev h). fold (ev (nth t w 0)). rewrite HN by lia. apply H. lia.
Qed.

Section Exact.
Variables k d : nat.
Hypothesis Hk : 0 < k.
Hypothesis Hlen : length vl = k + d.

Definition ekr_subs : list (list nat) := map (fun i => firstn k (skipn i vl)) (seq 0 (S d)).

Lemma ekr_subs_slice : forall i, i < S d -> is_slice vl (nth i ekr_subs []) i k.
Proof.
  intros i Hi. unfold ekr_subs. rewrite nth_map_seq by exact Hi. apply is_slice_window. lia.
Qed.

Lemma ekr_guard_slice : forall idx, idx < S d ->
  (eval s (ekr_guard ekr_subs idx) = true <-> Ev idx = true /\ (idx = 0 \/ Ev (idx - 1) = false)).
Proof.
  intros idx Hidx. unfold ekr_guard. cbv zeta.
  rewrite (is_slice_nth _ _ _ _ 0 (ekr_subs_slice idx Hidx)), Nat.add_0_r by lia.
  destruct (idx =? 0) eqn:E0; [apply Nat.eqb_eq in E0; unfold Ev, ev; tauto|].
  apply Nat.eqb_neq in E0.
  rewrite (is_slice_nth _ _ _ _ 0 (ekr_subs_slice (idx - 1) ltac:(lia))), Nat.add_0_r by lia.
  rewrite eval_nab. unfold Ev. tauto.
Qed.

Lemma ekr_body_slice : forall idx, idx < S d -> idx < d \/ 1 < k ->
  (eval s (ekr_body k ekr_subs idx) = true <->
   (forall t, t < k - 1 -> Ev (idx + 1 + t) = true) /\ (idx < d -> Ev (idx + k) = false)).
Proof.
  intros idx Hidx Hor. unfold ekr_body. cbv zeta.
  assert (HWi := ekr_subs_slice idx Hidx). assert (Htl := is_slice_tl _ _ _ _ HWi).
  replace (length ekr_subs - 1) with d by (unfold ekr_subs; rewrite map_length, seq_length; lia).
  destruct (idx <? d) eqn:Ed.
  - apply Nat.ltb_lt in Ed.
    rewrite eval_single_or_and, eval_and_app, andb_true_iff, (slA _ _ _ Htl).
    rewrite eval_and_cons, eval_and_nil, andb_true_r, eval_not_true.
    rewrite (is_slice_last _ _ _ _ (ekr_subs_slice (idx + 1) ltac:(lia)) Hk).
    replace (idx + 1 + (k - 1)) with (idx + k) by lia. fold (Ev (idx + k)). tauto.
  - apply Nat.ltb_ge in Ed.
    transitivity (forall t, t < k - 1 -> Ev (idx + 1 + t) = true); [|split; [split; [assumption|lia]|tauto]].
    destruct (tl (nth idx ekr_subs [])) as [|x [|y r]] eqn:Etl.
    + destruct Htl as [HL _]. simpl in HL. lia.
    + (* k = 2: the body is the second variable of the sublist alone *)
      destruct Htl as [HL _]. simpl in HL.
      rewrite (is_slice_nth _ _ _ _ (k - 1) HWi) by lia. fold (Ev (idx + (k - 1))).
      replace (idx + (k - 1)) with (idx + 1 + 0) by lia.
      split; [intros H t Ht; replace t with 0 by lia; exact H|intros H; apply H; lia].
    + apply (slA _ _ _ Htl).
Qed.

Lemma exact_bridge :
  eval s (FAnd (ekr_impls k (windows k vl))) = true <-> EX_idx k d Ev.
Proof.
  rewrite windows_seq by lia. rewrite Hlen.
  replace (S (k + d) - k) with (S d) by lia. fold ekr_subs.
  rewrite ekr_impls_unfold, eval_and_app, andb_true_iff, eval_and_map.
  replace (length ekr_subs) with (S d) by (unfold ekr_subs; rewrite map_length, seq_length; reflexivity).
  replace (last ekr_subs []) with (nth d ekr_subs []) by (unfold ekr_subs; rewrite last_map_seq, nth_map_seq; auto).
  replace (S d - 1) with d by lia.
  assert (HWd := ekr_subs_slice d (Nat.lt_succ_diag_r d)).
  rewrite eval_and_if, (sl_tail_rev _ _ _ HWd), (proj1 HWd), Nat.ltb_lt. unfold EX_idx.
  apply and_iff_compat_r.
  assert (Hone : forall idx, idx < (if 1 <? k then S d else d) ->
    (eval s (ekr_one k ekr_subs idx) = true <->
     (Ev idx = true -> (idx = 0 \/ Ev (idx - 1) = false) ->
      (forall t, t < k - 1 -> Ev (idx + 1 + t) = true) /\ (idx < d -> Ev (idx + k) = false)))).
  { intros idx Hidx. unfold ekr_one.
    assert (Hd : idx < S d /\ (idx < d \/ 1 < k)).
    { destruct (1 <? k) eqn:E1; [apply Nat.ltb_lt in E1|]; lia. }
    rewrite eval_if, (ekr_guard_slice idx (proj1 Hd)), (ekr_body_slice idx (proj1 Hd) (proj2 Hd)). tauto. }
  split.
  - intros H idx Hidx. apply (Hone idx Hidx), H, in_seq. lia.
  - intros H idx Hin. apply in_seq in Hin. apply Hone; [|apply H]; lia.
Qed.

End Exact.
End Window.
End Sem.

Lemma map_sv_ev : forall s vl, Forall (fun v => 0 < v) vl ->
  map (fun v => s (zn v)) vl = map (ev s) vl.
Proof.
  intros s vl H. apply map_ext_in. intros a Ha. rewrite Forall_forall in H.
  specialize (H a Ha). unfold ev, fv, zn. cbn [eval]. symmetry. apply lit_true_pos. lia.
Qed.

(** The implications [AtLeastKInARow] emits for one window hold iff every
    maximal run of the level inside the window has length at least k. *)
Theorem atleast_impls_spec k vl s :
  0 < k -> Forall (fun v => 0 < v) vl ->
  (eval s (FAnd (atleast_impls k vl (windows (S k) vl))) = true <->
   Forall (fun n => k <= n) (bruns (map (fun v => s (zn v)) vl))).
Proof.
  intros Hk Hpos. rewrite (map_sv_ev s vl Hpos).
  destruct (lt_eq_lt_dec (length vl) k) as [[Hlt | Heq] | Hgt].
  - rewrite windows_short by lia. unfold atleast_impls.
    replace (length vl =? k) with false by (symmetry; apply Nat.eqb_neq; lia).
    rewrite eval_all_not. symmetry. apply short_runs with (k := k).
    + rewrite map_length. exact Hlt.
    + intros x Hx. exact Hx.
  - rewrite windows_short by lia. unfold atleast_impls.
    replace (length vl =? k) with true by (symmetry; apply Nat.eqb_eq; exact Heq).
    rewrite <- (atleast_comb_eq (map (ev s) vl) (Ev s vl) (Ev_link s vl) k Hk)
      by (rewrite map_length; exact Heq).
    rewrite (sl_iffs s vl _ _ _ (hd 0 vl) (is_slice_tl _ _ _ _ (is_slice_self vl))).
    rewrite Heq.
    replace (ev s (hd 0 vl)) with (Ev s vl 0) by (destruct vl; reflexivity).
    reflexivity.
  - rewrite (atleast_bridge s vl k (length vl - k)) by lia.
    apply atleast_comb.
    + apply Ev_link.
    + exact Hk.
    + lia.
    + rewrite map_length. lia.
Qed.

(** The implications [ExactlyKInARow] emits for one window (what [ekr_loop]
    appends for it) hold iff every maximal run of the level inside the window
    has length exactly k. *)
Theorem ekr_impls_spec k vl s :
  0 < k -> Forall (fun v => 0 < v) vl ->
  (eval s (FAnd (match windows k vl with
                 | [] => map (fun v => FNot (fv v)) vl
                 | sub => ekr_impls k sub
                 end)) = true <->
   Forall (fun n => n = k) (bruns (map (fun v => s (zn v)) vl))).
Proof.
  intros Hk Hpos. rewrite (map_sv_ev s vl Hpos).
  destruct (Nat.lt_ge_cases (length vl) k) as [Hlt | Hge].
  - rewrite windows_short by exact Hlt.
    rewrite eval_all_not. symmetry. apply short_runs with (k := k).
    + rewrite map_length. exact Hlt.
    + intros x Hx. lia.
  - assert (Hne : windows k vl <> []).
    { intro Hnil. pose proof (windows_count _ k vl Hk) as Hc. rewrite Hnil in Hc. cbn [length] in Hc. lia. }
    destruct (windows k vl) as [|w0 ws] eqn:Ew; [congruence|]. cbv beta iota. rewrite <- Ew.
    rewrite (exact_bridge s vl k (length vl - k) Hk) by lia.
    apply exact_comb.
    + apply Ev_link.
    + exact Hk.
    + rewrite map_length. lia.
Qed.

Lemma eval_and_flat_map : forall s A (g : A -> list fm) (P R : A -> Prop) (l : list A),
  Forall P l -> (forall x, P x -> (eval s (FAnd (g x)) = true <-> R x)) ->
  (eval s (FAnd (flat_map g l)) = true <-> Forall R l).
Proof.
  intros s A g P R l HP H. induction HP as [|a r Ha _ IH]; [split; [constructor | reflexivity]|].
  cbn [flat_map]. rewrite eval_and_app, andb_true_iff, Forall_cons_iff, IH, (H a Ha). reflexivity.
Qed.

(** [apply_atleast] hands [FAnd (flat_map ... vls)] to [cnf_fn]: it holds iff
    in every window every maximal run of the level has length at least k. *)
Theorem atleast_formula_spec k vls s :
  0 < k -> Forall (Forall (fun v => 0 < v)) vls ->
  (eval s (FAnd (flat_map (fun vl => atleast_impls k vl (windows (k + 1) vl)) vls)) = true <->
   Forall (fun vl => Forall (fun n => k <= n) (bruns (map (fun v => s (zn v)) vl))) vls).
Proof.
  intros Hk Hpos. apply (eval_and_flat_map _ _ _ _ _ _ Hpos). intros vl Hvl.
  rewrite Nat.add_1_r. exact (atleast_impls_spec k vl s Hk Hvl).
Qed.

(** what [ekr_loop] appends to [implications] for one window, and what it has
    accumulated after all windows *)
Definition ekr_window (k : nat) (vl : list nat) : list fm :=
  match windows k vl with
  | [] => map (fun v => FNot (fv v)) vl
  | sub => ekr_impls k sub
  end.

Definition ekr_all (k : nat) (vls : list (list nat)) : list fm := flat_map (ekr_window k) vls.

Theorem ekr_formula_spec k vls s :
  0 < k -> Forall (Forall (fun v => 0 < v)) vls ->
  (eval s (FAnd (ekr_all k vls)) = true <->
   Forall (fun vl => Forall (fun n => n = k) (bruns (map (fun v => s (zn v)) vl))) vls).
Proof.
  intros Hk Hpos. apply (eval_and_flat_map _ _ _ _ _ _ Hpos). intros vl. exact (ekr_impls_spec k vl s Hk).
Qed.

Lemma ekr_loop_cons : forall k vl r impls fresh,
  ekr_loop k (vl :: r) impls fresh =
  let impls' := impls ++ ekr_window k vl in
  let '(cls, fresh1) := cnf_fn impls' fresh in
  let '(cls2, fresh2) := ekr_loop k r impls' fresh1 in
  (cls ++ cls2, fresh2).
Proof.
  intros k vl r impls fresh. cbn [ekr_loop]. cbv zeta. unfold ekr_window.
  destruct (windows k vl); reflexivity.
Qed.

(** [ekr_loop] calls [cnf_fn] once per window on the implications accumulated
    so far; the clauses of the last call are those of [ekr_all] of all the
    windows (so the emitted CNF contains the Tseitin clauses of that formula). *)
Theorem ekr_loop_last_call : forall k vls vl0 impls fresh,
  exists fresh' rest,
    fst (ekr_loop k (vls ++ [vl0]) impls fresh) =
    rest ++ fst (cnf_fn (impls ++ ekr_all k (vls ++ [vl0])) fresh').
Proof.
  intros k vls. induction vls as [|vl r IH]; intros vl0 impls fresh.
  - exists fresh, []. cbn [app]. rewrite ekr_loop_cons. cbv zeta.
    unfold ekr_all. cbn [flat_map ekr_loop]. rewrite app_nil_r.
    destruct (cnf_fn (impls ++ ekr_window k vl0) fresh) as [cls fresh1].
    cbn [fst]. rewrite app_nil_r. reflexivity.
  - cbn [app]. rewrite ekr_loop_cons. cbv zeta.
    destruct (cnf_fn (impls ++ ekr_window k vl) fresh) as [cls fresh1].
    destruct (IH vl0 (impls ++ ekr_window k vl) fresh1) as [fresh' [rest Hr]].
    destruct (ekr_loop k (r ++ [vl0]) (impls ++ ekr_window k vl) fresh1) as [cls2 fresh2].
    cbn [fst] in *. exists fresh', (cls ++ rest). rewrite Hr, <- app_assoc.
    unfold ekr_all. cbn [flat_map]. rewrite <- app_assoc. reflexivity.
Qed.

Print Assumptions atleast_impls_spec.
Print Assumptions ekr_impls_spec.
Print Assumptions atleast_formula_spec.
Print Assumptions ekr_formula_spec.
Print Assumptions ekr_loop_last_call.
