(** Facts about lists, cells and small arithmetic that the F1 files share;
    nothing here mentions the layout. *)
From Coq Require Import ZArith List Bool Arith Lia.
From SP Require Import Base.Lists Design.Sem Design.SemFacts Encode.Compile.
Import ListNotations.
Close Scope Z_scope.
Open Scope nat_scope.

Lemma iff_and_l (M A B : Prop) : M -> (A <-> B) -> (A <-> M /\ B).
Proof. tauto. Qed.

Lemma in_seq0 t n : t < n -> In t (seq 0 n).
Proof. intros H. apply in_seq. split; [apply Nat.le_0_l|exact H]. Qed.

Lemma Forall_In {A} (P : A -> Prop) l x : Forall P l -> In x l -> P x.
Proof. intros H. exact (proj1 (Forall_forall P l) H x). Qed.

Lemma combine_seq_in {A} (l : list A) s j x :
  In (j, x) (combine (seq s (length l)) l) -> s <= j < s + length l /\ In x l.
Proof.
  intros H. apply in_combine_seq in H. destruct H as [Hs H]. split; [|exact (nth_error_In _ _ H)].
  assert (j - s < length l) by (apply nth_error_Some; congruence). lia.
Qed.

Lemma vars_pos n (vl : list nat) : Forall (fun v => 0 < v /\ (zn v <= n)%Z) vl -> Forall (fun v => 0 < v) vl.
Proof. apply Forall_impl. intros a [Ha _]. exact Ha. Qed.

(** over non-empty lists the case of the empty list is not taken *)
Lemma flat_map_nonempty {A B} (e : list B) (g : list A -> list B) (vls : list (list A)) :
  Forall (fun vl => vl <> []) vls ->
  flat_map (fun vl => match vl with [] => e | _ :: _ => g vl end) vls = flat_map g vls.
Proof.
  intros H. apply flat_map_ext_in. intros vl Hvl. destruct vl; [destruct (Forall_In _ _ _ H Hvl eq_refl)|reflexivity].
Qed.

Lemma mod_lt a n : 0 < n -> a mod n < n.
Proof. intros H. apply Nat.mod_upper_bound. now apply Nat.neq_0_lt_0. Qed.

Lemma filter_two {A} (p : A -> bool) (l : list A) a b :
  In a l -> In b l -> a <> b -> p a = true -> p b = true -> 2 <= length (filter p l).
Proof.
  intros Ha Hb N Pa Pb. change 2 with (length [a; b]). apply NoDup_incl_length.
  - constructor; [|constructor; [intros []|constructor]]. intros [Q|[]]. now apply N.
  - intros x [<-|[<-|[]]]; apply filter_In; auto.
Qed.

Lemma filter_le1_unique (p : nat -> bool) l a b :
  length (filter p l) <= 1 -> In a l -> In b l -> p a = true -> p b = true -> a = b.
Proof.
  intros H Ia Ib Pa Pb. destruct (Nat.eq_dec a b) as [E|N]; [exact E|exfalso].
  exact (Nat.nle_succ_diag_l 1 (Nat.le_trans _ _ _ (filter_two p l a b Ia Ib N Pa Pb) H)).
Qed.

Lemma find_unique (p : nat -> bool) n i :
  i < n -> (forall j, j < n -> p j = (j =? i)) -> find p (seq 0 n) = Some i.
Proof.
  intros Hi H.
  assert (G : forall k m, k <= i -> i < k + m -> (forall j, k <= j < k + m -> p j = (j =? i)) -> find p (seq k m) = Some i).
  { intros k m. revert k. induction m as [|m IH]; intros k Hk Hm Hp; [lia|]. cbn [seq find].
    rewrite (Hp k ltac:(lia)). destruct (k =? i) eqn:E.
    - apply Nat.eqb_eq in E. now subst.
    - apply Nat.eqb_neq in E. apply IH; [lia|lia|]. intros j Hj. apply Hp. lia. }
  apply G; [lia|lia|]. intros j Hj. apply H. lia.
Qed.

Lemma find_in_range (p : nat -> bool) n l : find p (seq 0 n) = Some l -> l < n /\ p l = true.
Proof. intros H. apply find_some in H. destruct H as [A B]. apply in_seq in A. split; [lia|exact B]. Qed.

Lemma find_only (p : nat -> bool) n l :
  length (filter p (seq 0 n)) = 1 -> l < n -> p l = true -> find p (seq 0 n) = Some l.
Proof.
  intros H1 Hl Pl. destruct (find p (seq 0 n)) as [l1|] eqn:E.
  - destruct (find_in_range p n l1 E) as [Hl1 Pl1]. f_equal.
    exact (filter_le1_unique p _ l1 l (Nat.eq_le_incl _ _ H1) (in_seq0 _ _ Hl1) (in_seq0 _ _ Hl) Pl1 Pl).
  - pose proof (find_none _ _ E l (in_seq0 _ _ Hl)) as Q. cbv beta in Q. congruence.
Qed.

Lemma unique_acceptor (A : nat -> bool) l l0 : A l0 = true -> (A l = true -> l = l0) -> (l0 =? l) = A l.
Proof.
  intros H0 Hu. destruct (Nat.eqb_spec l0 l) as [<-|N]; [now symmetry|].
  symmetry. apply not_true_is_false. intros H. apply N. symmetry. now apply Hu.
Qed.

Lemma in_product_lists {A B} (g : A -> B) (L : A -> list B) : forall deps,
  (forall d, In d deps -> In (g d) (L d)) -> In (map g deps) (product (map L deps)).
Proof.
  induction deps as [|d deps IH]; intros H; [now left|].
  cbn [map product]. apply in_flat_map. exists (g d). split; [apply H; now left|].
  apply in_map. apply IH. intros e He. apply H. now right.
Qed.

(** position [j] of segment [r] of length [d] after a preamble of [pre] trials *)
Lemma seg_decomp pre d t : 0 < d -> pre <= t -> exists r j, t = pre + r * d + j /\ j < d.
Proof.
  intros Hd Ht. exists ((t - pre) / d), ((t - pre) mod d). split; [|now apply mod_lt].
  pose proof (Nat.div_mod (t - pre) d ltac:(lia)). lia.
Qed.

Lemma seg_sub pre r d j : pre + r * d + j - pre = r * d + j.
Proof. lia. Qed.

Lemma seg_of pre r d j : j < d -> (pre + r * d + j - pre) / d = r.
Proof. intros Hj. rewrite seg_sub, Nat.div_add_l, (Nat.div_small j d Hj) by lia. apply Nat.add_0_r. Qed.

Lemma seg_le pre r d j : pre <= pre + r * d + j.
Proof. lia. Qed.

Lemma sub_lt_S n i : n - i < S n.
Proof. exact (proj2 (Nat.lt_succ_r _ _) (Nat.le_sub_l _ _)). Qed.

(** groups of [sc] trials: the group of [i] starts at [(i / sc) * sc] *)
Lemma group_le i sc : (i / sc) * sc <= i.
Proof. destruct sc as [|sc]; [cbn; lia|]. rewrite Nat.mul_comm. apply Nat.mul_div_le. lia. Qed.

Lemma grp_of pre k sc : 0 < sc -> (pre + k * sc - pre) / sc = k.
Proof. intros H. rewrite Nat.add_comm, Nat.add_sub. apply Nat.div_mul. lia. Qed.

(** after a preamble that is a whole number of groups, the groups are those counted from the preamble *)
Lemma group_start pre sc t : 0 < sc -> pre mod sc = 0 -> pre <= t -> (t / sc) * sc = pre + ((t - pre) / sc) * sc.
Proof.
  intros Hsc Hdiv Ht. apply Nat.mod_divides in Hdiv; [|lia]. destruct Hdiv as (m & ->).
  replace t with ((t - sc * m) + m * sc) at 1 by lia. rewrite Nat.div_add by lia. lia.
Qed.

(** a fuel-driven loop over the trials [i], [i + d], [i + 2 d], ... below [n] that
    threads a state: what it collects *)
Fixpoint strided {St A} (n d : nat) (g : nat -> St -> list A) (step : St -> St) (fuel i : nat) (st : St) : list A :=
  match fuel with
  | O => []
  | S fu => if i <? n then g i st ++ strided n d g step fu (i + d) (step st) else []
  end.

Lemma iter_step {St} (step : St -> St) r st : Nat.iter r step (step st) = Nat.iter (S r) step st.
Proof.
  induction r as [|r IH]; [reflexivity|].
  change (step (Nat.iter r step (step st)) = step (Nat.iter (S r) step st)). now rewrite IH.
Qed.

Lemma in_strided {St A} n d (g : nat -> St -> list A) step x : 0 < d -> forall fuel i st, n - i < fuel ->
  (In x (strided n d g step fuel i st) <-> exists r, i + r * d < n /\ In x (g (i + r * d) (Nat.iter r step st))).
Proof.
  intros Hd. induction fuel as [|fuel IH]; intros i st Hfu; [lia|].
  cbn [strided]. destruct (i <? n) eqn:Ei.
  - apply Nat.ltb_lt in Ei. rewrite in_app_iff, (IH (i + d) _ ltac:(lia)). split.
    + intros [H|(r & Hr & H)].
      * exists 0. rewrite Nat.add_0_r. split; [exact Ei|exact H].
      * exists (S r). rewrite iter_step in H. replace (i + S r * d) with (i + d + r * d) by lia. auto.
    + intros (r & Hr & H). destruct r as [|r].
      * left. now rewrite Nat.add_0_r in H.
      * right. exists r. rewrite iter_step. replace (i + d + r * d) with (i + S r * d) by lia. auto.
  - apply Nat.ltb_ge in Ei. split; [intros []|]. intros (r & Hr & _). lia.
Qed.

Lemma cmapM_map_ok {A B C} (f : B -> cres C) (h : A -> B) (g : A -> C) (l : list A) :
  (forall x, In x l -> f (h x) = COk (g x)) -> cmapM f (map h l) = COk (map g l).
Proof.
  induction l as [|x l IH]; intros H; [reflexivity|]. cbn [cmapM map].
  rewrite (H x (or_introl eq_refl)). cbn [cbind]. rewrite IH; [reflexivity|]. intros y Hy. apply H. now right.
Qed.

Lemma cmapM_ok {A B} (f : A -> cres B) (g : A -> B) (l : list A) :
  (forall x, In x l -> f x = COk (g x)) -> cmapM f l = COk (map g l).
Proof. intros H. rewrite <- (map_id l) at 1. now apply cmapM_map_ok. Qed.

Lemma cmapM_Forall2 {A B} (f : A -> cres B) (l : list A) : forall r,
  cmapM f l = COk r -> Forall2 (fun x y => f x = COk y) l r.
Proof.
  induction l as [|x l IH]; intros r E; cbn [cmapM] in E.
  - inversion E. constructor.
  - destruct (f x) as [y|e] eqn:Ex; cbn [cbind] in E; [|discriminate].
    destruct (cmapM f l) as [ys|e] eqn:El; cbn [cbind] in E; [|discriminate].
    inversion E. subst r. constructor; [exact Ex|]. now apply IH.
Qed.

Lemma cmapM_total {A B} (f : A -> cres B) (l : list A) :
  (forall x, In x l -> exists y, f x = COk y) -> exists r, cmapM f l = COk r.
Proof.
  induction l as [|x l IH]; intros H; [eexists; reflexivity|]. cbn [cmapM].
  destruct (H x (or_introl eq_refl)) as [y Ey]. rewrite Ey. cbn [cbind].
  destruct IH as [r Er]; [intros z Hz; apply H; now right|]. rewrite Er. cbn [cbind]. eexists; reflexivity.
Qed.
