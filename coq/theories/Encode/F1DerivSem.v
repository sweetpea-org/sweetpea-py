(** The (b) half of the [Derivation] constraints in F1: on a one-hot grid the
    Iff's generated for the derived levels hold iff every factor of the decoded
    sequence satisfies [Sem.factor_ok] on [code_sem fb]. *)
From Coq Require Import ZArith List Bool Arith Lia.
From SP Require Import Base.Lists Base.Sat Base.Bits Core.Card Core.CardProofs.
From SP Require Import Logic.Formula Logic.Tseitin Logic.TseitinProofs.
From SP Require Import Design.Flat Design.Layout Design.Sem.
From SP Require Import Encode.Compile Encode.CodeSem Encode.Generic Encode.Blocks Encode.Runs
     Encode.GridLemmas Encode.CrossChunks Encode.LayoutF1 Encode.F1Lists Encode.F1Kinds Encode.F1Cross
     Encode.F1Deriv Encode.F1DerivC Encode.F1Sem Encode.F1Sustain.
Import ListNotations.
Close Scope Z_scope.
Open Scope nat_scope.

(** [forallb] over the indexed list of an indexed map, as a quantified statement *)
Lemma forallb_index_map_ds {A B} (g : nat -> A -> B) (p : nat -> B -> bool) (l : list A) :
  forallb (fun x => p (fst x) (snd x))
          (index_list (map (fun y => g (fst y) (snd y)) (combine (seq 0 (length l)) l))) = true
  <-> forall f a, nth_error l f = Some a -> p f (g f a) = true.
Proof.
  rewrite forallb_forall. unfold index_list. split.
  - intros H f a E. apply (H (f, g f a)), in_combine_seq.
    rewrite Nat.sub_0_r, nth_error_map, nth_error_combine_seq, E. split; [apply Nat.le_0_l|reflexivity].
  - intros H [f b] Hin. apply in_combine_seq in Hin. destruct Hin as [_ Hin].
    rewrite Nat.sub_0_r, nth_error_map, nth_error_combine_seq in Hin.
    destruct (nth_error l f) as [a|] eqn:E; [|discriminate]. inversion Hin. exact (H f a E).
Qed.

(** the start of the group of [t] for sustain [su] lies in the same group for a multiple [m] of [su] *)
Lemma group_same su m t : 0 < su -> 0 < m -> m mod su = 0 -> ((t / su) * su) / m = t / m.
Proof.
  intros Hsu Hm Hd. apply Nat.mod_divides in Hd; [|lia]. destruct Hd as (k & ->).
  assert (Hk : k <> 0) by (intros ->; lia).
  rewrite <- !Nat.div_div by lia. now rewrite Nat.div_mul by lia.
Qed.

Lemma forall_in_eqb {A} (l : list A) (g a b : A -> bool) :
  (forall x, In x l -> g x = Bool.eqb (a x) (b x)) ->
  ((forall x, In x l -> g x = true) <-> forall x, In x l -> a x = b x).
Proof.
  intros K. split; intros H x Hx; specialize (H x Hx); rewrite (K x Hx) in *; [now apply eqb_prop|rewrite H; apply eqb_reflx].
Qed.

(** where a cell holds a level below [n] and at most one level below [n] is accepted: every
    level is at the cell exactly if it is accepted iff the level at the cell is accepted *)
Lemma level_acceptor (A : nat -> bool) n (c : cell) :
  (exists l0, l0 < n /\ c = Some l0) -> (forall l l', l < n -> l' < n -> A l = true -> A l' = true -> l = l') ->
  ((forall l, l < n -> is_level l c = A l) <-> forall l0, c = Some l0 -> A l0 = true).
Proof.
  intros (l0 & Hl0 & ->) Hu. split.
  - intros H l1 E. inversion E. subst l1. rewrite <- (H l0 Hl0). unfold is_level. cbn [cell_eqb]. apply Nat.eqb_refl.
  - intros H l Hl. pose proof (H l0 eq_refl) as H0. unfold is_level. cbn [cell_eqb].
    apply unique_acceptor; [exact H0|]. intros Hacc. exact (Hu l l0 Hl Hl0 Hacc H0).
Qed.

Section F1DerivSem.
Variable fb : flat.
Hypothesis HF1 : in_f1 fb = true.
Hypothesis HT : 0 < T fb.

Let FF : F1facts fb := in_f1_facts fb HF1.

(** the (width 1) arguments of the reference window ([CodeSem.dwin]) of a WithinTrial factor of act_design *)
Definition cargs (q : tseq) (deps : list nat) (t : nat) : list (list cell) :=
  map (fun d => [get_cell q d t]) deps.

(** the level (0 where the cell is empty) of factor [d] at trial [t] *)
Definition lev (q : tseq) (t d : nat) : nat :=
  match get_cell q d t with Some x => x | None => 0 end.

(** What [in_f1] gives for one grid factor (in act_design, no complex window) *)
Lemma f1_window_shape f fd w :
  nth_error (fl_design fb) f = Some fd -> ff_window fd = Some w -> sact fb f = true ->
  win_width w = 1 /\ win_stride w = 1 /\ win_start w = 0.
Proof.
  intros Efd Ew Hs. apply (sact_split fb) in Hs. destruct Hs as [Ha Hcx].
  rewrite (is_complex_at fb f fd Efd) in Hcx.
  pose proof (f1_factor fb FF f fd Efd Ha) as H. unfold factor_f1 in H. rewrite Ew, Hcx in H.
  rewrite !andb_true_iff in H. destruct H as [_ [[H1 H2] H3]].
  apply Nat.eqb_eq in H1, H2, H3. auto.
Qed.

Lemma design_lt f fd : nth_error (fl_design fb) f = Some fd -> f < nf fb.
Proof. intros E. unfold nf. apply nth_error_Some. congruence. Qed.

Lemma code_factor_derived f fd w :
  ff_window fd = Some w -> f_derived (code_factor fb f fd) = Some (dwin fd w).
Proof. intros E. cbn [code_factor f_derived]. rewrite E. reflexivity. Qed.

Lemma code_factor_plain f fd :
  ff_window fd = None -> f_derived (code_factor fb f fd) = None.
Proof. intros E. cbn [code_factor f_derived]. rewrite E. reflexivity. Qed.

Lemma factors_ok_iff q :
  forallb (fun p => factor_ok (code_sem fb) q (fst p) (snd p)) (index_list (s_factors (code_sem fb))) = true <->
  forall f fd, nth_error (fl_design fb) f = Some fd -> factor_ok (code_sem fb) q f (code_factor fb f fd) = true.
Proof. exact (forallb_index_map_ds (code_factor fb) (factor_ok (code_sem fb) q) (fl_design fb)). Qed.

Lemma window_args_f1 q f fd w t :
  win_width w = 1 ->
  window_args q (code_factor fb f fd) (dwin fd w) t = cargs q (win_deps w) ((t / sustain_of fb f) * sustain_of fb f).
Proof.
  intros Hw. unfold window_args, cargs. cbn [f_sustain code_factor w_width w_deps dwin].
  rewrite Hw. apply map_ext. intros d. cbn [seq map].
  change ((1 - 1 - 0) * sustain_of fb f) with 0. cbn [Nat.leb]. now rewrite Nat.sub_0_r.
Qed.

(** the window of a grid factor reads the cells at the start of the group; the cells of
    the depended-on factors there are those of the trial *)
Lemma window_args_grid q f fd w t :
  grouped fb q -> nth_error (fl_design fb) f = Some fd -> ff_window fd = Some w -> sact fb f = true -> t < T fb ->
  window_args q (code_factor fb f fd) (dwin fd w) t = cargs q (win_deps w) t.
Proof.
  intros Hg Efd Ew Hs Ht. rewrite (window_args_f1 q f fd w t (proj1 (f1_window_shape f fd w Efd Ew Hs))).
  unfold cargs. apply map_ext_in. intros d Hd. f_equal.
  destruct (sact_lappl fb HF1 f 0 Hs) as [Haf _].
  pose proof (proj1 (Forall_forall _ _) (f1_deps_facts fb HF1 f fd w Efd Ew Haf) d Hd) as Hds. cbv beta in Hds.
  destruct (sact_lappl fb HF1 d t Hds) as [Hda _].
  pose proof (f1_sustain_deps fb FF f fd w Efd Ew Hs d Hd) as Hdiv.
  pose proof (f1_sustain_pos fb FF f) as Pf. pose proof (f1_sustain_pos fb FF d) as Pd.
  set (t0 := (t / sustain_of fb f) * sustain_of fb f).
  assert (Ht0 : t0 <= t) by apply group_le.
  rewrite <- (Hg d t0 Hda (Nat.le_lt_trans _ _ _ Ht0 Ht)), <- (Hg d t Hda Ht). unfold t0.
  now rewrite (group_same (sustain_of fb f) (sustain_of fb d) t Pf Pd Hdiv).
Qed.

Lemma applies_f1 f fd t : nth_error (fl_design fb) f = Some fd -> sact fb f = true -> applies (code_factor fb f fd) t = true.
Proof.
  intros Efd Hs. rewrite (applies_lappl fb HF1 HT f fd t Efd). apply (sact_lappl fb HF1 f t Hs).
Qed.

Lemma sact_cell s q t d : onehot fb s q -> t < T fb -> sact fb d = true -> exists x, x < nlevels fb d /\ get_cell q d t = Some x.
Proof. intros Ho Ht Hs. destruct (sact_lappl fb HF1 d t Hs) as [Ha Hl]. exact (onehot_level fb s q t d Ho Ht Ha Hl). Qed.

(** [factor_ok] of a grid factor on a one-hot grid: only the acceptance of
    the chosen level of a derived factor remains *)
Lemma factor_ok_f1 s q f fd :
  onehot fb s q -> grouped fb q -> nth_error (fl_design fb) f = Some fd -> sact fb f = true ->
  (factor_ok (code_sem fb) q f (code_factor fb f fd) = true <->
   forall w, ff_window fd = Some w ->
   forall t l0, t < T fb -> get_cell q f t = Some l0 -> accepts (dwin fd w) l0 (cargs q (win_deps w) t) = true).
Proof.
  intros Ho Hg Efd Hs.
  pose proof (design_lt f fd Efd) as Hf. pose proof (nlevels_at fb f fd Efd) as Hnl.
  destruct (sact_lappl fb HF1 f 0 Hs) as [Ha _].
  unfold factor_ok. change (s_trials (code_sem fb)) with (T fb).
  rewrite (onehot_rows fb s q f Ho Hf), Nat.eqb_refl, andb_true_l, forallb_forall. split.
  - intros H w Ew t l0 Ht El0.
    specialize (H t (in_seq0 _ _ Ht)). rewrite El0 in H.
    rewrite (code_factor_derived f fd w Ew) in H. apply andb_true_iff in H. destruct H as [_ H].
    now rewrite (window_args_grid q f fd w t Hg Efd Ew Hs Ht) in H.
  - intros H t Ht. apply in_seq in Ht. destruct (sact_cell s q t f Ho ltac:(lia) Hs) as (l0 & Hl0 & El0). rewrite El0.
    rewrite (applies_f1 f fd t Efd Hs). cbn [f_nlevels f_sustain code_factor].
    rewrite (Hg f t Ha ltac:(lia)), El0. cbn [cell_eqb]. rewrite Nat.eqb_refl.
    replace (l0 <? length (ff_levels fd)) with true by (symmetry; apply Nat.ltb_lt; lia).
    cbn [andb]. destruct (ff_window fd) as [w|] eqn:Ew; [|now rewrite (code_factor_plain f fd Ew)].
    rewrite (code_factor_derived f fd w Ew), (window_args_grid q f fd w t Hg Efd Ew Hs ltac:(lia)).
    apply (H w eq_refl t l0); [lia|exact El0].
Qed.

Lemma eval_gridvar s q t f l :
  onehot fb s q -> t < T fb -> sact fb f = true -> l < nlevels fb f ->
  eval s (fv (off fb f + l + t * vpt fb + 1)) = is_level l (get_cell q f t).
Proof.
  intros Ho Ht Hs Hl. apply (sact_split fb) in Hs. destruct Hs as [Hf Hcx].
  rewrite <- (onehot_simple_bit fb HF1 s q t f l Ho Ht Hf Hcx Hl), <- eval_fv_gvar, (gvar_simple fb t f l Hcx).
  do 2 f_equal. lia.
Qed.

(** the conjunction generated for a table entry tests the window arguments *)
Lemma entry_eval s q t deps : forall entry,
  onehot fb s q -> t < T fb -> Forall (fun d => sact fb d = true) deps -> entry_ok fb deps entry = true ->
  forallb (eval s) (map (fun x => match x with DIdx i => fv (i + t * vpt fb + 1) | DBefore _ => fv 0 end)
                        (entry_deps fb deps entry))
  = args_eqb (cargs q deps t) entry.
Proof.
  induction deps as [|d deps IH]; intros [|col entry] Ho Ht Hd He; cbn [entry_ok] in He; try discriminate.
  - reflexivity.
  - apply andb_true_iff in He. destruct He as [Hcol He]. inversion Hd as [|? ? Hdd Hds]; subst.
    destruct (col_ok_inv fb d col Hcol) as (x & -> & Hx).
    unfold entry_deps, cargs, args_eqb in *. cbn [map2 map forallb list_eqb].
    rewrite (eval_gridvar s q t d x Ho Ht Hdd Hx), andb_true_r. unfold is_level. f_equal.
    now apply IH.
Qed.

Lemma accepts_level fd w l args :
  accepts (dwin fd w) l args =
  match nth_error (ff_levels fd) l with
  | Some lv => existsb (args_eqb args) (lv_accepts lv)
  | None => false
  end.
Proof.
  unfold accepts. cbn [w_table dwin]. destruct (nth_error (ff_levels fd) l) as [lv|] eqn:E.
  - now rewrite (nth_map_nth_error lv_accepts (ff_levels fd) l lv [] E).
  - rewrite nth_overflow; [reflexivity|]. rewrite map_length. now apply nth_error_None.
Qed.

(** what the Iff's of one derived level say *)
Lemma pderiv_char s q f l fd w lv :
  onehot fb s q -> dlevel fb f l fd w lv -> is_complex fb f = false ->
  (Pderiv_any fb (dvar fb f l) (ddeps fb f w lv) f s <->
   forall t, t < T fb -> is_level l (get_cell q f t) = accepts (dwin fd w) l (cargs q (win_deps w) t)).
Proof.
  intros Ho D Hcf. pose proof (dl_entries fb HF1 D) as He.
  assert (Hf : sact fb f = true) by (apply (sact_split fb); split; [exact (dl_act _ _ _ _ _ _ D)|exact Hcf]).
  unfold Pderiv_any, dvar, ddeps. rewrite Hcf in *. unfold Pderiv, deriv_iffs. cbn [eval]. rewrite forallb_map, forallb_forall.
  refine (iff_trans (forall_in_eqb _ _ (fun t => is_level l (get_cell q f t))
                                   (fun t => accepts (dwin fd w) l (cargs q (win_deps w) t)) _) _).
  - intros t Ht. apply in_seq in Ht. rewrite accepts_level, (dl_lv _ _ _ _ _ _ D). cbn [eval].
    rewrite (eval_gridvar s q t f l Ho (proj2 Ht) Hf (dl_lt fb D)). f_equal.
    rewrite map_map, existsb_map. apply existsb_ext_in. intros entry Hentry. cbn [eval].
    exact (entry_eval s q t (win_deps w) entry Ho (proj2 Ht) (dl_deps fb HF1 D) (Forall_In _ _ _ He Hentry)).
  - split; intros H t Ht; apply H; [now apply in_seq0|now apply in_seq in Ht].
Qed.

Lemma args_entry_matches q t deps : forall entry,
  (forall d, In d deps -> exists x, get_cell q d t = Some x) ->
  entry_ok fb deps entry = true ->
  args_eqb (cargs q deps t) entry = entry_matches entry (map (lev q t) deps).
Proof.
  induction deps as [|d deps IH]; intros [|col entry] Hd He; cbn [entry_ok] in He; try discriminate.
  - reflexivity.
  - apply andb_true_iff in He. destruct He as [Hcol He].
    destruct (col_ok_inv fb d col Hcol) as (x & -> & _).
    destruct (Hd d (or_introl eq_refl)) as (a & Ea).
    unfold cargs, args_eqb in *. cbn [map list_eqb entry_matches]. unfold lev at 1. rewrite Ea.
    cbn [cell_eqb]. rewrite andb_true_r, (Nat.eqb_sym a x). f_equal.
    apply IH; [|exact He]. intros e Hin. apply Hd. now right.
Qed.

Lemma accepts_level_accepts s q f fd w t l :
  onehot fb s q -> nth_error (fl_design fb) f = Some fd -> ff_window fd = Some w -> sact fb f = true -> t < T fb ->
  accepts (dwin fd w) l (cargs q (win_deps w) t) = level_accepts fd l (map (lev q t) (win_deps w)).
Proof.
  intros Ho Efd Ew Hs Ht. apply (sact_split fb) in Hs. destruct Hs as [Ha Hcf].
  rewrite accepts_level. unfold level_accepts. destruct (nth_error (ff_levels fd) l) as [lv|] eqn:Elv; [|reflexivity].
  assert (D : dlevel fb f l fd w lv) by now split.
  pose proof (dl_entries fb HF1 D) as Hent. rewrite Hcf in Hent.
  apply existsb_ext_in. intros entry Hentry. apply args_entry_matches; [|exact (Forall_In _ _ _ Hent Hentry)].
  intros d Hd. destruct (sact_cell s q t d Ho Ht (Forall_In _ _ _ (dl_deps fb HF1 D) Hd)) as (x & _ & Ex). now exists x.
Qed.

Lemma accepts_unique s q f fd w t l l0 :
  onehot fb s q -> nth_error (fl_design fb) f = Some fd -> ff_window fd = Some w -> sact fb f = true -> t < T fb ->
  accepts (dwin fd w) l (cargs q (win_deps w) t) = true ->
  accepts (dwin fd w) l0 (cargs q (win_deps w) t) = true -> l = l0.
Proof.
  intros Ho Efd Ew Hs Ht A1 A2.
  rewrite (accepts_level_accepts s q f fd w t l Ho Efd Ew Hs Ht) in A1.
  rewrite (accepts_level_accepts s q f fd w t l0 Ho Efd Ew Hs Ht) in A2.
  assert (B : forall k, level_accepts fd k (map (lev q t) (win_deps w)) = true -> k < length (ff_levels fd)).
  { intros k Hk. unfold level_accepts in Hk. apply nth_error_Some. destruct (nth_error (ff_levels fd) k); [discriminate|discriminate Hk]. }
  pose proof Hs as Hs'. apply (sact_split fb) in Hs'. destruct Hs' as [Ha Hcx]. rewrite (is_complex_at fb f fd Efd) in Hcx.
  destruct (f1_tables fb FF f fd Efd) as [_ Hun]. unfold tables_unambiguous in Hun. rewrite Ha, Ew, Hcx in Hun. cbn [negb orb] in Hun.
  rewrite forallb_forall in Hun. specialize (Hun (map (lev q t) (win_deps w))).
  pose proof (design_lt f fd Efd) as Hf.
  pose proof (f1_deps_facts fb HF1 f fd w Efd Ew Ha) as Hlt.
  assert (Hin : In (map (lev q t) (win_deps w)) (product (map (fun d => seq 0 (nlevels fb d)) (win_deps w)))).
  { apply (in_product_lists (lev q t) (fun d => seq 0 (nlevels fb d))). intros d Hd.
    destruct (sact_cell s q t d Ho Ht (Forall_In _ _ _ Hlt Hd)) as (x & Hx & Ex). unfold lev. rewrite Ex. now apply in_seq0. }
  specialize (Hun Hin). apply Nat.leb_le in Hun.
  exact (filter_le1_unique _ _ l l0 Hun (in_seq0 _ _ (B l A1)) (in_seq0 _ _ (B l0 A2)) A1 A2).
Qed.

Lemma cell_accepted s q f fd w t l :
  onehot fb s q -> grouped fb q -> nth_error (fl_design fb) f = Some fd -> ff_window fd = Some w -> sact fb f = true ->
  factor_ok (code_sem fb) q f (code_factor fb f fd) = true -> t < T fb ->
  (get_cell q f t = Some l <-> level_accepts fd l (map (lev q t) (win_deps w)) = true).
Proof.
  intros Ho Hg Efd Ew Hs Hok Ht. rewrite <- (accepts_level_accepts s q f fd w t l Ho Efd Ew Hs Ht).
  pose proof (proj1 (factor_ok_f1 s q f fd Ho Hg Efd Hs) Hok w Ew t) as Hacc. split; [now apply Hacc|].
  intros A. destruct (sact_cell s q t f Ho Ht Hs) as (l0 & _ & El0). rewrite El0. f_equal.
  exact (accepts_unique s q f fd w t l0 l Ho Efd Ew Hs Ht (Hacc l0 Ht El0) A).
Qed.

(** [factor_ok] of a derived factor with sustain 1, unfolded (implied factors, complex windows) *)
Lemma factor_ok_impl q f fd w :
  nth_error (fl_design fb) f = Some fd -> ff_window fd = Some w -> sustain_of fb f = 1 -> length (nth f q []) = T fb ->
  (factor_ok (code_sem fb) q f (code_factor fb f fd) = true <->
   forall t, t < T fb ->
     match get_cell q f t with
     | Some l => applies (code_factor fb f fd) t = true /\ l < nlevels fb f /\
                 accepts (dwin fd w) l (window_args q (code_factor fb f fd) (dwin fd w) t) = true
     | None => applies (code_factor fb f fd) t = false
     end).
Proof.
  intros Efd Ew Hsu Hr. pose proof (nlevels_at fb f fd Efd) as Hnl.
  unfold factor_ok. change (s_trials (code_sem fb)) with (T fb).
  rewrite Hr, Nat.eqb_refl, andb_true_l, forallb_forall.
  assert (K : forall t, (t / f_sustain (code_factor fb f fd)) * f_sustain (code_factor fb f fd) = t).
  { intros t. cbn [f_sustain code_factor]. rewrite Hsu, Nat.div_1_r. apply Nat.mul_1_r. }
  split.
  - intros H t Ht. specialize (H t (in_seq0 _ _ Ht)).
    destruct (get_cell q f t) as [l|] eqn:El.
    + rewrite (code_factor_derived f fd w Ew) in H. rewrite !andb_true_iff in H.
      destruct H as [[[A B] _] D]. apply Nat.ltb_lt in B. cbn [f_nlevels code_factor] in B.
      split; [exact A|]. split; [lia|exact D].
    + now apply negb_true_iff in H.
  - intros H t Ht. apply in_seq in Ht. specialize (H t ltac:(lia)).
    destruct (get_cell q f t) as [l|] eqn:El.
    + destruct H as (A & B & D). rewrite (code_factor_derived f fd w Ew), A, D, K, El.
      cbn [cell_eqb f_nlevels code_factor]. rewrite Nat.eqb_refl.
      replace (l <? length (ff_levels fd)) with true by (symmetry; apply Nat.ltb_lt; lia). reflexivity.
    + now apply negb_true_iff.
Qed.

Lemma onehot_impl_cell s q f t :
  onehot fb s q -> f < nf fb -> isact fb f = false -> t < T fb -> impl_cell fb q t f = cell_impl fb s t f.
Proof.
  intros Ho Hf Ha Ht. apply (cell_impl_char fb HF1 HT s q t f Hf Ha Ht).
  intros d t' Hd Ht'. apply (onehot_cell fb s q t' d Ho); [lia|exact (dep_lt fb HF1 HT f d Hf Ha Hd)].
Qed.

Lemma col_eval s q width n d : forall col s0,
  onehot fb s q -> n < T fb -> sact fb d = true ->
  (forall c, In c col -> exists x, c = Some x /\ x < nlevels fb d) ->
  forallb (fun v => s (zn v))
          (map (fun jc => gvar fb (n - (width - 1 - fst jc)) d (lev_of' (snd jc))) (combine (seq s0 (length col)) col))
  = list_eqb cell_eqb (map (fun j => get_cell q d (n - (width - 1 - j))) (seq s0 (length col))) col.
Proof.
  induction col as [|c col IH]; intros s0 Ho Hn Hs Hc; [reflexivity|].
  cbn [length seq combine map forallb list_eqb fst snd].
  destruct (Hc c (or_introl eq_refl)) as (x & -> & Hx). cbn [lev_of'].
  pose proof Hs as Hs'. apply (sact_split fb) in Hs'. destruct Hs' as [Ha Hcx].
  change (s (zn (gvar fb (n - (width - 1 - s0)) d x))) with (bit fb s (n - (width - 1 - s0)) d x).
  rewrite (onehot_simple_bit fb HF1 s q (n - (width - 1 - s0)) d x Ho ltac:(lia) Ha Hcx Hx). unfold is_level.
  f_equal. apply IH; try assumption. intros c' Hc'. apply Hc. now right.
Qed.

Lemma entry_eval_c s q width n : forall deps entry,
  onehot fb s q -> n < T fb -> Forall (fun d => sact fb d = true) deps -> entryw_ok fb width deps entry = true ->
  forallb (fun v => s (zn v)) (concat (map2 (col_cvars fb width n) deps entry))
  = args_eqb (map (fun d => map (fun j => get_cell q d (n - (width - 1 - j))) (seq 0 width)) deps) entry.
Proof.
  induction deps as [|d deps IH]; intros [|col entry] Ho Hn Hd He; cbn [entryw_ok] in He; try discriminate; [reflexivity|].
  apply andb_true_iff in He. destruct He as [Hc He]. inversion Hd as [|a1 a2 Hdd Hds]. subst a1 a2.
  cbn [map2 concat map]. rewrite forallb_app. unfold args_eqb in *. cbn [list_eqb]. f_equal; [|now apply IH].
  destruct (colw_cells fb width d col Hc) as [Hlen Hcells]. unfold col_cvars.
  rewrite (col_eval s q width n d col 0 Ho Hn Hdd).
  - now rewrite Hlen.
  - intros c Hin. destruct (In_nth col c None Hin) as (j & Hj & Ej).
    apply (Hcells j c). rewrite <- Ej.
    apply in_combine_seq. rewrite Nat.sub_0_r. split; [apply Nat.le_0_l|now apply nth_error_nth'].
Qed.

Section Complex.
Variables (f : nat) (fd : ffactor) (w : fwindow).
Hypothesis Efd : nth_error (fl_design fb) f = Some fd.
Hypothesis Ew : ff_window fd = Some w.
Hypothesis Ha : isact fb f = true.
Hypothesis Hcx : ff_complex fd = true.

Lemma cx_w3 : win_width w - 1 <= win_start w.
Proof. destruct (complex_facts fb HF1 f fd Efd Ha Hcx) as (w' & Ew' & _ & _ & W3 & _). congruence. Qed.

Lemma cx_complex : is_complex fb f = true.
Proof. now rewrite (is_complex_at fb f fd Efd). Qed.

Lemma cx_su : sustain_of fb f = 1.
Proof. exact (f1_sustain_cx fb HF1 f Ha cx_complex). Qed.

Lemma cx_deps : Forall (fun d => sact fb d = true) (win_deps w).
Proof. exact (f1_deps_facts fb HF1 f fd w Efd Ew Ha). Qed.

Lemma cx_window_in s q n : onehot fb s q -> n < T fb -> lappl fb f n = true ->
  In (window_args q (code_factor fb f fd) (dwin fd w) n) (all_args fb w).
Proof.
  intros Hsh Hn Hap. apply (impl_window_in fb HF1 HT q f fd w n cx_su cx_w3); [now rewrite (applies_lappl fb HF1 HT f fd n Efd)|exact Ew|].
  intros d t' Hd Ht'. apply (sact_cell s q t' d Hsh (Nat.le_lt_trans _ _ _ Ht' Hn)). exact (Forall_In _ _ _ cx_deps Hd).
Qed.

(** what the equivalences of one level say *)
Lemma pderivc_char s q l lv :
  onehot fb s q -> nth_error (ff_levels fd) l = Some lv ->
  (Pderiv_any fb (dvar fb f l) (ddeps fb f w lv) f s <->
   forall n, n < T fb -> lappl fb f n = true ->
     is_level l (get_cell q f n) = accepts (dwin fd w) l (window_args q (code_factor fb f fd) (dwin fd w) n)).
Proof.
  intros Ho Elv.
  assert (D : dlevel fb f l fd w lv) by now split.
  pose proof (dl_entries fb HF1 D) as Hent. rewrite cx_complex in Hent.
  unfold Pderiv_any, Pderivc. rewrite cx_complex, (proj2 (derivc_formulas_eq fb HF1 HT f l fd w lv D cx_complex)).
  unfold cx_iffs. cbn [eval]. rewrite forallb_map, forallb_forall.
  refine (iff_trans (forall_in_eqb _ _ (fun n => is_level l (get_cell q f n))
            (fun n => accepts (dwin fd w) l (window_args q (code_factor fb f fd) (dwin fd w) n)) _) _).
  - intros n Hin. apply in_trials_of in Hin. destruct Hin as [[_ Hn] Hap].
    rewrite accepts_level, Elv. unfold cx_iff. cbn [eval]. f_equal.
    + rewrite eval_fv_gvar. exact (onehot_bit fb s q n f l Ho Hn Ha Hap (dl_lt fb D)).
    + rewrite existsb_map. apply existsb_ext_in. intros e He. cbn [eval].
      pose proof (Forall_In _ _ _ Hent He) as Hok. cbv beta in Hok.
      rewrite (eval_fvs s (entry_cvars fb w n e)).
      * unfold entry_cvars. rewrite (entry_eval_c s q (win_width w) n (win_deps w) e Ho Hn cx_deps Hok).
        rewrite (impl_window_args fb HF1 HT q f fd w n cx_su cx_w3); [reflexivity| |exact Ew].
        now rewrite (applies_lappl fb HF1 HT f fd n Efd).
      * exact (vars_pos _ _ (entry_cvars_ok fb HF1 HT w n e cx_deps Hok Hn)).
  - split.
    + intros H n Hn Hap. exact (H n (proj2 (in_trials_of fb f 0 (T fb) n) (conj (conj (Nat.le_0_l _) Hn) Hap))).
    + intros H n Hin. apply in_trials_of in Hin. destruct Hin as [[_ Hn] Hap]. exact (H n Hn Hap).
Qed.

Lemma accepts_unique_c s q n l l0 :
  onehot fb s q -> n < T fb -> lappl fb f n = true -> l < nlevels fb f -> l0 < nlevels fb f ->
  accepts (dwin fd w) l (window_args q (code_factor fb f fd) (dwin fd w) n) = true ->
  accepts (dwin fd w) l0 (window_args q (code_factor fb f fd) (dwin fd w) n) = true -> l = l0.
Proof.
  intros Hsh Hn Hap L1 L2 A1 A2.
  destruct (f1_tables fb FF f fd Efd) as [_ Hun]. unfold tables_unambiguous in Hun. rewrite Ha, Ew, Hcx in Hun. cbn [negb orb] in Hun.
  rewrite forallb_forall in Hun. specialize (Hun _ (cx_window_in s q n Hsh Hn Hap)). apply Nat.leb_le in Hun.
  rewrite <- (nlevels_at fb f fd Efd) in Hun.
  exact (filter_le1_unique _ _ l l0 Hun (in_seq0 _ _ L1) (in_seq0 _ _ L2) A1 A2).
Qed.

End Complex.

Lemma factors_grouped s q :
  onehot fb s q ->
  forallb (fun p => factor_ok (code_sem fb) q (fst p) (snd p)) (index_list (s_factors (code_sem fb))) = true ->
  grouped fb q.
Proof.
  intros Ho H f t Ha Ht.
  destruct (is_complex fb f) eqn:Hcx; [now apply (complex_grouped fb HF1)|].
  rewrite factors_ok_iff in H.
  pose proof (f1_act_lt fb HF1 f Ha) as Hf.
  destruct (nth_error (fl_design fb) f) as [fd|] eqn:Efd; [|apply nth_error_None in Efd; unfold nf in Hf; lia].
  specialize (H f fd Efd). unfold factor_ok in H. apply andb_true_iff in H. destruct H as [_ H].
  rewrite forallb_forall in H. specialize (H t (in_seq0 _ _ Ht)).
  destruct (onehot_simple_cell fb HF1 s q t f Ho Ht Ha Hcx) as (l & Hl & El). rewrite El in H.
  rewrite !andb_true_iff in H. destruct H as [[_ H] _]. cbn [f_sustain code_factor] in H.
  destruct (get_cell q f (t / sustain_of fb f * sustain_of fb f)) as [l'|]; [|discriminate].
  cbn [cell_eqb] in H. apply Nat.eqb_eq in H. now subst.
Qed.

Lemma factor_ok_complex_iff s q f fd :
  onehot fb s q -> nth_error (fl_design fb) f = Some fd -> isact fb f = true -> is_complex fb f = true ->
  ((forall l w lv, dlevel fb f l fd w lv -> Pderiv_any fb (dvar fb f l) (ddeps fb f w lv) f s) <->
   factor_ok (code_sem fb) q f (code_factor fb f fd) = true).
Proof.
  intros Ho Efd Ha Hcf.
  assert (Hcx : ff_complex fd = true) by now rewrite <- (is_complex_at fb f fd Efd).
  destruct (complex_facts fb HF1 f fd Efd Ha Hcx) as (w & Ew & _).
  rewrite (factor_ok_impl q f fd w Efd Ew (f1_sustain_cx fb HF1 f Ha Hcf) (onehot_rows fb s q f Ho (design_lt f fd Efd))).
  assert (L : forall n, n < T fb -> lappl fb f n = true ->
            ((forall l, l < nlevels fb f ->
                is_level l (get_cell q f n) = accepts (dwin fd w) l (window_args q (code_factor fb f fd) (dwin fd w) n)) <->
             forall l0, get_cell q f n = Some l0 ->
                accepts (dwin fd w) l0 (window_args q (code_factor fb f fd) (dwin fd w) n) = true)).
  { intros n Hn Hap. apply level_acceptor; [exact (onehot_level fb s q n f Ho Hn Ha Hap)|].
    intros l l' Hl Hl'. exact (accepts_unique_c f fd w Efd Ew Ha Hcx s q n l l' Ho Hn Hap Hl Hl'). }
  split.
  - intros H t Ht. rewrite (applies_lappl fb HF1 HT f fd t Efd).
    destruct (lappl fb f t) eqn:Hap; [|now rewrite (onehot_none fb s q t f Ho Ht Ha Hap)].
    destruct (onehot_level fb s q t f Ho Ht Ha Hap) as (l0 & Hl0 & El0). rewrite El0. split; [reflexivity|]. split; [exact Hl0|].
    apply (proj1 (L t Ht Hap)); [|exact El0]. intros l Hl.
    destruct (dl_intro fb f l fd w Efd Ew Ha Hl) as [lv D].
    exact (proj1 (pderivc_char f fd w Efd Ew Ha Hcx s q l lv Ho (dl_lv _ _ _ _ _ _ D)) (H l w lv D) t Ht Hap).
  - intros H l w' lv D. assert (w' = w) by (pose proof (dl_w _ _ _ _ _ _ D); congruence). subst w'.
    apply (pderivc_char f fd w Efd Ew Ha Hcx s q l lv Ho (dl_lv _ _ _ _ _ _ D)). intros n Hn Hap.
    apply (proj2 (L n Hn Hap)); [|exact (dl_lt fb D)]. intros l0 El0.
    specialize (H n Hn). rewrite El0 in H. exact (proj2 (proj2 H)).
Qed.

Lemma factor_ok_grid_iff s q f fd :
  onehot fb s q -> grouped fb q -> nth_error (fl_design fb) f = Some fd -> sact fb f = true ->
  ((forall l w lv, dlevel fb f l fd w lv -> Pderiv_any fb (dvar fb f l) (ddeps fb f w lv) f s) <->
   factor_ok (code_sem fb) q f (code_factor fb f fd) = true).
Proof.
  intros Ho Hg Efd Hs. rewrite (factor_ok_f1 s q f fd Ho Hg Efd Hs).
  pose proof Hs as Hs'. apply (sact_split fb) in Hs'. destruct Hs' as [Ha Hcf].
  assert (L : forall w t, ff_window fd = Some w -> t < T fb ->
            ((forall l, l < nlevels fb f -> is_level l (get_cell q f t) = accepts (dwin fd w) l (cargs q (win_deps w) t)) <->
             forall l0, get_cell q f t = Some l0 -> accepts (dwin fd w) l0 (cargs q (win_deps w) t) = true)).
  { intros w t Ew Ht. apply level_acceptor; [exact (sact_cell s q t f Ho Ht Hs)|].
    intros l l' _ _. exact (accepts_unique s q f fd w t l l' Ho Efd Ew Hs Ht). }
  split.
  - intros H w Ew t l0 Ht. revert l0. apply (proj1 (L w t Ew Ht)). intros l Hl.
    destruct (dl_intro fb f l fd w Efd Ew Ha Hl) as [lv D].
    exact (proj1 (pderiv_char s q f l fd w lv Ho D Hcf) (H l w lv D) t Ht).
  - intros H l w lv D. pose proof (dl_w _ _ _ _ _ _ D) as Ew.
    apply (pderiv_char s q f l fd w lv Ho D Hcf). intros t Ht.
    apply (proj2 (L w t Ew Ht)); [|exact (dl_lt fb D)]. intros l0. exact (H w Ew t l0 Ht).
Qed.

(** an implied factor: its cells are computed from the others *)
Lemma factor_ok_implied s q f fd :
  onehot fb s q -> nth_error (fl_design fb) f = Some fd -> isact fb f = false ->
  factor_ok (code_sem fb) q f (code_factor fb f fd) = true.
Proof.
  intros Ho Efd Hact. pose proof (design_lt f fd Efd) as Hf.
  destruct (implied_facts fb HF1 HT f Hf Hact) as (fd' & w & Efd' & Ew & Hdeps & W1 & W2 & Htot).
  assert (fd' = fd) by congruence. subst fd'.
  apply (factor_ok_impl q f fd w Efd Ew (impl_sustain fb HF1 HT f Hf Hact) (onehot_rows fb s q f Ho Hf)). intros t Ht.
  rewrite (onehot_implied fb s q t f Ho Ht Hf Hact), <- (onehot_impl_cell s q f t Ho Hf Hact Ht).
  pose proof (pcons_cell_impl fb HF1 HT s (onehot_pcons fb s q Ho) f t Ht Hf Hact) as P.
  rewrite <- (onehot_impl_cell s q f t Ho Hf Hact Ht) in P.
  unfold appl, impl_cell, factor_at in P |- *. rewrite Efd, Ew in P |- *.
  destruct (applies (code_factor fb f fd) t) eqn:Hap; [|reflexivity].
  destruct (find (fun l => accepts (dwin fd w) l (window_args q (code_factor fb f fd) (dwin fd w) t)) (seq 0 (nlevels fb f)))
    as [l|] eqn:El.
  - destruct (find_in_range _ _ _ El) as [A B]. now split.
  - exfalso. destruct P as (l & _ & Q). discriminate.
Qed.

Theorem factors_sem s q :
  onehot fb s q -> grouped fb q ->
  ((forall d deps f, In (FDerivation d deps f) (fl_constraints fb) -> Pderiv_any fb d deps f s) <->
   forallb (fun p => factor_ok (code_sem fb) q (fst p) (snd p)) (index_list (s_factors (code_sem fb))) = true).
Proof.
  intros Ho Hg. rewrite factors_ok_iff. split.
  - intros H f fd Efd.
    assert (H' : forall l w lv, dlevel fb f l fd w lv -> Pderiv_any fb (dvar fb f l) (ddeps fb f w lv) f s).
    { intros l w lv D. apply H, (deriv_iff fb HF1). now exists l, fd, w, lv. }
    destruct (isact fb f) eqn:Ha; [destruct (is_complex fb f) eqn:Hcf|].
    + exact (proj1 (factor_ok_complex_iff s q f fd Ho Efd Ha Hcf) H').
    + exact (proj1 (factor_ok_grid_iff s q f fd Ho Hg Efd (proj2 (sact_split fb f) (conj Ha Hcf))) H').
    + exact (factor_ok_implied s q f fd Ho Efd Ha).
  - intros H d deps f Hin. apply (deriv_iff fb HF1) in Hin. destruct Hin as (l & fd & w & lv & D & -> & ->).
    pose proof D as [Efd _ _ Ha]. destruct (is_complex fb f) eqn:Hcf.
    + exact (proj2 (factor_ok_complex_iff s q f fd Ho Efd Ha Hcf) (H f fd Efd) l w lv D).
    + exact (proj2 (factor_ok_grid_iff s q f fd Ho Hg Efd (proj2 (sact_split fb f) (conj Ha Hcf))) (H f fd Efd) l w lv D).
Qed.

End F1DerivSem.

Check factors_sem.
Print Assumptions factors_sem.
