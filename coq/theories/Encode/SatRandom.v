(** C07 on the intersection of the two proved fragments: the sequences the
    SAT pipeline can return (decodings of models of the compiled formula,
    Encode/CompileCorollaries.v) are exactly the candidates RandomGen accepts
    (Random/Frag0Thms.v) - both are the sequences valid for [code_sem fb]. *)
From Coq Require Import ZArith List Bool Arith Lia.
From SP Require Import Base.Sat Design.Flat Design.Layout Design.Sem.
From SP Require Import Encode.Compile Encode.CodeSem Encode.LayoutF1 Encode.F1Kinds Encode.F1Sem
     Encode.CompileProofs Encode.CompileCorollaries Encode.Totality.
From SP Require Import Random.Enum Random.Frag Random.FragSem Random.Frag0Thms.
Import ListNotations.
Close Scope Z_scope.
Open Scope nat_scope.

(** a one-hot grid is the image of one sequence only *)
Lemma onehot_unique fb s q q' : onehot fb s q -> onehot fb s q' -> q = q'.
Proof.
  intros (L & R & C & B & I & N) (L' & R' & C' & B' & I' & N').
  apply (nth_ext q q' [] []); [congruence|]. intros f Hf. rewrite L in Hf.
  apply (nth_ext (nth f q []) (nth f q' []) None None).
  - rewrite (R f Hf), (R' f Hf). reflexivity.
  - intros t Ht. rewrite (R f Hf) in Ht.
    change (get_cell q f t = get_cell q' f t).
    destruct (isact fb f) eqn:Ea; [destruct (lappl fb f t) eqn:Eap|].
    + destruct (C t f Ht Ea Eap) as (i & Hi & Ei). destruct (C' t f Ht Ea Eap) as (i' & Hi' & Ei').
      pose proof (B t f i Ht Ea Eap Hi) as E1. pose proof (B' t f i Ht Ea Eap Hi) as E2.
      rewrite Ei in E1. rewrite Ei' in E2. rewrite E1 in E2. rewrite !is_level_some, Nat.eqb_refl in E2.
      symmetry in E2. apply Nat.eqb_eq in E2. congruence.
    + now rewrite (N t f Ht Ea Eap), (N' t f Ht Ea Eap).
    + now rewrite (I t f Ht Hf Ea), (I' t f Ht Hf Ea).
Qed.

(** both sides are the sequences valid for [code_sem fb]: [cs] is the sequence
    RandomGen builds from a candidate, with [accepts] sound and complete for it *)
Lemma sat_eq_accepted (fb : flat) (cs : run -> tseq) (b : backend) (ok : bool) (n' : Z) (final : cnf) :
  in_f1 fb = true -> 0 < T fb -> compile fb = COk b -> full_cnf b = (ok, n', final) ->
  (forall k cand, In k (keys_of fb) -> decode_key fb k = Some cand -> accepts fb cand = true ->
     valid_b (code_sem fb) (cs cand) = true) ->
  (forall s, valid_b (code_sem fb) s = true ->
     exists k cand, In k (keys_of fb) /\ decode_key fb k = Some cand /\ accepts fb cand = true /\ cs cand = s) ->
  forall q : tseq,
    (exists t, sat t final = true /\ onehot fb t q) <->
    (exists k cand, In k (keys_of fb) /\ decode_key fb k = Some cand /\ accepts fb cand = true /\ cs cand = q).
Proof.
  intros HF1 HT Hc Ef Hsound Hcomplete q. split.
  - intros (t & St & Ho).
    destruct (models_are_valid fb HF1 HT b Hc ok n' final t Ef St) as (q' & Ho' & Hv).
    rewrite (onehot_unique fb t q q' Ho Ho'). exact (Hcomplete q' Hv).
  - intros (k & cand & Hk & Hd & Ha & <-).
    exact (valid_has_model fb HF1 HT b Hc ok n' final _ Ef (Hsound k cand Hk Hd Ha)).
Qed.

Theorem sat_eq_random (fb : flat) (b : backend) (ok : bool) (n' : Z) (final : cnf) :
  in_f1 fb = true -> frag0 fb = true -> 0 < T fb -> fl_errors_fail fb = false ->
  compile fb = COk b -> full_cnf b = (ok, n', final) ->
  forall q : tseq,
    (exists t, sat t final = true /\ onehot fb t q) <->
    (exists k cand, In k (keys_of fb) /\ decode_key fb k = Some cand /\ accepts fb cand = true /\
                    tseq_of_run fb cand = q).
Proof.
  intros HF1 HF0 HT He Hc Ef.
  exact (sat_eq_accepted fb _ b ok n' final HF1 HT Hc Ef (f0_accept_sound fb HF0) (fun s => f0_accept_complete fb HF0 s He)).
Qed.

(** the two fragments are jointly satisfiable: a 2 x 3 crossing on 6 trials *)
Lemma sat_eq_random_example :
  in_f1 ex_fb = true /\ frag0 ex_fb = true /\ 0 < T ex_fb /\ fl_errors_fail ex_fb = false /\
  (exists b, compile ex_fb = COk b) /\ length (keys_of ex_fb) = 720.
Proof.
  assert (HT : 0 < T ex_fb) by (vm_compute; lia).
  split; [exact ex_fb_in_f1|]. split; [vm_compute; reflexivity|]. split; [exact HT|].
  split; [reflexivity|]. split; [exact (compile_total_f1 ex_fb ex_fb_in_f1 HT)|vm_compute; reflexivity].
Qed.
