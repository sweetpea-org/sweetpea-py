(** The rotation counter of [LatinSquare.apply] ([Compile.step_rotations]: add
    one to the mixed-radix number whose digits are the rotations of the factors
    other than the main one, last factor fastest, wrapping around) against the
    rotation vector of the reference semantics ([Sem.rotations]: the digits of
    the segment number). *)
From Coq Require Import ZArith List Bool Arith Lia.
From SP Require Import Base.Lists Design.Sem Encode.Compile.
Import ListNotations.
Close Scope Z_scope.
Open Scope nat_scope.

(** the list without its [k]-th element *)
Definition remove_nth {A} (k : nat) (l : list A) : list A := firstn k l ++ skipn (S k) l.

(** the position in the full list of the [p]-th element of [remove_nth main] *)
Definition unskip (main p : nat) : nat := if p <? main then p else S p.

Lemma remove_nth_cons {A} (k : nat) (a : A) (l : list A) :
  remove_nth (S k) (a :: l) = a :: remove_nth k l.
Proof. reflexivity. Qed.

Lemma remove_nth_length {A} (k : nat) (l : list A) : k < length l -> length (remove_nth k l) = length l - 1.
Proof.
  intros H. unfold remove_nth. rewrite app_length, firstn_length, skipn_length. lia.
Qed.

Lemma remove_nth_app_mid {A} (a : list A) (x : A) (b : list A) :
  remove_nth (length a) (a ++ x :: b) = a ++ b.
Proof.
  induction a as [|y a IH]; [reflexivity|].
  cbn [length app]. rewrite remove_nth_cons. now rewrite IH.
Qed.

Lemma split_at {A} (l : list A) : forall k, k < length l ->
  exists a x b, l = a ++ x :: b /\ length a = k.
Proof.
  induction l as [|y l IH]; intros [|k] H; cbn [length] in H; try lia.
  - exists [], y, l. split; reflexivity.
  - destruct (IH k) as (a & x & b & E & L); [lia|].
    exists (y :: a), x, b. split; [now rewrite E | cbn [length]; now rewrite L].
Qed.

Lemma nth_insert (RA RB : list nat) (p : nat) :
  nth (unskip (length RA) p) (RA ++ 0 :: RB) 0 = nth p (RA ++ RB) 0.
Proof.
  unfold unskip. destruct (p <? length RA) eqn:E.
  - apply Nat.ltb_lt in E. now rewrite !app_nth1 by lia.
  - apply Nat.ltb_ge in E. rewrite !app_nth2 by lia.
    replace (S p - length RA) with (S (p - length RA)) by lia. reflexivity.
Qed.

(** * Mixed-radix digits, least significant first *)

Fixpoint digits (ns : list nat) (r : nat) : list nat :=
  match ns with
  | [] => []
  | n :: tl => (r mod n) :: digits tl (r / n)
  end.

Fixpoint incr (ns ds : list nat) : list nat :=
  match ns, ds with
  | n :: ns', d :: ds' => if S d <? n then S d :: ds' else 0 :: incr ns' ds'
  | _, _ => []
  end.

Lemma digits_length ns : forall r, length (digits ns r) = length ns.
Proof. induction ns as [|n ns IH]; intros r; cbn [digits length]; auto. Qed.

Lemma digits_zero ns : Forall (fun n => 0 < n) ns -> digits ns 0 = map (fun _ => 0) ns.
Proof.
  induction 1 as [|n ns Hn _ IH]; [reflexivity|].
  cbn [digits map]. rewrite Nat.mod_0_l, Nat.div_0_l by lia. now rewrite IH.
Qed.

Lemma incr_length ns : forall ds, length ns = length ds -> length (incr ns ds) = length ds.
Proof.
  induction ns as [|n ns IH]; intros [|d ds] H; try discriminate; [reflexivity|].
  cbn [incr]. destruct (S d <? n); cbn [length]; [reflexivity|].
  rewrite IH; [reflexivity | cbn [length] in H; lia].
Qed.

Lemma succ_mod_lt r n : S (r mod n) < n -> S r mod n = S (r mod n) /\ S r / n = r / n.
Proof.
  intros H. assert (Hn : n <> 0) by lia.
  pose proof (Nat.div_mod r n Hn) as E.
  split; symmetry.
  - apply Nat.mod_unique with (q := r / n); lia.
  - apply Nat.div_unique with (r := S (r mod n)); lia.
Qed.

Lemma succ_mod_ge r n : 0 < n -> ~ S (r mod n) < n -> S r mod n = 0 /\ S r / n = S (r / n).
Proof.
  intros Hp H. assert (Hn : n <> 0) by lia.
  pose proof (Nat.div_mod r n Hn) as E.
  pose proof (Nat.mod_upper_bound r n Hn) as U.
  assert (E' : S r = n * S (r / n) + 0) by (rewrite Nat.mul_succ_r; lia).
  split; symmetry.
  - apply Nat.mod_unique with (q := S (r / n)); [lia | exact E'].
  - apply Nat.div_unique with (r := 0); [lia | exact E'].
Qed.

Lemma incr_digits ns : Forall (fun n => 0 < n) ns ->
  forall r, incr ns (digits ns r) = digits ns (S r).
Proof.
  induction 1 as [|n ns Hn _ IH]; intros r; [reflexivity|].
  cbn [digits incr]. destruct (S (r mod n) <? n) eqn:E.
  - apply Nat.ltb_lt in E. destruct (succ_mod_lt r n E) as [-> ->]. reflexivity.
  - apply Nat.ltb_ge in E. destruct (succ_mod_ge r n Hn) as [-> ->]; [lia|].
    now rewrite IH.
Qed.

Lemma rotations_digits (others : list (nat * nat)) (r : nat) :
  rotations others r = rev (digits (rev (map snd others)) r).
Proof.
  destruct others as [|o os]; [reflexivity|].
  unfold rotations. rewrite <- map_rev.
  generalize (rev (o :: os)) as l. intros l. f_equal. revert r.
  induction l as [|[f n] l IH]; intros r; [reflexivity|].
  cbn [map snd digits]. f_equal. apply IH.
Qed.

Lemma rotations_length (others : list (nat * nat)) r :
  length (rotations others r) = length others.
Proof.
  rewrite rotations_digits, rev_length, digits_length, rev_length, map_length. reflexivity.
Qed.

Lemma rotations_zero (others : list (nat * nat)) :
  Forall (fun x => 0 < snd x) others -> rotations others 0 = map (fun _ => 0) others.
Proof.
  intros H. rewrite rotations_digits, digits_zero.
  - rewrite map_rev, rev_involutive, map_map. reflexivity.
  - apply Forall_rev. apply Forall_map. exact H.
Qed.

(** * [step_rev] on items with one main item *)

Definition mkf (ns ds : list nat) : list (bool * nat * nat) :=
  map (fun p => (false, fst p, snd p)) (combine ns ds).

Lemma mkf_app ns1 ds1 ns2 ds2 : length ns1 = length ds1 ->
  mkf (ns1 ++ ns2) (ds1 ++ ds2) = mkf ns1 ds1 ++ mkf ns2 ds2.
Proof. intros H. unfold mkf. rewrite combine_app by exact H. apply map_app. Qed.

Lemma mkf_rev ns : forall ds, length ns = length ds -> rev (mkf ns ds) = mkf (rev ns) (rev ds).
Proof.
  induction ns as [|n ns IH]; intros [|d ds] H; try discriminate; [reflexivity|].
  cbn [rev]. rewrite mkf_app by (rewrite !rev_length; cbn [length] in H; lia).
  rewrite <- IH by (cbn [length] in H; lia). reflexivity.
Qed.

Lemma mkf_snd ns : forall ds, length ns = length ds -> map snd (mkf ns ds) = ds.
Proof. intros ds H. unfold mkf. rewrite map_map. now apply map_snd_combine. Qed.

Lemma mkf_flags {X} (L : list X) : forall ns ds, length L = length ns ->
  combine (combine (map (fun _ => false) L) ns) ds = mkf ns ds.
Proof.
  induction L as [|x L IH]; intros [|n ns] ds H; try discriminate; [reflexivity|].
  destruct ds as [|d ds]; [reflexivity|].
  unfold mkf in *. cbn [map combine fst snd]. f_equal. apply IH. cbn [length] in H. lia.
Qed.

Lemma step_rev_mkf ns : forall ds, step_rev (mkf ns ds) = mkf ns (incr ns ds).
Proof.
  induction ns as [|n ns IH]; intros [|d ds]; try reflexivity.
  unfold mkf in *. cbn [combine map step_rev fst snd incr].
  destruct (S d <? n); cbn [combine map fst snd]; [reflexivity|]. now rewrite IH.
Qed.

Lemma step_rev_split n r ns2 ds2 : forall ns1 ds1, length ns1 = length ds1 ->
  exists d1 d2, length d1 = length ds1 /\ d1 ++ d2 = incr (ns1 ++ ns2) (ds1 ++ ds2) /\
    step_rev (mkf ns1 ds1 ++ (true, n, r) :: mkf ns2 ds2) = mkf ns1 d1 ++ (true, n, r) :: mkf ns2 d2.
Proof.
  induction ns1 as [|a ns1 IH]; intros [|d ds1] H; try discriminate.
  - exists [], (incr ns2 ds2). cbn [app length mkf combine map step_rev].
    fold (mkf ns2 ds2). rewrite step_rev_mkf. auto.
  - cbn [app incr]. unfold mkf at 1. cbn [combine map app step_rev fst snd].
    fold (mkf ns1 ds1).
    destruct (S d <? a).
    + exists (S d :: ds1), ds2. split; [reflexivity|]. split; reflexivity.
    + destruct (IH ds1) as (d1 & d2 & L & E & St); [cbn [length] in H; lia|].
      exists (0 :: d1), d2. split; [cbn [length]; now rewrite L|].
      split; [cbn [app]; now rewrite E|].
      rewrite St. reflexivity.
Qed.

Lemma flags_false m : forall k s, m < s \/ s + k <= m ->
  map (fun i => i =? m) (seq s k) = map (fun _ => false) (seq s k).
Proof.
  intros k s H. apply map_ext_in. intros i Hi. apply in_seq in Hi.
  apply Nat.eqb_neq. lia.
Qed.

Lemma step_rotations_split NA n NB RA RB :
  length RA = length NA -> length RB = length NB ->
  exists D1 D2, length D1 = length NB /\
    D1 ++ D2 = incr (rev NB ++ rev NA) (rev RB ++ rev RA) /\
    step_rotations (length NA) (NA ++ n :: NB) (RA ++ 0 :: RB) = rev D2 ++ 0 :: rev D1.
Proof.
  intros LA LB. unfold step_rotations.
  rewrite app_length. cbn [length]. rewrite LA, LB.
  rewrite seq_app. cbn [seq]. rewrite map_app. cbn [map].
  rewrite Nat.add_0_l, Nat.eqb_refl.
  rewrite (flags_false (length NA) (length NA) 0) by lia.
  rewrite (flags_false (length NA) (length NB) (S (length NA))) by lia.
  rewrite combine_app by (rewrite map_length, seq_length; reflexivity).
  cbn [combine].
  rewrite combine_app
    by (rewrite combine_length, map_length, seq_length; lia).
  cbn [combine].
  rewrite !mkf_flags by (rewrite seq_length; reflexivity).
  rewrite rev_app_distr. cbn [rev]. rewrite <- app_assoc. cbn [app].
  rewrite !mkf_rev by lia.
  destruct (step_rev_split n 0 (rev NA) (rev RA) (rev NB) (rev RB)) as (d1 & d2 & L & E & St);
    [rewrite !rev_length; lia|].
  rewrite St. exists d1, d2.
  rewrite rev_length in L.
  assert (L2 : length d2 = length NA).
  { apply (f_equal (@length nat)) in E. rewrite incr_length in E.
    - rewrite !app_length, !rev_length in E. lia.
    - rewrite !app_length, !rev_length. lia. }
  split; [lia|]. split; [exact E|].
  rewrite rev_app_distr. cbn [rev]. rewrite <- app_assoc. cbn [app].
  rewrite map_app. cbn [map snd]. rewrite !map_rev.
  rewrite !mkf_snd by (rewrite rev_length; lia). reflexivity.
Qed.

Lemma rots_inv_gen (A B : list (nat * nat)) (x : nat * nat) :
  Forall (fun y => 0 < snd y) (A ++ x :: B) ->
  forall r, exists RA RB,
    Nat.iter r (step_rotations (length A) (map snd (A ++ x :: B))) (map (fun _ => 0) (A ++ x :: B))
      = RA ++ 0 :: RB /\
    length RA = length A /\ RA ++ RB = rotations (A ++ B) r.
Proof.
  intros Hp.
  assert (HpAB : Forall (fun y => 0 < snd y) (A ++ B)).
  { apply Forall_app in Hp. destruct Hp as [HA HB]. apply Forall_app. split; [exact HA|].
    now inversion HB. }
  induction r as [|r IH].
  - exists (map (fun _ => 0) A), (map (fun _ => 0) B). unfold Nat.iter. cbn [nat_rect].
    split; [now rewrite map_app|]. split; [apply map_length|].
    rewrite rotations_zero by exact HpAB. now rewrite map_app.
  - destruct IH as (RA & RB & E & LA & ER).
    unfold Nat.iter in *. cbn [nat_rect]. rewrite E.
    rewrite map_app. cbn [map].
    assert (LB : length RB = length B).
    { apply (f_equal (@length nat)) in ER. rewrite rotations_length, !app_length in ER. lia. }
    rewrite <- (map_length snd A).
    destruct (step_rotations_split (map snd A) (snd x) (map snd B) RA RB) as (D1 & D2 & L1 & ED & St);
      [rewrite map_length; lia | rewrite map_length; lia |].
    rewrite St. exists (rev D2), (rev D1).
    split; [reflexivity|].
    rewrite <- !rev_app_distr, <- map_app in ED.
    rewrite ER, rotations_digits, rev_involutive in ED.
    rewrite incr_digits in ED
      by (apply Forall_rev; apply Forall_map; exact HpAB).
    split.
    + apply (f_equal (@length nat)) in ED.
      rewrite digits_length, rev_length, map_length, !app_length in ED.
      rewrite map_length in L1. rewrite rev_length, map_length. lia.
    + rewrite <- rev_app_distr, ED, rotations_digits. reflexivity.
Qed.

Section MixedRadix.
Variable main : nat.
Variable xs : list (nat * nat).          (* (factor, number of levels), in declaration order *)
Hypothesis Hmain : main < length xs.
Hypothesis Hpos : Forall (fun x => 0 < snd x) xs.

Let nls : list nat := map snd xs.
Let others : list (nat * nat) := remove_nth main xs.

(** the rotations after [r] segments *)
Definition rots_at (r : nat) : list nat := Nat.iter r (step_rotations main nls) (map (fun _ => 0) xs).

Lemma rots_at_inv r : exists RA RB,
  rots_at r = RA ++ 0 :: RB /\ length RA = main /\ RA ++ RB = rotations others r.
Proof.
  destruct (split_at xs main Hmain) as (A & x & B & E & L).
  pose proof Hpos as Hp. rewrite E in Hp.
  destruct (rots_inv_gen A B x Hp r) as (RA & RB & E1 & E2 & E3).
  exists RA, RB. unfold rots_at, nls, others.
  rewrite E, <- L. rewrite remove_nth_app_mid. auto.
Qed.

Lemma others_length : length others = length xs - 1.
Proof. exact (remove_nth_length main xs Hmain). Qed.

Lemma rots_at_length r : length (rots_at r) = length xs.
Proof.
  destruct (rots_at_inv r) as (RA & RB & E & L & ER).
  apply (f_equal (@length nat)) in ER.
  rewrite rotations_length, others_length, app_length in ER.
  rewrite E, app_length. cbn [length]. lia.
Qed.

Lemma rots_at_main r : nth main (rots_at r) 0 = 0.
Proof.
  destruct (rots_at_inv r) as (RA & RB & E & L & ER).
  rewrite E, app_nth2 by lia. rewrite L, Nat.sub_diag. reflexivity.
Qed.

Lemma rots_at_others r p : p < length others -> nth (unskip main p) (rots_at r) 0 = nth p (rotations others r) 0.
Proof.
  intros _. destruct (rots_at_inv r) as (RA & RB & E & L & ER).
  rewrite E, <- ER, <- L. apply nth_insert.
Qed.

End MixedRadix.

(** the indexed filter of [LatinSquare] is [remove_nth] *)
Lemma flat_map_no_main {A B} (g : A -> B) (m : nat) (l : list A) : forall s, m < s ->
  flat_map (fun ixf : nat * A => if fst ixf =? m then [] else [g (snd ixf)]) (combine (seq s (length l)) l)
  = map g l.
Proof.
  induction l as [|a l IH]; intros s H; [reflexivity|].
  cbn [length seq combine flat_map fst snd map].
  destruct (s =? m) eqn:E; [apply Nat.eqb_eq in E; lia|].
  cbn [app]. f_equal. apply IH. lia.
Qed.

Lemma flat_map_remove_nth_gen {A B} (g : A -> B) (l : list A) : forall s k,
  flat_map (fun ixf : nat * A => if fst ixf =? s + k then [] else [g (snd ixf)]) (combine (seq s (length l)) l)
  = map g (remove_nth k l).
Proof.
  induction l as [|a l IH]; intros s k.
  - destruct k; reflexivity.
  - cbn [length seq combine flat_map fst snd].
    destruct k as [|k].
    + rewrite Nat.add_0_r, Nat.eqb_refl. cbn [app].
      rewrite flat_map_no_main by lia. reflexivity.
    + destruct (s =? s + S k) eqn:E; [apply Nat.eqb_eq in E; lia|].
      rewrite remove_nth_cons. cbn [app map]. f_equal.
      rewrite <- Nat.add_succ_comm. apply IH.
Qed.

Lemma flat_map_remove_nth {A B} (g : A -> B) (main : nat) (l : list A) :
  flat_map (fun ixf : nat * A => if fst ixf =? main then [] else [g (snd ixf)]) (combine (seq 0 (length l)) l)
  = map g (remove_nth main l).
Proof. exact (flat_map_remove_nth_gen g l 0 main). Qed.

Lemma remove_nth_nth {A} (k p : nat) (l : list A) (d : A) : k < length l -> p < length l - 1 ->
  nth p (remove_nth k l) d = nth (unskip k p) l d.
Proof.
  revert k p. induction l as [|a l IH]; intros k p Hk Hp; cbn [length] in *; [lia|].
  destruct k as [|k].
  - reflexivity.
  - rewrite remove_nth_cons. destruct p as [|p]; [reflexivity|].
    cbn [nth]. rewrite IH by lia.
    unfold unskip. change (S p <? S k) with (p <? k).
    destruct (p <? k); reflexivity.
Qed.

Print Assumptions rots_at_others.
Print Assumptions flat_map_remove_nth.
Print Assumptions remove_nth_nth.
Print Assumptions remove_nth_length.
