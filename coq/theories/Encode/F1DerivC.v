(** The (a) half of the [Derivation] constraint of a factor with a complex
    window (Transition, Window(width, stride, start)) in F1: the loop of
    [__apply_derivation_with_complex_window] produces, for every trial [n] in
    which the factor has a level, the equivalence between the variable of the
    level at [n] and the disjunction over the table entries of the
    conjunction of the variables of the entry's levels in the window ending at
    [n] (the [j]-th cell of a column is read [width - 1 - j] trials back). *)
From Coq Require Import ZArith List Bool Arith Lia.
From SP Require Import Base.Lists Base.Sat Base.Bits Core.Card Core.CardProofs.
From SP Require Import Logic.Formula Logic.Tseitin Logic.TseitinProofs.
From SP Require Import Design.Flat Design.Layout Design.Sem.
From SP Require Import Encode.Compile Encode.CodeSem Encode.Generic Encode.Blocks Encode.Runs
     Encode.GridLemmas Encode.CrossChunks Encode.LayoutF1 Encode.F1Lists Encode.PrevArith Encode.F1Kinds Encode.F1Cross Encode.F1Deriv.
Import ListNotations.
Close Scope Z_scope.
Open Scope nat_scope.

Lemma flat_map_some {A B C} (g : A -> B) (h : B -> list C) (l : list A) :
  flat_map (fun o : option B => match o with Some v => h v | None => [] end) (map (fun x => Some (g x)) l)
  = flat_map (fun x => h (g x)) l.
Proof. induction l as [|x l IH]; [reflexivity|]. cbn [map flat_map]. now rewrite IH. Qed.

Section F1DerivC.
Variable fb : flat.
Hypothesis HF1 : in_f1 fb = true.
Hypothesis HT : 0 < T fb.

Notation GZ := (GZ fb).
Let FF : F1facts fb := in_f1_facts fb HF1.

(** the variables an entry reads in the window ending at trial [n] *)
Definition col_cvars (width n d : nat) (col : list (option nat)) : list nat :=
  map (fun jc => gvar fb (n - (width - 1 - fst jc)) d (lev_of' (snd jc))) (combine (seq 0 (length col)) col).
Definition entry_cvars (w : fwindow) (n : nat) (entry : list (list (option nat))) : list nat :=
  concat (map2 (col_cvars (win_width w) n) (win_deps w) entry).

(** the equivalence generated for trial [n] *)
Definition cx_iff (w : fwindow) (f l : nat) (entries : list (list (list (option nat)))) (n : nat) : fm :=
  FIff (fv (gvar fb n f l)) (FOr (map (fun e => FAnd (map fv (entry_cvars w n e))) entries)).

Definition cx_iffs (w : fwindow) (f l : nat) (entries : list (list (list (option nat)))) : list fm :=
  map (cx_iff w f l entries) (trials_of fb f 0 (T fb)).

(** the formulas of the constraint, read off the model *)
Definition derivc_formulas (d : nat) (deps : list (list didx)) (f : nat) : list fm :=
  match factor_at fb f with
  | Some fd =>
    match ff_window fd with
    | Some w => match deriv_complex_loop fb (seq 0 (T fb)) 0 d deps f (sustain_of fb f) w with
                | COk iffs => iffs
                | CErr _ => []
                end
    | None => []
    end
  | None => []
  end.

Definition Pderivc (d : nat) (deps : list (list didx)) (f : nat) (s : asg) : Prop :=
  eval s (FAnd (derivc_formulas d deps f)) = true.

Lemma complex_facts f fd :
  nth_error (fl_design fb) f = Some fd -> isact fb f = true -> ff_complex fd = true ->
  exists w, ff_window fd = Some w /\ 0 < win_width w /\ 0 < win_stride w /\ win_width w - 1 <= win_start w /\
            win_start_delta w = Z.of_nat (win_start w - (win_width w - 1)).
Proof.
  intros Efd Ha Hc. pose proof (f1_factor fb FF f fd Efd Ha) as H. unfold factor_f1 in H. rewrite Hc in H.
  apply andb_true_iff in H. destruct H as [_ H]. destruct (ff_window fd) as [w|]; [|discriminate].
  rewrite !andb_true_iff in H. destruct H as [[[W1 W2] W3] W4].
  apply Nat.ltb_lt in W1, W2. apply Nat.leb_le in W3. apply Z.eqb_eq in W4. exists w. repeat split; assumption.
Qed.

Lemma sustain1 f : isact fb f = true -> is_complex fb f = true -> sustain fb f = 1.
Proof. exact (f1_sustain_cx fb HF1 f). Qed.

Lemma lappl_model f t : isact fb f = true -> is_complex fb f = true ->
  applies_to_trial fb f (t / 1 + 1) = lappl fb f t.
Proof.
  intros Ha Hc. unfold lappl, applies_at. rewrite (sustain1 f Ha Hc). replace (S t - 1) with t by lia. reflexivity.
Qed.

Lemma deriv_vars_idx xs n shift :
  Forall (fun x => x < GN fb) xs -> (0 <= shift)%Z ->
  deriv_vars fb (map DIdx xs) n shift 1 =
  COk (Some (map (fun x => (zn x + (shift * zn 1 * zn (vpt fb) + 1))%Z) xs)).
Proof.
  intros H Hs. induction H as [|x xs Hx _ IH]; [reflexivity|].
  cbn [map deriv_vars]. unfold get_trial_size. rewrite (f1_grid fb).
  replace (x <? GN fb) with true by (symmetry; now apply Nat.ltb_lt). cbn [cbind]. fold (vpt fb).
  replace (zn x + (shift * zn 1 * zn (vpt fb) + 1) <=? 0)%Z with false by (symmetry; apply Z.leb_gt; unfold zn; nia).
  rewrite IH. reflexivity.
Qed.

Lemma col_shift width d col n :
  sact fb d = true -> colw_ok fb width d col = true -> width - 1 <= n -> n < T fb ->
  Forall (fun x => x < GN fb) (col_idx fb d col) /\
  map (fun x => (zn x + (zn (n - (width - 1)) * zn (vpt fb) + 1))%Z) (col_idx fb d col) = map zn (col_cvars width n d col).
Proof.
  intros Hd Hc Hw HnT. destruct (colw_cells fb width d col Hc) as [Hlen Hcells].
  apply (sact_split fb) in Hd. destruct Hd as [Hda Hdc].
  pose proof (f1_off_vpt fb HF1 d (proj2 (sact_split fb d) (conj Hda Hdc))) as Hoff.
  split.
  - unfold F1Deriv.col_idx. apply Forall_map. apply Forall_forall. intros [j c] Hin. cbn [fst snd].
    destruct (Hcells j c Hin) as (x & -> & Hx). destruct (combine_seq_in col 0 j _ Hin) as [Hj _]. cbn [lev_of'].
    unfold GN. nia.
  - unfold F1Deriv.col_idx, col_cvars. rewrite !map_map. apply map_ext_in. intros [j c] Hin. cbn [fst snd].
    destruct (Hcells j c Hin) as (x & -> & Hx). destruct (combine_seq_in col 0 j _ Hin) as [Hj _]. cbn [lev_of'].
    rewrite (gvar_simple fb (n - (width - 1 - j)) d x Hdc).
    replace (n - (width - 1 - j)) with ((n - (width - 1)) + j) by lia.
    unfold zn. nia.
Qed.

Lemma entry_shift width deps n : forall entry,
  Forall (fun dd => sact fb dd = true) deps -> entryw_ok fb width deps entry = true -> width - 1 <= n -> n < T fb ->
  Forall (fun x => x < GN fb) (entry_idx fb deps entry) /\
  map (fun x => (zn x + (zn (n - (width - 1)) * zn (vpt fb) + 1))%Z) (entry_idx fb deps entry)
  = map zn (concat (map2 (col_cvars width n) deps entry)).
Proof.
  induction deps as [|dd deps IH]; intros [|col entry] Hd He Hw HnT; cbn [entryw_ok] in He; try discriminate.
  - split; [constructor|reflexivity].
  - apply andb_true_iff in He. destruct He as [Hc He]. inversion Hd as [|a1 a2 Hdd Hds]. subst a1 a2.
    destruct (col_shift width dd col n Hdd Hc Hw HnT) as [A1 A2]. destruct (IH entry Hds He Hw HnT) as [B1 B2].
    unfold F1Deriv.entry_idx in *. cbn [map2 concat]. split; [apply Forall_app; now split|].
    rewrite !map_app. now rewrite A2, B2.
Qed.

Lemma trials_of_cons f a k :
  trials_of fb f a (a + S k) = (if lappl fb f a then [a] else []) ++ trials_of fb f (S a) (S a + k).
Proof.
  unfold trials_of. replace (a + S k - a) with (S k) by lia. replace (S a + k - S a) with k by lia.
  cbn [seq filter]. fold (lappl fb f a). destruct (lappl fb f a); reflexivity.
Qed.

Lemma loop_spec f l fd w lv :
  dlevel fb f l fd w lv -> is_complex fb f = true ->
  forall k a, a + k <= T fb ->
  deriv_complex_loop fb (seq a k) (prev fb f a) (GN fb + coff fb f + l)
                     (map (fun e => map DIdx (entry_idx fb (win_deps w) e)) (lv_accepts lv)) f 1 w
  = COk (map (cx_iff w f l (lv_accepts lv)) (trials_of fb f a (a + k))).
Proof.
  intros D Hcf. pose proof D as [Efd Ew Elv Ha].
  pose proof (dl_deps fb HF1 D) as Hdeps. pose proof (dl_entries fb HF1 D) as Hent. rewrite Hcf in Hent.
  assert (Hcx : ff_complex fd = true) by (rewrite <- (is_complex_at fb f fd Efd); exact Hcf).
  destruct (complex_facts f fd Efd Ha Hcx) as (w' & Ew' & W1 & W2 & W3 & W4).
  assert (w' = w) by congruence. subst w'.
  assert (Hfa : factor_at fb f = Some fd) by exact Efd.
  induction k as [|k IH]; intros a Hak.
  - unfold trials_of. rewrite Nat.add_0_r, Nat.sub_diag. reflexivity.
  - rewrite Nat.add_succ_r in Hak. cbn [seq deriv_complex_loop]. rewrite Nat.mod_1_r. cbn [Nat.eqb negb].
    rewrite (lappl_model f a Ha Hcf), trials_of_cons.
    destruct (lappl fb f a) eqn:Eap; cbn [negb].
    + pose proof (lappl_prev fb f fd w a Hfa Ew (sustain1 f Ha Hcf) W2 Eap) as Hn.
      assert (HaT : a < T fb) by exact (Nat.le_lt_trans _ _ _ (Nat.le_add_r a k) Hak).
      assert (Hands : cmapM (fun l0 => deriv_vars fb l0 a (zn (prev fb f a) * zn (win_stride w) + win_start_delta w * zn 1)%Z 1)
                            (map (fun e => map DIdx (entry_idx fb (win_deps w) e)) (lv_accepts lv))
                      = COk (map (fun e => Some (map zn (entry_cvars w a e))) (lv_accepts lv))).
      { apply cmapM_map_ok. intros e He. pose proof (Forall_In _ _ _ Hent He) as Hok. cbv beta in Hok.
        assert (Hwa : win_width w - 1 <= a) by (rewrite Hn; clear - W3; lia).
        destruct (entry_shift (win_width w) (win_deps w) a e Hdeps Hok Hwa HaT) as [A B].
        rewrite (deriv_vars_idx _ a _ A) by (rewrite W4; clear; unfold zn; nia).
        replace ((zn (prev fb f a) * zn (win_stride w) + win_start_delta w * zn 1) * zn 1)%Z with (zn (a - (win_width w - 1)))
          by (rewrite W4; clear - W3 Hn; unfold zn; nia).
        unfold entry_cvars. now rewrite <- B. }
      rewrite Hands. cbn [cbind].
      replace (prev fb f a + 1) with (prev fb f (S a)) by (rewrite prev_S, Eap; reflexivity).
      rewrite (IH (S a) Hak). cbn [cbind app map]. f_equal. f_equal.
      unfold cx_iff. f_equal.
      * unfold fv. f_equal. rewrite (gvar_complex fb a f l Hcf). clear. unfold zn. lia.
      * f_equal. rewrite (flat_map_some (fun e => map zn (entry_cvars w a e)) (fun vs => [FAnd (map FVar vs)])).
        rewrite flat_map_singleton. apply map_ext. intros e. f_equal. unfold fv. now rewrite map_map.
    + replace (prev fb f a) with (prev fb f (S a)) by (rewrite prev_S, Eap; apply Nat.add_0_r).
      rewrite (IH (S a) Hak). reflexivity.
Qed.

Lemma derivc_formulas_eq f l fd w lv :
  dlevel fb f l fd w lv -> is_complex fb f = true ->
  deriv_complex_loop fb (seq 0 (T fb)) 0 (dvar fb f l) (ddeps fb f w lv) f 1 w = COk (cx_iffs w f l (lv_accepts lv)) /\
  derivc_formulas (dvar fb f l) (ddeps fb f w lv) f = cx_iffs w f l (lv_accepts lv).
Proof.
  intros D Hcf. pose proof D as [Efd Ew _ Ha].
  pose proof (loop_spec f l fd w lv D Hcf (T fb) 0 (Nat.le_refl _)) as L. rewrite prev_0 in L. cbn [Nat.add] in L.
  unfold dvar, ddeps. rewrite Hcf. split; [exact L|].
  unfold derivc_formulas, factor_at. now rewrite Efd, Ew, (f1_sustain_cx fb HF1 f Ha Hcf), L.
Qed.

Lemma entry_cvars_ok w n e :
  Forall (fun dd => sact fb dd = true) (win_deps w) -> entryw_ok fb (win_width w) (win_deps w) e = true -> n < T fb ->
  Forall (fun v => 0 < v /\ (zn v <= GZ)%Z) (entry_cvars w n e).
Proof.
  intros Hd He Hn. unfold entry_cvars.
  generalize dependent e. generalize (win_deps w) Hd. clear Hd.
  induction l as [|dd deps IH]; intros Hd [|col entry] He; cbn [entryw_ok] in He; try discriminate; [constructor|].
  apply andb_true_iff in He. destruct He as [Hc He]. inversion Hd as [|? ? Hdd Hds]; subst.
  cbn [map2 concat]. apply Forall_app. split; [|now apply IH].
  destruct (colw_cells fb (win_width w) dd col Hc) as [Hlen Hcells]. cbv beta in Hdd.
  apply (sact_split fb) in Hdd. destruct Hdd as [Hda Hdc].
  unfold col_cvars. apply Forall_map. apply Forall_forall. intros [j c] Hin. cbn [fst snd].
  destruct (Hcells j c Hin) as (x & -> & Hx). cbn [lev_of'].
  apply (gvar_ok fb HF1 HT); [exact (Nat.le_lt_trans _ _ _ (Nat.le_sub_l _ _) Hn)|exact Hda|exact Hx| |apply Z.le_refl].
  now apply (lappl_simple fb HF1).
Qed.

Lemma cx_iffs_leaves w f l entries fresh :
  isact fb f = true -> l < nlevels fb f ->
  Forall (fun dd => sact fb dd = true) (win_deps w) ->
  Forall (fun entry => entryw_ok fb (win_width w) (win_deps w) entry = true) entries ->
  (GZ < fresh)%Z ->
  forall z, In z (leaves (FAnd (cx_iffs w f l entries))) -> z <> 0%Z /\ (Z.abs z < fresh)%Z.
Proof.
  intros Ha Hl Hd He Hfr z Hz. cbn [leaves] in Hz. unfold cx_iffs in Hz. rewrite flat_map_map in Hz.
  apply in_flat_map in Hz. destruct Hz as (n & Hn & Hz). apply in_trials_of in Hn. destruct Hn as [Hn Hap].
  unfold cx_iff in Hz. cbn [leaves fv] in Hz. destruct Hz as [<-|Hz].
  - apply (fv_gvar_leaf fb HF1 HT n f l fresh _ (proj2 Hn) Ha Hl Hap Hfr). now left.
  - rewrite flat_map_map in Hz. apply in_flat_map in Hz. destruct Hz as (e & Hein & Hz). cbn [leaves] in Hz.
    rewrite flat_map_map in Hz. apply in_flat_map in Hz. destruct Hz as (v & Hv & Hz). cbn [fv leaves] in Hz.
    destruct Hz as [<-|[]].
    pose proof (entry_cvars_ok w n e Hd (Forall_In _ _ _ He Hein) (proj2 Hn)) as Hok.
    destruct (Forall_In _ _ _ Hok Hv) as [V1 V2]. clear - V1 V2 Hfr. unfold zn in *. lia.
Qed.

Lemma apply_derivc_eq f l fd w lv fresh : dlevel fb f l fd w lv -> is_complex fb f = true ->
  apply_constraint fb (FDerivation (dvar fb f l) (ddeps fb f w lv) f) fresh
  = tseitin_contrib (cx_iffs w f l (lv_accepts lv)) [] fresh.
Proof.
  intros D Hcx. destruct (derivc_formulas_eq f l fd w lv D Hcx) as [L _]. pose proof D as [Efd Ew _ Hf].
  cbn [apply_constraint]. unfold apply_derivation.
  replace (dvar fb f l <? grid_variables fb) with false.
  2:{ symmetry. apply Nat.ltb_ge. rewrite (f1_grid fb). unfold dvar. rewrite Hcx. lia. }
  unfold deriv_complex. change (factor_at fb f) with (nth_error (fl_design fb) f). rewrite Efd, Ew.
  rewrite (f1_sustain_cx fb HF1 f Hf Hcx). cbn [Nat.eqb]. now rewrite L.
Qed.

Lemma step_derivc d deps f :
  In (FDerivation d deps f) (fl_constraints fb) -> is_complex fb f = true ->
  forall fresh ct, (GZ < fresh)%Z -> apply_constraint fb (FDerivation d deps f) fresh = COk ct ->
  exists ext, DefinesA (fresh - 1) (ct_fresh ct - 1) (ct_clauses ct) (ct_requests ct) ext (Pderivc d deps f).
Proof.
  intros Hin Hcx fresh ct Hfr E.
  apply (deriv_iff fb HF1) in Hin. destruct Hin as (l & fd & w & lv & D & -> & ->).
  rewrite (apply_derivc_eq f l fd w lv fresh D Hcx) in E.
  pose proof (dl_entries fb HF1 D) as He. rewrite Hcx in He. pose proof (GZ_nonneg fb) as HGZ.
  unfold Pderivc. rewrite (proj2 (derivc_formulas_eq f l fd w lv D Hcx)).
  apply (step_tseitin _ fresh ct); [lia| |exact E].
  exact (cx_iffs_leaves w f l (lv_accepts lv) fresh (dl_act _ _ _ _ _ _ D) (dl_lt fb D) (dl_deps fb HF1 D) He Hfr).
Qed.

Definition Pderiv_any (d : nat) (deps : list (list didx)) (f : nat) (s : asg) : Prop :=
  if is_complex fb f then Pderivc d deps f s else Pderiv fb d deps s.

Lemma step_deriv_any d deps f :
  In (FDerivation d deps f) (fl_constraints fb) ->
  forall fresh ct, (GZ < fresh)%Z -> apply_constraint fb (FDerivation d deps f) fresh = COk ct ->
  exists ext, DefinesA (fresh - 1) (ct_fresh ct - 1) (ct_clauses ct) (ct_requests ct) ext (Pderiv_any d deps f).
Proof.
  intros Hin fresh ct Hfr E. unfold Pderiv_any. destruct (is_complex fb f) eqn:Hcx.
  - exact (step_derivc d deps f Hin Hcx fresh ct Hfr E).
  - exact (step_deriv fb HF1 HT d deps f Hin Hcx fresh ct Hfr E).
Qed.

Lemma deriv_total d deps f fresh :
  In (FDerivation d deps f) (fl_constraints fb) -> exists ct, apply_constraint fb (FDerivation d deps f) fresh = COk ct.
Proof.
  intros Hin. apply (deriv_iff fb HF1) in Hin. destruct Hin as (l & fd & w & lv & D & -> & ->).
  destruct (is_complex fb f) eqn:Hcx.
  - rewrite (apply_derivc_eq f l fd w lv fresh D Hcx). apply tseitin_contrib_total.
  - rewrite (apply_deriv_eq fb HF1 HT fresh D Hcx). apply tseitin_contrib_total.
Qed.

End F1DerivC.

Check step_derivc.
Print Assumptions step_derivc.
