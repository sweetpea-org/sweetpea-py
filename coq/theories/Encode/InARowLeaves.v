(** Leaves of the formulas emitted by the AtLeastKInARow / ExactlyKInARow
    encoders: every leaf is the Z image of one of the variables of the window
    list, in particular never the default 0 of the [nth _ _ 0], [last _ 0],
    [hd 0] calls of the definitions in Encode/Compile.v. *)
From Coq Require Import ZArith List Bool Lia Arith.
From SP Require Import Base.Sat Logic.Formula Encode.Compile Encode.Runs Encode.InARow.
Import ListNotations.
Close Scope Z_scope.
Open Scope nat_scope.

Definition GoodF (vl : list nat) (f : fm) : Prop := incl (leaves f) (map Z.of_nat vl).
Definition GoodL (vl : list nat) (l : list fm) : Prop := Forall (GoodF vl) l.

Lemma goodF_fv vl v : In v vl -> GoodF vl (fv v).
Proof. intros H z [<-|[]]. now apply in_map. Qed.

Lemma goodF_not vl f : GoodF vl f -> GoodF vl (FNot f).
Proof. exact (fun H => H). Qed.

Lemma goodF_if vl p q : GoodF vl p -> GoodF vl q -> GoodF vl (FIf p q).
Proof. apply incl_app. Qed.

Lemma goodF_iff vl p q : GoodF vl p -> GoodF vl q -> GoodF vl (FIff p q).
Proof. apply incl_app. Qed.

Lemma goodF_and vl l : GoodL vl l -> GoodF vl (FAnd l).
Proof.
  intros H z Hz. apply in_flat_map in Hz. destruct Hz as (f & Hf & Hz).
  exact (proj1 (Forall_forall _ _) H f Hf z Hz).
Qed.

Lemma goodF_or vl l : GoodL vl l -> GoodF vl (FOr l).
Proof. exact (goodF_and vl l). Qed.

Lemma goodL_nil vl : GoodL vl [].
Proof. constructor. Qed.

Lemma goodL_cons vl f l : GoodF vl f -> GoodL vl l -> GoodL vl (f :: l).
Proof. now constructor. Qed.

Lemma goodL_app vl l1 l2 : GoodL vl l1 -> GoodL vl l2 -> GoodL vl (l1 ++ l2).
Proof. intros H1 H2. now apply Forall_app. Qed.

Lemma goodL_map A vl (g : A -> fm) (l : list A) :
  (forall x, In x l -> GoodF vl (g x)) -> GoodL vl (map g l).
Proof. intros H. now apply Forall_map, Forall_forall. Qed.

Lemma goodL_map_fv vl w : incl w vl -> GoodL vl (map fv w).
Proof. intros H. apply goodL_map. intros x Hx. apply goodF_fv, H, Hx. Qed.

Lemma goodL_adj vl g w :
  (forall a b, In a vl -> In b vl -> GoodF vl (g a b)) -> incl w vl -> GoodL vl (adj_map g w).
Proof.
  intros Hg. induction w as [|a [|b r] IH]; intros H; [constructor..|].
  apply goodL_cons; [|apply IH; intros x Hx; apply H; now right].
  apply Hg; apply H; simpl; auto.
Qed.

Lemma goodL_not_pairs vl w : incl w vl -> GoodL vl (not_pairs w).
Proof. apply (goodL_adj vl (fun a b => FIf (FNot (fv a)) (FNot (fv b)))). intros a b Ha Hb. now apply goodF_if; apply goodF_fv. Qed.

Lemma goodL_tail_impls vl w : incl w vl -> GoodL vl (tail_impls w).
Proof. apply (goodL_adj vl (fun a b => FIf (fv a) (fv b))). intros a b Ha Hb. now apply goodF_if; apply goodF_fv. Qed.

(** the [match ql with [x] => x | _ => FAnd ql end] of [ekr_impls] *)
Lemma goodF_single_or_and vl ql : GoodL vl ql -> GoodF vl (match ql with [x] => x | _ => FAnd ql end).
Proof. intros H. destruct ql as [|x [|y r]]; [|exact (Forall_inv H)|]; now apply goodF_and. Qed.

Lemma incl_skipn_l A n (l m : list A) : incl l m -> incl (skipn n l) m.
Proof. intros H x Hx. apply H. rewrite <- (firstn_skipn n l). apply in_or_app. now right. Qed.

Lemma incl_tl_l A (l m : list A) : incl l m -> incl (tl l) m.
Proof. destruct l; [auto|]. apply (incl_skipn_l A 1). Qed.

Lemma incl_removelast_l A (l m : list A) : incl l m -> incl (removelast l) m.
Proof.
  intros H x Hx. apply H. destruct l as [|a l]; [destruct Hx|].
  rewrite (app_removelast_last a (l := a :: l)) by discriminate. apply in_or_app. now left.
Qed.

Lemma incl_rev_l A (l m : list A) : incl l m -> incl (rev l) m.
Proof. intros H x Hx. apply H, in_rev, Hx. Qed.

Lemma last_In : forall A (l : list A) d, l <> [] -> In (last l d) l.
Proof.
  intros A l d H. rewrite (app_removelast_last d H) at 2. apply in_or_app. right. now left.
Qed.

Lemma windows_members : forall L (vl w : list nat),
  In w (windows L vl) -> length w = L /\ incl w vl.
Proof.
  intros L vl w H. split; [exact (windows_length _ _ _ _ H)|].
  apply windows_spec in H. destruct H as [i [_ [_ Hw]]]. subst w.
  intros x Hx. rewrite <- (firstn_skipn i vl). apply in_or_app. right.
  rewrite <- (firstn_skipn L (skipn i vl)). apply in_or_app. now left.
Qed.

Section Wins.
Variable vl : list nat.
Variable L : nat.
Variable subs : list (list nat).
Hypothesis HW : forall w, In w subs -> length w = L /\ incl w vl.

Lemma win_nth : forall w j, In w subs -> j < L -> In (nth j w 0) vl.
Proof.
  intros w j Hw Hj. destruct (HW w Hw) as [Hlen Hinc].
  apply Hinc. apply nth_In. lia.
Qed.

Lemma win_last : forall w, In w subs -> 0 < L -> In (last w 0) vl.
Proof.
  intros w Hw HL. destruct (HW w Hw) as [Hlen Hinc].
  apply Hinc. apply last_In. intro E. subst w. simpl in Hlen. lia.
Qed.

Lemma win_incl : forall w, In w subs -> incl w vl.
Proof. intros w Hw. exact (proj2 (HW w Hw)). Qed.

Lemma win_nth_sub : forall i, i < length subs -> In (nth i subs []) subs.
Proof. intros i Hi. apply nth_In. exact Hi. Qed.

Lemma win_last_sub : subs <> [] -> In (last subs []) subs.
Proof. intro H. apply last_In. exact H. Qed.

End Wins.

(** The formulas below are nested a few constructors deep; which constructor
    applies is read off the formula, and the leaves are [nth]/[last] entries or
    sub-lists of a window.  The hints are exactly the lemmas above. *)
Create HintDb good discriminated.
#[local] Hint Resolve goodF_fv goodF_not goodF_if goodF_iff goodF_and goodF_or goodF_single_or_and
  goodL_nil goodL_cons goodL_app goodL_map_fv goodL_not_pairs goodL_tail_impls
  incl_skipn_l incl_tl_l incl_removelast_l incl_rev_l : good.
#[local] Hint Extern 1 (_ < _) => lia : good.

Lemma atleast_good : forall k vl subs, 0 < k ->
  (forall w, In w subs -> length w = S k /\ incl w vl) ->
  GoodL vl (atleast_impls k vl subs).
Proof.
  intros k vl subs Hk HW.
  pose proof (win_nth vl (S k) subs HW) as Hn. pose proof (win_incl vl (S k) subs HW) as Hi.
  destruct subs as [|first rest]; unfold atleast_impls.
  - destruct (length vl =? k) eqn:E; apply goodL_map; intros x Hx; auto with good.
    apply Nat.eqb_eq in E. apply goodF_iff; apply goodF_fv; [|now apply (incl_tl_l _ vl vl (incl_refl vl))].
    destruct vl; [simpl in E; lia|now left].
  - cbv zeta.
    assert (Hfirst : In first (first :: rest)) by now left.
    assert (Hlst : In (last (first :: rest) []) (first :: rest)) by (apply last_In; discriminate).
    set (lst := last (first :: rest) []) in *. set (ss := first :: rest) in *.
    destruct (1 <? length ss);
      (apply goodL_cons; [|apply goodL_app; [apply goodL_map; intros w Hw|]]); auto 12 with good.
Qed.

Lemma atleast_impls_leaves : forall k vl z, 0 < k ->
  In z (leaves (FAnd (atleast_impls k vl (windows (S k) vl)))) ->
  exists v, In v vl /\ z = Z.of_nat v.
Proof.
  intros k vl z Hk Hz.
  apply (goodF_and vl _ (atleast_good k vl _ Hk (fun w => windows_members _ _ w))), in_map_iff in Hz.
  destruct Hz as (v & <- & Hv). now exists v.
Qed.

Lemma ekr_one_good : forall k vl subs idx, 0 < k ->
  (forall w, In w subs -> length w = k /\ incl w vl) ->
  idx < length subs ->
  GoodF vl (ekr_one k subs idx).
Proof.
  intros k vl subs idx Hk HW Hidx. unfold ekr_one, ekr_guard, ekr_body. cbv zeta.
  pose proof (win_nth vl k subs HW) as Hn. pose proof (win_incl vl k subs HW) as Hi.
  pose proof (fun w H => win_last vl k subs HW w H Hk) as Hl.
  assert (Hs : forall i, i < length subs -> In (nth i subs []) subs) by (intros; now apply nth_In).
  apply goodF_if.
  - destruct (idx =? 0) eqn:E0; [|apply Nat.eqb_neq in E0]; auto 8 with good.
  - destruct (idx <? length subs - 1) eqn:E1; [apply Nat.ltb_lt in E1; auto 10 with good|].
    destruct (tl (nth idx subs [])) as [|a [|b r]] eqn:Et; [auto with good..|].
    rewrite <- Et. auto 8 with good.
Qed.

Lemma ekr_good : forall k vl subs, 0 < k -> subs <> [] ->
  (forall w, In w subs -> length w = k /\ incl w vl) ->
  GoodL vl (ekr_impls k subs).
Proof.
  intros k vl subs Hk Hne HW. change (ekr_impls k subs) with
    (map (ekr_one k subs) (seq 0 (if 1 <? k then length subs else length subs - 1))
     ++ (if 1 <? length (last subs []) then tail_impls (rev (last subs [])) else [])).
  pose proof (win_incl vl k subs HW _ (last_In _ subs [] Hne)) as Hi.
  apply goodL_app; [|destruct (1 <? length (last subs [])); auto with good].
  apply goodL_map. intros idx Hidx. apply in_seq in Hidx.
  apply ekr_one_good; [exact Hk|exact HW|destruct (1 <? k); lia].
Qed.

Lemma ekr_window_leaves : forall k vl z, 0 < k ->
  In z (leaves (FAnd (ekr_window k vl))) -> exists v, In v vl /\ z = Z.of_nat v.
Proof.
  intros k vl z Hk Hz.
  assert (G : GoodL vl (ekr_window k vl)).
  { unfold ekr_window. destruct (windows k vl) as [|w0 r] eqn:E.
    - apply goodL_map. auto with good.
    - apply ekr_good; [exact Hk|discriminate|]. intros w Hw. rewrite <- E in Hw. exact (windows_members _ _ _ Hw). }
  apply (goodF_and vl _ G), in_map_iff in Hz. destruct Hz as (v & <- & Hv). now exists v.
Qed.

Print Assumptions atleast_impls_leaves.
Print Assumptions ekr_window_leaves.
