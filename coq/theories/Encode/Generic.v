(** The generic step from a backend request to the formula handed to the
    solver: [combine_cnf_with_requests] turns every low-level request into a
    definitional block (pop-count / comparator circuits) plus assertion
    clauses.  So the final CNF has, for each assignment of the variables below
    [b_fresh], a satisfying extension iff the clauses of the request hold and
    every request relation [count vs (EQ|LT|GT) k] holds - and that extension
    is unique.  Rests on [CardProofs.request_spec] (the cardinality theorem). *)
From Coq Require Import ZArith List Bool Lia.
From SP Require Import Base.Sat Base.Bits Core.CnfModel Core.Card Core.CnfProofs Core.CardProofs.
From SP Require Import Encode.Compile.
Import ListNotations.
Open Scope Z_scope.

Definition req_rel (s : asg) (r : req) : Prop :=
  let '(kd, k, vs) := r in rel kd (count s vs) k.

Definition br_sem (s : asg) (b : backend) : Prop :=
  sat s (b_clauses b) = true /\ Forall (req_rel s) (b_requests b).

(** a request the cardinality encoders accept: non-negative k, non-empty
    variable list (the code raises ValueError otherwise), variables in 1..n *)
Definition req_ok (n : Z) (r : req) : Prop :=
  let '(kd, k, vs) := r in 0 <= k /\ vs <> [] /\ Forall (inr n) vs.

Lemma req_ok_le n m r : n <= m -> req_ok n r -> req_ok m r.
Proof.
  destruct r as [[kd k] vs]. intros H (A & B & C). repeat split; try assumption.
  now apply (Forall_inr_le n).
Qed.

Lemma req_rel_agree n s t r : agree_upto n s t -> req_ok n r -> (req_rel s r <-> req_rel t r).
Proof.
  destruct r as [[kd k] vs]. intros A (_ & _ & C). cbn [req_rel].
  now rewrite (count_agree n s t vs A C).
Qed.

Lemma Forall_req_rel_agree n s t rs :
  agree_upto n s t -> Forall (req_ok n) rs -> (Forall (req_rel s) rs <-> Forall (req_rel t) rs).
Proof.
  intros A H. induction H as [|r rs Hr _ IH]; [split; constructor|].
  split; intros F; inversion F; subst; constructor;
    try (apply (req_rel_agree n s t r A Hr); assumption); now apply IH.
Qed.

Lemma run_requests_spec rs : forall n,
  0 <= n -> Forall (req_ok n) rs ->
  exists n' new defs asrt ext,
    (forall cs, run_requests rs (mk n cs) = (true, mk n' (cs ++ new))) /\
    (forall s, sat s new = sat s defs && sat s asrt) /\
    vars_upto n' new /\
    Defines n n' defs ext /\
    (forall s, sat s defs = true -> (sat s asrt = true <-> Forall (req_rel s) rs)).
Proof.
  induction rs as [|[[kd k] vs] rs IH]; intros n Hn Hok.
  - exists n, [], [], [], (fun s => s). split; [|split; [|split; [|split]]].
    + intros cs. cbn [run_requests]. unfold ret. now rewrite app_nil_r.
    + reflexivity.
    + intros c l [].
    + now apply defines_nil.
    + intros s _. split; constructor.
  - inversion Hok as [|? ? Hr Hrs]; subst. destruct Hr as (Hk & Hne & Hvs).
    destruct (request_spec n kd k vs Hn Hk Hne Hvs)
      as (b & n1 & d1 & a1 & e1 & R1 & D1 & V1 & Hb & Hiff). subst b.
    pose proof (def_range _ _ _ _ D1) as Rg1.
    destruct (IH n1 ltac:(lia)) as (n' & newT & dT & aT & eT & RT & ST & VT & DT & HT).
    { eapply Forall_impl; [|exact Hrs]. intros r. apply req_ok_le. lia. }
    pose proof (def_range _ _ _ _ DT) as RgT.
    exists n', ((d1 ++ a1) ++ newT), (d1 ++ dT), (a1 ++ aT), (fun s => eT (e1 s)).
    split; [|split; [|split; [|split]]].
    + intros cs. cbn [run_requests]. unfold bind. rewrite R1, RT. now rewrite <- !app_assoc.
    + intros s. rewrite !sat_app, ST.
      destruct (sat s d1), (sat s a1), (sat s dT), (sat s aT); reflexivity.
    + apply vars_upto_app; [apply vars_upto_app|exact VT].
      * apply (vars_upto_le n1); [lia|apply (def_vars _ _ _ _ D1)].
      * apply (vars_upto_le n1); [lia|exact V1].
    + now apply (defines_seq n n1 n').
    + intros s Hs. rewrite sat_app, andb_true_iff in Hs. destruct Hs as [Hs1 HsT].
      rewrite sat_app, andb_true_iff, (Hiff s Hs1), (HT s HsT). split.
      * intros [A B]. now constructor.
      * intros F. inversion F; subst. now split.
Qed.

(** * The generic step: what the final CNF of a backend request denotes *)
Theorem full_cnf_denotes b :
  1 <= b_fresh b ->
  Forall (req_ok (b_fresh b - 1)) (b_requests b) ->
  vars_upto (b_fresh b - 1) (b_clauses b) ->
  exists n' final,
    full_cnf b = (true, n', final) /\ b_fresh b - 1 <= n' /\ vars_upto n' final /\
    (forall s, (exists t, agree_upto (b_fresh b - 1) s t /\ sat t final = true) <-> br_sem s b) /\
    (forall t1 t2, agree_upto (b_fresh b - 1) t1 t2 ->
       sat t1 final = true -> sat t2 final = true -> agree_upto n' t1 t2).
Proof.
  intros Hf Hok Hv. set (n := b_fresh b - 1) in *.
  destruct (run_requests_spec (b_requests b) n ltac:(lia) Hok)
    as (n' & new & defs & asrt & ext & R & S & V & D & H).
  pose proof (def_range _ _ _ _ D) as Rg.
  exists n', (new ++ b_clauses b). split; [|split; [lia|split]].
  - unfold full_cnf, combine_requests. fold n. change {| next := n; cls := [] |} with (mk n []).
    rewrite R. reflexivity.
  - apply vars_upto_app; [exact V|]. apply (vars_upto_le n); [lia|exact Hv].
  - apply (ext_on_models n n' ext (fun t => sat t (new ++ b_clauses b) = true) (fun s => br_sem s b)
             (defines_ext_on _ _ _ _ D)).
    + intros s. unfold br_sem. rewrite sat_app, S, !andb_true_iff, <- (def_sat _ _ _ _ D).
      pose proof (H s). tauto.
    + intros s t A. unfold br_sem.
      rewrite (sat_agree n s t _ A Hv), (Forall_req_rel_agree n s t _ A Hok). reflexivity.
Qed.

(** every variable 1..n' of the final formula is either below [b_fresh] or
    defined by the cardinality circuits: nothing above [n'] is mentioned *)
Corollary full_cnf_vars b n' final :
  1 <= b_fresh b ->
  Forall (req_ok (b_fresh b - 1)) (b_requests b) ->
  vars_upto (b_fresh b - 1) (b_clauses b) ->
  full_cnf b = (true, n', final) -> vars_upto n' final.
Proof.
  intros Hf Hok Hv E. destruct (full_cnf_denotes b Hf Hok Hv) as (n1 & f1 & E1 & _ & V & _).
  rewrite E in E1. inversion E1. now subst.
Qed.
