(** Compositional reading of a backend request (DESIGN.md 3.1).

    [DefinesA lo hi cls reqs ext P]: the clauses and requests one constraint
    contributes mention only variables 1..hi, and hold under [s] exactly when
    the variables lo+1..hi of [s] carry the values [ext s] computes for them
    from the variables 1..lo *and* the assertion [P s] holds.  Contributions in
    sequence compose ([definesA_seq]); the whole request of [apply_all] is one
    such block over the trial variables ([apply_all_block]).  Per-kind
    instances: request-only kinds, unit-clause kinds, everything that goes
    through [cnf_fn] (Tseitin). *)
From Coq Require Import ZArith List Bool Lia.
From SP Require Import Base.Sat Base.Bits Core.Card Core.CardProofs.
From SP Require Import Logic.Formula Logic.Tseitin Logic.TseitinProofs.
From SP Require Import Design.Flat Encode.Compile Encode.Generic.
Import ListNotations.
Open Scope Z_scope.

Definition ct_sem (s : asg) (cls : cnf) (reqs : list req) : Prop :=
  sat s cls = true /\ Forall (req_rel s) reqs.

Record DefinesA (lo hi : Z) (cls : cnf) (reqs : list req) (ext : asg -> asg) (P : asg -> Prop) : Prop := {
  da_range : 0 <= lo <= hi;
  da_vars : vars_upto hi cls;
  da_reqs : Forall (req_ok hi) reqs;
  da_sem : forall s, ct_sem s cls reqs <-> (forall v, lo < v <= hi -> s v = ext s v) /\ P s;
  da_out : forall s v, ~ (lo < v <= hi) -> ext s v = s v;
  da_local : forall s t, agree_upto lo s t -> forall v, lo < v <= hi -> ext s v = ext t v
}.

Lemma ct_sem_app s c1 c2 r1 r2 :
  ct_sem s (c1 ++ c2) (r1 ++ r2) <-> ct_sem s c1 r1 /\ ct_sem s c2 r2.
Proof.
  unfold ct_sem. rewrite sat_app, andb_true_iff, Forall_app. tauto.
Qed.

Lemma definesA_ext_on lo hi cls reqs ext P : DefinesA lo hi cls reqs ext P -> ext_on lo hi ext.
Proof. intros D. split; apply D. Qed.

Lemma definesA_seq lo mid hi c1 r1 e1 P1 c2 r2 e2 P2 :
  DefinesA lo mid c1 r1 e1 P1 -> DefinesA mid hi c2 r2 e2 P2 ->
  DefinesA lo hi (c1 ++ c2) (r1 ++ r2) (fun s => e2 (e1 s)) (fun s => P1 s /\ P2 s).
Proof.
  intros D1 D2.
  pose proof (da_range _ _ _ _ _ _ D1) as R1. pose proof (da_range _ _ _ _ _ _ D2) as R2.
  destruct (ext_glue lo mid hi e1 e2 R1 (proj2 R2) (definesA_ext_on _ _ _ _ _ _ D1) (definesA_ext_on _ _ _ _ _ _ D2))
    as [[O L] S].
  constructor; [lia| | | |exact O|exact L].
  - apply vars_upto_app; [|apply (da_vars _ _ _ _ _ _ D2)].
    apply (vars_upto_le mid); [lia|apply (da_vars _ _ _ _ _ _ D1)].
  - apply Forall_app. split; [|apply (da_reqs _ _ _ _ _ _ D2)].
    eapply Forall_impl; [|apply (da_reqs _ _ _ _ _ _ D1)]. intros r. apply req_ok_le. lia.
  - intros s. rewrite ct_sem_app, (da_sem _ _ _ _ _ _ D1), (da_sem _ _ _ _ _ _ D2), S. tauto.
Qed.

(** a block whose assertion pins further variables lo+1..mid by equations
    [s v = e1 s v] (the state variables of [Cross], asserted through Iff's):
    they join the defined variables *)
Lemma definesA_absorb lo mid hi cls reqs e1 e2 (P1 P2 : asg -> Prop) :
  0 <= lo <= mid ->
  (forall s v, ~ (lo < v <= mid) -> e1 s v = s v) ->
  (forall s t, agree_upto lo s t -> forall v, lo < v <= mid -> e1 s v = e1 t v) ->
  DefinesA mid hi cls reqs e2 P2 ->
  (forall s, P2 s <-> (forall v, lo < v <= mid -> s v = e1 s v) /\ P1 s) ->
  DefinesA lo hi cls reqs (fun s => e2 (e1 s)) P1.
Proof.
  intros R1 O1 L1 D2 HP. pose proof (da_range _ _ _ _ _ _ D2) as R2.
  destruct (ext_glue lo mid hi e1 e2 R1 (proj2 R2) (conj O1 L1) (definesA_ext_on _ _ _ _ _ _ D2)) as [[O L] S].
  constructor; [lia|apply D2|apply D2| |exact O|exact L].
  intros s. rewrite (da_sem _ _ _ _ _ _ D2), HP, S. tauto.
Qed.

Lemma definesA_conseq lo hi cls reqs ext (P Q : asg -> Prop) :
  DefinesA lo hi cls reqs ext P -> (forall s, P s <-> Q s) -> DefinesA lo hi cls reqs ext Q.
Proof.
  intros D H. constructor; try apply D.
  intros s. rewrite (da_sem _ _ _ _ _ _ D). now rewrite H.
Qed.

(** what a block over the variables above [lo] says about assignments of 1..lo *)
Lemma definesA_models lo hi cls reqs ext P :
  DefinesA lo hi cls reqs ext P ->
  (forall s t, agree_upto lo s t -> (P s <-> P t)) ->
  (forall s, (exists t, agree_upto lo s t /\ ct_sem t cls reqs) <-> P s) /\
  (forall t1 t2, agree_upto lo t1 t2 -> ct_sem t1 cls reqs -> ct_sem t2 cls reqs -> agree_upto hi t1 t2).
Proof.
  intros D. apply (ext_on_models lo hi ext (fun t => ct_sem t cls reqs) P (definesA_ext_on _ _ _ _ _ _ D)), D.
Qed.

(** kinds that add no variables: requests or raw clauses on existing ones *)
Lemma definesA_plain lo cls reqs :
  0 <= lo -> vars_upto lo cls -> Forall (req_ok lo) reqs ->
  DefinesA lo lo cls reqs (fun s => s) (fun s => ct_sem s cls reqs).
Proof.
  intros H Hv Hr. constructor; [lia|exact Hv|exact Hr| |reflexivity|intros s t _ v Hv'; lia].
  intros s. split; [intros C; split; [intros v Hv'; lia|exact C]|tauto].
Qed.

Lemma definesA_nil lo : 0 <= lo -> DefinesA lo lo [] [] (fun s => s) (fun _ => True).
Proof.
  intros H. apply (definesA_conseq _ _ _ _ _ _ _ (definesA_plain lo [] [] H (fun c l F => match F with end) (Forall_nil _))).
  intros s. split; [exact (fun _ => I)|intros _; split; [reflexivity|constructor]].
Qed.

Lemma definesA_requests lo reqs :
  0 <= lo -> Forall (req_ok lo) reqs ->
  DefinesA lo lo [] reqs (fun s => s) (fun s => Forall (req_rel s) reqs).
Proof.
  intros H Hr. apply (definesA_conseq _ _ _ _ _ _ _ (definesA_plain lo [] reqs H (fun c l F => match F with end) Hr)).
  intros s. split; [now intros [_ F]|now split].
Qed.

Lemma definesA_clauses lo cls :
  0 <= lo -> vars_upto lo cls ->
  DefinesA lo lo cls [] (fun s => s) (fun s => sat s cls = true).
Proof.
  intros H Hv. apply (definesA_conseq _ _ _ _ _ _ _ (definesA_plain lo cls [] H Hv (Forall_nil _))).
  intros s. split; [now intros [S _]|intros S; split; [exact S|constructor]].
Qed.

(** everything that goes through [block.cnf_fn]: the Tseitin variables are
    defined, the formula is asserted *)
Lemma definesA_tseitin fs fresh cls fresh' :
  1 <= fresh ->
  (forall z, In z (leaves (FAnd fs)) -> z <> 0 /\ Z.abs z < fresh) ->
  cnf_fn fs fresh = (cls, fresh') ->
  exists ext, DefinesA (fresh - 1) (fresh' - 1) cls [] ext (fun s => eval s (FAnd fs) = true).
Proof.
  intros Hf HL E. unfold cnf_fn in E.
  destruct (tseitin_block (FAnd fs) fresh cls fresh' Hf HL E) as (ext & [O L] & Hle & VU & HS).
  exists ext. constructor; [lia|exact VU|constructor| |exact O|exact L].
  intros s. unfold ct_sem. rewrite <- HS. split; [now intros [H _]|intros H; split; [exact H|constructor]].
Qed.

(** * The fold of [build_backend_request] *)
Section Fold.
Variable fb : flat.
Variable Pc : fconstraint -> asg -> Prop.
Variable G : Z.   (* the trial variables are 1..G; fresh starts at G+1 *)

Definition step_ok (c : fconstraint) : Prop :=
  forall fresh ct, G < fresh -> apply_constraint fb c fresh = COk ct ->
    exists ext, DefinesA (fresh - 1) (ct_fresh ct - 1) (ct_clauses ct) (ct_requests ct) ext (Pc c).

Lemma apply_all_block cs : forall b0 b e0 P0,
  Forall step_ok cs ->
  DefinesA G (b_fresh b0 - 1) (b_clauses b0) (b_requests b0) e0 P0 ->
  apply_all fb cs b0 = COk b ->
  exists ext, DefinesA G (b_fresh b - 1) (b_clauses b) (b_requests b) ext
                       (fun s => P0 s /\ Forall (fun c => Pc c s) cs).
Proof.
  induction cs as [|c cs IH]; intros b0 b e0 P0 Hs D0 E.
  - cbn [apply_all] in E. inversion E. subst b. exists e0.
    apply (definesA_conseq _ _ _ _ _ P0); [exact D0|]. intros s. split; [intros H; split; [exact H|constructor]|tauto].
  - cbn [apply_all] in E. inversion Hs as [|? ? Hc Hcs]; subst.
    destruct (apply_constraint fb c (b_fresh b0)) as [ct|e] eqn:Ec; cbn [cbind] in E; [|discriminate].
    pose proof (da_range _ _ _ _ _ _ D0) as R0.
    destruct (Hc (b_fresh b0) ct ltac:(lia) Ec) as (e1 & D1).
    pose proof (definesA_seq _ _ _ _ _ _ _ _ _ _ _ D0 D1) as D01.
    destruct (IH {| b_fresh := ct_fresh ct; b_clauses := b_clauses b0 ++ ct_clauses ct;
                     b_requests := b_requests b0 ++ ct_requests ct |} b _ _ Hcs D01 E) as (ext & D).
    exists ext. apply (definesA_conseq _ _ _ _ _ _ _ D). intros s. split.
    + intros [[A B] C]. split; [exact A|]. now constructor.
    + intros [A F]. inversion F; subst. tauto.
Qed.

Theorem compile_block b :
  G = zn (Layout.variables_per_sample fb) ->
  Forall step_ok (fl_constraints fb) ->
  compile fb = COk b ->
  exists ext, DefinesA G (b_fresh b - 1) (b_clauses b) (b_requests b) ext
                       (fun s => Forall (fun c => Pc c s) (fl_constraints fb)).
Proof.
  intros EG Hs E. unfold compile in E. rewrite <- EG in E.
  assert (HG : 0 <= G) by (rewrite EG; unfold zn; lia).
  destruct (apply_all_block (fl_constraints fb) {| b_fresh := 1 + G; b_clauses := []; b_requests := [] |}
                            b (fun s => s) (fun _ => True) Hs) as (ext & D).
  - cbn [b_fresh b_clauses b_requests]. replace (1 + G - 1) with G by lia. now apply definesA_nil.
  - exact E.
  - exists ext. apply (definesA_conseq _ _ _ _ _ _ _ D). intros s. tauto.
Qed.
End Fold.

(** * From the block to the final formula: the generic step ([Generic.full_cnf_denotes]) applied to a compiled request *)
Theorem block_full_cnf G b ext P :
  DefinesA G (b_fresh b - 1) (b_clauses b) (b_requests b) ext P ->
  (forall s t, agree_upto G s t -> (P s <-> P t)) ->
  exists n' final,
    full_cnf b = (true, n', final) /\ b_fresh b - 1 <= n' /\ vars_upto n' final /\
    (forall s, (exists t, agree_upto G s t /\ sat t final = true) <-> P s) /\
    (forall t1 t2, agree_upto G t1 t2 -> sat t1 final = true -> sat t2 final = true -> agree_upto n' t1 t2).
Proof.
  intros D L. pose proof (da_range _ _ _ _ _ _ D) as R.
  destruct (full_cnf_denotes b ltac:(lia) (da_reqs _ _ _ _ _ _ D) (da_vars _ _ _ _ _ _ D))
    as (n' & final & E & Hn & V & Hsem & Huniq).
  destruct (definesA_models _ _ _ _ _ _ D L) as [M U].
  exists n', final. split; [exact E|]. split; [exact Hn|]. split; [exact V|]. split.
  - intros s. rewrite <- M. split.
    + intros (t & A & St).
      destruct (proj1 (Hsem t) (ex_intro _ t (conj (agree_upto_refl _ t) St))) as [Sc Fr].
      exists t. split; [exact A|]. now split.
    + intros (t & A & [Sc Fr]).
      destruct (proj2 (Hsem t) (conj Sc Fr)) as (u & Au & Su).
      exists u. split; [|exact Su]. apply (agree_upto_trans _ _ t); [exact A|].
      apply (agree_upto_le (b_fresh b - 1)); [lia|exact Au].
  - intros t1 t2 A S1 S2. apply Huniq; [|exact S1|exact S2].
    apply U; [exact A| |].
    + apply (Hsem t1). exists t1. split; [apply agree_upto_refl|exact S1].
    + apply (Hsem t2). exists t2. split; [apply agree_upto_refl|exact S2].
Qed.
