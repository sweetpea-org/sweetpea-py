(** No trial of a grid that satisfies the Exclude constraints and the
    derivations shows a combination the crossing leaves out
    ([is_excluded_or_inconsistent_combination]): an excluded (factor, level)
    never occurs, and a derived level whose predicate accepts no argument tuple
    compatible with the combination cannot be the value of its factor in a trial
    showing the combination.  This is what makes the chunked counts of [Cross]
    (over the admitted combinations only) agree with the reference semantics,
    which requires every crossing trial to show an admitted combination. *)
From Coq Require Import ZArith List Bool Arith Lia.
From SP Require Import Base.Lists Base.Sat.
From SP Require Import Design.Flat Design.Layout Design.Sem.
From SP Require Import Encode.Compile Encode.CodeSem Encode.Runs Encode.GridLemmas Encode.LayoutF1 Encode.F1Lists
     Encode.F1Kinds Encode.F1Cross Encode.F1Deriv Encode.F1Sem Encode.F1CrossSem Encode.F1DerivSem.
Import ListNotations.
Close Scope Z_scope.
Open Scope nat_scope.

Section F1Excl.
Variable fb : flat.
Hypothesis HF1 : in_f1 fb = true.
Hypothesis HT : 0 < T fb.

Notation Facts := (in_f1_facts fb HF1).

Lemma lookup_in di f l : lookup_level di f = Some l -> In (f, l) di.
Proof.
  unfold lookup_level. destruct (find (fun p => fst p =? f) di) as [[f' l']|] eqn:E; [|discriminate].
  cbn [option_map snd]. intros Q. inversion Q. subst l'. apply find_some in E. destruct E as [Hin Hf].
  cbn [fst] in Hf. apply Nat.eqb_eq in Hf. now subst f'.
Qed.

Lemma level_is_in di p : level_is di p = true -> In p di.
Proof.
  destruct p as [f l]. unfold level_is. cbn [fst snd]. destruct (lookup_level di f) as [l'|] eqn:El; [|discriminate].
  intros H. apply Nat.eqb_eq in H. subst l'. exact (lookup_in di f l El).
Qed.

(** an excluded level is not the cell of any trial *)
Lemma pexclude_cell s q f l t :
  onehot fb s q -> Pexclude fb f l s -> t < T fb -> isact fb f = true -> lappl fb f t = true -> l < nlevels fb f ->
  get_cell q f t <> Some l.
Proof.
  intros Ho Hex Ht Hf Hap Hl Ec. unfold Pexclude in Hex. apply ntrue_all_false in Hex. unfold F1Kinds.col in Hex.
  rewrite Forall_map in Hex.
  pose proof (Forall_In _ _ _ Hex (proj2 (in_trials_of fb f 0 (T fb) t) (conj (conj (Nat.le_0_l _) Ht) Hap))) as Hb.
  cbv beta in Hb. rewrite (onehot_bit fb s q t f l Ho Ht Hf Hap Hl), Ec, is_level_some, Nat.eqb_refl in Hb. discriminate.
Qed.

(** trial [t] shows the combination [di]: the cells of its factors are its levels *)
Definition shows (q : tseq) (di : list (nat * nat)) (t : nat) : Prop :=
  forall f l, In (f, l) di -> isact fb f = true /\ l < nlevels fb f /\ get_cell q f t = Some l /\ lappl fb f t = true.

Lemma cbit_shows s q c di t :
  onehot fb s q -> Forall (fun g => isact fb g = true) c -> Forall (fun g => lappl fb g t = true) c ->
  In di (crossing_combos fb c) -> t < T fb -> cbit fb s di t = true -> shows q di t.
Proof.
  intros Ho Hc Hac Hdi Ht Hsh f l Hin. destruct (combos_spec fb HF1 HT c di Hdi) as [A B].
  assert (Hfc : In f c) by (rewrite <- A; now apply (in_map fst di (f, l))).
  assert (Hf : isact fb f = true) by exact (Forall_In _ _ _ Hc Hfc).
  assert (Hap : lappl fb f t = true) by exact (Forall_In _ _ _ Hac Hfc).
  pose proof (Forall_In _ _ _ B Hin) as Hl. cbn [fst snd] in Hl.
  split; [exact Hf|]. split; [exact Hl|]. split; [|exact Hap].
  unfold cbit in Hsh. rewrite forallb_forall in Hsh. specialize (Hsh (f, l) Hin). cbn [fst snd] in Hsh.
  rewrite (onehot_bit fb s q t f l Ho Ht Hf Hap Hl) in Hsh.
  destruct (onehot_level fb s q t f Ho Ht Hf Hap) as (l0 & _ & El0). rewrite El0 in *. rewrite is_level_some in Hsh.
  apply Nat.eqb_eq in Hsh. now subst.
Qed.

Section Shown.
Variables (s : asg) (q : tseq) (di : list (nat * nat)) (t : nat).
Hypothesis Ho : onehot fb s q.
Hypothesis Hex : forall p, In p (fl_exclude fb) -> Pexclude fb (fst p) (snd p) s.
Hypothesis Hg : F1Sustain.grouped fb q.
Hypothesis Hfo : forall f fd, nth_error (fl_design fb) f = Some fd -> factor_ok (code_sem fb) q f (code_factor fb f fd) = true.
Hypothesis Ht : t < T fb.
Hypothesis Hsh : shows q di t.

Lemma shown_not_excluded : existsb (level_is di) (fl_exclude fb) = false.
Proof.
  apply not_true_is_false. intros H. apply existsb_exists in H. destruct H as ([f l] & Hp & Hl).
  destruct (Hsh f l (level_is_in di (f, l) Hl)) as (Hf & Hlv & Ecell & Hap).
  exact (pexclude_cell s q f l t Ho (Hex (f, l) Hp) Ht Hf Hap Hlv Ecell).
Qed.

(** no combination of basic levels that makes an excluded derived level true *)
Lemma shown_not_excluded_derived : existsb (fun e => forallb (level_is di) e) (fl_excluded_derived fb) = false.
Proof.
  apply not_true_is_false. intros H. apply existsb_exists in H. destruct H as (e & He & Hall).
  rewrite forallb_forall in Hall.
  destruct (f1_no_excluded_derived fb Facts e He) as ([f0 ld] & Hp & Hed).
  unfold excluded_derived_of in Hed. cbn [fst snd] in Hed. unfold factor_at in Hed.
  destruct (nth_error (fl_design fb) f0) as [fd|] eqn:Efd; [|discriminate].
  destruct (ff_window fd) as [w|] eqn:Ew; [|discriminate].
  rewrite !andb_true_iff in Hed. destruct Hed as [[[Ha0 Hcx] Hdeps] Hacc]. apply negb_true_iff in Hcx.
  rewrite forallb_forall in Hdeps.
  assert (Hs0 : sact fb f0 = true) by (apply (sact_split fb); now rewrite (is_complex_at fb f0 fd Efd)).
  (* the cells of the factors it reads are the levels of [e] *)
  assert (Hargs : map (lev q t) (win_deps w) = map (fun d => match lookup_level e d with Some x => x | None => 0 end) (win_deps w)).
  { apply map_ext_in. intros d Hd. specialize (Hdeps d Hd).
    destruct (lookup_level e d) as [x|] eqn:Ee; [|discriminate].
    destruct (Hsh d x (level_is_in di (d, x) (Hall (d, x) (lookup_in e d x Ee)))) as (_ & _ & Ec & _).
    unfold lev. now rewrite Ec. }
  rewrite <- Hargs in Hacc. apply (cell_accepted fb HF1 HT s q f0 fd w t ld Ho Hg Efd Ew Hs0 (Hfo f0 fd Efd) Ht) in Hacc.
  destruct (sact_lappl fb HF1 f0 t Hs0) as [_ Hap0]. destruct (sact_cell fb HF1 s q t f0 Ho Ht Hs0) as (l0 & Hl0 & El0).
  rewrite Hacc in El0. inversion El0. subst l0.
  exact (pexclude_cell s q f0 ld t Ho (Hex (f0, ld) Hp) Ht Ha0 Hap0 Hl0 Hacc).
Qed.

(** the cells of the window factors are a compatible argument tuple that the shown derived level accepts *)
Lemma shown_consistent f l fd w :
  In (f, l) di -> nth_error (fl_design fb) f = Some fd -> ff_window fd = Some w -> ff_complex fd = false ->
  existsb (level_accepts fd l)
          (product (map (fun d => match lookup_level di d with Some x => [x] | None => seq 0 (nlevels fb d) end) (win_deps w))) = true.
Proof.
  intros Hp Efd Ew Hcx. destruct (Hsh f l Hp) as (Hf0 & Hlv & Ecell & _).
  assert (Hf : sact fb f = true) by (apply (sact_split fb); now rewrite (is_complex_at fb f fd Efd)).
  apply (cell_accepted fb HF1 HT s q f fd w t l Ho Hg Efd Ew Hf (Hfo f fd Efd) Ht) in Ecell.
  apply existsb_exists. exists (map (lev q t) (win_deps w)). split; [|exact Ecell].
  apply in_product_lists. intros d Hd. destruct (lookup_level di d) as [x|] eqn:Ed.
  - destruct (Hsh d x (lookup_in di d x Ed)) as (_ & _ & Ec & _). unfold lev. rewrite Ec. now left.
  - pose proof (Forall_In _ _ _ (f1_deps_facts fb HF1 f fd w Efd Ew Hf0) Hd) as Hdn. cbv beta in Hdn.
    destruct (sact_cell fb HF1 s q t d Ho Ht Hdn) as (x & Hx & Ex). unfold lev. rewrite Ex. now apply in_seq0.
Qed.

End Shown.

Theorem no_excluded_shown s q :
  onehot fb s q ->
  (forall p, In p (fl_exclude fb) -> Pexclude fb (fst p) (snd p) s) ->
  forallb (fun p => factor_ok (code_sem fb) q (fst p) (snd p)) (index_list (s_factors (code_sem fb))) = true ->
  NoExcl fb s.
Proof.
  intros Ho Hex Hfo c di t Hc Hac Hdi Ht Hcb.
  pose proof (factors_grouped fb HF1 HT s q Ho Hfo) as Hg. rewrite (factors_ok_iff fb) in Hfo.
  pose proof (cbit_shows s q c di t Ho Hc Hac Hdi Ht Hcb) as Hsh.
  unfold is_excluded_or_inconsistent, is_excluded_combination.
  rewrite (shown_not_excluded s q di t Ho Hex Ht Hsh), (shown_not_excluded_derived s q di t Ho Hex Hg Hfo Ht Hsh).
  apply not_true_is_false. intros H. apply existsb_exists in H. destruct H as ([f l] & Hp & Hbad). cbn [fst snd] in Hbad.
  unfold factor_at in Hbad. destruct (nth_error (fl_design fb) f) as [fd|] eqn:Efd; [|discriminate].
  destruct (ff_window fd) as [w|] eqn:Ew; [|discriminate].
  destruct (ff_complex fd) eqn:Hcx; [discriminate|].
  now rewrite (shown_consistent s q di t Ho Hg Hfo Ht Hsh f l fd w Hp Efd Ew Hcx) in Hbad.
Qed.

End F1Excl.
