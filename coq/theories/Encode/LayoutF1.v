(** Layout arithmetic on the fragment F1 ([CodeSem.in_f1]): [act_design] lists
    some of the design factors in design order, each once (the others,
    "implied", have no variables); a factor of [act_design] is simple /
    WithinTrial (a grid factor: one variable per level and trial) or has a
    complex window (Transition, Window: one variable per level and trial in
    which it applies, numbered after the grid).  A grid factor may be sustained
    (Nest, Repeat); every other factor has sustain count 1.
    The variable of (trial t, factor f, level l) is [gvar fb t f l]. *)
From Coq Require Import ZArith List Bool Arith Lia.
From SP Require Import Base.Lists Design.Flat Design.Layout Encode.Compile Encode.CodeSem.
From SP Require Core.Card.
Import ListNotations.
Close Scope Z_scope.
Open Scope nat_scope.

Definition nf (fb : flat) : nat := length (fl_design fb).
(* grid factors / complex factors of [act_design] *)
Definition sact (fb : flat) (f : nat) : bool := isact fb f && negb (is_complex fb f).
Definition cact (fb : flat) (f : nat) : bool := isact fb f && is_complex fb f.
(* levels that have grid variables: those of the grid factors *)
Definition anl (fb : flat) (f : nat) : nat := if sact fb f then nlevels fb f else 0.
(* sum of the level counts of the grid factors before f *)
Definition off (fb : flat) (f : nat) : nat :=
  fold_left (fun acc g => acc + anl fb g) (seq 0 f) 0.
(* does factor f have a level in (0-based) trial t; how many earlier trials does it have a level in *)
Definition lappl (fb : flat) (f t : nat) : bool := applies_at fb f (S t).
Definition prev (fb : flat) (f t : nat) : nat := previous_trials_count fb f (S t).
Definition napp (fb : flat) (f : nat) : nat := prev fb f (T fb).
(* variables of a complex factor, and the sum over the complex factors before f *)
Definition cnl (fb : flat) (f : nat) : nat := if cact fb f then napp fb f * nlevels fb f else 0.
Definition coff (fb : flat) (f : nat) : nat :=
  fold_left (fun acc g => acc + cnl fb g) (seq 0 f) 0.
(* number of grid variables, of all variables *)
Definition GN (fb : flat) : nat := T fb * vpt fb.
Definition VN (fb : flat) : nat := GN fb + coff fb (nf fb).
(* SAT variable of (0-based trial t, factor f, level l) *)
Definition gvar (fb : flat) (t f l : nat) : nat :=
  if is_complex fb f then GN fb + coff fb f + prev fb f t * nlevels fb f + l + 1
  else t * vpt fb + off fb f + l + 1.

Lemma list_nat_eqb_eq : forall a b, list_nat_eqb a b = true -> a = b.
Proof.
  induction a as [|x a IH]; intros [|y b] H; simpl in H; try discriminate; auto.
  apply andb_true_iff in H. destruct H as [H1 H2].
  apply Nat.eqb_eq in H1. subst y. f_equal. auto.
Qed.

Lemma zrange_map : forall n a, zrange a n = map (fun i => (a + Z.of_nat i)%Z) (seq 0 n).
Proof.
  induction n as [|n IH]; intros a; simpl; auto.
  f_equal; [lia|].
  rewrite <- (seq_shift n 0), map_map, IH. apply map_ext. intros i. lia.
Qed.

Lemma fold_max_zero : forall l, (forall n, In n l -> n = 0) -> fold_left Nat.max l 0 = 0.
Proof. exact SP.Base.Lists.fold_max_zero. Qed.

Lemma fold_overwrite_inv (P : nat -> Prop) (f : nat) :
  forall (l : list (list nat * nat)) acc,
    (forall p, In p l -> P (snd p)) -> P acc ->
    P (fold_left (fun acc cs => if existsb (Nat.eqb f) (fst cs) then snd cs else acc) l acc).
Proof.
  induction l as [|p l IH]; intros acc H Hacc; simpl; auto.
  apply IH; [auto using in_cons|]. destruct (existsb (Nat.eqb f) (fst p)); auto using in_eq.
Qed.

Lemma fold_left_filter_add {A} (p : A -> bool) (h : A -> nat) :
  forall l a, fold_left (fun acc g => acc + h g) (filter p l) a
            = fold_left (fun acc g => acc + (if p g then h g else 0)) l a.
Proof.
  induction l as [|x l IH]; intros a; simpl; auto.
  destruct (p x); simpl; rewrite IH; [reflexivity|]. f_equal. lia.
Qed.

Lemma isact_In : forall fb f, isact fb f = true <-> In f (fl_act fb).
Proof. intros fb f. apply existsb_eqb_In. Qed.

Record F1facts (fb : flat) : Prop := {
  f1_act_sorted : fl_act fb = filter (isact fb) (seq 0 (nf fb));
  f1_implied : forall f fd, nth_error (fl_design fb) f = Some fd -> implied_ok fb f fd = true;
  f1_factor : forall f fd, nth_error (fl_design fb) f = Some fd -> isact fb f = true -> factor_f1 fd = true;
  f1_tables : forall f fd, nth_error (fl_design fb) f = Some fd ->
                           tables_ok fb f fd = true /\ tables_unambiguous fb f fd = true;
  f1_sustains_len : length (fl_sustains fb) = length (fl_crossings fb);
  f1_sustain_pos : forall f, 0 < sustain_of fb f;
  f1_sustain_one : forall f fd, nth_error (fl_design fb) f = Some fd -> sact fb f = false -> sustain_of fb f = 1;
  f1_sustain_deps : forall f fd w, nth_error (fl_design fb) f = Some fd -> ff_window fd = Some w -> sact fb f = true ->
                                   forall d, In d (win_deps w) -> sustain_of fb d mod sustain_of fb f = 0;
  f1_has_sustain : (forall f, sustain_of fb f = 1) \/ In FSustain (fl_constraints fb);
  f1_crossings : crossings_f1 fb 0 (fl_crossings fb) = true;
  f1_nodup : forall c, In c (fl_crossings fb) -> list_nat_nodup c = true;
  f1_constraints : forall c, In c (fl_constraints fb) -> constraint_f1 fb c = true;
  f1_has_consistency : In FConsistency (fl_constraints fb);
  f1_has_cross : In FCross (fl_constraints fb) \/ fl_crossings fb = [];
  f1_derivations : derivations_match fb = true;
  f1_exclude_backed : forall p, In p (fl_exclude fb) -> In (FExclude (fst p) (snd p)) (fl_constraints fb);
  f1_no_excluded_derived : forall e, In e (fl_excluded_derived fb) ->
                           exists p, In p (fl_exclude fb) /\ excluded_derived_of fb e p = true
}.

Lemma in_f1_facts : forall fb, in_f1 fb = true -> F1facts fb.
Proof.
  intros fb H. unfold in_f1 in H.
  apply andb_prop in H as [[[[[[[[[[[[H1 H2]%andb_prop [H3 H3b]%andb_prop]%andb_prop H4]%andb_prop H5]%andb_prop H8]%andb_prop
                               H9]%andb_prop H10]%andb_prop H11]%andb_prop H12]%andb_prop H13]%andb_prop H14]%andb_prop H15].
  unfold sustains_ok in H4. apply andb_prop in H4 as [[H4a H4b]%andb_prop H4c].
  rewrite forallb_forall in H4a, H4b.
  constructor.
  - apply list_nat_eqb_eq. exact H3.
  - intros f fd Hf. rewrite forallb_forall in H3b.
    specialize (H3b (f, fd)). simpl in H3b. apply H3b.
    apply (proj2 (in_enum (fl_design fb) (f, fd)) Hf).
  - intros f fd Hf Ha. rewrite forallb_forall in H1.
    specialize (H1 (f, fd) (proj2 (in_enum (fl_design fb) (f, fd)) Hf)). cbn [fst snd] in H1.
    rewrite Ha in H1. exact H1.
  - intros f fd Hf. rewrite forallb_forall in H2.
    specialize (H2 (f, fd)). simpl in H2. apply andb_true_iff. apply H2.
    apply (proj2 (in_enum (fl_design fb) (f, fd)) Hf).
  - apply Nat.eqb_eq. exact H5.
  - intros f. unfold sustain_of. apply (fold_overwrite_inv (lt 0)); [|exact Nat.lt_0_1].
    intros p Hp. destruct p as [c s]. simpl. apply Nat.ltb_lt. apply H4a. eapply in_combine_r. exact Hp.
  - intros f fd Hf Hsa. specialize (H4b (f, fd) (proj2 (in_enum (fl_design fb) (f, fd)) Hf)).
    cbn [fst snd] in H4b. apply andb_true_iff in H4b. destruct H4b as [A _].
    unfold grid_factor in A. unfold sact in Hsa. rewrite Hsa in A. cbn [orb] in A. now apply Nat.eqb_eq.
  - intros f fd w Hf Hw Hsa d Hd. specialize (H4b (f, fd) (proj2 (in_enum (fl_design fb) (f, fd)) Hf)).
    cbn [fst snd] in H4b. apply andb_true_iff in H4b. destruct H4b as [_ B]. rewrite Hw in B.
    unfold grid_factor in B. unfold sact in Hsa. rewrite Hsa in B. cbn [negb orb] in B.
    rewrite forallb_forall in B. apply Nat.eqb_eq. now apply B.
  - apply orb_true_iff in H4c. destruct H4c as [A|A].
    + left. intros f. unfold sustain_of. apply (fold_overwrite_inv (fun n => n = 1)); auto.
      intros p Hp. destruct p as [c s]. simpl. rewrite forallb_forall in A. apply Nat.eqb_eq. apply A. eapply in_combine_r. exact Hp.
    + right. apply existsb_exists in A. destruct A as [c [Hc Hk]]. destruct c; try discriminate. exact Hc.
  - exact H8.
  - intros c Hc. rewrite forallb_forall in H9. apply H9. exact Hc.
  - intros c Hc. rewrite forallb_forall in H10. apply H10. exact Hc.
  - apply existsb_exists in H11. destruct H11 as [c [Hc Hk]]. destruct c; try discriminate. exact Hc.
  - apply orb_true_iff in H12. destruct H12 as [H12|H12].
    + left. apply existsb_exists in H12. destruct H12 as [c [Hc Hk]]. destruct c; try discriminate. exact Hc.
    + right. destruct (fl_crossings fb); [reflexivity|discriminate].
  - exact H13.
  - intros p Hp. unfold exclude_backed in H14. rewrite forallb_forall in H14. specialize (H14 p Hp).
    apply existsb_exists in H14. destruct H14 as [c [Hc Hk]]. destruct c; try discriminate.
    apply andb_true_iff in Hk. destruct Hk as [A B]. apply Nat.eqb_eq in A, B. subst. exact Hc.
  - intros e He. unfold no_excluded_derived in H15. rewrite forallb_forall in H15. specialize (H15 e He).
    apply existsb_exists in H15. exact H15.
Qed.

(** ** Partial sums: [off fb] is [psum (anl fb)], [coff fb] is [psum (cnl fb)] *)
Definition psum (w : nat -> nat) (f : nat) : nat := fold_left (fun acc g => acc + w g) (seq 0 f) 0.

Lemma psum_S w f : psum w (S f) = psum w f + w f.
Proof. unfold psum. now rewrite seq_S, fold_left_app. Qed.

Lemma psum_mono w f g : f < g -> psum w f + w f <= psum w g.
Proof.
  intros H. rewrite <- psum_S. induction H as [|g H IH]; [lia|]. rewrite (psum_S w g). lia.
Qed.

(* the blocks [psum w f, psum w f + w f) are disjoint and cover [0, psum w n) *)
Lemma psum_inj w f r f' r' : r < w f -> r' < w f' -> psum w f + r = psum w f' + r' -> f = f' /\ r = r'.
Proof.
  intros Hr Hr' H. destruct (Nat.lt_trichotomy f f') as [C|[C|C]].
  - pose proof (psum_mono w f f' C). lia.
  - subst. split; lia.
  - pose proof (psum_mono w f' f C). lia.
Qed.

Lemma psum_decompose w n r : r < psum w n -> exists f r', f < n /\ r' < w f /\ r = psum w f + r'.
Proof.
  induction n as [|n IH]; intros Hr; [inversion Hr|].
  rewrite psum_S in Hr. destruct (Nat.lt_ge_cases r (psum w n)) as [C|C].
  - destruct (IH C) as (f & r' & H1 & H2 & H3). exists f, r'. auto.
  - exists n, (r - psum w n). repeat split; lia.
Qed.

Lemma off_S : forall fb f, off fb (S f) = off fb f + anl fb f.
Proof. intros fb. exact (psum_S (anl fb)). Qed.

Lemma off_mono : forall fb f g, f < g -> off fb f + anl fb f <= off fb g.
Proof. intros fb. exact (psum_mono (anl fb)). Qed.

Lemma sact_split fb f : sact fb f = true <-> isact fb f = true /\ is_complex fb f = false.
Proof. unfold sact. rewrite andb_true_iff, negb_true_iff. tauto. Qed.

Lemma cact_split fb f : cact fb f = true <-> isact fb f = true /\ is_complex fb f = true.
Proof. apply andb_true_iff. Qed.

Lemma anl_act : forall fb f, sact fb f = true -> anl fb f = nlevels fb f.
Proof. intros fb f H. unfold anl. rewrite H. reflexivity. Qed.

Lemma anl_nact : forall fb f, sact fb f = false -> anl fb f = 0.
Proof. intros fb f H. unfold anl. rewrite H. reflexivity. Qed.

Lemma coff_S : forall fb f, coff fb (S f) = coff fb f + cnl fb f.
Proof. intros fb. exact (psum_S (cnl fb)). Qed.

Lemma coff_mono : forall fb f g, f < g -> coff fb f + cnl fb f <= coff fb g.
Proof. intros fb. exact (psum_mono (cnl fb)). Qed.

Lemma lt_mul_add a b n m : a < n -> b < m -> a * m + b < n * m.
Proof. intros Ha Hb. pose proof (Nat.mul_le_mono_r (S a) n m Ha). lia. Qed.

Lemma radix_inj n a b a' b' : b < n -> b' < n -> a * n + b = a' * n + b' -> a = a' /\ b = b'.
Proof. intros Hb Hb' H. apply (Nat.div_mod_unique n); lia. Qed.

Lemma prev_0 : forall fb f, prev fb f 0 = 0.
Proof. reflexivity. Qed.

Lemma prev_S : forall fb f t, prev fb f (S t) = prev fb f t + (if lappl fb f t then 1 else 0).
Proof.
  intros fb f t. unfold prev, previous_trials_count, lappl.
  replace (S (S t) - 1) with (S t) by lia. replace (S t - 1) with t by lia.
  rewrite seq_S, filter_app, app_length. cbn [filter Nat.add].
  destruct (applies_at fb f (S t)); reflexivity.
Qed.

Lemma prev_le : forall fb f t, prev fb f t <= t.
Proof.
  intros fb f t. induction t as [|t IH]; [rewrite prev_0; lia|]. rewrite prev_S. destruct (lappl fb f t); lia.
Qed.

Lemma prev_mono : forall fb f t t', t <= t' -> prev fb f t <= prev fb f t'.
Proof.
  intros fb f t t' H. induction H as [|t' H IH]; [lia|]. rewrite prev_S. lia.
Qed.

Lemma prev_lt : forall fb f t t', t < t' -> lappl fb f t = true -> prev fb f t < prev fb f t'.
Proof.
  intros fb f t t' H Ha. pose proof (prev_mono fb f (S t) t' H) as M. rewrite prev_S, Ha in M. lia.
Qed.

Lemma in_trials_of : forall fb f a b t, In t (trials_of fb f a b) <-> a <= t < b /\ lappl fb f t = true.
Proof.
  intros fb f a b t. unfold trials_of, lappl. rewrite filter_In, in_seq. split; intros [H1 H2]; (split; [lia|exact H2]).
Qed.

(** the trials from [a] on with a level are numbered consecutively by [prev] *)
Lemma trials_seq : forall fb f a n,
  let l := filter (fun t => applies_at fb f (S t)) (seq a n) in
  map (prev fb f) l = seq (prev fb f a) (length l) /\ prev fb f a + length l = prev fb f (a + n).
Proof.
  intros fb f a n. cbv zeta. induction n as [|n [IH1 IH2]]; [split; [reflexivity|now rewrite !Nat.add_0_r]|].
  rewrite seq_S, filter_app, map_app, app_length, IH1. cbn [filter].
  replace (a + S n) with (S (a + n)) by lia. rewrite prev_S. unfold lappl.
  destruct (applies_at fb f (S (a + n))); cbn [map length app]; (split; [|lia]).
  - rewrite Nat.add_1_r, seq_S. do 2 f_equal. lia.
  - now rewrite app_nil_r, Nat.add_0_r.
Qed.

Lemma trials_of_prev : forall fb f a b,
  map (prev fb f) (trials_of fb f a b) = seq (prev fb f a) (length (trials_of fb f a b)).
Proof. intros fb f a b. apply trials_seq. Qed.

Lemma trials_of_length : forall fb f a b, a <= b ->
  length (trials_of fb f a b) = prev fb f b - prev fb f a.
Proof.
  intros fb f a b Hab. pose proof (proj2 (trials_seq fb f a (b - a))) as H. cbv zeta in H.
  replace (a + (b - a)) with b in H by lia. unfold trials_of. lia.
Qed.

(** every number below [prev f b] is the number of a trial with a level *)
Lemma prev_hit : forall fb f b k, k < prev fb f b ->
  exists t, t < b /\ lappl fb f t = true /\ prev fb f t = k.
Proof.
  intros fb f b. induction b as [|b IH]; intros k Hk; [rewrite prev_0 in Hk; lia|].
  rewrite prev_S in Hk. destruct (Nat.lt_ge_cases k (prev fb f b)) as [C|C].
  - destruct (IH k C) as (t & Ht & Ha & Ep). exists t. repeat split; auto.
  - destruct (lappl fb f b) eqn:Ea; [|lia]. exists b. repeat split; auto. lia.
Qed.

Lemma ranges_loop_bound : forall fb fuel start e step stop,
  Forall (fun r => fst r < stop /\ snd r <= trials fb) (ranges_loop fb fuel start e step stop).
Proof.
  intros fb fuel. induction fuel as [|fuel IH]; intros start e step stop; simpl; [constructor|].
  destruct (start <? stop) eqn:E; [|constructor].
  constructor; [|apply IH].
  simpl. apply Nat.ltb_lt in E. split; [exact E|apply Nat.le_min_r].
Qed.

(** the shapes of [map_block_trial_ranges]: one loop, which stops within the
    trials and runs over nothing when the block has no trials *)
Lemma ranges_inv : forall fb wb rs, map_block_trial_ranges fb wb = Some rs ->
  exists fuel start e step stop,
    rs = ranges_loop fb fuel start e step stop /\ stop <= trials fb /\ (e = 0 -> stop = 0).
Proof.
  intros fb wb rs H. unfold map_block_trial_ranges in H.
  assert (G : forall fuel start e step stop, stop <= trials fb -> (e = 0 -> stop = 0) ->
              Some (ranges_loop fb fuel start e step stop) = Some rs ->
              exists fuel start e step stop,
                rs = ranges_loop fb fuel start e step stop /\ stop <= trials fb /\ (e = 0 -> stop = 0)).
  { intros fuel start e step stop Hs He E. injection E as <-. now exists fuel, start, e, step, stop. }
  destruct wb as [g|]; [|exact (G _ _ _ _ _ (Nat.le_refl _) (fun E => E) H)].
  destruct ((g_trials g <=? g_preamble g) && (0 <? trials fb - g_preamble g)) eqn:Q; [discriminate|].
  assert (He : g_trials g = 0 -> trials fb - g_preamble g = 0).
  { intros E. rewrite E in Q. apply Nat.ltb_ge in Q. now apply Nat.le_0_r. }
  destruct (fl_alignment fb); [destruct (post_preamble_size fb <? g_preamble g); [discriminate|]| |];
    exact (G _ _ _ _ _ (Nat.le_sub_l _ _) He H).
Qed.

Lemma f1_ranges_bound : forall fb wb rs,
  map_block_trial_ranges fb wb = Some rs ->
  Forall (fun r => fst r < T fb /\ snd r <= T fb) rs.
Proof.
  intros fb wb rs H. destruct (ranges_inv fb wb rs H) as (fuel & start & e & step & stop & -> & Hs & _).
  eapply Forall_impl; [|apply ranges_loop_bound].
  intros r [H1 H2]. unfold T. unfold trials in *. split; lia.
Qed.

Lemma f1_ranges_none : forall fb,
  map_block_trial_ranges fb None = Some (if 0 <? T fb then [(0, T fb)] else []).
Proof.
  intros fb. unfold map_block_trial_ranges, T. f_equal.
  assert (G : forall n, n = trials fb ->
              ranges_loop fb (S n) 0 n n n = if 0 <? n then [(0, n)] else []).
  { intros n Hn. destruct n as [|k].
    - reflexivity.
    - cbn [ranges_loop]. rewrite <- Hn.
      replace (0 <? S k) with true by (symmetry; apply Nat.ltb_lt; lia).
      replace (0 + S k <? S k) with false by (symmetry; apply Nat.ltb_ge; lia).
      rewrite Nat.min_id. reflexivity. }
  apply (G (trials fb) eq_refl).
Qed.

(** [get_trial_numbers] when the sustain count of the geometry is 1 *)
Lemma f1_trial_numbers : forall fb f b wb rs,
  geometry_sustain fb wb f = 1 ->
  map_block_trial_ranges fb wb = Some rs ->
  get_trial_numbers fb f b wb =
  Some (flat_map (fun r =>
          let p := (if (b <? 0)%Z then Z.of_nat (snd r) + b else Z.of_nat (fst r) + b)%Z in
          if ((Z.of_nat (fst r) <=? p) && (p <? Z.of_nat (snd r)))%Z then [Z.to_nat p] else []) rs).
Proof.
  intros fb f b wb rs Hsu Hrs. unfold get_trial_numbers. rewrite Hsu, Hrs.
  cbn [option_map]. f_equal. clear Hrs.
  apply flat_map_ext. intros r.
  replace (Z.of_nat 1 * b)%Z with b by lia.
  cbv zeta. cbn [seq map]. rewrite Nat.add_0_r. reflexivity.
Qed.

Lemma filter_leb_seq : forall s n a,
  filter (fun t => s <=? t) (seq a n) = seq (Nat.max a s) (a + n - Nat.max a s).
Proof.
  intros s. induction n as [|n IH]; intros a.
  - simpl. replace (a + 0 - Nat.max a s) with 0 by lia. reflexivity.
  - rewrite seq_S, filter_app, IH. cbn [filter].
    destruct (s <=? a + n) eqn:E.
    + apply Nat.leb_le in E.
      replace (a + S n - Nat.max a s) with (S (a + n - Nat.max a s)) by lia.
      rewrite seq_S. f_equal. f_equal. lia.
    + apply Nat.leb_gt in E. rewrite app_nil_r. f_equal. lia.
Qed.

Lemma applies_at_S1 : forall fb f t, sustain_of fb f = 1 ->
  applies_at fb f (S t) = applies_to_trial fb f (t + 1).
Proof.
  intros fb f t H. unfold applies_at, sustain. rewrite H.
  replace (S t - 1) with t by lia. rewrite Nat.div_1_r. reflexivity.
Qed.

Lemma vff_napp : forall fb f, variables_for_factor fb f 0 0 = napp fb f * nlevels fb f.
Proof.
  intros fb f. unfold variables_for_factor. cbn [Nat.eqb].
  rewrite fold_cond_count, Nat.mul_comm. unfold napp, prev, previous_trials_count, T, trials.
  cbn [Nat.add]. replace (S (fl_trials fb) - 1) with (fl_trials fb - 0) by lia. reflexivity.
Qed.

Lemma trials_of_shift : forall fb f a n,
  length (filter (fun t => applies_at fb f t) (seq (1 + a) n))
  = length (filter (fun t => applies_at fb f (S t)) (seq a n)).
Proof.
  intros fb f a n. cbn [Nat.add]. rewrite <- seq_shift.
  generalize (seq a n) as l. induction l as [|x l IH]; simpl; auto.
  destruct (applies_at fb f (S x)); simpl; rewrite IH; reflexivity.
Qed.

Lemma vff_trials_of : forall fb f start e, e <> 0 ->
  variables_for_factor fb f start e = length (trials_of fb f start e) * nlevels fb f.
Proof.
  intros fb f start e He. unfold variables_for_factor.
  replace (e =? 0) with false by (symmetry; apply Nat.eqb_neq; exact He).
  rewrite fold_cond_count, Nat.mul_comm. cbn [Nat.add]. unfold trials_of.
  rewrite <- trials_of_shift. reflexivity.
Qed.

Lemma ranges_loop_pos : forall fb fuel start e step stop, 0 < e -> 0 < trials fb ->
  Forall (fun r => 0 < snd r) (ranges_loop fb fuel start e step stop).
Proof.
  intros fb fuel. induction fuel as [|fuel IH]; intros start e step stop He Ht; simpl; [constructor|].
  destruct (start <? stop); [|constructor].
  constructor; [cbn [snd]; lia|apply IH; lia].
Qed.

Lemma ranges_loop_stop0 : forall fb fuel start e step, ranges_loop fb fuel start e step 0 = [].
Proof. intros fb [|fuel] start e step; simpl; reflexivity. Qed.

Lemma zrange_length : forall n a, length (zrange a n) = n.
Proof. induction n as [|n IH]; intros a; simpl; auto. Qed.

Lemma zrange_app : forall n m a, zrange a (n + m) = zrange a n ++ zrange (a + Z.of_nat n)%Z m.
Proof.
  induction n as [|n IH]; intros m a.
  - simpl. f_equal. lia.
  - cbn [Nat.add zrange app]. f_equal. rewrite IH. f_equal. f_equal. lia.
Qed.

Lemma firstn_app_len {A} (l1 l2 : list A) n : length l1 = n -> firstn n (l1 ++ l2) = l1.
Proof. intros <-. rewrite firstn_app, Nat.sub_diag, firstn_all. simpl. apply app_nil_r. Qed.

Lemma skipn_app_len {A} (l1 l2 : list A) n : length l1 = n -> skipn n (l1 ++ l2) = l2.
Proof. intros <-. rewrite skipn_app, Nat.sub_diag, skipn_all. reflexivity. Qed.

Lemma chunk_list_S {A} fu (l : list A) n : firstn n l <> [] ->
  chunk_list (S fu) l n = firstn n l :: chunk_list fu (skipn n l) n.
Proof. intros H. cbn [chunk_list]. destruct (firstn n l); [congruence|reflexivity]. Qed.

Lemma chunk_zrange : forall n, 0 < n -> forall k fuel a, k <= fuel ->
  chunk_list fuel (zrange a (k * n)) n = map (fun i => zrange (a + Z.of_nat (i * n))%Z n) (seq 0 k).
Proof.
  intros n Hn. induction k as [|k IH]; intros fuel a Hk.
  - cbn [Nat.mul zrange seq map]. destruct fuel; [reflexivity|].
    cbn [chunk_list]. rewrite firstn_nil. reflexivity.
  - destruct fuel as [|fu]; [lia|]. cbn [Nat.mul]. rewrite zrange_app.
    assert (F : firstn n (zrange a n ++ zrange (a + Z.of_nat n) (k * n)) = zrange a n)
      by (apply firstn_app_len, zrange_length).
    rewrite chunk_list_S by (rewrite F; destruct n; [lia|discriminate]).
    rewrite F, (skipn_app_len _ _ n (zrange_length n a)), IH by lia.
    cbn [seq map]. f_equal.
    + f_equal. lia.
    + rewrite <- seq_shift, map_map. apply map_ext. intros i. f_equal. lia.
Qed.

(** a factor of act_design whose window is not complex reads its own trial only *)
Lemma factor_f1_simple : forall fd w, factor_f1 fd = true -> ff_window fd = Some w -> ff_complex fd = false ->
  win_width w = 1 /\ win_stride w = 1 /\ win_start w = 0.
Proof.
  unfold factor_f1. intros fd w H Ew Hc. rewrite Ew, Hc, !andb_true_iff, !Nat.eqb_eq in H. tauto.
Qed.

Section F1.
Variable fb : flat.
Hypothesis HF1 : in_f1 fb = true.

Let FF : F1facts fb := in_f1_facts fb HF1.

Lemma f1_act_lt : forall f, isact fb f = true -> f < nf fb.
Proof.
  intros f Hf. apply isact_In in Hf. rewrite (f1_act_sorted fb FF) in Hf.
  apply filter_In in Hf. destruct Hf as [Hf _]. apply in_seq in Hf. lia.
Qed.

Lemma f1_act_nodup : NoDup (fl_act fb).
Proof.
  rewrite (f1_act_sorted fb FF). apply NoDup_filter, seq_NoDup.
Qed.

Lemma f1_nlevels_pos : forall f, f < nf fb -> 0 < nlevels fb f.
Proof.
  intros f Hf. unfold nlevels, factor_at.
  destruct (nth_error (fl_design fb) f) as [fd|] eqn:E.
  - destruct (isact fb f) eqn:Ha.
    + pose proof (f1_factor fb FF f fd E Ha) as H. unfold factor_f1 in H.
      apply andb_true_iff in H. destruct H as [H _]. apply Nat.ltb_lt. exact H.
    + pose proof (f1_implied fb FF f fd E) as H. unfold implied_ok in H. rewrite Ha in H. cbn [orb] in H.
      unfold factor_impl_f1 in H. repeat rewrite andb_true_iff in H. destruct H as [[H _] _]. apply Nat.ltb_lt. exact H.
  - apply nth_error_None in E. unfold nf in Hf. lia.
Qed.

Lemma f1_simple_act : simple_act fb = filter (sact fb) (seq 0 (nf fb)).
Proof.
  unfold simple_act. rewrite (f1_act_sorted fb FF) at 1. rewrite filter_filter. reflexivity.
Qed.

Lemma f1_complex_act : complex_act fb = filter (cact fb) (seq 0 (nf fb)).
Proof.
  unfold complex_act. rewrite (f1_act_sorted fb FF) at 1. rewrite filter_filter. reflexivity.
Qed.

Lemma f1_act_shape : forall f, isact fb f = true ->
  exists fd, nth_error (fl_design fb) f = Some fd /\ factor_f1 fd = true.
Proof.
  intros f Ha. pose proof (f1_act_lt f Ha) as L. unfold nf in L.
  destruct (nth_error (fl_design fb) f) as [fd|] eqn:E.
  - exists fd. split; [reflexivity|]. exact (f1_factor fb FF f fd E Ha).
  - apply nth_error_None in E. lia.
Qed.

Lemma lappl_unfold : forall f t, lappl fb f t = applies_to_trial fb f (t / sustain_of fb f + 1).
Proof. intros f t. unfold lappl, applies_at, sustain. now replace (S t - 1) with t by lia. Qed.

Lemma f1_sustain_cx : forall f, isact fb f = true -> is_complex fb f = true -> sustain_of fb f = 1.
Proof.
  intros f Ha Hc. destruct (f1_act_shape f Ha) as (fd & E & _).
  apply (f1_sustain_one fb FF f fd E). unfold sact. now rewrite Ha, Hc.
Qed.

Lemma lappl_simple : forall f t, isact fb f = true -> is_complex fb f = false -> lappl fb f t = true.
Proof.
  intros f t Ha Hc. rewrite lappl_unfold.
  destruct (f1_act_shape f Ha) as (fd & E & H).
  unfold is_complex, factor_at in Hc. unfold applies_to_trial, factor_at. rewrite E in *.
  destruct (ff_window fd) as [w|] eqn:Ew; [|reflexivity].
  destruct (factor_f1_simple fd w H Ew Hc) as (_ & -> & ->).
  rewrite Nat.mod_1_r. apply andb_true_iff. split; [apply Nat.leb_le; lia|reflexivity].
Qed.

Lemma prev_simple : forall f t, isact fb f = true -> is_complex fb f = false -> prev fb f t = t.
Proof.
  intros f t Ha Hc. induction t as [|t IH]; [apply prev_0|].
  rewrite prev_S, IH, (lappl_simple f t Ha Hc). lia.
Qed.

Lemma lappl_stride1 : forall f t, isact fb f = true -> stride1 fb f = true ->
  lappl fb f t = (start_of fb f <=? t).
Proof.
  intros f t Ha Hs. rewrite lappl_unfold.
  destruct (f1_act_shape f Ha) as (fd & E & H).
  assert (Hsu : is_complex fb f = true -> sustain_of fb f = 1) by (intros Q; now apply f1_sustain_cx).
  unfold is_complex in Hsu.
  unfold stride1, start_of, factor_at in *. unfold applies_to_trial, factor_at. rewrite E in *.
  destruct (ff_window fd) as [w|] eqn:Ew; [|reflexivity].
  destruct (ff_complex fd) eqn:Ec.
  - rewrite (Hsu eq_refl), Nat.div_1_r. cbn [negb orb] in Hs. apply Nat.eqb_eq in Hs. rewrite Hs, Nat.mod_1_r.
    cbn [Nat.eqb]. rewrite andb_true_r.
    destruct (win_start w <=? t) eqn:Q; [apply Nat.leb_le in Q; apply Nat.leb_le; lia|
                                         apply Nat.leb_gt in Q; apply Nat.leb_gt; lia].
  - destruct (factor_f1_simple fd w H Ew Ec) as (_ & -> & ->).
    rewrite Nat.mod_1_r. cbn [Nat.eqb Nat.leb]. rewrite andb_true_r. apply Nat.leb_le. lia.
Qed.

Lemma start_simple : forall f, isact fb f = true -> is_complex fb f = false -> start_of fb f = 0.
Proof.
  intros f Ha Hc.
  destruct (f1_act_shape f Ha) as (fd & E & H).
  unfold is_complex, start_of, factor_at in *. rewrite E in *.
  destruct (ff_window fd) as [w|] eqn:Ew; [|reflexivity].
  exact (proj2 (proj2 (factor_f1_simple fd w H Ew Hc))).
Qed.

Lemma trials_of_simple : forall f a b, isact fb f = true -> is_complex fb f = false ->
  trials_of fb f a b = seq a (b - a).
Proof.
  intros f a b Ha Hc. unfold trials_of. apply filter_all.
  intros t _. apply (lappl_simple f t Ha Hc).
Qed.

Lemma trials_of_stride1 : forall f a b, isact fb f = true -> stride1 fb f = true ->
  trials_of fb f a b = seq (Nat.max a (start_of fb f)) (b - Nat.max a (start_of fb f)).
Proof.
  intros f a b Ha Hs. unfold trials_of.
  rewrite (filter_ext _ (fun t => start_of fb f <=? t)).
  - rewrite filter_leb_seq. f_equal. lia.
  - intros t. apply (lappl_stride1 f t Ha Hs).
Qed.

Lemma gvar_simple : forall t f l, is_complex fb f = false -> gvar fb t f l = t * vpt fb + off fb f + l + 1.
Proof. intros t f l H. unfold gvar. now rewrite H. Qed.

Lemma gvar_complex : forall t f l, is_complex fb f = true ->
  gvar fb t f l = GN fb + coff fb f + prev fb f t * nlevels fb f + l + 1.
Proof. intros t f l H. unfold gvar. now rewrite H. Qed.

Lemma f1_vpt : vpt fb = off fb (nf fb).
Proof.
  unfold vpt, variables_per_trial. rewrite f1_simple_act.
  rewrite fold_left_filter_add. reflexivity.
Qed.

Lemma cnl_act : forall f, cact fb f = true -> cnl fb f = napp fb f * nlevels fb f.
Proof. intros f H. unfold cnl. rewrite H. reflexivity. Qed.

Lemma cnl_nact : forall f, cact fb f = false -> cnl fb f = 0.
Proof. intros f H. unfold cnl. rewrite H. reflexivity. Qed.

Lemma f1_off_vpt : forall f, sact fb f = true -> off fb f + nlevels fb f <= vpt fb.
Proof.
  intros f Hf. rewrite f1_vpt, <- (anl_act fb f Hf). apply off_mono. apply f1_act_lt.
  apply sact_split, Hf.
Qed.

Lemma f1_vps : variables_per_sample fb = VN fb.
Proof.
  unfold variables_per_sample, VN, GN. rewrite (f1_act_sorted fb FF) at 1.
  rewrite f1_vpt, fold_left_filter_add.
  induction (nf fb) as [|n IH].
  - cbn [off coff seq fold_left]. lia.
  - rewrite seq_S, fold_left_app, IH, off_S, coff_S. cbn [fold_left Nat.add].
    unfold anl, cnl, sact, cact.
    destruct (isact fb n) eqn:Ea; cbn [andb]; [|lia].
    rewrite (vff_napp fb n).
    destruct (is_complex fb n) eqn:Ec; cbn [negb]; [lia|].
    unfold napp. rewrite (prev_simple n (T fb) Ea Ec). lia.
Qed.

Lemma f1_grid : grid_variables fb = GN fb.
Proof. reflexivity. Qed.

Lemma f1_simple_offset : forall n s f, s <= f < s + n -> sact fb f = true ->
  simple_offset fb (filter (sact fb) (seq s n)) f = Some (off fb f - off fb s).
Proof.
  induction n as [|n IH]; intros s f H Hf; [lia|].
  cbn [seq filter]. destruct (sact fb s) eqn:Es.
  - cbn [simple_offset]. destruct (s =? f) eqn:E.
    + apply Nat.eqb_eq in E. subst. f_equal. lia.
    + apply Nat.eqb_neq in E. rewrite IH by (try lia; exact Hf). cbn [option_map]. f_equal.
      pose proof (off_mono fb s f ltac:(lia)) as H1.
      rewrite off_S. rewrite (anl_act fb s Es) in *. lia.
  - assert (E : s <> f) by (intros Q; subst; congruence).
    rewrite IH by (try lia; exact Hf). f_equal.
    rewrite off_S, (anl_nact fb s Es). lia.
Qed.

Lemma f1_complex_offset : forall n s f l, s <= f < s + n -> cact fb f = true ->
  complex_offset fb (filter (cact fb) (seq s n)) f l = coff fb f - coff fb s + l.
Proof.
  induction n as [|n IH]; intros s f l H Hf; [lia|].
  cbn [seq filter]. destruct (cact fb s) eqn:Es.
  - cbn [complex_offset]. destruct (s =? f) eqn:E.
    + apply Nat.eqb_eq in E. subst. lia.
    + apply Nat.eqb_neq in E. rewrite IH by (try lia; exact Hf).
      pose proof (coff_mono fb s f ltac:(lia)) as H1.
      rewrite vff_napp, coff_S. rewrite (cnl_act s Es) in *. lia.
  - assert (E : s <> f) by (intros Q; subst; congruence).
    rewrite IH by (try lia; exact Hf).
    rewrite coff_S, (cnl_nact s Es). lia.
Qed.

Lemma f1_first_var : forall f l, isact fb f = true -> l < nlevels fb f ->
  first_variable_for_level fb f l =
  Some (if is_complex fb f then GN fb + coff fb f + l else off fb f + l).
Proof.
  intros f l Hf Hl. pose proof (f1_act_lt f Hf) as Hlt.
  unfold first_variable_for_level. destruct (is_complex fb f) eqn:Ec.
  - rewrite f1_complex_act, f1_complex_offset by (try lia; now apply cact_split).
    change (coff fb 0) with 0. rewrite f1_grid. f_equal. lia.
  - replace (l <? nlevels fb f) with true by (symmetry; apply Nat.ltb_lt; exact Hl).
    rewrite f1_simple_act, f1_simple_offset by (try lia; now apply sact_split).
    cbn [option_map]. change (off fb 0) with 0. f_equal. lia.
Qed.

Lemma ptc_prev : forall f trial, previous_trials_count fb f trial = prev fb f (trial - 1).
Proof.
  intros f trial. unfold prev, previous_trials_count.
  replace (S (trial - 1) - 1) with (trial - 1) by lia. reflexivity.
Qed.

Lemma f1_encode_any : forall f l trial, isact fb f = true -> l < nlevels fb f ->
  encode_variable fb f l trial = Some (gvar fb (trial - 1) f l).
Proof.
  intros f l trial Hf Hl. unfold encode_variable.
  rewrite f1_first_var by assumption. rewrite ptc_prev. unfold gvar.
  destruct (is_complex fb f) eqn:Ec.
  - f_equal. lia.
  - rewrite (prev_simple f (trial - 1) Hf Ec). unfold vpt. f_equal. lia.
Qed.

Lemma f1_encode : forall f l t, isact fb f = true -> l < nlevels fb f ->
  encode_variable fb f l (S t) = Some (gvar fb t f l).
Proof.
  intros f l t Hf Hl. rewrite f1_encode_any by assumption. do 2 f_equal. lia.
Qed.

Lemma f1_get_variable : forall f l t, isact fb f = true -> l < nlevels fb f ->
  get_variable fb (S t) f l = COk (gvar fb t f l).
Proof.
  intros f l t Hf Hl. unfold get_variable. rewrite f1_encode by assumption. reflexivity.
Qed.

Lemma gvar_pos : forall t f l, 0 < gvar fb t f l.
Proof. intros t f l. unfold gvar. destruct (is_complex fb f); lia. Qed.

Lemma gvar_grid : forall t f l, t < T fb -> isact fb f = true -> is_complex fb f = false -> l < nlevels fb f ->
  gvar fb t f l <= GN fb.
Proof.
  intros t f l Ht Hf Ec Hl. rewrite (gvar_simple t f l Ec).
  pose proof (f1_off_vpt f (proj2 (sact_split fb f) (conj Hf Ec))) as H.
  assert (B : off fb f + l < vpt fb) by (clear - H Hl; lia).
  pose proof (lt_mul_add _ _ _ _ Ht B) as M. unfold GN. clear - M. lia.
Qed.

Lemma gvar_above : forall t f l, is_complex fb f = true -> GN fb < gvar fb t f l.
Proof. intros t f l H. rewrite (gvar_complex t f l H). lia. Qed.

Lemma prev_napp : forall f t, t < T fb -> lappl fb f t = true -> prev fb f t < napp fb f.
Proof. intros f t Ht Ha. unfold napp. apply prev_lt; assumption. Qed.

(* the position of (trial, level) inside the block of a complex factor *)
Lemma cpos_lt : forall t f l, t < T fb -> lappl fb f t = true -> l < nlevels fb f -> cact fb f = true ->
  prev fb f t * nlevels fb f + l < cnl fb f.
Proof.
  intros t f l Ht Ha Hl Hc. rewrite (cnl_act f Hc). exact (lt_mul_add _ _ _ _ (prev_napp f t Ht Ha) Hl).
Qed.

Lemma gvar_range : forall t f l, t < T fb -> isact fb f = true -> l < nlevels fb f -> lappl fb f t = true ->
  1 <= gvar fb t f l <= VN fb.
Proof.
  intros t f l Ht Hf Hl Ha. split; [apply gvar_pos|]. unfold VN. destruct (is_complex fb f) eqn:Ec.
  - pose proof (coff_mono fb f (nf fb) (f1_act_lt f Hf)) as M.
    pose proof (cpos_lt t f l Ht Ha Hl (proj2 (cact_split fb f) (conj Hf Ec))) as P.
    rewrite (gvar_complex t f l Ec). clear - M P. lia.
  - pose proof (gvar_grid t f l Ht Hf Ec Hl) as G. clear - G. lia.
Qed.

Lemma gvar_inj : forall t f l t' f' l',
  t < T fb -> isact fb f = true -> l < nlevels fb f -> lappl fb f t = true ->
  t' < T fb -> isact fb f' = true -> l' < nlevels fb f' -> lappl fb f' t' = true ->
  gvar fb t f l = gvar fb t' f' l' -> t = t' /\ f = f' /\ l = l'.
Proof.
  intros t f l t' f' l' Ht Hf Hl Ha Ht' Hf' Hl' Ha' H.
  destruct (is_complex fb f) eqn:Ec; destruct (is_complex fb f') eqn:Ec'.
  - rewrite (gvar_complex t f l Ec), (gvar_complex t' f' l' Ec') in H.
    destruct (psum_inj (cnl fb) f (prev fb f t * nlevels fb f + l) f' (prev fb f' t' * nlevels fb f' + l')) as [E1 E2].
    + apply cpos_lt; try assumption. now apply cact_split.
    + apply cpos_lt; try assumption. now apply cact_split.
    + change (coff fb f + (prev fb f t * nlevels fb f + l) = coff fb f' + (prev fb f' t' * nlevels fb f' + l')).
      clear - H. lia.
    + subst f'. destruct (radix_inj _ _ _ _ _ Hl Hl' E2) as [E3 E4].
      split; [|split; [reflexivity|exact E4]].
      destruct (Nat.lt_trichotomy t t') as [C|[C|C]]; [|exact C|].
      * pose proof (prev_lt fb f t t' C Ha) as P. clear - P E3. lia.
      * pose proof (prev_lt fb f t' t C Ha') as P. clear - P E3. lia.
  - pose proof (gvar_above t f l Ec) as A. pose proof (gvar_grid t' f' l' Ht' Hf' Ec' Hl') as G. clear - A G H. lia.
  - pose proof (gvar_above t' f' l' Ec') as A. pose proof (gvar_grid t f l Ht Hf Ec Hl) as G. clear - A G H. lia.
  - pose proof (proj2 (sact_split fb f) (conj Hf Ec)) as Sf. pose proof (proj2 (sact_split fb f') (conj Hf' Ec')) as Sf'.
    pose proof (f1_off_vpt f Sf) as B. pose proof (f1_off_vpt f' Sf') as B'.
    rewrite (gvar_simple t f l Ec), (gvar_simple t' f' l' Ec') in H.
    destruct (radix_inj (vpt fb) t (off fb f + l) t' (off fb f' + l')) as [E1 E2];
      [clear - B Hl; lia|clear - B' Hl'; lia|clear - H; lia|].
    split; [exact E1|]. apply (psum_inj (anl fb)); [now rewrite anl_act|now rewrite anl_act|exact E2].
Qed.

Lemma gvar_surj : forall v, 1 <= v <= VN fb ->
  exists t f l, t < T fb /\ isact fb f = true /\ l < nlevels fb f /\ lappl fb f t = true /\ v = gvar fb t f l.
Proof.
  intros v Hv. destruct (Nat.le_gt_cases v (GN fb)) as [C|C].
  - unfold GN in C.
    assert (V : vpt fb <> 0) by (intros E; rewrite E, Nat.mul_0_r in C; clear - C Hv; lia).
    pose proof (Nat.div_mod (v - 1) (vpt fb) V) as D. rewrite Nat.mul_comm in D.
    destruct (psum_decompose (anl fb) (nf fb) ((v - 1) mod vpt fb)) as (f & l & _ & Hl & El).
    { change (psum (anl fb) (nf fb)) with (off fb (nf fb)). rewrite <- f1_vpt. apply Nat.mod_upper_bound, V. }
    unfold anl in Hl. destruct (sact fb f) eqn:Hs; [|inversion Hl].
    destruct (proj1 (sact_split fb f) Hs) as [Hi Hc].
    exists ((v - 1) / vpt fb), f, l. repeat split; auto.
    + apply Nat.div_lt_upper_bound; [exact V|]. rewrite Nat.mul_comm. clear - C Hv. lia.
    + apply lappl_simple; assumption.
    + rewrite gvar_simple by assumption. change (psum (anl fb) f) with (off fb f) in El. clear - D El Hv. lia.
  - unfold VN in Hv.
    destruct (psum_decompose (cnl fb) (nf fb) (v - GN fb - 1)) as (f & r & Hlt & Hr & Er); [clear - Hv C; unfold coff, psum in *; lia|].
    unfold cnl in Hr. destruct (cact fb f) eqn:Hc; [|inversion Hr].
    destruct (proj1 (cact_split fb f) Hc) as [Hi Hcx].
    assert (N0 : nlevels fb f <> 0) by (pose proof (f1_nlevels_pos f Hlt) as NL; clear - NL; lia).
    pose proof (Nat.div_mod r (nlevels fb f) N0) as D. rewrite Nat.mul_comm in D.
    assert (K : r / nlevels fb f < napp fb f).
    { apply Nat.div_lt_upper_bound; [exact N0|]. now rewrite Nat.mul_comm. }
    destruct (prev_hit fb f (T fb) (r / nlevels fb f) K) as (t & Ht & Ha & Ep).
    exists t, f, (r mod nlevels fb f). repeat split; auto.
    + apply Nat.mod_upper_bound, N0.
    + rewrite gvar_complex by assumption. rewrite Ep. change (psum (cnl fb) f) with (coff fb f) in Er. clear - D Er C. lia.
Qed.

Lemma f1_ranges_pos : forall wb rs, 0 < T fb -> map_block_trial_ranges fb wb = Some rs ->
  Forall (fun r => 0 < snd r) rs.
Proof.
  intros wb rs HT H. destruct (ranges_inv fb wb rs H) as (fuel & start & e & step & stop & -> & _ & He).
  destruct e as [|e]; [rewrite (He eq_refl), ranges_loop_stop0; constructor|].
  apply ranges_loop_pos; [apply Nat.lt_0_succ|exact HT].
Qed.

Lemma f1_simple_range_vars : forall f l s e, is_complex fb f = false ->
  simple_range_vars fb (off fb f + l) s e = map (fun t => gvar fb t f l) (seq s (e - s)).
Proof.
  intros f l s e Hc. unfold simple_range_vars. rewrite (map_seq_shift0 (fun t => gvar fb t f l)).
  apply map_ext. intros i. rewrite gvar_simple by assumption. unfold vpt. lia.
Qed.

Lemma f1_complex_range_vars : forall f l s e, f < nf fb -> is_complex fb f = true -> 0 < e ->
  complex_range_vars fb f (GN fb + coff fb f + l) s e = map (fun t => gvar fb t f l) (trials_of fb f s e).
Proof.
  intros f l s e Hf Hc He. pose proof (f1_nlevels_pos f Hf) as NL.
  unfold complex_range_vars. cbv zeta. rewrite vff_trials_of by lia. rewrite Nat.div_mul by lia.
  replace (s + 1) with (S s) by lia. change (previous_trials_count fb f (S s)) with (prev fb f s).
  transitivity (map (fun k => GN fb + coff fb f + k * nlevels fb f + l + 1)
                    (map (prev fb f) (trials_of fb f s e))).
  2: { rewrite map_map. apply map_ext. intros t. symmetry. apply gvar_complex. exact Hc. }
  rewrite trials_of_prev, (map_seq_shift0 _ (prev fb f s)). apply map_ext. intros i. lia.
Qed.

Lemma f1_var_lists : forall f l wb rs, 0 < T fb -> isact fb f = true -> l < nlevels fb f ->
  map_block_trial_ranges fb wb = Some rs ->
  var_lists fb f l wb =
  COk (map (fun r => map (fun t => gvar fb t f l) (trials_of fb f (fst r) (snd r))) rs).
Proof.
  intros f l wb rs HT Hf Hl Hrs. unfold var_lists. rewrite Hrs.
  assert (B : build_variable_lists fb f l wb =
              Some (map (fun r => map (fun t => gvar fb t f l) (trials_of fb f (fst r) (snd r))) rs)).
  { unfold build_variable_lists. rewrite f1_first_var, Hrs by assumption.
    pose proof (f1_ranges_pos wb rs HT Hrs) as P. rewrite Forall_forall in P.
    destruct (is_complex fb f) eqn:Ec; cbv beta iota; f_equal; apply map_ext_in; intros r Hr.
    - apply f1_complex_range_vars; [apply f1_act_lt; exact Hf|exact Ec|apply P; exact Hr].
    - rewrite f1_simple_range_vars by assumption. rewrite trials_of_simple by assumption. reflexivity. }
  destruct rs; [reflexivity|]. rewrite B. reflexivity.
Qed.

(** the whole-sequence case ([within_block = None]) *)
Lemma f1_var_lists_none : forall f l, 0 < T fb -> isact fb f = true -> l < nlevels fb f ->
  var_lists fb f l None =
  COk [map (fun t => gvar fb t f l) (trials_of fb f 0 (T fb))].
Proof.
  intros f l HT Hf Hl. rewrite (f1_var_lists f l None _ HT Hf Hl (f1_ranges_none fb)).
  replace (0 <? T fb) with true by (symmetry; now apply Nat.ltb_lt). reflexivity.
Qed.

(** ** Consistency: per trial the grid factors, then per complex factor its trials *)
Definition cons_row (t f : nat) : req :=
  (Card.EQ, 1%Z, map (fun l => Z.of_nat (gvar fb t f l)) (seq 0 (nlevels fb f))).

Definition cons_all : list req :=
  flat_map (fun t => map (cons_row t) (filter (sact fb) (seq 0 (nf fb)))) (seq 0 (T fb)) ++
  flat_map (fun f => map (fun t => cons_row t f) (trials_of fb f 0 (T fb))) (filter (cact fb) (seq 0 (nf fb))).

Definition cons_grid (t0 n : nat) : list req :=
  flat_map (fun t => map (cons_row t) (filter (sact fb) (seq 0 (nf fb)))) (seq t0 n).

Lemma f1_cons_factors : forall t n s,
  cons_factors fb (filter (sact fb) (seq s n)) (1 + Z.of_nat (t * vpt fb + off fb s))%Z
  = (map (cons_row t) (filter (sact fb) (seq s n)), (1 + Z.of_nat (t * vpt fb + off fb (s + n)))%Z).
Proof.
  intros t. induction n as [|n IH]; intros s.
  - cbn [seq filter cons_factors map]. rewrite Nat.add_0_r. reflexivity.
  - cbn [seq filter]. replace (s + S n) with (S s + n) by lia.
    destruct (sact fb s) eqn:Es.
    + cbn [cons_factors map].
      replace (1 + Z.of_nat (t * vpt fb + off fb s) + zn (nlevels fb s))%Z
        with (1 + Z.of_nat (t * vpt fb + off fb (S s)))%Z
        by (rewrite off_S, (anl_act fb s Es); unfold zn; lia).
      rewrite IH. f_equal. f_equal.
      unfold cons_row. f_equal. rewrite zrange_map. apply map_ext. intros i.
      rewrite gvar_simple by (apply (sact_split fb s), Es). lia.
    + replace (off fb s) with (off fb (S s)) by (rewrite off_S, (anl_nact fb s Es); lia).
      apply IH.
Qed.

Lemma f1_cons_factors_act : forall t,
  cons_factors fb (simple_act fb) (1 + Z.of_nat (t * vpt fb))%Z
  = (map (cons_row t) (filter (sact fb) (seq 0 (nf fb))), (1 + Z.of_nat (S t * vpt fb))%Z).
Proof.
  intros t. rewrite f1_simple_act.
  replace (1 + Z.of_nat (t * vpt fb))%Z with (1 + Z.of_nat (t * vpt fb + off fb 0))%Z
    by (change (off fb 0) with 0; lia).
  rewrite f1_cons_factors. cbn [Nat.add]. rewrite <- f1_vpt.
  replace (t * vpt fb + vpt fb) with (S t * vpt fb) by lia. reflexivity.
Qed.

Lemma f1_cons_trials : forall n t,
  cons_trials fb n (1 + Z.of_nat (t * vpt fb))%Z
  = (cons_grid t n, (1 + Z.of_nat ((t + n) * vpt fb))%Z).
Proof.
  induction n as [|n IH]; intros t.
  - cbn [cons_trials]. unfold cons_grid. cbn [seq flat_map]. rewrite Nat.add_0_r. reflexivity.
  - cbn [cons_trials]. rewrite f1_cons_factors_act.
    rewrite IH. unfold cons_grid. cbn [seq flat_map].
    replace (S t + n) with (t + S n) by lia. reflexivity.
Qed.

Lemma f1_cons_complex : forall n s,
  cons_complex fb (filter (cact fb) (seq s n)) (1 + Z.of_nat (GN fb + coff fb s))%Z
  = flat_map (fun f => map (fun t => cons_row t f) (trials_of fb f 0 (T fb))) (filter (cact fb) (seq s n)).
Proof.
  induction n as [|n IH]; intros s; [reflexivity|].
  cbn [seq filter]. destruct (cact fb s) eqn:Es.
  - cbn [cons_complex flat_map]. cbv zeta. rewrite vff_napp.
    replace (1 + Z.of_nat (GN fb + coff fb s) + zn (napp fb s * nlevels fb s))%Z
      with (1 + Z.of_nat (GN fb + coff fb (S s)))%Z
      by (rewrite coff_S, (cnl_act s Es); unfold zn; lia).
    rewrite IH. f_equal.
    destruct (proj1 (cact_split fb s) Es) as [Hi Hc].
    pose proof (f1_nlevels_pos s (f1_act_lt s Hi)) as NL.
    rewrite zrange_length, chunk_zrange by nia.
    rewrite map_map.
    transitivity (map (fun k => (Card.EQ, 1%Z,
                                 map (fun l => Z.of_nat (GN fb + coff fb s + k * nlevels fb s + l + 1))
                                     (seq 0 (nlevels fb s))))
                      (map (prev fb s) (trials_of fb s 0 (T fb)))).
    + rewrite trials_of_prev, trials_of_length by lia. rewrite prev_0, Nat.sub_0_r. unfold napp.
      apply map_ext. intros k. f_equal. rewrite zrange_map. apply map_ext. intros l. lia.
    + rewrite map_map. apply map_ext. intros t. unfold cons_row. f_equal. apply map_ext. intros l.
      rewrite gvar_complex by exact Hc. reflexivity.
  - replace (coff fb s) with (coff fb (S s)) by (rewrite coff_S, (cnl_nact s Es); lia).
    apply IH.
Qed.

Lemma f1_consistency : forall fresh,
  apply_consistency fb fresh = COk {| ct_fresh := fresh; ct_clauses := []; ct_requests := cons_all |}.
Proof.
  intros fresh. unfold apply_consistency.
  assert (H : cons_trials fb (T fb) 1%Z = (cons_grid 0 (T fb), (1 + Z.of_nat (GN fb + coff fb 0))%Z)).
  { pose proof (f1_cons_trials (T fb) 0) as H. change (coff fb 0) with 0. unfold GN.
    replace (T fb * vpt fb + 0) with ((0 + T fb) * vpt fb) by lia. exact H. }
  rewrite H, f1_complex_act, f1_cons_complex. reflexivity.
Qed.

End F1.

(** The hypothesis is satisfiable: two plain factors with 2 and 3 levels fully
    crossed over 6 trials. *)
Definition ex_level : flevel :=
  {| lv_name := String.EmptyString; lv_weight := 1; lv_accepts := [] |}.
Definition ex_factor (n : nat) : ffactor :=
  {| ff_name := String.EmptyString; ff_hidden := false; ff_levels := repeat ex_level n;
     ff_window := None; ff_complex := false |}.
Definition ex_fb : flat :=
  {| fl_design := [ex_factor 2; ex_factor 3]; fl_act := [0; 1];
     fl_crossings := [[0; 1]]; fl_sustains := [1]; fl_weights := [1]; fl_sizes := [6];
     fl_preambles := [0]; fl_alignment := PostPreamble; fl_alignment_preamble := 0;
     fl_min_trials := 0; fl_trials := 6; fl_rcc := false; fl_exclude := [];
     fl_excluded_derived := []; fl_constraints := [FCross; FConsistency];
     fl_errors_fail := false |}.

Example ex_fb_in_f1 : in_f1 ex_fb = true.
Proof. vm_compute. reflexivity. Qed.

Example ex_fb_gvar : gvar ex_fb 1 1 2 = 10 /\ get_variable ex_fb 2 1 2 = COk 10.
Proof. vm_compute. split; reflexivity. Qed.

Print Assumptions f1_consistency.
Print Assumptions f1_var_lists.
