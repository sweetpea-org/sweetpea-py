(** The (a) half of [Cross] in the fragment F1: the state variables are
    definitional (each is the conjunction of the level variables of its
    combination in its trial), the Tseitin variables are definitional, and what
    remains is, per admitted combination, the chunked counting condition of
    [__add_weight_constraint] on the boolean list "trial t shows combination c". *)
From Coq Require Import ZArith List Bool Arith Lia.
From SP Require Import Base.Lists Base.Sat Base.Bits Core.Card Core.CardProofs.
From SP Require Import Logic.Formula Logic.Tseitin Logic.TseitinProofs.
From SP Require Import Design.Flat Design.Layout Design.Sem.
From SP Require Import Encode.Compile Encode.CodeSem Encode.Generic Encode.Blocks Encode.Runs
     Encode.GridLemmas Encode.CrossChunks Encode.LayoutF1 Encode.F1Lists Encode.F1Kinds.
Import ListNotations.
Close Scope Z_scope.
Open Scope nat_scope.

Lemma zrange_nth a n i : i < n -> nth i (zrange a n) 0%Z = (a + Z.of_nat i)%Z.
Proof. intros H. rewrite zrange_map. exact (nth_map_seq (fun i => (a + Z.of_nat i)%Z) n i 0%Z H). Qed.

Lemma map2_nth {A B C} (f : A -> B -> C) (la : list A) (lb : list B) (da : A) (db : B) :
  length la = length lb ->
  map2 f la lb = map (fun n => f (nth n la da) (nth n lb db)) (seq 0 (length la)).
Proof.
  revert lb. induction la as [|a la IH]; intros [|b lb] H; cbn [length] in H; try discriminate; [reflexivity|].
  cbn [map2 length seq map nth]. f_equal. rewrite <- seq_shift, map_map. apply IH. lia.
Qed.

Lemma concat_uniform_length {A} (rows : list (list A)) nc :
  Forall (fun r => length r = nc) rows -> length (concat rows) = length rows * nc.
Proof.
  intros H. induction H as [|r rows Hr _ IH]; [reflexivity|]. cbn [concat length]. rewrite app_length, IH, Hr. lia.
Qed.

Lemma nth_concat_uniform {A} (rows : list (list A)) nc (d : A) : forall t j,
  Forall (fun r => length r = nc) rows -> t < length rows -> j < nc ->
  nth (t * nc + j) (concat rows) d = nth j (nth t rows []) d.
Proof.
  induction rows as [|r rows IH]; intros t j H Ht Hj; [cbn in Ht; lia|].
  inversion H as [|? ? Hr Hrs]; subst. cbn [concat]. destruct t as [|t].
  - cbn [Nat.mul Nat.add nth]. rewrite app_nth1 by lia. reflexivity.
  - cbn [nth]. rewrite app_nth2 by lia. replace (S t * length r + j - length r) with (t * length r + j) by lia.
    apply IH; [assumption|cbn [length] in Ht; lia|assumption].
Qed.

Lemma Forall2_Forall_iff {A B} (R : A -> B -> Prop) (P : A -> Prop) (Q : B -> Prop) (l : list A) (r : list B) :
  Forall2 R l r -> (forall x y, In x l -> R x y -> (Q y <-> P x)) -> (Forall Q r <-> Forall P l).
Proof.
  intros H. induction H as [|x y l r Hxy _ IH]; intros HR; [split; constructor|].
  rewrite !Forall_cons_iff, (HR x y (or_introl eq_refl) Hxy), IH; [reflexivity|].
  intros a b Ha. apply HR. now right.
Qed.

Lemma combine_map_seq {A B C} (f : nat -> A) (g : C -> B) (l : list C) (d : C) :
  combine (map f (seq 0 (length l))) (map g l) = map (fun j => (f j, g (nth j l d))) (seq 0 (length l)).
Proof.
  revert f. induction l as [|x l IH]; intros f; [reflexivity|].
  cbn [length seq map combine nth]. f_equal. rewrite <- seq_shift, !map_map. apply (IH (fun j => f (S j))).
Qed.

Lemma Forall_nth_seq {A} (P : A -> Prop) (l : list A) (d : A) :
  Forall P l <-> Forall (fun j => P (nth j l d)) (seq 0 (length l)).
Proof.
  induction l as [|x l IH]; [split; constructor|].
  cbn [length seq]. rewrite !Forall_cons_iff, <- seq_shift, Forall_map. cbn [nth]. now rewrite IH.
Qed.

Lemma req_rel_ext s t r : (forall v, s v = t v) -> (req_rel s r <-> req_rel t r).
Proof.
  intros H. destruct r as [[kd k] vs]. cbn [req_rel]. unfold count.
  replace (filter (lit_true s) vs) with (filter (lit_true t) vs); [reflexivity|].
  apply filter_ext. intros a. unfold lit_true. now rewrite !H.
Qed.

Lemma eval_fvs s (us : list nat) : Forall (fun u => 0 < u) us ->
  forallb (eval s) (map fv us) = forallb (fun u => s (zn u)) us.
Proof.
  intros H. rewrite forallb_map. apply forallb_ext_in. intros u Hu. cbn [fv eval].
  apply lit_true_pos. apply (Nat2Z.inj_lt 0). exact (Forall_In _ _ _ H Hu).
Qed.

Section F1Cross.
Variable fb : flat.
Hypothesis HF1 : in_f1 fb = true.
Hypothesis HT : 0 < T fb.

Notation GZ := (GZ fb).
Notation bit := (bit fb).

(** "trial t shows combination di" on the boolean grid *)
Definition cbit (s : asg) (di : list (nat * nat)) (t : nat) : bool :=
  forallb (fun p => bit s t (fst p) (snd p)) di.

Definition gv (t : nat) (p : nat * nat) : nat := gvar fb t (fst p) (snd p).

(** the counting condition of one crossing *)
Definition Pcross1 (i : nat) (c : list nat) (s : asg) : Prop :=
  Forall (fun di => awc_ok (S (T fb - preamble_size fb i))
                           (map (cbit s di) (seq (preamble_size fb i) (T fb - preamble_size fb i)))
                           (combination_weight fb di * sustain_of fb (hd 0 c) * crossing_weight fb c)
                           (nth i (fl_sizes fb) 0 * crossing_weight fb c))
         (trial_combinations_of fb c).

Fixpoint Pcrossings (i : nat) (cs : list (list nat)) (s : asg) : Prop :=
  match cs with
  | [] => True
  | c :: r => Pcross1 i c s /\ Pcrossings (S i) r s
  end.

Definition Pcross (s : asg) : Prop := Pcrossings 0 (fl_crossings fb) s.

Lemma combos_cons f r :
  crossing_combos fb (f :: r) =
  flat_map (fun l => map (cons (f, l)) (crossing_combos fb r)) (seq 0 (nlevels fb f)).
Proof. unfold crossing_combos. cbn [map product]. now rewrite flat_map_map. Qed.

Lemma combos_spec c : forall di, In di (crossing_combos fb c) ->
  map fst di = c /\ Forall (fun p => snd p < nlevels fb (fst p)) di.
Proof.
  induction c as [|f r IH]; intros di H.
  - cbn in H. destruct H as [<-|[]]. split; [reflexivity|constructor].
  - rewrite combos_cons in H. apply in_flat_map in H. destruct H as (l & Hl & H). apply in_seq in Hl.
    apply in_map_iff in H. destruct H as (di' & <- & Hdi'). destruct (IH di' Hdi') as [A B].
    split; [cbn [map fst]; now rewrite A|]. constructor; [cbn [fst snd]; lia|exact B].
Qed.

Lemma combo_vars_ok c di t fresh :
  Forall (fun f => isact fb f = true) c -> Forall (fun f => lappl fb f t = true) c ->
  In di (crossing_combos fb c) -> t < T fb -> (GZ < fresh)%Z ->
  Forall (fun v => 0 < v /\ (zn v <= fresh - 1)%Z) (map (gv t) di).
Proof.
  intros Hc Ha Hdi Ht Hfr. destruct (combos_spec c di Hdi) as [A B].
  apply Forall_map. apply Forall_forall. intros p Hp. unfold gv. split; [apply gvar_pos|].
  assert (Hin : In (fst p) c) by (rewrite <- A; now apply in_map).
  pose proof (Forall_In _ _ _ Hc Hin) as Hf. pose proof (Forall_In _ _ _ Ha Hin) as Hap.
  cbv beta in Hf, Hap.
  pose proof (gvar_le fb HF1 HT t (fst p) (snd p) Ht Hf (Forall_In _ _ _ B Hp) Hap). lia.
Qed.

Lemma encode_combo c di t :
  Forall (fun f => isact fb f = true) c -> In di (crossing_combos fb c) ->
  encode_combination fb di t = COk (map (gv (t - 1)) di).
Proof.
  intros Hc Hdi. destruct (combos_spec c di Hdi) as [A B]. unfold encode_combination.
  apply cmapM_ok. intros p Hp.
  assert (Hf : isact fb (fst p) = true).
  { apply (proj1 (Forall_forall _ _) Hc). rewrite <- A. now apply in_map. }
  rewrite (f1_encode_any fb HF1 (fst p) (snd p) t Hf (Forall_In _ _ _ B Hp)). reflexivity.
Qed.

Lemma match_first {A B} (l : list A) (e : B) (f : A -> B) (d : A) :
  l <> [] -> match l with [] => e | x :: _ => f x end = f (hd d l).
Proof. destruct l; [contradiction|reflexivity]. Qed.

Lemma tcs_sub c di : In di (trial_combinations_of fb c) -> In di (crossing_combos fb c).
Proof. unfold trial_combinations_of. intros H. apply filter_In in H. apply H. Qed.

(** factors whose levels start by trial [pre] (stride 1) have a level in every later trial *)
Lemma starts_appl c pre t :
  Forall (fun f => isact fb f = true) c -> Forall (fun f => stride1 fb f = true /\ start_of fb f <= pre) c ->
  pre <= t -> Forall (fun f => lappl fb f t = true) c.
Proof.
  intros Hc Hc2 Ht. apply Forall_forall. intros f Hf.
  pose proof (Forall_In _ _ _ Hc Hf) as Ha. destruct (Forall_In _ _ _ Hc2 Hf) as [Hs Hst].
  cbv beta in Ha. rewrite (lappl_stride1 fb HF1 f t Ha Hs). apply Nat.leb_le. exact (Nat.le_trans _ _ _ Hst Ht).
Qed.

Section One.
Variable i : nat.
Variable c : list nat.
Variable fresh : Z.
Hypothesis Hc : Forall (fun f => isact fb f = true) c.
Hypothesis Hfr : (GZ < fresh)%Z.

(** the crossing starts after its preamble; from there on every crossed factor has a level *)
Let pre := preamble_size fb i.
Let NT := T fb - pre.
Hypothesis Hpre : pre < T fb.
Hypothesis Hc2 : Forall (fun f => stride1 fb f = true /\ start_of fb f <= pre) c.

Lemma crossed_appl t : pre <= t -> Forall (fun f => lappl fb f t = true) c.
Proof. exact (starts_appl c pre t Hc Hc2). Qed.

Let combos := trial_combinations_of fb c.
Let nc := length combos.
Let N := NT * nc.
Let rows := map (fun t => map (fun di => map (gv t) di) combos) (seq pre NT).
Let flattened := concat rows.
Let fresh1 := (fresh + zn N)%Z.
Let iffs := map2 (fun sv vars => FIff (FVar sv) (FAnd (map fv vars))) (zrange fresh N) flattened.

Lemma combos_sub di : In di combos -> In di (crossing_combos fb c).
Proof. apply tcs_sub. Qed.

Lemma rows_uniform : Forall (fun r => length r = nc) rows.
Proof. unfold rows. apply Forall_map. apply Forall_forall. intros t _. now rewrite map_length. Qed.

Lemma rows_length : length rows = NT.
Proof. unfold rows. now rewrite map_length, seq_length. Qed.

Lemma flattened_length : length flattened = N.
Proof. unfold flattened. rewrite (concat_uniform_length rows nc rows_uniform), rows_length. reflexivity. Qed.

Lemma flattened_nth t j : t < NT -> j < nc ->
  nth (t * nc + j) flattened [] = map (gv (pre + t)) (nth j combos []).
Proof.
  intros Ht Hj. unfold flattened. rewrite (nth_concat_uniform rows nc [] t j rows_uniform) by (rewrite ?rows_length; assumption).
  unfold rows. rewrite (nth_indep _ [] (map (fun di => map (gv 0) di) combos)) by (rewrite map_length, seq_length; exact Ht).
  rewrite (map_nth (fun t => map (fun di => map (gv t) di) combos) (seq pre NT) 0 t), seq_nth by exact Ht.
  rewrite (nth_indep _ [] (map (gv (pre + t)) [])) by (rewrite map_length; exact Hj).
  now rewrite (map_nth (fun di => map (gv (pre + t)) di) combos [] j).
Qed.

Lemma index_split n : n < N -> exists t j, t < NT /\ j < nc /\ n = t * nc + j.
Proof.
  intros Hn. unfold N in Hn. assert (Hnc : 0 < nc) by (destruct nc; [lia|lia]).
  exists (n / nc), (n mod nc). split; [apply Nat.div_lt_upper_bound; lia|]. split; [apply Nat.mod_upper_bound; lia|].
  rewrite (Nat.div_mod n nc) at 1 by lia. lia.
Qed.

Lemma flattened_vars_ok n : n < N ->
  Forall (fun v => 0 < v /\ (zn v <= fresh - 1)%Z) (nth n flattened []).
Proof.
  intros Hn. destruct (index_split n Hn) as (t & j & Ht & Hj & ->). rewrite (flattened_nth t j Ht Hj).
  apply (combo_vars_ok c); try assumption; [apply crossed_appl; lia|apply combos_sub; apply nth_In; exact Hj|unfold NT in Ht; lia].
Qed.

(** the values the state variables must take *)
Definition extS (s : asg) : asg :=
  fun v => if ((fresh <=? v) && (v <? fresh1))%Z
           then forallb (fun u => s (zn u)) (nth (Z.to_nat (v - fresh)) flattened [])
           else s v.

Lemma extS_out s v : ~ (fresh - 1 < v <= fresh1 - 1)%Z -> extS s v = s v.
Proof.
  intros H. unfold extS. destruct ((fresh <=? v) && (v <? fresh1))%Z eqn:E; [|reflexivity].
  apply andb_true_iff in E. destruct E as [E1 E2]. apply Z.leb_le in E1. apply Z.ltb_lt in E2. lia.
Qed.

Lemma extS_in s n : n < N -> extS s (fresh + zn n)%Z = forallb (fun u => s (zn u)) (nth n flattened []).
Proof.
  intros Hn. unfold extS, fresh1. replace ((fresh <=? fresh + zn n) && (fresh + zn n <? fresh + zn N))%Z with true.
  - unfold zn. now replace (Z.to_nat (fresh + Z.of_nat n - fresh)) with n by lia.
  - symmetry. apply andb_true_iff. split; [apply Z.leb_le|apply Z.ltb_lt]; unfold zn; lia.
Qed.

Lemma extS_local s t : agree_upto (fresh - 1) s t -> forall v, (fresh - 1 < v <= fresh1 - 1)%Z -> extS s v = extS t v.
Proof.
  intros A v Hv. unfold fresh1 in Hv. replace v with (fresh + zn (Z.to_nat (v - fresh)))%Z by (unfold zn; lia).
  assert (Hn : Z.to_nat (v - fresh) < N) by (unfold zn in Hv; lia).
  rewrite !extS_in by exact Hn. apply forallb_ext_in. intros u Hu.
  destruct (proj1 (Forall_forall _ _) (flattened_vars_ok _ Hn) u Hu) as [U1 U2]. apply A. unfold zn in *. lia.
Qed.

Lemma iffs_eq :
  iffs = map (fun n => FIff (FVar (fresh + zn n)%Z) (FAnd (map fv (nth n flattened [])))) (seq 0 N).
Proof.
  unfold iffs. rewrite (map2_nth _ (zrange fresh N) flattened 0%Z []) by (now rewrite zrange_length, flattened_length).
  rewrite zrange_length. apply map_ext_in. intros n Hn. apply in_seq in Hn. now rewrite zrange_nth by lia.
Qed.

Lemma eval_iffs s :
  eval s (FAnd iffs) = true <-> forall v, (fresh - 1 < v <= fresh1 - 1)%Z -> s v = extS s v.
Proof.
  pose proof (GZ_nonneg fb) as HG. rewrite iffs_eq. cbn [eval]. rewrite forallb_map, forallb_forall. split.
  - intros H v Hv. unfold fresh1 in Hv. replace v with (fresh + zn (Z.to_nat (v - fresh)))%Z by (unfold zn; lia).
    assert (Hn : Z.to_nat (v - fresh) < N) by (unfold zn in Hv; lia).
    specialize (H _ (proj2 (in_seq _ _ _) (conj (Nat.le_0_l _) Hn))). cbn [eval] in H.
    rewrite lit_true_pos in H by (unfold zn; lia). rewrite eval_fvs in H.
    + rewrite extS_in by exact Hn. now apply eqb_prop.
    + exact (vars_pos _ _ (flattened_vars_ok _ Hn)).
  - intros H n Hn. apply in_seq in Hn. cbn [eval]. rewrite lit_true_pos by (unfold zn; lia).
    rewrite eval_fvs.
    + rewrite <- extS_in by lia. rewrite <- H; [apply eqb_reflx|]. unfold fresh1, zn. lia.
    + apply (vars_pos (fresh - 1)), flattened_vars_ok. lia.
Qed.

Lemma iffs_leaves z : In z (leaves (FAnd iffs)) -> z <> 0%Z /\ (Z.abs z < fresh1)%Z.
Proof.
  pose proof (GZ_nonneg fb) as HG. rewrite iffs_eq. cbn [leaves]. rewrite flat_map_map. intros H.
  apply in_flat_map in H. destruct H as (n & Hn & H). apply in_seq in Hn. cbn [leaves] in H.
  destruct H as [<-|H].
  - unfold fresh1, zn. lia.
  - apply in_flat_map in H. destruct H as (f & Hf & H). apply in_map_iff in Hf. destruct Hf as (u & <- & Hu).
    cbn [fv leaves] in H. destruct H as [<-|[]].
    destruct (proj1 (Forall_forall _ _) (flattened_vars_ok n ltac:(lia)) u Hu) as [U1 U2].
    unfold fresh1, zn in *. lia.
Qed.

(** the requests *)
Let cw := crossing_weight fb c.
Let size := nth i (fl_sizes fb) 0 * cw.
Let tr (j : nat) : list Z := map (fun t => (fresh + zn (t * nc + j))%Z) (seq 0 NT).
Let wt (di : list (nat * nat)) : nat := combination_weight fb di * sustain_of fb (hd 0 c).

Lemma tr_ok j : j < nc -> Forall (fun v => (0 < v <= fresh1 - 1)%Z) (tr j).
Proof.
  pose proof (GZ_nonneg fb) as HG. intros Hj. unfold tr. apply Forall_map. apply Forall_forall. intros t Ht. apply in_seq in Ht.
  assert (t * nc + j < N) by (unfold N; nia). unfold fresh1, zn. lia.
Qed.

Lemma tr_values s j : j < nc -> map (extS s) (tr j) = map (cbit s (nth j combos [])) (seq pre NT).
Proof.
  intros Hj. unfold tr. rewrite map_map, (map_seq_shift0 (cbit s (nth j combos [])) pre NT).
  apply map_ext_in. intros t Ht. apply in_seq in Ht.
  rewrite extS_in by (unfold N; nia). rewrite flattened_nth by lia. unfold cbit.
  rewrite forallb_map. reflexivity.
Qed.

Lemma reqs_pcross reqss :
  0 < size ->
  cmapM (fun p => add_weight_constraint (S (length (fst p))) (fst p) (snd p) size cw)
        (combine (map tr (seq 0 nc)) (map wt combos)) = COk reqss ->
  Forall (req_ok (fresh1 - 1)) (concat reqss) /\
  forall s, Forall (req_rel (extS s)) (concat reqss) <-> Pcross1 i c s.
Proof.
  intros Hsz E. apply cmapM_Forall2 in E. unfold nc in E. rewrite (combine_map_seq tr wt combos []) in E. fold nc in E.
  split.
  - apply Forall_concat.
    apply (Forall2_Forall_iff _ (fun _ => True) (Forall (req_ok (fresh1 - 1))) _ _ E); [|apply Forall_forall; trivial].
    intros p reqs Hp Hr. apply in_map_iff in Hp. destruct Hp as (j & <- & Hj). apply in_seq in Hj. cbn [fst snd] in Hr.
    split; [trivial|]. intros _. apply (awc_req_ok _ _ _ _ _ _ _ Hsz (tr_ok j ltac:(lia)) Hr).
  - intros s. rewrite Forall_concat. unfold Pcross1. fold combos. rewrite (Forall_nth_seq _ combos []). fold nc.
    rewrite (Forall2_Forall_iff _ (fun p => awc_ok (S (length (fst p))) (map (extS s) (fst p)) (snd p * cw) size) _ _ _ E).
    + rewrite Forall_map. apply Forall_iff_ext. intros j Hj. apply in_seq in Hj. cbn [fst snd].
      rewrite (tr_values s j ltac:(lia)). unfold tr at 1. rewrite map_length, seq_length. reflexivity.
    + intros p reqs Hp Hr. apply in_map_iff in Hp. destruct Hp as (j & <- & Hj). apply in_seq in Hj. cbn [fst snd] in *.
      apply (awc_requests (extS s) _ _ _ _ _ _); [|exact Hr].
      eapply Forall_impl; [|apply (tr_ok j); lia]. intros a [Ha _]. exact Ha.
Qed.

Lemma apply_one_crossing_eq :
  apply_one_crossing fb i c fresh =
  (reqss <~ cmapM (fun p => add_weight_constraint (S (length (fst p))) (fst p) (snd p) size cw)
                  (combine (map tr (seq 0 nc)) (map wt combos)) ;;
   tseitin_contrib iffs (concat reqss) fresh1).
Proof.
  unfold apply_one_crossing. fold combos. fold pre. fold NT.
  assert (Eenc : cmapM (fun t => cmapM (fun di => encode_combination fb di t) combos) (seq (1 + pre) NT) = COk rows).
  { unfold rows. cbn [Nat.add]. rewrite <- (seq_shift NT pre).
    rewrite (cmapM_ok _ (fun t => map (fun di => map (gv (t - 1)) di) combos)).
    - f_equal. rewrite map_map. apply map_ext. intros t. now replace (S t - 1) with t by lia.
    - intros t _. apply cmapM_ok. intros di Hdi. apply (encode_combo c); [exact Hc|now apply combos_sub]. }
  rewrite Eenc. cbn [cbind].
  assert (Hrows : rows <> []).
  { intros H. apply (f_equal (@length _)) in H. rewrite rows_length in H. cbn in H. unfold NT in H. lia. }
  rewrite (match_first rows _ _ [] Hrows).
  assert (Ehd : length (hd [] rows) = nc).
  { destruct rows as [|r0 rs] eqn:Er; [contradiction|]. cbn [hd]. pose proof rows_uniform as U. rewrite Er in U.
    now inversion U. }
  rewrite Ehd, seq_length. reflexivity.
Qed.

Lemma step_one_crossing ct :
  crossing_f1 fb i c = true ->
  apply_one_crossing fb i c fresh = COk ct ->
  exists ext, DefinesA (fresh - 1) (ct_fresh ct - 1) (ct_clauses ct) (ct_requests ct) ext (Pcross1 i c).
Proof.
  intros Hcf E. pose proof (GZ_nonneg fb) as HG.
  unfold crossing_f1 in Hcf. rewrite !andb_true_iff in Hcf. destruct Hcf as [[[_ Hsize] _] _].
  apply Nat.ltb_lt in Hsize. rewrite apply_one_crossing_eq in E.
  destruct (cmapM _ _) as [reqss|e] eqn:Ereq in E; cbn [cbind] in E; [|discriminate].
  destruct (reqs_pcross reqss Hsize Ereq) as [Rok Rsem].
  destruct (step_tseitin_requests iffs (concat reqss) fresh1 ct) as (extT & D2);
    [unfold fresh1, zn; lia|exact iffs_leaves|exact Rok|exact E|].
  pose proof (da_range _ _ _ _ _ _ D2) as RT.
  exists (fun s => extT (extS s)).
  eapply (definesA_absorb (fresh - 1) (fresh1 - 1) _ _ _ extS _ (Pcross1 i c)).
  - unfold fresh1, zn. lia.
  - exact extS_out.
  - exact extS_local.
  - exact D2.
  - intros s. cbv beta. rewrite eval_iffs.
    enough (K : (forall v, (fresh - 1 < v <= fresh1 - 1)%Z -> s v = extS s v) ->
                (Forall (req_rel s) (concat reqss) <-> Pcross1 i c s)) by tauto.
    (* equal on the state variables and, by [extS_out], elsewhere *)
    intros H1. rewrite <- Rsem. apply Forall_iff_ext. intros r _. apply req_rel_ext. intros v.
    destruct (Z_lt_le_dec (fresh - 1) v) as [A|A]; [destruct (Z_le_gt_dec v (fresh1 - 1)) as [B|B]|];
      [apply H1; lia|symmetry; apply extS_out; lia..].
Qed.

End One.

Lemma crossing_f1_factors i c : crossing_f1 fb i c = true -> Forall (fun f => isact fb f = true) c.
Proof.
  unfold crossing_f1. rewrite !andb_true_iff. intros [[[H _] _] _]. rewrite forallb_forall in H.
  apply Forall_forall. intros f Hf. specialize (H f Hf). rewrite !andb_true_iff in H. apply H.
Qed.

Lemma crossing_f1_starts i c : crossing_f1 fb i c = true ->
  preamble_size fb i < T fb /\
  Forall (fun f => stride1 fb f = true /\ start_of fb f <= preamble_size fb i) c.
Proof.
  unfold crossing_f1. rewrite !andb_true_iff. intros [[[H _] Hp] _]. rewrite forallb_forall in H.
  split; [now apply Nat.ltb_lt in Hp|].
  apply Forall_forall. intros f Hf. specialize (H f Hf). rewrite !andb_true_iff in H.
  destruct H as [[_ H1] H2]. apply Nat.leb_le in H2. now split.
Qed.

Lemma step_crossings cs : forall i fresh ct,
  crossings_f1 fb i cs = true -> (GZ < fresh)%Z ->
  apply_crossings fb i cs fresh = COk ct ->
  exists ext, DefinesA (fresh - 1) (ct_fresh ct - 1) (ct_clauses ct) (ct_requests ct) ext (Pcrossings i cs).
Proof.
  induction cs as [|c cs IH]; intros i fresh ct Hf Hfr E.
  - cbn [apply_crossings] in E. inversion E. subst ct. cbn [ct_fresh ct_clauses ct_requests Pcrossings].
    exists (fun s => s). apply definesA_nil. unfold F1Kinds.GZ, zn in Hfr. lia.
  - cbn [crossings_f1] in Hf. apply andb_true_iff in Hf. destruct Hf as [Hc Hcs].
    cbn [apply_crossings] in E.
    destruct (apply_one_crossing fb i c fresh) as [c1|e] eqn:E1; cbn [cbind] in E; [|discriminate].
    destruct (apply_crossings fb (S i) cs (ct_fresh c1)) as [c2|e] eqn:E2; cbn [cbind] in E; [|discriminate].
    inversion E. subst ct. clear E. cbn [ct_fresh ct_clauses ct_requests Pcrossings].
    destruct (crossing_f1_starts i c Hc) as [Hp1 Hp2].
    destruct (step_one_crossing i c fresh (crossing_f1_factors i c Hc) Hfr Hp1 Hp2 c1 Hc E1) as (e1 & D1).
    pose proof (da_range _ _ _ _ _ _ D1) as R1.
    destruct (IH (S i) (ct_fresh c1) c2 Hcs ltac:(lia) E2) as (e2 & D2).
    exists (fun s => e2 (e1 s)). exact (definesA_seq _ _ _ _ _ _ _ _ _ _ _ D1 D2).
Qed.

Lemma step_cross :
  forall fresh ct, (GZ < fresh)%Z -> apply_constraint fb FCross fresh = COk ct ->
  exists ext, DefinesA (fresh - 1) (ct_fresh ct - 1) (ct_clauses ct) (ct_requests ct) ext Pcross.
Proof.
  intros fresh ct Hfr E. cbn [apply_constraint] in E. unfold apply_cross in E.
  apply (step_crossings _ 0 fresh ct (f1_crossings fb (in_f1_facts fb HF1)) Hfr E).
Qed.

End F1Cross.
