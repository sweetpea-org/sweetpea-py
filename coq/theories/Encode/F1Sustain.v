(** The [Sustain] constraint in F1 (Nest / Repeat: the factors of an outer
    crossing keep their level over groups of [sustain] trials): (a) its
    contribution is a Tseitin block saying that every level variable equals the
    variable of the first trial of its group; (b) on a one-hot grid this is the
    group condition of [Sem.factor_ok]. *)
From Coq Require Import ZArith List Bool Arith Lia.
From SP Require Import Base.Lists Base.Sat Base.Bits Core.Card Core.CardProofs.
From SP Require Import Logic.Formula Logic.Tseitin Logic.TseitinProofs.
From SP Require Import Design.Flat Design.Layout Design.Sem.
From SP Require Import Encode.Compile Encode.CodeSem Encode.Generic Encode.Blocks Encode.Runs
     Encode.GridLemmas Encode.CrossChunks Encode.LayoutF1 Encode.F1Lists Encode.F1Kinds Encode.F1Cross Encode.F1Sem.
Import ListNotations.
Close Scope Z_scope.
Open Scope nat_scope.

Section F1Sustain.
Variable fb : flat.
Hypothesis HF1 : in_f1 fb = true.
Hypothesis HT : 0 < T fb.

Notation GZ := (GZ fb).
Notation bit := (bit fb).
Let FF : F1facts fb := in_f1_facts fb HF1.

(** the variables of a level over the trials in which its factor has a level *)
Definition lvars (f l : nat) : list nat := map (fun t => gvar fb t f l) (trials_of fb f 0 (T fb)).

Definition sust_level (f l : nat) : list fm := sustain_iffs_of_list (sustain_of fb f) (lvars f l) ++ [].
Definition sust_factor (f : nat) : list fm := concat (map (sust_level f) (seq 0 (nlevels fb f))).
Definition sust_formulas : list fm := concat (map sust_factor (fl_act fb)).

Definition Psust (s : asg) : Prop := eval s (FAnd sust_formulas) = true.

(** the group condition on the grid *)
Definition Pgroups (s : asg) : Prop :=
  forall f l i, isact fb f = true -> l < nlevels fb f -> i < length (trials_of fb f 0 (T fb)) ->
    s (zn (nth i (lvars f l) 0)) = s (zn (nth ((i / sustain_of fb f) * sustain_of fb f) (lvars f l) 0)).

Lemma apply_sustain_eq fresh :
  apply_sustain fb fresh = tseitin_contrib sust_formulas [] fresh.
Proof.
  unfold apply_sustain.
  rewrite (cmapM_ok _ sust_factor); [reflexivity|].
  intros f Hf. apply (isact_In fb) in Hf.
  rewrite (cmapM_ok _ (sust_level f)); [reflexivity|].
  intros l Hl. apply in_seq in Hl.
  rewrite (f1_var_lists_none fb HF1 f l HT Hf ltac:(lia)). cbn [cbind flat_map]. reflexivity.
Qed.

Lemma in_sust_formulas x :
  In x sust_formulas <->
  exists f l i, isact fb f = true /\ l < nlevels fb f /\ i < length (trials_of fb f 0 (T fb)) /\
    x = FIff (fv (nth i (lvars f l) 0)) (fv (nth ((i / sustain_of fb f) * sustain_of fb f) (lvars f l) 0)).
Proof.
  split.
  - unfold sust_formulas, sust_factor, sust_level, sustain_iffs_of_list. rewrite in_concat.
    intros (fs & Hfs & Hx). apply in_map_iff in Hfs. destruct Hfs as (f & <- & Hf). apply (isact_In fb) in Hf.
    apply in_concat in Hx. destruct Hx as (ls & Hls & Hx). apply in_map_iff in Hls. destruct Hls as (l & <- & Hl).
    apply in_seq in Hl. rewrite app_nil_r in Hx. apply in_map_iff in Hx. destruct Hx as (i & <- & Hi). apply in_seq in Hi.
    unfold lvars in Hi. rewrite map_length in Hi. exists f, l, i. repeat split; try assumption; lia.
  - intros (f & l & i & Hf & Hl & Hi & ->). apply in_concat. exists (sust_factor f).
    split; [apply in_map; now apply (isact_In fb)|]. apply in_concat. exists (sust_level f l).
    split; [apply in_map; now apply in_seq0|]. unfold sust_level, sustain_iffs_of_list. rewrite app_nil_r.
    apply in_map_iff. exists i. split; [reflexivity|]. apply in_seq0. unfold lvars. now rewrite map_length.
Qed.

Lemma eval_lvar s f l j : j < length (trials_of fb f 0 (T fb)) ->
  eval s (fv (nth j (lvars f l) 0)) = s (zn (nth j (lvars f l) 0)).
Proof.
  intros Hj. apply lit_true_pos, (Nat2Z.inj_lt 0). unfold lvars. rewrite (nth_map_lt _ _ _ _ 0 Hj). apply gvar_pos.
Qed.

Lemma psust_groups s : Psust s <-> Pgroups s.
Proof.
  unfold Psust, Pgroups. cbn [eval]. rewrite forallb_forall. split.
  - intros H f l i Hf Hl Hi.
    specialize (H _ (proj2 (in_sust_formulas _) (ex_intro _ f (ex_intro _ l (ex_intro _ i (conj Hf (conj Hl (conj Hi eq_refl)))))))).
    cbn [eval] in H. rewrite !eval_lvar in H by (exact Hi || exact (Nat.le_lt_trans _ _ _ (group_le _ _) Hi)).
    now apply eqb_prop.
  - intros H x Hx. apply in_sust_formulas in Hx. destruct Hx as (f & l & i & Hf & Hl & Hi & ->). cbn [eval].
    rewrite !eval_lvar by (exact Hi || exact (Nat.le_lt_trans _ _ _ (group_le _ _) Hi)).
    rewrite (H f l i Hf Hl Hi). apply eqb_reflx.
Qed.

Lemma step_sustain :
  forall fresh ct, (GZ < fresh)%Z -> apply_constraint fb FSustain fresh = COk ct ->
  exists ext, DefinesA (fresh - 1) (ct_fresh ct - 1) (ct_clauses ct) (ct_requests ct) ext Psust.
Proof.
  intros fresh ct Hfr E. cbn [apply_constraint] in E. rewrite apply_sustain_eq in E.
  pose proof (GZ_nonneg fb) as HGZ.
  apply (step_tseitin sust_formulas fresh ct); [lia| |exact E].
  intros z Hz. cbn [leaves] in Hz. apply in_flat_map in Hz. destruct Hz as (x & Hx & Hz).
  apply in_sust_formulas in Hx. destruct Hx as (f & l & i & Hf & Hl & Hi & ->).
  pose proof (range_vars_ok fb HF1 HT f l (0, T fb) fresh Hf Hl (le_n _) Hfr) as Hok. pose proof (group_le i (sustain_of fb f)) as Hg.
  assert (Hnth : forall j, j < length (trials_of fb f 0 (T fb)) -> 0 < nth j (lvars f l) 0 /\ (zn (nth j (lvars f l) 0%nat) <= fresh - 1)%Z).
  { intros j Hj. apply (proj1 (Forall_forall _ _) Hok). apply nth_In. unfold lvars. now rewrite map_length. }
  cbn [leaves fv] in Hz. destruct Hz as [<-|[<-|[]]].
  - destruct (Hnth i Hi). unfold zn in *. lia.
  - destruct (Hnth (i / sustain_of fb f * sustain_of fb f) ltac:(lia)). unfold zn in *. lia.
Qed.

Lemma sustain_total fresh : exists ct, apply_constraint fb FSustain fresh = COk ct.
Proof. cbn [apply_constraint]. rewrite apply_sustain_eq. apply tseitin_contrib_total. Qed.

Definition grouped (q : tseq) : Prop :=
  forall f t, isact fb f = true -> t < T fb ->
    get_cell q f ((t / sustain_of fb f) * sustain_of fb f) = get_cell q f t.

Lemma complex_grouped q f t : isact fb f = true -> is_complex fb f = true ->
  get_cell q f ((t / sustain_of fb f) * sustain_of fb f) = get_cell q f t.
Proof. intros Ha Hc. rewrite (f1_sustain_cx fb HF1 f Ha Hc), Nat.div_1_r, Nat.mul_1_r. reflexivity. Qed.

Lemma lvars_simple f l i : isact fb f = true -> is_complex fb f = false -> i < T fb ->
  nth i (lvars f l) 0 = gvar fb i f l.
Proof.
  intros Hf Hcx Hi. unfold lvars. rewrite (trials_of_simple fb HF1 f 0 (T fb) Hf Hcx), Nat.sub_0_r.
  exact (nth_map_seq (fun t => gvar fb t f l) (T fb) i 0 Hi).
Qed.

Theorem sustain_sem s q : onehot fb s q -> (Psust s <-> grouped q).
Proof.
  intros Ho. rewrite psust_groups. unfold Pgroups, grouped. split.
  - intros H f t Hf Ht. destruct (is_complex fb f) eqn:Hcx; [now apply complex_grouped|].
    pose proof (Nat.le_lt_trans _ _ _ (group_le t (sustain_of fb f)) Ht) as Hg.
    destruct (onehot_simple_cell fb HF1 s q t f Ho Ht Hf Hcx) as (l & Hl & El). rewrite El.
    specialize (H f l t Hf Hl). rewrite (trials_of_simple fb HF1 f 0 (T fb) Hf Hcx), Nat.sub_0_r, seq_length in H.
    specialize (H Ht). rewrite !lvars_simple in H by assumption.
    apply (onehot_bit_true fb HF1 s q _ f l Ho Hg Hf Hcx Hl). unfold F1Kinds.bit. rewrite <- H.
    now apply (onehot_bit_true fb HF1 s q t f l Ho Ht Hf Hcx Hl).
  - intros H f l i Hf Hl Hi. destruct (is_complex fb f) eqn:Hcx.
    + now rewrite (f1_sustain_cx fb HF1 f Hf Hcx), Nat.div_1_r, Nat.mul_1_r.
    + rewrite (trials_of_simple fb HF1 f 0 (T fb) Hf Hcx), Nat.sub_0_r, seq_length in Hi.
      pose proof (Nat.le_lt_trans _ _ _ (group_le i (sustain_of fb f)) Hi) as Hg.
      rewrite !lvars_simple by assumption.
      change (bit s i f l = bit s (i / sustain_of fb f * sustain_of fb f) f l).
      rewrite (onehot_simple_bit fb HF1 s q i f l Ho Hi Hf Hcx Hl).
      rewrite (onehot_simple_bit fb HF1 s q (i / sustain_of fb f * sustain_of fb f) f l Ho Hg Hf Hcx Hl).
      now rewrite (H f i Hf Hi).
Qed.

(** without a [Sustain] constraint every sustain count is 1 and the group condition is void *)
Lemma grouped_trivial q : (forall f, sustain_of fb f = 1) -> grouped q.
Proof. intros H f t _ _. now rewrite (H f), Nat.div_1_r, Nat.mul_1_r. Qed.

End F1Sustain.

Check step_sustain.
Check sustain_sem.
Print Assumptions step_sustain.
Print Assumptions sustain_sem.
