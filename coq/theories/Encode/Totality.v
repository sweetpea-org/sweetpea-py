(** Totality of the compilation model (property C08): on the fragment F1 the
    model of [build_backend_request] never returns an error constructor, the
    cardinality stage succeeds on every request with a non-empty variable list
    (and fails - the real code raises ValueError - on an empty one), the
    AtLeastKInARow / ExactlyKInARow encoders succeed for every window length, and
    [Gen.decode] succeeds on one-hot assignments. *)
From Coq Require Import ZArith List Bool Arith Lia.
From SP Require Import Base.Sat Base.Bits Core.CnfModel Core.Card Core.CnfProofs Core.CardProofs.
From SP Require Import Design.Flat Design.Layout Design.Sem.
From SP Require Import Encode.Compile Encode.CodeSem Encode.Generic Encode.Blocks Encode.Runs
     Encode.GridLemmas Encode.CrossChunks Encode.LayoutF1 Encode.F1Lists Encode.F1Kinds Encode.F1Cross Encode.F1Deriv Encode.F1DerivC Encode.F1Sem Encode.F1Sustain Encode.F1Latin
     Encode.F1InARow Encode.F1Sequential Encode.CompileProofs Encode.CompileCorollaries.
From SP Require Sample.Decode Sample.DecodeProofs Design.LayoutWf Sample.DecodeWf.
Import ListNotations.
Close Scope Z_scope.
Open Scope nat_scope.

Lemma cbind_total {A B} (m : cres A) (k : A -> cres B) :
  (exists a, m = COk a) -> (forall a, exists b, k a = COk b) -> exists b, cbind m k = COk b.
Proof. intros [a ->] H. exact (H a). Qed.

Section F1Total.
Variable fb : flat.
Hypothesis HF1 : in_f1 fb = true.
Hypothesis HT : 0 < T fb.

Notation GZ := (GZ fb).
Notation Facts := (in_f1_facts fb HF1).

Lemma one_crossing_total i c fresh :
  crossing_f1 fb i c = true -> exists ct, apply_one_crossing fb i c fresh = COk ct.
Proof.
  intros Hcf. destruct (crossing_f1_starts fb i c Hcf) as [Hpre _].
  rewrite (apply_one_crossing_eq fb HF1 HT i c fresh (crossing_f1_factors fb i c Hcf) Hpre).
  unfold crossing_f1 in Hcf. apply andb_prop in Hcf as [[[_ Hsize%Nat.ltb_lt]%andb_prop _]%andb_prop _].
  apply cbind_total; [|intros reqss; apply tseitin_contrib_total].
  apply cmapM_total. intros p _. apply awc_total; [exact Hsize|lia].
Qed.

Lemma crossings_total cs : forall i fresh,
  crossings_f1 fb i cs = true -> exists ct, apply_crossings fb i cs fresh = COk ct.
Proof.
  induction cs as [|c cs IH]; intros i fresh Hf; cbn [apply_crossings]; [eexists; reflexivity|].
  cbn [crossings_f1] in Hf. apply andb_prop in Hf as [Hc Hcs].
  apply cbind_total; [exact (one_crossing_total i c fresh Hc)|intros c1].
  apply cbind_total; [exact (IH (S i) (ct_fresh c1) Hcs)|intros c2; eexists; reflexivity].
Qed.

Lemma constraint_total c fresh :
  In c (fl_constraints fb) -> exists ct, apply_constraint fb c fresh = COk ct.
Proof.
  intros Hin. pose proof (f1_constraints fb Facts c Hin) as Hc.
  destruct c; cbn [apply_constraint]; try (cbn [constraint_f1] in Hc; discriminate); try (eexists; reflexivity).
  - (* Cross *) exact (crossings_total _ 0 fresh (f1_crossings fb Facts)).
  - (* Consistency *) rewrite (f1_consistency fb HF1 fresh). eexists. reflexivity.
  - (* Sustain *) exact (sustain_total fb HF1 HT fresh).
  - (* Derivation *) exact (deriv_total fb HF1 HT _ _ _ fresh Hin).
  - (* AtMost *) exact (ex_intro _ _ (apply_atmost_eq fb HF1 HT _ _ _ _ fresh Hc)).
  - (* AtLeastKInARow *) exact (atleast_total fb HF1 HT _ _ _ _ fresh Hc).
  - (* ExactlyK *) exact (ex_intro _ _ (apply_exactlyk_eq fb HF1 HT _ _ _ _ fresh Hc)).
  - (* ExactlyKInARow *) exact (exactrow_total fb HF1 HT _ _ _ _ fresh Hc).
  - (* Exclude *) exact (ex_intro _ _ (apply_exclude_eq fb HF1 HT _ _ fresh Hc)).
  - (* Pin *) exact (ex_intro _ _ (apply_pin_eq fb HF1 HT _ _ _ _ fresh Hc)).
  - (* LatinSquare *) exact (latin_total fb HF1 HT _ fresh Hc).
  - (* Sequential *) exact (sequential_total fb HF1 HT _ fresh Hc).
Qed.

Lemma apply_all_total cs : forall b0,
  incl cs (fl_constraints fb) -> (GZ < b_fresh b0)%Z -> exists b, apply_all fb cs b0 = COk b.
Proof.
  induction cs as [|c cs IH]; intros b0 Hincl Hfr; cbn [apply_all]; [eexists; reflexivity|].
  assert (Hin : In c (fl_constraints fb)) by (apply Hincl; now left).
  destruct (constraint_total c (b_fresh b0) Hin) as [ct Ec]. rewrite Ec. cbn [cbind].
  pose proof (proj1 (Forall_forall _ _) (all_steps fb HF1 HT) c Hin (b_fresh b0) ct Hfr Ec) as (ext & D).
  pose proof (da_range _ _ _ _ _ _ D) as R.
  apply IH; [intros x Hx; apply Hincl; now right|]. cbn [b_fresh]. lia.
Qed.

Theorem compile_total_f1 : exists b, compile fb = COk b.
Proof.
  unfold compile. apply apply_all_total; [apply incl_refl|]. cbn [b_fresh].
  unfold F1Kinds.GZ. rewrite <- (f1_vps fb HF1). unfold zn. lia.
Qed.

End F1Total.

Lemma full_cnf_total b :
  (1 <= b_fresh b)%Z -> Forall (req_ok (b_fresh b - 1)) (b_requests b) ->
  exists n' final, full_cnf b = (true, n', final).
Proof.
  intros Hf Hok.
  destruct (run_requests_spec (b_requests b) (b_fresh b - 1)%Z ltac:(lia) Hok) as (n' & new & _ & _ & _ & R & _).
  exists n', (new ++ b_clauses b). unfold full_cnf, combine_requests.
  change {| next := (b_fresh b - 1)%Z; cls := [] |} with (mk (b_fresh b - 1)%Z []). rewrite R. reflexivity.
Qed.

(** an empty variable list is what the real code rejects with
    ValueError('cannot take pop count of empty list'): the model answers ok = false *)
Lemma full_cnf_empty_list :
  exists b, In (Card.EQ, 1%Z, []) (b_requests b) /\ fst (fst (full_cnf b)) = false.
Proof.
  exists {| b_fresh := 2%Z; b_clauses := []; b_requests := [(Card.EQ, 1%Z, [])] |}.
  split; [now left|]. vm_compute. reflexivity.
Qed.

(** * ExactlyK never asks for the pop count of an empty list (/repo 4d027cb) *)
Lemma exactlyk_empty_list_total (fb : flat) (k f l : nat) (wb : option geometry) (fresh : Z) (ct : contrib) :
  apply_exactlyk fb k f l wb fresh = COk ct ->
  Forall (fun q : req => snd q <> []) (ct_requests ct).
Proof.
  unfold apply_exactlyk. destruct (var_lists fb f l wb) as [vls|e]; cbn [cbind]; [|discriminate].
  intros E. inversion E. subst ct. cbn [ct_requests]. apply exactlyk_requests_no_empty.
Qed.

(** * AtLeastKInARow / ExactlyKInARow never fail on the window length *)
Lemma inarow_short_window_total (fb : flat) (k f l : nat) (wb : option geometry) (fresh : Z) (vls : list (list nat)) :
  var_lists fb f l wb = COk vls ->
  (exists ct, apply_atleast fb k f l wb fresh = COk ct) /\
  (exists ct, apply_exactlykinarow fb k f l wb fresh = COk ct).
Proof.
  intros E. split.
  - unfold apply_atleast. rewrite E. cbn [cbind]. destruct (cnf_fn _ _). eexists. reflexivity.
  - unfold apply_exactlykinarow. rewrite E. cbn [cbind]. destruct (ekr_loop _ _ _ _). eexists. reflexivity.
Qed.

(** e.g. a window of four trials with k = 5: both succeed (before /repo 0e49512
    the code raised IndexError here) *)
Example inarow_short_example :
  exists c1 c2, apply_atleast ex_stroop 5 0 0 None 100%Z = COk c1 /\ apply_exactlykinarow ex_stroop 5 0 0 None 100%Z = COk c2.
Proof. vm_compute. eexists. eexists. split; reflexivity. Qed.

Lemma decode_total (fb : flat) :
  LayoutWf.wf_layout fb = true -> DecodeWf.act_keys_distinct fb = true -> 1 <= fl_trials fb ->
  forall s : nat -> nat -> nat,
    (forall f t, DecodeProofs.cell fb f t -> s f t < nlevels fb f) ->
    forall sol : list Z, NoDup sol ->
      (forall v, 1 <= v <= variables_per_sample fb ->
                 (In (Z.of_nat v) sol <-> exists f t, DecodeProofs.cell fb f t /\ encode_variable fb f (s f t) t = Some v)) ->
      exists d, Decode.decode fb sol = Decode.DOk d.
Proof.
  intros Hwf Hk HT s Hs sol Hnd Hoh.
  destruct (DecodeProofs.decode_onehot fb Hwf Hk HT s Hs sol Hnd Hoh) as (d & E & _). now exists d.
Qed.

(** the compilation theorem instantiated on the worked example *)
Lemma c08_example :
  in_f1 ex_stroop = true /\ 0 < T ex_stroop /\ (exists b, compile ex_stroop = COk b).
Proof.
  destruct ex_stroop_in_f1 as [A B]. split; [exact A|]. split; [exact B|]. exact (compile_total_f1 ex_stroop A B).
Qed.
