(** Consequences of [compile_denotes] / [compile_full_cnf] for the formula the
    samplers hand to the solver (fragment F1): every model decodes to a valid
    sequence (C01), every valid sequence is the decoding of a model and of only
    one (C02), no auxiliary variable is free (C03).  Seven example records ([ex_stroop], [ex_wide],
    [ex_implied], [ex_implied_transition], [ex_transition], [ex_nest], [ex_latin]) show that the
    hypotheses are satisfiable: each is in F1, compiles, and has its valid sequences counted by
    evaluation ([count_and_first], [latin_main_ok] prunes the enumeration). *)
From Coq Require Import ZArith List Bool Arith Lia.
From Coq Require String.
From SP Require Import Base.Lists Base.Sat Base.Bits.
From SP Require Import Design.Flat Design.Layout Design.Sem Design.SemFacts.
From SP Require Import Encode.Compile Encode.CodeSem Encode.Generic Encode.Blocks Encode.Runs
     Encode.GridLemmas Encode.LayoutF1 Encode.F1Lists Encode.F1Kinds Encode.F1Sem Encode.F1DerivSem Encode.CompileProofs.
Import ListNotations.
Close Scope Z_scope.
Open Scope nat_scope.

Section Corollaries.
Variable fb : flat.
Hypothesis HF1 : in_f1 fb = true.
Hypothesis HT : 0 < T fb.

Notation GZ := (GZ fb).

Definition img (q : tseq) : asg := fun v =>
  existsb (fun t => existsb (fun f => existsb (fun l =>
     isact fb f && lappl fb f t && (zn (gvar fb t f l) =? v)%Z && is_level l (get_cell q f t))
     (seq 0 (nlevels fb f))) (seq 0 (nf fb))) (seq 0 (T fb)).

Lemma img_bit q t f l :
  t < T fb -> isact fb f = true -> lappl fb f t = true -> l < nlevels fb f ->
  bit fb (img q) t f l = is_level l (get_cell q f t).
Proof.
  intros Ht Hf Hap Hl. unfold bit, img. destruct (is_level l (get_cell q f t)) eqn:E.
  - apply existsb_exists. exists t. split; [apply in_seq; lia|].
    apply existsb_exists. exists f. split; [apply in_seq; pose proof (f1_act_lt fb HF1 f Hf); lia|].
    apply existsb_exists. exists l. split; [apply in_seq; lia|]. now rewrite Hf, Hap, Z.eqb_refl, E.
  - apply not_true_is_false. intros H.
    apply existsb_exists in H. destruct H as (t' & Ht' & H). apply in_seq in Ht'.
    apply existsb_exists in H. destruct H as (f' & Hf' & H). apply in_seq in Hf'.
    apply existsb_exists in H. destruct H as (l' & Hl' & H). apply in_seq in Hl'.
    rewrite !andb_true_iff in H. destruct H as [[[H0 H0'] H1] H2]. apply Z.eqb_eq in H1. unfold zn in H1. apply Nat2Z.inj in H1.
    destruct (gvar_inj fb HF1 t' f' l' t f l (proj2 Ht') H0 (proj2 Hl') H0' Ht Hf Hl Hap H1) as (-> & -> & ->). congruence.
Qed.

Lemma valid_factor_ok q f fd :
  valid_b (code_sem fb) q = true -> nth_error (fl_design fb) f = Some fd ->
  factor_ok (code_sem fb) q f (code_factor fb f fd) = true.
Proof.
  intros Hv. apply valid_b_conj in Hv. destruct Hv as (_ & Hfac & _ & _).
  exact (proj1 (factors_ok_iff fb q) Hfac f fd).
Qed.

(** the part of [onehot] that does not mention the assignment: complete rows, a level
    exactly where the factor has one *)
Definition shape (q : tseq) : Prop :=
  length q = nf fb /\ (forall f, f < nf fb -> length (nth f q []) = T fb) /\
  (forall t f, t < T fb -> isact fb f = true -> lappl fb f t = true -> exists l, l < nlevels fb f /\ get_cell q f t = Some l) /\
  (forall t f, t < T fb -> isact fb f = true -> lappl fb f t = false -> get_cell q f t = None).

Lemma valid_shape q : valid_b (code_sem fb) q = true -> shape q.
Proof.
  intros Hv'. destruct (proj1 (valid_b_conj _ _) Hv') as (Hlen & _ & _ & _).
  rewrite (sem_factors_length fb HF1 HT) in Hlen.
  assert (K : forall f, f < nf fb -> exists fd, nth_error (fl_design fb) f = Some fd /\
                                     factor_ok (code_sem fb) q f (code_factor fb f fd) = true).
  { intros f Hf. destruct (nth_error (fl_design fb) f) as [fd|] eqn:E.
    - exists fd. split; [reflexivity|]. exact (valid_factor_ok q f fd Hv' E).
    - apply nth_error_None in E. unfold nf in Hf. lia. }
  assert (Kc : forall t f, t < T fb -> isact fb f = true ->
            match get_cell q f t with
            | Some l => lappl fb f t = true /\ l < nlevels fb f
            | None => lappl fb f t = false
            end).
  { intros t f Ht Ha. pose proof (f1_act_lt fb HF1 f Ha) as Hf. destruct (K f Hf) as (fd & Efd & Hok).
    unfold factor_ok in Hok. apply andb_true_iff in Hok.
    destruct Hok as [_ Hc]. rewrite forallb_forall in Hc. specialize (Hc t ltac:(apply in_seq; cbn [code_sem s_trials]; unfold T in Ht; lia)).
    rewrite <- (applies_lappl fb HF1 HT f fd t Efd).
    destruct (get_cell q f t) as [l|] eqn:Ec.
    - rewrite !andb_true_iff in Hc. destruct Hc as [[[Hap Hl] _] _]. split; [exact Hap|].
      apply Nat.ltb_lt in Hl. cbn [code_factor f_nlevels] in Hl. now rewrite (nlevels_at fb f fd Efd).
    - now apply negb_true_iff in Hc. }
  split; [exact Hlen|]. split; [|split].
  - intros f Hf. destruct (K f Hf) as (fd & _ & Hok). unfold factor_ok in Hok. apply andb_true_iff in Hok.
    destruct Hok as [Hl _]. now apply Nat.eqb_eq in Hl.
  - intros t f Ht Ha Hap. specialize (Kc t f Ht Ha). destruct (get_cell q f t) as [l|].
    + exists l. split; [apply Kc|reflexivity].
    + congruence.
  - intros t f Ht Ha Hap. specialize (Kc t f Ht Ha). destruct (get_cell q f t) as [l|]; [|reflexivity].
    destruct Kc as [Kc _]. congruence.
Qed.

(** the active cells read back from the image *)
Lemma img_cell_act q t d :
  shape q -> t < T fb -> isact fb d = true -> cell_act fb (img q) t d = get_cell q d t.
Proof.
  intros (_ & _ & C & D) Ht Hd. unfold cell_act. destruct (lappl fb d t) eqn:Hap; [|symmetry; now apply D].
  destruct (C t d Ht Hd Hap) as (x & Hx & Ex). rewrite Ex.
  apply find_unique; [exact Hx|]. intros j Hj.
  rewrite (img_bit q t d j Ht Hd Hap Hj), Ex, is_level_some. apply Nat.eqb_sym.
Qed.

(** the implied cells of a valid sequence are those computed from the image *)
Lemma img_cell_impl q : valid_b (code_sem fb) q = true ->
  forall f t, t < T fb -> f < nf fb -> isact fb f = false -> get_cell q f t = cell_impl fb (img q) t f.
Proof.
  intros Hv f. induction f as [f IHf] using lt_wf_ind. intros t Ht Hf Hn. pose proof (valid_shape q Hv) as Hs.
  destruct (implied_facts fb HF1 HT f Hf Hn) as (fd & w & Efd & Ew & Hd & W1 & W2 & Htot).
  pose proof Hs as (_ & R & C & _).
  pose proof (impl_sustain fb HF1 HT f Hf Hn) as Hsu.
  pose proof (proj1 (factor_ok_impl fb HT q f fd w Efd Ew Hsu (R f Hf)) (valid_factor_ok q f fd Hv Efd) t Ht) as Hok.
  (* the cells of the dependencies of q are those of the image *)
  assert (Hdeps : forall d t', dep_ok fb f d = true -> t' <= t -> get_cell q d t' = cell_of fb (img q) t' d).
  { intros d t' Hdok Ht'. unfold cell_of. destruct (dep_ok_cases fb f d Hn Hdok) as [Hsd|(Hda & Hlt & _)].
    - destruct (sact_lappl fb HF1 d t' Hsd) as [Hda _]. rewrite Hda. symmetry. apply (img_cell_act q t' d Hs (Nat.le_lt_trans _ _ _ Ht' Ht) Hda).
    - rewrite Hda. apply IHf; [exact Hlt|exact (Nat.le_lt_trans _ _ _ Ht' Ht)|exact (Nat.lt_trans _ _ _ Hlt Hf)|exact Hda]. }
  rewrite <- (cell_impl_char fb HF1 HT (img q) q t f Hf Hn Ht Hdeps).
  unfold impl_cell, factor_at. rewrite Efd, Ew.
  destruct (get_cell q f t) as [l0|] eqn:El0.
  - destruct Hok as (Hap & Hl0 & Hacc). rewrite Hap.
    symmetry. apply find_only; [|exact Hl0|exact Hacc].
    destruct (window_in_su1 fb HF1 HT q f fd w t Hsu Hap Ew) as (k & Hk & Hin).
    { intros d t' Hdd Ht'. pose proof (proj1 (Forall_forall _ _) Hd d Hdd) as Hdok. cbv beta in Hdok.
      destruct (dep_ok_cases fb f d Hn Hdok) as [Hsd|(Hda & Hlt & Hal)].
      - destruct (sact_lappl fb HF1 d t' Hsd) as [Hda Hdl]. exact (C t' d (Nat.le_lt_trans _ _ _ Ht' Ht) Hda Hdl).
      - (* an implied dependency that has a level in every trial: its cell is a level by validity *)
        pose proof (dep_lt fb HF1 HT f d Hf Hn Hdok) as Hdn.
        destruct (implied_facts fb HF1 HT d Hdn Hda) as (fdd & wd & Efdd & Ewd & _).
        pose proof (proj1 (factor_ok_impl fb HT q d fdd wd Efdd Ewd (impl_sustain fb HF1 HT d Hdn Hda) (R d Hdn))
                          (valid_factor_ok q d fdd Hv Efdd) t' (Nat.le_lt_trans _ _ _ Ht' Ht)) as Hokd.
        destruct (get_cell q d t') as [x|] eqn:Ex.
        + destruct Hokd as (_ & Hx & _). now exists x.
        + exfalso. pose proof (Hal t') as Happl. unfold appl, factor_at in Happl. rewrite Efdd in Happl. congruence. }
    exact (Htot k _ Hk Hin).
  - now rewrite Hok.
Qed.

Lemma valid_onehot_img q : valid_b (code_sem fb) q = true -> onehot fb (img q) q.
Proof.
  intros Hv. destruct (valid_shape q Hv) as (A & B & C & D). split; [exact A|]. split; [exact B|]. split; [exact C|].
  split; [|split; [|exact D]].
  - intros t f l Ht Hf Hap Hl. now apply img_bit.
  - intros t f Ht Hf Hn. now apply (img_cell_impl q Hv).
Qed.

(** two one-hot images of the same sequence agree on the grid *)
Lemma onehot_agree s1 s2 q : onehot fb s1 q -> onehot fb s2 q -> agree_upto GZ s1 s2.
Proof.
  intros (_ & _ & _ & H1 & _) (_ & _ & _ & H2 & _) v Hv.
  destruct (gvar_surj fb HF1 (Z.to_nat v)) as (t & f & l & Ht & Hf & Hl & Hap & E).
  { unfold F1Kinds.GZ, zn in Hv. lia. }
  replace v with (zn (gvar fb t f l)) by (unfold zn; lia).
  change (bit fb s1 t f l = bit fb s2 t f l). now rewrite H1, H2.
Qed.

Section Final.
Variable b : backend.
Hypothesis Hcomp : compile fb = COk b.

(* what [compile_full_cnf] says of the formula, read for a given result of [full_cnf] *)
Lemma full_cnf_f1 ok n' final :
  full_cnf b = (ok, n', final) ->
  ok = true /\ vars_upto n' final /\
  (forall s, (exists t, agree_upto GZ s t /\ sat t final = true) <->
             exists q, onehot fb s q /\ valid_b (code_sem fb) q = true) /\
  (forall t1 t2, agree_upto GZ t1 t2 -> sat t1 final = true -> sat t2 final = true -> agree_upto n' t1 t2).
Proof.
  intros Ef. destruct (compile_full_cnf fb HF1 HT b Hcomp) as (n1 & f1 & E1 & _ & V & Hsem & Hu).
  rewrite Ef in E1. injection E1 as -> -> ->. auto.
Qed.

Theorem models_are_valid ok n' final t :
  full_cnf b = (ok, n', final) -> sat t final = true ->
  exists q, onehot fb t q /\ valid_b (code_sem fb) q = true.
Proof.
  intros Ef St. apply (full_cnf_f1 ok n' final Ef). exists t. split; [apply agree_upto_refl|exact St].
Qed.

Theorem valid_has_model ok n' final q :
  full_cnf b = (ok, n', final) -> valid_b (code_sem fb) q = true ->
  exists t, sat t final = true /\ onehot fb t q.
Proof.
  intros Ef Hv. pose proof (valid_onehot_img q Hv) as Ho.
  destruct (proj2 (proj1 (proj2 (proj2 (full_cnf_f1 ok n' final Ef))) (img q))) as (t & A & St).
  { exists q. now split. }
  exists t. split; [exact St|]. exact (onehot_local fb HF1 HT (img q) t q A Ho).
Qed.

Theorem one_model_per_sequence ok n' final q t1 t2 :
  full_cnf b = (ok, n', final) ->
  sat t1 final = true -> sat t2 final = true -> onehot fb t1 q -> onehot fb t2 q ->
  agree_upto n' t1 t2.
Proof.
  intros Ef S1 S2 O1 O2. apply (full_cnf_f1 ok n' final Ef); [|exact S1|exact S2]. exact (onehot_agree t1 t2 q O1 O2).
Qed.

Theorem unique_extension ok n' final t1 t2 :
  full_cnf b = (ok, n', final) ->
  agree_upto GZ t1 t2 -> sat t1 final = true -> sat t2 final = true -> agree_upto n' t1 t2.
Proof using HF1 HT Hcomp. intros Ef. apply (full_cnf_f1 ok n' final Ef). Qed.

(** every variable of the formula is at most [n'] (the declared count), and no
    auxiliary variable is free: flipping one in a model falsifies the formula *)
Theorem vars_contiguous ok n' final :
  full_cnf b = (ok, n', final) ->
  ok = true /\ vars_upto n' final /\
  forall t v, (GZ < v <= n')%Z -> sat t final = true -> sat (upd t v (negb (t v))) final = false.
Proof using HF1 HT Hcomp.
  intros Ef. destruct (full_cnf_f1 ok n' final Ef) as (Eo & V & _ & Hu). split; [exact Eo|]. split; [exact V|].
  intros t v Hv St. apply not_true_is_false. intros St'.
  assert (A : agree_upto GZ t (upd t v (negb (t v)))).
  { intros w Hw. unfold upd. destruct (w =? v)%Z eqn:E; [apply Z.eqb_eq in E; clear - Hv Hw E; lia|reflexivity]. }
  pose proof (Hu t _ A St St' v ltac:(unfold F1Kinds.GZ, zn in *; lia)) as H.
  unfold upd in H. rewrite Z.eqb_refl in H. destruct (t v); discriminate.
Qed.

End Final.
End Corollaries.

(** The examples below state the number of valid sequences and the first one.
    Enumerating them is the expensive step, so each example evaluates
    [count_and_first] of the enumeration once, in a lemma of its own that the
    example only refers to (evaluating the two facts separately, or inside the
    example, runs the enumeration again at [Qed] and in the checker). *)
Definition count_and_first {A} (l : list (list A)) := (length l, hd [] l).

Lemma count_and_first_eq {A} (l : list (list A)) n x :
  count_and_first l = (n, x) -> length l = n /\ hd [] l = x.
Proof. intros E. now injection E. Qed.

(** The part of [latin_ok] that reads the main factor's row only: no level of the
    main factor twice in a segment. *)
Definition latin_main_ok S mainf nmain first su (s : tseq) : bool :=
  (length s <=? mainf) || latin_ok S s mainf [] nmain first su.

Lemma latin_main_prefix S others mainf nmain first su l ws s s' :
  In {| k_kind := KLatin others nmain first su; k_factor := mainf; k_level := l; k_windows := ws |} (s_constraints S) ->
  valid_fast S (s ++ s') = true -> latin_main_ok S mainf nmain first su s = true.
Proof.
  intros Hc Hv. apply valid_fast_constraint with (1 := Hv) in Hc. clear Hv. rename Hc into Hv. cbn in Hv.
  unfold latin_main_ok. destruct (length s <=? mainf) eqn:El; [reflexivity|]. apply Nat.leb_gt in El.
  unfold latin_ok in *. rewrite forallb_forall in Hv. apply forallb_forall. intros t Ht. specialize (Hv t Ht).
  unfold get_cell in *. rewrite app_nth1 in Hv by exact El.
  destruct (t <? first); [reflexivity|]. destruct (nth t (nth mainf s []) None); [|discriminate].
  apply andb_true_iff in Hv. destruct Hv as [_ Hv]. rewrite combine_nil. cbn [forallb andb].
  exact Hv.
Qed.

(** * A worked example: color x text crossing with a derived congruency factor,
      AtMostKInARow on the derived level, Pin *)
Definition xlvl (a : list (list (list (option nat)))) : flevel :=
  {| lv_name := String.EmptyString; lv_weight := 1; lv_accepts := a |}.
Definition xsimple : ffactor :=
  {| ff_name := String.EmptyString; ff_hidden := false; ff_levels := [xlvl []; xlvl []]; ff_window := None; ff_complex := false |}.
Definition xwin : fwindow :=
  {| win_deps := [0; 1]; win_width := 1; win_stride := 1; win_start := 0; win_start_delta := 0%Z |}.
Definition xcon : ffactor :=
  {| ff_name := String.EmptyString; ff_hidden := false;
     ff_levels := [xlvl [[[Some 0]; [Some 0]]; [[Some 1]; [Some 1]]]; xlvl [[[Some 0]; [Some 1]]; [[Some 1]; [Some 0]]]];
     ff_window := Some xwin; ff_complex := false |}.
Definition ex_stroop : flat :=
  {| fl_design := [xsimple; xsimple; xcon]; fl_act := [0; 1; 2];
     fl_crossings := [[0; 1]]; fl_sustains := [1]; fl_weights := [1]; fl_sizes := [4];
     fl_preambles := [0]; fl_alignment := EqualPreamble; fl_alignment_preamble := 0;
     fl_min_trials := 0; fl_trials := 4; fl_rcc := true; fl_exclude := [];
     fl_excluded_derived := [];
     fl_constraints := [FCross; FConsistency; FAtMost 1 2 0 None; FPin 0%Z 0 1 None;
                        FDerivation 4 [[DIdx 0; DIdx 2]; [DIdx 1; DIdx 3]] 2;
                        FDerivation 5 [[DIdx 0; DIdx 3]; [DIdx 1; DIdx 2]] 2];
     fl_errors_fail := false |}.

Example ex_stroop_in_f1 : in_f1 ex_stroop = true /\ 0 < T ex_stroop.
Proof. split; [vm_compute; reflexivity|vm_compute; lia]. Qed.

Example ex_stroop_compiles :
  exists b, compile ex_stroop = COk b /\ b_fresh b = 108%Z /\ length (b_requests b) = 19 /\ length (b_clauses b) = 247.
Proof. vm_compute. eexists. repeat split. Qed.

(** it has valid sequences (so the theorems are not vacuous): 24 orders of the
    4 combinations, of which those with the pinned first trial and no two
    congruent trials in a row remain *)
Example ex_stroop_valid_count : length (all_valid (code_sem ex_stroop)) = 6.
Proof. rewrite all_valid_fast. vm_compute. reflexivity. Qed.

Lemma ex_stroop_facts :
  in_f1 ex_stroop = true /\ 0 < T ex_stroop /\
  (exists b, compile ex_stroop = COk b) /\ length (all_valid (code_sem ex_stroop)) = 6.
Proof.
  split; [exact (proj1 ex_stroop_in_f1)|]. split; [exact (proj2 ex_stroop_in_f1)|].
  split; [destruct ex_stroop_compiles as (b & E & _); now exists b|exact ex_stroop_valid_count].
Qed.

(** an example that uses more of the fragment F1: the derived factor is crossed (the four inconsistent
    combinations are left out of the crossing), Sequential on the text factor,
    AtLeastKInARow on a derived level, ExactlyKInARow on a colour *)
Definition ex_wide : flat :=
  {| fl_design := [xsimple; xsimple; xcon]; fl_act := [0; 1; 2];
     fl_crossings := [[0; 1; 2]]; fl_sustains := [1]; fl_weights := [1]; fl_sizes := [4];
     fl_preambles := [0]; fl_alignment := EqualPreamble; fl_alignment_preamble := 0;
     fl_min_trials := 0; fl_trials := 4; fl_rcc := true; fl_exclude := [];
     fl_excluded_derived := [];
     fl_constraints := [FCross; FConsistency; FSequential 1; FAtLeast 1 2 0 None; FExactlyKInARow 1 0 0 None;
                        FDerivation 4 [[DIdx 0; DIdx 2]; [DIdx 1; DIdx 3]] 2;
                        FDerivation 5 [[DIdx 0; DIdx 3]; [DIdx 1; DIdx 2]] 2];
     fl_errors_fail := false |}.

Example ex_wide_facts :
  in_f1 ex_wide = true /\ 0 < T ex_wide /\
  length (trial_combinations_of ex_wide [0; 1; 2]) = 4 /\ length (crossing_combos ex_wide [0; 1; 2]) = 8 /\
  (exists b, compile ex_wide = COk b /\ b_fresh b = 139%Z) /\
  length (all_valid (code_sem ex_wide)) = 1.
Proof.
  split; [vm_compute; reflexivity|]. split; [vm_compute; lia|]. split; [vm_compute; reflexivity|].
  split; [vm_compute; reflexivity|]. split; [vm_compute; eexists; split; reflexivity|].
  rewrite all_valid_fast. vm_compute. reflexivity.
Qed.

(** implied derived factor: the congruency factor is neither crossed nor
    constrained, so it is not in act_design, gets no variables and no
    Derivation constraints; its row is computed from the decoded colour and
    text rows ([F1Sem.cell_impl]) *)
Definition ex_implied : flat :=
  {| fl_design := [xsimple; xsimple; xcon]; fl_act := [0; 1];
     fl_crossings := [[0; 1]]; fl_sustains := [1]; fl_weights := [1]; fl_sizes := [4];
     fl_preambles := [0]; fl_alignment := EqualPreamble; fl_alignment_preamble := 0;
     fl_min_trials := 0; fl_trials := 4; fl_rcc := true; fl_exclude := [];
     fl_excluded_derived := [];
     fl_constraints := [FCross; FConsistency; FAtMost 1 1 0 None];
     fl_errors_fail := false |}.

Lemma ex_implied_valid : count_and_first (all_valid (code_sem ex_implied)) =
  (12, [[Some 1; Some 1; Some 0; Some 0]; [Some 1; Some 0; Some 1; Some 0]; [Some 0; Some 1; Some 1; Some 0]]).
Proof. rewrite all_valid_fast. vm_compute. reflexivity. Qed.

Example ex_implied_facts :
  in_f1 ex_implied = true /\ 0 < T ex_implied /\ isact ex_implied 2 = false /\
  (exists b, compile ex_implied = COk b /\ b_fresh b = 66%Z) /\
  length (all_valid (code_sem ex_implied)) = 12 /\
  hd [] (all_valid (code_sem ex_implied)) =
    [[Some 1; Some 1; Some 0; Some 0]; [Some 1; Some 0; Some 1; Some 0]; [Some 0; Some 1; Some 1; Some 0]].
Proof.
  split; [vm_compute; reflexivity|]. split; [vm_compute; lia|]. split; [vm_compute; reflexivity|].
  split; [vm_compute; eexists; split; reflexivity|]. exact (count_and_first_eq _ _ _ ex_implied_valid).
Qed.

(** implied factor with a complex window: a Transition (width 2, stride 1,
    start 1) on the text factor, not in act_design; it has no level in the
    first trial *)
Definition xtwin : fwindow :=
  {| win_deps := [1]; win_width := 2; win_stride := 1; win_start := 1; win_start_delta := 0%Z |}.
Definition xtrans : ffactor :=
  {| ff_name := String.EmptyString; ff_hidden := false;
     ff_levels := [xlvl [[[Some 0; Some 0]]; [[Some 1; Some 1]]]; xlvl [[[Some 0; Some 1]]; [[Some 1; Some 0]]]];
     ff_window := Some xtwin; ff_complex := true |}.
Definition ex_implied_transition : flat :=
  {| fl_design := [xsimple; xsimple; xtrans]; fl_act := [0; 1];
     fl_crossings := [[0; 1]]; fl_sustains := [1]; fl_weights := [1]; fl_sizes := [4];
     fl_preambles := [0]; fl_alignment := EqualPreamble; fl_alignment_preamble := 1;
     fl_min_trials := 0; fl_trials := 4; fl_rcc := true; fl_exclude := [];
     fl_excluded_derived := [];
     fl_constraints := [FCross; FConsistency; FAtMost 1 1 0 None];
     fl_errors_fail := false |}.

Lemma ex_implied_transition_valid : count_and_first (all_valid (code_sem ex_implied_transition)) =
  (12, [[Some 1; Some 1; Some 0; Some 0]; [Some 1; Some 0; Some 1; Some 0]; [None; Some 1; Some 1; Some 1]]).
Proof. rewrite all_valid_fast. vm_compute. reflexivity. Qed.

Example ex_implied_transition_facts :
  in_f1 ex_implied_transition = true /\ 0 < T ex_implied_transition /\ isact ex_implied_transition 2 = false /\
  (exists b, compile ex_implied_transition = COk b /\ b_fresh b = 66%Z) /\
  length (all_valid (code_sem ex_implied_transition)) = 12 /\
  hd [] (all_valid (code_sem ex_implied_transition)) =
    [[Some 1; Some 1; Some 0; Some 0]; [Some 1; Some 0; Some 1; Some 0]; [None; Some 1; Some 1; Some 1]].
Proof.
  split; [vm_compute; reflexivity|]. split; [vm_compute; lia|]. split; [vm_compute; reflexivity|].
  split; [vm_compute; eexists; split; reflexivity|]. exact (count_and_first_eq _ _ _ ex_implied_transition_valid).
Qed.

(** a factor of act_design with a complex window: a colour-repetition Transition
    crossed with the colour; the crossing starts after a preamble of one trial,
    the Transition has 4 x 2 variables after the 5 x 2 grid variables, an
    AtMostKInARow constrains its first level *)
Definition xtwin0 : fwindow :=
  {| win_deps := [0]; win_width := 2; win_stride := 1; win_start := 1; win_start_delta := 0%Z |}.
Definition xtrans0 : ffactor :=
  {| ff_name := String.EmptyString; ff_hidden := false;
     ff_levels := [xlvl [[[Some 0; Some 0]]; [[Some 1; Some 1]]]; xlvl [[[Some 0; Some 1]]; [[Some 1; Some 0]]]];
     ff_window := Some xtwin0; ff_complex := true |}.
Definition ex_transition : flat :=
  {| fl_design := [xsimple; xtrans0]; fl_act := [0; 1];
     fl_crossings := [[0; 1]]; fl_sustains := [1]; fl_weights := [1]; fl_sizes := [4];
     fl_preambles := [1]; fl_alignment := EqualPreamble; fl_alignment_preamble := 1;
     fl_min_trials := 0; fl_trials := 5; fl_rcc := true; fl_exclude := [];
     fl_excluded_derived := [];
     fl_constraints := [FCross; FConsistency; FAtMost 2 1 0 None;
                        FDerivation 10 [[DIdx 0; DIdx 2]; [DIdx 1; DIdx 3]] 1;
                        FDerivation 11 [[DIdx 0; DIdx 3]; [DIdx 1; DIdx 2]] 1];
     fl_errors_fail := false |}.

Lemma ex_transition_valid : count_and_first (all_valid (code_sem ex_transition)) =
  (4, [[Some 0; Some 1; Some 1; Some 0; Some 0]; [None; Some 1; Some 0; Some 1; Some 0]]).
Proof. rewrite all_valid_fast. vm_compute. reflexivity. Qed.

Example ex_transition_facts :
  in_f1 ex_transition = true /\ 0 < T ex_transition /\
  isact ex_transition 1 = true /\ is_complex ex_transition 1 = true /\
  VN ex_transition = 18 /\ gvar ex_transition 1 1 0 = 11 /\ gvar ex_transition 4 1 1 = 18 /\
  (exists b, compile ex_transition = COk b /\ b_fresh b = 102%Z) /\
  length (all_valid (code_sem ex_transition)) = 4 /\
  hd [] (all_valid (code_sem ex_transition)) =
    [[Some 0; Some 1; Some 1; Some 0; Some 0]; [None; Some 1; Some 0; Some 1; Some 0]].
Proof.
  split; [vm_compute; reflexivity|]. split; [vm_compute; lia|]. split; [vm_compute; reflexivity|].
  split; [vm_compute; reflexivity|]. split; [vm_compute; reflexivity|]. split; [vm_compute; reflexivity|].
  split; [vm_compute; reflexivity|]. split; [vm_compute; eexists; split; reflexivity|].
  exact (count_and_first_eq _ _ _ ex_transition_valid).
Qed.

(** Nest: the outer factor is sustained over the two trials of the inner block,
    the inner crossing is completed inside every group of two trials *)
Definition ex_nest : flat :=
  {| fl_design := [xsimple; xsimple]; fl_act := [0; 1];
     fl_crossings := [[0]; [1]]; fl_sustains := [2; 1]; fl_weights := [1; 1]; fl_sizes := [4; 2];
     fl_preambles := [0; 0]; fl_alignment := EqualPreamble; fl_alignment_preamble := 0;
     fl_min_trials := 0; fl_trials := 4; fl_rcc := true; fl_exclude := [];
     fl_excluded_derived := [];
     fl_constraints := [FCross; FConsistency; FSustain];
     fl_errors_fail := false |}.

Lemma ex_nest_valid : count_and_first (all_valid (code_sem ex_nest)) =
  (8, [[Some 1; Some 1; Some 0; Some 0]; [Some 1; Some 0; Some 1; Some 0]]).
Proof. rewrite all_valid_fast. vm_compute. reflexivity. Qed.

Example ex_nest_facts :
  in_f1 ex_nest = true /\ 0 < T ex_nest /\ sustain_of ex_nest 0 = 2 /\
  (exists b, compile ex_nest = COk b /\ b_fresh b = 84%Z) /\
  length (all_valid (code_sem ex_nest)) = 8 /\
  hd [] (all_valid (code_sem ex_nest)) = [[Some 1; Some 1; Some 0; Some 0]; [Some 1; Some 0; Some 1; Some 0]].
Proof.
  split; [vm_compute; reflexivity|]. split; [vm_compute; lia|]. split; [vm_compute; reflexivity|].
  split; [vm_compute; eexists; split; reflexivity|]. exact (count_and_first_eq _ _ _ ex_nest_valid).
Qed.

(** LatinSquare over a 3-level and a 2-level factor: segments of three trials; in
    the r-th segment the second factor is the first one rotated by r (mod 2) *)
Definition x3 : ffactor :=
  {| ff_name := String.EmptyString; ff_hidden := false; ff_levels := [xlvl []; xlvl []; xlvl []]; ff_window := None; ff_complex := false |}.
Definition ex_latin : flat :=
  {| fl_design := [x3; xsimple]; fl_act := [0; 1];
     fl_crossings := [[0; 1]]; fl_sustains := [1]; fl_weights := [1]; fl_sizes := [6];
     fl_preambles := [0]; fl_alignment := EqualPreamble; fl_alignment_preamble := 0;
     fl_min_trials := 0; fl_trials := 6; fl_rcc := true; fl_exclude := [];
     fl_excluded_derived := [];
     fl_constraints := [FCross; FConsistency; FLatin [0; 1]];
     fl_errors_fail := false |}.

(** 6^6 candidates; the 3^6 rows of the main factor are tested first, which
    leaves 36 of them to be combined with the 2^6 rows of the other factor *)
Lemma ex_latin_valid : count_and_first (all_valid (code_sem ex_latin)) =
  (36, [[Some 2; Some 1; Some 0; Some 2; Some 1; Some 0]; [Some 0; Some 1; Some 0; Some 1; Some 0; Some 1]]).
Proof.
  rewrite (all_valid_staged (code_sem ex_latin) (latin_main_ok (code_sem ex_latin) 0 3 0 1) 1).
  - vm_compute. reflexivity.
  - intros s s'. apply latin_main_prefix with (others := [(1, 2)]) (l := 0) (ws := []). vm_compute. now left.
Qed.

Example ex_latin_facts :
  in_f1 ex_latin = true /\ 0 < T ex_latin /\
  (exists b, compile ex_latin = COk b /\ b_fresh b = 159%Z) /\
  length (all_valid (code_sem ex_latin)) = 36 /\
  hd [] (all_valid (code_sem ex_latin)) =
    [[Some 2; Some 1; Some 0; Some 2; Some 1; Some 0]; [Some 0; Some 1; Some 0; Some 1; Some 0; Some 1]].
Proof.
  split; [vm_compute; reflexivity|]. split; [vm_compute; lia|].
  split; [vm_compute; eexists; split; reflexivity|]. exact (count_and_first_eq _ _ _ ex_latin_valid).
Qed.
