(** Pure list lemmas connecting the boolean predicates that the SAT encoding
    imposes on the per-trial variables of one level (windows of consecutive
    variables, cardinalities) with the documented meaning on the trial
    sequence (maximal runs, occurrence counts) of [Design.Sem].

    Everything holds for every [k] and every list length. *)
From Coq Require Import ZArith List Bool Lia Arith.
From SP Require Import Base.Lists Design.Sem Encode.Compile.
Import ListNotations.
Close Scope Z_scope.
Open Scope nat_scope.

(** maximal runs of [true] *)
Fixpoint bruns_aux (bs : list bool) (cur : nat) : list nat :=
  match bs with
  | [] => if cur =? 0 then [] else [cur]
  | b :: r => if b then bruns_aux r (S cur)
              else if cur =? 0 then bruns_aux r 0 else cur :: bruns_aux r 0
  end.
Definition bruns (bs : list bool) : list nat := bruns_aux bs 0.
Definition ntrue (bs : list bool) : nat := length (filter (fun b => b) bs).
Definition is_level (l : nat) (c : cell) : bool := cell_eqb c (Some l).

(** number of leading [true]s *)
Fixpoint lead (bs : list bool) : nat :=
  match bs with
  | true :: r => S (lead r)
  | _ => 0
  end.

(** The reference semantics is the boolean view of the [is_level] row *)

Lemma runs_aux_bruns_aux : forall l cells cur,
  runs_aux l cells cur = bruns_aux (map (is_level l) cells) cur.
Proof.
  intros l cells. induction cells as [|c r IH]; intro cur; simpl.
  - reflexivity.
  - unfold is_level at 1. destruct (cell_eqb c (Some l)).
    + apply IH.
    + destruct (cur =? 0); [apply IH | f_equal; apply IH].
Qed.

Theorem runs_bruns : forall l cells,
  Sem.runs l cells = bruns (map (is_level l) cells).
Proof. intros l cells. apply runs_aux_bruns_aux. Qed.

Theorem count_level_ntrue : forall l cells,
  Sem.count_level l cells = ntrue (map (is_level l) cells).
Proof.
  intros l cells. unfold Sem.count_level, ntrue.
  induction cells as [|c r IH]; simpl.
  - reflexivity.
  - unfold is_level at 1. destruct (cell_eqb c (Some l)); simpl; rewrite IH; reflexivity.
Qed.

Lemma ntrue_nil : ntrue [] = 0.
Proof. reflexivity. Qed.

Lemma ntrue_cons : forall b bs, ntrue (b :: bs) = (if b then 1 else 0) + ntrue bs.
Proof. intros [|] bs; reflexivity. Qed.

Lemma ntrue_app : forall a b, ntrue (a ++ b) = ntrue a + ntrue b.
Proof.
  intros a b. unfold ntrue. rewrite filter_app, app_length. reflexivity.
Qed.

Lemma ntrue_le_length : forall bs, ntrue bs <= length bs.
Proof. intros bs. apply filter_length_le. Qed.

Lemma ntrue_repeat_false : forall n, ntrue (repeat false n) = 0.
Proof.
  induction n as [|n IH]; [reflexivity|].
  simpl repeat. rewrite ntrue_cons, IH. reflexivity.
Qed.

Lemma ntrue_map_filter : forall A (f : A -> bool) (l : list A),
  ntrue (map f l) = length (filter f l).
Proof. intros A f l. unfold ntrue. now rewrite filter_map_comm, map_length. Qed.

Theorem ntrue_all_false : forall bs,
  ntrue bs = 0 <-> Forall (fun b => b = false) bs.
Proof.
  induction bs as [|b r IH].
  - split; intro H; [constructor | reflexivity].
  - rewrite ntrue_cons, Forall_cons_iff, <- IH. destruct b; cbn [Nat.add]; [|tauto].
    split; [discriminate|intros [H _]; discriminate H].
Qed.

Lemma all_false_nth : forall bs,
  Forall (fun b => b = false) bs <-> forall j, j < length bs -> nth j bs false = false.
Proof.
  intros bs. rewrite Forall_nth. split; intros H j; [exact (H j false)|].
  intros d Hj. rewrite (nth_indep bs d false Hj). exact (H j Hj).
Qed.

(** ntrue w < length w  iff  some position of w is off *)
Lemma ntrue_lt_length : forall bs,
  ntrue bs < length bs <-> exists j, j < length bs /\ nth j bs false = false.
Proof.
  induction bs as [|b r IH]; [cbn; split; [lia | intros (j & Hj & _); lia]|].
  rewrite ntrue_cons. cbn [length]. destruct b; cbn [Nat.add].
  - rewrite <- Nat.succ_lt_mono, IH. split.
    + intros (j & Hj & Hn). exists (S j). split; [lia | exact Hn].
    + intros ([|j] & Hj & Hn); [discriminate Hn|]. exists j. split; [lia | exact Hn].
  - pose proof (ntrue_le_length r). split; [exists 0; split; [lia | reflexivity] | lia].
Qed.

Theorem ntrue_one : forall bs,
  ntrue bs = 1 <->
  exists i, i < length bs /\ forall j, j < length bs -> nth j bs false = (j =? i).
Proof.
  induction bs as [|b r IH].
  - simpl. split; [intro H; discriminate H | intros [i [Hi _]]; lia].
  - rewrite ntrue_cons. destruct b.
    + split.
      * intro H. assert (H0 : ntrue r = 0) by lia.
        apply ntrue_all_false in H0. rewrite all_false_nth in H0.
        exists 0. split; [simpl; lia|].
        intros [|j] Hj; simpl; [reflexivity|]. apply H0. simpl in Hj. lia.
      * intros [i [Hi Hall]].
        assert (Hi0 : i = 0).
        { specialize (Hall 0). simpl in Hall.
          destruct i; [reflexivity|]. assert (Hf : true = false) by (apply Hall; lia).
          discriminate Hf. }
        subst i.
        assert (H0 : ntrue r = 0).
        { apply ntrue_all_false. rewrite all_false_nth. intros j Hj.
          specialize (Hall (S j)). simpl in Hall. apply Hall. lia. }
        lia.
    + simpl plus. rewrite IH. split.
      * intros [i [Hi Hall]]. exists (S i). split; [simpl; lia|].
        intros [|j] Hj; simpl; [reflexivity|]. apply Hall. simpl in Hj. lia.
      * intros [i [Hi Hall]]. destruct i as [|i].
        { specialize (Hall 0). simpl in Hall.
          assert (Hf : false = true) by (apply Hall; lia). discriminate Hf. }
        exists i. split; [simpl in Hi; lia|].
        intros j Hj. specialize (Hall (S j)). simpl in Hall. apply Hall. lia.
Qed.

Lemma windows_cons : forall A L (a : A) (r : list A),
  windows L (a :: r) =
  (if L <=? length (a :: r) then [firstn L (a :: r)] else []) ++ windows L r.
Proof.
  intros A L a r. cbn [windows]. cbv zeta. f_equal.
  rewrite firstn_length.
  destruct (L <=? length (a :: r)) eqn:E.
  - apply Nat.leb_le in E. rewrite Nat.min_l by exact E. rewrite Nat.eqb_refl. reflexivity.
  - apply Nat.leb_gt in E. rewrite Nat.min_r by lia.
    destruct (length (a :: r) =? L) eqn:E2; [|reflexivity].
    apply Nat.eqb_eq in E2. lia.
Qed.

Lemma windows_seq : forall A L (l : list A), 0 < L ->
  windows L l = map (fun i => firstn L (skipn i l)) (seq 0 (S (length l) - L)).
Proof.
  intros A L l HL. induction l as [|a r IH].
  - cbn [windows length]. replace (1 - L) with 0 by lia. reflexivity.
  - rewrite windows_cons, IH. cbn [length].
    destruct (L <=? S (length r)) eqn:E.
    + apply Nat.leb_le in E.
      replace (S (S (length r)) - L) with (S (S (length r) - L)) by lia.
      cbn [seq map app]. change (skipn 0 (a :: r)) with (a :: r). f_equal.
      rewrite <- seq_shift, map_map. reflexivity.
    + apply Nat.leb_gt in E.
      replace (S (length r) - L) with 0 by lia.
      replace (S (S (length r)) - L) with 0 by lia. reflexivity.
Qed.

(** True for every [L], including [L = 0], where [windows 0 l] is [length l]
    copies of the empty list. *)
Theorem windows_spec : forall A L (l w : list A),
  In w (windows L l) <->
  exists i, i + L <= length l /\ i < length l /\ w = firstn L (skipn i l).
Proof.
  intros A L l w. induction l as [|a r IH].
  - simpl. split; [intros [] | intros [i [_ [Hi _]]]; lia].
  - rewrite windows_cons, in_app_iff, IH. split.
    + intros [H | [i [H1 [H2 H3]]]].
      * destruct (L <=? length (a :: r)) eqn:E; [|destruct H].
        apply Nat.leb_le in E. destruct H as [H | []].
        exists 0. split; [lia|]. split; [simpl; lia|]. symmetry. exact H.
      * exists (S i). simpl length. split; [lia|]. split; [lia|]. exact H3.
    + intros [[|i] [H1 [H2 H3]]].
      * left. assert (E : L <=? length (a :: r) = true) by (apply Nat.leb_le; lia).
        rewrite E. left. symmetry. exact H3.
      * right. exists i. simpl length in H1, H2. split; [lia|]. split; [lia|]. exact H3.
Qed.

Theorem windows_map : forall A B (f : A -> B) L l,
  windows L (map f l) = map (map f) (windows L l).
Proof.
  intros A B f L l. induction l as [|a r IH]; [reflexivity|].
  change (map f (a :: r)) with (f a :: map f r).
  rewrite !windows_cons, map_app, <- IH. f_equal.
  simpl length. rewrite map_length.
  destruct (L <=? S (length r)); [|reflexivity].
  simpl map at 2. rewrite <- firstn_map. reflexivity.
Qed.

Theorem windows_length : forall A L (l w : list A),
  In w (windows L l) -> length w = L.
Proof.
  intros A L l w H. apply windows_spec in H. destruct H as [i [H1 [H2 H3]]].
  subst w. rewrite firstn_length, skipn_length. lia.
Qed.

Lemma windows_short : forall A L (l : list A), length l < L -> windows L l = [].
Proof.
  intros A L l H. rewrite windows_seq by lia. now replace (S (length l) - L) with 0 by lia.
Qed.

Lemma windows_count : forall A L (l : list A),
  0 < L -> length (windows L l) = S (length l) - L.
Proof. intros A L l HL. now rewrite windows_seq, map_length, seq_length. Qed.

Lemma bruns_aux_repeat : forall bs cur, bruns_aux bs cur = bruns (repeat true cur ++ bs).
Proof.
  intros bs cur. unfold bruns.
  assert (G : forall n c, bruns_aux (repeat true n ++ bs) c = bruns_aux bs (n + c)).
  { induction n as [|n IH]; intro c; [reflexivity|].
    simpl. rewrite IH. f_equal. lia. }
  rewrite G. f_equal. lia.
Qed.

Lemma bruns_aux_sum : forall bs cur, list_sum (bruns_aux bs cur) = cur + ntrue bs.
Proof.
  induction bs as [|b r IH]; intro cur.
  - simpl. destruct (cur =? 0) eqn:E; simpl.
    + apply Nat.eqb_eq in E. rewrite ntrue_nil. lia.
    + rewrite ntrue_nil. lia.
  - rewrite ntrue_cons. simpl bruns_aux. destruct b.
    + rewrite IH. lia.
    + destruct (cur =? 0) eqn:E.
      * apply Nat.eqb_eq in E. rewrite IH. lia.
      * simpl list_sum. rewrite IH. lia.
Qed.

(** the runs partition the on-trials *)
Theorem bruns_sum : forall bs, list_sum (bruns bs) = ntrue bs.
Proof. intro bs. apply bruns_aux_sum. Qed.

(** Runs described by their start positions *)

(** structural form: at every run start, [P] holds of the number of on-trials
    from there on; [prev] is the element in front of the list *)
Fixpoint starts_ok (P : nat -> Prop) (prev : bool) (bs : list bool) : Prop :=
  match bs with
  | [] => True
  | b :: r => (b = true -> prev = false -> P (lead (b :: r))) /\ starts_ok P b r
  end.

Lemma starts_ok_runs : forall (P : nat -> Prop) bs cur,
  Forall P (bruns_aux bs cur) <->
  (cur <> 0 -> P (cur + lead bs)) /\ starts_ok P (negb (cur =? 0)) bs.
Proof.
  intros P. induction bs as [|b r IH]; intros cur; cbn [bruns_aux lead starts_ok].
  - rewrite Nat.add_0_r. destruct (Nat.eqb_spec cur 0) as [->|Hc].
    + rewrite Forall_nil_iff. intuition congruence.
    + rewrite Forall_cons_iff, Forall_nil_iff. tauto.
  - destruct b.
    + rewrite IH. replace (S cur + lead r) with (cur + S (lead r)) by lia. cbn [Nat.eqb negb].
      destruct (Nat.eqb_spec cur 0) as [->|Hc]; cbn [negb Nat.add]; intuition congruence.
    + rewrite Nat.add_0_r.
      destruct (Nat.eqb_spec cur 0) as [->|Hc]; [|rewrite Forall_cons_iff]; rewrite (IH 0); cbn [Nat.eqb negb];
        intuition congruence.
Qed.

Lemma starts_ok_index : forall (P : nat -> Prop) bs prev,
  starts_ok P prev bs <->
  forall i, i < length bs -> nth i bs false = true -> nth i (prev :: bs) false = false ->
            P (lead (skipn i bs)).
Proof.
  intros P. induction bs as [|b r IH]; intro prev.
  - simpl. split; [intros _ i Hi; lia | trivial].
  - cbn [starts_ok]. rewrite IH. split.
    + intros [H0 HS] [|i] Hi Hn Hp.
      * simpl in Hn, Hp. simpl skipn. apply H0; assumption.
      * simpl in Hi. apply HS; [lia | exact Hn | exact Hp].
    + intro H. split.
      * intros Hb Hp. apply (H 0); simpl; [lia | exact Hb | exact Hp].
      * intros i Hi Hn Hp. apply (H (S i)); [simpl; lia | exact Hn | exact Hp].
Qed.

Lemma start_cond : forall i bs,
  nth i (false :: bs) false = false <-> (i = 0 \/ nth (i - 1) bs false = false).
Proof.
  intros [|i] bs.
  - simpl. split; [intros _; left; reflexivity | intros _; reflexivity].
  - replace (S i - 1) with i by lia. simpl nth. split.
    + intro H. right. exact H.
    + intros [H | H]; [discriminate H | exact H].
Qed.

(** General form: a predicate holds of every maximal run iff it holds, at
    every run start (an on-trial that is first or preceded by an off-trial),
    of the number of consecutive on-trials from there. *)
Theorem runs_starts_spec : forall (P : nat -> Prop) bs,
  Forall P (bruns bs) <->
  forall i, i < length bs -> nth i bs false = true ->
            (i = 0 \/ nth (i - 1) bs false = false) ->
            P (lead (skipn i bs)).
Proof.
  intros P bs. unfold bruns. rewrite starts_ok_runs, starts_ok_index. cbn [Nat.eqb negb].
  split; [intros [_ H]|intros H; split; [intros []; reflexivity|]];
    intros i Hi Hn Hs; apply H; try assumption; apply start_cond; assumption.
Qed.

Lemma lead_on : forall l j, j < lead l -> nth j l false = true.
Proof.
  induction l as [|[|] r IH]; cbn [lead]; intros j Hj; try lia.
  destruct j; [reflexivity|]. apply IH. lia.
Qed.

Lemma lead_off : forall l, nth (lead l) l false = false.
Proof. induction l as [|[|] r IH]; [reflexivity | exact IH | reflexivity]. Qed.

Lemma lead_le_length : forall l, lead l <= length l.
Proof. induction l as [|[|] r IH]; cbn [lead length]; lia. Qed.

Lemma lead_ge_iff : forall l k,
  k <= lead l <-> k <= length l /\ forall j, j < k -> nth j l false = true.
Proof.
  intros l k. split.
  - intros H. split; [pose proof (lead_le_length l); lia|]. intros j Hj. apply lead_on. lia.
  - intros [_ H]. destruct (Nat.le_gt_cases k (lead l)) as [Hle|Hlt]; [exact Hle|].
    pose proof (lead_off l) as Hf. rewrite (H _ Hlt) in Hf. discriminate Hf.
Qed.

Lemma lead_ge_at : forall bs i k, i < length bs ->
  (k <= lead (skipn i bs) <->
   i + k <= length bs /\ forall j, j < k -> nth (i + j) bs false = true).
Proof.
  intros bs i k Hi. rewrite lead_ge_iff, skipn_length. split; intros [H1 H2].
  - split; [lia|]. intros j Hj. rewrite <- nth_skipn_add. apply H2. exact Hj.
  - split; [lia|]. intros j Hj. rewrite nth_skipn_add. apply H2. exact Hj.
Qed.

Lemma lead_eq_iff : forall l k,
  lead l = k <-> k <= lead l /\ nth k l false = false.
Proof.
  intros l k. split; [intros <-; split; [apply le_n | apply lead_off]|].
  intros [H1 H2]. destruct (Nat.eq_dec (lead l) k) as [E|Hne]; [exact E|].
  rewrite (lead_on l k) in H2 by lia. discriminate H2.
Qed.

(** every on-position belongs to a run, whose start lies to its left *)
Lemma run_start_exists (E : nat -> bool) : forall j, E j = true ->
  exists i, i <= j /\ E i = true /\ (i = 0 \/ E (i - 1) = false) /\
            forall t, i <= t -> t <= j -> E t = true.
Proof.
  induction j as [|j IH]; intro Hj.
  - exists 0. split; [lia|]. split; [exact Hj|]. split; [left; reflexivity|].
    intros t H1 H2. replace t with 0 by lia. exact Hj.
  - destruct (E j) eqn:Ej.
    + destruct (IH eq_refl) as [i [H1 [H2 [H3 H4]]]].
      exists i. split; [lia|]. split; [exact H2|]. split; [exact H3|].
      intros t Ht1 Ht2. destruct (Nat.eq_dec t (S j)) as [-> | Hne]; [exact Hj|].
      apply H4; lia.
    + exists (S j). split; [lia|]. split; [exact Hj|]. split.
      * right. replace (S j - 1) with j by lia. exact Ej.
      * intros t H1 H2. replace t with (S j) by lia. exact Hj.
Qed.

(** AtMostKInARow, per position: every [k+1] consecutive positions contain an
    off-trial iff every maximal run has length at most k.  A run longer than k
    is an all-on window at its start; an all-on window lies in the run that
    starts to its left, which is then longer than k. *)
Corollary atmost_index_runs : forall k bs,
  (forall i, i + S k <= length bs ->
     exists j, j < S k /\ nth (i + j) bs false = false) <->
  Forall (fun n => n <= k) (bruns bs).
Proof.
  intros k bs. rewrite runs_starts_spec. split.
  - intros H i Hi Hn Hs. destruct (Nat.le_gt_cases (lead (skipn i bs)) k) as [Hle|Hgt]; [exact Hle|exfalso].
    apply (lead_ge_at bs i (S k) Hi) in Hgt. destruct Hgt as [Hlen Hon].
    destruct (H i Hlen) as (j & Hj & Hoff). rewrite (Hon j Hj) in Hoff. discriminate Hoff.
  - intros H i Hi. destruct (Nat.le_gt_cases (S k) (lead (skipn i bs))) as [Hge|Hlt].
    + exfalso. apply (lead_ge_at bs i (S k)) in Hge; [|lia]. destruct Hge as [_ Hon].
      destruct (run_start_exists (fun t => nth t bs false) i) as (i0 & H0 & Hn0 & Hs0 & Hmid).
      { rewrite <- (Nat.add_0_r i). apply Hon. lia. }
      cbv beta in Hn0, Hs0, Hmid.
      assert (Hbig : S k + (i - i0) <= lead (skipn i0 bs)).
      { apply lead_ge_at; [lia|]. split; [lia|]. intros j Hj.
        destruct (Nat.le_gt_cases (i0 + j) i) as [Hle|Hgt]; [apply Hmid; lia|].
        replace (i0 + j) with (i + (i0 + j - i)) by lia. apply Hon. lia. }
      pose proof (H i0 ltac:(lia) Hn0 Hs0). lia.
    + exists (lead (skipn i bs)). split; [exact Hlt|]. rewrite <- nth_skipn_add. apply lead_off.
Qed.

(** AtMostKInARow: "no window of k+1 consecutive trials is entirely on" iff
    "every maximal run has length at most k". *)
Theorem atmost_windows_runs : forall k bs,
  (forall w, In w (windows (S k) bs) -> ntrue w < S k) <->
  Forall (fun n => n <= k) (bruns bs).
Proof.
  intros k bs. rewrite <- atmost_index_runs.
  split.
  - intros H i Hi.
    assert (Hw : In (firstn (S k) (skipn i bs)) (windows (S k) bs)).
    { apply windows_spec. exists i. split; [exact Hi|]. split; [lia | reflexivity]. }
    pose proof (windows_length _ _ _ _ Hw) as Hlen.
    specialize (H _ Hw).
    assert (G : ntrue (firstn (S k) (skipn i bs)) < length (firstn (S k) (skipn i bs)))
      by (rewrite Hlen; exact H).
    apply ntrue_lt_length in G.
    destruct G as [j [Hj Hn]]. rewrite Hlen in Hj. exists j. split; [exact Hj|].
    rewrite nth_firstn_lt in Hn by exact Hj. rewrite nth_skipn_add in Hn. exact Hn.
  - intros H w Hw. pose proof (windows_length _ _ _ _ Hw) as Hlen.
    apply windows_spec in Hw. destruct Hw as [i [H1 [H2 H3]]].
    destruct (H i H1) as [j [Hj Hn]].
    assert (G : ntrue w < length w); [|rewrite Hlen in G; exact G].
    apply ntrue_lt_length. exists j. split; [lia|].
    subst w. rewrite nth_firstn_lt by exact Hj. rewrite nth_skipn_add. exact Hn.
Qed.

(** every maximal run is non-empty and fits in the list *)
Theorem bruns_positive : forall bs, Forall (fun n => 0 < n) (bruns bs).
Proof.
  intro bs. apply runs_starts_spec. intros i Hi Hn _. apply (lead_ge_at bs i 1 Hi). split; [lia|].
  intros j Hj. replace (i + j) with i by lia. exact Hn.
Qed.

Theorem bruns_all_le_length : forall bs, Forall (fun n => n <= length bs) (bruns bs).
Proof.
  intro bs. apply runs_starts_spec. intros i Hi _ _.
  pose proof (lead_le_length (skipn i bs)) as H. rewrite skipn_length in H. lia.
Qed.

Theorem bruns_nil_iff : forall bs, bruns bs = [] <-> Forall (fun b => b = false) bs.
Proof.
  intro bs. rewrite <- ntrue_all_false, <- bruns_sum. split; [intros ->; reflexivity|].
  pose proof (bruns_positive bs) as P. destruct (bruns bs) as [|x r]; [reflexivity|].
  apply Forall_inv in P. cbn. lia.
Qed.

(** The characterisations below read the list through any [E] that agrees with
    it on its positions (the callers know the elements as values of variables). *)
Section Indexed.
Variable bs : list bool.
Variable E : nat -> bool.
Hypothesis HB : forall i, i < length bs -> nth i bs false = E i.

Lemma runs_starts_E : forall P : nat -> Prop,
  Forall P (bruns bs) <->
  forall i, i < length bs -> E i = true -> (i = 0 \/ E (i - 1) = false) -> P (lead (skipn i bs)).
Proof.
  intros P. rewrite runs_starts_spec. split; intros H i Hi Hn Hs; apply (H i Hi).
  - now rewrite HB.
  - destruct Hs as [Hs|Hs]; [now left|right; rewrite HB by lia; exact Hs].
  - now rewrite <- HB.
  - destruct Hs as [Hs|Hs]; [now left|right; rewrite <- HB by lia; exact Hs].
Qed.

Lemma lead_ge_E : forall i k, i < length bs ->
  (k <= lead (skipn i bs) <-> i + k <= length bs /\ forall j, j < k -> E (i + j) = true).
Proof.
  intros i k Hi. rewrite (lead_ge_at bs i k Hi). split; intros [H1 H2]; (split; [exact H1|]); intros j Hj.
  - rewrite <- HB by lia. now apply H2.
  - rewrite HB by lia. now apply H2.
Qed.

(** S1: every maximal run has length at least k iff every run start is
    followed by k on-trials inside the list (no side condition on [k]). *)
Theorem atleast_runs_E : forall k,
  Forall (fun n => k <= n) (bruns bs) <->
  forall i, i < length bs -> E i = true -> (i = 0 \/ E (i - 1) = false) ->
            i + k <= length bs /\ forall j, j < k -> E (i + j) = true.
Proof.
  intros k. rewrite (runs_starts_E (fun n => k <= n)).
  split; intros H i Hi Hn Hs; (apply lead_ge_E; [exact Hi|]); apply H; assumption.
Qed.

(** S2: every maximal run has length exactly k. *)
Theorem exact_runs_E : forall k, 0 < k ->
  (Forall (fun n => n = k) (bruns bs) <->
   (forall i, i < length bs -> E i = true -> (i = 0 \/ E (i - 1) = false) ->
              i + k <= length bs /\ forall j, j < k -> E (i + j) = true) /\
   (forall i, i + k < length bs -> (forall j, j < k -> E (i + j) = true) ->
              (i = 0 \/ E (i - 1) = false) -> E (i + k) = false)).
Proof.
  intros k Hk. rewrite (runs_starts_E (fun n => n = k)). split.
  - intro H. split.
    + intros i Hi Hn Hs. apply lead_ge_E; [exact Hi|].
      pose proof (H i Hi Hn Hs) as X. lia.
    + intros i Hi Hall Hs. assert (Hi' : i < length bs) by lia.
      pose proof (Hall 0 Hk) as Hn. rewrite Nat.add_0_r in Hn.
      pose proof (H i Hi' Hn Hs) as X. apply lead_eq_iff in X.
      destruct X as [_ X]. rewrite nth_skipn_add, HB in X by exact Hi. exact X.
  - intros [H1 H2] i Hi Hn Hs. apply lead_eq_iff.
    destruct (H1 i Hi Hn Hs) as [H1a H1b]. split.
    + apply lead_ge_E; [exact Hi|]. split; assumption.
    + rewrite nth_skipn_add.
      destruct (Nat.lt_ge_cases (i + k) (length bs)) as [Hlt | Hge].
      * rewrite HB by exact Hlt. apply H2; [exact Hlt | exact H1b | exact Hs].
      * apply nth_overflow. exact Hge.
Qed.

End Indexed.

(** S1: every maximal run has length at least k iff every run start is
    followed by k on-trials inside the list. *)
Theorem atleast_runs_spec : forall k bs, 0 < k ->
  (Forall (fun n => k <= n) (bruns bs) <->
   forall i, i < length bs -> nth i bs false = true ->
             (i = 0 \/ nth (i - 1) bs false = false) ->
             (i + k <= length bs /\ forall j, j < k -> nth (i + j) bs false = true)).
Proof. intros k bs _. exact (atleast_runs_E bs (fun i => nth i bs false) (fun _ _ => eq_refl) k). Qed.

(** S2: every maximal run has length exactly k. *)
Theorem exact_runs_spec : forall k bs, 0 < k ->
  (Forall (fun n => n = k) (bruns bs) <->
   (forall i, i < length bs -> nth i bs false = true ->
              (i = 0 \/ nth (i - 1) bs false = false) ->
              (i + k <= length bs /\ forall j, j < k -> nth (i + j) bs false = true)) /\
   (forall i, i + k < length bs ->
              (forall j, j < k -> nth (i + j) bs false = true) ->
              (i = 0 \/ nth (i - 1) bs false = false) ->
              nth (i + k) bs false = false)).
Proof. intros k bs. exact (exact_runs_E bs (fun i => nth i bs false) (fun _ _ => eq_refl) k). Qed.

Print Assumptions atleast_runs_spec.
Print Assumptions exact_runs_spec.
Print Assumptions atmost_windows_runs.
