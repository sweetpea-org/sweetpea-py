(** AtLeastKInARow and ExactlyKInARow inside the fragment F1: (a) their
    contribution is a Tseitin block (ExactlyKInARow: one block per window, each
    on the accumulated implications) asserting the emitted implications, whose
    leaves are grid variables; (b) by Encode/InARow.v those implications hold
    iff every maximal run of the level in every window has length >= k / = k,
    which on a one-hot grid is [Sem.constraint_ok] for [KAtLeast] /
    [KExactlyInARow]. *)
From Coq Require Import ZArith List Bool Arith Lia.
From SP Require Import Base.Lists Base.Sat Base.Bits.
From SP Require Import Logic.Formula.
From SP Require Import Design.Flat Design.Layout Design.Sem.
From SP Require Import Encode.Compile Encode.CodeSem Encode.Generic Encode.Blocks Encode.Runs
     Encode.GridLemmas Encode.LayoutF1 Encode.F1Lists Encode.F1Kinds Encode.F1Sem Encode.InARow Encode.InARowLeaves.
Import ListNotations.
Close Scope Z_scope.
Open Scope nat_scope.

Lemma leaves_and_app l1 l2 : leaves (FAnd (l1 ++ l2)) = leaves (FAnd l1) ++ leaves (FAnd l2).
Proof. cbn [leaves]. apply flat_map_app. Qed.

Lemma leaves_and_flat_map {A} (g : A -> list fm) (l : list A) z :
  In z (leaves (FAnd (flat_map g l))) -> exists x, In x l /\ In z (leaves (FAnd (g x))).
Proof.
  induction l as [|x l IH]; cbn [flat_map]; [intros []|].
  rewrite leaves_and_app, in_app_iff. intros [H|H].
  - exists x. split; [now left|exact H].
  - destruct (IH H) as (y & Hy & Hz). exists y. split; [now right|exact Hz].
Qed.

(** the loop of ExactlyKInARow: one Tseitin block per window *)
Lemma ekr_loop_block k : forall vls impls fresh cls fresh',
  (1 <= fresh)%Z ->
  (forall z, In z (leaves (FAnd (impls ++ ekr_all k vls))) -> z <> 0%Z /\ (Z.abs z < fresh)%Z) ->
  ekr_loop k vls impls fresh = (cls, fresh') ->
  exists ext, DefinesA (fresh - 1) (fresh' - 1) cls [] ext
                       (fun s => (vls <> [] -> eval s (FAnd impls) = true) /\ eval s (FAnd (ekr_all k vls)) = true).
Proof.
  induction vls as [|vl r IH]; intros impls fresh cls fresh' Hf HL E.
  - cbn [ekr_loop] in E. inversion E. subst. exists (fun s => s).
    eapply definesA_conseq; [apply definesA_nil; lia|]. intros s. split; [|tauto].
    intros _. split; [intros H; now contradiction H|reflexivity].
  - rewrite ekr_loop_cons in E. cbv zeta in E.
    destruct (cnf_fn (impls ++ ekr_window k vl) fresh) as [cls1 fresh1] eqn:E1.
    destruct (ekr_loop k r (impls ++ ekr_window k vl) fresh1) as [cls2 fresh2] eqn:E2.
    inversion E. subst cls fresh'. clear E.
    assert (HL1 : forall z, In z (leaves (FAnd (impls ++ ekr_window k vl))) -> z <> 0%Z /\ (Z.abs z < fresh)%Z).
    { intros z Hz. apply HL. unfold ekr_all. cbn [flat_map]. rewrite app_assoc, leaves_and_app, in_app_iff. now left. }
    destruct (definesA_tseitin _ fresh cls1 fresh1 Hf HL1 E1) as (e1 & D1).
    pose proof (da_range _ _ _ _ _ _ D1) as R1.
    destruct (IH (impls ++ ekr_window k vl) fresh1 cls2 fresh2 ltac:(lia)) as (e2 & D2); [|exact E2|].
    { intros z Hz. assert (Hz' : z <> 0%Z /\ (Z.abs z < fresh)%Z); [|lia].
      apply HL. unfold ekr_all. cbn [flat_map]. now rewrite app_assoc. }
    exists (fun s => e2 (e1 s)).
    pose proof (definesA_seq _ _ _ _ _ _ _ _ _ _ _ D1 D2) as D. cbn [app] in D.
    eapply definesA_conseq; [exact D|]. intros s. unfold ekr_all. cbn [flat_map].
    rewrite !eval_and_app, !andb_true_iff. split.
    + intros [[A B] [_ C]]. split; [intros _; exact A|]. now split.
    + intros [A [B C]]. assert (A' := A ltac:(discriminate)). split; [now split|]. split; [intros _; now split|exact C].
Qed.

Section F1InARow.
Variable fb : flat.
Hypothesis HF1 : in_f1 fb = true.
Hypothesis HT : 0 < T fb.

Notation GZ := (GZ fb).
Notation col := (col fb).

Definition Patleast (k f l : nat) (wb : option geometry) (s : asg) : Prop :=
  Forall (fun r => Forall (fun n => k <= n) (bruns (col s f l (fst r) (snd r)))) (windows_of fb wb).

Definition Pexactrow (k f l : nat) (wb : option geometry) (s : asg) : Prop :=
  Forall (fun r => Forall (fun n => n = k) (bruns (col s f l (fst r) (snd r)))) (windows_of fb wb).

Lemma vls_pos f l rs : Forall (Forall (fun v => 0 < v)) (vls_of fb f l rs).
Proof.
  apply Forall_map. apply Forall_forall. intros r _. apply Forall_map. apply Forall_forall. intros t _.
  apply gvar_pos.
Qed.

Lemma vls_bound f l rs fresh v vl :
  isact fb f = true -> l < nlevels fb f -> Forall (fun r => fst r < T fb /\ snd r <= T fb) rs -> (GZ < fresh)%Z ->
  In vl (vls_of fb f l rs) -> In v vl -> (Z.of_nat v <> 0 /\ Z.abs (Z.of_nat v) < fresh)%Z.
Proof.
  intros Hf Hl Hb Hfr Hvl Hv. apply in_map_iff in Hvl. destruct Hvl as (r & <- & Hr).
  pose proof (Forall_In _ _ _ Hb Hr) as [_ Hr2].
  pose proof (proj1 (Forall_forall _ _) (range_vars_ok fb HF1 HT f l r fresh Hf Hl Hr2 Hfr) v Hv) as [A B].
  unfold zn in B. lia.
Qed.

Lemma guard_inarow k f l wb :
  ((0 <? k) && isact fb f && (l <? nlevels fb f) && geom_ok fb wb && stride1 fb f)%bool = true ->
  0 < k /\ isact fb f = true /\ l < nlevels fb f /\ stride1 fb f = true /\
  Forall (fun r => fst r < T fb /\ snd r <= T fb) (windows_of fb wb) /\
  var_lists fb f l wb = COk (vls_of fb f l (windows_of fb wb)).
Proof.
  rewrite !andb_true_iff. intros [[[[A B] C] D] E]. apply Nat.ltb_lt in A.
  destruct (window_guard fb HF1 HT f l wb B C D) as (Hl & Hb & Ev). repeat split; assumption.
Qed.

Lemma runs_cols s f l rs (P : nat -> Prop) :
  Forall (fun vl => Forall P (bruns (map (fun v => s (zn v)) vl))) (vls_of fb f l rs) <->
  Forall (fun r => Forall P (bruns (col s f l (fst r) (snd r)))) rs.
Proof. unfold vls_of. rewrite Forall_map. apply Forall_iff_ext. intros r _. now rewrite col_vars. Qed.

Lemma step_atleast k f l wb :
  constraint_f1 fb (FAtLeast k f l wb) = true ->
  forall fresh ct, (GZ < fresh)%Z -> apply_constraint fb (FAtLeast k f l wb) fresh = COk ct ->
  exists ext, DefinesA (fresh - 1) (ct_fresh ct - 1) (ct_clauses ct) (ct_requests ct) ext (Patleast k f l wb).
Proof.
  intros Hc fresh ct Hfr E. cbn [constraint_f1] in Hc. destruct (guard_inarow k f l wb Hc) as (Hk & Hf & Hl & Hst & Hb & Ev).
  set (rs := windows_of fb wb) in *.
  pose proof (GZ_nonneg fb) as HGZ.
  cbn [apply_constraint] in E. unfold apply_atleast in E.
  rewrite Ev in E. cbn [cbind] in E.
  assert (HL : forall z, In z (leaves (FAnd (flat_map (fun vl => atleast_impls k vl (windows (k + 1) vl)) (vls_of fb f l rs)))) ->
                         z <> 0%Z /\ (Z.abs z < fresh)%Z).
  { intros z Hz. apply leaves_and_flat_map in Hz. destruct Hz as (vl & Hvl & Hz). rewrite Nat.add_1_r in Hz.
    destruct (atleast_impls_leaves k vl z Hk Hz) as (v & Hv & ->).
    exact (vls_bound f l rs fresh v vl Hf Hl Hb Hfr Hvl Hv). }
  destruct (step_tseitin _ fresh ct ltac:(lia) HL E) as (ext & D).
  exists ext. eapply definesA_conseq; [exact D|]. intros s. cbv beta.
  rewrite (atleast_formula_spec k _ s Hk (vls_pos f l rs)), runs_cols. reflexivity.
Qed.

Lemma atleast_total k f l wb fresh :
  constraint_f1 fb (FAtLeast k f l wb) = true -> exists ct, apply_constraint fb (FAtLeast k f l wb) fresh = COk ct.
Proof.
  intros Hc. cbn [constraint_f1] in Hc. destruct (guard_inarow k f l wb Hc) as (Hk & Hf & Hl & Hst & Hb & Ev).
  cbn [apply_constraint]. unfold apply_atleast. rewrite Ev. cbn [cbind].
  apply tseitin_contrib_total.
Qed.

Lemma step_exactrow k f l wb :
  constraint_f1 fb (FExactlyKInARow k f l wb) = true ->
  forall fresh ct, (GZ < fresh)%Z -> apply_constraint fb (FExactlyKInARow k f l wb) fresh = COk ct ->
  exists ext, DefinesA (fresh - 1) (ct_fresh ct - 1) (ct_clauses ct) (ct_requests ct) ext (Pexactrow k f l wb).
Proof.
  intros Hc fresh ct Hfr E. cbn [constraint_f1] in Hc. destruct (guard_inarow k f l wb Hc) as (Hk & Hf & Hl & Hst & Hb & Ev).
  set (rs := windows_of fb wb) in *.
  pose proof (GZ_nonneg fb) as HGZ.
  cbn [apply_constraint] in E. unfold apply_exactlykinarow in E.
  rewrite Ev in E. cbn [cbind] in E.
  destruct (ekr_loop k (vls_of fb f l rs) [] fresh) as [cls fresh'] eqn:Eloop. inversion E. subst ct. clear E.
  cbn [ct_fresh ct_clauses ct_requests].
  assert (HL : forall z, In z (leaves (FAnd ([] ++ ekr_all k (vls_of fb f l rs)))) -> z <> 0%Z /\ (Z.abs z < fresh)%Z).
  { cbn [app]. intros z Hz. unfold ekr_all in Hz. apply leaves_and_flat_map in Hz. destruct Hz as (vl & Hvl & Hz).
    destruct (ekr_window_leaves k vl z Hk Hz) as (v & Hv & ->).
    exact (vls_bound f l rs fresh v vl Hf Hl Hb Hfr Hvl Hv). }
  destruct (ekr_loop_block k (vls_of fb f l rs) [] fresh cls fresh' ltac:(lia) HL Eloop) as (ext & D).
  exists ext. eapply definesA_conseq; [exact D|]. intros s. cbv beta.
  rewrite (ekr_formula_spec k _ s Hk (vls_pos f l rs)), runs_cols. unfold Pexactrow. fold rs.
  split; [tauto|]. intros H. split; [intros _; apply eval_and_nil|exact H].
Qed.

Lemma exactrow_total k f l wb fresh :
  constraint_f1 fb (FExactlyKInARow k f l wb) = true -> exists ct, apply_constraint fb (FExactlyKInARow k f l wb) fresh = COk ct.
Proof.
  intros Hc. cbn [constraint_f1] in Hc. destruct (guard_inarow k f l wb Hc) as (Hk & Hf & Hl & Hst & Hb & Ev).
  cbn [apply_constraint]. unfold apply_exactlykinarow. rewrite Ev. cbn [cbind].
  destruct (ekr_loop _ _ _ _). eexists. reflexivity.
Qed.

Theorem atleast_sem s q k f l wb :
  onehot fb s q -> constraint_f1 fb (FAtLeast k f l wb) = true ->
  (Patleast k f l wb s <-> constraint_ok (code_sem fb) q (mk_c (KAtLeast k) f l (windows_of fb wb)) = true).
Proof.
  intros Ho Hc. cbn [constraint_f1] in Hc. destruct (guard_inarow k f l wb Hc) as (Hk & Hf & Hl & Hst & Hb & Ev).
  unfold Patleast, constraint_ok, mk_c. cbn [k_kind k_factor k_level k_windows].
  exact (runs_sem fb HF1 HT s q f l _ _ _ (fun n => Nat.leb_le k n) Ho Hf Hst Hl Hb).
Qed.

Theorem exactrow_sem s q k f l wb :
  onehot fb s q -> constraint_f1 fb (FExactlyKInARow k f l wb) = true ->
  (Pexactrow k f l wb s <-> constraint_ok (code_sem fb) q (mk_c (KExactlyInARow k) f l (windows_of fb wb)) = true).
Proof.
  intros Ho Hc. cbn [constraint_f1] in Hc. destruct (guard_inarow k f l wb Hc) as (Hk & Hf & Hl & Hst & Hb & Ev).
  unfold Pexactrow, constraint_ok, mk_c. cbn [k_kind k_factor k_level k_windows].
  exact (runs_sem fb HF1 HT s q f l _ _ _ (fun n => Nat.eqb_eq n k) Ho Hf Hst Hl Hb).
Qed.

End F1InARow.
