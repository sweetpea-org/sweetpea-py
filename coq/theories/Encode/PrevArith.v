(** Arithmetic of the trials in which a factor with a window has a level:
    the [k]-th such trial is [start + k * stride]. *)
From Coq Require Import ZArith List Bool Arith Lia.
From SP Require Import Design.Flat Design.Layout Encode.Compile Encode.CodeSem Encode.LayoutF1.
Import ListNotations.
Close Scope Z_scope.
Open Scope nat_scope.

(** where a factor with a window and sustain 1 has a level *)
Lemma lappl_window fb f fd w t :
  factor_at fb f = Some fd -> ff_window fd = Some w -> sustain fb f = 1 ->
  lappl fb f t = (win_start w <=? t) && ((t - win_start w) mod win_stride w =? 0).
Proof.
  intros Hf Hw Hs. unfold lappl, applies_at. rewrite Hs, Nat.div_1_r.
  unfold applies_to_trial. rewrite Hf, Hw.
  replace (S t - 1 + 1) with (t + 1) by lia.
  replace (t + 1 - (win_start w + 1)) with (t - win_start w) by lia.
  f_equal.
  destruct (Nat.leb_spec (win_start w + 1) (t + 1)), (Nat.leb_spec (win_start w) t); auto; lia.
Qed.

Lemma prev_none fb f n :
  (forall t, t < n -> lappl fb f t = false) -> prev fb f n = 0.
Proof.
  induction n as [|n IH]; intros H; [apply prev_0|].
  rewrite prev_S, (H n) by lia. rewrite IH; [lia|]. intros t Ht. apply H. lia.
Qed.

Lemma window_arith_step st sd m k :
  0 < sd -> st <= m -> (m - st) mod sd = 0 -> 0 < k < sd -> (m + k - st) mod sd <> 0.
Proof.
  intros Hsd Hst Hm Hk.
  apply Nat.mod_divides in Hm; [|lia]. destruct Hm as [c Hc].
  replace (m + k - st) with (k + (m - st)) by lia.
  rewrite Hc, (Nat.mul_comm sd c), Nat.mod_add by lia.
  rewrite Nat.mod_small by lia. lia.
Qed.

Lemma window_arith_back st sd n :
  0 < sd -> st < n -> (n - st) mod sd = 0 ->
  sd <= n - st /\ (n - sd - st) mod sd = 0.
Proof.
  intros Hsd Hst Hn.
  apply Nat.mod_divides in Hn; [|lia]. destruct Hn as [c Hc].
  destruct c as [|c]; [rewrite Nat.mul_0_r in Hc; lia|].
  rewrite Nat.mul_succ_r in Hc.
  split; [lia|].
  replace (n - sd - st) with (sd * c) by lia.
  rewrite Nat.mul_comm. apply Nat.mod_mul. lia.
Qed.

Lemma prev_next fb f fd w m k :
  factor_at fb f = Some fd -> ff_window fd = Some w -> sustain fb f = 1 -> 0 < win_stride w ->
  lappl fb f m = true -> 1 <= k <= win_stride w ->
  prev fb f (m + k) = prev fb f m + 1.
Proof.
  intros Hf Hw Hs Hsd Hm. induction k as [|k IH]; intros Hk; [lia|].
  replace (m + S k) with (S (m + k)) by lia. rewrite prev_S.
  destruct (Nat.eq_dec k 0) as [->|Hk0].
  - rewrite Nat.add_0_r, Hm. reflexivity.
  - rewrite IH by lia.
    assert (Hl : lappl fb f (m + k) = false).
    { rewrite (lappl_window _ _ _ _ m Hf Hw Hs) in Hm.
      apply andb_true_iff in Hm. destruct Hm as [H1 H2].
      apply Nat.leb_le in H1. apply Nat.eqb_eq in H2.
      rewrite (lappl_window _ _ _ _ (m + k) Hf Hw Hs).
      apply andb_false_iff. right. apply Nat.eqb_neq.
      apply window_arith_step; auto; lia. }
    rewrite Hl. lia.
Qed.

(** a trial with a level is [start + (number of earlier trials with a level) * stride] *)
Lemma lappl_prev fb f fd w n :
  factor_at fb f = Some fd -> ff_window fd = Some w -> sustain fb f = 1 -> 0 < win_stride w ->
  lappl fb f n = true -> n = win_start w + prev fb f n * win_stride w.
Proof.
  intros Hf Hw Hs Hsd. induction n as [n IH] using lt_wf_ind. intros Hn.
  pose proof Hn as Hn'.
  rewrite (lappl_window _ _ _ _ n Hf Hw Hs) in Hn'.
  apply andb_true_iff in Hn'. destruct Hn' as [H1 H2].
  apply Nat.leb_le in H1. apply Nat.eqb_eq in H2.
  destruct (Nat.eq_dec n (win_start w)) as [He|Hne].
  - rewrite (prev_none fb f n); [lia|].
    intros t Ht. rewrite (lappl_window _ _ _ _ t Hf Hw Hs).
    apply andb_false_iff. left. apply Nat.leb_gt. lia.
  - destruct (window_arith_back (win_start w) (win_stride w) n) as [G1 G2]; auto; [lia|].
    assert (Hm : lappl fb f (n - win_stride w) = true).
    { rewrite (lappl_window _ _ _ _ _ Hf Hw Hs). apply andb_true_iff. split.
      - apply Nat.leb_le. lia.
      - apply Nat.eqb_eq. exact G2. }
    pose proof (IH (n - win_stride w) ltac:(lia) Hm) as E.
    pose proof (prev_next fb f fd w (n - win_stride w) (win_stride w) Hf Hw Hs Hsd Hm ltac:(lia)) as P.
    replace (n - win_stride w + win_stride w) with n in P by lia.
    rewrite P. rewrite Nat.mul_add_distr_r. lia.
Qed.

(** with stride 1 the levels exist from [start] on *)
Lemma prev_stride1 fb f fd w n :
  factor_at fb f = Some fd -> ff_window fd = Some w -> sustain fb f = 1 -> win_stride w = 1 ->
  prev fb f n = n - win_start w.
Proof.
  intros Hf Hw Hs H1. induction n as [|n IH]; [rewrite prev_0; lia|].
  rewrite prev_S, IH, (lappl_window _ _ _ _ n Hf Hw Hs), H1, Nat.mod_1_r.
  cbn [Nat.eqb]. rewrite andb_true_r.
  destruct (Nat.leb_spec (win_start w) n); lia.
Qed.

Print Assumptions lappl_window.
Print Assumptions lappl_prev.
Print Assumptions prev_stride1.
