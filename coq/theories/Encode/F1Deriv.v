(** The (a) half of the (simple) [Derivation] constraints in F1, and what
    [derivations_match] says about the [FDerivation] entries of the record. *)
From Coq Require Import ZArith List Bool Arith Lia.
From SP Require Import Base.Lists Base.Sat Base.Bits Core.Card Core.CardProofs.
From SP Require Import Logic.Formula Logic.Tseitin Logic.TseitinProofs.
From SP Require Import Design.Flat Design.Layout Design.Sem.
From SP Require Import Encode.Compile Encode.CodeSem Encode.Generic Encode.Blocks Encode.Runs
     Encode.GridLemmas Encode.CrossChunks Encode.LayoutF1 Encode.F1Lists Encode.F1Kinds Encode.F1Cross.
Import ListNotations.
Close Scope Z_scope.
Open Scope nat_scope.

Lemma list_eqb'_eq {A} (eqb : A -> A -> bool) :
  (forall a b, eqb a b = true -> a = b) -> forall l1 l2, list_eqb' eqb l1 l2 = true -> l1 = l2.
Proof.
  intros H. induction l1 as [|x l1 IH]; intros [|y l2] E; cbn [list_eqb'] in E; try discriminate; [reflexivity|].
  apply andb_true_iff in E. destruct E as [E1 E2]. f_equal; [now apply H|now apply IH].
Qed.

Lemma didx_eqb_eq a b : didx_eqb a b = true -> a = b.
Proof. destruct a, b; cbn [didx_eqb]; intros E; try discriminate; apply Nat.eqb_eq in E; now subst. Qed.

Section F1Deriv.
Variable fb : flat.
Hypothesis HF1 : in_f1 fb = true.
Hypothesis HT : 0 < T fb.

Notation GZ := (GZ fb).

(** the Iff's of [__apply_derivation] *)
Definition deriv_iffs (d : nat) (deps : list (list didx)) : list fm :=
  map (fun n =>
         FIff (fv (d + n * vpt fb + 1))
              (FOr (map (fun l => FAnd (map (fun x => match x with DIdx i => fv (i + n * vpt fb + 1) | DBefore _ => fv 0 end) l))
                        deps))) (seq 0 (T fb)).

Definition Pderiv (d : nat) (deps : list (list didx)) (s : asg) : Prop :=
  eval s (FAnd (deriv_iffs d deps)) = true.

(** the dependent indices [DerivationProcessor] produces for a table entry *)
Definition entry_deps (deps : list nat) (entry : list (list (option nat))) : list didx :=
  map2 (fun dd col => match col with [Some x] => DIdx (off fb dd + x) | _ => DBefore 0 end) deps entry.

Lemma col_ok_inv d col : col_ok fb d col = true -> exists x, col = [Some x] /\ x < nlevels fb d.
Proof.
  unfold col_ok. destruct col as [|[x|] [|? ?]]; try discriminate. intros H. exists x. split; [reflexivity|now apply Nat.ltb_lt].
Qed.

Lemma entry_deps_expected deps : forall entry,
  Forall (fun dd => sact fb dd = true) deps -> entry_ok fb deps entry = true ->
  map2 (fun d col => match col with
                     | [Some x] => match first_variable_for_level fb d x with Some v => DIdx v | None => DBefore 0 end
                     | _ => DBefore 0
                     end) deps entry = entry_deps deps entry.
Proof.
  induction deps as [|dd deps IH]; intros [|col entry] Hd He; cbn [entry_ok] in He; try discriminate; try reflexivity.
  apply andb_true_iff in He. destruct He as [Hc He]. inversion Hd as [|? ? Hdd Hds]; subst.
  unfold entry_deps. cbn [map2]. f_equal; [|apply IH; assumption].
  destruct (col_ok_inv dd col Hc) as (x & -> & Hx).
  cbv beta in Hdd. apply (sact_split fb) in Hdd. destruct Hdd as [Hda Hdc].
  now rewrite (f1_first_var fb HF1 dd x Hda Hx), Hdc.
Qed.

Lemma simple_offset_in fs : forall f o, simple_offset fb fs f = Some o -> In f fs.
Proof.
  induction fs as [|g gs IH]; intros f o H; cbn [simple_offset] in H; [discriminate|].
  destruct (g =? f) eqn:E; [apply Nat.eqb_eq in E; now left|].
  destruct (simple_offset fb gs f) as [o'|] eqn:E'; [|discriminate]. right. now apply (IH f o').
Qed.

Definition lev_of' (c : option nat) : nat := match c with Some x => x | None => 0 end.

(** the 0-based variable indices [DerivationProcessor] produces for a table entry of a complex
    window ([shift_window]: the [j]-th cell of a column is shifted by [j] trials) *)
Definition col_idx (d : nat) (col : list (option nat)) : list nat :=
  map (fun jc => off fb d + lev_of' (snd jc) + fst jc * vpt fb) (combine (seq 0 (length col)) col).
Definition entry_idx (deps : list nat) (entry : list (list (option nat))) : list nat :=
  concat (map2 col_idx deps entry).

Lemma colw_cells width d col :
  colw_ok fb width d col = true ->
  length col = width /\ forall j c, In (j, c) (combine (seq 0 (length col)) col) -> exists x, c = Some x /\ x < nlevels fb d.
Proof.
  unfold colw_ok. rewrite andb_true_iff, forallb_forall. intros [Hl Hc]. apply Nat.eqb_eq in Hl. split; [exact Hl|].
  intros j c Hin. destruct (combine_seq_in col 0 j c Hin) as [_ Hcin]. specialize (Hc c Hcin).
  destruct c as [x|]; [|discriminate]. exists x. split; [reflexivity|now apply Nat.ltb_lt].
Qed.

Lemma entry_idx_expected width deps : forall entry,
  Forall (fun dd => sact fb dd = true) deps -> entryw_ok fb width deps entry = true ->
  concat (map2 (fun d col =>
                  map (fun jc => match snd jc with
                                 | Some x => match first_variable_for_level fb d x with
                                             | Some v => DIdx (v + fst jc * variables_per_trial fb)
                                             | None => DBefore 0
                                             end
                                 | None => DBefore 0
                                 end) (combine (seq 0 (length col)) col)) deps entry)
  = map DIdx (entry_idx deps entry).
Proof.
  induction deps as [|dd deps IH]; intros [|col entry] Hd He; cbn [entryw_ok] in He; try discriminate; [reflexivity|].
  apply andb_true_iff in He. destruct He as [Hc He]. inversion Hd as [|? ? Hdd Hds]; subst.
  unfold entry_idx. cbn [map2 concat]. rewrite map_app. f_equal; [|apply IH; assumption].
  unfold col_idx. rewrite map_map. apply map_ext_in. intros [j c] Hin. cbn [fst snd].
  destruct (colw_cells width dd col Hc) as [_ Hcells]. destruct (Hcells j c Hin) as (x & -> & Hx).
  cbv beta in Hdd. apply (sact_split fb) in Hdd. destruct Hdd as [Hda Hdc].
  rewrite (f1_first_var fb HF1 dd x Hda Hx), Hdc. cbn [lev_of']. reflexivity.
Qed.

(** [lv] is level [l] of the derived factor [f] of act_design, whose window is [w] *)
Record dlevel (f l : nat) (fd : ffactor) (w : fwindow) (lv : flevel) : Prop := {
  dl_fd : nth_error (fl_design fb) f = Some fd;
  dl_w : ff_window fd = Some w;
  dl_lv : nth_error (ff_levels fd) l = Some lv;
  dl_act : isact fb f = true }.

Lemma f1_deps_facts f fd w :
  nth_error (fl_design fb) f = Some fd -> ff_window fd = Some w -> isact fb f = true ->
  Forall (fun dd => sact fb dd = true) (win_deps w).
Proof.
  intros Efd Ew Ha. destruct (f1_tables fb (in_f1_facts fb HF1) f fd Efd) as [Htab _]. unfold tables_ok in Htab. rewrite Ew in Htab.
  apply andb_true_iff in Htab. destruct Htab as [Hlt _]. rewrite forallb_forall in Hlt.
  apply Forall_forall. intros dd Hdd. apply (dep_ok_act fb f dd Ha). now apply Hlt.
Qed.

Lemma dl_lt {f l fd w lv} : dlevel f l fd w lv -> l < nlevels fb f.
Proof. intros [Efd _ Elv _]. rewrite (nlevels_at fb f fd Efd). apply nth_error_Some. now rewrite Elv. Qed.

Lemma dl_intro f l fd w :
  nth_error (fl_design fb) f = Some fd -> ff_window fd = Some w -> isact fb f = true -> l < nlevels fb f ->
  exists lv, dlevel f l fd w lv.
Proof.
  intros Efd Ew Ha Hl. rewrite (nlevels_at fb f fd Efd) in Hl.
  destruct (nth_error (ff_levels fd) l) as [lv|] eqn:E; [exists lv; now split|].
  apply nth_error_None in E. destruct (Nat.lt_irrefl _ (Nat.lt_le_trans _ _ _ Hl E)).
Qed.

Lemma dl_deps {f l fd w lv} : dlevel f l fd w lv -> Forall (fun dd => sact fb dd = true) (win_deps w).
Proof. intros [Efd Ew _ Ha]. exact (f1_deps_facts f fd w Efd Ew Ha). Qed.

Lemma dl_entries {f l fd w lv} : dlevel f l fd w lv ->
  Forall (fun e => (if is_complex fb f then entryw_ok fb (win_width w) (win_deps w) e else entry_ok fb (win_deps w) e) = true)
         (lv_accepts lv).
Proof.
  intros [Efd Ew Elv Ha]. rewrite (is_complex_at fb f fd Efd).
  destruct (f1_tables fb (in_f1_facts fb HF1) f fd Efd) as [Htab _]. unfold tables_ok in Htab. rewrite Ew, Ha in Htab.
  apply andb_true_iff in Htab. destruct Htab as [_ Hent]. cbn [negb orb] in Hent. rewrite forallb_forall in Hent.
  specialize (Hent lv (nth_error_In _ _ Elv)). rewrite forallb_forall in Hent.
  apply Forall_forall. intros e He. specialize (Hent e He). destruct (ff_complex fd); exact Hent.
Qed.

(** the variable and the dependent indices of the [FDerivation] of a level *)
Definition dvar (f l : nat) : nat := if is_complex fb f then GN fb + coff fb f + l else off fb f + l.
Definition ddeps (f : nat) (w : fwindow) (lv : flevel) : list (list didx) :=
  if is_complex fb f then map (fun e => map DIdx (entry_idx (win_deps w) e)) (lv_accepts lv)
  else map (entry_deps (win_deps w)) (lv_accepts lv).

Lemma expected_ddeps f l fd w lv : dlevel f l fd w lv ->
  (if ff_complex fd then expected_deps_c fb w lv else expected_deps fb w lv) = ddeps f w lv.
Proof.
  intros D. pose proof (dl_deps D) as Hd. pose proof (dl_entries D) as He. unfold ddeps.
  rewrite (is_complex_at fb f fd (dl_fd _ _ _ _ _ D)) in *.
  destruct (ff_complex fd); apply map_ext_in; intros e Hin; pose proof (Forall_In _ _ _ He Hin) as Hok.
  - now apply (entry_idx_expected (win_width w)).
  - now apply entry_deps_expected.
Qed.

Lemma is_derivation_of_inv f l c : isact fb f = true -> l < nlevels fb f -> is_derivation_of fb f l c = true ->
  exists fd w lv, dlevel f l fd w lv /\ c = FDerivation (dvar f l) (ddeps f w lv) f.
Proof.
  intros Ha Hl H. unfold is_derivation_of, factor_at in H.
  destruct c as [| | |d deps f'| | | | | | | | | | | | |]; try discriminate H.
  destruct (nth_error (fl_design fb) f) as [fd|] eqn:Efd; [|discriminate].
  destruct (ff_window fd) as [w|] eqn:Ew; [|discriminate].
  destruct (nth_error (ff_levels fd) l) as [lv|] eqn:Elv; [|discriminate].
  rewrite (f1_first_var fb HF1 f l Ha Hl) in H. fold (dvar f l) in H.
  rewrite !andb_true_iff in H. destruct H as [[Hf Hd] Hdeps]. apply Nat.eqb_eq in Hf, Hd.
  apply (list_eqb'_eq _ (list_eqb'_eq _ didx_eqb_eq)) in Hdeps.
  assert (D : dlevel f l fd w lv) by now split.
  exists fd, w, lv. split; [exact D|]. now rewrite Hf, Hd, Hdeps, (expected_ddeps f l fd w lv D).
Qed.

(** [derivations_match]: the [FDerivation]s of an F1 record are those of the derived levels of act_design *)
Lemma deriv_iff d deps f :
  In (FDerivation d deps f) (fl_constraints fb) <->
  exists l fd w lv, dlevel f l fd w lv /\ d = dvar f l /\ deps = ddeps f w lv.
Proof.
  pose proof (f1_derivations fb (in_f1_facts fb HF1)) as HD.
  unfold derivations_match in HD. apply andb_true_iff in HD. destruct HD as [HD1 HD2]. rewrite forallb_forall in HD1, HD2.
  split.
  - intros Hin. specialize (HD2 _ Hin). cbn beta iota in HD2. apply andb_true_iff in HD2. destruct HD2 as [Hf HD2].
    apply existsb_exists in HD2. destruct HD2 as (l & Hl & HD2). apply in_seq in Hl.
    destruct (is_derivation_of_inv f l _ Hf (proj2 Hl) HD2) as (fd & w & lv & D & E). inversion E. now exists l, fd, w, lv.
  - intros (l & fd & w & lv & D & -> & ->). pose proof D as [Efd Ew Elv Ha].
    specialize (HD1 (f, fd) (proj2 (in_enum (fl_design fb) (f, fd)) Efd)). cbn beta iota in HD1.
    rewrite Ew, Ha in HD1. cbn [negb orb] in HD1. rewrite forallb_forall in HD1.
    pose proof (dl_lt D) as Hl. rewrite (nlevels_at fb f fd Efd) in Hl. specialize (HD1 l (in_seq0 _ _ Hl)).
    apply existsb_exists in HD1. destruct HD1 as (c & Hc & HD1).
    destruct (is_derivation_of_inv f l c Ha (dl_lt D) HD1) as (fd' & w' & lv' & [Efd' Ew' Elv' _] & ->).
    replace fd' with fd in * by congruence. replace w' with w in * by congruence. replace lv' with lv in * by congruence. exact Hc.
Qed.

Lemma entry_deps_idx deps : forall entry x,
  Forall (fun dd => sact fb dd = true) deps -> entry_ok fb deps entry = true ->
  In x (entry_deps deps entry) -> exists i, x = DIdx i /\ i < vpt fb.
Proof.
  induction deps as [|dd deps IH]; intros [|col entry] x Hd He Hx; cbn [entry_ok] in He; try discriminate;
    unfold entry_deps in Hx; cbn [map2] in Hx; try contradiction.
  apply andb_true_iff in He. destruct He as [Hc He]. inversion Hd as [|? ? Hdd Hds]; subst.
  destruct Hx as [<-|Hx]; [|now apply (IH entry)].
  destruct (col_ok_inv dd col Hc) as (y & -> & Hy).
  exists (off fb dd + y). split; [reflexivity|]. pose proof (f1_off_vpt fb HF1 dd Hdd). lia.
Qed.

Lemma dvar_vpt {f l fd w lv} : dlevel f l fd w lv -> is_complex fb f = false -> dvar f l < vpt fb.
Proof.
  intros D Hcx. pose proof (f1_off_vpt fb HF1 f (proj2 (sact_split fb f) (conj (dl_act _ _ _ _ _ D) Hcx))). pose proof (dl_lt D).
  unfold dvar. rewrite Hcx. lia.
Qed.

Lemma ddeps_idx {f l fd w lv} e x : dlevel f l fd w lv -> is_complex fb f = false ->
  In e (ddeps f w lv) -> In x e -> exists i, x = DIdx i /\ i < vpt fb.
Proof.
  intros D Hcx He Hx. pose proof (dl_entries D) as Hent. unfold ddeps in He. rewrite Hcx in He, Hent.
  apply in_map_iff in He. destruct He as (entry & <- & Hentry).
  exact (entry_deps_idx (win_deps w) entry x (dl_deps D) (Forall_In _ _ _ Hent Hentry) Hx).
Qed.

Lemma apply_deriv_eq {f l fd w lv} fresh : dlevel f l fd w lv -> is_complex fb f = false ->
  apply_constraint fb (FDerivation (dvar f l) (ddeps f w lv) f) fresh
  = tseitin_contrib (deriv_iffs (dvar f l) (ddeps f w lv)) [] fresh.
Proof.
  intros D Hcx. cbn [apply_constraint]. unfold apply_derivation.
  replace (dvar f l <? grid_variables fb) with true.
  2:{ symmetry. apply Nat.ltb_lt. rewrite (f1_grid fb). exact (lt_mul_add 0 _ _ _ HT (dvar_vpt D Hcx)). }
  unfold deriv_simple.
  replace (existsb (existsb is_before) (ddeps f w lv)) with false; [now rewrite andb_false_r|].
  symmetry. apply not_true_is_false. intros Hex. apply existsb_exists in Hex. destruct Hex as (e & He & Hex).
  apply existsb_exists in Hex. destruct Hex as (x & Hx & Hb). destruct (ddeps_idx e x D Hcx He Hx) as (i & -> & _). discriminate.
Qed.

Lemma deriv_iffs_leaves {f l fd w lv} fresh : dlevel f l fd w lv -> is_complex fb f = false -> (GZ < fresh)%Z ->
  forall z, In z (leaves (FAnd (deriv_iffs (dvar f l) (ddeps f w lv)))) -> z <> 0%Z /\ (Z.abs z < fresh)%Z.
Proof.
  intros D Hcx Hfr z Hz. cbn [leaves] in Hz. unfold deriv_iffs in Hz. rewrite flat_map_map in Hz.
  apply in_flat_map in Hz. destruct Hz as (n & Hn & Hz). apply in_seq in Hn. cbn [leaves fv] in Hz.
  assert (Hbound : forall i, i < vpt fb -> (0 < Z.of_nat (i + n * vpt fb + 1) < fresh)%Z).
  { intros i Hi. unfold F1Kinds.GZ, VN, GN, zn in Hfr. nia. }
  destruct Hz as [<-|Hz]; [specialize (Hbound _ (dvar_vpt D Hcx)); lia|].
  rewrite flat_map_map in Hz. apply in_flat_map in Hz. destruct Hz as (e & He & Hz). cbn [leaves] in Hz.
  rewrite flat_map_map in Hz. apply in_flat_map in Hz. destruct Hz as (x & Hx & Hz).
  destruct (ddeps_idx e x D Hcx He Hx) as (i & -> & Hi). cbn [fv leaves] in Hz. destruct Hz as [<-|[]].
  specialize (Hbound i Hi). lia.
Qed.

Lemma step_deriv d deps f :
  In (FDerivation d deps f) (fl_constraints fb) -> is_complex fb f = false ->
  forall fresh ct, (GZ < fresh)%Z -> apply_constraint fb (FDerivation d deps f) fresh = COk ct ->
  exists ext, DefinesA (fresh - 1) (ct_fresh ct - 1) (ct_clauses ct) (ct_requests ct) ext (Pderiv d deps).
Proof.
  intros Hin Hcx fresh ct Hfr E. apply deriv_iff in Hin. destruct Hin as (l & fd & w & lv & D & -> & ->).
  rewrite (apply_deriv_eq fresh D Hcx) in E. pose proof (GZ_nonneg fb).
  exact (step_tseitin _ fresh ct ltac:(lia) (deriv_iffs_leaves fresh D Hcx Hfr) E).
Qed.

End F1Deriv.
