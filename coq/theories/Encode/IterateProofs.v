(** Proofs about the iterate-and-block loop modelled in Iterate.v: with a sound
    and complete solver the loop returns pairwise distinct projections of
    models of the original formula, exhausts them when it stops early, and
    returns exactly min(count, N) of them. *)
From Coq Require Import ZArith List Bool Lia.
From SP Require Import Base.Sat Encode.Iterate.
Import ListNotations.
Open Scope Z_scope.

Lemma zrange_lower a n v : In v (zrange a n) -> a <= v.
Proof.
  revert a. induction n as [|n IH]; intros a Hin; cbn [zrange In] in Hin.
  - destruct Hin.
  - destruct Hin as [E|Hin]; [lia|]. apply IH in Hin. lia.
Qed.

Lemma zrange_length a n : length (zrange a n) = n.
Proof.
  revert a. induction n as [|n IH]; intros a; cbn [zrange length];
    [reflexivity|now rewrite IH].
Qed.

Lemma proj_length support s : length (proj support s) = support.
Proof. unfold proj. now rewrite map_length, zrange_length. Qed.

Definition signed (s : asg) (v : Z) : Z := if s v then v else - v.

Lemma proj_signed support s : proj support s = map (signed s) (zrange 1 support).
Proof. reflexivity. Qed.

Lemma signed_eq_iff s s0 v :
  0 < v -> (signed s v = signed s0 v <-> s v = s0 v).
Proof.
  intros Hv. unfold signed.
  destruct (s v), (s0 v); split; intros H;
    try reflexivity; try discriminate; lia.
Qed.

Lemma block_lit s s0 v :
  0 < v -> lit_true s (- signed s0 v) = negb (eqb (s v) (s0 v)).
Proof.
  intros Hv. unfold signed. destruct (s0 v).
  - rewrite lit_true_neg by assumption. now destruct (s v).
  - rewrite Z.opp_involutive, lit_true_pos by assumption. now destruct (s v).
Qed.

Lemma csat_blocking_list s s0 l :
  (forall v, In v l -> 0 < v) ->
  (csat s (blocking (map (signed s0) l)) = true <->
   map (signed s) l <> map (signed s0) l).
Proof.
  induction l as [|v l IH]; intros Hpos.
  - cbn. split; [discriminate|intros H; now elim H].
  - assert (Hv : 0 < v) by (apply Hpos; now left).
    assert (Hl : forall w, In w l -> 0 < w) by (intros w Hw; apply Hpos; now right).
    specialize (IH Hl).
    unfold csat, blocking in *. cbn [map existsb].
    rewrite orb_true_iff, block_lit by assumption. rewrite IH. split.
    + intros [Hd|Hd] E; injection E as E1 E2.
      * apply signed_eq_iff in E1; [|assumption]. rewrite E1 in Hd.
        now destruct (s0 v).
      * now apply Hd.
    + intros Hne. destruct (eqb (s v) (s0 v)) eqn:Eb.
      * right. intros E. apply Hne. f_equal; [|assumption].
        apply signed_eq_iff; [assumption|]. now apply eqb_prop.
      * now left.
Qed.

Lemma csat_blocking support s s0 :
  csat s (blocking (proj support s0)) = true <->
  proj support s <> proj support s0.
Proof.
  rewrite !proj_signed. apply csat_blocking_list.
  intros v Hv. apply zrange_lower in Hv. lia.
Qed.

(** Key lemma: models of the formula extended by the blocking clause. *)
Lemma sat_block support f s s0 :
  sat s (f ++ [blocking (proj support s0)]) = true <->
  sat s f = true /\ proj support s <> proj support s0.
Proof.
  rewrite sat_app, andb_true_iff. cbn [sat forallb]. rewrite andb_true_r.
  now rewrite csat_blocking.
Qed.

Lemma sol_eq_dec (a b : list Z) : {a = b} + {a <> b}.
Proof. apply list_eq_dec, Z.eq_dec. Qed.

Section IterateProofs.
Variable solve : cnf -> option asg.
Hypothesis solve_sound : forall f s, solve f = Some s -> sat s f = true.
Hypothesis solve_complete : forall f, solve f = None -> forall s, sat s f = false.

(** The four structural facts, by induction on [count] generalised over the
    current formula. *)
Lemma iterate_inv support count : forall f,
  let r := iterate solve count f support in
  NoDup r /\
  (forall sol, In sol r -> exists s, sat s f = true /\ proj support s = sol) /\
  (length r <= count)%nat /\
  ((length r < count)%nat -> forall s, sat s f = true -> In (proj support s) r).
Proof.
  induction count as [|c IH]; intros f; cbn zeta.
  - cbn [iterate]. repeat split.
    + constructor.
    + intros sol [].
    + reflexivity.
    + cbn [length]. lia.
  - cbn [iterate]. destruct (solve f) as [s0|] eqn:Es.
    + cbn zeta. set (sol0 := proj support s0).
      specialize (IH (f ++ [blocking sol0])). cbn zeta in IH.
      set (r' := iterate solve c (f ++ [blocking sol0]) support) in *.
      destruct IH as (Hnd & Hmod & Hlen & Hex).
      repeat split.
      * constructor; [|assumption]. intros Hin.
        destruct (Hmod _ Hin) as (s & Hs & Hp).
        apply sat_block in Hs. destruct Hs as [_ Hne]. now apply Hne.
      * intros sol [E|Hin].
        -- exists s0. split; [now apply solve_sound|exact E].
        -- destruct (Hmod _ Hin) as (s & Hs & Hp).
           apply sat_block in Hs. exists s. now split.
      * cbn [length]. lia.
      * cbn [length]. intros Hlt s Hs.
        destruct (sol_eq_dec (proj support s) sol0) as [E|Hne].
        -- left. now symmetry.
        -- right. apply Hex; [lia|]. apply sat_block. now split.
    + repeat split.
      * constructor.
      * intros sol [].
      * cbn [length]. lia.
      * intros _ s Hs. rewrite (solve_complete f Es s) in Hs. discriminate.
Qed.

Theorem iterate_exhausts count f support :
  let r := iterate solve count f support in
  NoDup r /\
  (forall sol, In sol r -> exists s, sat s f = true /\ proj support s = sol) /\
  (length r <= count)%nat /\
  ((length r < count)%nat -> forall s, sat s f = true -> In (proj support s) r) /\
  (forall L, NoDup L ->
     (forall sol, In sol L <-> exists s, sat s f = true /\ proj support s = sol) ->
     length r = Nat.min count (length L)).
Proof.
  cbn zeta. destruct (iterate_inv support count f) as (Hnd & Hmod & Hlen & Hex).
  cbn zeta in *. set (r := iterate solve count f support) in *.
  repeat split; try assumption.
  intros L HL HLiff.
  assert (Hinc : incl r L).
  { intros sol Hin. apply HLiff. now apply Hmod. }
  pose proof (NoDup_incl_length Hnd Hinc) as Hle.
  destruct (Nat.lt_ge_cases (length r) count) as [Hlt|Hge].
  - assert (Hinc' : incl L r).
    { intros sol Hin. apply HLiff in Hin. destruct Hin as (s & Hs & Hp).
      subst sol. now apply Hex. }
    pose proof (NoDup_incl_length HL Hinc') as Hle'. lia.
  - lia.
Qed.

(** Every returned solution has exactly [support] literals. *)
Lemma iterate_lengths count f support sol :
  In sol (iterate solve count f support) -> length sol = support.
Proof.
  intros Hin.
  destruct (iterate_exhausts count f support) as (_ & Hmod & _). cbn zeta in Hmod.
  destruct (Hmod _ Hin) as (s & _ & Hp). subst sol. apply proj_length.
Qed.

End IterateProofs.

(** * A concrete solver

    Brute force over the variables 1..n.  It is sound for every formula (and
    complete for formulas mentioning only variables 1..n); running the loop
    with it on (x1 \/ x2) returns the three projected models and then stops. *)
Fixpoint all_bools (n : nat) : list (list bool) :=
  match n with
  | O => [[]]
  | S n' => map (cons true) (all_bools n') ++ map (cons false) (all_bools n')
  end.

Definition asg_of (bs : list bool) : asg :=
  fun v => nth (Z.to_nat (v - 1)) bs false.

Definition solve_bf (n : nat) (f : cnf) : option asg :=
  find (fun s => sat s f) (map asg_of (all_bools n)).

Lemma solve_bf_sound n f s : solve_bf n f = Some s -> sat s f = true.
Proof. unfold solve_bf. intros H. now apply find_some in H. Qed.

Example iterate_bf_or :
  iterate (solve_bf 2) 5 [[1; 2]] 2 = [[1; 2]; [1; -2]; [-1; 2]].
Proof. vm_compute. reflexivity. Qed.

Example iterate_bf_or_count :
  iterate (solve_bf 2) 2 [[1; 2]] 2 = [[1; 2]; [1; -2]].
Proof. vm_compute. reflexivity. Qed.

(* The projection may be shorter than the variable set: x3 is free, the two
   models of (x1) /\ (x2 \/ x3) projected on 1..2 are returned once each. *)
Example iterate_bf_project :
  iterate (solve_bf 3) 5 [[1]; [2; 3]] 2 = [[1; 2]; [1; -2]].
Proof. vm_compute. reflexivity. Qed.

Print Assumptions iterate_exhausts.
