(** The (b) halves in F1: the grid predicates of Encode/F1Kinds.v on a one-hot
    grid are the documented meaning ([Design/Sem.v] on [code_sem fb]) of the
    sequence the grid encodes. *)
From Coq Require Import ZArith List Bool Arith Lia.
From SP Require Import Base.Sat Base.Bits Base.Lists.
From SP Require Import Design.Flat Design.Layout Design.Sem.
From SP Require Import Encode.Compile Encode.CodeSem Encode.Runs Encode.GridLemmas Encode.LayoutF1 Encode.PrevArith Encode.F1Lists Encode.F1Kinds.
Import ListNotations.
Close Scope Z_scope.
Open Scope nat_scope.

Section F1Sem.
Variable fb : flat.
Hypothesis HF1 : in_f1 fb = true.
Hypothesis HT : 0 < T fb.

Notation bit := (bit fb).
Notation col := (col fb).

Notation Facts := (in_f1_facts fb HF1).

Definition lev_of (c : cell) : nat := match c with Some x => x | None => 0 end.

(** the cell of a factor of [act_design]: the level whose variable is on, nothing
    in the trials in which a factor with a complex window has no level *)
Definition cell_act (s : asg) (t f : nat) : cell :=
  if lappl fb f t then find (fun l => bit s t f l) (seq 0 (nlevels fb f)) else None.

(** the rows of the factors of [act_design] as a sequence (the other rows are not read) *)
Definition dec_act (s : asg) : tseq :=
  map (fun f => map (fun t => cell_act s t f) (seq 0 (T fb))) (seq 0 (nf fb)).

(** the cell of an implied factor computed from a sequence [q] that holds the rows it
    reads: nothing where the factor does not apply, else the first level whose table
    accepts its window over [q] ([add_implied_levels]) *)
Definition impl_cell (q : tseq) (t f : nat) : cell :=
  match factor_at fb f with
  | Some fd => match ff_window fd with
               | Some w =>
                 if applies (code_factor fb f fd) t
                 then find (fun l => accepts (dwin fd w) l (window_args q (code_factor fb f fd) (dwin fd w) t))
                           (seq 0 (nlevels fb f))
                 else None
               | None => None
               end
  | None => None
  end.

(** the implied rows are filled in design order (an implied factor may read implied factors listed before it) *)
Definition set_row (q : tseq) (f : nat) (row : list cell) : tseq :=
  map (fun g => if g =? f then row else nth g q []) (seq 0 (nf fb)).

Definition dec_step (q : tseq) (f : nat) : tseq :=
  if isact fb f then q else set_row q f (map (fun t => impl_cell q t f) (seq 0 (T fb))).

Definition dec_upto (s : asg) (n : nat) : tseq := fold_left dec_step (seq 0 n) (dec_act s).

Definition cell_impl (s : asg) (t f : nat) : cell := impl_cell (dec_upto s f) t f.

(** does factor [f] have a level in trial [t] *)
Definition appl (f t : nat) : bool :=
  match factor_at fb f with Some fd => applies (code_factor fb f fd) t | None => true end.

Definition cell_of (s : asg) (t f : nat) : cell :=
  if isact fb f then cell_act s t f else cell_impl s t f.

Definition decode (s : asg) : tseq :=
  map (fun f => map (fun t => cell_of s t f) (seq 0 (T fb))) (seq 0 (nf fb)).

(** [q] has one level per cell of the factors of [act_design], the grid part of [s]
    is the one-hot image of those rows, and the rows of the implied factors are the
    levels derived from them (no level where the factor does not apply) *)
Definition onehot (s : asg) (q : tseq) : Prop :=
  length q = nf fb /\
  (forall f, f < nf fb -> length (nth f q []) = T fb) /\
  (forall t f, t < T fb -> isact fb f = true -> lappl fb f t = true ->
     exists l, l < nlevels fb f /\ get_cell q f t = Some l) /\
  (forall t f l, t < T fb -> isact fb f = true -> lappl fb f t = true -> l < nlevels fb f ->
     bit s t f l = is_level l (get_cell q f t)) /\
  (forall t f, t < T fb -> f < nf fb -> isact fb f = false -> get_cell q f t = cell_impl s t f) /\
  (forall t f, t < T fb -> isact fb f = true -> lappl fb f t = false -> get_cell q f t = None).

Lemma onehot_rows s q f : onehot s q -> f < nf fb -> length (nth f q []) = T fb.
Proof. intros (_ & H & _). apply H. Qed.

Lemma onehot_level s q t f : onehot s q -> t < T fb -> isact fb f = true -> lappl fb f t = true ->
  exists l, l < nlevels fb f /\ get_cell q f t = Some l.
Proof. intros (_ & _ & H & _). apply H. Qed.

Lemma onehot_bit s q t f l : onehot s q -> t < T fb -> isact fb f = true -> lappl fb f t = true -> l < nlevels fb f ->
  bit s t f l = is_level l (get_cell q f t).
Proof. intros (_ & _ & _ & H & _). apply H. Qed.

Lemma onehot_implied s q t f : onehot s q -> t < T fb -> f < nf fb -> isact fb f = false -> get_cell q f t = cell_impl s t f.
Proof. intros (_ & _ & _ & _ & H & _). apply H. Qed.

Lemma onehot_none s q t f : onehot s q -> t < T fb -> isact fb f = true -> lappl fb f t = false -> get_cell q f t = None.
Proof. intros (_ & _ & _ & _ & _ & H). apply H. Qed.

Lemma decode_cell s t f : t < T fb -> f < nf fb -> get_cell (decode s) f t = cell_of s t f.
Proof.
  intros Ht Hf. unfold get_cell, decode. rewrite (nth_map_seq _ (nf fb) f [] Hf). now rewrite nth_map_seq.
Qed.

Lemma decode_row_length s f : f < nf fb -> length (nth f (decode s) []) = T fb.
Proof.
  intros Hf. unfold decode. rewrite (nth_map_seq _ (nf fb) f [] Hf). now rewrite map_length, seq_length.
Qed.

Lemma is_level_some l x : is_level l (Some x) = (x =? l).
Proof. reflexivity. Qed.

Lemma find_exists (p : nat -> bool) (xs : list nat) : existsb p xs = true -> exists l, find p xs = Some l.
Proof.
  induction xs as [|x xs IH]; cbn [existsb find]; [discriminate|]. destruct (p x); [eauto|]. cbn [orb]. exact IH.
Qed.

Lemma find_filter_one {A} (p : A -> bool) (xs : list A) : length (filter p xs) = 1 -> exists x, find p xs = Some x.
Proof.
  intros H. destruct (find p xs) as [x|] eqn:E; [now exists x|].
  rewrite (Lists.filter_none p xs (find_none _ _ E)) in H. discriminate.
Qed.

Lemma in_all_cols n : forall (c : list cell),
  Forall (fun x => exists i, i < n /\ x = Some i) c -> In c (all_cols n (length c)).
Proof.
  induction c as [|x c IH]; intros H; [now left|]. inversion H as [|? ? (i & Hi & ->) Hr]; subst.
  cbn [length all_cols]. apply in_flat_map. exists i. split; [apply in_seq; lia|]. apply in_map. now apply IH.
Qed.

Lemma in_all_cols_from n : forall k (c : list cell), k <= length c ->
  (forall j, j < k -> nth j c None = None) ->
  (forall j, k <= j < length c -> exists i, i < n /\ nth j c None = Some i) ->
  In c (all_cols_from n (length c) k).
Proof.
  induction k as [|k IH]; intros c Hk Hn Hs.
  - cbn [all_cols_from]. apply in_all_cols. apply Forall_forall. intros x Hx.
    destruct (In_nth c x None Hx) as (j & Hj & <-). destruct (Hs j ltac:(lia)) as (i & Hi & E). exists i. now split.
  - destruct c as [|x c]; [cbn in Hk; lia|]. cbn [length all_cols_from].
    pose proof (Hn 0 ltac:(lia)) as H0. cbn [nth] in H0. subst x. apply in_map. apply IH.
    + cbn [length] in Hk. lia.
    + intros j Hj. apply (Hn (S j)). lia.
    + intros j Hj. apply (Hs (S j)). cbn [length]. lia.
Qed.

Lemma impl_sustain f : f < nf fb -> isact fb f = false -> sustain_of fb f = 1.
Proof.
  intros Hf Ha. destruct (nth_error (fl_design fb) f) as [fd|] eqn:Efd.
  - apply (f1_sustain_one fb Facts f fd Efd). unfold sact. now rewrite Ha.
  - apply nth_error_None in Efd. unfold nf in Hf. lia.
Qed.

(** [Sem.applies] on [code_sem] is [Factor.applies_to_trial] of the layout *)
Lemma appl_lappl f t : appl f t = lappl fb f t.
Proof.
  unfold appl. rewrite (lappl_unfold fb f t). unfold applies_to_trial.
  destruct (factor_at fb f) as [fd|] eqn:Efd; [|reflexivity].
  unfold applies. cbn [f_derived code_factor f_sustain]. destruct (ff_window fd) as [w|] eqn:Ew; [|reflexivity].
  cbn [w_start w_stride]. set (g := t / sustain_of fb f).
  replace (g + 1 - (win_start w + 1)) with (g - win_start w) by lia. f_equal.
  destruct (Nat.leb_spec (win_start w) g), (Nat.leb_spec (win_start w + 1) (g + 1)); try reflexivity; lia.
Qed.

Lemma applies_lappl f fd t : nth_error (fl_design fb) f = Some fd -> applies (code_factor fb f fd) t = lappl fb f t.
Proof. intros Efd. rewrite <- appl_lappl. unfold appl, factor_at. now rewrite Efd. Qed.

Lemma appl_act f t : isact fb f = true -> is_complex fb f = false -> appl f t = true.
Proof. intros Ha Hc. rewrite appl_lappl. now apply (lappl_simple fb HF1). Qed.

Lemma sact_lappl d t : sact fb d = true -> isact fb d = true /\ lappl fb d t = true.
Proof.
  intros H. apply (sact_split fb) in H. destruct H as [Ha Hc]. split; [exact Ha|now apply (lappl_simple fb HF1)].
Qed.

(** an implied factor of an F1 record: its window never reads before the first
    trial, its dependencies are in [act_design], one level accepts every argument tuple *)
Lemma implied_facts f : f < nf fb -> isact fb f = false ->
  exists fd w, nth_error (fl_design fb) f = Some fd /\ ff_window fd = Some w /\
               Forall (fun d => dep_ok fb f d = true) (win_deps w) /\
               0 < win_width w /\ 0 < win_stride w /\
               (forall k args, k <= win_width w - 1 - win_start w -> In args (all_args_from fb w k) ->
                  length (filter (fun l => accepts (dwin fd w) l args) (seq 0 (nlevels fb f))) = 1).
Proof.
  intros Hf Ha. destruct (nth_error (fl_design fb) f) as [fd|] eqn:Efd.
  2:{ apply nth_error_None in Efd. unfold nf in Hf. lia. }
  pose proof (f1_implied fb Facts f fd Efd) as Hi. unfold implied_ok in Hi. rewrite Ha in Hi. cbn [orb] in Hi.
  apply andb_true_iff in Hi. destruct Hi as [Hw Htot]. unfold factor_impl_f1 in Hw.
  destruct (ff_window fd) as [w|] eqn:Ew; [|rewrite andb_false_r in Hw; discriminate].
  rewrite !andb_true_iff in Hw. destruct Hw as [_ [W1 W2]].
  apply Nat.ltb_lt in W1, W2.
  exists fd, w. split; [reflexivity|]. split; [exact Ew|]. split; [|split; [exact W1|split; [exact W2|]]].
  - destruct (f1_tables fb Facts f fd Efd) as [Htab _]. unfold tables_ok in Htab. rewrite Ew in Htab.
    apply andb_true_iff in Htab. destruct Htab as [Hd _]. rewrite forallb_forall in Hd. now apply Forall_forall.
  - intros k args Hk Hin. unfold tables_total in Htot. rewrite Ew, forallb_forall in Htot.
    specialize (Htot k ltac:(apply in_seq; lia)). rewrite forallb_forall in Htot.
    rewrite (nlevels_at fb f fd Efd). apply Nat.eqb_eq. now apply Htot.
Qed.

(** the window of an unsustained factor, unfolded: the cells [width - 1 - j] trials back, none before the first trial *)
Lemma window_args_su1 (q : tseq) f fd w t :
  sustain_of fb f = 1 -> ff_window fd = Some w ->
  window_args q (code_factor fb f fd) (dwin fd w) t =
  map (fun d => map (fun j => if win_width w - 1 - j <=? t then get_cell q d (t - (win_width w - 1 - j)) else None)
                    (seq 0 (win_width w))) (win_deps w).
Proof.
  intros Hsu Ew. unfold window_args. cbn [f_sustain code_factor w_deps w_width dwin]. rewrite Hsu, Nat.div_1_r, Nat.mul_1_r.
  apply map_ext. intros d. apply map_ext. intros j. now rewrite Nat.mul_1_r.
Qed.

Lemma window_ext_su1 (q q' : tseq) f fd w t :
  sustain_of fb f = 1 -> ff_window fd = Some w ->
  (forall d t', In d (win_deps w) -> t' <= t -> get_cell q d t' = get_cell q' d t') ->
  window_args q (code_factor fb f fd) (dwin fd w) t = window_args q' (code_factor fb f fd) (dwin fd w) t.
Proof.
  intros Hsu Ew H. rewrite !(window_args_su1 _ f fd w t Hsu Ew).
  apply map_ext_in. intros d Hd. apply map_ext. intros j.
  destruct (win_width w - 1 - j <=? t); [|reflexivity]. apply H; [exact Hd|lia].
Qed.

Lemma applies_start f fd w t :
  sustain_of fb f = 1 -> ff_window fd = Some w -> applies (code_factor fb f fd) t = true -> win_start w <= t.
Proof.
  intros Hsu Ew Hap. unfold applies in Hap. cbn [f_derived code_factor] in Hap. rewrite Ew in Hap.
  cbn [f_sustain code_factor w_start w_stride] in Hap. rewrite Hsu, Nat.div_1_r in Hap.
  apply andb_true_iff in Hap. destruct Hap as [Hst _]. now apply Nat.leb_le in Hst.
Qed.

(** if the depended-on cells are levels, the window at a trial where the factor applies is
    one of the tuples of [all_args_from] for the number of trials missing before the first *)
Lemma window_in_su1 (q : tseq) f fd w t :
  sustain_of fb f = 1 -> applies (code_factor fb f fd) t = true -> ff_window fd = Some w ->
  (forall d t', In d (win_deps w) -> t' <= t -> exists x, x < nlevels fb d /\ get_cell q d t' = Some x) ->
  exists k, k <= win_width w - 1 - win_start w /\
            In (window_args q (code_factor fb f fd) (dwin fd w) t) (all_args_from fb w k).
Proof.
  intros Hsu Hap Ew H. rewrite (window_args_su1 q f fd w t Hsu Ew). pose proof (applies_start f fd w t Hsu Ew Hap) as Hst.
  exists (win_width w - 1 - t). split; [lia|]. unfold all_args_from.
  apply in_product_lists. intros d Hd.
  set (c := map (fun j => if win_width w - 1 - j <=? t then get_cell q d (t - (win_width w - 1 - j)) else None) (seq 0 (win_width w))).
  assert (Hlen : length c = win_width w) by (unfold c; now rewrite map_length, seq_length).
  rewrite <- Hlen at 1. apply in_all_cols_from.
  - rewrite Hlen. lia.
  - intros j Hj. unfold c. rewrite nth_map_seq by lia.
    replace (win_width w - 1 - j <=? t) with false by (symmetry; apply Nat.leb_gt; lia). reflexivity.
  - intros j Hj. rewrite Hlen in Hj. unfold c. rewrite nth_map_seq by exact (proj2 Hj).
    replace (win_width w - 1 - j <=? t) with true by (symmetry; apply Nat.leb_le; lia).
    destruct (H d (t - (win_width w - 1 - j)) Hd ltac:(lia)) as (x & Hx & Ex). exists x. now split.
Qed.

(** the window of an implied factor at a trial where it applies reads only
    earlier-or-equal trials *)
Lemma impl_window_args (q : tseq) f fd w t :
  sustain_of fb f = 1 -> win_width w - 1 <= win_start w -> applies (code_factor fb f fd) t = true -> ff_window fd = Some w ->
  window_args q (code_factor fb f fd) (dwin fd w) t =
  map (fun d => map (fun j => get_cell q d (t - (win_width w - 1 - j))) (seq 0 (win_width w))) (win_deps w).
Proof.
  intros Hsu Hws Hap Ew. pose proof (applies_start f fd w t Hsu Ew Hap) as Hst. rewrite (window_args_su1 q f fd w t Hsu Ew).
  apply map_ext. intros d. apply map_ext_in. intros j Hj. apply in_seq in Hj.
  replace (win_width w - 1 - j <=? t) with true by (symmetry; apply Nat.leb_le; lia). reflexivity.
Qed.

Lemma impl_window_ext (q q' : tseq) f fd w t :
  sustain_of fb f = 1 -> win_width w - 1 <= win_start w -> applies (code_factor fb f fd) t = true -> ff_window fd = Some w ->
  (forall d t', In d (win_deps w) -> t' <= t -> get_cell q d t' = get_cell q' d t') ->
  window_args q (code_factor fb f fd) (dwin fd w) t = window_args q' (code_factor fb f fd) (dwin fd w) t.
Proof.
  intros Hsu _ _ Ew. exact (window_ext_su1 q q' f fd w t Hsu Ew).
Qed.

Lemma impl_window_in (q : tseq) f fd w t :
  sustain_of fb f = 1 -> win_width w - 1 <= win_start w -> applies (code_factor fb f fd) t = true -> ff_window fd = Some w ->
  (forall d t', In d (win_deps w) -> t' <= t -> exists x, x < nlevels fb d /\ get_cell q d t' = Some x) ->
  In (window_args q (code_factor fb f fd) (dwin fd w) t) (all_args fb w).
Proof.
  intros Hsu Hws Hap Ew H. destruct (window_in_su1 q f fd w t Hsu Hap Ew H) as (k & Hk & Hin).
  now replace k with 0 in Hin by lia.
Qed.

Lemma dec_act_cell s t f : t < T fb -> f < nf fb -> get_cell (dec_act s) f t = cell_act s t f.
Proof.
  intros Ht Hf. unfold get_cell, dec_act. rewrite (nth_map_seq _ (nf fb) f [] Hf). now rewrite nth_map_seq.
Qed.

Lemma pcons_cell_act s t f : Pcons fb s -> t < T fb -> isact fb f = true -> lappl fb f t = true ->
  exists i, i < nlevels fb f /\ cell_act s t f = Some i /\ forall l, l < nlevels fb f -> bit s t f l = (l =? i).
Proof.
  intros H Ht Hf Hap. specialize (H t f Ht Hf Hap). apply ntrue_one in H. destruct H as (i & Hi & Hn).
  rewrite map_length, seq_length in Hi, Hn. exists i. split; [exact Hi|].
  assert (Hb : forall l, l < nlevels fb f -> bit s t f l = (l =? i)).
  { intros l Hl. rewrite <- (Hn l Hl). now rewrite nth_map_seq. }
  split; [|exact Hb]. unfold cell_act. rewrite Hap. now apply find_unique.
Qed.

Lemma set_row_cell q f row g t : g < nf fb ->
  get_cell (set_row q f row) g t = if g =? f then nth t row None else get_cell q g t.
Proof.
  intros Hg. unfold get_cell, set_row. rewrite (nth_map_seq _ (nf fb) g [] Hg). now destruct (g =? f).
Qed.

Lemma dec_upto_S s n : dec_upto s (S n) = dec_step (dec_upto s n) n.
Proof. unfold dec_upto. rewrite seq_S, fold_left_app. reflexivity. Qed.

Lemma dec_upto_cell s n : forall g t, g < nf fb -> t < T fb ->
  get_cell (dec_upto s n) g t = if (g <? n) && negb (isact fb g) then cell_impl s t g else cell_act s t g.
Proof.
  induction n as [|n IH]; intros g t Hg Ht.
  - cbn [Nat.ltb Nat.leb andb]. unfold dec_upto. cbn [seq fold_left]. now apply dec_act_cell.
  - rewrite dec_upto_S. unfold dec_step.
    assert (Elt : (g <? S n) = (g =? n) || (g <? n)).
    { destruct (Nat.eqb_spec g n), (Nat.ltb_spec g n), (Nat.ltb_spec g (S n)); try reflexivity; lia. }
    rewrite Elt. destruct (isact fb n) eqn:En.
    + rewrite (IH g t Hg Ht). destruct (Nat.eqb_spec g n) as [->|Ne]; [|reflexivity].
      rewrite En. cbn [negb]. now rewrite !andb_false_r.
    + rewrite (set_row_cell _ n _ g t Hg). destruct (Nat.eqb_spec g n) as [->|Ne]; [|exact (IH g t Hg Ht)].
      rewrite nth_map_seq by exact Ht. rewrite En. reflexivity.
Qed.

(** what a dependency of an implied factor is *)
Lemma dep_ok_cases f d : isact fb f = false -> dep_ok fb f d = true ->
  sact fb d = true \/ (isact fb d = false /\ d < f /\ forall t, appl d t = true).
Proof.
  intros Ha H. unfold dep_ok in H. apply orb_true_iff in H. destruct H as [H|H]; [now left|right].
  rewrite Ha in H. cbn [negb andb] in H. rewrite !andb_true_iff in H. destruct H as [[Hd Hlt] Hal].
  apply negb_true_iff in Hd. apply Nat.ltb_lt in Hlt. split; [exact Hd|]. split; [exact Hlt|].
  intros t. unfold always_appl in Hal. unfold appl. destruct (factor_at fb d) as [fd|]; [|discriminate].
  unfold applies. cbn [f_derived code_factor]. destruct (ff_window fd) as [w|]; [|reflexivity].
  apply andb_true_iff in Hal. destruct Hal as [H0 H1]. apply Nat.eqb_eq in H0, H1. cbn [w_start w_stride].
  rewrite H0, H1, Nat.mod_1_r. reflexivity.
Qed.

Lemma dep_lt f d : f < nf fb -> isact fb f = false -> dep_ok fb f d = true -> d < nf fb.
Proof.
  intros Hf Ha H. destruct (dep_ok_cases f d Ha H) as [Hs|(_ & Hlt & _)]; [|lia].
  apply (sact_split fb) in Hs. destruct Hs as [Hd _]. now apply (f1_act_lt fb HF1).
Qed.

(** the rows an implied factor is computed from hold the cells of its dependencies *)
Lemma base_reads s f d t : f < nf fb -> isact fb f = false -> dep_ok fb f d = true -> t < T fb ->
  get_cell (dec_upto s f) d t = cell_of s t d.
Proof.
  intros Hf Ha Hd Ht. rewrite (dec_upto_cell s f d t (dep_lt f d Hf Ha Hd) Ht). unfold cell_of.
  destruct (dep_ok_cases f d Ha Hd) as [Hs|(Hda & Hlt & _)].
  - apply (sact_split fb) in Hs. destruct Hs as [Hda _]. rewrite Hda. cbn [negb]. now rewrite andb_false_r.
  - rewrite Hda. cbn [negb]. replace (d <? f) with true by (symmetry; now apply Nat.ltb_lt). reflexivity.
Qed.

(** the cell computed from any sequence holding those cells is the implied cell *)
Lemma impl_cell_ext q q' t f fd w :
  nth_error (fl_design fb) f = Some fd -> ff_window fd = Some w -> sustain_of fb f = 1 ->
  (forall d t', In d (win_deps w) -> t' <= t -> get_cell q d t' = get_cell q' d t') ->
  impl_cell q t f = impl_cell q' t f.
Proof.
  intros Efd Ew Hsu H. unfold impl_cell, factor_at. rewrite Efd, Ew.
  destruct (applies (code_factor fb f fd) t); [|reflexivity].
  now rewrite (window_ext_su1 q q' f fd w t Hsu Ew H).
Qed.

Lemma cell_impl_char s q t f : f < nf fb -> isact fb f = false -> t < T fb ->
  (forall d t', dep_ok fb f d = true -> t' <= t -> get_cell q d t' = cell_of s t' d) ->
  impl_cell q t f = cell_impl s t f.
Proof.
  intros Hf Ha Ht H. destruct (implied_facts f Hf Ha) as (fd & w & Efd & Ew & Hdeps & _).
  unfold cell_impl. apply (impl_cell_ext q (dec_upto s f) t f fd w Efd Ew (impl_sustain f Hf Ha)).
  intros d t' Hd Ht'. pose proof (Forall_In _ _ _ Hdeps Hd) as Hok. cbv beta in Hok.
  rewrite (base_reads s f d t' Hf Ha Hok (Nat.le_lt_trans _ _ _ Ht' Ht)). apply H; [exact Hok|exact Ht'].
Qed.

(** ... and every implied cell is the level its table derives, where the factor applies *)
Lemma pcons_cell_impl s : Pcons fb s -> forall f t, t < T fb -> f < nf fb -> isact fb f = false ->
  if appl f t then exists l, l < nlevels fb f /\ cell_impl s t f = Some l else cell_impl s t f = None.
Proof.
  intros H f. induction f as [f IHf] using lt_wf_ind. intros t Ht Hf Ha.
  destruct (implied_facts f Hf Ha) as (fd & w & Efd & Ew & Hdeps & W1 & W2 & Htot).
  unfold appl, cell_impl, impl_cell, factor_at. rewrite Efd, Ew.
  destruct (applies (code_factor fb f fd) t) eqn:Hap; [|reflexivity].
  assert (Hin : exists k, k <= win_width w - 1 - win_start w /\
                  In (window_args (dec_upto s f) (code_factor fb f fd) (dwin fd w) t) (all_args_from fb w k)).
  { apply window_in_su1; try assumption; [now apply impl_sustain|]. intros d t' Hd Ht'.
    pose proof (Forall_In _ _ _ Hdeps Hd) as Hok. cbv beta in Hok.
    pose proof (Nat.le_lt_trans _ _ _ Ht' Ht) as HtT. rewrite (base_reads s f d t' Hf Ha Hok HtT). unfold cell_of.
    destruct (dep_ok_cases f d Ha Hok) as [Hs|(Hda & Hlt & Hal)].
    - destruct (sact_lappl d t' Hs) as [Hda Hdl]. rewrite Hda.
      destruct (pcons_cell_act s t' d H HtT Hda Hdl) as (i & Hi & Ei & _). now exists i.
    - rewrite Hda. pose proof (IHf d Hlt t' HtT (Nat.lt_trans _ _ _ Hlt Hf) Hda) as P. rewrite (Hal t') in P. exact P. }
  destruct Hin as (k & Hk & Hin). destruct (find_filter_one _ _ (Htot k _ Hk Hin)) as (l & El). rewrite El.
  exists l. split; [|reflexivity]. now apply find_in_range in El.
Qed.

Lemma onehot_pcons s q : onehot s q -> Pcons fb s.
Proof.
  intros Ho t f Ht Hf Hap. destruct (onehot_level s q t f Ho Ht Hf Hap) as (i & Hi & Ei).
  apply ntrue_one. rewrite map_length, seq_length. exists i. split; [exact Hi|]. intros j Hj.
  rewrite nth_map_seq by exact Hj.
  rewrite (onehot_bit s q t f j Ho Ht Hf Hap Hj), Ei, is_level_some. apply Nat.eqb_sym.
Qed.

(** (b) for Consistency: exactly one level per cell = the grid is the one-hot image of its decoding *)
Theorem pcons_onehot s : Pcons fb s <-> onehot s (decode s).
Proof.
  split.
  - intros H.
    assert (D : forall t f, t < T fb -> isact fb f = true -> get_cell (decode s) f t = cell_act s t f).
    { intros t f Ht Ea. rewrite decode_cell by (try assumption; now apply (f1_act_lt fb HF1)). unfold cell_of. now rewrite Ea. }
    split; [unfold decode; now rewrite map_length, seq_length|]. split; [intros f Hf; now apply decode_row_length|].
    split; [|split; [|split]].
    + intros t f Ht Ea Hap. rewrite (D t f Ht Ea).
      destruct (pcons_cell_act s t f H Ht Ea Hap) as (i & Hi & Hc & _). exists i. now split.
    + intros t f l Ht Hf Hap Hl. destruct (pcons_cell_act s t f H Ht Hf Hap) as (i & Hi & Hc & Hb).
      rewrite (D t f Ht Hf), Hc, is_level_some, (Hb l Hl). apply Nat.eqb_sym.
    + intros t f Ht Hf Ha. rewrite decode_cell by assumption. unfold cell_of. now rewrite Ha.
    + intros t f Ht Hf Hap. rewrite (D t f Ht Hf). unfold cell_act. now rewrite Hap.
  - apply onehot_pcons.
Qed.

(** a one-hot grid determines the sequence *)
Lemma onehot_cell_act s q t f : onehot s q -> t < T fb -> isact fb f = true -> get_cell q f t = cell_act s t f.
Proof.
  intros Ho Ht Hf. unfold cell_act. destruct (lappl fb f t) eqn:Hap; [|now apply (onehot_none s)].
  destruct (onehot_level s q t f Ho Ht Hf Hap) as (i & Hi & Ei). rewrite Ei. symmetry.
  apply find_unique; [exact Hi|]. intros j Hj. rewrite (onehot_bit s q t f j Ho Ht Hf Hap Hj), Ei, is_level_some. apply Nat.eqb_sym.
Qed.

Lemma onehot_cell s q t f : onehot s q -> t < T fb -> f < nf fb -> get_cell q f t = cell_of s t f.
Proof.
  intros Ho Ht Hf. unfold cell_of. destruct (isact fb f) eqn:Ea.
  - now apply onehot_cell_act.
  - now apply onehot_implied.
Qed.

Lemma onehot_simple_cell s q t f : onehot s q -> t < T fb -> isact fb f = true -> is_complex fb f = false ->
  exists l, l < nlevels fb f /\ get_cell q f t = Some l.
Proof. intros Ho Ht Hf Hcx. apply (onehot_level s q t f Ho Ht Hf). now apply (lappl_simple fb HF1). Qed.

Lemma onehot_simple_bit s q t f l : onehot s q -> t < T fb -> isact fb f = true -> is_complex fb f = false ->
  l < nlevels fb f -> bit s t f l = is_level l (get_cell q f t).
Proof. intros Ho Ht Hf Hcx Hl. apply (onehot_bit s q t f l Ho Ht Hf); [now apply (lappl_simple fb HF1)|exact Hl]. Qed.

Lemma onehot_bit_true s q t f l : onehot s q -> t < T fb -> isact fb f = true -> is_complex fb f = false ->
  l < nlevels fb f -> (bit s t f l = true <-> get_cell q f t = Some l).
Proof.
  intros Ho Ht Hf Hcx Hl. rewrite (onehot_simple_bit s q t f l Ho Ht Hf Hcx Hl).
  destruct (onehot_simple_cell s q t f Ho Ht Hf Hcx) as (x & _ & ->). rewrite is_level_some, Nat.eqb_eq.
  split; [intros ->; reflexivity|intros E; now inversion E].
Qed.

Lemma bruns_false_prefix k bs : bruns (repeat false k ++ bs) = bruns bs.
Proof. induction k as [|k IH]; [reflexivity|]. cbn [repeat app]. unfold bruns in *. cbn [bruns_aux Nat.eqb]. exact IH. Qed.

Lemma map_all_false {A} (g : A -> bool) (xs : list A) :
  (forall x, In x xs -> g x = false) -> map g xs = repeat false (length xs).
Proof.
  induction xs as [|x xs IH]; intros H; [reflexivity|]. cbn [map length repeat].
  rewrite (H x (or_introl eq_refl)), IH; [reflexivity|]. intros y Hy. apply H. now right.
Qed.

Lemma ntrue_false_prefix k bs : ntrue (repeat false k ++ bs) = ntrue bs.
Proof. now rewrite ntrue_app, ntrue_repeat_false. Qed.

(** for a factor whose levels exist from its first trial on (stride 1) the row
    slice is the column preceded by the cells without a level *)
Lemma col_slice s q f l a b :
  onehot s q -> isact fb f = true -> stride1 fb f = true -> l < nlevels fb f -> b <= T fb ->
  exists k, map (is_level l) (slice (nth f q []) a b) = repeat false k ++ col s f l a b.
Proof.
  intros (Hq & Hr & Hc & Hb & _ & Hn) Hf Hs Hl Hbt.
  rewrite (map_seq_slice (is_level l) (nth f q []) None a b) by (rewrite Hr; [assumption|now apply (f1_act_lt fb HF1)]).
  unfold F1Kinds.col. rewrite (trials_of_stride1 fb HF1 f a b Hf Hs).
  set (st := start_of fb f). set (m := Nat.max a st).
  assert (Hlap : forall t, lappl fb f t = (st <=? t)) by (intros t; apply (lappl_stride1 fb HF1 f t Hf Hs)).
  assert (Hnone : forall t, t < b -> t < m -> a <= t -> is_level l (nth t (nth f q []) None) = false).
  { intros t Htb Htm Hat. change (nth t (nth f q []) None) with (get_cell q f t).
    rewrite (Hn t f (Nat.lt_le_trans _ _ _ Htb Hbt) Hf); [reflexivity|]. rewrite Hlap. apply Nat.leb_gt. unfold m in Htm. lia. }
  destruct (Nat.le_gt_cases m b) as [Hmb|Hmb].
  - exists (m - a). replace (b - a) with ((m - a) + (b - m)) by lia. rewrite seq_app, map_app.
    replace (a + (m - a)) with m by lia. f_equal.
    + rewrite map_all_false; [now rewrite seq_length|].
      intros t Ht. apply in_seq in Ht. apply Hnone; lia.
    + apply map_ext_in. intros t Ht. apply in_seq in Ht. symmetry.
      apply (Hb t f l ltac:(lia) Hf); [|exact Hl]. rewrite Hlap. apply Nat.leb_le. lia.
  - exists (b - a). replace (b - m) with 0 by lia. cbn [seq map]. rewrite app_nil_r.
    rewrite map_all_false; [now rewrite seq_length|].
    intros t Ht. apply in_seq in Ht. apply Hnone; lia.
Qed.

Lemma col_bruns s q f l a b :
  onehot s q -> isact fb f = true -> stride1 fb f = true -> l < nlevels fb f -> b <= T fb ->
  bruns (map (is_level l) (slice (nth f q []) a b)) = bruns (col s f l a b).
Proof. intros Ho Hf Hs Hl Hb. destruct (col_slice s q f l a b Ho Hf Hs Hl Hb) as (k & ->). apply bruns_false_prefix. Qed.

Lemma col_ntrue s q f l a b :
  onehot s q -> isact fb f = true -> stride1 fb f = true -> l < nlevels fb f -> b <= T fb ->
  ntrue (map (is_level l) (slice (nth f q []) a b)) = ntrue (col s f l a b).
Proof. intros Ho Hf Hs Hl Hb. destruct (col_slice s q f l a b Ho Hf Hs Hl Hb) as (k & ->). apply ntrue_false_prefix. Qed.

(** the run lengths of a level over the windows [rs], tested by [p], on the column and on the row *)
Lemma runs_sem s q f l rs (P : nat -> Prop) (p : nat -> bool) :
  (forall n, p n = true <-> P n) ->
  onehot s q -> isact fb f = true -> stride1 fb f = true -> l < nlevels fb f ->
  Forall (fun r => fst r < T fb /\ snd r <= T fb) rs ->
  (Forall (fun r => Forall P (bruns (col s f l (fst r) (snd r)))) rs <->
   forallb (fun r => forallb p (runs l (slice (nth f q []) (fst r) (snd r)))) rs = true).
Proof.
  intros Hp Ho Hf Hst Hl Hb. rewrite forallb_forall, Forall_forall.
  split; intros H r Hr; specialize (H r Hr); destruct (Forall_In _ _ _ Hb Hr) as [_ Hr2].
  - rewrite runs_bruns, (col_bruns s q f l (fst r) (snd r) Ho Hf Hst Hl Hr2).
    apply forallb_forall. intros n Hn. apply Hp. exact (Forall_In _ _ _ H Hn).
  - rewrite runs_bruns, (col_bruns s q f l (fst r) (snd r) Ho Hf Hst Hl Hr2), forallb_forall in H.
    apply Forall_forall. intros n Hn. apply Hp. now apply H.
Qed.

Theorem atmost_sem s q k f l wb :
  onehot s q -> constraint_f1 fb (FAtMost k f l wb) = true ->
  (Patmost fb k f l wb s <-> constraint_ok (code_sem fb) q (mk_c (KAtMost k) f l (windows_of fb wb)) = true).
Proof.
  intros Ho Hc. cbn [constraint_f1] in Hc. rewrite !andb_true_iff in Hc. destruct Hc as [[[Hf Hl] Hg] Hst].
  destruct (window_guard fb HF1 HT f l wb Hf Hl Hg) as (Hl' & Hb & _).
  unfold Patmost, constraint_ok, mk_c. cbn [k_kind k_factor k_level k_windows].
  rewrite <- (runs_sem s q f l _ (fun n => n <= k) (fun n => n <=? k) (fun n => Nat.leb_le n k) Ho Hf Hst Hl' Hb).
  apply Forall_iff_ext. intros r _. apply atmost_windows_runs.
Qed.

Theorem exactlyk_sem s q k f l wb :
  onehot s q -> constraint_f1 fb (FExactlyK k f l wb) = true ->
  (Pexactlyk fb k f l wb s <-> constraint_ok (code_sem fb) q (mk_c (KExactlyK k) f l (windows_of fb wb)) = true).
Proof.
  intros Ho Hc. cbn [constraint_f1] in Hc. rewrite !andb_true_iff in Hc. destruct Hc as [[[[Hf Hl] Hg] Hst] _].
  destruct (window_guard fb HF1 HT f l wb Hf Hl Hg) as (Hl' & Hb & _).
  unfold Pexactlyk, constraint_ok, mk_c. cbn [k_kind k_factor k_level k_windows].
  rewrite forallb_forall, Forall_forall. split; intros H r Hr; specialize (H r Hr); destruct (Forall_In _ _ _ Hb Hr) as [_ Hr2].
  - apply Nat.eqb_eq. now rewrite count_level_ntrue, (col_ntrue s q f l (fst r) (snd r) Ho Hf Hst Hl' Hr2).
  - apply Nat.eqb_eq in H. now rewrite <- (col_ntrue s q f l (fst r) (snd r) Ho Hf Hst Hl' Hr2), <- count_level_ntrue.
Qed.

Lemma slice_full {A} (row : list A) : slice row 0 (length row) = row.
Proof. unfold slice. cbn [skipn]. rewrite Nat.sub_0_r. apply firstn_all. Qed.

Theorem exclude_sem s q f l :
  onehot s q -> constraint_f1 fb (FExclude f l) = true ->
  (Pexclude fb f l s <-> constraint_ok (code_sem fb) q (mk_c KExclude f l []) = true).
Proof.
  intros Ho Hc. cbn [constraint_f1] in Hc. rewrite !andb_true_iff in Hc. destruct Hc as [[Hf Hl] Hst]. apply Nat.ltb_lt in Hl.
  unfold Pexclude, constraint_ok, mk_c. cbn [k_kind k_factor k_level k_windows].
  rewrite <- (col_ntrue s q f l 0 (T fb) Ho Hf Hst Hl (le_n _)).
  rewrite <- (onehot_rows s q f Ho (f1_act_lt fb HF1 f Hf)), slice_full, <- count_level_ntrue. symmetry. apply Nat.eqb_eq.
Qed.

Lemma pinned_cell s q f l p :
  onehot s q -> isact fb f = true -> l < nlevels fb f -> p < T fb ->
  (lappl fb f p = true /\ bit s p f l = true <-> cell_eqb (get_cell q f p) (Some l) = true).
Proof.
  intros Ho Hf Hl Hp. destruct (lappl fb f p) eqn:Hap.
  - rewrite (onehot_bit s q p f l Ho Hp Hf Hap Hl). unfold is_level. tauto.
  - rewrite (onehot_none s q p f Ho Hp Hf Hap). cbn [cell_eqb]. split; [intros [H _]; discriminate|discriminate].
Qed.

Theorem pin_sem s q i f l wb :
  onehot s q -> constraint_f1 fb (FPin i f l wb) = true ->
  (Ppin fb i f l wb s <-> constraint_ok (code_sem fb) q (mk_c (KPin i (geometry_sustain fb wb f)) f l (windows_of fb wb)) = true).
Proof.
  intros Ho Hc. destruct (pin_guard fb HF1 HT i f l wb Hc) as (Hf & Hl & _ & _ & Hpb).
  destruct (pin_guard_geom fb i f l wb Hc) as (Hsu & Hgeo).
  unfold Ppin, constraint_ok, mk_c. cbn [k_kind k_factor k_level k_windows]. cbv zeta.
  rewrite (pins_eq fb i f wb Hgeo) in *. set (su := geometry_sustain fb wb f) in *. set (rs := windows_of fb wb) in *.
  rewrite andb_true_iff, (pins_nonempty i su rs Hsu). apply and_iff_compat_l.
  rewrite Forall_flat_map in Hpb |- *. rewrite forallb_forall, Forall_forall.
  enough (K : forall r, In r rs ->
            (Forall (fun p => lappl fb f p = true /\ bit s p f l = true) (pins_of i su r) <->
             (if pin_in i su r
              then forallb (fun j => cell_eqb (get_cell q f (Z.to_nat (pin_pos i su r) + j)) (Some l)) (seq 0 su) else true) = true))
    by (split; intros H r Hr; apply (K r Hr), H, Hr).
  intros r Hr. pose proof (Forall_In _ _ _ Hpb Hr) as Hr'. cbv beta in Hr'. unfold pins_of in Hr' |- *.
  destruct (pin_in i su r); [|split; constructor].
  rewrite Forall_map in Hr' |- *. rewrite forallb_forall, Forall_forall.
  split; intros H j Hj; apply (pinned_cell s q f l _ Ho Hf Hl (Forall_In _ _ _ Hr' Hj)), H, Hj.
Qed.

End F1Sem.
