(** Proofs about Logic/Switching.v.  Correctness of [to_cnf_switching]: whenever
    it returns, the result is a CNF over the original variables and the
    reported fresh range whose models, projected to the original variables, are
    exactly the models of the input.  Totality: it returns on every formula
    and every counter ([switching_fuel] covers the recursion of
    [__distribute_ors_switching] on the formulas it rebuilds, and none of the
    error branches of the model is reachable). *)
From Coq Require Import ZArith List Bool Lia Permutation Arith.
From SP Require Import Base.Lists Base.Sat Logic.Formula Logic.Naive Logic.Switching Logic.TseitinProofs Logic.NaiveProofs.
Import ListNotations.
Open Scope Z_scope.

Lemma neval_local s t f :
  (forall z, In z (nleaves f) -> s (Z.abs z) = t (Z.abs z)) -> neval s f = neval t f.
Proof.
  induction f as [z|c IH|l IH|l IH] using nf_ind'; intros H; cbn [neval nleaves] in *.
  - apply lit_true_local. apply H. now left.
  - f_equal. now apply IH.
  - apply forallb_ext_in. rewrite Forall_forall in IH. intros x Hx. apply (IH x Hx).
    intros z Hz. apply H. apply in_flat_map. eauto.
  - apply existsb_ext_in. rewrite Forall_forall in IH. intros x Hx. apply (IH x Hx).
    intros z Hz. apply H. apply in_flat_map. eauto.
Qed.

(** [ext_step f a c b]: [c] is obtained from [f] by introducing variables of
    [a, b) only; it implies [f], and every model of [f] can be changed on
    [a, b) into a model of [c]. *)
Definition bounded (f : nf) (a : Z) : Prop := forall z, In z (nleaves f) -> Z.abs z < a.

Definition same_outside (a b : Z) (s t : asg) : Prop := forall v, ~ (a <= v < b) -> t v = s v.

Record ext_step (f : nf) (a : Z) (c : nf) (b : Z) : Prop := {
  st_le : a <= b;
  st_leaves : forall z, In z (nleaves c) -> In z (nleaves f) \/ a <= z < b;
  st_sound : forall t, neval t c = true -> neval t f = true;
  st_complete : forall s, neval s f = true -> exists t, same_outside a b s t /\ neval t c = true
}.

Lemma same_outside_trans a b d s t1 t2 :
  a <= b -> b <= d -> same_outside a b s t1 -> same_outside b d t1 t2 -> same_outside a d s t2.
Proof. intros L1 L2 O1 O2 v Hv. rewrite O2 by lia. apply O1. lia. Qed.

Lemma ext_step_refl f a : ext_step f a f a.
Proof.
  constructor; [lia|auto|auto|]. intros s H. exists s. split; [now intros v _|assumption].
Qed.

Lemma ext_step_equiv f c a :
  (forall t, neval t c = neval t f) -> incl (nleaves c) (nleaves f) -> ext_step f a c a.
Proof.
  intros E I. constructor; [lia| | |].
  - intros z Hz. left. now apply I.
  - intros t. now rewrite E.
  - intros s H. exists s. split; [now intros v _|now rewrite E].
Qed.

Lemma ext_step_or_single c a : ext_step (NOr [c]) a c a.
Proof.
  apply ext_step_equiv.
  - intros t. cbn [neval existsb]. now rewrite orb_false_r.
  - cbn [nleaves flat_map]. rewrite app_nil_r. apply incl_refl.
Qed.

Lemma build_step cls l g a : build cls l = Ok g -> ext_step (nop cls l) a g a.
Proof.
  intros H. apply ext_step_equiv; [intros t; apply (build_sem t _ _ _ H)|].
  rewrite nleaves_nop. apply perm_incl, (build_lvs _ _ _ H).
Qed.

Lemma ext_step_trans f a c b g d : ext_step f a c b -> ext_step c b g d -> ext_step f a g d.
Proof.
  intros [L1 V1 S1 C1] [L2 V2 S2 C2]. constructor.
  - lia.
  - intros z Hz. destruct (V2 z Hz) as [X|X]; [|right; lia]. destruct (V1 z X) as [Y|Y]; [now left|right; lia].
  - intros t H. apply S1, S2, H.
  - intros s H. destruct (C1 s H) as [t1 [O1 H1]]. destruct (C2 t1 H1) as [t2 [O2 H2]].
    exists t2. split; [|assumption]. exact (same_outside_trans _ _ _ _ _ _ L1 L2 O1 O2).
Qed.

Lemma ext_step_bounded f a c b : 1 <= a -> ext_step f a c b -> bounded f a -> bounded c b.
Proof.
  intros Ha [L V _ _] B z Hz. destruct (V z Hz) as [X|X]; [apply B in X; lia|lia].
Qed.

Lemma bounded_and_cons x l a : bounded (NAnd (x :: l)) a <-> bounded x a /\ bounded (NAnd l) a.
Proof.
  unfold bounded. cbn [nleaves flat_map]. split.
  - intros H. split; intros z Hz; apply H; apply in_or_app; auto.
  - intros [H1 H2] z Hz. apply in_app_or in Hz. destruct Hz; auto.
Qed.

Lemma same_outside_neval a b s t f : same_outside a b s t -> bounded f a -> neval t f = neval s f.
Proof.
  intros O B. apply neval_local. intros z Hz. apply O. apply B in Hz. lia.
Qed.

Lemma ext_step_cons_and x a y b l ys d :
  1 <= a -> ext_step x a y b -> ext_step (NAnd l) b (NAnd ys) d -> bounded x a -> bounded (NAnd l) a ->
  ext_step (NAnd (x :: l)) a (NAnd (y :: ys)) d.
Proof.
  intros Ha [L1 V1 S1 C1] [L2 V2 S2 C2] Bx Bl. constructor.
  - lia.
  - cbn [nleaves flat_map]. intros z Hz. apply in_app_or in Hz. destruct Hz as [Hz|Hz].
    + destruct (V1 z Hz) as [X|X]; [left; apply in_or_app; now left|right; lia].
    + destruct (V2 z Hz) as [X|X]; [left; apply in_or_app; now right|right; lia].
  - intros t. cbn [neval forallb]. rewrite !andb_true_iff. intros [H1 H2]. split; [now apply S1|now apply S2].
  - intros s. cbn [neval forallb]. rewrite andb_true_iff. intros [H1 H2].
    destruct (C1 s H1) as [t1 [O1 G1]].
    assert (H2' : neval t1 (NAnd l) = true) by (rewrite (same_outside_neval a b s t1); assumption).
    destruct (C2 t1 H2') as [t2 [O2 G2]]. exists t2. split.
    + exact (same_outside_trans _ _ _ _ _ _ L1 L2 O1 O2).
    + cbn [neval] in G2. rewrite G2, andb_true_r. rewrite <- G1. apply neval_local.
      intros z Hz. apply O2. destruct (V1 z Hz) as [X|X]; [apply Bx in X; clear - X L1|clear - X Ha]; lia.
Qed.

Lemma ext_step_cons_or x a y b l ys d :
  1 <= a -> ext_step x a y b -> ext_step (NOr l) b (NOr ys) d ->
  ext_step (NOr (x :: l)) a (NOr (y :: ys)) d.
Proof.
  intros Ha [L1 V1 S1 C1] [L2 V2 S2 C2]. constructor.
  - lia.
  - cbn [nleaves flat_map]. intros z Hz. apply in_app_or in Hz. destruct Hz as [Hz|Hz].
    + destruct (V1 z Hz) as [X|X]; [left; apply in_or_app; now left|right; lia].
    + destruct (V2 z Hz) as [X|X]; [left; apply in_or_app; now right|right; lia].
  - intros t. cbn [neval existsb]. rewrite !orb_true_iff. intros [H|H]; [left; now apply S1|right; now apply S2].
  - intros s. cbn [neval existsb]. rewrite orb_true_iff. intros [H|H].
    + destruct (C1 s H) as [t1 [O1 G1]]. exists t1. split; [intros v Hv; apply O1; lia|now rewrite G1].
    + destruct (C2 s H) as [t2 [O2 G2]]. exists t2. split; [intros v Hv; apply O2; lia|].
      cbn [neval] in G2. rewrite G2. apply orb_true_r.
Qed.

Definition clause_or_cnf (g : nf) : bool := is_clause g || is_cnf g.

Lemma is_lit_dm_shape c : is_lit c = true -> dm_shape c = true /\ is_or c = false /\ is_and c = false.
Proof. destruct c as [z|[z|?|?|?]|l|l]; cbn; intros H; try discriminate; auto. Qed.

Lemma lits_dm_shape m : forallb is_lit m = true -> forallb (fun c => dm_shape c && negb (is_or c)) m = true.
Proof.
  rewrite !forallb_forall. intros H c Hc. destruct (is_lit_dm_shape c (H c Hc)) as [A [B _]]. now rewrite A, B.
Qed.

Lemma is_clause_dm_shape c : is_clause c = true -> dm_shape c = true /\ is_and c = false.
Proof.
  intros H. destruct (is_clause_cases c H) as [[A _]|[m [-> Hm]]].
  - destruct (is_lit_dm_shape c A) as [X [_ Y]]. auto.
  - split; [|reflexivity]. cbn [dm_shape]. now apply lits_dm_shape.
Qed.

Lemma is_cnf_dm_shape c : is_cnf c = true -> dm_shape c = true /\ is_or c = false.
Proof.
  destruct c as [z|?|l|l]; cbn; intros H; try discriminate. split; [|reflexivity].
  rewrite forallb_forall in *. intros x Hx. now apply is_clause_dm_shape, H.
Qed.

Lemma lit_or_cnf_dm_shape c : lit_or_cnf c = true -> dm_shape c = true /\ is_or c = false.
Proof.
  unfold lit_or_cnf. intros H. apply orb_true_iff in H. destruct H as [H|H].
  - destruct (is_lit_dm_shape c H) as [A [B _]]. auto.
  - now apply is_cnf_dm_shape.
Qed.

Lemma lit_or_cnf_clause_or_cnf c : lit_or_cnf c = true -> clause_or_cnf c = true.
Proof.
  unfold lit_or_cnf, clause_or_cnf, is_clause. intros H. apply orb_true_iff in H. destruct H as [H|H]; rewrite H; cbn;
    [reflexivity|apply orb_true_r].
Qed.

Lemma build_and_clause_or_cnf l g : (forall c, In c l -> clause_or_cnf c = true) -> build_and l = Ok g -> is_cnf g = true.
Proof.
  intros Hl H. destruct (build_forallb is_clause true l g) as [l' [-> F]]; [|exact H|exact F].
  intros c Hc. specialize (Hl c Hc). unfold clause_or_cnf in Hl. apply orb_true_iff in Hl.
  unfold flat1. destruct Hl as [Hl|Hl].
  - destruct (is_clause_dm_shape c Hl) as [_ B]. rewrite B. cbn. now rewrite Hl.
  - destruct c as [z|?|m|m]; cbn in Hl; try discriminate. exact Hl.
Qed.

Inductive fold_chain (d : nf -> Z -> res (nf * Z)) : list nf -> Z -> list nf -> Z -> Prop :=
| fold_chain_nil fr : fold_chain d [] fr [] fr
| fold_chain_cons x l fresh y fr1 ys fr :
    d x fresh = Ok (y, fr1) -> fold_chain d l fr1 ys fr -> fold_chain d (x :: l) fresh (y :: ys) fr.

Lemma dist_fold_chain d l : forall acc fresh cl fr,
  dist_fold d l acc fresh = Ok (cl, fr) -> exists ys, cl = acc ++ ys /\ fold_chain d l fresh ys fr.
Proof.
  induction l as [|x l IH]; intros acc fresh cl fr H; cbn [dist_fold] in H.
  - inversion H. exists []. split; [now rewrite app_nil_r|constructor].
  - apply rbind_ok in H. destruct H as [[y fr1] [H1 H2]]. apply IH in H2. destruct H2 as [ys [E C]].
    exists (y :: ys). split; [rewrite E, <- app_assoc; reflexivity|econstructor; eassumption].
Qed.

Lemma bounded_or_and l a : bounded (NOr l) a <-> bounded (NAnd l) a.
Proof. reflexivity. Qed.

Lemma chain_steps d l a ys b :
  (forall f a g b, 1 <= a -> dm_shape f = true -> bounded f a -> d f a = Ok (g, b) -> ext_step f a g b) ->
  fold_chain d l a ys b -> 1 <= a -> forallb dm_shape l = true -> bounded (NAnd l) a ->
  ext_step (NAnd l) a (NAnd ys) b /\ ext_step (NOr l) a (NOr ys) b.
Proof.
  intros Hd C. induction C as [fr|x l fresh y fr1 ys fr Hx C IH]; intros Ha HG HB.
  - split; apply ext_step_refl.
  - cbn [forallb] in HG. apply andb_true_iff in HG. destruct HG as [Gx Gl].
    apply bounded_and_cons in HB. destruct HB as [Bx Bl].
    pose proof (Hd x fresh y fr1 Ha Gx Bx Hx) as Sx.
    pose proof (st_le _ _ _ _ Sx) as Le.
    assert (Bl' : bounded (NAnd l) fr1) by (intros z Hz; apply Bl in Hz; lia).
    destruct (IH ltac:(lia) Gl Bl') as [SA SO].
    split; [now apply (ext_step_cons_and x fresh y fr1)|now apply (ext_step_cons_or x fresh y fr1)].
Qed.

Lemma crossing_cprod {A} (lhs rhs : list A) :
  flat_map (fun a => map (fun b => [a; b]) rhs) lhs = cprod [lhs; rhs].
Proof.
  assert (E : cprod [rhs] = map (fun b => [b]) rhs).
  { cbn [cprod]. induction rhs as [|b rhs IH]; cbn; [reflexivity|]. cbn in IH. now rewrite IH. }
  change (cprod [lhs; rhs]) with (flat_map (fun x => map (cons x) (cprod [rhs])) lhs). rewrite E.
  apply flat_map_ext. intros a. now rewrite map_map.
Qed.

Lemma ors_leaves L ors :
  Forall2 (fun x y => build_or x = Ok y) L ors -> incl (lvs ors) (flat_map lvs L).
Proof.
  induction 1 as [|x y L ors Hxy _ IH]; cbn; [apply incl_refl|].
  apply incl_app; [apply incl_appl; apply perm_incl; now apply (build_lvs false)|now apply incl_appr].
Qed.

Lemma cprod_leaves (ls : list (list nf)) : incl (flat_map lvs (cprod ls)) (flat_map lvs ls).
Proof.
  intros z Hz. apply in_flat_map in Hz. destruct Hz as [t [Ht Hz]]. apply lvs_in in Hz.
  destruct Hz as [c [Hc Hz]]. destruct (cprod_in _ _ _ Ht Hc) as [l [Hl Hcl]].
  apply in_flat_map. exists l. split; [assumption|]. apply lvs_in. eauto.
Qed.

Lemma ors_clauses L ors :
  Forall2 (fun x y => build_or x = Ok y) L ors ->
  (forall t c, In t L -> In c t -> is_clause c = true) ->
  forall o, In o ors -> is_clause o = true /\ is_and o = false.
Proof.
  intros F H o Ho. destruct (Forall2_in_r _ _ _ _ F Ho) as [t [Ht Hb]].
  apply (build_or_clause t o); [|assumption]. intros c Hc. now apply (H t).
Qed.

Lemma build_or_dm_shape_cons c rest g :
  dm_shape c = true -> (forall x, In x rest -> lit_or_cnf x = true) -> build_or (c :: rest) = Ok g -> dm_shape g = true.
Proof.
  intros Gc Hr. apply (build_dm_shape false (c :: rest)). cbn [forallb]. rewrite Gc. cbn [andb].
  apply forallb_forall. intros x Hx. now apply lit_or_cnf_dm_shape, Hr.
Qed.

(** [__naive_combination] crosses the first two members into a conjunction of
    clauses [ors] and puts it in front of the rest *)
Lemma naive_comb_struct c0 c1 rest :
  lit_or_cnf c0 = true -> lit_or_cnf c1 = true ->
  exists ors,
    Forall2 (fun x y => build_or x = Ok y) (cprod [get_list_for_crossing c0; get_list_for_crossing c1]) ors /\
    is_cnf (NAnd ors) = true /\
    naive_combination (c0 :: c1 :: rest) =
    match rest with [] => Ok (NAnd ors) | _ => build_or (NAnd ors :: rest) end.
Proof.
  intros H0 H1. cbn [naive_combination].
  match goal with |- context [mapM ?F ?L] => destruct (mapM_total F L) as [ors E] end.
  { intros x _. destruct (flatten_total x false) as [r ->]. cbn [rbind]. eauto. }
  exists ors. rewrite E. cbn [rbind]. apply mapM_ok in E. rewrite crossing_cprod in E.
  split; [exact E|]. split; [|reflexivity].
  cbn [is_cnf]. apply forallb_forall. intros o Ho. apply (ors_clauses _ _ E); [|assumption].
  intros t x Ht Hx. destruct (cprod_in _ _ _ Ht Hx) as [l [Hl Hxl]].
  destruct Hl as [<-|[<-|[]]]; [now apply (glfc_clauses c0)|now apply (glfc_clauses c1)].
Qed.

Lemma naive_comb_spec c0 c1 rest c :
  (forall x, In x (c0 :: c1 :: rest) -> lit_or_cnf x = true) ->
  naive_combination (c0 :: c1 :: rest) = Ok c ->
  dm_shape c = true /\
  (forall t, neval t c = neval t (NOr (c0 :: c1 :: rest))) /\
  incl (nleaves c) (nleaves (NOr (c0 :: c1 :: rest))).
Proof.
  intros Hl H.
  assert (H0 : lit_or_cnf c0 = true) by (apply Hl; now left).
  assert (H1 : lit_or_cnf c1 = true) by (apply Hl; right; now left).
  destruct (naive_comb_struct c0 c1 rest H0 H1) as [ors [F [Co E]]]. rewrite E in H. clear E.
  destruct (lit_or_cnf_dm_shape _ H0) as [G0 O0]. destruct (lit_or_cnf_dm_shape _ H1) as [G1 O1].
  destruct (is_cnf_dm_shape _ Co) as [Gc _].
  assert (Sc : forall t, neval t (NAnd ors) = neval t c0 || neval t c1).
  { intros t. cbn [neval]. rewrite (Forall2_build_or_sem t _ _ F), cprod_sem. cbn [existsb].
    rewrite (glfc_sem t c0 O0), (glfc_sem t c1 O1). now rewrite orb_false_r. }
  assert (Lc : incl (nleaves (NAnd ors)) (nleaves c0 ++ nleaves c1)).
  { cbn [nleaves]. fold (lvs ors). eapply incl_tran; [apply (ors_leaves _ _ F)|].
    eapply incl_tran; [apply cprod_leaves|]. cbn [flat_map]. rewrite !glfc_lvs, app_nil_r. apply incl_refl. }
  destruct rest as [|r0 rest].
  - inversion H. subst c. split; [assumption|]. split.
    + intros t. rewrite Sc. cbn [neval existsb]. now rewrite orb_false_r.
    + cbn [nleaves flat_map]. now rewrite app_nil_r.
  - split; [|split].
    + apply (build_or_dm_shape_cons _ (r0 :: rest) _ Gc); [|assumption]. intros x Hx. apply Hl. right. now right.
    + intros t. rewrite (build_or_sem t _ _ H).
      change (neval t (NAnd ors) || existsb (neval t) (r0 :: rest) =
              neval t c0 || (neval t c1 || existsb (neval t) (r0 :: rest))).
      rewrite Sc. now rewrite orb_assoc.
    + eapply incl_tran; [apply perm_incl; apply (build_lvs false _ _ H)|].
      intros z Hz. change (In z (nleaves (NAnd ors) ++ lvs (r0 :: rest))) in Hz.
      change (In z (nleaves c0 ++ nleaves c1 ++ lvs (r0 :: rest))).
      apply in_app_or in Hz. destruct Hz as [Hz|Hz].
      * apply Lc in Hz. apply in_app_or in Hz. rewrite !in_app_iff. tauto.
      * rewrite !in_app_iff. tauto.
Qed.

Lemma neval_upd f a s v b : bounded f a -> a <= v -> neval (upd s v b) f = neval s f.
Proof.
  intros B Hv. apply neval_local. intros z Hz. apply B in Hz. unfold upd.
  destruct (Z.abs z =? v) eqn:E; [lia|reflexivity].
Qed.

(** the switching ext_step proper: [c0 \/ c1 \/ rest] becomes [(~a \/ c0) /\ (a \/ c1) \/ rest]
    for the fresh variable [a]; a model of the left side is extended by [a := c0] *)
Lemma sw_step c0 c1 rest a :
  1 <= a -> bounded (NOr (c0 :: c1 :: rest)) a ->
  ext_step (NOr (c0 :: c1 :: rest)) a (NOr (NAnd [NOr [NNot (NVar a); c0]; NOr [NVar a; c1]] :: rest)) (a + 1).
Proof.
  intros Ha B.
  destruct (proj1 (bounded_and_cons c0 (c1 :: rest) a) B) as [B0 B'].
  destruct (proj1 (bounded_and_cons c1 rest a) B') as [B1 Br].
  constructor.
  - lia.
  - intros z. cbn [nleaves flat_map]. rewrite !app_nil_r, !in_app_iff. cbn [In].
    intros [[[[<-|[]]|H]|[[<-|[]]|H]]|H]; (right; lia) || (left; tauto).
  - intros t. cbn [neval existsb forallb]. rewrite !orb_false_r, andb_true_r.
    destruct (lit_true t a), (neval t c0), (neval t c1), (existsb (neval t) rest); cbn; congruence.
  - intros s Hs. exists (upd s a (neval s c0)). split.
    + intros v Hv. unfold upd. destruct (v =? a) eqn:E; [lia|reflexivity].
    + cbn [neval existsb forallb] in *. rewrite !orb_false_r, andb_true_r.
      rewrite (neval_upd c0 a), (neval_upd c1 a) by (assumption || lia).
      assert (Er : existsb (neval (upd s a (neval s c0))) rest = existsb (neval s) rest).
      { apply (neval_upd (NOr rest) a); [assumption|lia]. }
      rewrite Er. rewrite lit_true_pos by lia. unfold upd at 1 2. rewrite Z.eqb_refl.
      destruct (neval s c0), (neval s c1), (existsb (neval s) rest); cbn in *; congruence.
Qed.

Lemma sw_comb_dm_shape c0 c1 rest a c b :
  (forall x, In x (c0 :: c1 :: rest) -> lit_or_cnf x = true) ->
  switching_combination (c0 :: c1 :: rest) a = Ok (c, b) -> dm_shape c = true.
Proof.
  intros Hl H. cbn [switching_combination] in H.
  destruct (lit_or_cnf_dm_shape c0) as [G0 O0]; [apply Hl; now left|].
  destruct (lit_or_cnf_dm_shape c1) as [G1 O1]; [apply Hl; right; now left|].
  assert (Gc : dm_shape (NAnd [NOr [NNot (NVar a); c0]; NOr [NVar a; c1]]) = true).
  { cbn [dm_shape forallb is_or negb andb]. now rewrite G0, G1, O0, O1. }
  destruct rest as [|r0 rest].
  - inversion H. now subst c.
  - apply rbind_ok in H. destruct H as [c' [Hb H]]. inversion H. subst c' b.
    apply (build_or_dm_shape_cons _ (r0 :: rest) _ Gc); [|assumption]. intros x Hx. apply Hl. right. now right.
Qed.

Lemma sw_comb_step c0 c1 rest a c b :
  1 <= a -> bounded (NOr (c0 :: c1 :: rest)) a ->
  switching_combination (c0 :: c1 :: rest) a = Ok (c, b) ->
  b = a + 1 /\ ext_step (NOr (c0 :: c1 :: rest)) a c (a + 1).
Proof.
  intros Ha B H. pose proof (sw_step c0 c1 rest a Ha B) as S. cbn [switching_combination] in H.
  destruct rest as [|r0 rest].
  - inversion H. subst c b. split; [reflexivity|]. eapply ext_step_trans; [exact S|]. apply ext_step_or_single.
  - apply rbind_ok in H. destruct H as [c' [Hb H]]. inversion H. subst c' b. split; [reflexivity|].
    eapply ext_step_trans; [exact S|]. now apply (build_step false).
Qed.

(** the branch of [__distribute_ors_switching] that merges the first two members
    and runs again on the result *)
Definition comb_tail (n : nat) (cl : list nf) (fr : Z) : res (nf * Z) :=
  b <- should_combine_naively cl ;;
  if (b : bool) then c <- naive_combination cl ;; dist_sw n c fr
  else ' (c, fr') <- switching_combination cl fr ;; dist_sw n c fr'.

(** whichever combination is chosen, the formula [c] it runs again on has the
    shape of [__apply_demorgan]'s results and refines the disjunction *)
Lemma comb_tail_inv n c0 c1 rest fr g b :
  (forall x, In x (c0 :: c1 :: rest) -> lit_or_cnf x = true) ->
  comb_tail n (c0 :: c1 :: rest) fr = Ok (g, b) ->
  exists c fr', dm_shape c = true /\ dist_sw n c fr' = Ok (g, b) /\
    (1 <= fr -> bounded (NOr (c0 :: c1 :: rest)) fr -> ext_step (NOr (c0 :: c1 :: rest)) fr c fr').
Proof.
  intros Lc H. unfold comb_tail in H. cbn [should_combine_naively rbind] in H.
  destruct (is_lit_shape c0 || is_lit_shape c1).
  - apply rbind_ok in H. destruct H as [c [Hc H]].
    destruct (naive_comb_spec c0 c1 rest c Lc Hc) as [Gc [Sc Vc]].
    exists c, fr. split; [exact Gc|]. split; [exact H|]. intros _ _. now apply ext_step_equiv.
  - apply rbind_ok in H. destruct H as [[c fr'] [Hc H]].
    exists c, fr'. split; [exact (sw_comb_dm_shape c0 c1 rest fr c fr' Lc Hc)|]. split; [exact H|].
    intros Ha B. now destruct (sw_comb_step c0 c1 rest fr c fr' Ha B Hc) as [-> Sc].
Qed.

Lemma nonor_dm_shape_cases x : dm_shape x = true -> is_or x = false -> is_lit x = true \/ is_and x = true.
Proof. destruct x as [z|[z|?|?|?]|l|l]; cbn; intros H1 H2; try discriminate; auto. Qed.

(** the shape of the result of [__distribute_ors_switching]; it holds without
    the calling convention on the counter *)
Definition cls_post (f g : nf) : Prop :=
  clause_or_cnf g = true /\ (is_or f = false -> lit_or_cnf g = true) /\ (is_and f = true -> is_and g = true).

Lemma cls_post_or l g : clause_or_cnf g = true -> cls_post (NOr l) g.
Proof. intros H. split; [assumption|]. split; discriminate. Qed.

Lemma chain_shapes d l a ys b :
  (forall f a g b, dm_shape f = true -> d f a = Ok (g, b) -> cls_post f g) ->
  fold_chain d l a ys b -> forallb dm_shape l = true -> Forall2 cls_post l ys.
Proof.
  intros Hd C. induction C as [fr|x l fresh y fr1 ys fr Hx C IH]; intros HG; [constructor|].
  cbn [forallb] in HG. apply andb_true_iff in HG. destruct HG as [Gx Gl].
  constructor; [now apply (Hd x fresh y fr1)|now apply IH].
Qed.

(** a member that is a conjunction stays one, so the sorted results are combined *)
Lemma and_member_combines l ys cl x :
  Forall2 cls_post l ys -> Permutation ys cl -> In x l -> is_and x = true -> should_not_combine cl = false.
Proof.
  intros F P Hx A. destruct (Forall2_in_l _ _ _ _ F Hx) as [y [Hy [_ [_ PA]]]].
  unfold should_not_combine. apply negb_false_iff, existsb_exists.
  exists y. split; [now apply (Permutation_in _ P)|now apply PA].
Qed.

(** what [__distribute_ors_switching] does with the sorted results [cl] of the
    members of [NOr l] *)
Definition or_tail (n : nat) (l : list nf) (a : Z) (cl : list nf) (fr : Z) : res (nf * Z) :=
  if (1 <? length cl)%nat then
    if should_not_combine cl then Ok (NOr l, a) else comb_tail n cl fr
  else match cl with c0 :: _ => Ok (c0, fr) | [] => Ok (NOr l, a) end.

Lemma dist_sw_or n l a :
  dist_sw (S n) (NOr l) a =
  (' (cl0, fr) <- dist_fold (dist_sw n) l [] a ;; cl <- pysort cl0 ;; or_tail n l a cl fr).
Proof. reflexivity. Qed.

(** the sorted results of the members of a disjunction of class [dm_shape] *)
Lemma or_members n l a ys fr cl :
  (forall f a g b, dm_shape f = true -> dist_sw n f a = Ok (g, b) -> cls_post f g) ->
  dm_shape (NOr l) = true -> fold_chain (dist_sw n) l a ys fr -> Permutation ys cl ->
  Forall2 cls_post l ys /\ forall c, In c cl -> lit_or_cnf c = true.
Proof.
  intros Hd Gf C P. destruct (dm_shape_or_members l Gf) as [Gl NO].
  pose proof (chain_shapes _ _ _ _ _ Hd C Gl) as F. split; [exact F|].
  intros c Hc. apply (Permutation_in _ (Permutation_sym P)) in Hc.
  destruct (Forall2_in_r _ _ _ _ F Hc) as [x [Hx [_ [L _]]]]. apply L. now apply NO.
Qed.

Lemma dist_sw_or_inv n l a g b :
  (forall f a g b, dm_shape f = true -> dist_sw n f a = Ok (g, b) -> cls_post f g) ->
  dm_shape (NOr l) = true -> dist_sw (S n) (NOr l) a = Ok (g, b) ->
  exists ys fr cl, fold_chain (dist_sw n) l a ys fr /\ Permutation ys cl /\ Forall2 cls_post l ys /\
    (forall c, In c cl -> lit_or_cnf c = true) /\ or_tail n l a cl fr = Ok (g, b).
Proof.
  intros Hd Gf H. rewrite dist_sw_or in H.
  apply rbind_ok in H. destruct H as [[cl0 fr] [H1 H]]. apply rbind_ok in H. destruct H as [cl [H2 H]].
  apply dist_fold_chain in H1. destruct H1 as [ys [-> C]]. apply pysort_perm in H2.
  destruct (or_members n l a ys fr cl Hd Gf C H2) as [F Lc]. exists ys, fr, cl. auto 6.
Qed.

Lemma dist_sw_shape n : forall f a g b, dm_shape f = true -> dist_sw n f a = Ok (g, b) -> cls_post f g.
Proof.
  induction n as [|n IH]; intros f a g b Gf H; cbn [dist_sw] in H; [discriminate|].
  destruct f as [z|c|l|l].
  - inversion H. subst g b. split; [reflexivity|split; [reflexivity|discriminate]].
  - destruct c as [z|?|?|?]; try discriminate. inversion H. subst g b.
    split; [reflexivity|split; [reflexivity|discriminate]].
  - apply rbind_ok in H. destruct H as [[cl fr] [H1 H]]. apply rbind_ok in H. destruct H as [a' [H2 H3]].
    inversion H3. subst g b. clear H3.
    apply dist_fold_chain in H1. destruct H1 as [ys [E C]]. cbn [app] in E. subst cl.
    pose proof (chain_shapes _ _ _ _ _ IH C Gf) as F.
    assert (Cn : is_cnf a' = true).
    { apply (build_and_clause_or_cnf ys); [|assumption]. intros y Hy.
      destruct (Forall2_in_r _ _ _ _ F Hy) as [x [_ [Ry _]]]. exact Ry. }
    unfold cls_post, clause_or_cnf, lit_or_cnf. rewrite Cn, !orb_true_r. split; [reflexivity|split; [reflexivity|]].
    intros _. apply build_and_shape in H2. destruct H2 as [m ->]. reflexivity.
  - apply (dist_sw_or_inv n l a g b IH Gf) in H. destruct H as (ys & fr & cl & _ & H2 & F & Lc & H).
    unfold or_tail in H.
    apply cls_post_or.
    destruct (1 <? length cl)%nat eqn:Len.
    + destruct (should_not_combine cl) eqn:SNC.
      * (* no member became a conjunction: all members were literals *)
        inversion H. subst g b. unfold clause_or_cnf, is_clause. cbn [is_lit orb].
        replace (forallb is_lit l) with true; [reflexivity|]. symmetry. apply forallb_forall. intros x Hx.
        destruct (dm_shape_or_members l Gf) as [Gl NO].
        assert (Gx : dm_shape x = true) by (rewrite forallb_forall in Gl; now apply Gl).
        destruct (nonor_dm_shape_cases x Gx (NO x Hx)) as [X|X]; [assumption|].
        rewrite (and_member_combines l ys cl x F H2 Hx X) in SNC. discriminate.
      * destruct cl as [|c0 [|c1 rest]]; cbn [length] in Len; try discriminate.
        destruct (comb_tail_inv n c0 c1 rest fr g b Lc H) as (c & fr' & Gc & Hr & _).
        now destruct (IH c fr' g b Gc Hr).
    + destruct cl as [|c0 [|c1 rest]]; cbn [length] in Len; try discriminate.
      * inversion H. subst g b. apply Permutation_sym, Permutation_nil in H2. subst ys.
        inversion F. reflexivity.
      * inversion H. subst g b. apply lit_or_cnf_clause_or_cnf. apply Lc. now left.
Qed.

Lemma dist_sw_step n : forall f a g b,
  1 <= a -> dm_shape f = true -> bounded f a -> dist_sw n f a = Ok (g, b) -> ext_step f a g b.
Proof.
  induction n as [|n IH]; intros f a g b Ha Gf Bf H; cbn [dist_sw] in H; [discriminate|].
  destruct f as [z|c|l|l].
  - inversion H. apply ext_step_refl.
  - destruct c as [z|?|?|?]; try discriminate. inversion H. apply ext_step_refl.
  - apply rbind_ok in H. destruct H as [[cl fr] [H1 H]]. apply rbind_ok in H. destruct H as [a' [H2 H3]].
    inversion H3. subst g b. clear H3.
    apply dist_fold_chain in H1. destruct H1 as [ys [E C]]. cbn [app] in E. subst cl.
    destruct (chain_steps _ _ _ _ _ IH C Ha Gf Bf) as [SA _].
    eapply ext_step_trans; [exact SA|]. now apply (build_step true).
  - apply (dist_sw_or_inv n l a g b (dist_sw_shape n) Gf) in H. destruct H as (ys & fr & cl & C & H2 & _ & Lc & H).
    unfold or_tail in H. destruct (dm_shape_or_members l Gf) as [Gl _].
    destruct (chain_steps _ _ _ _ _ IH C Ha Gl Bf) as [_ SO].
    assert (S1 : ext_step (NOr l) a (NOr cl) fr).
    { eapply ext_step_trans; [exact SO|]. apply ext_step_equiv.
      - intros t. cbn [neval]. symmetry. now apply existsb_perm.
      - cbn [nleaves]. apply perm_incl. now apply (lvs_perm ys cl). }
    assert (B1 : bounded (NOr cl) fr) by (apply (ext_step_bounded _ a _ _ Ha S1); assumption).
    pose proof (st_le _ _ _ _ S1) as Le.
    destruct (1 <? length cl)%nat eqn:Len.
    + destruct (should_not_combine cl).
      * inversion H. apply ext_step_refl.
      * destruct cl as [|c0 [|c1 rest]]; cbn [length] in Len; try discriminate.
        destruct (comb_tail_inv n c0 c1 rest fr g b Lc H) as (c & fr' & Gc & Hr & Sc).
        assert (S2 : ext_step (NOr l) a c fr') by (apply (ext_step_trans _ _ _ _ _ _ S1), Sc; [lia|exact B1]).
        pose proof (st_le _ _ _ _ S2) as Le2. apply (ext_step_trans _ _ _ _ _ _ S2).
        apply IH; [lia|assumption|apply (ext_step_bounded _ a _ _ Ha S2 Bf)|assumption].
    + destruct cl as [|c0 [|c1 rest]]; cbn [length] in Len; try discriminate.
      * inversion H. apply ext_step_refl.
      * inversion H. subst g b. eapply ext_step_trans; [exact S1|]. apply ext_step_or_single.
Qed.

Lemma wrap_and_clause_or_cnf g : clause_or_cnf g = true -> is_cnf (wrap_and g) = true.
Proof.
  unfold clause_or_cnf. intros H. apply orb_true_iff in H. destruct H as [H|H].
  - destruct g as [z|c|m|m]; cbn [wrap_and is_cnf forallb]; try now rewrite H.
    unfold is_clause in H. cbn in H. discriminate.
  - destruct g as [z|c|m|m]; cbn in H; try discriminate. exact H.
Qed.

Theorem switching_correct f nv g nv' :
  1 <= nv -> (forall z, In z (leaves f) -> Z.abs z < nv) ->
  to_cnf_switching f nv = Ok (g, nv') ->
  nv <= nv' /\
  is_cnf g = true /\
  (forall z, In z (nleaves g) -> In z (leaves f) \/ nv <= z < nv') /\
  (forall s, (exists t, (forall v, ~ (nv <= v < nv') -> t v = s v) /\ neval t g = true) <-> eval s f = true).
Proof.
  intros Hnv HL H. unfold to_cnf_switching in H.
  apply rbind_ok in H. destruct H as [g1 [H1 H]]. apply rbind_ok in H. destruct H as [[g2 fr] [H2 H3]].
  inversion H3. subst g nv'. clear H3.
  assert (B1 : bounded g1 nv).
  { intros z Hz. apply HL. apply elim_leaves. now apply (demorgan_leaves _ _ _ H1). }
  pose proof (demorgan_dm_shape _ _ _ H1) as G1.
  destruct (dist_sw_step _ g1 nv g2 fr Hnv G1 B1 H2) as [Le V Snd Cmp].
  destruct (dist_sw_shape _ g1 nv g2 fr G1 H2) as [Rg _].
  split; [assumption|]. split; [now apply wrap_and_clause_or_cnf|]. split.
  - intros z Hz. rewrite wrap_and_leaves in Hz. destruct (V z Hz) as [X|X]; [left|now right].
    apply elim_leaves. now apply (demorgan_leaves _ _ _ H1).
  - intros s. split.
    + intros [t [O Ht]]. rewrite wrap_and_sem in Ht. apply Snd in Ht.
      rewrite (demorgan_sem t _ _ _ H1), elim_sem in Ht. rewrite <- Ht. apply eval_local.
      intros z Hz. symmetry. apply O. apply HL in Hz. lia.
    + intros Hs. rewrite <- elim_sem, <- (demorgan_sem s _ _ _ H1) in Hs.
      destruct (Cmp s Hs) as [t [O Ht]]. exists t. split; [exact O|now rewrite wrap_and_sem].
Qed.

Lemma dist_sw_and n l fresh :
  dist_sw (S n) (NAnd l) fresh =
  (' (cl, fr) <- dist_fold (dist_sw n) l [] fresh ;; a <- build_and cl ;; Ok (a, fr)).
Proof. reflexivity. Qed.

Definition total_on (d : nf -> Z -> res (nf * Z)) (x : nf) : Prop :=
  forall a, exists y b, d x a = Ok (y, b).

Lemma dist_fold_total d l : (forall x, In x l -> total_on d x) ->
  forall acc fresh, exists ys fr, dist_fold d l acc fresh = Ok (acc ++ ys, fr) /\ fold_chain d l fresh ys fr.
Proof.
  induction l as [|x l IH]; intros H acc fresh; cbn [dist_fold].
  - exists [], fresh. rewrite app_nil_r. split; [reflexivity|constructor].
  - destruct (H x (or_introl eq_refl) fresh) as [y [b E]]. rewrite E. cbn [rbind].
    destruct (IH (fun a Ha => H a (or_intror Ha)) (acc ++ [y]) b) as [ys [fr [E2 C]]].
    exists (y :: ys), fr. rewrite E2, <- app_assoc. split; [reflexivity|econstructor; eassumption].
Qed.

Lemma and_total n l : (forall x, In x l -> total_on (dist_sw n) x) -> total_on (dist_sw (S n)) (NAnd l).
Proof.
  intros T a. rewrite dist_sw_and.
  destruct (dist_fold_total _ l T [] a) as [ys [fr [E _]]]. rewrite E. cbn [rbind app].
  destruct (build_total true ys) as [g E']. cbn [build] in E'. rewrite E'. cbn [rbind]. eauto.
Qed.

Lemma dist_sw_or_run n l a :
  dm_shape (NOr l) = true -> (forall x, In x l -> total_on (dist_sw n) x) ->
  exists ys fr cl, fold_chain (dist_sw n) l a ys fr /\ Permutation ys cl /\ Forall2 cls_post l ys /\
    (forall c, In c cl -> lit_or_cnf c = true) /\ dist_sw (S n) (NOr l) a = or_tail n l a cl fr.
Proof.
  intros Gf T. rewrite dist_sw_or.
  destruct (dist_fold_total _ l T [] a) as [ys [fr [E C]]]. rewrite E. cbn [rbind app].
  destruct (pysort_total ys) as [cl Hcl]. rewrite Hcl. cbn [rbind]. apply pysort_perm in Hcl.
  destruct (or_members n l a ys fr cl (dist_sw_shape n) Gf C Hcl) as [F Lc]. exists ys, fr, cl. auto 6.
Qed.

Lemma lit_run n c a : is_lit c = true -> dist_sw (S n) c a = Ok (c, a).
Proof. destruct c as [z|[z|?|?|?]|?|?]; cbn; intros H; try discriminate; reflexivity. Qed.

Lemma lit_total n c : is_lit c = true -> total_on (dist_sw (S n)) c.
Proof. intros H a. rewrite (lit_run n c a H). eauto. Qed.

Lemma chain_lits n l a ys b :
  fold_chain (dist_sw (S n)) l a ys b -> forallb is_lit l = true -> ys = l /\ b = a.
Proof.
  intros C. induction C as [fr|x l fresh y fr1 ys fr Hx C IH]; intros Hl; [auto|].
  cbn [forallb] in Hl. apply andb_true_iff in Hl. destruct Hl as [A B].
  rewrite (lit_run n x fresh A) in Hx. inversion Hx. subst y fr1. destruct (IH B) as [-> ->]. auto.
Qed.

Lemma lits_no_and m : forallb is_lit m = true -> existsb is_and m = false.
Proof.
  induction m as [|c m IH]; cbn [forallb existsb]; [reflexivity|]. intros H.
  apply andb_true_iff in H. destruct H as [A B]. destruct (is_lit_dm_shape c A) as [_ [_ ->]]. now apply IH.
Qed.

Lemma clause_total n x : is_clause x = true -> total_on (dist_sw (2 + n)) x.
Proof.
  intros H a. destruct (is_clause_cases x H) as [[A _]|[m [-> Hm]]].
  - apply (lit_total (S n) x A).
  - change (2 + n)%nat with (S (S n)).
    assert (T : forall x, In x m -> total_on (dist_sw (S n)) x).
    { intros x Hx. apply lit_total. rewrite forallb_forall in Hm. now apply Hm. }
    destruct (dist_sw_or_run (S n) m a (lits_dm_shape m Hm) T) as (ys & fr & cl & C & P & _ & _ & ->).
    destruct (chain_lits _ _ _ _ _ C Hm) as [-> ->]. unfold or_tail.
    destruct (1 <? length cl)%nat; [|destruct cl; eauto].
    replace (should_not_combine cl) with true; [eauto|].
    unfold should_not_combine. rewrite <- (existsb_perm _ _ _ P). now rewrite lits_no_and.
Qed.

(** re-running the distribution on a literal or a CNF *)
Lemma rerun_total n c : lit_or_cnf c = true -> total_on (dist_sw (3 + n)) c.
Proof.
  intros H. unfold lit_or_cnf in H. apply orb_true_iff in H. destruct H as [H|H].
  - apply (lit_total (2 + n) c H).
  - destruct c as [z|?|cls|?]; cbn [is_cnf] in H; try discriminate.
    apply (and_total (2 + n)). intros x Hx. apply clause_total. rewrite forallb_forall in H. now apply H.
Qed.

Lemma build_or_noflat l g :
  (forall x, In x l -> is_or x = false) -> build_or l = Ok g -> exists l', g = NOr l' /\ Permutation l l'.
Proof.
  intros Hl H. destruct (build_inv false _ _ H) as [l' [-> H1]]. exists l'. split; [reflexivity|].
  replace (flat_map (flat1 false) l) with l in H1; [assumption|].
  clear -Hl. induction l as [|c l IH]; [reflexivity|]. cbn [flat_map]. unfold flat1 at 1.
  rewrite (Hl c (or_introl eq_refl)). cbn [app]. f_equal. apply IH. intros x Hx. apply Hl. now right.
Qed.

Lemma loc_and_cnf y : lit_or_cnf y = true -> is_and y = true -> is_cnf y = true.
Proof.
  unfold lit_or_cnf. intros H A. apply orb_true_iff in H. destruct H as [H|H]; [|assumption].
  destruct (is_lit_dm_shape y H) as [_ [_ X]]. congruence.
Qed.

Lemma loc_notshape c : lit_or_cnf c = true -> is_lit_shape c = false -> is_cnf c = true.
Proof.
  unfold lit_or_cnf. intros H A. apply orb_true_iff in H. destruct H as [H|H]; [|assumption].
  destruct c as [z|[z|?|?|?]|?|?]; cbn in *; discriminate.
Qed.

Lemma is_lit_shape_lit c : is_lit c = true -> is_lit_shape c = true.
Proof. destruct c as [z|?|?|?]; cbn; intros H; try discriminate; reflexivity. Qed.

(** two sorted members, one a conjunction and one of literal shape, are crossed
    naively and the resulting CNF is run again *)
Lemma pair_tail_total n l a x0 x1 fr :
  lit_or_cnf x0 = true -> lit_or_cnf x1 = true -> is_and x0 || is_and x1 = true ->
  is_lit_shape x0 || is_lit_shape x1 = true ->
  exists g b, or_tail (3 + n) l a [x0; x1] fr = Ok (g, b).
Proof.
  intros L0 L1 A SC. unfold or_tail, should_not_combine, comb_tail.
  cbn [length Nat.ltb Nat.leb existsb should_combine_naively rbind]. rewrite orb_false_r, A, SC. cbn [negb].
  destruct (naive_comb_struct x0 x1 [] L0 L1) as [ors [_ [Co ->]]]. cbn [rbind].
  apply (rerun_total n (NAnd ors)). unfold lit_or_cnf. now rewrite Co, orb_true_r.
Qed.

(** a disjunction of a literal and a CNF *)
Lemma lit_cnf_pair_total n L c :
  is_lit L = true -> is_cnf c = true -> total_on (dist_sw (4 + n)) (NOr [L; c]).
Proof.
  intros HL Hc a. change (4 + n)%nat with (S (S (2 + n))). rewrite dist_sw_or. cbn [dist_fold].
  rewrite (lit_run _ L a HL). cbn [rbind].
  assert (Lc : lit_or_cnf c = true) by (unfold lit_or_cnf; now rewrite Hc, orb_true_r).
  destruct (rerun_total n c Lc a) as [y1 [b1 E1]]. change (3 + n)%nat with (S (2 + n)) in E1.
  rewrite E1. cbn [rbind app dist_fold].
  destruct (is_cnf_dm_shape c Hc) as [Gc Oc].
  destruct (dist_sw_shape _ c a y1 b1 Gc E1) as [_ [P1 P2]].
  assert (A1 : is_and y1 = true) by (apply P2; destruct c; cbn in Hc; try discriminate; reflexivity).
  assert (C1 : is_cnf y1 = true) by (apply loc_and_cnf; [now apply P1|assumption]).
  destruct (pysort_total [L; y1]) as [cl Hcl]. rewrite Hcl. cbn [rbind].
  apply pysort_perm, Permutation_length_2_inv in Hcl.
  destruct Hcl as [-> | ->]; apply (pair_tail_total n); unfold lit_or_cnf;
    rewrite ?HL, ?C1, ?A1, ?(is_lit_shape_lit L HL), ?orb_true_r; reflexivity.
Qed.

(** the member built from the first two clauses *)
Definition good_comb (comb : nf) : Prop :=
  dm_shape comb = true /\ is_and comb = true /\ forall n, total_on (dist_sw (5 + n)) comb.

Lemma cnf_good ors : is_cnf (NAnd ors) = true -> good_comb (NAnd ors).
Proof.
  intros H. split; [now apply is_cnf_dm_shape|]. split; [reflexivity|]. intros n.
  change (5 + n)%nat with (3 + (2 + n))%nat. apply rerun_total. unfold lit_or_cnf. now rewrite H, orb_true_r.
Qed.

Lemma sw_good v c0 c1 :
  is_cnf c0 = true -> is_cnf c1 = true -> good_comb (NAnd [NOr [NNot (NVar v); c0]; NOr [NVar v; c1]]).
Proof.
  intros H0 H1. destruct (is_cnf_dm_shape _ H0) as [G0 O0]. destruct (is_cnf_dm_shape _ H1) as [G1 O1].
  split; [|split; [reflexivity|]].
  - cbn [dm_shape forallb is_or negb andb]. now rewrite G0, G1, O0, O1.
  - intros n. apply (and_total (4 + n)). intros x [<-|[<-|[]]]; now apply lit_cnf_pair_total.
Qed.

Lemma comb_tail_struct n c0 c1 rest fr :
  lit_or_cnf c0 = true -> lit_or_cnf c1 = true ->
  exists comb fr', good_comb comb /\
    comb_tail n (c0 :: c1 :: rest) fr =
    match rest with [] => dist_sw n comb fr' | _ => c <- build_or (comb :: rest) ;; dist_sw n c fr' end.
Proof.
  intros L0 L1. unfold comb_tail. cbn [should_combine_naively rbind].
  destruct (is_lit_shape c0 || is_lit_shape c1) eqn:E.
  - destruct (naive_comb_struct c0 c1 rest L0 L1) as [ors [_ [Co ->]]].
    exists (NAnd ors), fr. split; [now apply cnf_good|]. destruct rest; reflexivity.
  - apply orb_false_iff in E. destruct E as [E0 E1].
    exists (NAnd [NOr [NNot (NVar fr); c0]; NOr [NVar fr; c1]]), (fr + 1).
    split; [apply sw_good; now apply loc_notshape|].
    cbn [switching_combination]. destruct rest as [|r0 rest]; [reflexivity|].
    destruct (build_or _) as [g|e]; reflexivity.
Qed.

(** [k + 2] clauses, one of them a conjunction: [k + 5] levels suffice *)
Lemma chain_total k : forall n cl fr,
  length cl = (k + 2)%nat -> (k + 5 <= n)%nat ->
  (forall x, In x cl -> lit_or_cnf x = true) ->
  exists g b, comb_tail n cl fr = Ok (g, b).
Proof.
  induction k as [|k IH]; intros n cl fr Hlen Hn Hcl;
    (destruct cl as [|c0 [|c1 rest]]; cbn [length] in Hlen; try lia);
    destruct (comb_tail_struct n c0 c1 rest fr (Hcl c0 (or_introl eq_refl)) (Hcl c1 (or_intror (or_introl eq_refl))))
      as [comb [fr' [[Gc [Ac Tc]] ->]]].
  - destruct rest; [|cbn [length] in Hlen; lia].
    replace n with (5 + (n - 5))%nat by lia. apply Tc.
  - destruct rest as [|r0 rest']; [cbn [length] in Hlen; lia|]. set (rest := r0 :: rest') in *.
    assert (Lr : forall x, In x rest -> lit_or_cnf x = true) by (intros x Hx; apply Hcl; right; now right).
    assert (NO : forall x, In x (comb :: rest) -> is_or x = false).
    { intros x [<-|Hx]; [destruct comb; cbn in Ac; try discriminate; reflexivity|].
      now apply lit_or_cnf_dm_shape, Lr. }
    destruct (build_total false (comb :: rest)) as [c Hc]. cbn [build] in Hc. rewrite Hc. cbn [rbind].
    pose proof (build_or_dm_shape_cons comb rest c Gc Lr Hc) as Gl.
    destruct (build_or_noflat _ _ NO Hc) as [l' [-> Pl]].
    destruct n as [|m]; [lia|].
    assert (T : forall x, In x l' -> total_on (dist_sw m) x).
    { intros x Hx. apply (Permutation_in _ (Permutation_sym Pl)) in Hx. destruct Hx as [<-|Hx].
      - replace m with (5 + (m - 5))%nat by lia. apply Tc.
      - replace m with (3 + (m - 3))%nat by lia. apply rerun_total. now apply Lr. }
    destruct (dist_sw_or_run m l' fr' Gl T) as (ys & fr2 & cl' & _ & Hcl' & F & Lc & ->). unfold or_tail.
    assert (Len : length cl' = (k + 2)%nat).
    { rewrite <- (Permutation_length Hcl'), <- (Forall2_length _ _ _ F), <- (Permutation_length Pl).
      cbn [length] in *. lia. }
    replace (1 <? length cl')%nat with true by (symmetry; apply Nat.ltb_lt; lia).
    rewrite (and_member_combines l' ys cl' comb F Hcl' (Permutation_in _ Pl (or_introl eq_refl)) Ac). apply IH; [assumption|lia|exact Lc].
Qed.

(** recursion depth of [__distribute_ors_switching] on the output of [__apply_demorgan] *)
Fixpoint sneed (f : nf) : nat :=
  match f with
  | NVar _ | NNot _ => 1
  | NAnd l => S (fold_right (fun x a => Nat.max (sneed x) a) O l)
  | NOr l => S (Nat.max (fold_right (fun x a => Nat.max (sneed x) a) O l) (length l + 3))
  end.

Lemma dist_sw_total n : forall f, dm_shape f = true -> (sneed f <= n)%nat -> total_on (dist_sw n) f.
Proof.
  induction n as [|n IH]; intros f Gf Hn a.
  - destruct f; cbn in Hn; lia.
  - destruct f as [z|c|l|l].
    + cbn. eauto.
    + destruct c; cbn in Gf; try discriminate. cbn. eauto.
    + change (sneed (NAnd l)) with (S (max_of sneed l)) in Hn. apply and_total. intros x Hx. apply IH.
      * cbn [dm_shape] in Gf. rewrite forallb_forall in Gf. now apply Gf.
      * pose proof (proj1 (max_of_le sneed l _) (Nat.le_refl _) x Hx). lia.
    + change (sneed (NOr l)) with (S (Nat.max (max_of sneed l) (length l + 3))) in Hn.
      destruct (dm_shape_or_members l Gf) as [Gl _].
      assert (T : forall x, In x l -> total_on (dist_sw n) x).
      { intros x Hx. apply IH.
        - rewrite forallb_forall in Gl. now apply Gl.
        - pose proof (proj1 (max_of_le sneed l _) (Nat.le_refl _) x Hx). lia. }
      destruct (dist_sw_or_run n l a Gf T) as (ys & fr & cl & _ & Hcl & F & Lc & ->). unfold or_tail.
      destruct (1 <? length cl)%nat eqn:Len; [|destruct cl; eauto].
      destruct (should_not_combine cl); [eauto|]. apply Nat.ltb_lt in Len.
      assert (Ll : length cl = length l) by (rewrite <- (Permutation_length Hcl); symmetry; apply (Forall2_length _ _ _ F)).
      apply (chain_total (length cl - 2)); [lia|lia|exact Lc].
Qed.

Lemma nsize_pos f : (1 <= nsize f)%nat.
Proof. destruct f; cbn; lia. Qed.

Lemma nsum_len l : (length l <= nsum l)%nat.
Proof.
  unfold nsum. induction l as [|x l IH]; cbn [length fold_right]; [lia|]. pose proof (nsize_pos x). lia.
Qed.

Lemma sneed_bound f : (sneed f <= nsize f + 3)%nat.
Proof.
  induction f as [z|c IH|l IH|l IH] using nf_ind'.
  - cbn. lia.
  - cbn. lia.
  - change (sneed (NAnd l)) with (S (max_of sneed l)). change (nsize (NAnd l)) with (S (nsum l)).
    pose proof (max_of_bound sneed (fun k => k + 3)%nat l ltac:(intros; cbn beta; lia) IH) as M. cbn beta in M. lia.
  - change (sneed (NOr l)) with (S (Nat.max (max_of sneed l) (length l + 3))). change (nsize (NOr l)) with (S (nsum l)).
    pose proof (max_of_bound sneed (fun k => k + 3)%nat l ltac:(intros; cbn beta; lia) IH) as M. cbn beta in M.
    pose proof (nsum_len l). lia.
Qed.

(** [to_cnf_switching] returns on every formula and every counter and its
    result has CNF shape; under the calling convention the result has the same
    models, projected to the original variables, as the input. *)
Theorem switching_total f nv :
  exists g nv', to_cnf_switching f nv = Ok (g, nv') /\
    is_cnf g = true /\
    (1 <= nv -> (forall z, In z (leaves f) -> Z.abs z < nv) ->
     nv <= nv' /\
     (forall z, In z (nleaves g) -> In z (leaves f) \/ nv <= z < nv') /\
     (forall s, (exists t, (forall v, ~ (nv <= v < nv') -> t v = s v) /\ neval t g = true) <-> eval s f = true)).
Proof.
  assert (T : exists g nv', to_cnf_switching f nv = Ok (g, nv') /\ is_cnf g = true).
  { unfold to_cnf_switching. destruct (demorgan_fuel_total (elim f)) as [g1 H1]. rewrite H1. cbn [rbind].
    pose proof (demorgan_dm_shape _ _ _ H1) as G1.
    assert (Hf : (sneed g1 <= switching_fuel g1)%nat).
    { unfold switching_fuel. pose proof (sneed_bound g1). lia. }
    destruct (dist_sw_total _ g1 G1 Hf nv) as [g2 [fr E]]. rewrite E. cbn [rbind].
    exists (wrap_and g2), fr. split; [reflexivity|].
    destruct (dist_sw_shape _ g1 nv g2 fr G1 E) as [Rg _]. now apply wrap_and_clause_or_cnf. }
  destruct T as [g [nv' [H C]]]. exists g, nv'. split; [assumption|]. split; [assumption|].
  intros Hnv HL. destruct (switching_correct f nv g nv' Hnv HL H) as [A [_ [B D]]]. auto.
Qed.
