(** Proofs about Logic/Naive.v: whenever [to_cnf_naive] returns, its result is
    equivalent to the input, mentions no new variable and has CNF shape (of the
    Python sort this uses only that it returns a permutation of its input); and
    it returns on every formula (the sort compares int keys only). *)
From Coq Require Import ZArith List Bool Lia Permutation Arith.
From SP Require Import Base.Lists Base.Sat Logic.Formula Logic.Naive Logic.TseitinProofs.
Import ListNotations.
Open Scope Z_scope.

Section NfInd.
  Variable P : nf -> Prop.
  Hypothesis HVar : forall z, P (NVar z).
  Hypothesis HNot : forall f, P f -> P (NNot f).
  Hypothesis HAnd : forall l, Forall P l -> P (NAnd l).
  Hypothesis HOr : forall l, Forall P l -> P (NOr l).
  Fixpoint nf_ind' (f : nf) : P f :=
    match f with
    | NVar z => HVar z
    | NNot g => HNot g (nf_ind' g)
    | NAnd l => HAnd l ((fix go (l : list nf) : Forall P l :=
                           match l with [] => Forall_nil P | x :: t => Forall_cons x (nf_ind' x) (go t) end) l)
    | NOr l => HOr l ((fix go (l : list nf) : Forall P l :=
                         match l with [] => Forall_nil P | x :: t => Forall_cons x (nf_ind' x) (go t) end) l)
    end.
End NfInd.

Lemma rbind_ok {A B} (m : res A) (f : A -> res B) b :
  rbind m f = Ok b -> exists a, m = Ok a /\ f a = Ok b.
Proof. destruct m as [a|e]; cbn; [eauto|discriminate]. Qed.

Lemma mapM_ok {A B} (f : A -> res B) l l' :
  mapM f l = Ok l' -> Forall2 (fun x y => f x = Ok y) l l'.
Proof.
  revert l'. induction l as [|x l IH]; intros l' H; cbn [mapM] in H.
  - inversion H. constructor.
  - apply rbind_ok in H. destruct H as [y [Hy H]]. apply rbind_ok in H. destruct H as [ys [Hys H]].
    inversion H. constructor; [assumption|now apply IH].
Qed.

Lemma mapM_total {A B} (f : A -> res B) l :
  (forall x, In x l -> exists y, f x = Ok y) -> exists ys, mapM f l = Ok ys.
Proof.
  induction l as [|x l IH]; intros H; cbn [mapM]; [eauto|].
  destruct (H x (or_introl eq_refl)) as [y ->]. cbn [rbind].
  destruct IH as [ys ->]; [intros a Ha; apply H; now right|]. cbn [rbind]. eauto.
Qed.

Lemma perm_incl {A} (l l' : list A) : Permutation l l' -> incl l' l.
Proof. intros H x Hx. apply Permutation_sym in H. now apply (Permutation_in _ H). Qed.

Lemma insert_at_perm n x pre : Permutation (x :: pre) (insert_at n x pre).
Proof.
  unfold insert_at. rewrite <- (firstn_skipn n pre) at 1. apply Permutation_middle.
Qed.

Lemma binsort_perm rest : forall pre r, binsort pre rest = Ok r -> Permutation (pre ++ rest) r.
Proof.
  induction rest as [|x rest IH]; intros pre r H; cbn [binsort] in H.
  - inversion H. now rewrite app_nil_r.
  - apply rbind_ok in H. destruct H as [pos [_ H]]. apply IH in H.
    rewrite <- H. rewrite <- insert_at_perm. apply Permutation_sym, Permutation_middle.
Qed.

Lemma pysort_kv_perm l r : pysort_kv l = Ok r -> Permutation l r.
Proof.
  unfold pysort_kv. destruct l as [|a [|b l]].
  - intros H. inversion H. constructor.
  - intros H. inversion H. apply Permutation_refl.
  - intros H. apply rbind_ok in H. destruct H as [[n desc] [_ H]]. apply binsort_perm in H.
    rewrite <- H. rewrite <- (firstn_skipn n (a :: b :: l)) at 1.
    apply Permutation_app_tail. destruct desc; [apply Permutation_rev|apply Permutation_refl].
Qed.

Lemma pysort_perm l r : pysort l = Ok r -> Permutation l r.
Proof.
  unfold pysort. destruct (_ || _); [|discriminate]. intros H.
  apply rbind_ok in H. destruct H as [kr [H1 H2]]. inversion H2. subst r. apply pysort_kv_perm in H1.
  apply (Permutation_map snd) in H1. rewrite map_map in H1. cbn [snd] in H1. now rewrite map_id in H1.
Qed.

Definition flat1 (cls : bool) (c : nf) : list nf :=
  if (if cls then is_and c else is_or c) then input_list c else [c].

(** [__build_and] ([cls = true]) and [__build_or] as one function of the flag
    they pass to [__flatten_clause_list], and the connective they apply *)
Definition build (cls : bool) : list nf -> res nf := if cls then build_and else build_or.
Definition nop (cls : bool) (l : list nf) : nf := if cls then NAnd l else NOr l.

Lemma build_inv cls l g :
  build cls l = Ok g -> exists l', g = nop cls l' /\ Permutation (flat_map (flat1 cls) l) l'.
Proof.
  intros H.
  assert (H' : (l' <- flatten_clause_list l cls ;; Ok (nop cls l')) = Ok g) by (destruct cls; exact H).
  apply rbind_ok in H'. destruct H' as [l' [H1 H2]]. inversion H2. exists l'. split; [reflexivity|].
  now apply pysort_perm.
Qed.

Lemma build_and_shape l g : build_and l = Ok g -> exists m, g = NAnd m.
Proof. intros H. destruct (build_inv true _ _ H) as [m [-> _]]. eauto. Qed.

Lemma build_or_shape l g : build_or l = Ok g -> exists m, g = NOr m.
Proof. intros H. destruct (build_inv false _ _ H) as [m [-> _]]. eauto. Qed.

Lemma build_forallb (p : nf -> bool) cls l g :
  (forall c, In c l -> forallb p (flat1 cls c) = true) -> build cls l = Ok g ->
  exists l', g = nop cls l' /\ forallb p l' = true.
Proof.
  intros Hl H. destruct (build_inv _ _ _ H) as [l' [-> P]]. exists l'. split; [reflexivity|].
  rewrite <- (forallb_perm _ _ _ P), forallb_flat_map. apply forallb_forall. exact Hl.
Qed.

Lemma flat1_sem s cls c : neval s (nop cls (flat1 cls c)) = neval s c.
Proof. unfold flat1. destruct cls, c; cbn; rewrite ?orb_false_r, ?andb_true_r; reflexivity. Qed.

Lemma build_sem s cls l g : build cls l = Ok g -> neval s g = neval s (nop cls l).
Proof.
  intros H. destruct (build_inv _ _ _ H) as [l' [-> P]]. destruct cls; cbn [nop neval].
  - rewrite <- (forallb_perm _ _ _ P), forallb_flat_map. apply forallb_ext. apply (flat1_sem s true).
  - rewrite <- (existsb_perm _ _ _ P), existsb_flat_map. apply existsb_ext. apply (flat1_sem s false).
Qed.

Lemma build_or_sem s l g : build_or l = Ok g -> neval s g = existsb (neval s) l.
Proof. apply (build_sem s false). Qed.

Lemma build_and_sem s l g : build_and l = Ok g -> neval s g = forallb (neval s) l.
Proof. apply (build_sem s true). Qed.

Definition lvs (l : list nf) : list Z := flat_map nleaves l.

Lemma nleaves_nop cls l : nleaves (nop cls l) = lvs l.
Proof. now destruct cls. Qed.

Lemma lvs_perm l l' : Permutation l l' -> Permutation (lvs l) (lvs l').
Proof. apply Permutation_flat_map. Qed.

Lemma lvs_flat1 cls l : lvs (flat_map (flat1 cls) l) = lvs l.
Proof.
  unfold lvs. induction l as [|c l IH]; [reflexivity|]. cbn [flat_map]. rewrite flat_map_app, IH. f_equal.
  unfold flat1. destruct cls, c; cbn; now rewrite ?app_nil_r.
Qed.

Lemma build_lvs cls l g : build cls l = Ok g -> Permutation (lvs l) (nleaves g).
Proof.
  intros H. destruct (build_inv _ _ _ H) as [l' [-> P]].
  rewrite nleaves_nop, <- (lvs_flat1 cls l). now apply lvs_perm.
Qed.

Lemma Forall2_sem s cls l l' :
  Forall2 (fun x y => neval s y = neval s x) l l' -> neval s (nop cls l') = neval s (nop cls l).
Proof.
  induction 1 as [|x y l l' E _ IH]; [reflexivity|].
  destruct cls; cbn [nop neval forallb existsb] in *; now rewrite E, IH.
Qed.

Lemma Forall2_lvs l l' :
  Forall2 (fun x y => incl (nleaves y) (nleaves x)) l l' -> incl (lvs l') (lvs l).
Proof.
  unfold lvs. induction 1 as [|x y l l' Hxy _ IH]; cbn; [apply incl_refl|].
  apply incl_app; [now apply incl_appl|now apply incl_appr].
Qed.

Lemma elim_sem s f : neval s (elim f) = eval s f.
Proof.
  induction f as [z|g IH|l IH|l IH|p q IHp IHq|p q IHp IHq] using fm_ind'; cbn [elim neval eval].
  - reflexivity.
  - now rewrite IH.
  - rewrite forallb_map. apply forallb_ext_in. now apply Forall_forall.
  - rewrite existsb_map. apply existsb_ext_in. now apply Forall_forall.
  - cbn [existsb neval]. rewrite IHp, IHq. destruct (eval s p), (eval s q); reflexivity.
  - cbn [forallb existsb neval]. rewrite IHp, IHq. destruct (eval s p), (eval s q); reflexivity.
Qed.

Lemma elim_leaves f : incl (nleaves (elim f)) (leaves f).
Proof.
  induction f as [z|g IH|l IH|l IH|p q IHp IHq|p q IHp IHq] using fm_ind'; cbn [elim nleaves leaves].
  - apply incl_refl.
  - exact IH.
  - induction IH as [|x l Hx _ IH]; cbn; [apply incl_refl|]. apply incl_app; [now apply incl_appl|now apply incl_appr].
  - induction IH as [|x l Hx _ IH]; cbn; [apply incl_refl|]. apply incl_app; [now apply incl_appl|now apply incl_appr].
  - cbn [flat_map nleaves]. rewrite app_nil_r. apply incl_app; [now apply incl_appl|now apply incl_appr].
  - cbn [flat_map nleaves]. rewrite !app_nil_r.
    repeat apply incl_app; try (now apply incl_appl); now apply incl_appr.
Qed.

(** Case analysis of a successful run: [P] relates input and output whenever it
    is closed under the seven ways [__apply_demorgan] produces a result. *)
Lemma demorgan_inv (P : nf -> nf -> Prop) :
  (forall z, P (NVar z) (NVar z)) -> (forall z, P (NNot (NVar z)) (NNot (NVar z))) ->
  (forall c g, P c g -> P (NNot (NNot c)) g) ->
  (forall cls l t g, build cls (map NNot l) = Ok t -> P t g -> P (NNot (nop (negb cls) l)) g) ->
  (forall cls l l' g, Forall2 P l l' -> build cls l' = Ok g -> P (nop cls l) g) ->
  forall n f g, demorgan n f = Ok g -> P f g.
Proof.
  intros HV HNV HNN HN HL. induction n as [|n IH]; intros f g H; cbn [demorgan] in H; [discriminate|].
  destruct f as [z|c|l|l].
  - inversion H. apply HV.
  - destruct c as [z|c'|l|l].
    + inversion H. apply HNV.
    + apply HNN. now apply IH.
    + apply rbind_ok in H. destruct H as [t [H1 H2]]. apply (HN false l t g H1). now apply IH.
    + apply rbind_ok in H. destruct H as [t [H1 H2]]. apply (HN true l t g H1). now apply IH.
  - apply rbind_ok in H. destruct H as [l' [H1 H2]]. apply mapM_ok in H1.
    apply (HL true l l' g); [|exact H2]. now apply (Forall2_imp _ _ _ _ IH).
  - apply rbind_ok in H. destruct H as [l' [H1 H2]]. apply mapM_ok in H1.
    apply (HL false l l' g); [|exact H2]. now apply (Forall2_imp _ _ _ _ IH).
Qed.

Lemma lvs_map_not l : lvs (map NNot l) = lvs l.
Proof. unfold lvs. induction l; cbn; [reflexivity|]. now rewrite IHl. Qed.

Lemma demorgan_sem s n f g : demorgan n f = Ok g -> neval s g = neval s f.
Proof.
  revert n f g. apply demorgan_inv.
  - reflexivity.
  - reflexivity.
  - intros c g H. cbn [neval]. now rewrite negb_involutive.
  - intros cls l t g H ->. rewrite (build_sem s _ _ _ H).
    destruct cls; cbn [nop negb neval]; [rewrite forallb_map, negb_existsb|rewrite existsb_map, negb_forallb];
      reflexivity.
  - intros cls l l' g F H. rewrite (build_sem s _ _ _ H). now apply Forall2_sem.
Qed.

Lemma demorgan_leaves n f g : demorgan n f = Ok g -> incl (nleaves g) (nleaves f).
Proof.
  revert n f g. apply demorgan_inv.
  - intros z. apply incl_refl.
  - intros z. apply incl_refl.
  - intros c g H. exact H.
  - intros cls l t g H IH. cbn [nleaves]. rewrite nleaves_nop, <- lvs_map_not.
    eapply incl_tran; [exact IH|]. apply perm_incl, (build_lvs _ _ _ H).
  - intros cls l l' g F H. rewrite nleaves_nop.
    eapply incl_tran; [apply perm_incl, (build_lvs _ _ _ H)|]. now apply Forall2_lvs.
Qed.

(** The shape [__apply_demorgan] produces: negations on leaves, no [Or] directly
    inside an [Or]. *)
Fixpoint dm_shape (f : nf) : bool :=
  match f with
  | NVar _ => true
  | NNot (NVar _) => true
  | NNot _ => false
  | NAnd l => forallb dm_shape l
  | NOr l => forallb (fun c => dm_shape c && negb (is_or c)) l
  end.

Lemma Forall2_forallb {A} (p : nf -> bool) (l : list A) l' :
  Forall2 (fun _ y => p y = true) l l' -> forallb p l' = true.
Proof. induction 1 as [|x y l l' Hxy _ IH]; cbn; [reflexivity|]. now rewrite Hxy. Qed.

Lemma build_dm_shape cls l g : forallb dm_shape l = true -> build cls l = Ok g -> dm_shape g = true.
Proof.
  intros Hl H. rewrite forallb_forall in Hl. destruct cls.
  - destruct (build_forallb dm_shape true l g) as [l' [-> F]]; [|exact H|exact F].
    intros c Hc. specialize (Hl c Hc). unfold flat1.
    destruct c; cbn [is_and input_list forallb]; try (rewrite Hl; reflexivity). exact Hl.
  - destruct (build_forallb (fun c => dm_shape c && negb (is_or c)) false l g) as [l' [-> F]]; [|exact H|exact F].
    intros c Hc. specialize (Hl c Hc). unfold flat1.
    destruct c; cbn [is_or input_list forallb]; try (rewrite Hl; reflexivity). exact Hl.
Qed.

Lemma demorgan_dm_shape n f g : demorgan n f = Ok g -> dm_shape g = true.
Proof.
  revert n f g. apply (demorgan_inv (fun _ g => dm_shape g = true)); try reflexivity.
  - intros c g H. exact H.
  - intros cls l t g _ H. exact H.
  - intros cls l l' g F. apply build_dm_shape. now apply (Forall2_forallb dm_shape l).
Qed.

Lemma dm_shape_or_members l : dm_shape (NOr l) = true -> forallb dm_shape l = true /\ forall x, In x l -> is_or x = false.
Proof.
  cbn [dm_shape]. rewrite !forallb_forall. intros H. split; intros x Hx; specialize (H x Hx);
    apply andb_true_iff in H; destruct H as [A B]; [assumption|now destruct (is_or x)].
Qed.

Lemma dist_naive_go l :
  (fix go (l : list nf) : res (list nf) :=
     match l with
     | [] => Ok []
     | x :: t => y <- dist_naive x ;; ys <- go t ;; Ok (y :: ys)
     end) l = mapM dist_naive l.
Proof. induction l as [|a l IH]; [reflexivity|]. cbn [mapM]. now rewrite IH. Qed.

Lemma dist_naive_and l : dist_naive (NAnd l) = (l' <- mapM dist_naive l ;; build_and l').
Proof. cbn [dist_naive]. now rewrite dist_naive_go. Qed.

Lemma dist_naive_or l :
  dist_naive (NOr l) =
  (cl <- mapM dist_naive l ;; ors <- mapM build_or (cprod (map get_list_for_crossing cl)) ;; build_and ors).
Proof. cbn [dist_naive]. now rewrite dist_naive_go. Qed.

Lemma dist_not_or f g : dist_naive f = Ok g -> is_or g = false.
Proof.
  destruct f as [z|c|l|l].
  - intros H. inversion H. reflexivity.
  - intros H. inversion H. reflexivity.
  - rewrite dist_naive_and. intros H. apply rbind_ok in H. destruct H as [l' [_ H]].
    apply build_and_shape in H. destruct H as [m ->]. reflexivity.
  - rewrite dist_naive_or. intros H. apply rbind_ok in H. destruct H as [l' [_ H]].
    apply rbind_ok in H. destruct H as [ors [_ H]].
    apply build_and_shape in H. destruct H as [m ->]. reflexivity.
Qed.

Lemma dist_naive_inv (P : nf -> nf -> Prop) :
  (forall z, P (NVar z) (NVar z)) -> (forall c, P (NNot c) (NNot c)) ->
  (forall l l' g, Forall2 P l l' -> build_and l' = Ok g -> P (NAnd l) g) ->
  (forall l cl ors g, Forall2 P l cl -> (forall y, In y cl -> is_or y = false) ->
     Forall2 (fun x y => build_or x = Ok y) (cprod (map get_list_for_crossing cl)) ors ->
     build_and ors = Ok g -> P (NOr l) g) ->
  forall f g, dist_naive f = Ok g -> P f g.
Proof.
  intros HV HN HA HO. induction f as [z|c IH|l IH|l IH] using nf_ind'; intros g H.
  - inversion H. apply HV.
  - inversion H. apply HN.
  - rewrite dist_naive_and in H. apply rbind_ok in H. destruct H as [l' [H1 H2]]. apply mapM_ok in H1.
    apply (HA l l' g); [|exact H2]. apply (Forall2_imp_Forall _ _ _ _ _ IH (fun x y Hx => Hx y) H1).
  - rewrite dist_naive_or in H. apply rbind_ok in H. destruct H as [cl [H1 H]].
    apply rbind_ok in H. destruct H as [ors [H2 H3]]. apply mapM_ok in H1. apply mapM_ok in H2.
    apply (HO l cl ors g); [| |exact H2|exact H3].
    + apply (Forall2_imp_Forall _ _ _ _ _ IH (fun x y Hx => Hx y) H1).
    + intros y Hy. destruct (Forall2_in_r _ _ _ _ H1 Hy) as [x [_ Hx]]. now apply (dist_not_or x).
Qed.

Lemma cprod_sem {A} (p : A -> bool) (ls : list (list A)) :
  forallb (existsb p) (cprod ls) = existsb (forallb p) ls.
Proof.
  induction ls as [|l ls IH]; [reflexivity|]. cbn [cprod existsb].
  rewrite forallb_flat_map.
  rewrite (forallb_ext _ (fun x => p x || existsb (forallb p) ls)).
  - apply forallb_orb_r.
  - intros x. rewrite forallb_map. cbn [existsb]. rewrite forallb_orb_l. now rewrite IH.
Qed.

Lemma glfc_sem s c : is_or c = false -> forallb (neval s) (get_list_for_crossing c) = neval s c.
Proof. destruct c; cbn; intros H; try discriminate; try now rewrite andb_true_r. reflexivity. Qed.

Lemma Forall2_build_or_sem s L ors :
  Forall2 (fun x y => build_or x = Ok y) L ors ->
  forallb (neval s) ors = forallb (existsb (neval s)) L.
Proof.
  induction 1 as [|x y L ors Hxy _ IH]; cbn; [reflexivity|]. now rewrite (build_or_sem s _ _ Hxy), IH.
Qed.

Lemma dist_sem s f g : dist_naive f = Ok g -> neval s g = neval s f.
Proof.
  revert f g. apply dist_naive_inv; try reflexivity.
  - intros l l' g F H. rewrite (build_and_sem s _ _ H). now apply (Forall2_sem s true).
  - intros l cl ors g F NO F2 H.
    rewrite (build_and_sem s _ _ H), (Forall2_build_or_sem s _ _ F2), cprod_sem, existsb_map.
    rewrite (existsb_ext_in _ (neval s)) by (intros y Hy; now apply glfc_sem, NO).
    now apply (Forall2_sem s false).
Qed.

Lemma cprod_in {A} (ls : list (list A)) t x :
  In t (cprod ls) -> In x t -> exists l, In l ls /\ In x l.
Proof.
  revert t. induction ls as [|l ls IH]; intros t Ht Hx; cbn [cprod] in Ht.
  - destruct Ht as [<-|[]]. destruct Hx.
  - apply in_flat_map in Ht. destruct Ht as [y [Hy Ht]]. apply in_map_iff in Ht. destruct Ht as [t' [<- Ht']].
    destruct Hx as [<-|Hx].
    + exists l. split; [now left|assumption].
    + destruct (IH t' Ht' Hx) as [l' [X Y]]. exists l'. split; [now right|assumption].
Qed.

Lemma glfc_lvs c : lvs (get_list_for_crossing c) = nleaves c.
Proof. unfold lvs. destruct c; cbn; now rewrite ?app_nil_r. Qed.

Lemma lvs_in l z : In z (lvs l) <-> exists c, In c l /\ In z (nleaves c).
Proof. unfold lvs. apply in_flat_map. Qed.

Lemma dist_leaves f g : dist_naive f = Ok g -> incl (nleaves g) (nleaves f).
Proof.
  revert f g. apply dist_naive_inv.
  - intros z. apply incl_refl.
  - intros c. apply incl_refl.
  - intros l l' g F H. eapply incl_tran; [apply perm_incl, (build_lvs true _ _ H)|]. now apply Forall2_lvs.
  - intros l cl ors g F _ F2 H. eapply incl_tran; [apply perm_incl, (build_lvs true _ _ H)|].
    eapply incl_tran; [|apply (Forall2_lvs _ _ F)].
    intros z Hz. apply lvs_in in Hz. destruct Hz as [o [Ho Hz]].
    destruct (Forall2_in_r _ _ _ _ F2 Ho) as [t [Ht Hb]].
    apply (Permutation_in _ (Permutation_sym (build_lvs false _ _ Hb))) in Hz.
    apply lvs_in in Hz. destruct Hz as [c [Hc Hz]].
    destruct (cprod_in _ _ _ Ht Hc) as [lst [Hl Hcl]]. apply in_map_iff in Hl. destruct Hl as [d [<- Hd]].
    apply lvs_in. exists d. split; [assumption|]. rewrite <- glfc_lvs. apply lvs_in. eauto.
Qed.

Definition is_lit (f : nf) : bool :=
  match f with NVar _ => true | NNot (NVar _) => true | _ => false end.
Definition is_clause (f : nf) : bool :=
  is_lit f || match f with NOr l => forallb is_lit l | _ => false end.
Definition is_cnf (f : nf) : bool :=
  match f with NAnd l => forallb is_clause l | _ => false end.
Definition lit_or_cnf (f : nf) : bool := is_lit f || is_cnf f.

Lemma is_clause_cases c : is_clause c = true ->
  (is_lit c = true /\ is_and c = false /\ is_or c = false) \/ (exists m, c = NOr m /\ forallb is_lit m = true).
Proof.
  unfold is_clause. destruct c as [z|[z|?|?|?]|l|l]; cbn; intros H; try discriminate; eauto.
Qed.

Lemma build_and_cnf l g :
  (forall c, In c l -> lit_or_cnf c = true) -> build_and l = Ok g -> is_cnf g = true.
Proof.
  intros Hl H. destruct (build_forallb is_clause true l g) as [l' [-> F]]; [|exact H|exact F].
  intros c Hc. specialize (Hl c Hc). unfold lit_or_cnf in Hl. unfold flat1.
  destruct c as [z|[z|?|?|?]|m|m]; cbn in *; try discriminate; try reflexivity. exact Hl.
Qed.

Lemma build_or_clause l g :
  (forall c, In c l -> is_clause c = true) -> build_or l = Ok g -> is_clause g = true /\ is_and g = false.
Proof.
  intros Hl H. destruct (build_forallb is_lit false l g) as [l' [-> F]]; [|exact H|split; [exact F|reflexivity]].
  intros c Hc. unfold flat1. destruct (is_clause_cases c (Hl c Hc)) as [[A [B C]]|[m [-> Hm]]].
  - rewrite C. cbn. now rewrite A.
  - exact Hm.
Qed.

Lemma build_and_clauses l g :
  (forall c, In c l -> is_clause c = true /\ is_and c = false) -> build_and l = Ok g -> is_cnf g = true.
Proof.
  intros Hl H. destruct (build_forallb is_clause true l g) as [l' [-> F]]; [|exact H|exact F].
  intros c Hc. destruct (Hl c Hc) as [A B]. unfold flat1. rewrite B. cbn. now rewrite A.
Qed.

Lemma glfc_clauses d x :
  lit_or_cnf d = true -> In x (get_list_for_crossing d) -> is_clause x = true.
Proof.
  unfold lit_or_cnf. destruct d as [z|[z|?|?|?]|m|m]; cbn; intros H Hx; try discriminate.
  - destruct Hx as [<-|[]]. reflexivity.
  - destruct Hx as [<-|[]]. reflexivity.
  - rewrite forallb_forall in H. now apply H.
Qed.

Lemma dist_shape f g : dist_naive f = Ok g -> dm_shape f = true -> lit_or_cnf g = true.
Proof.
  revert f g. apply (dist_naive_inv (fun f g => dm_shape f = true -> lit_or_cnf g = true)).
  - reflexivity.
  - intros c N. destruct c; cbn in N; try discriminate. reflexivity.
  - intros l l' g F H N. cbn [dm_shape] in N. rewrite forallb_forall in N.
    unfold lit_or_cnf. rewrite (build_and_cnf l' g); [now rewrite orb_true_r| |assumption].
    intros c Hc. destruct (Forall2_in_r _ _ _ _ F Hc) as [x [Hx Hxc]]. now apply Hxc, N.
  - intros l cl ors g F _ F2 H N. destruct (dm_shape_or_members l N) as [N' _]. rewrite forallb_forall in N'.
    unfold lit_or_cnf. rewrite (build_and_clauses ors g); [now rewrite orb_true_r| |assumption].
    intros o Ho. destruct (Forall2_in_r _ _ _ _ F2 Ho) as [t [Ht Hb]].
    apply (build_or_clause t o); [|assumption].
    intros c Hc. destruct (cprod_in _ _ _ Ht Hc) as [lst [Hl Hcl]].
    apply in_map_iff in Hl. destruct Hl as [d [<- Hd]]. apply (glfc_clauses d); [|assumption].
    destruct (Forall2_in_r _ _ _ _ F Hd) as [x [Hx Hxd]]. now apply Hxd, N'.
Qed.

Lemma wrap_and_sem s g : neval s (wrap_and g) = neval s g.
Proof. destruct g; cbn; try now rewrite andb_true_r. reflexivity. Qed.

Lemma wrap_and_leaves g : nleaves (wrap_and g) = nleaves g.
Proof. destruct g; cbn; rewrite ?app_nil_r; reflexivity. Qed.

Lemma wrap_and_cnf g : lit_or_cnf g = true -> is_cnf (wrap_and g) = true.
Proof.
  unfold lit_or_cnf. destruct g as [z|[z|?|?|?]|m|m]; cbn; intros H; try discriminate; try reflexivity. exact H.
Qed.

Theorem naive_correct f nv g nv' :
  to_cnf_naive f nv = Ok (g, nv') ->
  nv' = nv /\
  (forall s, neval s g = eval s f) /\
  incl (nleaves g) (leaves f) /\
  is_cnf g = true.
Proof.
  unfold to_cnf_naive. intros H. apply rbind_ok in H. destruct H as [g1 [H1 H]].
  apply rbind_ok in H. destruct H as [g2 [H2 H3]]. inversion H3. subst g nv'. clear H3.
  split; [reflexivity|]. split; [|split].
  - intros s. rewrite wrap_and_sem, (dist_sem s _ _ H2), (demorgan_sem s _ _ _ H1). apply elim_sem.
  - rewrite wrap_and_leaves. eapply incl_tran; [apply (dist_leaves _ _ H2)|].
    eapply incl_tran; [apply (demorgan_leaves _ _ _ H1)|]. apply elim_leaves.
  - apply wrap_and_cnf. apply (dist_shape g1); [assumption|]. apply (demorgan_dm_shape _ _ _ H1).
Qed.

(** * Every stage of [to_cnf_naive] returns

    Every sort key of [__order_clauses] is an int (the model follows the code in this), the
    comparisons of the sort cannot raise, the binary search stays inside the
    sorted prefix, and [demorgan_fuel] covers the recursion of
    [__apply_demorgan]: [to_cnf_naive] returns on every formula (Properties/C11.v composes the stages). *)

Definition allvar (l : list kv) : Prop := forall p, In p l -> is_var (fst p) = true.

Lemma key_of_var c : is_var (key_of c) = true.
Proof. destruct c as [z|[z|?|?|?]|l|l]; reflexivity. Qed.

Lemma py_lt_var a b : is_var a = true -> is_var b = true -> exists r, py_lt a b = Ok r.
Proof. destruct a, b; cbn; try discriminate; eauto. Qed.

Lemma allvar_cons p l : allvar (p :: l) -> is_var (fst p) = true /\ allvar l.
Proof. intros H. split; [apply H; now left|intros q Hq; apply H; now right]. Qed.

Lemma run_total l : forall prev, is_var prev = true -> allvar l ->
  (exists n, run_desc prev l = Ok n /\ (n <= length l)%nat) /\
  (exists n, run_asc prev l = Ok n /\ (n <= length l)%nat).
Proof.
  induction l as [|[k v] l IH]; intros prev Hp Hl; cbn [run_desc run_asc].
  - split; exists O; (split; [reflexivity|apply Nat.le_refl]).
  - apply allvar_cons in Hl. destruct Hl as [Hk Hl]. cbn [fst] in Hk.
    destruct (py_lt_var k prev Hk Hp) as [b ->]. cbn [rbind].
    destruct (IH k Hk Hl) as [[n1 [-> H1]] [n2 [-> H2]]].
    destruct b; cbn [rbind]; split; eexists; (split; [reflexivity|cbn [length]; lia]).
Qed.

Lemma count_run_total a b l : allvar (a :: b :: l) ->
  exists n d, count_run (a :: b :: l) = Ok (n, d) /\ (2 <= n <= length (a :: b :: l))%nat.
Proof.
  intros H. destruct a as [k0 v0], b as [k1 v1]. cbn [count_run].
  apply allvar_cons in H. destruct H as [H0 H]. apply allvar_cons in H. destruct H as [H1 H]. cbn [fst] in *.
  destruct (py_lt_var k1 k0 H1 H0) as [c ->]. cbn [rbind]. destruct c.
  - destruct (proj1 (run_total l k1 H1 H)) as [n [-> Hn]]. cbn [rbind]. exists (S (S n)), true.
    split; [reflexivity|cbn [length]; lia].
  - destruct (proj2 (run_total l k1 H1 H)) as [n [-> Hn]]. cbn [rbind]. exists (S (S n)), false.
    split; [reflexivity|cbn [length]; lia].
Qed.

Lemma bsearch_total fuel : forall pre pivot l r,
  is_var pivot = true -> allvar pre -> (l < r)%nat -> (r <= length pre)%nat -> (r - l <= fuel)%nat ->
  exists pos, bsearch fuel pre pivot l r = Ok pos /\ (pos <= length pre)%nat.
Proof.
  induction fuel as [|fuel IH]; intros pre pivot l r Hp Hpre Hlr Hr Hf; [lia|].
  cbn [bsearch].
  assert (Hd : (Nat.div2 (r - l) < r - l)%nat) by (apply Nat.lt_div2; lia).
  remember (l + Nat.div2 (r - l))%nat as p eqn:Ep.
  assert (Hpb : (l <= p < r)%nat) by lia.
  assert (Hpd : (p - l < r - l)%nat) by lia. clear Ep Hd.
  destruct (nth_error pre p) as [[kp vp]|] eqn:E.
  2: { apply nth_error_None in E. lia. }
  assert (Hk : is_var kp = true) by (apply (Hpre (kp, vp)); eapply nth_error_In; eassumption).
  destruct (py_lt_var pivot kp Hp Hk) as [b ->]. cbn [rbind]. destruct b.
  - destruct (l <? p)%nat eqn:C.
    + apply Nat.ltb_lt in C. apply IH; try assumption; lia.
    + exists l. split; [reflexivity|lia].
  - destruct (S p <? r)%nat eqn:C.
    + apply Nat.ltb_lt in C. apply IH; try assumption; lia.
    + exists (S p). split; [reflexivity|lia].
Qed.

Lemma insert_at_allvar n x pre : is_var (fst x) = true -> allvar pre -> allvar (insert_at n x pre).
Proof.
  intros Hx Hpre p Hp. apply (Permutation_in _ (Permutation_sym (insert_at_perm n x pre))) in Hp.
  destruct Hp as [<-|Hp]; [assumption|now apply Hpre].
Qed.

Lemma binsort_total rest : forall pre, pre <> [] -> allvar pre -> allvar rest -> exists r, binsort pre rest = Ok r.
Proof.
  induction rest as [|x rest IH]; intros pre Hne Hpre Hrest; cbn [binsort]; [eauto|].
  apply allvar_cons in Hrest. destruct Hrest as [Hx Hrest].
  assert (Hlen : (0 < length pre)%nat) by (destruct pre; [congruence|cbn [length]; lia]).
  destruct (bsearch_total (S (length pre)) pre (fst x) O (length pre) Hx Hpre Hlen (Nat.le_refl _) ltac:(lia))
    as [pos [-> _]]. cbn [rbind].
  apply IH; [|now apply insert_at_allvar|assumption].
  intros E. pose proof (Permutation_length (insert_at_perm pos x pre)) as L. rewrite E in L. discriminate.
Qed.

Lemma pysort_kv_total l : allvar l -> exists r, pysort_kv l = Ok r.
Proof.
  intros H. destruct l as [|a [|b l]]; [cbn; eauto|cbn; eauto|].
  unfold pysort_kv. destruct (count_run_total a b l H) as [n [d [-> Hn]]]. cbn [rbind].
  set (L := a :: b :: l) in *.
  assert (Hf : allvar (firstn n L)).
  { intros p Hp. apply H. rewrite <- (firstn_skipn n L). apply in_or_app. now left. }
  assert (Hs : allvar (skipn n L)).
  { intros p Hp. apply H. rewrite <- (firstn_skipn n L). apply in_or_app. now right. }
  assert (Hl : length (firstn n L) = n) by (apply firstn_length_le; lia).
  apply binsort_total; [| |assumption].
  - intros E. assert (X : length (if d then rev (firstn n L) else firstn n L) = n)
      by (destruct d; [rewrite rev_length|]; exact Hl).
    rewrite E in X. cbn [length] in X. lia.
  - destruct d; [|assumption]. intros p Hp. apply Hf. now apply in_rev.
Qed.

Theorem pysort_total l : exists r, pysort l = Ok r.
Proof.
  unfold pysort.
  assert (A : allvar (map (fun c => (key_of c, c)) l)).
  { intros p Hp. apply in_map_iff in Hp. destruct Hp as [c [<- _]]. apply key_of_var. }
  assert (B : forallb (fun p => is_var (fst p)) (map (fun c => (key_of c, c)) l) = true)
    by (apply forallb_forall; exact A).
  rewrite B, orb_true_r. destruct (pysort_kv_total _ A) as [r ->]. cbn [rbind]. eauto.
Qed.

Lemma flatten_total l cls : exists r, flatten_clause_list l cls = Ok r.
Proof. unfold flatten_clause_list. apply pysort_total. Qed.

Lemma build_total cls l : exists g, build cls l = Ok g.
Proof.
  destruct (flatten_total l cls) as [r E].
  destruct cls; [unfold build, build_and|unfold build, build_or]; rewrite E; cbn [rbind]; eauto.
Qed.

Definition max_of (g : nf -> nat) (l : list nf) : nat := fold_right (fun x a => Nat.max (g x) a) O l.

Lemma max_of_le g l n : (max_of g l <= n)%nat <-> forall x, In x l -> (g x <= n)%nat.
Proof.
  unfold max_of. induction l as [|a l IH]; cbn [fold_right]; split.
  - intros _ x [].
  - intros _. lia.
  - intros H x [<-|Hx]; [lia|]. apply IH; [lia|assumption].
  - intros H. apply Nat.max_lub; [apply H; now left|]. apply IH. intros x Hx. apply H. now right.
Qed.

(** recursion depth of [__apply_demorgan] ([neg]: below a negation that is
    being pushed down) *)
Fixpoint dneed (neg : bool) (f : nf) : nat :=
  match f with
  | NVar _ => 1
  | NNot c => if neg then S (dneed false c) else dneed true c
  | NAnd l | NOr l => ((if neg then 2 else 1) + fold_right (fun x a => Nat.max (dneed neg x) a) O l)%nat
  end.

Lemma dneed_pos f : forall neg, (1 <= dneed neg f)%nat.
Proof.
  induction f as [z|c IH|l _|l _] using nf_ind'; intros neg; cbn [dneed]; try (destruct neg; lia).
  destruct neg; [lia|apply IH].
Qed.

Lemma dneed_nop neg cls l : dneed neg (nop cls l) = ((if neg then 2 else 1) + max_of (dneed neg) l)%nat.
Proof. now destruct cls. Qed.

Definition nsum (l : list nf) : nat := fold_right (fun x a => (nsize x + a)%nat) O l.

Lemma nsum_in x l : In x l -> (nsize x <= nsum l)%nat.
Proof. unfold nsum. induction l as [|a l IH]; intros []; cbn [fold_right]; [subst; lia|specialize (IH H); lia]. Qed.

(** a bound that is monotone in the size passes from the members to their maximum *)
Lemma max_of_bound (g : nf -> nat) (F : nat -> nat) l :
  (forall a b, (a <= b)%nat -> (F a <= F b)%nat) ->
  Forall (fun x => (g x <= F (nsize x))%nat) l -> (max_of g l <= F (nsum l))%nat.
Proof.
  intros HF H. apply max_of_le. intros x Hx. rewrite Forall_forall in H. specialize (H x Hx).
  pose proof (HF _ _ (nsum_in x l Hx)). lia.
Qed.

Lemma dneed_bound f : forall neg, (dneed neg f <= 2 * nsize f)%nat.
Proof.
  assert (N : forall cls l, Forall (fun x => forall neg, (dneed neg x <= 2 * nsize x)%nat) l ->
                forall neg, (dneed neg (nop cls l) <= 2 * S (nsum l))%nat).
  { intros cls l IH neg. rewrite dneed_nop.
    assert (M : (max_of (dneed neg) l <= 2 * nsum l)%nat).
    { apply (max_of_bound _ (Nat.mul 2)); [intros; lia|]. eapply Forall_impl; [|exact IH]. intros x H. apply H. }
    destruct neg; lia. }
  induction f as [z|c IH|l IH|l IH] using nf_ind'; intros neg.
  - cbn. lia.
  - cbn [dneed nsize]. destruct neg; [specialize (IH false)|specialize (IH true)]; lia.
  - exact (N true l IH neg).
  - exact (N false l IH neg).
Qed.

Lemma flat1_not b c : flat1 b (NNot c) = [NNot c].
Proof. destruct b; reflexivity. Qed.

Lemma flat_map_flat1_not b l : flat_map (flat1 b) (map NNot l) = map NNot l.
Proof. induction l as [|c l IH]; [reflexivity|]. cbn [map flat_map]. now rewrite flat1_not, IH. Qed.

(** pushing a negation into [l] and rebuilding costs one level *)
Lemma dneed_build_not cls l t :
  build cls (map NNot l) = Ok t -> (S (dneed false t) <= dneed false (NNot (nop (negb cls) l)))%nat.
Proof.
  intros Ht. destruct (build_inv _ _ _ Ht) as [l' [-> H1]]. rewrite flat_map_flat1_not in H1.
  cut (max_of (dneed false) l' <= max_of (dneed true) l)%nat; [destruct cls; cbn [negb nop dneed]; unfold max_of; lia|].
  apply max_of_le. intros x Hx. apply (Permutation_in _ (Permutation_sym H1)) in Hx.
  apply in_map_iff in Hx. destruct Hx as [c [<- Hc]]. cbn [dneed].
  apply (proj1 (max_of_le (dneed true) l _) (Nat.le_refl _) c Hc).
Qed.

Lemma demorgan_nop n cls l :
  demorgan (S n) (nop cls l) = (l' <- mapM (demorgan n) l ;; build cls l').
Proof. now destruct cls. Qed.

Lemma demorgan_not_nop n cls l :
  demorgan (S n) (NNot (nop (negb cls) l)) = (t <- build cls (map NNot l) ;; demorgan n t).
Proof. now destruct cls. Qed.

Lemma demorgan_total n : forall f, (dneed false f <= n)%nat -> exists g, demorgan n f = Ok g.
Proof.
  induction n as [|n IH]; intros f Hn.
  - pose proof (dneed_pos f false). lia.
  - assert (N : forall cls l, (dneed false (nop cls l) <= S n)%nat -> exists g, demorgan (S n) (nop cls l) = Ok g).
    { intros cls l H. rewrite dneed_nop in H. rewrite demorgan_nop.
      destruct (mapM_total (demorgan n) l) as [l' ->].
      { intros x Hx. apply IH. pose proof (proj1 (max_of_le (dneed false) l _) (Nat.le_refl _) x Hx). lia. }
      cbn [rbind]. apply build_total. }
    assert (NN : forall cls l, (dneed false (NNot (nop (negb cls) l)) <= S n)%nat ->
                   exists g, demorgan (S n) (NNot (nop (negb cls) l)) = Ok g).
    { intros cls l H. rewrite demorgan_not_nop. destruct (build_total cls (map NNot l)) as [t Ht].
      rewrite Ht. cbn [rbind]. apply IH. pose proof (dneed_build_not cls l t Ht). lia. }
    destruct f as [z|[z|c'|l|l]|l|l].
    + cbn. eauto.
    + cbn. eauto.
    + apply IH. cbn [dneed] in Hn. lia.
    + exact (NN false l Hn).
    + exact (NN true l Hn).
    + exact (N true l Hn).
    + exact (N false l Hn).
Qed.

Lemma demorgan_fuel_total g : exists g1, demorgan (demorgan_fuel g) g = Ok g1.
Proof. apply demorgan_total. unfold demorgan_fuel. pose proof (dneed_bound g false). lia. Qed.

Lemma dist_naive_total f : exists g, dist_naive f = Ok g.
Proof.
  induction f as [z|c IH|l IH|l IH] using nf_ind'.
  - cbn. eauto.
  - cbn. eauto.
  - rewrite dist_naive_and. rewrite Forall_forall in IH. destruct (mapM_total dist_naive l IH) as [l' ->].
    cbn [rbind]. apply (build_total true).
  - rewrite dist_naive_or. rewrite Forall_forall in IH. destruct (mapM_total dist_naive l IH) as [cl ->].
    cbn [rbind]. destruct (mapM_total build_or (cprod (map get_list_for_crossing cl))) as [ors ->].
    { intros x _. apply (build_total false). }
    cbn [rbind]. apply (build_total true).
Qed.
