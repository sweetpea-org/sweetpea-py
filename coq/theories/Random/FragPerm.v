(** The order of the crossing instances within one round, uniformly for the
    unweighted sampler (injective prefixes, [compute_jth_permutation_prefix])
    and the weighted one (words with bounded repetitions, the memoised unranker
    for permutations with copies): count [p_N], unranker [p_U], rank [p_R], and
    the C13 bijections restated on the words [bounded_word cws n].
    Proof file. *)
From Coq Require Import ZArith List Bool Arith Lia.
From SP Require Import Comb.CombModel Comb.CombSpec Comb.BinomFacts Comb.PermProofs Comb.MultiProofs Comb.PrefixProofs
  Comb.StackProofs Comb.SessionProofs.
Import ListNotations.
Open Scope nat_scope.

Lemma forallb_eqb1_repeat l : forallb (Z.eqb 1) l = true -> l = repeat 1%Z (length l).
Proof.
  induction l as [|x t IH]; intros H; [reflexivity|]. cbn [forallb] in H. apply andb_prop in H. destruct H as [H1 H2].
  apply Z.eqb_eq in H1. subst x. cbn [length repeat]. f_equal. apply IH. exact H2.
Qed.

Lemma le_sum_eq (a b : list Z) : length a = length b ->
  (forall i, i < length a -> (nth i a 0 <= nth i b 0)%Z) ->
  (zsum a <= zsum b)%Z /\ (zsum a = zsum b -> forall i, i < length a -> nth i a 0%Z = nth i b 0%Z).
Proof.
  revert b. induction a as [|x a IH]; intros [|y b] Hl Hle; try discriminate Hl; cbn [zsum length].
  - split; [apply Z.le_refl | intros _ i Hi; inversion Hi].
  - destruct (IH b (eq_add_S _ _ Hl) (fun j Hj => Hle (S j) (proj1 (Nat.succ_lt_mono _ _) Hj))) as [Hs He].
    pose proof (Hle 0 (Nat.lt_0_succ _)) as Hxy. cbn [nth] in Hxy. split; [lia|].
    intros E [|i] Hi; cbn [nth]; [lia|]. apply He; [lia | apply Nat.succ_lt_mono, Hi].
Qed.

Section P.
Variable cws : list Z.
Hypothesis Hnn : Forall (fun c => (0 <= c)%Z) cws.
Local Notation q := (length cws).

Definition p_unw : bool := forallb (Z.eqb 1) cws.
Definition p_C : nat := Z.to_nat (zsum cws).
Definition p_N (n : nat) : Z :=
  if p_unw then ffact (Z.of_nat q) n else cnt cws (Z.of_nat n).
Definition p_U (n : nat) (j : Z) : option (list Z) :=
  if p_unw then match compute_jth_permutation_prefix (Z.of_nat q) (Z.of_nat n) j with Ok p => Some p | Err _ => None end
  else prefix_unrank cws (Z.of_nat n) j.
Definition p_R (p : list Z) : Z :=
  if p_unw then perm_rank (Z.of_nat q) p else prefix_rank cws p.

Lemma p_C_sum : Z.of_nat p_C = zsum cws.
Proof. unfold p_C. pose proof (zsum_nonneg cws Hnn). lia. Qed.

Lemma unw_ones : p_unw = true -> cws = repeat 1%Z q.
Proof. apply forallb_eqb1_repeat. Qed.

Lemma unw_C : p_unw = true -> p_C = q.
Proof. intros H. unfold p_C. rewrite (unw_ones H), zsum_repeat, repeat_length. lia. Qed.

Lemma unw_nth i : p_unw = true -> i < q -> nth i cws 0%Z = 1%Z.
Proof.
  intros H Hi. rewrite (unw_ones H). apply nth_repeat_lt, Hi.
Qed.

(** without weights the words are the injective ones *)
Lemma bw_ones n p : p_unw = true ->
  (bounded_word cws (Z.of_nat n) p <-> length p = n /\ injective_below (Z.of_nat q) p).
Proof.
  intros Hu. unfold bounded_word, injective_below, symbols_below. split.
  - intros (Hl & Hs & Hc). split; [lia|]. split; [|exact Hs].
    apply (NoDup_count_occ Z.eq_dec). intros x.
    destruct (in_dec Z.eq_dec x p) as [Hin | Hout].
    + rewrite Forall_forall in Hs. specialize (Hs x Hin).
      specialize (Hc (Z.to_nat x) ltac:(lia)). rewrite Z2Nat.id in Hc by lia.
      rewrite (unw_nth _ Hu) in Hc by lia. unfold count_sym in Hc. lia.
    + apply (count_occ_not_In Z.eq_dec) in Hout. lia.
  - intros (Hl & Hnd & Hs). split; [lia|]. split; [exact Hs|]. intros i Hi.
    rewrite (unw_nth _ Hu Hi). unfold count_sym.
    pose proof (proj1 (NoDup_count_occ Z.eq_dec p) Hnd (Z.of_nat i)). lia.
Qed.

Lemma p_U_spec n j p : n <= p_C -> (0 <= j < p_N n)%Z -> p_U n j = Some p ->
  bounded_word cws (Z.of_nat n) p /\ p_R p = j.
Proof.
  unfold p_N, p_U, p_R. intros Hle Hj HU. destruct p_unw eqn:Eu.
  - rewrite (unw_C Eu) in Hle. destruct (perm_prefix_bij q n Hle) as [H1 _].
    destruct (H1 j Hj) as (p' & Hp & Hl & Hi & Hr). rewrite Hp in HU. inversion HU; subst p'.
    split; [apply (bw_ones n p Eu); split; assumption | exact Hr].
  - apply (prefix_unrank_bij cws (Z.of_nat n) j p Hnn ltac:(lia) Hj HU).
Qed.

Lemma p_R_spec n p : n <= p_C -> bounded_word cws (Z.of_nat n) p ->
  (0 <= p_R p < p_N n)%Z /\ p_U n (p_R p) = Some p.
Proof.
  unfold p_N, p_U, p_R. intros Hle Hb. destruct p_unw eqn:Eu.
  - rewrite (unw_C Eu) in Hle. destruct (perm_prefix_bij q n Hle) as [_ H2].
    apply (bw_ones n p Eu) in Hb. destruct Hb as [Hl Hi]. destruct (H2 p Hl Hi) as [Hr Hc].
    split; [exact Hr|]. rewrite Hc. reflexivity.
  - destruct (prefix_copies_bij cws (Z.of_nat n) Hnn ltac:(lia)) as [_ H2].
    apply H2. exact Hb.
Qed.

Lemma p_U_total n j : p_unw = true -> n <= p_C -> (0 <= j < p_N n)%Z -> exists p, p_U n j = Some p.
Proof.
  unfold p_N, p_U. intros Eu Hle Hj. rewrite Eu in *. rewrite (unw_C Eu) in Hle.
  destruct (perm_prefix_bij q n Hle) as [H1 _]. destruct (H1 j Hj) as (p & Hp & _). exists p. rewrite Hp. reflexivity.
Qed.

Lemma p_U_inj n j1 j2 p : n <= p_C -> (0 <= j1 < p_N n)%Z -> (0 <= j2 < p_N n)%Z ->
  p_U n j1 = Some p -> p_U n j2 = Some p -> j1 = j2.
Proof.
  intros Hle H1 H2 U1 U2. destruct (p_U_spec n j1 p Hle H1 U1) as [_ E1].
  destruct (p_U_spec n j2 p Hle H2 U2) as [_ E2]. congruence.
Qed.

Lemma p_N_nonneg n : n <= p_C -> (0 <= p_N n)%Z.
Proof.
  unfold p_N. intros Hle. destruct p_unw eqn:Eu.
  - rewrite (unw_C Eu) in Hle. apply Z.lt_le_incl, ffact_pos, Hle.
  - apply cnt_nonneg.
Qed.

(** there is at least one full round *)
Lemma p_N_pos : (0 < p_N p_C)%Z.
Proof.
  destruct (multiperm_bij cws Hnn) as [H1 _].
  destruct (H1 0%Z ltac:(pose proof (multinomial_pos cws Hnn); lia)) as (w & _ & Harr & _).
  assert (Hb : bounded_word cws (Z.of_nat p_C) w).
  { destruct Harr as [Hs Hc]. split; [|split; [exact Hs|]].
    - rewrite p_C_sum. apply arr_length. split; assumption.
    - intros i Hi. rewrite (Hc i Hi). lia. }
  destruct (p_R_spec p_C w (le_n _) Hb) as [Hr _]. lia.
Qed.

(** a full round uses every symbol exactly its multiplicity *)
Lemma bw_full p : bounded_word cws (Z.of_nat p_C) p ->
  forall i, i < q -> count_sym p (Z.of_nat i) = nth i cws 0%Z.
Proof.
  intros (Hl & Hs & Hc) i Hi.
  destruct (le_sum_eq (usage q p) cws (usage_length q p)) as [_ H].
  - rewrite usage_length. intros j Hj. rewrite usage_nth by exact Hj. apply Hc. exact Hj.
  - rewrite usage_length in H. rewrite <- (usage_nth q p i Hi). apply H; [|exact Hi].
    rewrite (zsum_usage q p Hs). rewrite Hl. apply p_C_sum.
Qed.

Lemma bw_parts n p : bounded_word cws (Z.of_nat n) p ->
  length p = n /\ Forall (fun x => (0 <= x < Z.of_nat q)%Z) p /\
  forall i, i < q -> (count_sym p (Z.of_nat i) <= nth i cws 0)%Z.
Proof. intros (Hl & Hs & Hc). split; [lia|]. split; [exact Hs | exact Hc]. Qed.

End P.
