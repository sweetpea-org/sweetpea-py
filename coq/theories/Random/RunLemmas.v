(** Generic lemmas about the error monad and the dictionary operations of
    Random/Enum.v ([rmap], [zindex], [rset] / [rlookup], [experiment_of],
    [combine_round], [fill_in_derived]).  Proof file. *)
From Coq Require Import ZArith List Bool Arith Lia.
From SP Require Export Base.Lists.
From SP Require Import Design.Flat Design.Layout Comb.CombModel Random.Enum.
Import ListNotations.
Open Scope nat_scope.

Lemma rbind_ok {A B} (r : rres A) (f : A -> rres B) b :
  rbind r f = ROk b -> exists a, r = ROk a /\ f a = ROk b.
Proof. destruct r as [a|e]; cbn; intros H; [exists a; auto | discriminate]. Qed.

Lemma rmap_ok_map {A B} (f : A -> rres B) (g : A -> B) xs :
  (forall x, In x xs -> f x = ROk (g x)) -> rmap f xs = ROk (map g xs).
Proof.
  induction xs as [|x t IH]; intros H; cbn; [reflexivity|].
  rewrite (H x (or_introl eq_refl)). cbn. rewrite IH; [reflexivity|].
  intros y Hy. apply H. right. exact Hy.
Qed.

Lemma rmap_ok_inv {A B} (f : A -> rres B) xs ys :
  rmap f xs = ROk ys -> Forall2 (fun x y => f x = ROk y) xs ys.
Proof.
  revert ys. induction xs as [|x t IH]; intros ys H; cbn in H.
  - inversion H. constructor.
  - apply rbind_ok in H. destruct H as [y [Hy H]].
    apply rbind_ok in H. destruct H as [r [Hr H]]. inversion H; subst.
    constructor; [exact Hy | apply IH; exact Hr].
Qed.

Lemma rmap_length {A B} (f : A -> rres B) xs ys : rmap f xs = ROk ys -> length ys = length xs.
Proof. intros H. apply rmap_ok_inv in H. symmetry. eapply Forall2_length. exact H. Qed.

Lemma of_opt_ok {A} e (o : option A) a : of_opt e o = ROk a -> o = Some a.
Proof. destruct o; cbn; intros H; inversion H; reflexivity. Qed.

Lemma zindex_nat {A} (xs : list A) i : zindex xs (Z.of_nat i) = of_opt IndexError (nth_error xs i).
Proof.
  unfold zindex. destruct (Z.of_nat i <? 0)%Z eqn:E; [apply Z.ltb_lt in E; lia|].
  rewrite Nat2Z.id. reflexivity.
Qed.

Lemma zindex_ok {A} (xs : list A) z a :
  zindex xs z = ROk a -> (0 <= z)%Z /\ nth_error xs (Z.to_nat z) = Some a.
Proof.
  unfold zindex. destruct (z <? 0)%Z eqn:E; [discriminate|]. intros H.
  apply of_opt_ok in H. apply Z.ltb_ge in E. auto.
Qed.

Lemma zindex_some {A} (xs : list A) z a :
  (0 <= z)%Z -> nth_error xs (Z.to_nat z) = Some a -> zindex xs z = ROk a.
Proof.
  intros Hz H. unfold zindex. destruct (z <? 0)%Z eqn:E; [apply Z.ltb_lt in E; lia|].
  rewrite H. reflexivity.
Qed.

Lemma rmap_zindex {A} (l : list A) d (ps : list Z) : Forall (fun x => (0 <= x < Z.of_nat (length l))%Z) ps ->
  rmap (zindex l) ps = ROk (map (fun p => nth (Z.to_nat p) l d) ps).
Proof.
  intros H. apply rmap_ok_map. intros p Hp. rewrite Forall_forall in H. specialize (H p Hp).
  apply zindex_some; [lia|]. apply nth_error_nth'. lia.
Qed.

Definition row_of_run (r : run) (f : nat) : list (option nat) :=
  match rlookup r f with Some row => row | None => [] end.

Lemma rlookup_cons r g row f :
  rlookup ((g, row) :: r) f = if g =? f then Some row else rlookup r f.
Proof. unfold rlookup. cbn. destruct (g =? f); reflexivity. Qed.

Lemma rlookup_rset r f row g :
  rlookup (rset r f row) g = if g =? f then Some row else rlookup r g.
Proof.
  induction r as [|[h old] t IH]; cbn [rset].
  - rewrite rlookup_cons. rewrite Nat.eqb_sym. destruct (g =? f); reflexivity.
  - destruct (h =? f) eqn:E.
    + apply Nat.eqb_eq in E. subst h. rewrite !rlookup_cons.
      rewrite Nat.eqb_sym. destruct (g =? f) eqn:E2; reflexivity.
    + rewrite !rlookup_cons. destruct (h =? g) eqn:E2.
      * apply Nat.eqb_eq in E2. subst h. rewrite E. reflexivity.
      * exact IH.
Qed.

Lemma alookup_cons (di : asg) g l f :
  alookup ((g, l) :: di) f = if g =? f then Some l else alookup di f.
Proof. unfold alookup. cbn. destruct (g =? f); reflexivity. Qed.

Lemma alookup_app (a b : asg) f :
  alookup (a ++ b) f = match alookup a f with Some l => Some l | None => alookup b f end.
Proof.
  induction a as [|[g l] t IH]; cbn [app]; [reflexivity|].
  rewrite !alookup_cons. destruct (g =? f); [reflexivity | exact IH].
Qed.

Lemma alookup_none (di : asg) f : ~ In f (map fst di) -> alookup di f = None.
Proof.
  induction di as [|[g l] t IH]; intros H; [reflexivity|].
  rewrite alookup_cons. destruct (g =? f) eqn:E.
  - apply Nat.eqb_eq in E. subst. exfalso. apply H. left. reflexivity.
  - apply IH. intros Hin. apply H. right. exact Hin.
Qed.

Lemma nth_error_combine {A B} (l : list A) (m : list B) i x y :
  nth_error l i = Some x -> nth_error m i = Some y -> nth_error (combine l m) i = Some (x, y).
Proof.
  revert m i. induction l as [|a l IH]; intros [|b m] [|i] H1 H2; try discriminate; cbn in *.
  - injection H1 as <-. injection H2 as <-. reflexivity.
  - apply IH; assumption.
Qed.

Lemma map_pair_combine {A B C} (h : A * B -> C) (ps : list (A * B)) :
  map (fun p => (fst p, h p)) ps = combine (map fst ps) (map h ps).
Proof. induction ps as [|p ps IH]; [reflexivity|]. cbn [map combine]. rewrite IH. reflexivity. Qed.

Lemma alookup_combine (fs : list nat) (ls : list nat) i f :
  NoDup fs -> length ls = length fs -> nth_error fs i = Some f ->
  alookup (combine fs ls) f = nth_error ls i.
Proof.
  revert ls i. induction fs as [|g t IH]; intros ls i Hnd Hlen Hi; [destruct i; discriminate|].
  destruct ls as [|l ls']; [discriminate|]. cbn [combine]. rewrite alookup_cons.
  inversion Hnd; subst. destruct i; cbn in Hi.
  - inversion Hi; subst. rewrite Nat.eqb_refl. reflexivity.
  - destruct (g =? f) eqn:E.
    + apply Nat.eqb_eq in E. subst. exfalso. apply H1. eapply nth_error_In. exact Hi.
    + cbn. apply IH; [assumption | cbn in Hlen; lia | exact Hi].
Qed.

Lemma alookup_combine_none (fs ls : list nat) f : ~ In f fs -> alookup (combine fs ls) f = None.
Proof.
  intros H. apply alookup_none. intros Hin. apply H.
  clear H. revert ls Hin. induction fs as [|g t IH]; intros ls Hin; [exact Hin|].
  destruct ls; [destruct Hin|]. cbn in Hin. destruct Hin; [left; assumption | right; eapply IH; eassumption].
Qed.

Definition step_cell (r : run) (fl : nat * nat) : run :=
  rset r (fst fl) (row_of_run r (fst fl) ++ [Some (snd fl)]).
Definition step_tv (r : run) (tv : asg) : run := fold_left step_cell tv r.

Lemma experiment_of_fold tvs : experiment_of tvs = fold_left step_tv tvs [].
Proof. reflexivity. Qed.

Lemma step_cell_lookup r f l g :
  rlookup (step_cell r (f, l)) g = if g =? f then Some (row_of_run r f ++ [Some l]) else rlookup r g.
Proof. unfold step_cell. cbn [fst snd]. apply rlookup_rset. Qed.

Lemma step_tv_lookup tv : NoDup (map fst tv) -> forall r g,
  rlookup (step_tv r tv) g =
  match alookup tv g with
  | Some l => Some (row_of_run r g ++ [Some l])
  | None => rlookup r g
  end.
Proof.
  induction tv as [|[f l] t IH]; intros Hnd r g; [reflexivity|].
  cbn [map fst] in Hnd. inversion Hnd; subst.
  unfold step_tv. cbn [fold_left]. fold (step_tv (step_cell r (f, l)) t).
  rewrite IH by assumption. rewrite alookup_cons.
  destruct (f =? g) eqn:E.
  - apply Nat.eqb_eq in E. subst g. rewrite (alookup_none t f H1).
    rewrite step_cell_lookup, Nat.eqb_refl. reflexivity.
  - destruct (alookup t g) eqn:E2.
    + unfold row_of_run. rewrite step_cell_lookup. rewrite Nat.eqb_sym, E. reflexivity.
    + rewrite step_cell_lookup. rewrite Nat.eqb_sym, E. reflexivity.
Qed.

Definition cells_for (tvs : list asg) (g : nat) : list (option nat) :=
  flat_map (fun tv => match alookup tv g with Some l => [Some l] | None => [] end) tvs.

Lemma step_tv_row tv r g : NoDup (map fst tv) ->
  row_of_run (step_tv r tv) g =
  row_of_run r g ++ match alookup tv g with Some l => [Some l] | None => [] end.
Proof.
  intros H. unfold row_of_run. rewrite step_tv_lookup by exact H.
  destruct (alookup tv g); [reflexivity | rewrite app_nil_r; reflexivity].
Qed.

Lemma fold_step_tv_lookup tvs : (forall tv, In tv tvs -> NoDup (map fst tv)) -> forall r g,
  rlookup (fold_left step_tv tvs r) g =
  match rlookup r g, cells_for tvs g with
  | None, [] => None
  | _, new => Some (row_of_run r g ++ new)
  end.
Proof.
  induction tvs as [|tv t IH]; intros Hnd r g.
  - cbn. unfold row_of_run. destruct (rlookup r g); [rewrite app_nil_r|]; reflexivity.
  - cbn [fold_left]. rewrite IH by (intros x Hx; apply Hnd; right; exact Hx).
    assert (Hn : NoDup (map fst tv)) by (apply Hnd; left; reflexivity).
    rewrite step_tv_row by exact Hn. rewrite step_tv_lookup by exact Hn.
    cbn [cells_for flat_map]. fold (cells_for t g).
    destruct (alookup tv g) as [l|] eqn:E.
    + rewrite <- app_assoc. cbn [app]. destruct (rlookup r g); reflexivity.
    + rewrite app_nil_r. cbn [app]. destruct (rlookup r g); reflexivity.
Qed.

Lemma experiment_of_lookup tvs g : (forall tv, In tv tvs -> NoDup (map fst tv)) ->
  rlookup (experiment_of tvs) g = match cells_for tvs g with [] => None | new => Some new end.
Proof.
  intros H. rewrite experiment_of_fold, fold_step_tv_lookup by exact H.
  cbn. destruct (cells_for tvs g); reflexivity.
Qed.

Lemma rset_keys r f row :
  map fst (rset r f row) = if memb f (map fst r) then map fst r else map fst r ++ [f].
Proof.
  induction r as [|[h old] t IH]; cbn [rset map fst memb existsb]; [reflexivity|].
  destruct (h =? f) eqn:E.
  - rewrite Nat.eqb_sym, E. reflexivity.
  - rewrite Nat.eqb_sym, E. cbn [orb map fst]. rewrite IH. fold (memb f (map fst t)).
    destruct (memb f (map fst t)); reflexivity.
Qed.

Lemma memb_In x xs : memb x xs = true <-> In x xs.
Proof. apply existsb_eqb_In. Qed.

Lemma memb_false x xs : memb x xs = false <-> ~ In x xs.
Proof.
  rewrite <- memb_In. destruct (memb x xs); split; intros H; try congruence; try (exfalso; apply H; reflexivity).
Qed.

Lemma rlookup_in_keys r f : rlookup r f <> None <-> In f (map fst r).
Proof.
  induction r as [|[h old] t IH]; [cbn; split; [congruence | intros []]|].
  rewrite rlookup_cons. cbn [map fst In]. destruct (h =? f) eqn:E.
  - apply Nat.eqb_eq in E. split; [intros _; left; exact E | intros _; discriminate].
  - rewrite IH. split; [intros H; right; exact H|]. intros [H | H]; [apply Nat.eqb_neq in E; contradiction | exact H].
Qed.

Lemma alookup_key (di : asg) g : In g (map fst di) -> alookup di g <> None.
Proof.
  intros Hin. unfold alookup. induction di as [|[a b] t IH]; [destruct Hin|]. cbn [find fst].
  destruct (a =? g) eqn:E; [cbn; discriminate|]. apply IH. destruct Hin as [H | H]; [|exact H].
  cbn [fst] in H. apply Nat.eqb_neq in E. contradiction.
Qed.

Lemma alookup_prefix (ab rest : asg) g : alookup ab g <> None -> alookup (ab ++ rest) g = alookup ab g.
Proof. intros H. rewrite alookup_app. destruct (alookup ab g); [reflexivity | contradiction]. Qed.

Lemma cells_for_flat_map {A} (h : A -> list asg) (l : list A) g :
  cells_for (flat_map h l) g = flat_map (fun x => cells_for (h x) g) l.
Proof.
  induction l as [|x t IH]; [reflexivity|]. cbn [flat_map]. unfold cells_for in *. rewrite flat_map_app, IH. reflexivity.
Qed.

Lemma cells_for_all (tvs : list asg) g : (forall tv, In tv tvs -> alookup tv g <> None) ->
  cells_for tvs g = map (fun tv => alookup tv g) tvs.
Proof.
  induction tvs as [|tv t IH]; intros H; [reflexivity|]. unfold cells_for in *. cbn [flat_map map].
  rewrite IH by (intros x Hx; apply H; right; exact Hx).
  specialize (H tv (or_introl eq_refl)). destruct (alookup tv g); [reflexivity | contradiction].
Qed.

Lemma combine_fold_lookup (r : run) : forall (rnd : run) (acc : run),
  NoDup (map fst rnd) ->
  (forall f, In f (map fst rnd) -> rlookup r f <> None) ->
  exists r', fold_left (fun a kr => new_run <-- a ;;; old <-- of_opt KeyError (rlookup r (fst kr)) ;;;
                                      ROk (rset new_run (fst kr) (old ++ snd kr))) rnd (ROk acc) = ROk r' /\
             forall g, rlookup r' g = match rlookup rnd g with
                                      | Some row' => Some (row_of_run r g ++ row')
                                      | None => rlookup acc g
                                      end.
Proof.
  induction rnd as [|[f row] t IH]; intros acc Hnd Hk.
  - exists acc. split; [reflexivity | intros g; reflexivity].
  - cbn [fold_left rbind fst snd].
    destruct (rlookup r f) as [old|] eqn:Eo; [|exfalso; apply (Hk f); [left; reflexivity | exact Eo]].
    cbn [of_opt rbind]. cbn [map fst] in Hnd. inversion Hnd; subst.
    destruct (IH (rset acc f (old ++ row)) H2) as [r' [Hr' Hl]].
    { intros g Hg. apply Hk. right. exact Hg. }
    exists r'. split; [exact Hr'|]. intros g. rewrite Hl. rewrite rlookup_cons.
    destruct (f =? g) eqn:E.
    + apply Nat.eqb_eq in E. subst g.
      assert (Hn : rlookup t f = None).
      { destruct (rlookup t f) eqn:E2; [|reflexivity]. exfalso. apply H1.
        apply rlookup_in_keys. congruence. }
      rewrite Hn. rewrite rlookup_rset, Nat.eqb_refl. unfold row_of_run. rewrite Eo. reflexivity.
    + destruct (rlookup t g); [reflexivity|]. rewrite rlookup_rset. rewrite Nat.eqb_sym, E. reflexivity.
Qed.

Lemma combine_round_lookup (r rnd : run) :
  NoDup (map fst rnd) ->
  (r = [] \/ forall f, In f (map fst rnd) -> rlookup r f <> None) ->
  exists r', combine_round r rnd = ROk r' /\
             forall g, rlookup r' g = match rlookup rnd g with
                                      | Some row' => Some (row_of_run r g ++ row')
                                      | None => rlookup r g
                                      end.
Proof.
  intros Hnd Hk. destruct r as [|p r0] eqn:Er.
  - exists rnd. split; [reflexivity|]. intros g. destruct (rlookup rnd g); reflexivity.
  - destruct Hk as [Hk | Hk]; [discriminate|].
    unfold combine_round. rewrite <- Er in *. destruct r as [|p' r']; [discriminate|].
    apply combine_fold_lookup; assumption.
Qed.

Lemma fill_in_derived_nil fb r s e : fill_in_derived fb r [] s e = ROk r.
Proof. reflexivity. Qed.

Lemma product_In {A} (lss : list (list A)) xs :
  In xs (product lss) <-> Forall2 (fun l x => In x l) lss xs.
Proof.
  revert xs. induction lss as [|l t IH]; intros xs; cbn [product].
  - split; [intros [H | []]; subst; constructor | intros H; inversion H; left; reflexivity].
  - rewrite in_flat_map. split.
    + intros [x [Hx Hin]]. apply in_map_iff in Hin. destruct Hin as [ys [E Hys]]. subst xs.
      constructor; [exact Hx | apply IH; exact Hys].
    + intros H. inversion H as [|l' x t' ys Hx Hys]; subst. exists x. split; [exact Hx|].
      apply in_map_iff. exists ys. split; [reflexivity | apply IH; exact Hys].
Qed.

Lemma product_length_elem {A} (lss : list (list A)) xs : In xs (product lss) -> length xs = length lss.
Proof. intros H. apply product_In in H. symmetry. eapply Forall2_length. exact H. Qed.

Lemma product_NoDup {A} (lss : list (list A)) : (forall l, In l lss -> NoDup l) -> NoDup (product lss).
Proof.
  induction lss as [|l t IH]; intros H; cbn [product]; [constructor; [intros [] | constructor]|].
  apply cons_product_NoDup; [apply H; left; reflexivity | apply IH; intros l' Hl'; apply H; right; exact Hl'].
Qed.

Lemma cons_product_length {A} (xs : list A) (W : list (list A)) :
  length (flat_map (fun x => map (cons x) W) xs) = length xs * length W.
Proof. rewrite flat_map_len. apply list_sum_const. intros x _. apply map_length. Qed.

Lemma product_length {A} (lss : list (list A)) :
  length (product lss) = fold_right (fun l acc => length l * acc) 1 lss.
Proof. induction lss as [|l t IH]; [reflexivity|]. cbn [product fold_right]. rewrite <- IH. apply cons_product_length. Qed.

Lemma rset_keys_nodup r f row : NoDup (map fst r) -> NoDup (map fst (rset r f row)).
Proof.
  intros H. rewrite rset_keys. destruct (memb f (map fst r)) eqn:E; [exact H|].
  apply memb_false in E. apply NoDup_app_intro; [exact H | constructor; [intros [] | constructor]|].
  intros x Hx [Hf | []]. subst. contradiction.
Qed.

Lemma step_tv_keys_nodup tv r : NoDup (map fst r) -> NoDup (map fst (step_tv r tv)).
Proof.
  revert r. induction tv as [|fl t IH]; intros r H; [exact H|].
  unfold step_tv. cbn [fold_left]. apply IH. unfold step_cell. apply rset_keys_nodup. exact H.
Qed.

Lemma experiment_of_keys_nodup tvs : NoDup (map fst (experiment_of tvs)).
Proof.
  rewrite experiment_of_fold.
  assert (G : forall r, NoDup (map fst r) -> NoDup (map fst (fold_left step_tv tvs r))).
  { induction tvs as [|tv t IH]; intros r H; [exact H|]. cbn [fold_left]. apply IH. apply step_tv_keys_nodup. exact H. }
  apply G. constructor.
Qed.

Lemma row_of_experiment tvs g : (forall tv, In tv tvs -> NoDup (map fst tv)) ->
  row_of_run (experiment_of tvs) g = cells_for tvs g.
Proof.
  intros H. unfold row_of_run. rewrite experiment_of_lookup by exact H.
  destruct (cells_for tvs g); reflexivity.
Qed.

Lemma combine_round_rows (r rnd : run) :
  NoDup (map fst rnd) ->
  (r = [] \/ forall f, In f (map fst rnd) -> rlookup r f <> None) ->
  exists r', combine_round r rnd = ROk r' /\
             (forall g, row_of_run r' g = row_of_run r g ++ row_of_run rnd g) /\
             (forall g, rlookup r' g <> None <-> rlookup r g <> None \/ rlookup rnd g <> None).
Proof.
  intros Hnd Hk. destruct (combine_round_lookup r rnd Hnd Hk) as [r' [Hr' Hl]].
  exists r'. split; [exact Hr'|]. split.
  - intros g. unfold row_of_run. rewrite Hl. destruct (rlookup rnd g); [reflexivity|].
    rewrite app_nil_r. reflexivity.
  - intros g. rewrite Hl. destruct (rlookup rnd g); split; intros H; try (right; discriminate); try discriminate; auto.
    destruct H as [H | H]; [exact H | contradiction].
Qed.

Lemma map_via_seq {A B} (F : A -> B) (l : list A) d : map F l = map (fun t => F (nth t l d)) (seq 0 (length l)).
Proof. rewrite <- (map_nth_seq l d) at 1. rewrite map_map. reflexivity. Qed.

