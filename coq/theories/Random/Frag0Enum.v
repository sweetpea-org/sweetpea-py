(** The enumerator of a design of fragment F2 ([Frag.frag2], described in
    Properties/C04.v): every field of [make_enumerator] in closed form (the memo
    tables of the weighted counter up to validity).  Proof file. *)
From Coq Require Import ZArith List Bool Arith Lia.
From SP Require Import Base.Lists Design.Flat Design.Layout Comb.CombModel Random.Enum Random.Frag Random.RunLemmas Random.FragPerm Random.KeysCount.
From SP Require Import Comb.BinomFacts.
From SP Require Comb.CombSpec Comb.PermProofs Comb.StackProofs Comb.SessionProofs Comb.TotalProofs.
From SP Require Export Random.ListFacts.
Import ListNotations.
Open Scope nat_scope.
Set Default Proof Using "All".

Lemma main_idx_of_spec ss : existsb (Nat.eqb 1) ss = true ->
  main_idx_of ss < length ss /\ nth_error ss (main_idx_of ss) = Some 1 /\ forall j, j < main_idx_of ss -> nth j ss 0 <> 1.
Proof.
  induction ss as [|x t IH]; cbn [existsb main_idx_of length]; [discriminate|]. rewrite (Nat.eqb_sym 1 x).
  destruct (x =? 1) eqn:E; cbn [orb].
  - intros _. apply Nat.eqb_eq in E. subst. split; [lia|]. split; [reflexivity | intros j Hj; lia].
  - intros H. destruct (IH H) as (H1 & H2 & H3). split; [lia|]. split; [exact H2|].
    intros [|j] Hj; cbn [nth]; [apply Nat.eqb_neq; exact E | apply H3; lia].
Qed.

Lemma find_main_spec ss : existsb (Nat.eqb 1) ss = true -> forall i, find_main ss i = ROk (i + main_idx_of ss).
Proof.
  induction ss as [|x t IH]; cbn [existsb main_idx_of find_main]; [discriminate|]. rewrite (Nat.eqb_sym 1 x).
  destruct (x =? 1); cbn [orb]; intros H i; [f_equal; lia|]. rewrite (IH H). f_equal. lia.
Qed.

(** the common head of [crossed_derived_fd], [ucd_fd] and [implied_fd]: a window of one trial, the current one *)
Lemma within_trial_head fd w0 :
  negb (ff_complex fd) && (win_width w0 =? 1) && (win_stride w0 =? 1) && (win_start w0 =? 0) = true ->
  ff_complex fd = false /\ win_width w0 = 1 /\ win_stride w0 = 1 /\ win_start w0 = 0.
Proof. rewrite !andb_true_iff, negb_true_iff, !Nat.eqb_eq. tauto. Qed.

Lemma filter_seq_lt p n f : In f (filter p (seq 0 n)) -> f < n.
Proof. intros H. apply filter_In in H. destruct H as [H _]. apply in_seq in H. exact (proj2 H). Qed.

Lemma allowed_combos2_length fb ci ls : In ls (allowed_combos2 fb ci) -> length ls = length ci.
Proof.
  unfold allowed_combos2. intros H. apply filter_In in H. rewrite (product_length_elem _ _ (proj1 H)). apply map_length.
Qed.

Lemma levels_product_NoDup fb fs : NoDup (product (map (all_levels fb) fs)).
Proof. apply product_NoDup. intros l Hl. apply in_map_iff in Hl. destruct Hl as [f [<- _]]. apply seq_NoDup. Qed.

Lemma allowed_combos2_NoDup fb ci : NoDup (allowed_combos2 fb ci).
Proof. apply NoDup_filter, levels_product_NoDup. Qed.

(** looking up keys that are all present: the values, as the cells the predicates read *)
Lemma rmap_alookup_total (di : asg) ds : (forall d, In d ds -> exists a, alookup di d = Some a) ->
  exists args, rmap (fun f => of_opt KeyError (alookup di f)) ds = ROk args /\
               map (fun a => [Some a]) args = map (fun d => [alookup di d]) ds.
Proof.
  induction ds as [|d ds IH]; intros H; [exists []; split; reflexivity|].
  destruct (H d (or_introl eq_refl)) as [a Ha]. destruct (IH (fun x Hx => H x (or_intror Hx))) as (args & Hr & Em).
  exists (a :: args). cbn [rmap map]. rewrite Ha. cbn [of_opt rbind]. rewrite Hr, Em. split; reflexivity.
Qed.

Lemma crossing_plain_spec fb ci : crossing_plain fb ci = true -> NoDup ci /\ forall f, In f ci -> In f (fl_act fb).
Proof.
  intros H. apply andb_prop in H. destruct H as [H1 H2]. split; [apply nodupb_NoDup; exact H1|].
  intros f Hf. apply (memb_In f (fl_act fb)). apply (proj1 (forallb_forall _ _) H2 f Hf).
Qed.

Lemma crossing_size_ok_spec fb ci si su : crossing_size_ok fb (ci, si, su) = true ->
  si = list_sum (map (fun ls => combo_weight fb (combine ci ls)) (allowed_combos2 fb ci)) * su /\ 0 < si /\
  match ci with [] => 1 | f :: _ => sustain_of fb f end = su /\ sustain_of fb (hd 0 ci) = su.
Proof. unfold crossing_size_ok. rewrite !andb_true_iff, !Nat.eqb_eq, Nat.ltb_lt. tauto. Qed.

(** what the test of a factor of [act_design] admits *)
Lemma act_fd_kind fb f fd : basic_fd fd || crossed_derived_fd fb f fd || ucd_fd fb f fd = true ->
  ff_complex fd = false /\ (ff_window fd = None \/ crossed_derived_fd fb f fd = true \/ ucd_fd fb f fd = true).
Proof.
  intros H. apply orb_prop in H. destruct H as [H | Hu]; [apply orb_prop in H; destruct H as [Hb | Hd]|].
  - unfold basic_fd in Hb. destruct (ff_window fd); [discriminate|]. apply negb_true_iff in Hb. auto.
  - split; [|right; left; exact Hd]. unfold crossed_derived_fd in Hd. destruct (ff_window fd); [|discriminate].
    do 2 (apply andb_prop in Hd; destruct Hd as [Hd _]). apply (within_trial_head _ _ Hd).
  - split; [|right; right; exact Hu]. unfold ucd_fd in Hu. destruct (ff_window fd); [|discriminate].
    do 3 (apply andb_prop in Hu; destruct Hu as [Hu _]). apply (within_trial_head _ _ Hu).
Qed.

Section F0.
Variable fb : flat.
Hypothesis HF : frag2 fb = true.

Local Notation c := (the_crossing fb).
Local Notation n := (length (fl_design fb)).
Local Notation w := (the_weight fb).
(** the admitted level combinations of the crossing, and the admitted levels of a factor *)
Definition f0_cprod : list (list nat) := allowed_combos2 fb (the_crossing fb).
Definition f0_q : nat := length f0_cprod.
Definition f0_L (g : nat) : list nat := nonexcluded_levels fb g.
(** the weight of a combination, the block's crossing size and the length of a round *)
Definition f0_cw (ls : list nat) : nat := combo_weight fb (combine (the_crossing fb) ls).
Definition f0_s : nat := list_sum (map f0_cw f0_cprod).
Definition f0_C : nat := f0_s * the_weight fb.

Record f0_facts : Prop := {
  f0_main_lt : main_idx fb < length (fl_crossings fb);
  f0_crossings : nth_error (fl_crossings fb) (main_idx fb) = Some c;
  f0_main_sustain : nth_error (fl_sustains fb) (main_idx fb) = Some 1;
  f0_main_first : forall j, j < main_idx fb -> nth j (fl_sustains fb) 0 <> 1;
  f0_main_index : first_index_of c (fl_crossings fb) 0 = Some (main_idx fb);
  f0_cross_plain : forall ci, In ci (fl_crossings fb) -> NoDup ci /\ forall f, In f ci -> f < n;
  f0_sustains_pos : forall x, In x (fl_sustains fb) -> 0 < x;
  f0_sustains_len : length (fl_sustains fb) = length (fl_crossings fb);
  f0_main_sustain_of : forall f, In f c -> sustain_of fb f = 1;
  f0_sustain_div : forall x, In x (fl_sustains fb) -> fl_trials fb mod x = 0;
  f0_sustain_checked : (forall x, In x (fl_sustains fb) -> x = 1) \/ In FSustain (fl_constraints fb);
  f0_weights : nth_error (fl_weights fb) (main_idx fb) = Some w;
  f0_weights_len : length (fl_weights fb) = length (fl_crossings fb);
  f0_weights_pos : forall x, In x (fl_weights fb) -> 0 < x;
  f0_wpos : 0 < w;
  f0_preambles : forall x, In x (fl_preambles fb) -> x = 0;
  f0_preambles_len : length (fl_preambles fb) = length (fl_crossings fb);
  f0_alpre : fl_alignment_preamble fb = 0;
  f0_sizes : nth_error (fl_sizes fb) (main_idx fb) = Some f0_s;
  f0_sizes_len : length (fl_sizes fb) = length (fl_crossings fb);
  f0_size_ok : forall i ci si su, nth_error (fl_crossings fb) i = Some ci -> nth_error (fl_sizes fb) i = Some si ->
               nth_error (fl_sustains fb) i = Some su ->
               si = list_sum (map (fun ls => combo_weight fb (combine ci ls)) (allowed_combos2 fb ci)) * su /\ 0 < si /\
               match ci with [] => 1 | f :: _ => sustain_of fb f end = su /\ sustain_of fb (hd 0 ci) = su;
  f0_spos : 0 < f0_s;
  f0_nodup : NoDup c;
  f0_range : forall f, In f c -> f < n;
  f0_exclude : fl_exclude fb = flat_map (fun k => match k with FExclude f l => [(f, l)] | _ => [] end) (fl_constraints fb);
  f0_excluded_derived : fl_excluded_derived fb = [];
  f0_cact : forall ci f, In ci (fl_crossings fb) -> In f ci -> In f (fl_act fb);
  f0_act : fl_act fb = filter (isact fb) (seq 0 n);
  f0_actfd : forall f fd, In f (fl_act fb) -> factor_at fb f = Some fd ->
             ff_complex fd = false /\ (ff_window fd = None \/ crossed_derived_fd fb f fd = true \/ ucd_fd fb f fd = true);
  f0_derived_single : has_derived fb = true -> length (fl_crossings fb) = 1 /\ sources_ok fb = true;
  f0_implied : forall f fd, ~ In f (fl_act fb) -> factor_at fb f = Some fd -> implied_fd fb f fd = true;
  f0_constraints : forall k, In k (fl_constraints fb) -> constraint_f2 fb k = true;
  f0_nonempty : forall f, In f (fl_act fb) -> 0 < length (f0_L f);
  f0_trials : 0 < fl_trials fb \/ (no_rejecting_constraints fb = true /\ length (fl_crossings fb) = 1)
}.

Lemma isact_In f : isact fb f = true <-> In f (fl_act fb).
Proof. unfold isact. apply memb_In. Qed.

Lemma f0_unpack : f0_facts.
Proof.
  pose proof HF as H0. cbv beta zeta delta [frag2 plain_crossings exclude_consistent] in H0.
  apply andb_prop in H0 as [[[[[[[Hpc Hcons]%andb_prop [Hexa Hexb]%andb_prop]%andb_prop Hact]%andb_prop Hfac]%andb_prop
                              Hne]%andb_prop HTpos]%andb_prop Hder].
  apply andb_prop in Hpc as [[[[[[[[[[[[[[[_ Hplain]%andb_prop Hsulen]%andb_prop Hsupos]%andb_prop Hex1]%andb_prop
                              Hmsu]%andb_prop Hfirst]%andb_prop Hdiv]%andb_prop Hchk]%andb_prop Hwlen]%andb_prop
                              Hwpos]%andb_prop Hprelen]%andb_prop Hpre0]%andb_prop Halpre]%andb_prop Hszlen]%andb_prop Hszok].
  apply Nat.eqb_eq in Hsulen, Hwlen, Hprelen, Hszlen, Halpre.
  unfold factors_ok in Hfac. unfold act_levels_nonempty in Hne.
  rewrite forallb_forall in Hplain, Hsupos, Hmsu, Hdiv, Hwpos, Hszok, Hcons, Hfac, Hne.
  apply nat_list_eqb_eq in Hact. apply pairs_eqb_eq in Hexa.
  destruct (main_idx_of_spec (fl_sustains fb) Hex1) as (Hmi & Hmsu1 & Hmfirst). fold (main_idx fb) in Hmi, Hmsu1, Hmfirst.
  rewrite Hsulen in Hmi.
  assert (Hactlt : forall f, In f (fl_act fb) -> f < n) by (intro f; rewrite Hact; apply filter_seq_lt).
  assert (Hplain' : forall ci, In ci (fl_crossings fb) -> NoDup ci /\ forall f, In f ci -> In f (fl_act fb))
    by (intros ci Hci; apply crossing_plain_spec, Hplain, Hci).
  assert (Hfd : forall f fd, factor_at fb f = Some fd ->
            (if isact fb f then basic_fd fd || crossed_derived_fd fb f fd || ucd_fd fb f fd else implied_fd fb f fd) = true).
  { intros f fd Hf. apply (Hfac (f, fd)). apply in_combine_seq. rewrite Nat.sub_0_r. split; [apply Nat.le_0_l | exact Hf]. }
  assert (Ec : nth_error (fl_crossings fb) (main_idx fb) = Some c) by (apply nth_error_nth'; exact Hmi).
  assert (Hcin : In c (fl_crossings fb)) by (eapply nth_error_In; exact Ec).
  assert (Ew : nth_error (fl_weights fb) (main_idx fb) = Some w) by (apply nth_error_nth'; rewrite Hwlen; exact Hmi).
  assert (Hsz : forall i ci si su, nth_error (fl_crossings fb) i = Some ci -> nth_error (fl_sizes fb) i = Some si ->
               nth_error (fl_sustains fb) i = Some su ->
               si = list_sum (map (fun ls => combo_weight fb (combine ci ls)) (allowed_combos2 fb ci)) * su /\ 0 < si /\
               match ci with [] => 1 | f :: _ => sustain_of fb f end = su /\ sustain_of fb (hd 0 ci) = su)
    by (intros i ci si su H1 H2 H3; apply crossing_size_ok_spec, Hszok, (nth_error_In _ i);
        repeat apply nth_error_combine; assumption).
  assert (Ez : nth_error (fl_sizes fb) (main_idx fb) = Some (nth (main_idx fb) (fl_sizes fb) 0))
    by (apply nth_error_nth'; rewrite Hszlen; exact Hmi).
  destruct (Hsz _ _ _ _ Ec Ez Hmsu1) as (Es0 & Hs0 & _ & _). rewrite Nat.mul_1_r in Es0.
  rewrite Es0 in Ez, Hs0.
  constructor; try assumption.
  - unfold the_crossing. destruct (first_index_of _ _ 0) as [j|]; [|discriminate Hfirst].
    apply Nat.eqb_eq in Hfirst. rewrite Hfirst. reflexivity.
  - intros ci Hci. destruct (Hplain' ci Hci) as [H1 H2]. split; [exact H1|]. intros f Hf. apply Hactlt. apply H2. exact Hf.
  - intros x Hx. apply Nat.ltb_lt. apply Hsupos. exact Hx.
  - intros f Hf. apply Nat.eqb_eq. apply Hmsu. exact Hf.
  - intros x Hx. apply Nat.eqb_eq. apply Hdiv. exact Hx.
  - apply orb_prop in Hchk. destruct Hchk as [H | H]; [left; apply (forallb_eqb_all 1); exact H|]. right.
    apply existsb_exists in H. destruct H as [k0 [Hk0 E]]. destruct k0; try discriminate E. exact Hk0.
  - intros x Hx. apply Nat.ltb_lt. apply Hwpos. exact Hx.
  - apply Nat.ltb_lt. apply Hwpos. eapply nth_error_In. exact Ew.
  - apply (forallb_eqb_all 0). exact Hpre0.
  - apply (Hplain' c Hcin).
  - intros f Hf. apply Hactlt. apply (Hplain' c Hcin). exact Hf.
  - destruct (fl_excluded_derived fb); [reflexivity | discriminate Hexb].
  - intros ci f Hci Hf. apply (Hplain' ci Hci). exact Hf.
  - intros f fd Hf Hfa. specialize (Hfd f fd Hfa). rewrite (proj2 (isact_In f) Hf) in Hfd. apply act_fd_kind, Hfd.
  - intros Hhd. rewrite Hhd in Hder. cbn [negb orb] in Hder. apply andb_prop in Hder. destruct Hder as [H1 H2].
    apply Nat.eqb_eq in H1. split; [exact H1 | exact H2].
  - intros f fd Hf Hfa. specialize (Hfd f fd Hfa). destruct (isact fb f) eqn:E; [apply isact_In in E; contradiction | exact Hfd].
  - intros f Hf. apply Nat.ltb_lt. apply Hne. exact Hf.
  - apply orb_prop in HTpos. destruct HTpos as [H | H]; [left; apply Nat.ltb_lt; exact H|].
    right. apply andb_prop in H. destruct H as [H1 H2]. apply Nat.eqb_eq in H2. split; assumption.
Qed.

Lemma act_lt f : In f (fl_act fb) -> f < n.
Proof. intros Hf. rewrite (f0_act f0_unpack) in Hf. apply filter_In in Hf. destruct Hf as [Hf _]. apply in_seq in Hf. lia. Qed.

Lemma act_nodup : NoDup (fl_act fb).
Proof. rewrite (f0_act f0_unpack). apply NoDup_filter. apply seq_NoDup. Qed.

Lemma f0_cact_main f : In f c -> In f (fl_act fb).
Proof. intros Hf. apply (f0_cact f0_unpack c f); [eapply nth_error_In; apply (f0_crossings f0_unpack) | exact Hf]. Qed.

Lemma f0_c_in : In c (fl_crossings fb).
Proof. eapply nth_error_In. apply (f0_crossings f0_unpack). Qed.

Lemma f0_q_pos : 0 < f0_q.
Proof.
  pose proof (f0_spos f0_unpack) as H. unfold f0_s in H. unfold f0_q.
  destruct f0_cprod; [cbn in H; lia | cbn; lia].
Qed.

Lemma f0_C_pos : 0 < f0_C.
Proof. unfold f0_C. pose proof (f0_spos f0_unpack). pose proof (f0_wpos f0_unpack). nia. Qed.

Lemma f0_not_complex f : In f (fl_act fb) -> is_complex fb f = false.
Proof.
  intros Hf. unfold is_complex. destruct (factor_at fb f) as [fd|] eqn:E; [|reflexivity].
  apply (f0_actfd f0_unpack f fd Hf E).
Qed.

(** a factor of [act_design] is plain, or a within-trial derived factor: of the sampled crossing, reading plain factors,
    or outside it, reading drawn factors through an exact table *)
Lemma f0_act_kind f : In f (fl_act fb) ->
  is_derived fb f = false \/
  (In f c /\ exists fd w, factor_at fb f = Some fd /\ ff_window fd = Some w /\ win_width w = 1 /\ win_stride w = 1 /\
     win_start w = 0 /\ forall d, In d (win_deps w) -> In d (fl_act fb) /\ is_derived fb d = false) \/
  (~ In f c /\ exists fd w, factor_at fb f = Some fd /\ ff_window fd = Some w /\ win_width w = 1 /\ win_stride w = 1 /\
     win_start w = 0 /\ (forall d, In d (win_deps w) -> In d (fl_act fb) /\ (is_derived fb d = false \/ In d c)) /\
     tables_exact fb f w = true).
Proof.
  intros Hf. unfold is_derived. destruct (factor_at fb f) as [fd|] eqn:E; [|left; reflexivity].
  destruct (f0_actfd f0_unpack f fd Hf E) as [_ [Hw | [Hd | Hu]]]; [left; rewrite Hw; reflexivity| |].
  - right. left. unfold crossed_derived_fd in Hd. destruct (ff_window fd) as [w0|] eqn:Ew; [|discriminate].
    apply andb_prop in Hd. destruct Hd as [Hd Hdeps]. apply andb_prop in Hd. destruct Hd as [Hd Hin].
    destruct (within_trial_head _ _ Hd) as (_ & Hwd & Hsd & Hst). apply memb_In in Hin.
    split; [exact Hin|]. exists fd, w0. repeat split; try assumption; try reflexivity.
    + rewrite forallb_forall in Hdeps. specialize (Hdeps d H). apply andb_prop in Hdeps. apply isact_In. apply Hdeps.
    + rewrite forallb_forall in Hdeps. specialize (Hdeps d H). apply andb_prop in Hdeps. destruct Hdeps as [_ Hb].
      unfold is_basic_f, basic_fd in Hb. destruct (factor_at fb d) as [dd|]; [|reflexivity]. destruct (ff_window dd); [discriminate | reflexivity].
  - right. right. unfold ucd_fd in Hu. destruct (ff_window fd) as [w0|] eqn:Ew; [|discriminate].
    apply andb_prop in Hu. destruct Hu as [Hu Hex]. apply andb_prop in Hu. destruct Hu as [Hu Hdeps].
    apply andb_prop in Hu. destruct Hu as [Hu Hin].
    destruct (within_trial_head _ _ Hu) as (_ & Hwd & Hsd & Hst). apply negb_true_iff in Hin. apply memb_false in Hin.
    split; [exact Hin|]. exists fd, w0. split; [reflexivity|]. split; [exact Ew|]. split; [exact Hwd|]. split; [exact Hsd|].
    split; [exact Hst|]. split; [|exact Hex].
    intros d Hd. rewrite forallb_forall in Hdeps. specialize (Hdeps d Hd). unfold in_K in Hdeps.
    apply andb_prop in Hdeps. destruct Hdeps as [Ha Hk]. split; [apply isact_In; exact Ha|].
    apply orb_prop in Hk. destruct Hk as [Hk | Hk]; [left; apply negb_true_iff in Hk; exact Hk | right; apply memb_In; exact Hk].
Qed.

Lemma f0_crossed_kind f : In f c -> is_derived fb f = true ->
  exists fd w, factor_at fb f = Some fd /\ ff_window fd = Some w /\ win_width w = 1 /\ win_stride w = 1 /\
     win_start w = 0 /\ forall d, In d (win_deps w) -> In d (fl_act fb) /\ is_derived fb d = false.
Proof.
  intros Hc Hd. destruct (f0_act_kind f (f0_cact_main f Hc)) as [H | [[_ H] | [H _]]]; [congruence | exact H | contradiction].
Qed.

(** a combination is excluded iff it contains a level named by an [Exclude] constraint *)
Lemma f0_excluded_spec di : is_excluded_combination fb di = true <->
  exists f l, In (FExclude f l) (fl_constraints fb) /\ alookup di f = Some l.
Proof.
  unfold is_excluded_combination. rewrite (f0_excluded_derived f0_unpack). cbn [existsb]. rewrite orb_false_r.
  rewrite existsb_exists. rewrite (f0_exclude f0_unpack). split.
  - intros [[f l] [Hin H]]. cbn [fst snd] in H. apply in_flat_map in Hin. destruct Hin as [k [Hk Hin]].
    destruct k; try (destruct Hin; fail). destruct Hin as [E | []]. inversion E; subst.
    destruct (alookup di f) as [l'|] eqn:El; [|discriminate]. apply Nat.eqb_eq in H. subst. exists f, l. auto.
  - intros (f & l & Hk & Hl). exists (f, l). split.
    + apply in_flat_map. exists (FExclude f l). split; [exact Hk | left; reflexivity].
    + cbn [fst snd]. rewrite Hl. apply Nat.eqb_refl.
Qed.

(** without a derived factor in it, a combination is consistent *)
Lemma f0_inconsistent_eq di : (forall p, In p di -> is_derived fb (fst p) = false) ->
  is_excluded_or_inconsistent_combination fb di = is_excluded_combination fb di.
Proof.
  intros Hnd. unfold is_excluded_or_inconsistent_combination. destruct (is_excluded_combination fb di); [reflexivity|].
  apply not_true_is_false. intros H. apply existsb_exists in H. destruct H as [f [Hf H]].
  rewrite (Hnd f Hf) in H. discriminate.
Qed.

Lemma f0_consistent_not_excluded di : is_excluded_or_inconsistent_combination fb di = false -> is_excluded_combination fb di = false.
Proof. unfold is_excluded_or_inconsistent_combination. destruct (is_excluded_combination fb di); [discriminate | reflexivity]. Qed.

Definition f0_instances : list asg := map (fun ls => combine c ls) f0_cprod.

Lemma f0_crossing_instances : crossing_instances fb c = f0_instances.
Proof.
  unfold crossing_instances, f0_instances, f0_cprod, allowed_combos2, instances_of.
  rewrite filter_map_comm. reflexivity.
Qed.

Lemma f0_instances_length : length f0_instances = f0_q.
Proof. unfold f0_instances, f0_q. apply map_length. Qed.

Lemma f0_cprod_in_prod ls : In ls f0_cprod -> In ls (product (map (all_levels fb) c)).
Proof. unfold f0_cprod, allowed_combos2. intros H. apply filter_In in H. apply H. Qed.

Lemma f0_cprod_spec2 ls : In ls f0_cprod <->
  In ls (product (map (all_levels fb) c)) /\ is_excluded_or_inconsistent_combination fb (combine c ls) = false.
Proof. unfold f0_cprod, allowed_combos2. rewrite filter_In, negb_true_iff. reflexivity. Qed.

Lemma f0_cprod_not_excluded ls : In ls f0_cprod -> is_excluded_combination fb (combine c ls) = false.
Proof. intros H. apply f0_cprod_spec2 in H. apply f0_consistent_not_excluded. apply H. Qed.

Lemma f0_cprod_nodup : NoDup f0_cprod.
Proof. apply allowed_combos2_NoDup. Qed.

Lemma f0_L_spec g l : In l (f0_L g) <-> l < nlevels fb g /\ ~ In (FExclude g l) (fl_constraints fb).
Proof.
  unfold f0_L, nonexcluded_levels. rewrite filter_In, negb_true_iff. unfold all_levels. rewrite in_seq.
  split; intros [H1 H2]; (split; [lia|]).
  - intros Hin. assert (E : is_excluded_combination fb [(g, l)] = true).
    { apply f0_excluded_spec. exists g, l. split; [exact Hin|]. rewrite alookup_cons, Nat.eqb_refl. reflexivity. }
    congruence.
  - apply not_true_is_false. intros E. apply f0_excluded_spec in E. destruct E as (f & l' & Hk & Hl).
    rewrite alookup_cons in Hl. destruct (g =? f) eqn:Eg; [|discriminate]. apply Nat.eqb_eq in Eg.
    inversion Hl; subst. contradiction.
Qed.

Lemma f0_L_nodup g : NoDup (f0_L g).
Proof. unfold f0_L, nonexcluded_levels. apply NoDup_filter. unfold all_levels. apply seq_NoDup. Qed.

(** ** the multiset of a round: how often each crossing instance occurs *)
Definition f0_cws : list Z := map (fun ci => (combination_weight fb ci * Z.of_nat (the_weight fb))%Z) f0_instances.

Lemma f0_cws_eq : f0_cws = map (fun ls => Z.of_nat (f0_cw ls * w)) f0_cprod.
Proof.
  unfold f0_cws, f0_instances. rewrite map_map. apply map_ext. intros ls.
  unfold f0_cw. rewrite Nat2Z.inj_mul, combo_weight_Z. reflexivity.
Qed.

Lemma f0_cws_length : length f0_cws = f0_q.
Proof. unfold f0_cws. rewrite map_length. apply f0_instances_length. Qed.

Lemma f0_cws_nonneg : Forall (fun x => (0 <= x)%Z) f0_cws.
Proof. rewrite f0_cws_eq. apply Forall_forall. intros x Hx. apply in_map_iff in Hx. destruct Hx as [? [E _]]. lia. Qed.

Lemma f0_cws_sum : CombSpec.zsum f0_cws = Z.of_nat f0_C.
Proof.
  rewrite f0_cws_eq. rewrite (zsum_map_of_nat (fun ls => f0_cw ls * w)). rewrite list_sum_scale. reflexivity.
Qed.

Lemma f0_p_C : p_C f0_cws = f0_C.
Proof. unfold p_C. rewrite f0_cws_sum. lia. Qed.

Lemma f0_cws_nth j : j < f0_q -> nth j f0_cws 0%Z = Z.of_nat (f0_cw (nth j f0_cprod []) * w).
Proof.
  intros Hj. rewrite f0_cws_eq.
  apply (nth_map_lt (fun ls => Z.of_nat (f0_cw ls * w))). exact Hj.
Qed.

Definition f0_unw : bool := p_unw f0_cws.
Definition f0_N (first_n : nat) : Z := p_N f0_cws first_n.

Lemma f0_N_unw first_n : f0_unw = true -> f0_N first_n = CombSpec.ffact (Z.of_nat f0_q) first_n.
Proof. intros H. unfold f0_N, p_N. fold f0_unw. rewrite H, f0_cws_length. reflexivity. Qed.

Lemma f0_N_w first_n : f0_unw = false -> f0_N first_n = cnt f0_cws (Z.of_nat first_n).
Proof. intros H. unfold f0_N, p_N. fold f0_unw. rewrite H. reflexivity. Qed.

Lemma f0_unw_C : f0_unw = true -> f0_C = f0_q.
Proof. intros H. rewrite <- f0_p_C, <- f0_cws_length. apply unw_C. exact H. Qed.

Lemma f0_no_crossings : no_crossings fb = false.
Proof. unfold no_crossings. pose proof (f0_main_lt f0_unpack) as H. destruct (fl_crossings fb); [cbn in H; lia | reflexivity]. Qed.

Lemma f0_main_factors : main_factors fb (main_idx fb) = ROk c.
Proof. unfold main_factors. rewrite f0_no_crossings, (f0_crossings f0_unpack). reflexivity. Qed.

Lemma f0_main_crossing : main_crossing fb = ROk (main_idx fb).
Proof.
  unfold main_crossing. rewrite find_main_spec; [reflexivity|]. apply existsb_exists. exists 1. split; [|reflexivity].
  eapply nth_error_In. apply (f0_main_sustain f0_unpack).
Qed.

Lemma f0_cnc : crossed_noncomplex fb c = c.
Proof. unfold crossed_noncomplex. apply filter_all. intros f Hf. rewrite f0_not_complex by (apply f0_cact_main; exact Hf). reflexivity. Qed.

(** the derived factors of the crossing and the factors they read *)
Definition f0_cd : list nat := filter (is_derived fb) (the_crossing fb).
Definition f0_sf : list nat := source_factors fb (the_crossing fb).

Lemma f0_cnd : crossed_noncomplex_derived fb c = f0_cd.
Proof. unfold crossed_noncomplex_derived. rewrite f0_cnc. reflexivity. Qed.

Lemma f0_crossed_complex : crossed_complex fb c = [].
Proof.
  unfold crossed_complex. rewrite (filter_none (is_complex fb) c); [reflexivity|].
  intros f Hf. apply f0_not_complex. apply f0_cact_main. exact Hf.
Qed.

(** the uncrossed factors are plain; those read by a crossed derived factor are the source factors *)
Definition f0_ub : list nat := filter (fun f => negb (memb f (the_crossing fb))) (fl_act fb).
Definition f0_ubb : list nat := filter (fun f => negb (is_derived fb f)) f0_ub.
Definition f0_ubs : list nat := filter (fun f => memb f f0_sf) f0_ubb.
Definition f0_ubi : list nat := filter (fun f => negb (memb f f0_sf)) f0_ubb.
(** the derived factors of [act_design] outside the sampled crossing *)
Definition f0_ucdl : list nat := filter (is_derived fb) f0_ub.

Lemma ub_In g : In g f0_ub <-> In g (fl_act fb) /\ ~ In g c.
Proof. unfold f0_ub. rewrite filter_In. rewrite negb_true_iff, memb_false. reflexivity. Qed.

Lemma ubb_In g : In g f0_ubb <-> In g (fl_act fb) /\ ~ In g c /\ is_derived fb g = false.
Proof. unfold f0_ubb. rewrite filter_In, ub_In. rewrite negb_true_iff. tauto. Qed.

Lemma ubi_In g : In g f0_ubi <-> In g (fl_act fb) /\ ~ In g c /\ ~ In g f0_sf /\ is_derived fb g = false.
Proof.
  unfold f0_ubi. rewrite filter_In, ubb_In. rewrite negb_true_iff, memb_false. tauto.
Qed.

Lemma ubs_In g : In g f0_ubs <-> In g (fl_act fb) /\ ~ In g c /\ In g f0_sf /\ is_derived fb g = false.
Proof.
  unfold f0_ubs. rewrite filter_In, ubb_In. rewrite memb_In. tauto.
Qed.

Lemma ucdl_In g : In g f0_ucdl <-> In g (fl_act fb) /\ ~ In g c /\ is_derived fb g = true.
Proof. unfold f0_ucdl. rewrite filter_In, ub_In. tauto. Qed.

Lemma f0_uncrossed_and_complex : uncrossed_and_complex fb c = f0_ub.
Proof. unfold uncrossed_and_complex, f0_ub. rewrite f0_cnc. reflexivity. Qed.

Lemma f0_uncrossed_basic : uncrossed_basic fb c = f0_ubb.
Proof. unfold uncrossed_basic. rewrite f0_uncrossed_and_complex. reflexivity. Qed.

Lemma f0_ubs_eq : uncrossed_basic_source fb c = f0_ubs.
Proof. unfold uncrossed_basic_source. rewrite f0_uncrossed_basic. reflexivity. Qed.

Lemma f0_ubi_eq : uncrossed_basic_independent fb c = f0_ubi.
Proof. unfold uncrossed_basic_independent. rewrite f0_uncrossed_basic. reflexivity. Qed.

Lemma f0_ucd : uncrossed_derived_and_complex_derived fb c = f0_ucdl.
Proof. unfold uncrossed_derived_and_complex_derived. rewrite f0_uncrossed_and_complex. reflexivity. Qed.

(** without a derived factor there is no source factor *)
Lemma f0_no_derived_sf : has_derived fb = false -> f0_cd = [] /\ f0_sf = [] /\ f0_ubs = [] /\ f0_ubi = f0_ub.
Proof.
  intros H.
  assert (Hcd : f0_cd = []).
  { unfold f0_cd. apply filter_none. intros f Hf. apply (no_derived_act fb f H). apply f0_cact_main. exact Hf. }
  assert (Hsf : f0_sf = []) by (unfold f0_sf, source_factors; rewrite f0_cnd, Hcd; reflexivity).
  assert (Hubb : f0_ubb = f0_ub).
  { unfold f0_ubb. apply filter_all. intros f Hf. rewrite (no_derived_act fb f H (proj1 (proj1 (ub_In f) Hf))). reflexivity. }
  split; [exact Hcd|]. split; [exact Hsf|]. unfold f0_ubs, f0_ubi. rewrite Hsf, Hubb. split.
  - apply filter_none. intros f _. reflexivity.
  - apply filter_all. intros f _. reflexivity.
Qed.

Lemma f0_no_derived_ucd : has_derived fb = false -> f0_ucdl = [].
Proof.
  intros H. unfold f0_ucdl. apply filter_none. intros f Hf. apply (no_derived_act fb f H). apply (proj1 (ub_In f) Hf).
Qed.

Lemma f0_block_weight_of ci : In ci (fl_crossings fb) -> block_crossing_weight fb ci = ROk (Z.of_nat (cw_of fb ci)).
Proof.
  intros Hci. unfold block_crossing_weight, cw_of. destruct (first_index_of_spec ci _ Hci 0) as [j [Hj Hl]].
  rewrite Hj. cbn [Nat.add]. rewrite <- (f0_weights_len f0_unpack) in Hl.
  rewrite (nth_error_nth' _ 0 Hl). reflexivity.
Qed.

Lemma f0_cw_of_main : cw_of fb c = w.
Proof.
  unfold cw_of. rewrite (f0_main_index f0_unpack). apply nth_error_nth. apply (f0_weights f0_unpack).
Qed.

Lemma f0_block_weight : block_crossing_weight fb c = ROk (Z.of_nat w).
Proof.
  rewrite f0_block_weight_of by apply f0_c_in. rewrite f0_cw_of_main. reflexivity.
Qed.

Lemma f0_post_preamble : post_preamble_size fb = 0.
Proof.
  unfold post_preamble_size. rewrite (f0_alpre f0_unpack). rewrite fold_max_zero by (apply (f0_preambles f0_unpack)). reflexivity.
Qed.

Lemma f0_block_preamble_at i : i < length (fl_crossings fb) -> block_preamble_size fb i = ROk 0%Z.
Proof.
  intros Hi. unfold block_preamble_size. rewrite f0_post_preamble. rewrite <- (f0_preambles_len f0_unpack) in Hi.
  rewrite (nth_error_nth' _ 0 Hi). rewrite (f0_preambles f0_unpack _ (nth_In _ 0 Hi)). destruct (fl_alignment fb); reflexivity.
Qed.

Lemma f0_block_preamble : block_preamble_size fb (main_idx fb) = ROk 0%Z.
Proof. apply f0_block_preamble_at. apply (f0_main_lt f0_unpack). Qed.

Definition f0_moc : moc := if f0_unw then Uniform 1 else Counters f0_cws.

(** the source combinations: all level combinations of the source factors *)
Definition f0_srcs : list asg := instances_of fb f0_ubs.

Definition f0_base : enum_base :=
  {| eb_main := main_idx fb; eb_mf := c; eb_cnc := c; eb_instances := f0_instances;
     eb_cweights := f0_cws; eb_unweighted := f0_unw;
     eb_sources := f0_srcs; eb_src_factors := f0_ubs; eb_m := 1%Z; eb_csize := Z.of_nat f0_C;
     eb_moc := f0_moc; eb_sorted_derived := stable_sort (fdepth fb) (derived_factors fb); eb_sorted_ucd := stable_sort (fdepth fb) f0_ucdl; eb_has_cc := false;
     eb_crossing_sizes := map Z.of_nat (fl_sizes fb);
     eb_preamble_sizes := map (fun _ => 0%Z) (seq 0 (length (fl_crossings fb)));
     eb_crossing_weights := map (fun ci => Z.of_nat (cw_of fb ci)) (fl_crossings fb);
     eb_preamble := 0%Z |}.

(** the fields of [f0_base] that the test of a crossing reads, by crossing *)
Lemma f0_base_preamble_nth i : i < length (fl_crossings fb) -> nth_error (eb_preamble_sizes f0_base) i = Some 0%Z.
Proof.
  intros Hi. cbn [eb_preamble_sizes f0_base]. rewrite nth_error_map, (nth_error_nth' _ 0) by (rewrite seq_length; exact Hi).
  reflexivity.
Qed.

Lemma f0_base_weight_nth i ci : nth_error (fl_crossings fb) i = Some ci ->
  nth_error (eb_crossing_weights f0_base) i = Some (Z.of_nat (cw_of fb ci)).
Proof. intros Hi. cbn [eb_crossing_weights f0_base]. rewrite nth_error_map, Hi. reflexivity. Qed.

Lemma f0_base_size_nth i si : nth_error (fl_sizes fb) i = Some si ->
  nth_error (eb_crossing_sizes f0_base) i = Some (Z.of_nat si).
Proof. intros Hi. cbn [eb_crossing_sizes f0_base]. rewrite nth_error_map, Hi. reflexivity. Qed.

Lemma f0_enum_base : enum_base_of fb = ROk f0_base.
Proof.
  unfold enum_base_of. rewrite f0_main_crossing. cbn [rbind].
  rewrite f0_main_factors. cbn [rbind]. rewrite f0_cnc, f0_crossing_instances.
  rewrite f0_no_crossings. rewrite f0_block_weight. cbn [rbind].
  fold f0_cws. change (forallb (Z.eqb 1) f0_cws) with f0_unw.
  rewrite BinomFacts.sumZ_acc, f0_cws_sum.
  rewrite f0_ubs_eq. rewrite f0_crossed_complex. cbn [count_complex_crossing_instances].
  rewrite (rmap_ok_map _ (fun _ => 0%Z) (seq 0 (length (fl_crossings fb))))
    by (intros i Hi; apply in_seq in Hi; apply f0_block_preamble_at; lia).
  cbn [rbind].
  rewrite (rmap_ok_map _ (fun ci => Z.of_nat (cw_of fb ci)) (fl_crossings fb)) by (intros ci Hci; apply f0_block_weight_of; exact Hci).
  cbn [rbind].
  rewrite (map_nth_error Z.of_nat _ _ (f0_sizes f0_unpack)). cbn [of_opt rbind].
  rewrite (map_nth_error (fun ci => Z.of_nat (cw_of fb ci)) _ _ (f0_crossings f0_unpack)). cbn [of_opt rbind]. rewrite f0_cw_of_main.
  replace (Z.of_nat f0_s * Z.of_nat w =? (0 + Z.of_nat f0_C) * 1)%Z with true
    by (symmetry; apply Z.eqb_eq; unfold f0_C; lia).
  cbn [rbind].
  assert (Hpre : nth_error (map (fun _ : nat => 0%Z) (seq 0 (length (fl_crossings fb)))) (main_idx fb) = Some 0%Z).
  { rewrite nth_error_map. rewrite (nth_error_nth' (seq 0 (length (fl_crossings fb))) 0) by (rewrite seq_length; apply (f0_main_lt f0_unpack)).
    reflexivity. }
  rewrite Hpre. cbn [of_opt rbind].
  rewrite f0_ucd.
  assert (Hmap : map (fun x : Z => (x * 1)%Z) f0_cws = f0_cws).
  { rewrite <- (map_id f0_cws) at 2. apply map_ext. intros x. lia. }
  rewrite Hmap. unfold f0_base, f0_moc, f0_srcs. f_equal. f_equal; try reflexivity; try lia.
Qed.

Lemma f0_plain : plain f0_base = f0_unw.
Proof. reflexivity. Qed.

Lemma f0_qz : q_instances f0_base = Z.of_nat f0_q.
Proof. unfold q_instances. cbn [eb_instances f0_base]. rewrite f0_instances_length. reflexivity. Qed.

Lemma f0_params : StackProofs.params_ok (q_instances f0_base) (eb_moc f0_base) /\
  (plain f0_base = true -> eb_moc f0_base = Uniform 1).
Proof. destruct (enum_base_params fb f0_base f0_enum_base) as (H1 & H2 & _). split; assumption. Qed.

Lemma f0_cs_of : StackProofs.cs_of (Z.of_nat f0_q) f0_moc = f0_cws.
Proof.
  unfold f0_moc. destruct f0_unw eqn:Hu; [|reflexivity]. cbn [StackProofs.cs_of]. rewrite Nat2Z.id.
  rewrite <- f0_cws_length. symmetry. apply unw_ones. exact Hu.
Qed.

Lemma f0_Ncount (first_n : nat) : Ncount f0_base (Z.of_nat first_n) = f0_N first_n.
Proof.
  unfold Ncount, f0_N, p_N. rewrite f0_plain. fold f0_unw. rewrite f0_qz, Nat2Z.id, f0_cws_length.
  cbn [eb_moc f0_base]. rewrite f0_cs_of. reflexivity.
Qed.

(** ** the source combinations an instance allows *)
Lemma dedup_append_In acc xs x : In x (dedup_append acc xs) <-> In x acc \/ In x xs.
Proof.
  revert acc. induction xs as [|y t IH]; intros acc; cbn [dedup_append]; [cbn; tauto|].
  rewrite IH. destruct (memb y acc) eqn:E.
  - apply memb_In in E. cbn [In]. split; [tauto|]. intros [H | [H | H]]; [tauto | subst; tauto | tauto].
  - rewrite in_app_iff. cbn [In]. tauto.
Qed.

Lemma f0_sf_In df w0 d : In df f0_cd -> window_of fb df = Some w0 -> In d (win_deps w0) -> In d f0_sf.
Proof.
  intros Hdf Hw Hd. unfold f0_sf, source_factors. rewrite f0_cnd.
  assert (G : forall l acc, (In d acc \/ In df l) ->
              In d (fold_left (fun acc df0 => match window_of fb df0 with Some w1 => dedup_append acc (win_deps w1) | None => acc end) l acc)).
  { induction l as [|x t IH]; intros acc H; cbn [fold_left]; [destruct H as [H | []]; exact H|].
    apply IH. destruct H as [H | [H | H]].
    - left. destruct (window_of fb x); [apply dedup_append_In; left; exact H | exact H].
    - subst x. left. rewrite Hw. apply dedup_append_In. right. exact Hd.
    - right. exact H. }
  apply G. right. exact Hdf.
Qed.

Definition src_spec (ci sc : asg) : Prop :=
  forall df l w0, In df f0_cd -> alookup (ci ++ sc) df = Some l -> window_of fb df = Some w0 ->
    predicate fb df l (map (fun d => [alookup (ci ++ sc) d]) (win_deps w0)) = true.

Definition src_ok (ci sc : asg) : bool :=
  match source_allowed fb f0_base ci sc with ROk b => b | RErr _ => false end.

(** the lookups the filter performs succeed on an instance joined with a source combination *)
Definition merged_ok (ci sc : asg) : Prop :=
  forall df, In df f0_cd -> (exists l, alookup (ci ++ sc) df = Some l) /\
    exists w0, window_of fb df = Some w0 /\ forall d, In d (win_deps w0) -> exists a, alookup (ci ++ sc) d = Some a.

Lemma source_allowed_spec ci sc : merged_ok ci sc ->
  source_allowed fb f0_base ci sc = ROk (src_ok ci sc) /\ (src_ok ci sc = true <-> src_spec ci sc).
Proof.
  intros Hm. unfold src_ok, source_allowed, src_spec. cbn [eb_mf f0_base]. rewrite f0_cnd.
  assert (G : forall dfs, (forall df, In df dfs -> In df f0_cd) ->
              exists b, (fix go (dfs : list nat) (removed : bool) : rres bool :=
                           match dfs with
                           | [] => ROk (negb removed)
                           | df :: t =>
                             if is_complex fb df then go t removed
                             else
                               l <-- of_opt KeyError (alookup (ci ++ sc) df) ;;;
                               w1 <-- of_opt AttributeError (window_of fb df) ;;;
                               args <-- rmap (fun f => of_opt KeyError (alookup (ci ++ sc) f)) (win_deps w1) ;;;
                               if predicate fb df l (map (fun a => [Some a]) args) then go t removed else ROk false
                           end) dfs false = ROk b /\
                        (b = true <-> forall df l w0, In df dfs -> alookup (ci ++ sc) df = Some l -> window_of fb df = Some w0 ->
                                         predicate fb df l (map (fun d => [alookup (ci ++ sc) d]) (win_deps w0)) = true)).
  { induction dfs as [|df t IH]; intros Hsub.
    - exists true. split; [reflexivity|]. split; [intros _ df l w0 []|reflexivity].
    - destruct (IH (fun x Hx => Hsub x (or_intror Hx))) as (b & Hb & Hiff).
      destruct (Hm df (Hsub df (or_introl eq_refl))) as [[l Hl] (w0 & Hw & Hdeps)].
      assert (Hnc : is_complex fb df = false).
      { apply f0_not_complex. apply f0_cact_main. assert (Hin := Hsub df (or_introl eq_refl)). unfold f0_cd in Hin.
        apply filter_In in Hin. apply Hin. }
      rewrite Hnc, Hl, Hw. cbn [of_opt rbind].
      destruct (rmap_alookup_total (ci ++ sc) (win_deps w0) Hdeps) as (args & Hr & Em). rewrite Hr. cbn [rbind]. rewrite Em.
      destruct (predicate fb df l (map (fun d => [alookup (ci ++ sc) d]) (win_deps w0))) eqn:Ep.
      + exists b. split; [exact Hb|]. rewrite Hiff. split.
        * intros H df' l' w' [E | Hin] Hl' Hw'; [subst df'; rewrite Hl in Hl'; rewrite Hw in Hw'; inversion Hl'; inversion Hw'; subst; exact Ep|].
          apply (H df' l' w' Hin Hl' Hw').
        * intros H df' l' w' Hin. apply H. right. exact Hin.
      + exists false. split; [reflexivity|]. split; [discriminate|]. intros H.
        rewrite (H df l w0 (or_introl eq_refl) Hl Hw) in Ep. discriminate. }
  destruct (G f0_cd (fun df H => H)) as (b & Hb & Hiff). rewrite Hb. split; [reflexivity | exact Hiff].
Qed.

Lemma f0_instance_shape ci : In ci f0_instances -> exists ls, In ls f0_cprod /\ ci = combine c ls /\ length ls = length c.
Proof.
  intros H. unfold f0_instances in H. apply in_map_iff in H. destruct H as [ls [E Hls]]. exists ls. split; [exact Hls|].
  split; [symmetry; exact E | exact (allowed_combos2_length fb c ls Hls)].
Qed.

Lemma f0_src_shape sc : In sc f0_srcs -> exists ls, sc = combine f0_ubs ls /\ length ls = length f0_ubs /\
  Forall2 (fun f l => l < nlevels fb f) f0_ubs ls.
Proof.
  intros H. unfold f0_srcs, instances_of in H. apply in_map_iff in H. destruct H as [ls [E Hls]]. exists ls.
  split; [symmetry; exact E|]. pose proof (product_length_elem _ _ Hls) as Hl. rewrite map_length in Hl. split; [exact Hl|].
  apply product_In, Forall2_map_l in Hls. revert Hls. apply Forall2_imp. intros f l Hin. apply in_seq in Hin. apply Hin.
Qed.

Lemma alookup_combine_in fs ls f : NoDup fs -> length ls = length fs -> In f fs -> exists a, alookup (combine fs ls) f = Some a.
Proof.
  intros Hnd Hl Hf. apply In_nth_error in Hf. destruct Hf as [i Hi]. rewrite (alookup_combine fs ls i f Hnd Hl Hi).
  assert (i < length ls) by (rewrite Hl; apply nth_error_Some; congruence).
  destruct (nth_error ls i) eqn:E; [eexists; reflexivity | apply nth_error_None in E; lia].
Qed.

Lemma f0_ubs_nodup : NoDup f0_ubs.
Proof. unfold f0_ubs, f0_ubb, f0_ub. apply NoDup_filter. apply NoDup_filter. apply NoDup_filter. apply act_nodup. Qed.

Lemma f0_merged_ok ci sc : In ci f0_instances -> In sc f0_srcs -> merged_ok ci sc.
Proof.
  intros Hci Hsc df Hdf. destruct (f0_instance_shape ci Hci) as (ls & _ & -> & Hl).
  destruct (f0_src_shape sc Hsc) as (ls' & -> & Hl' & _).
  assert (Hdfc : In df c) by (unfold f0_cd in Hdf; apply filter_In in Hdf; apply Hdf).
  assert (Hder : is_derived fb df = true) by (unfold f0_cd in Hdf; apply filter_In in Hdf; apply Hdf).
  assert (Hlook : forall d, In d c \/ In d f0_ubs -> exists a, alookup (combine c ls ++ combine f0_ubs ls') d = Some a).
  { intros d [Hd | Hd]; rewrite alookup_app.
    - destruct (alookup_combine_in c ls d (f0_nodup f0_unpack) Hl Hd) as [a Ha]. rewrite Ha. eexists. reflexivity.
    - destruct (alookup (combine c ls) d) as [a|]; [eexists; reflexivity|].
      apply (alookup_combine_in f0_ubs ls' d f0_ubs_nodup Hl' Hd). }
  split; [apply Hlook; left; exact Hdfc|].
  destruct (f0_crossed_kind df Hdfc Hder) as (fd & w0 & Hfa & Hw & _ & _ & _ & Hdeps).
  exists w0. split; [unfold window_of; rewrite Hfa; exact Hw|]. intros d Hd. apply Hlook.
  destruct (Hdeps d Hd) as [Hda Hdb]. destruct (in_dec Nat.eq_dec d c) as [Hc | Hnc]; [left; exact Hc|]. right.
  unfold f0_ubs. apply filter_In. split.
  - unfold f0_ubb. apply filter_In. split; [|rewrite Hdb; reflexivity].
    unfold f0_ub. apply filter_In. split; [exact Hda|]. apply negb_true_iff. apply memb_false. exact Hnc.
  - apply memb_In. apply (f0_sf_In df w0 d Hdf); [unfold window_of; rewrite Hfa; exact Hw | exact Hd].
Qed.

Definition f0_valid (ci : asg) : list nat :=
  filter (fun j => src_ok ci (nth j f0_srcs [])) (seq 0 (length f0_srcs)).
Definition f0_vs : list (list nat) := map f0_valid f0_instances.

Lemma f0_valid_sources : valid_sources fb f0_base = ROk f0_vs.
Proof.
  unfold valid_sources, f0_vs. cbn [eb_instances f0_base]. apply rmap_ok_map. intros ci Hci.
  unfold valid_sources_for, f0_valid. cbn [eb_sources f0_base].
  assert (G : forall scs i0, (forall sc, In sc scs -> In sc f0_srcs) ->
              (fix go (scs : list asg) (i : nat) : rres (list nat) :=
                 match scs with
                 | [] => ROk []
                 | sc :: t => ok <-- source_allowed fb f0_base ci sc ;;; r <-- go t (S i) ;;; ROk (if ok then i :: r else r)
                 end) scs i0 =
              ROk (map (Nat.add i0) (filter (fun j => src_ok ci (nth j scs [])) (seq 0 (length scs))))).
  { induction scs as [|sc t IH]; intros i0 Hsub; [reflexivity|].
    destruct (source_allowed_spec ci sc (f0_merged_ok ci sc Hci (Hsub sc (or_introl eq_refl)))) as [Hs _]. rewrite Hs. cbn [rbind].
    rewrite (IH (S i0) (fun x Hx => Hsub x (or_intror Hx))). cbn [rbind length seq].
    rewrite <- seq_shift. cbn [filter nth]. rewrite filter_map_comm. cbn [nth].
    destruct (src_ok ci sc); cbn [map]; rewrite !map_map; f_equal; try (f_equal; [lia|]); apply map_ext; intros j; lia. }
  rewrite (G f0_srcs 0 (fun sc H => H)). f_equal. rewrite <- (map_id (filter _ _)) at 2. apply map_ext. intros j. reflexivity.
Qed.

Lemma f0_vs_length : length f0_vs = f0_q.
Proof. unfold f0_vs. rewrite map_length. apply f0_instances_length. Qed.

Lemma f0_vs_plain : has_derived fb = false -> f0_vs = map (fun _ => [0]) f0_instances.
Proof.
  intros Hd. destruct (f0_no_derived_sf Hd) as (Hcd & _ & Hubs & _). unfold f0_vs. apply map_ext. intros ci.
  unfold f0_valid, f0_srcs. rewrite Hubs. change (instances_of fb []) with [([] : asg)]. cbn [length seq filter nth].
  assert (Hok : src_ok ci [] = true).
  { unfold src_ok, source_allowed. cbn [eb_mf f0_base]. rewrite f0_cnd, Hcd. reflexivity. }
  rewrite Hok. reflexivity.
Qed.

(** every instance allows some source combination *)
Lemma f0_vs_nonempty l : In l f0_vs -> 0 < length l.
Proof.
  intros Hl. destruct (has_derived fb) eqn:Hd.
  - destruct (f0_derived_single f0_unpack Hd) as [_ Hs]. unfold sources_ok in Hs. rewrite f0_enum_base, f0_valid_sources in Hs.
    rewrite forallb_forall in Hs. apply Nat.ltb_lt. apply Hs. exact Hl.
  - (* no derived factor: the empty source combination is allowed *)
    rewrite (f0_vs_plain Hd) in Hl. apply in_map_iff in Hl. destruct Hl as [ci [E _]]. subst l. apply Nat.lt_0_1.
Qed.

Definition f0_combs : list Z := map (fun l : list nat => Z.of_nat (length l)) f0_vs.
Definition f0_inds (first_n : Z) : list Z := map (fun f => (Z.of_nat (length (f0_L f)) ^ first_n)%Z) f0_ubi.
Definition f0_shape (first_n : nat) : shape :=
  {| sh_cross := f0_N first_n; sh_combs := f0_combs; sh_inds := f0_inds (Z.of_nat first_n) |}.

(** a memo table the counter / unranker may use *)
Definition f0_memo_ok (memo : memo_t) : Prop := StackProofs.memo_valid (Z.of_nat f0_q) f0_moc memo.

Lemma f0_memo_nil : f0_memo_ok [].
Proof. apply StackProofs.memo_valid_nil. Qed.

Lemma f0_params_ok : StackProofs.params_ok (Z.of_nat f0_q) f0_moc.
Proof. destruct f0_params as [H _]. rewrite f0_qz in H. exact H. Qed.

Definition f0_leftover : nat := fl_trials fb mod f0_C.
Definition f0_rounds : nat := fl_trials fb / f0_C.

Definition f0_enum (m lm : memo_t) (cn lcn : Z) : enumerator :=
  {| en_base := f0_base; en_valid := f0_vs;
     en_ind_levels := map (fun f => (f, f0_L f)) f0_ubi;
     en_count := cn; en_shape := f0_shape f0_C; en_memo := m;
     en_leftover := Z.of_nat f0_leftover;
     en_lcount := lcn;
     en_lshape := if f0_leftover =? 0 then {| sh_cross := 0; sh_combs := []; sh_inds := [] |} else f0_shape f0_leftover;
     en_lmemo := lm;
     en_basic_levels := []; en_pcount := 1%Z |}.

Lemma f0_leftover_lt : f0_leftover < f0_C.
Proof. unfold f0_leftover. apply Nat.mod_upper_bound. pose proof f0_C_pos. lia. Qed.

Lemma f0_inds_pos first_n : (0 < prodZl (f0_inds (Z.of_nat first_n)))%Z.
Proof.
  unfold f0_inds. rewrite prodZl_fold_right.
  assert (G : forall l, (forall f, In f l -> In f (fl_act fb)) ->
              (0 < fold_right Z.mul 1 (map (fun f => Z.of_nat (length (f0_L f)) ^ Z.of_nat first_n) l))%Z).
  { induction l as [|f t IH]; intros Hl; cbn [map fold_right]; [lia|].
    pose proof (f0_nonempty f0_unpack f (Hl f (or_introl eq_refl))) as Hne.
    pose proof (Z.pow_pos_nonneg (Z.of_nat (length (f0_L f))) (Z.of_nat first_n) ltac:(lia) ltac:(lia)).
    pose proof (IH (fun x Hx => Hl x (or_intror Hx))). nia. }
  apply G. intros f Hf. apply (proj1 (ubi_In f) Hf).
Qed.

(** the count of a round of [first_n] trials returns, with the closed-form shape and a valid memo table; it is
    positive when the round has a permutation *)
Lemma f0_count_solutions (first_n : nat) : first_n <= f0_C ->
  exists cn memo', count_solutions fb f0_base (Z.of_nat first_n) [] f0_vs = ROk (cn, f0_shape first_n, memo') /\
                   f0_memo_ok memo' /\ ((0 < f0_N first_n)%Z -> (0 < cn)%Z).
Proof.
  intros Hle. destruct f0_params as [Hp Hplain]. pose proof f0_q_pos as Hq.
  assert (Hple : plain f0_base = true -> (Z.to_nat (Z.of_nat first_n) <= length (eb_instances f0_base))%nat).
  { intros Hpl. rewrite f0_plain in Hpl. cbn [eb_instances f0_base]. rewrite f0_instances_length, Nat2Z.id.
    rewrite <- (f0_unw_C Hpl). exact Hle. }
  destruct (count_solutions_total f0_base Hp Hplain fb (Z.of_nat first_n) [] f0_vs ltac:(lia)
              (StackProofs.memo_valid_nil _ _) Hple) as [[[cn sh] memo'] Hc].
  { cbn [eb_instances f0_base]. rewrite f0_vs_length, f0_instances_length. reflexivity. }
  { cbn [eb_instances f0_base]. rewrite f0_instances_length. exact Hq. }
  destruct (count_solutions_spec f0_base Hp Hplain fb (Z.of_nat first_n) [] f0_vs cn sh memo' ltac:(lia)
              (StackProofs.memo_valid_nil _ _) Hc) as (Hcross & Hcombs & Hval & _ & _ & Einds & count1 & Hok & Ecn).
  assert (Esh : sh = f0_shape first_n).
  { destruct sh as [a b d]. cbn [sh_cross sh_combs sh_inds] in *. unfold f0_shape. f_equal.
    - rewrite Hcross. apply f0_Ncount.
    - exact Hcombs.
    - rewrite Einds. cbn [eb_mf f0_base]. rewrite f0_ubi_eq. reflexivity. }
  exists cn, memo'. rewrite <- Esh. split; [exact Hc|]. split.
  - unfold f0_memo_ok. rewrite f0_qz in Hval. exact Hval.
  - intros HN. rewrite Ecn. apply Z.mul_pos_pos.
    + apply (count1_pos f0_base Hp (Z.of_nat first_n) (map (fun l : list nat => Z.of_nat (length l)) f0_vs) count1 ltac:(lia)).
      * rewrite map_length. cbn [eb_instances f0_base]. rewrite f0_vs_length, f0_instances_length. reflexivity.
      * cbn [eb_instances f0_base]. rewrite f0_instances_length. exact Hq.
      * intros x Hx. apply in_map_iff in Hx. destruct Hx as [l [E Hl]]. subst x. pose proof (f0_vs_nonempty l Hl). lia.
      * rewrite f0_Ncount. exact HN.
      * exact Hok.
    + rewrite Esh. cbn [sh_inds f0_shape]. apply f0_inds_pos.
Qed.

Lemma f0_N_pos_full : (0 < f0_N f0_C)%Z.
Proof. unfold f0_N. rewrite <- f0_p_C. apply p_N_pos. apply f0_cws_nonneg. Qed.

(** [make_enumerator] from the count of a full round and, when there is a leftover, the count of the leftover *)
Lemma f0_make_enumerator_of m lm cn lcn :
  count_solutions fb f0_base (Z.of_nat f0_C) [] f0_vs = ROk (cn, f0_shape f0_C, m) ->
  (f0_leftover <> 0 -> count_solutions fb f0_base (Z.of_nat f0_leftover) [] f0_vs = ROk (lcn, f0_shape f0_leftover, lm)) ->
  make_enumerator fb = ROk (if f0_leftover =? 0 then f0_enum m [] cn 1%Z else f0_enum m lm cn lcn).
Proof.
  intros E1 E2. pose proof f0_C_pos as HC. unfold make_enumerator. rewrite f0_enum_base. cbn [rbind].
  rewrite f0_valid_sources. cbn [rbind]. cbn [eb_csize f0_base]. rewrite E1. cbn [rbind].
  replace (Z.of_nat f0_C =? 0)%Z with false by (symmetry; apply Z.eqb_neq; lia).
  cbn [rbind eb_preamble f0_base]. unfold trials_Z. rewrite Z.sub_0_r.
  assert (Hmod : (Z.of_nat (fl_trials fb) mod Z.of_nat f0_C)%Z = Z.of_nat f0_leftover).
  { unfold f0_leftover. rewrite Nat2Z.inj_mod. reflexivity. }
  rewrite Hmod. unfold f0_enum. destruct (f0_leftover =? 0) eqn:E.
  - apply Nat.eqb_eq in E. rewrite E. cbn [Z.of_nat Z.eqb rbind]. cbn [eb_mf f0_base]. rewrite f0_ubi_eq. reflexivity.
  - apply Nat.eqb_neq in E.
    replace (Z.of_nat f0_leftover =? 0)%Z with false by (symmetry; apply Z.eqb_neq; lia).
    rewrite (E2 E). cbn [rbind eb_mf f0_base]. rewrite f0_ubi_eq. reflexivity.
Qed.

(** the enumerator is always built (C13 totality): its fields in closed form, the count of a full round positive *)
Lemma f0_make_enumerator_total : exists m lm cn lcn,
  make_enumerator fb = ROk (f0_enum m lm cn lcn) /\ f0_memo_ok m /\ f0_memo_ok lm /\ (0 < cn)%Z.
Proof.
  destruct (f0_count_solutions f0_C (le_n _)) as (cn & m & E1 & Hm & Hcn).
  destruct (f0_count_solutions f0_leftover (Nat.lt_le_incl _ _ f0_leftover_lt)) as (lcn & lm & E2 & Hlm & _).
  rewrite (f0_make_enumerator_of m lm cn lcn E1 (fun _ => E2)).
  destruct (f0_leftover =? 0); [exists m, [], cn, 1%Z | exists m, lm, cn, lcn];
    (split; [reflexivity|]; split; [exact Hm|]; split; [|exact (Hcn f0_N_pos_full)]); [apply f0_memo_nil | exact Hlm].
Qed.

(** ** without weights and derived factors: the counts in closed form, the memo tables untouched *)
Lemma f0_perms_div (first_n : nat) : first_n <= f0_q ->
  (fact_nat f0_q / fact_nat (f0_q - first_n))%Z = CombSpec.ffact (Z.of_nat f0_q) first_n.
Proof.
  intros H. pose proof (BinomFacts.ffact_fact f0_q first_n H) as E.
  rewrite <- E. apply Z.div_mul. pose proof (fact_nat_pos (f0_q - first_n)). lia.
Qed.

Definition f0_count (first_n : nat) : Z := (f0_N first_n * prodZl (f0_inds (Z.of_nat first_n)))%Z.

Lemma f0_count_solutions_plain (first_n : nat) memo : f0_unw = true -> has_derived fb = false -> first_n <= f0_C ->
  count_solutions fb f0_base (Z.of_nat first_n) memo f0_vs = ROk (f0_count first_n, f0_shape first_n, memo).
Proof.
  intros Hu Hd Hle. rewrite (f0_unw_C Hu) in Hle. pose proof f0_q_pos as Hq.
  assert (Ecombs : f0_combs = map (fun _ => 1%Z) f0_instances).
  { unfold f0_combs. rewrite (f0_vs_plain Hd), map_map. reflexivity. }
  unfold count_solutions, q_instances. cbn [eb_m eb_unweighted eb_instances f0_base].
  rewrite f0_instances_length. rewrite Hu. cbn [Z.eqb andb Pos.eqb].
  replace (Z.of_nat f0_q * 1)%Z with (Z.of_nat f0_q) by lia.
  unfold factorial. replace (Z.of_nat f0_q <? 0)%Z with false by (symmetry; apply Z.ltb_ge; lia).
  cbn [lift rbind]. rewrite Nat2Z.id.
  change (map (fun l : list nat => Z.of_nat (length l)) f0_vs) with f0_combs.
  cbn [eb_mf f0_base]. rewrite f0_ubi_eq.
  change (map (fun f => (Z.of_nat (length (nonexcluded_levels fb f)) ^ Z.of_nat first_n)%Z) f0_ubi)
    with (f0_inds (Z.of_nat first_n)).
  unfold f0_count, f0_shape. rewrite (f0_N_unw first_n Hu).
  destruct (Z.of_nat first_n =? Z.of_nat f0_q)%Z eqn:E.
  - apply Z.eqb_eq in E. apply Nat2Z.inj in E. subst first_n. cbn [rbind andb].
    rewrite Ecombs. rewrite prodZl_ones by (intros x Hx; apply in_map_iff in Hx; destruct Hx as [? [? _]]; congruence).
    rewrite <- f0_perms_div by lia. rewrite Nat.sub_diag. cbn [fact_nat].
    rewrite Z.div_1_r, Z.mul_1_r. reflexivity.
  - apply Z.eqb_neq in E.
    replace (Z.of_nat f0_q - Z.of_nat first_n <? 0)%Z with false by (symmetry; apply Z.ltb_ge; lia).
    cbn [lift rbind]. replace (Z.to_nat (Z.of_nat f0_q - Z.of_nat first_n)) with (f0_q - first_n) by lia.
    pose proof (fact_nat_pos (f0_q - first_n)) as Hpos.
    replace (fact_nat (f0_q - first_n) =? 0)%Z with false by (symmetry; apply Z.eqb_neq; lia).
    cbn [rbind andb]. rewrite f0_perms_div by lia.
    unfold sum_combination_products. cbn [eb_moc f0_base]. unfold f0_moc. rewrite Hu. rewrite Ecombs. rewrite all_equal_ones. cbn [andb].
    destruct f0_instances as [|i0 rest] eqn:Ei.
    { exfalso. pose proof f0_instances_length as Hl. rewrite Ei in Hl. cbn in Hl. lia. }
    cbn [map zindex Z.ltb Z.compare Z.to_nat nth_error of_opt rbind].
    rewrite Z.pow_1_l by lia. rewrite Z.mul_1_r. reflexivity.
Qed.

(** the enumerator of a design without weights and derived factors *)
Definition f0_enum_plain : enumerator :=
  f0_enum [] [] (f0_count f0_C) (if f0_leftover =? 0 then 1%Z else f0_count f0_leftover).

Lemma f0_make_enumerator_plain : f0_unw = true -> has_derived fb = false -> make_enumerator fb = ROk f0_enum_plain.
Proof.
  intros Hu Hd.
  rewrite (f0_make_enumerator_of [] [] (f0_count f0_C) (f0_count f0_leftover) (f0_count_solutions_plain f0_C [] Hu Hd (le_n _))
             (fun _ => f0_count_solutions_plain f0_leftover [] Hu Hd (Nat.lt_le_incl _ _ f0_leftover_lt))).
  unfold f0_enum_plain. destruct (f0_leftover =? 0); reflexivity.
Qed.

End F0.
