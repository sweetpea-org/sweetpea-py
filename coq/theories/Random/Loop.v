(** The sampling loop of [RandomGen.__sample] over an abstract stream of draws.

    Python:
      while sampled < sample_count:
          if len(used_keys) == possible_keys: break
          key = draw until key not in used_keys      (generate_random_samples)
          used_keys[key] = True
          if rejected(key): continue
          sampled += 1; samples.append(decode(key))

    The draws are an arbitrary finite list (what the random number generator
    happened to produce); [None] means the list ran out before the loop
    stopped.  Termination itself holds with probability 1 only (every key keeps
    a positive chance of being drawn) and is out of scope: the theorems say what
    the loop returns IF it stops. *)
From Coq Require Import List Bool Arith Lia.
From SP Require Import Base.Lists.
Import ListNotations.

Section Loop.
Variable K : Type.
Variable eqb : K -> K -> bool.
Hypothesis eqb_spec : forall a b, eqb a b = true <-> a = b.
Variable accepted : K -> bool.       (* decode + not __are_constraints_violated *)
Variable possible : nat.             (* possible_keys *)
Variable requested : nat.            (* sample_count *)

Definition mem (k : K) (l : list K) : bool := existsb (eqb k) l.

Fixpoint sample_loop (draws : list K) (used out : list K) : option (list K) :=
  match draws with
  | [] => if (requested <=? length out) || (length used =? possible) then Some out else None
  | k :: rest =>
    if requested <=? length out then Some out
    else if length used =? possible then Some out
    else if mem k used then sample_loop rest used out
    else sample_loop rest (k :: used) (if accepted k then out ++ [k] else out)
  end.

Lemma mem_In : forall k l, mem k l = true <-> In k l.
Proof.
  intros k l. unfold mem. rewrite existsb_exists. split.
  - intros [x [Hx He]]. apply eqb_spec in He. subst. exact Hx.
  - intros H. exists k. split; [exact H | apply eqb_spec; reflexivity].
Qed.

(** the universe of keys: every draw is one of them *)
Variable keys : list K.
Hypothesis keys_nodup : NoDup keys.
Hypothesis keys_count : length keys = possible.

Definition accepted_count : nat := length (filter accepted keys).

Record inv (used out : list K) : Prop := {
  inv_used_nodup : NoDup used;
  inv_used_keys : incl used keys;
  inv_out_nodup : NoDup out;
  inv_out_spec : forall k, In k out <-> In k used /\ accepted k = true;
  inv_out_len : length out <= requested
}.

Lemma inv_init : inv [] [].
Proof. constructor; [constructor | intros k [] | constructor | intros k; split; [intros [] | intros [[] _]] | apply Nat.le_0_l]. Qed.

Lemma inv_step : forall used out k,
  inv used out -> In k keys -> ~ In k used -> length out < requested ->
  inv (k :: used) (if accepted k then out ++ [k] else out).
Proof.
  intros used out k [H1 H2 H3 H4 H5] Hk Hnew Hlt.
  constructor.
  - constructor; assumption.
  - intros x [Hx | Hx]; [subst; exact Hk | apply H2; exact Hx].
  - destruct (accepted k) eqn:Ea; [|exact H3].
    apply NoDup_snoc; [exact H3|]. intros Hin. apply H4 in Hin. destruct Hin as [Hin _]. contradiction.
  - intros x. destruct (accepted k) eqn:Ea; [rewrite in_app_iff|]; cbn; rewrite H4; intuition (subst; congruence).
  - destruct (accepted k); [rewrite app_length; cbn; lia | lia].
Qed.

Lemma loop_inv : forall draws used out res,
  (forall k, In k draws -> In k keys) ->
  inv used out -> sample_loop draws used out = Some res ->
  exists used', inv used' res /\ (requested <= length res \/ length used' = possible).
Proof.
  (* both tests come first, whether or not a draw is left *)
  induction draws as [|k rest IH]; intros used out res Hd Hinv Hrun; cbn [sample_loop] in Hrun;
    (destruct (requested <=? length out) eqn:E1;
       [injection Hrun as <-; exists used; split; [exact Hinv | left; apply Nat.leb_le, E1]|]);
    (destruct (length used =? possible) eqn:E2;
       [injection Hrun as <-; exists used; split; [exact Hinv | right; apply Nat.eqb_eq, E2]|]).
  - discriminate Hrun.
  - apply Nat.leb_gt in E1.
    destruct (mem k used) eqn:E3; (eapply IH; [intros x Hx; apply Hd; right; exact Hx | | exact Hrun]); [exact Hinv|].
    apply inv_step; [exact Hinv | apply Hd; left; reflexivity | intros Hin; apply mem_In in Hin; congruence | exact E1].
Qed.

(** [C06_loop_exhausts]: whatever the draws, if the loop stops it returns
    distinct accepted keys, exactly [min requested accepted_count] of them; in
    particular, asking for at least as many as exist returns every accepted key
    exactly once. *)
Theorem loop_exhausts : forall draws res,
  (forall k, In k draws -> In k keys) ->
  sample_loop draws [] [] = Some res ->
  NoDup res /\
  (forall k, In k res -> In k keys /\ accepted k = true) /\
  length res = Nat.min requested accepted_count /\
  (accepted_count <= requested -> forall k, In k keys -> accepted k = true -> In k res).
Proof.
  intros draws res Hd Hrun.
  destruct (loop_inv draws [] [] res Hd inv_init Hrun) as [used [[H1 H2 H3 H4 H5] Hstop]].
  assert (Hsub : incl res (filter accepted keys)).
  { intros k Hk. apply H4 in Hk. apply filter_In. split; [apply H2|]; apply Hk. }
  pose proof (NoDup_incl_length H3 Hsub) as Hle. fold accepted_count in Hle.
  split; [exact H3|]. split; [intros k Hk; apply filter_In, Hsub, Hk|].
  destruct Hstop as [Hreq | Hfull].
  - (* as many as requested; if that is all of them, [res] is as long as the list of accepted keys *)
    split; [lia|]. intros Hac k Hk Ha.
    apply (NoDup_length_incl H3 (l' := filter accepted keys)); [fold accepted_count; lia | exact Hsub | apply filter_In; split; assumption].
  - (* every key has been drawn *)
    assert (Hall : incl (filter accepted keys) res).
    { intros k Hk. apply filter_In in Hk. apply H4. split; [|apply Hk].
      apply (NoDup_length_incl H1 (l' := keys)); [rewrite Hfull, keys_count; apply le_n | exact H2 | apply Hk]. }
    pose proof (NoDup_incl_length (NoDup_filter accepted keys_nodup) Hall) as Hge. fold accepted_count in Hge.
    split; [lia|]. intros _ k Hk Ha. apply Hall, filter_In. split; assumption.
Qed.

End Loop.
