(** The sampling loop of [RandomGen.__sample] (Random/Loop.v) instantiated with
    the keys of a design of fragment F2 (F1, F0): exhausting RandomGen yields exactly the
    valid sequences, each once.  Proof file. *)
From Coq Require Import ZArith List Bool Arith Lia.
From SP Require Import Design.Flat Design.Sem Random.Enum Random.Frag Random.FragSem Random.Loop
  Random.RunLemmas Random.Frag2Thms Random.Frag1Thms Random.Frag0Thms.
Import ListNotations.
Open Scope nat_scope.

(** decidable equality of keys (Python tuple equality) *)
Fixpoint zlist_eqb (a b : list Z) : bool :=
  match a, b with
  | [], [] => true
  | x :: a', y :: b' => (x =? y)%Z && zlist_eqb a' b'
  | _, _ => false
  end.
Definition comp_eqb (a b : comp) : bool :=
  let '(a0, a1, a2) := a in let '(b0, b1, b2) := b in (a0 =? b0)%Z && zlist_eqb a1 b1 && zlist_eqb a2 b2.
Fixpoint comps_eqb (a b : list comp) : bool :=
  match a, b with
  | [], [] => true
  | x :: a', y :: b' => comp_eqb x y && comps_eqb a' b'
  | _, _ => false
  end.
Definition key_eqb (a b : key) : bool :=
  (k_pre a =? k_pre b)%Z && comps_eqb (k_rounds a) (k_rounds b) &&
  match k_left a, k_left b with
  | None, None => true
  | Some x, Some y => comp_eqb x y
  | _, _ => false
  end.

Lemma zlist_eqb_spec a b : zlist_eqb a b = true <-> a = b.
Proof.
  revert b. induction a as [|x a IH]; intros [|y b]; cbn; split; intros H; try discriminate; try reflexivity.
  - apply andb_prop in H. destruct H as [H1 H2]. apply Z.eqb_eq in H1. apply IH in H2. subst. reflexivity.
  - inversion H; subst. rewrite Z.eqb_refl. apply IH. reflexivity.
Qed.

Lemma comp_eqb_spec a b : comp_eqb a b = true <-> a = b.
Proof.
  destruct a as [[a0 a1] a2], b as [[b0 b1] b2]. cbn. split; intros H.
  - apply andb_prop in H. destruct H as [H H3]. apply andb_prop in H. destruct H as [H1 H2].
    apply Z.eqb_eq in H1. apply zlist_eqb_spec in H2. apply zlist_eqb_spec in H3. subst. reflexivity.
  - inversion H; subst. rewrite Z.eqb_refl, (proj2 (zlist_eqb_spec b1 b1) eq_refl), (proj2 (zlist_eqb_spec b2 b2) eq_refl). reflexivity.
Qed.

Lemma comps_eqb_spec a b : comps_eqb a b = true <-> a = b.
Proof.
  revert b. induction a as [|x a IH]; intros [|y b]; cbn; split; intros H; try discriminate; try reflexivity.
  - apply andb_prop in H. destruct H as [H1 H2]. apply comp_eqb_spec in H1. apply IH in H2. subst. reflexivity.
  - inversion H; subst. rewrite (proj2 (comp_eqb_spec y y) eq_refl). apply IH. reflexivity.
Qed.

Lemma key_eqb_spec a b : key_eqb a b = true <-> a = b.
Proof.
  destruct a as [ap ar al], b as [bp br bl]. unfold key_eqb. cbn [k_pre k_rounds k_left]. split; intros H.
  - apply andb_prop in H. destruct H as [H H3]. apply andb_prop in H. destruct H as [H1 H2].
    apply Z.eqb_eq in H1. apply comps_eqb_spec in H2. subst.
    destruct al as [x|], bl as [y|]; try discriminate; [apply comp_eqb_spec in H3; subst|]; reflexivity.
  - inversion H; subst. rewrite Z.eqb_refl, (proj2 (comps_eqb_spec br br) eq_refl).
    destruct bl as [y|]; [apply comp_eqb_spec|]; reflexivity.
Qed.

Theorem f2_loop_exhausts (fb : flat) : frag2 fb = true -> fl_errors_fail fb = false ->
  forall (requested : nat) (draws res : list key),
  (forall k, In k draws -> In k (keys_of fb)) ->
  sample_loop key key_eqb (key_accepted fb) (length (keys_of fb)) requested draws [] [] = Some res ->
  length (keys_of fb) <= requested ->
  NoDup (map (cand_fseq fb) res) /\
  (forall s, In s (map (cand_fseq fb) res) <-> valid_b (code_sem fb) s = true).
Proof.
  intros HF He requested draws res Hd Hrun Hreq.
  destruct (loop_exhausts key key_eqb key_eqb_spec (key_accepted fb) (length (keys_of fb)) requested
              (keys_of fb) (f2_keys_nodup fb HF) eq_refl draws res Hd Hrun) as (Hnd & Hsub & _ & Hall).
  destruct (f2_accepted_exact fb HF He) as [Hnd' Hiff].
  assert (Hle : accepted_count key (key_accepted fb) (keys_of fb) <= requested).
  { unfold accepted_count. pose proof (filter_length_le (key_accepted fb) (keys_of fb)). lia. }
  assert (Hres : forall k, In k res <-> In k (accepted_keys fb)).
  { intros k. unfold accepted_keys. rewrite filter_In. split.
    - intros Hk. apply Hsub. exact Hk.
    - intros [Hk Ha]. apply Hall; assumption. }
  split.
  - apply NoDup_map_inj_in; [|exact Hnd]. intros k1 k2 H1 H2.
    apply (f2_cand_fseq_inj fb HF k1 k2 (proj1 (Hsub k1 H1)) (proj1 (Hsub k2 H2))).
  - intros s. rewrite <- Hiff. split; intros Hin; apply in_map_iff in Hin; destruct Hin as [k [E Hk]];
      apply in_map_iff; exists k; (split; [exact E | apply Hres; exact Hk]).
Qed.

Theorem f1_loop_exhausts (fb : flat) : frag1 fb = true -> fl_errors_fail fb = false ->
  forall (requested : nat) (draws res : list key),
  (forall k, In k draws -> In k (keys_of fb)) ->
  sample_loop key key_eqb (key_accepted fb) (length (keys_of fb)) requested draws [] [] = Some res ->
  length (keys_of fb) <= requested ->
  NoDup (map (cand_tseq fb) res) /\
  (forall s, In s (map (cand_tseq fb) res) <-> valid_b (code_sem fb) s = true).
Proof.
  intros HF He requested draws res Hd Hrun Hreq.
  rewrite <- (map_ext _ _ (frag1_cand_fseq fb HF)).
  exact (f2_loop_exhausts fb (frag1_frag2 fb HF) He requested draws res Hd Hrun Hreq).
Qed.

Theorem f0_loop_exhausts (fb : flat) : frag0 fb = true -> fl_errors_fail fb = false ->
  forall (requested : nat) (draws res : list key),
  (forall k, In k draws -> In k (keys_of fb)) ->
  sample_loop key key_eqb (key_accepted fb) (length (keys_of fb)) requested draws [] [] = Some res ->
  length (keys_of fb) <= requested ->
  NoDup (map (cand_tseq fb) res) /\
  (forall s, In s (map (cand_tseq fb) res) <-> valid_b (code_sem fb) s = true).
Proof. intros HF. exact (f1_loop_exhausts fb (frag0_frag1 fb HF)). Qed.
