(** Soundness for fragment F2 (factors and crossing; the constraints are in Frag1Cons.v): the candidate of every in-range key is a valid
    trial sequence of the reference semantics.  Proof file. *)
From Coq Require Import ZArith List Bool Arith Lia.
From SP Require Import Design.Flat Design.Layout Design.Sem Design.SemFacts Comb.CombModel Comb.CombSpec Random.Enum Random.Frag
  Random.FragSem Random.RunLemmas Random.FragPerm Random.Frag0Enum Random.Frag0Decode Random.Frag0Sem Random.Implied.
From SP Require Comb.PrefixProofs.
Import ListNotations.
Open Scope nat_scope.
Set Default Proof Using "All".

Lemma flat_map_length_sum {A B} (h : A -> list B) (len : A -> nat) l :
  (forall x, In x l -> length (h x) = len x) ->
  length (flat_map h l) = fold_right (fun x acc => len x + acc) 0 l.
Proof.
  induction l as [|x t IH]; intros H; [reflexivity|].
  cbn [flat_map fold_right]. rewrite app_length, (H x (or_introl eq_refl)), IH; [reflexivity|].
  intros y Hy. apply H. right. exact Hy.
Qed.

Lemma Forall_flat_map {A B} (P : B -> Prop) (h : A -> list B) l :
  (forall x, In x l -> Forall P (h x)) -> Forall P (flat_map h l).
Proof.
  induction l as [|x t IH]; intros H; [constructor|]. cbn [flat_map]. apply Forall_app. split.
  - apply H. left. reflexivity.
  - apply IH. intros y Hy. apply H. right. exact Hy.
Qed.

Lemma flat_map_map_in {A B C} (h : A -> list B) (h' : A -> list C) (F : C -> B) l :
  (forall x, In x l -> h x = map F (h' x)) -> flat_map h l = map F (flat_map h' l).
Proof.
  induction l as [|x t IH]; intros H; [reflexivity|].
  cbn [flat_map]. rewrite map_app, (H x (or_introl eq_refl)), IH; [reflexivity|].
  intros y Hy. apply H. right. exact Hy.
Qed.

Lemma filter_length_le1 {A} (p : A -> bool) (l : list A) :
  NoDup l -> (forall x y, In x l -> In y l -> p x = true -> p y = true -> x = y) -> length (filter p l) <= 1.
Proof.
  induction 1 as [|x l Hx Hnd IH]; intros Hu; [cbn; lia|].
  cbn [filter]. destruct (p x) eqn:E.
  - cbn [length]. assert (Hnone : filter p l = []).
    { apply filter_none. intros y Hy. destruct (p y) eqn:Ey; [|reflexivity]. exfalso.
      assert (x = y) by (apply Hu; [left; reflexivity | right; exact Hy | exact E | exact Ey]). subst. contradiction. }
    rewrite Hnone. cbn. lia.
  - apply IH. intros a b Ha Hb. apply Hu; right; assumption.
Qed.

Lemma filter_length_ge1 {A} (p : A -> bool) (l : list A) x : In x l -> p x = true -> 1 <= length (filter p l).
Proof.
  intros Hin Hp. assert (H : In x (filter p l)) by (apply filter_In; split; assumption).
  destruct (filter p l); [destruct H | cbn; lia].
Qed.

Lemma Forall_map_some_seq (P : nat -> Prop) (f : nat -> nat) m : (forall t, t < m -> P (f t)) ->
  Forall (fun cell => exists l, cell = Some l /\ P l) (map (fun t => Some (f t)) (seq 0 m)).
Proof.
  intros H. apply Forall_forall. intros cell Hc. apply in_map_iff in Hc. destruct Hc as [t [<- Ht]].
  apply in_seq in Ht. exists (f t). split; [reflexivity | apply H, Ht].
Qed.

Section F0V.
Variable fb : flat.
Hypothesis HF : frag2 fb = true.

Local Notation c := (the_crossing fb).
Local Notation n := (length (fl_design fb)).
Local Notation q := (f0_q fb).
Local Notation C := (f0_C fb).
Local Notation cws := (f0_cws fb).
Local Notation T := (fl_trials fb).
Local Notation lo := (f0_leftover fb).
Local Notation prod := (f0_cprod fb).
Local Notation ubi := (f0_ubi fb).
Local Notation S0 := (code_sem fb).
Local Notation K := (the_crossing fb ++ f0_ubs fb ++ f0_ubi fb).
Local Notation all_rounds := (all_rounds fb).

Lemma sum_rounds k : key_ok fb k -> fold_right (fun rc acc => fst rc + acc) 0 (all_rounds k) = T.
Proof.
  intros (_ & Hlen & _ & Hleft). unfold all_rounds. rewrite fold_right_app.
  assert (G : forall (l : list comp) acc, fold_right (fun (rc : nat * comp) a => fst rc + a) acc (map (fun cp => (C, cp)) l)
              = length l * C + acc).
  { induction l as [|x t IH]; intros acc; cbn [map fold_right length fst]; [reflexivity|]. rewrite IH. lia. }
  rewrite G, Hlen. unfold f0_rounds.
  pose proof (Nat.div_mod_eq T C) as Hdm. fold lo in Hdm.
  destruct (k_left k) as [cp|]; cbn [fold_right fst].
  - unfold f0_leftover in *. lia.
  - unfold f0_leftover in *. lia.
Qed.

Lemma decoded_row_length k g : key_ok fb k -> In g K -> length (decoded_row fb k g) = T.
Proof.
  intros Hk Hg. rewrite (decoded_row_rounds fb HF). rewrite <- (sum_rounds k Hk).
  apply flat_map_length_sum. intros rc Hrc. destruct (all_rounds_ok fb HF k Hk rc Hrc) as (Hle & _ & Hok).
  apply (round_row_length fb HF); [exact Hle | exact Hok | exact Hg].
Qed.

(** every cell of a decoded row is a level of the factor *)
Lemma crossed_level_lt perm i t g : nth_error c i = Some g ->
  Z.to_nat (nth t perm 0%Z) < q -> crossed_level fb perm i t < nlevels fb g.
Proof.
  intros Hi Hj. unfold crossed_level.
  set (ls := nth (Z.to_nat (nth t perm 0%Z)) prod []).
  assert (Hls : In ls prod) by (apply nth_In; exact Hj).
  apply (f0_cprod_in_prod fb HF) in Hls. apply product_In in Hls.
  assert (Hil : i < length c) by (apply nth_error_Some; congruence).
  pose proof (Forall2_nth _ _ _ i [] 0 Hls ltac:(rewrite map_length; exact Hil)) as H. cbv beta in H.
  rewrite (nth_map_lt (all_levels fb) c i [] 0 Hil), (nth_error_nth _ _ 0 Hi) in H. unfold all_levels in H. apply in_seq in H. lia.
Qed.

Lemma src_level_lt tc cp j t g : tc <= C -> comp_ok fb tc cp -> t < tc -> nth_error (f0_ubs fb) j = Some g ->
  src_level fb tc (perm_of fb tc (fst (fst cp))) (snd (fst cp)) j t < nlevels fb g.
Proof.
  intros Hle Hok Ht Hj. pose proof (src_at_spec fb HF tc cp t Hle Hok Ht) as Hs.
  destruct cp as [[c0 c1] c2]. cbn [fst snd]. destruct Hs as [_ Hs].
  destruct (f0_src_shape fb HF _ Hs) as (ls & E & Hl & Hall).
  unfold src_level. rewrite E. rewrite (nth_error_nth _ _ 0 Hj).
  rewrite (alookup_combine (f0_ubs fb) ls j g (f0_ubs_nodup fb HF) Hl Hj).
  assert (Hjl : j < length (f0_ubs fb)) by (apply nth_error_Some; congruence).
  pose proof (Forall2_nth _ _ _ j 0 0 Hall Hjl) as H. cbv beta in H. rewrite (nth_error_nth _ _ 0 Hj) in H.
  rewrite nth_error_nth' with (d := 0) by lia. exact H.
Qed.

(** a level of an admitted combination of the crossing is not excluded *)
Lemma crossed_level_allowed perm i t g : nth_error c i = Some g -> Z.to_nat (nth t perm 0%Z) < q ->
  ~ In (FExclude g (crossed_level fb perm i t)) (fl_constraints fb).
Proof.
  intros Hi Hj Hex. unfold crossed_level in Hex.
  set (combo := nth (Z.to_nat (nth t perm 0%Z)) prod []) in *.
  assert (Hin : In combo prod) by (apply nth_In; exact Hj).
  pose proof (allowed_combos2_length fb c combo Hin) as Hl.
  apply (proj2 (not_true_iff_false _) (f0_cprod_not_excluded fb HF combo Hin)). apply (f0_excluded_spec fb HF).
  exists g, (nth i combo 0). split; [exact Hex|].
  rewrite (alookup_combine c combo i g (f0_nodup fb (f0_unpack fb HF)) Hl Hi).
  apply nth_error_nth'. rewrite Hl. apply nth_error_Some. congruence.
Qed.

Lemma ind_level_admitted tc c2 j t g :
  Forall2 (fun f idx => (0 <= idx < Z.of_nat (length (f0_L fb f)) ^ Z.of_nat tc)%Z) ubi c2 -> t < tc ->
  nth_error ubi j = Some g -> In (ind_level fb tc c2 j t) (f0_L fb g).
Proof.
  intros Hc2 Ht Hj. unfold ind_level, lv_of. rewrite (nth_error_nth _ _ 0 Hj).
  assert (Hjl : j < length ubi) by (apply nth_error_Some; congruence).
  pose proof (Forall2_nth _ _ _ j 0 0%Z Hc2 Hjl) as Hidx. cbv beta in Hidx.
  rewrite (nth_error_nth _ _ 0 Hj) in Hidx.
  destruct (combo_of_spec fb HF tc (length (f0_L fb g)) (nth j c2 0%Z) Hidx) as (_ & Hcl & Hcd & _).
  pose proof (Forall_nth' _ _ t 0%Z Hcd ltac:(lia)) as H. cbv beta in H. apply nth_In. lia.
Qed.

(** every cell of a round carries a level of its factor; outside the source factors an admitted one *)
Lemma round_row_cells tc cp g : tc <= C -> comp_ok fb tc cp -> In g K ->
  Forall (fun cell => exists l, cell = Some l /\ l < nlevels fb g /\
                                (~ In g (f0_ubs fb) -> ~ In (FExclude g l) (fl_constraints fb))) (round_row fb tc cp g).
Proof.
  intros Hle Hok Hg. apply in_app_iff in Hg.
  destruct cp as [[c0 c1] c2]. pose proof Hok as (Hc0 & Hdef & _ & Hc2).
  destruct Hg as [Hg | Hg]; [|apply in_app_iff in Hg; destruct Hg as [Hg | Hg]];
    pose proof Hg as Hin; apply In_nth_error in Hg; destruct Hg as [i Hi].
  - rewrite (round_row_crossed fb HF tc (c0, c1, c2) i g Hle Hok Hi). cbn [fst]. apply Forall_map_some_seq. intros t Ht.
    pose proof (perm_of_pos fb HF tc c0 t Hle Hc0 Hdef Ht) as H.
    split; [apply crossed_level_lt | intros _; apply crossed_level_allowed]; assumption.
  - rewrite (round_row_src fb HF tc (c0, c1, c2) i g Hle Hok Hi). cbn [fst snd]. apply Forall_map_some_seq. intros t Ht.
    split; [apply (src_level_lt tc (c0, c1, c2) i t g Hle Hok Ht Hi) | intros Hn; contradiction].
  - rewrite (round_row_ind fb HF tc (c0, c1, c2) i g Hle Hok Hi). cbn [snd]. apply Forall_map_some_seq. intros t Ht.
    pose proof (ind_level_admitted tc c2 i t g Hc2 Ht Hi) as Hl. apply (f0_L_spec fb HF) in Hl.
    split; [apply Hl | intros _; apply Hl].
Qed.

Lemma decoded_row_cells k g : key_ok fb k -> In g K ->
  Forall (fun cell => exists l, cell = Some l /\ l < nlevels fb g /\
                                (~ In g (f0_ubs fb) -> ~ In (FExclude g l) (fl_constraints fb))) (decoded_row fb k g).
Proof.
  intros Hk Hg. rewrite (decoded_row_rounds fb HF). apply Forall_flat_map. intros rc Hrc.
  destruct (all_rounds_ok fb HF k Hk rc Hrc) as (Hle & _ & Hok). apply round_row_cells; assumption.
Qed.

Lemma count_level_none l row : (forall cell, In cell row -> cell <> Some l) -> count_level l row = 0.
Proof.
  unfold count_level. induction row as [|x t IH]; intros H; [reflexivity|]. cbn [filter].
  destruct (cell_eqb x (Some l)) eqn:E.
  - exfalso. apply (H x (or_introl eq_refl)). destruct x as [y|]; [|discriminate]. cbn in E. apply Nat.eqb_eq in E. subst. reflexivity.
  - apply IH. intros cl Hc. apply H. right. exact Hc.
Qed.

Lemma decoded_row_not_excluded k g l : key_ok fb k -> In g K -> ~ In g (f0_ubs fb) ->
  In (FExclude g l) (fl_constraints fb) -> count_level l (decoded_row fb k g) = 0.
Proof.
  intros Hk Hg Hns Hex. apply count_level_none. intros cell Hc E.
  pose proof (decoded_row_cells k g Hk Hg) as Hcells. rewrite Forall_forall in Hcells.
  destruct (Hcells cell Hc) as (l' & El & _ & Hne). subst cell. inversion El; subst. apply (Hne Hns). exact Hex.
Qed.

Lemma K_cell k g t : key_ok fb k -> In g K -> t < T -> exists l, nth t (decoded_row fb k g) None = Some l /\ l < nlevels fb g.
Proof.
  intros Hk Hg Ht. pose proof (decoded_row_cells k g Hk Hg) as Hcells.
  pose proof (Forall_nth' _ _ t None Hcells ltac:(rewrite decoded_row_length by assumption; lia)) as [l [El [Hl _]]].
  exists l. auto.
Qed.

(** the window of such a factor reads drawn factors; exactly one of its levels accepts what it reads *)
Lemma ucd_kind g : In g (f0_ucdl fb) ->
  exists d w, factor_at fb g = Some d /\ ff_window d = Some w /\ (forall x, In x (win_deps w) -> In x K) /\ tables_exact fb g w = true.
Proof.
  intros Hg. apply (ucdl_In fb HF) in Hg. destruct Hg as (Ha & Hnc & Hd).
  destruct (f0_act_kind fb HF g Ha) as [H | [[H _] | (_ & d & w & Hfa & Hw & _ & _ & _ & Hdeps & Hex)]]; [congruence | contradiction|].
  exists d, w. split; [exact Hfa|]. split; [exact Hw|]. split; [|exact Hex].
  intros x Hx. apply (K_In fb HF). destruct (Hdeps x Hx) as [H1 [H2 | H2]]; auto.
Qed.

Lemma ucd_pick_spec k g t : key_ok fb k -> In g (f0_ucdl fb) -> t < T ->
  exists l0, ucd_pick fb (decoded_row fb k) g t = Some l0 /\ l0 < nlevels fb g.
Proof.
  intros Hk Hg Ht. destruct (ucd_kind g Hg) as (d & w & Hfa & Hw & Hdeps & Hex).
  unfold ucd_pick, window_of. rewrite Hfa, Hw.
  destruct (cells_args fb (fun x => nth t (decoded_row fb k x) None) (win_deps w)) as (args & Eargs & Hin).
  { intros x Hx. exact (K_cell k x t Hk (Hdeps x Hx) Ht). }
  cbv beta in Eargs. rewrite Eargs. destruct (tables_exact_one fb g w args Hex Hin) as (l0 & Hl0 & Hp0 & _).
  destruct (find (fun l => predicate fb g l (map (fun a => [Some a]) args)) (all_levels fb g)) as [l1|] eqn:Efind.
  - exists l1. split; [reflexivity|]. apply find_some in Efind. destruct Efind as [H1 _]. unfold all_levels in H1. apply in_seq in H1. lia.
  - pose proof (find_none _ _ Efind l0) as Hn. cbv beta in Hn. rewrite Hp0 in Hn. discriminate Hn. unfold all_levels. apply in_seq. lia.
Qed.

Lemma cand_row_ucd k g : In g (f0_ucdl fb) ->
  cand_row fb k g = map (fun t => ucd_pick fb (decoded_row fb k) g t) (seq 0 T).
Proof. intros Hg. unfold cand_row. rewrite (proj2 (memb_In g (f0_ucdl fb)) Hg). reflexivity. Qed.

(** the whole row of every factor of [act_design] *)
Lemma cand_row_length k g : key_ok fb k -> In g (fl_act fb) -> length (cand_row fb k g) = T.
Proof.
  intros Hk Hg. destruct (K_or_ucd fb HF g Hg) as [HK | Hu].
  - rewrite (cand_row_K fb HF) by (apply (K_not_ucd fb HF); exact HK). apply decoded_row_length; assumption.
  - rewrite (cand_row_ucd k g Hu). rewrite map_length, seq_length. reflexivity.
Qed.

Lemma cand_row_cells k g : key_ok fb k -> In g (fl_act fb) ->
  Forall (fun cell => exists l, cell = Some l /\ l < nlevels fb g /\
                                (has_derived fb = false -> ~ In (FExclude g l) (fl_constraints fb))) (cand_row fb k g).
Proof.
  intros Hk Hg. destruct (K_or_ucd fb HF g Hg) as [HK | Hu].
  - rewrite (cand_row_K fb HF) by (apply (K_not_ucd fb HF); exact HK).
    pose proof (decoded_row_cells k g Hk HK) as H. rewrite Forall_forall in *. intros cell Hc.
    destruct (H cell Hc) as (l & E & Hl & Hne). exists l. split; [exact E|]. split; [exact Hl|].
    intros Hnd. apply Hne. destruct (f0_no_derived_sf fb HF Hnd) as (_ & _ & Hubs & _). rewrite Hubs. intros [].
  - rewrite (cand_row_ucd k g Hu). apply Forall_forall. intros cell Hc. apply in_map_iff in Hc. destruct Hc as [t [E Ht]].
    apply in_seq in Ht. destruct (ucd_pick_spec k g t Hk Hu ltac:(lia)) as (l0 & Ep & Hl). exists l0.
    split; [rewrite <- E; exact Ep|]. split; [exact Hl|]. intros Hnd. rewrite (f0_no_derived_ucd fb HF Hnd) in Hu. destruct Hu.
Qed.

(** counting a combination in a block built from a duplicate-free index list *)
Lemma prod_nodup : NoDup prod.
Proof. apply (f0_cprod_nodup fb HF). Qed.

Lemma count_in_block (perm : list Z) j :
  Forall (fun x => (0 <= x < Z.of_nat q)%Z) perm -> j < q ->
  Z.of_nat (count_in (nth j prod []) (map (fun p => nth (Z.to_nat p) prod []) perm)) = count_sym perm (Z.of_nat j).
Proof.
  intros Hb Hj. unfold count_in. induction Hb as [|x w Hx Hw IH]; [reflexivity|].
  cbn [map filter]. rewrite MultiProofs.count_sym_cons. rewrite <- IH.
  destruct (nlist_eqb (nth j prod []) (nth (Z.to_nat x) prod [])) eqn:E.
  - apply nlist_eqb_eq in E. apply (proj1 (NoDup_nth prod []) prod_nodup) in E; [|exact Hj | fold q; lia].
    replace (x =? Z.of_nat j)%Z with true by (symmetry; apply Z.eqb_eq; lia). cbn [length]. lia.
  - replace (x =? Z.of_nat j)%Z with false; [lia|]. symmetry. apply Z.eqb_neq. intros Ex. subst x.
    rewrite Nat2Z.id in E. rewrite (proj2 (nlist_eqb_eq _ _) eq_refl) in E. discriminate.
Qed.

Lemma coded_constraint_act dc : In dc (s_constraints S0) -> not_latin dc = true /\ In (k_factor dc) (fl_act fb).
Proof.
  rewrite (f0_sem_constraints fb HF). intros Hdc. apply in_flat_map in Hdc. destruct Hdc as [x [Hx Hdc]].
  pose proof (f0_constraints fb (f0_unpack fb HF) x Hx) as Hc.
  destruct x; cbn [constraint_f2] in Hc; try discriminate; cbn [CodeSem.code_constraint] in Hdc; try (destruct Hdc; fail);
    destruct Hdc as [E | []]; subst dc; (split; [reflexivity|]); cbn [CodeSem.mk_c k_factor];
    repeat (apply andb_prop in Hc; destruct Hc as [Hc _]); apply (isact_In fb HF); exact Hc.
Qed.

Lemma K_act g : In g K -> In g (fl_act fb).
Proof. intros H. apply (K_In fb HF) in H. apply H. Qed.

Lemma K_basic g : In g (fl_act fb) -> is_derived fb g = false -> In g K.
Proof. intros H1 H2. apply (K_In fb HF). auto. Qed.

Lemma K_crossed g : In g c -> In g K.
Proof. intros H. apply in_app_iff. left. exact H. Qed.

Section Length.
Hypothesis Hq : 0 < f0_q fb.
Variable k : key.
Hypothesis Hk : key_ok fb k.
Variable r : run.
Hypothesis Hr : forall g, row_of_run r g = cand_row fb k g.
Local Notation s := (tseq_of_run fb r).

Lemma tseq_length : length s = n.
Proof. unfold tseq_of_run. rewrite map_length, seq_length. reflexivity. Qed.
End Length.

Variable k : key.
Hypothesis Hk : key_ok fb k.
Variable r : run.
Hypothesis Hr : forall g, row_of_run r g = cand_row fb k g.
Local Notation s := (tseq_of_run fb r).

Lemma tseq_row_all g : g < n -> nth g s [] = cand_row fb k g.
Proof.
  intros Hg. unfold tseq_of_run.
  change (fun f : nat => match rlookup r f with Some row => row | None => [] end) with (row_of_run r).
  rewrite nth_map_seq by exact Hg. apply Hr.
Qed.

(** the rows of the drawn factors *)
Lemma tseq_row g : In g K -> nth g s [] = decoded_row fb k g.
Proof.
  intros Hg. rewrite tseq_row_all by (apply (act_lt fb HF), K_act; exact Hg). apply (cand_row_K fb HF). apply (K_not_ucd fb HF). exact Hg.
Qed.

Lemma K_get_cell g t : In g K -> t < T -> exists l, get_cell s g t = Some l /\ l < nlevels fb g.
Proof. intros Hg Ht. unfold get_cell. rewrite tseq_row by exact Hg. apply K_cell; assumption. Qed.

(** a plain factor passes its check iff it keeps its level for its sustain count *)
Lemma f0_factor_ok f fd : In f (fl_act fb) -> is_derived fb f = false -> nth_error (s_factors S0) f = Some fd ->
  factor_ok S0 s f fd = held fb s f.
Proof.
  intros Hact Hnd Hfd. destruct (f0_sem_factor fb HF f fd Hact Hfd) as (Hf & Hnl & Hsu & Hder). specialize (Hder Hnd).
  pose proof (K_basic f Hact Hnd) as HK.
  unfold factor_ok, held. rewrite tseq_row by exact HK. rewrite decoded_row_length by assumption.
  rewrite (f0_sem_trials fb HF), Nat.eqb_refl. cbn [andb].
  apply forallb_ext_in. intros t Ht. apply in_seq in Ht.
  destruct (K_get_cell f t HK ltac:(lia)) as (l & Ec & Hl).
  rewrite Ec. unfold applies. rewrite Hder, Hnl, Hsu.
  replace (l <? nlevels fb f) with true by (symmetry; apply Nat.ltb_lt; exact Hl). cbn [andb]. rewrite andb_true_r. reflexivity.
Qed.

Definition all_tvs : list asg := flat_map (fun rc => spec_tvs fb (fst rc) (snd rc)) (all_rounds k).

Lemma decoded_row_tvs g : decoded_row fb k g = cells_for all_tvs g.
Proof. rewrite (decoded_row_rounds fb HF). unfold all_tvs. rewrite cells_for_flat_map. reflexivity. Qed.

Lemma all_tvs_length : length all_tvs = T.
Proof.
  unfold all_tvs. rewrite <- (sum_rounds k Hk). apply flat_map_length_sum. intros rc _. apply (spec_tvs_length fb HF).
Qed.

(** every trial: an instance, a source combination it admits, the independent levels *)
Lemma all_tvs_shape tv : In tv all_tvs ->
  exists ci sc rows, tv = (ci ++ sc) ++ rows /\ In ci (f0_instances fb) /\ In sc (f0_srcs fb) /\ src_ok fb ci sc = true /\
                     map fst tv = c ++ f0_ubs fb ++ ubi.
Proof.
  intros Hin. unfold all_tvs in Hin. apply in_flat_map in Hin. destruct Hin as [rc [Hrc Hin]].
  destruct (all_rounds_ok fb HF k Hk rc Hrc) as (Hle & _ & Hok).
  destruct (snd rc) as [[c0 c1] c2] eqn:Ecp. cbn [spec_tvs] in Hin. apply in_map_iff in Hin. destruct Hin as [t [E Ht]].
  apply in_seq in Ht. pose proof (src_at_spec fb HF (fst rc) (c0, c1, c2) t Hle Hok ltac:(lia)) as Hs. cbv beta iota zeta in Hs.
  pose proof (spec_tv_keys fb HF (fst rc) (c0, c1, c2) t Hle Hok ltac:(lia)) as Hkeys. cbv beta iota in Hkeys.
  rewrite E in Hkeys. destruct Hs as [Hv Hs]. apply (valid_In fb HF) in Hv. destruct Hv as [_ Hv].
  pose proof Hok as (Hc0 & Hdef & _).
  pose proof (perm_of_pos fb HF (fst rc) c0 t Hle Hc0 Hdef ltac:(lia)) as Hp.
  eexists _, _, _. split; [rewrite <- E; unfold spec_tv; rewrite app_assoc; reflexivity|].
  split; [apply nth_In; rewrite (f0_instances_length fb HF); exact Hp|]. split; [exact Hs|]. split; [exact Hv | exact Hkeys].
Qed.

(** the cell of a drawn factor in a trial is the entry of the trial's dictionary *)
Lemma cell_tv g t : In g K -> t < T -> get_cell s g t = alookup (nth t all_tvs []) g.
Proof.
  intros Hg Ht. unfold get_cell. rewrite tseq_row by exact Hg. rewrite decoded_row_tvs.
  rewrite cells_for_all.
  - apply (nth_map_lt (fun tv => alookup tv g)). rewrite all_tvs_length. exact Ht.
  - intros tv Htv. destruct (all_tvs_shape tv Htv) as (_ & _ & _ & _ & _ & _ & _ & Hkeys). apply alookup_key.
    rewrite Hkeys. exact Hg.
Qed.

(** in the dictionary of a trial a derived factor of the crossing has a level that its predicate accepts:
    the source combination of the trial was admitted for the instance *)
Lemma tv_derived_accepts tv f w : In tv all_tvs -> In f (f0_cd fb) -> window_of fb f = Some w ->
  exists l, alookup tv f = Some l /\ predicate fb f l (map (fun x => [alookup tv x]) (win_deps w)) = true.
Proof.
  intros Htv Hfcd Hw. destruct (all_tvs_shape _ Htv) as (ci & sc & rows & -> & Hci & Hsc & Hok & _).
  pose proof (f0_merged_ok fb HF ci sc Hci Hsc) as Hm.
  destruct (source_allowed_spec fb HF ci sc Hm) as [_ Hspec]. apply Hspec in Hok.
  destruct (Hm f Hfcd) as [[l Hl] (w0 & Hw0 & Hdl)]. rewrite Hw in Hw0. injection Hw0 as <-.
  exists l. split; [rewrite alookup_prefix by (rewrite Hl; discriminate); exact Hl|].
  rewrite <- (Hok f l w Hfcd Hl Hw). f_equal. apply map_ext_in. intros x Hx.
  destruct (Hdl x Hx) as [a Ha]. rewrite alookup_prefix by (rewrite Ha; discriminate). reflexivity.
Qed.

Lemma f0_crossed_derived_ok f fd : In f c -> is_derived fb f = true -> nth_error (s_factors S0) f = Some fd ->
  factor_ok S0 s f fd = true.
Proof.
  intros Hfc0 Hdf Hfd. pose proof (f0_cact_main fb HF f Hfc0) as Hact. pose proof (K_crossed f Hfc0) as HK.
  destruct (f0_sem_factor fb HF f fd Hact Hfd) as (Hf & Hnl & Hsu & _).
  destruct (f0_sem_crossed_derived fb HF f fd Hfc0 Hdf Hfd) as (Hfc & d & w & Hd & Hw & Hder & Hdeps).
  rewrite (f0_sustain_main fb HF f Hfc) in Hsu.
  rewrite (factor_ok_within S0 f fd _ Hder eq_refl eq_refl eq_refl Hsu s).
  rewrite tseq_row by exact HK. rewrite decoded_row_length by assumption.
  rewrite (f0_sem_trials fb HF), Nat.eqb_refl. cbn [andb].
  apply forallb_forall. intros t Ht. apply in_seq in Ht. assert (HtT : t < T) by lia.
  destruct (K_get_cell f t HK HtT) as (l & Ec & Hl). rewrite Ec, Hnl, (proj2 (Nat.ltb_lt _ _) Hl). cbn [andb w_deps within_win].
  rewrite (sem_accepts_predicate fb HF f d w l _ Hd).
  assert (Htv : In (nth t all_tvs []) all_tvs) by (apply nth_In; rewrite all_tvs_length; exact HtT).
  assert (Hfcd : In f (f0_cd fb)) by (unfold f0_cd; apply filter_In; split; assumption).
  destruct (tv_derived_accepts _ f w Htv Hfcd ltac:(unfold window_of; rewrite Hd; exact Hw)) as (l' & El & Hacc).
  rewrite <- (cell_tv f t HK HtT), Ec in El. injection El as <-. rewrite <- Hacc. f_equal.
  apply map_ext_in. intros x Hx. destruct (Hdeps x Hx) as [Hxa Hxd]. rewrite (cell_tv x t (K_basic x Hxa Hxd) HtT). reflexivity.
Qed.

Lemma ucd_cell g t : In g (f0_ucdl fb) -> t < T -> get_cell s g t = ucd_pick fb (decoded_row fb k) g t.
Proof.
  intros Hg Ht. unfold get_cell.
  rewrite tseq_row_all by (apply (act_lt fb HF); apply (ucdl_In fb HF) in Hg; apply Hg).
  rewrite (cand_row_ucd k g Hg).
  rewrite nth_map_seq by exact Ht. reflexivity.
Qed.

Lemma f0_ucd_ok f fd : In f (f0_ucdl fb) -> nth_error (s_factors S0) f = Some fd -> factor_ok S0 s f fd = true.
Proof.
  intros Hu Hfd. pose proof Hu as Hu'. apply (ucdl_In fb HF) in Hu'. destruct Hu' as (Hact & Hnc & Hdf).
  destruct (f0_sem_ucd fb HF f fd Hact Hnc Hdf Hfd) as (d & w & Hd & Hw & Hnl & Hsu & Hder & Hdeps & Hex).
  destruct (ucd_kind f Hu) as (d' & w' & Hd' & Hw' & HdepsK & _).
  rewrite Hd in Hd'. inversion Hd'; subst d'. rewrite Hw in Hw'. inversion Hw'; subst w'.
  set (dw := within_win w d) in *.
  assert (Hpick_eq : forall t, t < T -> pick fd dw s t = ucd_pick fb (decoded_row fb k) f t).
  { intros t Ht. unfold pick, ucd_pick, window_of. rewrite Hd, Hw, Hnl.
    rewrite (window_args_within fd dw eq_refl Hsu s t). cbn [w_deps dw within_win]. unfold all_levels.
    apply find_ext_in. intros l _. unfold dw. rewrite (sem_accepts_predicate fb HF f d w l _ Hd). f_equal.
    apply map_ext_in. intros x Hx. unfold get_cell. rewrite (tseq_row x (HdepsK x Hx)). reflexivity. }
  assert (Hpick : forall t, t < s_trials S0 -> pick fd dw s t <> None).
  { intros t Ht. rewrite (f0_sem_trials fb HF) in Ht. rewrite (Hpick_eq t Ht).
    destruct (ucd_pick_spec k f t Hk Hu Ht) as (l0 & E & _). rewrite E. discriminate. }
  apply (factor_ok_derived S0 f fd dw Hder eq_refl eq_refl eq_refl Hsu s s Hpick).
  - intros x t _. reflexivity.
  - rewrite tseq_row_all by (apply (act_lt fb HF); exact Hact). rewrite (cand_row_ucd k f Hu). rewrite (f0_sem_trials fb HF).
    apply map_ext_in. intros t Ht. apply in_seq in Ht. symmetry. apply Hpick_eq. lia.
Qed.

Definition round_combos (rc : nat * comp) : list (list nat) :=
  map (fun p => nth (Z.to_nat p) prod []) (perm_of fb (fst rc) (fst (fst (snd rc)))).
Definition all_combos : list (list nat) := flat_map round_combos (all_rounds k).

Lemma round_row_crossed_combos rc i g : In rc (all_rounds k) -> nth_error c i = Some g ->
  round_row fb (fst rc) (snd rc) g = map (fun combo => Some (nth i combo 0)) (round_combos rc).
Proof.
  intros Hrc Hi. destruct (all_rounds_ok fb HF k Hk rc Hrc) as (Hle & _ & Hok).
  rewrite (round_row_crossed fb HF _ _ i g Hle Hok Hi). unfold round_combos. rewrite map_map.
  destruct (snd rc) as [[c0 c1] c2] eqn:Ecp. cbn [fst]. destruct Hok as (Hc0 & Hdef & _).
  destruct (perm_of_spec fb HF (fst rc) c0 Hle Hc0 Hdef) as (_ & Hpl & _).
  rewrite (map_via_seq _ (perm_of fb (fst rc) c0) 0%Z), Hpl. reflexivity.
Qed.

Lemma decoded_row_crossed i g : nth_error c i = Some g ->
  decoded_row fb k g = map (fun combo => Some (nth i combo 0)) all_combos.
Proof.
  intros Hi. rewrite (decoded_row_rounds fb HF). unfold all_combos.
  apply flat_map_map_in. intros rc Hrc. apply round_row_crossed_combos; assumption.
Qed.

Lemma round_combos_length rc : In rc (all_rounds k) -> length (round_combos rc) = fst rc.
Proof.
  intros Hrc. destruct (all_rounds_ok fb HF k Hk rc Hrc) as (Hle & _ & Hok).
  unfold round_combos. rewrite map_length. destruct (snd rc) as [[c0 c1] c2]. cbn [fst]. destruct Hok as (Hc0 & Hdef & _).
  apply (perm_of_spec fb HF (fst rc) c0 Hle Hc0 Hdef).
Qed.

Lemma all_combos_length : length all_combos = T.
Proof.
  unfold all_combos. rewrite <- (sum_rounds k Hk). apply flat_map_length_sum.
  intros rc Hrc. apply round_combos_length. exact Hrc.
Qed.

Lemma round_combos_elem rc combo : In rc (all_rounds k) -> In combo (round_combos rc) -> In combo prod.
Proof.
  intros Hrc Hin. destruct (all_rounds_ok fb HF k Hk rc Hrc) as (Hle & _ & Hok).
  unfold round_combos in Hin. apply in_map_iff in Hin. destruct Hin as [p [E Hp]]. subst combo.
  destruct (snd rc) as [[c0 c1] c2]. cbn [fst] in Hp. destruct Hok as (Hc0 & Hdef & _).
  destruct (perm_of_spec fb HF (fst rc) c0 Hle Hc0 Hdef) as (_ & _ & Hpb & _).
  rewrite Forall_forall in Hpb. specialize (Hpb p Hp). apply nth_In. fold q. lia.
Qed.

Lemma all_combos_elem combo : In combo all_combos -> In combo prod.
Proof.
  unfold all_combos. intros H. apply in_flat_map in H. destruct H as [rc [Hrc Hin]].
  eapply round_combos_elem; eassumption.
Qed.

Lemma combo_at_f0 t : t < T -> combo_at s c t = map Some (nth t all_combos []).
Proof.
  intros Ht. unfold combo_at.
  assert (Hin : In (nth t all_combos []) prod) by (apply all_combos_elem, nth_In; rewrite all_combos_length; exact Ht).
  pose proof (allowed_combos2_length fb c _ Hin) as Hl.
  rewrite <- (map_nth_seq (nth t all_combos []) 0) at 1. rewrite Hl, map_map.
  rewrite <- (map_nth_seq c 0) at 1. rewrite map_map. apply map_ext_in. intros i Hi. apply in_seq in Hi.
  assert (Hg : nth_error c i = Some (nth i c 0)) by (apply nth_error_nth'; lia).
  assert (Hgn : In (nth i c 0) K) by (apply K_crossed, nth_In; lia).
  unfold get_cell. rewrite tseq_row by exact Hgn. rewrite (decoded_row_crossed i _ Hg).
  rewrite (nth_map_lt _ _ _ _ []) by (rewrite all_combos_length; exact Ht). reflexivity.
Qed.

Lemma round_block_ok rc : In rc (all_rounds k) ->
  block_ok (f0_crossing fb) (fst rc =? C) (round_combos rc).
Proof.
  intros Hrc. destruct (all_rounds_ok fb HF k Hk rc Hrc) as (Hle & _ & Hok).
  unfold round_combos. destruct (snd rc) as [[c0 c1] c2] eqn:Ecp. cbn [fst]. destruct Hok as (Hc0 & Hdef & _).
  destruct (perm_of_spec fb HF (fst rc) c0 Hle Hc0 Hdef) as (Hbw & Hpl & Hpb & _).
  split.
  - intros cm Hcm. cbn [f0_crossing c_mult] in Hcm. apply in_map_iff in Hcm. destruct Hcm as [ls [E Hls]]. subst cm.
    cbn [fst snd]. apply In_nth with (d := []) in Hls. destruct Hls as [j [Hj Ej]]. subst ls. fold q in Hj.
    pose proof (count_in_block (perm_of fb (fst rc) c0) j Hpb Hj) as Hcnt.
    pose proof (f0_cws_nth fb HF j Hj) as Hnth.
    destruct (fst rc =? C) eqn:E.
    + apply Nat.eqb_eq in E.
      assert (Hbw' : bounded_word cws (Z.of_nat (p_C cws)) (perm_of fb (fst rc) c0))
        by (rewrite (f0_p_C fb HF), <- E; exact Hbw).
      pose proof (bw_full cws (f0_cws_nonneg fb HF) _ Hbw' j ltac:(rewrite (f0_cws_length fb HF); exact Hj)) as Hfull.
      lia.
    + destruct (bw_parts cws _ _ Hbw) as (_ & _ & Hc).
      specialize (Hc j ltac:(rewrite (f0_cws_length fb HF); exact Hj)). lia.
  - intros combo Hin. exists (combo, f0_cw fb combo * the_weight fb). split; [|reflexivity]. cbn [f0_crossing c_mult].
    apply in_map_iff. exists combo. split; [reflexivity|].
    apply (round_combos_elem rc combo Hrc). unfold round_combos. rewrite Ecp. exact Hin.
Qed.

Lemma f0_crossing_ok : crossing_ok S0 s (f0_crossing fb) = true.
Proof.
  unfold crossing_ok. cbn [f0_crossing c_chunk c_first].
  pose proof (f0_C_pos fb HF) as HC.
  replace (0 <? C) with true by (symmetry; apply Nat.ltb_lt; exact HC). cbn [andb].
  pose proof Hk as (_ & Hlen & Hrounds & Hleft).
  apply (chunks_ok_rounds S0 s (f0_crossing fb) all_combos all_combos_length
           (fun t Ht => combo_at_f0 t Ht)
           (map (fun cp => round_combos (C, cp)) (k_rounds k))
           (match k_left k with Some cp => round_combos (lo, cp) | None => [] end)).
  - exact HC.
  - unfold all_combos, all_rounds. rewrite flat_map_app. f_equal.
    + rewrite flat_map_concat_map, map_map. reflexivity.
    + destruct (k_left k); [cbn; rewrite app_nil_r|]; reflexivity.
  - intros blk Hblk. apply in_map_iff in Hblk. destruct Hblk as [cp [E Hcp]]. subst blk.
    pose proof (all_rounds_full fb HF k cp Hcp) as Hrc.
    split; [apply (round_combos_length _ Hrc)|].
    pose proof (round_block_ok _ Hrc) as H. cbn [fst] in H. rewrite Nat.eqb_refl in H. exact H.
  - cbn [f0_crossing c_chunk]. destruct (k_left k) as [cp|] eqn:El; [|cbn; exact HC].
    pose proof (all_rounds_left fb HF k cp El) as Hrc.
    rewrite (round_combos_length _ Hrc). cbn [fst]. apply (f0_leftover_lt fb HF).
  - intros Hne. destruct (k_left k) as [cp|] eqn:El; [|contradiction].
    pose proof (all_rounds_left fb HF k cp El) as Hrc.
    pose proof (round_block_ok _ Hrc) as H. cbn [fst] in H.
    replace (lo =? C) with false in H by (symmetry; apply Nat.eqb_neq; pose proof (f0_leftover_lt fb HF); lia).
    exact H.
Qed.

Local Notation fs := (fill_implied fb s).

Lemma fill_length : length fs = n.
Proof. unfold fill_implied. rewrite map_length, seq_length. reflexivity. Qed.

Lemma fill_nth g : g < n -> nth g fs [] = if isact fb g then nth g s [] else implied_row fb s g.
Proof.
  intros Hg. unfold fill_implied.
  set (F := fun f0 : nat => if isact fb f0 then nth f0 s [] else implied_row fb s f0).
  rewrite nth_map_seq by exact Hg. reflexivity.
Qed.

Lemma fill_act_row g : In g (fl_act fb) -> nth g fs [] = nth g s [].
Proof.
  intros Hg. rewrite fill_nth by (apply (act_lt fb HF); exact Hg). rewrite (proj2 (isact_In fb HF g) Hg). reflexivity.
Qed.

Lemma fill_act_cell g t : In g (fl_act fb) -> get_cell fs g t = get_cell s g t.
Proof. intros Hg. unfold get_cell. rewrite fill_act_row by exact Hg. reflexivity. Qed.

(** levels of the factors of [act_design] in the candidate *)
Lemma act_cell g t : In g (fl_act fb) -> t < T -> exists l, get_cell s g t = Some l /\ l < nlevels fb g.
Proof.
  intros Hg Ht. destruct (K_or_ucd fb HF g Hg) as [HK | Hu].
  - apply K_get_cell; assumption.
  - rewrite (ucd_cell g t Hu Ht). apply ucd_pick_spec; assumption.
Qed.

(** an implied factor passes its check on the filled sequence *)
Lemma f0_implied_ok f fd : ~ In f (fl_act fb) -> nth_error (s_factors S0) f = Some fd -> factor_ok S0 fs f fd = true.
Proof.
  intros Hact Hfd. destruct (f0_sem_factor_at fb HF f fd Hfd) as (Hf & _).
  destruct (f0_sem_implied fb HF f fd Hact Hfd) as (d & w & Hd & Hw & Hnl & Hsu & Hder & Hdeps & Hex).
  set (dw := within_win w d) in *.
  assert (Hpick : forall t, t < s_trials S0 -> pick fd dw s t <> None).
  { intros t Ht. rewrite (f0_sem_trials fb HF) in Ht.
    destruct (f0_table_exact fb HF f fd d w s t Hd Hnl Hsu Hex (fun x Hx => act_cell x t (Hdeps x Hx) Ht)) as (l0 & Hl0 & Hacc & _).
    apply (pick_accepted fd dw s t l0); [lia|exact Hacc]. }
  apply (factor_ok_derived S0 f fd dw Hder eq_refl eq_refl eq_refl Hsu s fs Hpick).
  - intros x t Hx. apply fill_act_cell. apply Hdeps. exact Hx.
  - rewrite fill_nth by exact Hf.
    destruct (isact fb f) eqn:Ea; [apply (isact_In fb HF) in Ea; contradiction|].
    unfold implied_row. fold S0. rewrite Hfd, Hder. rewrite (derive_row_spec S0 f fd dw Hder eq_refl eq_refl eq_refl Hsu s Hpick). reflexivity.
Qed.

(** factors and the sampled crossing are in order: validity of the whole sequence (implied factors added)
    reduces to the sustained factors, the other crossings and the constraints on the candidate *)
Theorem f0_valid_base : valid_b S0 fs =
  sustain_held fb s && forallb (crossing_ok S0 s) (f0_ocrossings fb) && forallb (constraint_ok S0 s) (s_constraints S0).
Proof.
  unfold valid_b. rewrite fill_length, (f0_sem_factors_length fb HF), Nat.eqb_refl. cbn [andb].
  assert (Hfac : forallb (fun p => factor_ok S0 fs (fst p) (snd p)) (index_list (s_factors S0)) = sustain_held fb s).
  { unfold sustain_held, index_list. rewrite (f0_sem_factors_length fb HF).
    rewrite <- (forallb_combine_fst (fun f => if 1 <? sustain_of fb f then held fb s f else true) (seq 0 n) (s_factors S0))
      by (rewrite seq_length; apply (f0_sem_factors_length fb HF)).
    apply forallb_ext_in. intros [f fd] Hin. cbn [fst snd].
    rewrite <- (f0_sem_factors_length fb HF) in Hin. apply in_combine_seq in Hin. destruct Hin as [_ H2]. rewrite Nat.sub_0_r in H2.
    destruct (in_dec Nat.eq_dec f (fl_act fb)) as [Ha | Hna].
    - destruct (is_derived fb f) eqn:Edf.
      + rewrite (f0_sustain_derived fb HF f Ha Edf). cbn [Nat.ltb Nat.leb].
        rewrite (factor_ok_ext S0 fs s f fd (fill_act_row f Ha))
          by (intros w0 x Hw0 Hx; apply fill_act_row, (f0_sem_deps_act fb HF f fd w0 x H2 Hw0 Hx)).
        destruct (in_dec Nat.eq_dec f c) as [Hfc | Hfnc]; [apply f0_crossed_derived_ok; assumption|].
        apply f0_ucd_ok; [apply (ucdl_In fb HF); auto | exact H2].
      + destruct (f0_sem_factor fb HF f fd Ha H2) as (_ & _ & _ & Hder). specialize (Hder Edf).
        rewrite (factor_ok_ext_basic S0 fs s f fd Hder (fill_act_row f Ha)). rewrite (f0_factor_ok f fd Ha Edf H2).
        destruct (1 <? sustain_of fb f) eqn:E1; [reflexivity|]. apply held_one.
        apply Nat.ltb_ge in E1. pose proof (f0_sustain_pos fb HF f). lia.
    - rewrite (f0_sustain_not_act fb HF f Hna). cbn [Nat.ltb Nat.leb]. apply f0_implied_ok; assumption. }
  rewrite Hfac. rewrite (f0_crossings_split fb HF).
  rewrite (crossing_ok_ext S0 S0 fs s (f0_crossing fb) eq_refl) by (intros f t Hf; apply fill_act_cell; apply (f0_cact_main fb HF); exact Hf).
  rewrite f0_crossing_ok. cbn [andb]. f_equal. f_equal.
  - apply forallb_ext_in. intros cr Hcr. apply crossing_ok_ext; [reflexivity|]. intros f t Hf. apply fill_act_cell.
    destruct (f0_ocrossings_In fb HF cr Hcr) as (i & ci & Hci & _ & E). subst cr. cbn [CodeSem.code_crossing c_factors] in Hf.
    apply (f0_cact fb (f0_unpack fb HF) ci f); [eapply nth_error_In; exact Hci | exact Hf].
  - apply forallb_ext_in. intros dc Hdc. destruct (coded_constraint_act dc Hdc) as [Hnl Ha].
    apply (constraint_ok_ext S0 fs s dc Hnl). apply fill_act_row. exact Ha.
Qed.

End F0V.
