(** The reference semantics [CodeSem.code_sem] of a design of fragment F2 in
    closed form, and [Sem.chunks_ok] as a statement about the blocks into which
    the trial sequence is cut.  Proof file. *)
From Coq Require Import ZArith List Bool Arith Lia.
From SP Require Import Design.Flat Design.Layout Design.Sem Design.SemFacts Comb.CombModel Random.Enum Random.Frag
  Random.FragSem Random.RunLemmas Random.Frag0Enum.
From SP Require Encode.Compile Encode.CodeSem.
Import ListNotations.
Open Scope nat_scope.
Set Default Proof Using "All".

Lemma compile_product_eq {A} (ls : list (list A)) : Compile.product ls = Enum.product ls.
Proof. induction ls as [|l t IH]; cbn; [reflexivity|]. rewrite IH. reflexivity. Qed.

Lemma product_pairs (fs : list nat) (lv : nat -> list nat) :
  Enum.product (map (fun f => map (fun l => (f, l)) (lv f)) fs) =
  map (fun ls => combine fs ls) (Enum.product (map lv fs)).
Proof.
  induction fs as [|f t IH]; [reflexivity|].
  cbn [map Enum.product]. rewrite IH. rewrite !flat_map_concat_map. rewrite concat_map, map_map.
  f_equal. rewrite map_map. apply map_ext. intros l. rewrite !map_map. reflexivity.
Qed.

Lemma list_nat_eqb_refl l : Compile.list_nat_eqb l l = true.
Proof. induction l; cbn; [reflexivity | rewrite Nat.eqb_refl; exact IHl]. Qed.

(** the coded window of a within-trial derived factor [d] with window [w]: one trial wide, the current one *)
Definition within_win (w : fwindow) (d : ffactor) : dwindow :=
  {| w_deps := win_deps w; w_width := 1; w_stride := 1; w_start := 0; w_table := map lv_accepts (ff_levels d) |}.

(** a factor keeps its level for [sustain] trials (trial groups start at multiples of the sustain count) *)
Definition held (fb : flat) (s : tseq) (f : nat) : bool :=
  forallb (fun t => cell_eqb (get_cell s f (t / sustain_of fb f * sustain_of fb f)) (get_cell s f t)) (seq 0 (fl_trials fb)).
Definition sustain_held (fb : flat) (s : tseq) : bool :=
  forallb (fun f => if 1 <? sustain_of fb f then held fb s f else true) (seq 0 (length (fl_design fb))).

Lemma held_one fb s f : sustain_of fb f = 1 -> held fb s f = true.
Proof.
  intros E. unfold held. rewrite E. apply forallb_forall. intros t _. rewrite Nat.div_1_r, Nat.mul_1_r. apply cell_eqb_refl.
Qed.

Lemma forallb_combine_fst {A B} (g : A -> bool) (xs : list A) (ys : list B) : length ys = length xs ->
  forallb (fun p => g (fst p)) (combine xs ys) = forallb g xs.
Proof.
  revert ys. induction xs as [|x t IH]; intros [|y ys] H; cbn in *; try discriminate; [reflexivity|].
  rewrite IH by lia. reflexivity.
Qed.

Lemma sem_args_eqb a b : Sem.args_eqb a b = Enum.args_eqb a b.
Proof.
  assert (Hrow : forall x y : list (option nat), list_eqb cell_eqb x y = olist_eqb x y).
  { induction x as [|u x IHx]; intros [|v y]; cbn [list_eqb olist_eqb]; try reflexivity.
    rewrite IHx. f_equal. }
  unfold Sem.args_eqb. revert b. induction a as [|x a IH]; intros [|y b]; cbn [list_eqb Enum.args_eqb]; try reflexivity.
  rewrite IH, Hrow. reflexivity.
Qed.

(** the cells of factors that all carry a level form an argument tuple of the product of their level lists *)
Lemma cells_args fb (cell : nat -> option nat) deps :
  (forall x, In x deps -> exists l, cell x = Some l /\ l < nlevels fb x) ->
  exists args, map (fun x => [cell x]) deps = map (fun a => [Some a]) args /\
               In args (Enum.product (map (all_levels fb) deps)).
Proof.
  induction deps as [|x xs IH]; intros H.
  - exists []. split; [reflexivity | left; reflexivity].
  - destruct IH as (args & E & Hin); [intros y Hy; apply H; right; exact Hy|].
    destruct (H x (or_introl eq_refl)) as (l & El & Hl).
    exists (l :: args). cbn [map]. rewrite El, E. split; [reflexivity|].
    cbn [Enum.product]. apply in_flat_map. exists l. split; [unfold all_levels; apply in_seq; lia|].
    apply in_map. exact Hin.
Qed.

(** an exact table: exactly one level accepts such a tuple *)
Lemma tables_exact_one fb f w args : tables_exact fb f w = true ->
  In args (Enum.product (map (all_levels fb) (win_deps w))) ->
  let A := map (fun a => [Some a]) args in
  exists l0, l0 < nlevels fb f /\ predicate fb f l0 A = true /\
    forall l, l < nlevels fb f -> predicate fb f l A = true -> l = l0.
Proof.
  intros Hex Hin A. unfold tables_exact in Hex. rewrite forallb_forall in Hex. specialize (Hex args Hin). apply Nat.eqb_eq in Hex.
  fold A in Hex. assert (Hf : forall l, In l (filter (fun l => predicate fb f l A) (all_levels fb f)) <-> l < nlevels fb f /\ predicate fb f l A = true).
  { intros l. rewrite filter_In. unfold all_levels. rewrite in_seq. split; intros [H1 H2]; (split; [lia | exact H2]). }
  destruct (filter _ _) as [|l0 [|? ?]]; try discriminate. exists l0.
  destruct (proj1 (Hf l0) (or_introl eq_refl)) as [H1 H2]. split; [exact H1|]. split; [exact H2|].
  intros l Hl Hp. destruct (proj2 (Hf l) (conj Hl Hp)) as [E | []]. symmetry. exact E.
Qed.

Section F0S.
Variable fb : flat.
Hypothesis HF : frag2 fb = true.

Local Notation c := (the_crossing fb).
Local Notation n := (length (fl_design fb)).
Local Notation q := (f0_q fb).
Local Notation prod := (f0_cprod fb).
Local Notation S0 := (code_sem fb).

(** [sustain_of]: the sustain count of the last crossing that contains the factor, 1 outside every crossing *)
Lemma sustain_fold (f : nat) (l : list (list nat * nat)) : forall acc,
  let r := fold_left (fun acc cs => if existsb (Nat.eqb f) (fst cs) then snd cs else acc) l acc in
  r = acc \/ exists cs, In cs l /\ In f (fst cs) /\ r = snd cs.
Proof.
  induction l as [|p t IH]; intros acc; cbn [fold_left]; [left; reflexivity|].
  destruct (IH (if existsb (Nat.eqb f) (fst p) then snd p else acc)) as [E | (cs & Hin & Hf & E)].
  - destruct (existsb (Nat.eqb f) (fst p)) eqn:Ex.
    + right. exists p. split; [left; reflexivity|]. split; [|exact E].
      apply existsb_exists in Ex. destruct Ex as [x [Hx Ex]]. apply Nat.eqb_eq in Ex. subst. exact Hx.
    + left. exact E.
  - right. exists cs. split; [right; exact Hin | split; assumption].
Qed.

Lemma f0_sustain_cases f : sustain_of fb f = 1 \/
  exists ci su, In (ci, su) (combine (fl_crossings fb) (fl_sustains fb)) /\ In f ci /\ sustain_of fb f = su.
Proof.
  unfold sustain_of. destruct (sustain_fold f (combine (fl_crossings fb) (fl_sustains fb)) 1) as [E | ([ci su] & Hin & Hf & E)].
  - left. exact E.
  - right. exists ci, su. cbn [fst snd] in *. split; [exact Hin | split; assumption].
Qed.

Lemma f0_sustain_pos f : 0 < sustain_of fb f.
Proof.
  destruct (f0_sustain_cases f) as [E | (ci & su & Hin & _ & E)]; [lia|]. rewrite E.
  apply (f0_sustains_pos fb (f0_unpack fb HF)). eapply in_combine_r. exact Hin.
Qed.

Lemma f0_sustain_div f : fl_trials fb mod sustain_of fb f = 0.
Proof.
  destruct (f0_sustain_cases f) as [E | (ci & su & Hin & _ & E)]; rewrite E; [apply Nat.mod_1_r|].
  apply (f0_sustain_div fb (f0_unpack fb HF)). eapply in_combine_r. exact Hin.
Qed.

(** a factor outside [act_design] is in no crossing *)
Lemma f0_sustain_not_act f : ~ In f (fl_act fb) -> sustain_of fb f = 1.
Proof.
  intros Hn. destruct (f0_sustain_cases f) as [E | (ci & su & Hin & Hf & _)]; [exact E|]. exfalso. apply Hn.
  apply (f0_cact fb (f0_unpack fb HF) ci f); [eapply in_combine_l; exact Hin | exact Hf].
Qed.

Lemma f0_sustain_main f : In f c -> sustain_of fb f = 1.
Proof. apply (f0_main_sustain_of fb (f0_unpack fb HF)). Qed.

(** with one crossing only nothing is sustained *)
Lemma f0_sustain_single f : length (fl_crossings fb) = 1 -> sustain_of fb f = 1.
Proof.
  intros Hone. destruct (f0_sustain_cases f) as [E | (ci & su & Hin & _ & E)]; [exact E|]. rewrite E.
  pose proof (f0_main_lt fb (f0_unpack fb HF)) as Hlt. pose proof (f0_main_sustain fb (f0_unpack fb HF)) as Hs.
  pose proof (f0_sustains_len fb (f0_unpack fb HF)) as Hl. rewrite Hone in Hlt, Hl.
  assert (E0 : main_idx fb = 0) by lia. rewrite E0 in Hs.
  destruct (fl_sustains fb) as [|x [|? ?]]; try discriminate. cbn in Hs. inversion Hs; subst x.
  apply in_combine_r in Hin. destruct Hin as [H | []]. symmetry. exact H.
Qed.

(** without a sustained crossing nothing is to be held *)
Lemma f0_sustain_held_trivial s : (forall x, In x (fl_sustains fb) -> x = 1) -> sustain_held fb s = true.
Proof.
  intros H1. unfold sustain_held. apply forallb_forall. intros f _.
  destruct (f0_sustain_cases f) as [E | (ci & su & Hin & _ & E)]; rewrite E; [reflexivity|].
  rewrite (H1 su (in_combine_r _ _ _ _ Hin)). reflexivity.
Qed.

Lemma f0_sustain_derived f : In f (fl_act fb) -> is_derived fb f = true -> sustain_of fb f = 1.
Proof.
  intros Hf Hd. destruct (f0_act_kind fb HF f Hf) as [H | [[Hc _] | _]]; [congruence | apply f0_sustain_main; exact Hc|].
  apply f0_sustain_single. apply (f0_derived_single fb (f0_unpack fb HF)).
  unfold has_derived. apply existsb_exists. exists f. split; assumption.
Qed.

Lemma f0_sem_trials : s_trials S0 = fl_trials fb.
Proof. reflexivity. Qed.

Lemma f0_sem_factors_length : length (s_factors S0) = n.
Proof.
  unfold code_sem, CodeSem.code_sem. cbn [s_factors]. rewrite map_length, combine_length, seq_length. apply Nat.min_id.
Qed.

(** a factor of the reference semantics is the coded factor of the design *)
Lemma f0_sem_factor_at f fd : nth_error (s_factors S0) f = Some fd ->
  f < n /\ exists d, factor_at fb f = Some d /\ fd = CodeSem.code_factor fb f d.
Proof.
  unfold code_sem, CodeSem.code_sem. cbn [s_factors]. intros H.
  rewrite nth_error_map, nth_error_combine_seq in H. destruct (nth_error (fl_design fb) f) as [d|] eqn:Hd; [|discriminate].
  cbn in H. injection H as <-. split; [apply nth_error_Some; congruence|]. exists d. split; [exact Hd | reflexivity].
Qed.

Lemma f0_sem_factor_some f : f < n -> exists fd, nth_error (s_factors S0) f = Some fd.
Proof.
  intros Hf. destruct (nth_error (s_factors S0) f) as [fd|] eqn:E; [exists fd; reflexivity|].
  apply nth_error_None in E. rewrite f0_sem_factors_length in E. lia.
Qed.

(** the factors of [act_design] are plain, or within-trial derived factors of the sampled crossing *)
Lemma f0_sem_factor f fd : In f (fl_act fb) -> nth_error (s_factors S0) f = Some fd ->
  f < n /\ f_nlevels fd = nlevels fb f /\ f_sustain fd = sustain_of fb f /\ (is_derived fb f = false -> f_derived fd = None).
Proof.
  intros Hact H. destruct (f0_sem_factor_at f fd H) as (Hf & d & Hd & ->). split; [exact Hf|].
  unfold CodeSem.code_factor. cbn [f_nlevels f_sustain f_derived].
  split; [unfold nlevels; rewrite Hd; reflexivity|]. split; [reflexivity|].
  intros Hnd. unfold is_derived in Hnd. rewrite Hd in Hnd. destruct (ff_window d); [discriminate | reflexivity].
Qed.

Lemma f0_sem_crossed_derived f fd : In f c -> is_derived fb f = true -> nth_error (s_factors S0) f = Some fd ->
  In f c /\ exists d w, factor_at fb f = Some d /\ ff_window d = Some w /\
    f_derived fd = Some (within_win w d) /\
    (forall x, In x (win_deps w) -> In x (fl_act fb) /\ is_derived fb x = false).
Proof.
  intros Hc Hder H. destruct (f0_sem_factor_at f fd H) as (Hf & d & Hd & ->).
  destruct (f0_crossed_kind fb HF f Hc Hder) as (d' & w & Hd' & Hw & Hwd & Hsd & Hst & Hdeps).
  rewrite Hd in Hd'. inversion Hd'; subst d'. split; [exact Hc|]. exists d, w. split; [exact Hd|]. split; [exact Hw|].
  unfold CodeSem.code_factor. cbn [f_derived]. rewrite Hw, Hwd, Hsd, Hst. split; [reflexivity | exact Hdeps].
Qed.

(** a derived factor of [act_design] outside the sampled crossing *)
Lemma f0_sem_ucd f fd : In f (fl_act fb) -> ~ In f c -> is_derived fb f = true -> nth_error (s_factors S0) f = Some fd ->
  exists d w, factor_at fb f = Some d /\ ff_window d = Some w /\ f_nlevels fd = nlevels fb f /\ f_sustain fd = 1 /\
    f_derived fd = Some (within_win w d) /\
    (forall x, In x (win_deps w) -> In x (fl_act fb) /\ (is_derived fb x = false \/ In x c)) /\ tables_exact fb f w = true.
Proof.
  intros Hact Hnc Hder H. destruct (f0_sem_factor f fd Hact H) as (_ & Hnl & Hsu & _).
  rewrite (f0_sustain_derived f Hact Hder) in Hsu.
  destruct (f0_sem_factor_at f fd H) as (Hf & d & Hd & ->).
  destruct (f0_act_kind fb HF f Hact) as [Hn | [[Hc _] | (_ & d' & w & Hd' & Hw & Hwd & Hsd & Hst & Hdeps & Hex)]];
    [congruence | contradiction|].
  rewrite Hd in Hd'. inversion Hd'; subst d'. exists d, w. split; [exact Hd|]. split; [exact Hw|].
  split; [exact Hnl|]. split; [exact Hsu|].
  unfold CodeSem.code_factor. cbn [f_derived]. rewrite Hw, Hwd, Hsd, Hst. split; [reflexivity|]. split; [exact Hdeps | exact Hex].
Qed.

(** the other factors are within-trial derived factors that read factors of [act_design] *)
Lemma f0_sem_implied f fd : ~ In f (fl_act fb) -> nth_error (s_factors S0) f = Some fd ->
  exists d w, factor_at fb f = Some d /\ ff_window d = Some w /\ f_nlevels fd = nlevels fb f /\ f_sustain fd = 1 /\
    f_derived fd = Some (within_win w d) /\
    (forall x, In x (win_deps w) -> In x (fl_act fb)) /\ tables_exact fb f w = true.
Proof.
  intros Hact H. destruct (f0_sem_factor_at f fd H) as (Hf & d & Hd & ->).
  pose proof (f0_implied fb (f0_unpack fb HF) f d Hact Hd) as Hi. unfold implied_fd in Hi.
  destruct (ff_window d) as [w|] eqn:Ew; [|discriminate].
  apply andb_prop in Hi. destruct Hi as [Hi Hex]. apply andb_prop in Hi. destruct Hi as [Hi Hdeps].
  destruct (within_trial_head _ _ Hi) as (_ & Hwd & Hsd & Hst).
  exists d, w. split; [exact Hd|]. split; [exact Ew|]. unfold CodeSem.code_factor. cbn [f_nlevels f_sustain f_derived].
  split; [unfold nlevels; rewrite Hd; reflexivity|]. split; [apply f0_sustain_not_act; exact Hact|]. rewrite Ew, Hst, Hsd, Hwd.
  split; [reflexivity|]. split; [|exact Hex]. intros x Hx. rewrite forallb_forall in Hdeps. apply (isact_In fb HF). apply Hdeps. exact Hx.
Qed.

(** every window of the coded design reads factors of [act_design] *)
Lemma f0_sem_deps_act f fd w0 x : nth_error (s_factors S0) f = Some fd -> f_derived fd = Some w0 ->
  In x (w_deps w0) -> In x (fl_act fb).
Proof.
  intros E Hw0 Hx. destruct (in_dec Nat.eq_dec f (fl_act fb)) as [Ha | Hna].
  - destruct (is_derived fb f) eqn:Ed.
    + destruct (in_dec Nat.eq_dec f c) as [Hfc | Hfnc].
      * destruct (f0_sem_crossed_derived f fd Hfc Ed E) as (_ & d & w & _ & _ & Hder & Hdeps).
        rewrite Hder in Hw0. injection Hw0 as <-. apply (Hdeps x Hx).
      * destruct (f0_sem_ucd f fd Ha Hfnc Ed E) as (d & w & _ & _ & _ & _ & Hder & Hdeps & _).
        rewrite Hder in Hw0. injection Hw0 as <-. apply (Hdeps x Hx).
    + destruct (f0_sem_factor f fd Ha E) as (_ & _ & _ & Hder). rewrite (Hder Ed) in Hw0. discriminate.
  - destruct (f0_sem_implied f fd Hna E) as (d & w & _ & _ & _ & _ & Hder & Hdeps & _).
    rewrite Hder in Hw0. injection Hw0 as <-. apply (Hdeps x Hx).
Qed.

(** the acceptance test of the reference semantics on the coded window is the predicate of the sampler *)
Lemma sem_accepts_predicate f d w l args : factor_at fb f = Some d ->
  Sem.accepts (within_win w d) l args = predicate fb f l args.
Proof.
  intros Hd. unfold Sem.accepts, predicate, level_accepts, levels_of. cbn [w_table within_win]. rewrite Hd.
  assert (Etab : nth l (map lv_accepts (ff_levels d)) [] = match nth_error (ff_levels d) l with Some lv => lv_accepts lv | None => [] end).
  { destruct (nth_error (ff_levels d) l) as [lv|] eqn:E.
    - rewrite (nth_map_lt lv_accepts _ _ [] lv) by (apply nth_error_Some; congruence).
      rewrite (nth_error_nth _ _ lv E). reflexivity.
    - apply nth_overflow. rewrite map_length. apply nth_error_None. exact E. }
  rewrite Etab. clear Etab. induction (match nth_error (ff_levels d) l with Some lv => lv_accepts lv | None => [] end) as [|e es IH]; [reflexivity|].
  cbn [existsb]. rewrite sem_args_eqb, IH. reflexivity.
Qed.

(** a within-trial factor with an exact table: in a trial in which the factors it reads all carry a level,
    exactly one of its levels is accepted *)
Lemma f0_table_exact f fd d w (s0 : tseq) t : factor_at fb f = Some d -> f_nlevels fd = nlevels fb f -> f_sustain fd = 1 ->
  tables_exact fb f w = true ->
  (forall x, In x (win_deps w) -> exists l, get_cell s0 x t = Some l /\ l < nlevels fb x) ->
  let dw := within_win w d in
  exists l0, l0 < f_nlevels fd /\ Sem.accepts dw l0 (window_args s0 fd dw t) = true /\
    forall l, l < f_nlevels fd -> Sem.accepts dw l (window_args s0 fd dw t) = true -> l = l0.
Proof.
  intros Hd Hnl Hsu Hex Hcells dw.
  assert (Hwa : window_args s0 fd dw t = map (fun x => [get_cell s0 x t]) (win_deps w)).
  { unfold window_args. rewrite Hsu. cbn [w_width w_deps dw within_win]. rewrite Nat.div_1_r, Nat.mul_1_r.
    cbn [seq map Nat.sub Nat.mul Nat.leb]. apply map_ext. intros x. rewrite Nat.sub_0_r. reflexivity. }
  destruct (cells_args fb (fun x => get_cell s0 x t) (win_deps w) Hcells) as (args & Eargs & Hin).
  pose proof (eq_trans Hwa Eargs) as Hwa'.
  assert (Hacc : forall l, Sem.accepts dw l (window_args s0 fd dw t) = predicate fb f l (map (fun a => [Some a]) args)).
  { intros l. rewrite Hwa'. unfold dw. apply (sem_accepts_predicate f d w l _ Hd). }
  destruct (tables_exact_one fb f w args Hex Hin) as (l0 & Hl0 & Hp0 & Huniq).
  exists l0. split; [rewrite Hnl; exact Hl0|]. split; [rewrite Hacc; exact Hp0|].
  intros l Hl Ha. rewrite Hacc in Ha. rewrite Hnl in Hl. exact (Huniq l Hl Ha).
Qed.

Lemma f0_sem_factor_old f fd : nth_error (s_factors S0) f = Some fd -> f < n.
Proof. intros H. apply (f0_sem_factor_at f fd H). Qed.

Lemma f0_sem_constraints : s_constraints S0 = flat_map (CodeSem.code_constraint fb) (fl_constraints fb).
Proof. reflexivity. Qed.

Lemma compile_lookup_eq (di : list (nat * nat)) f : Compile.lookup_level di f = alookup di f.
Proof. unfold Compile.lookup_level, alookup. destruct (find (fun p => fst p =? f) di); reflexivity. Qed.

Lemma compile_excluded_eq di : Compile.is_excluded_combination fb di = Enum.is_excluded_combination fb di.
Proof. reflexivity. Qed.

Lemma entry_matches_eq e args : Compile.entry_matches e args = args_eqb (map (fun a => [Some a]) args) e.
Proof.
  revert args. induction e as [|x e' IH]; intros [|a r]; cbn [Compile.entry_matches map args_eqb]; try reflexivity.
  - destruct x as [|[y|] [|? ?]]; reflexivity.
  - destruct x as [|[y|] [|z zs]]; cbn [olist_eqb ocell_eqb]; try reflexivity.
    + rewrite IH, andb_true_r, Nat.eqb_sym. reflexivity.
    + rewrite andb_false_r. reflexivity.
Qed.

Lemma compile_level_accepts f fd l args : factor_at fb f = Some fd ->
  Compile.level_accepts fd l args = predicate fb f l (map (fun a => [Some a]) args).
Proof.
  intros E. unfold Compile.level_accepts, predicate, level_accepts, levels_of. rewrite E.
  destruct (nth_error (ff_levels fd) l) as [lv|]; [|reflexivity].
  induction (lv_accepts lv) as [|e es IH]; [reflexivity|]. cbn [existsb]. rewrite entry_matches_eq, IH. reflexivity.
Qed.

(** the consistency test of the encoder is that of the sampler *)
Lemma compile_inconsistent_eq di :
  Compile.is_excluded_or_inconsistent fb di = Enum.is_excluded_or_inconsistent_combination fb di.
Proof.
  unfold Compile.is_excluded_or_inconsistent, Enum.is_excluded_or_inconsistent_combination. rewrite compile_excluded_eq.
  destruct (Enum.is_excluded_combination fb di); [reflexivity|]. cbn [orb].
  apply existsb_ext. intros p.
  unfold is_derived, is_complex, window_of. destruct (factor_at fb (fst p)) as [fd|] eqn:E; [|reflexivity].
  destruct (ff_window fd) as [w|]; [|reflexivity]. cbn [andb]. destruct (ff_complex fd); [reflexivity|]. cbn [negb].
  f_equal. rewrite compile_product_eq.
  rewrite (map_ext (fun d => match Compile.lookup_level di d with Some x => [x] | None => seq 0 (nlevels fb d) end)
                   (fun df => match alookup di df with Some x => [x] | None => all_levels fb df end))
    by (intros d; rewrite compile_lookup_eq; reflexivity).
  apply existsb_ext. intros args. apply (compile_level_accepts (fst p) fd (snd p) args E).
Qed.

Lemma f0_compile_combos_of ci :
  Compile.trial_combinations_of fb ci = map (fun ls => combine ci ls) (allowed_combos2 fb ci).
Proof.
  unfold Compile.trial_combinations_of, Compile.crossing_combos. rewrite compile_product_eq.
  rewrite (product_pairs ci (fun f => seq 0 (nlevels fb f))). rewrite filter_map_comm. f_equal.
  unfold allowed_combos2. apply filter_ext. intros ls. rewrite compile_inconsistent_eq. reflexivity.
Qed.

Lemma f0_compile_combos : Compile.trial_combinations_of fb c = map (fun ls => combine c ls) prod.
Proof. apply f0_compile_combos_of. Qed.

Lemma f0_compile_level_weight f l : Compile.level_weight fb f l = level_weight_nat fb f l.
Proof.
  unfold Compile.level_weight, level_weight_nat, levels_of. destruct (factor_at fb f) as [fd|]; [reflexivity|].
  destruct l; reflexivity.
Qed.

Lemma f0_compile_combination_weight di : Compile.combination_weight fb di = combo_weight fb di.
Proof.
  unfold Compile.combination_weight.
  assert (G : forall (di : list (nat * nat)) acc,
              fold_left (fun k p => k * Compile.level_weight fb (fst p) (snd p)) di acc = acc * combo_weight fb di).
  { induction di0 as [|p t IH]; intros acc; cbn [fold_left combo_weight fold_right]; [lia|].
    rewrite IH, f0_compile_level_weight. fold (combo_weight fb t). lia. }
  rewrite G. lia.
Qed.

Definition f0_crossing : dcrossing :=
  {| c_factors := c; c_first := 0; c_chunk := f0_C fb;
     c_mult := map (fun ls => (ls, f0_cw fb ls * the_weight fb)) prod |}.

Lemma list_nat_eqb_same a b : Compile.list_nat_eqb a b = nat_list_eqb a b.
Proof. revert b. induction a as [|x a IH]; intros [|y b]; cbn [Compile.list_nat_eqb nat_list_eqb]; try reflexivity; try (rewrite IH; reflexivity). Qed.

Lemma crossing_ind_first ci cs a : first_index_of ci cs a = option_map (Nat.add a) (Compile.crossing_ind ci cs).
Proof.
  revert a. induction cs as [|d t IH]; intros a; [reflexivity|]. cbn [first_index_of Compile.crossing_ind].
  change (Compile.list_nat_eqb d ci) with (nat_list_eqb d ci). destruct (nat_list_eqb d ci); [cbn; f_equal; lia|].
  rewrite IH. destruct (Compile.crossing_ind ci t); cbn; [f_equal; lia | reflexivity].
Qed.

Lemma f0_crossing_weight_of ci : In ci (fl_crossings fb) -> Compile.crossing_weight fb ci = cw_of fb ci.
Proof.
  intros Hci. unfold Compile.crossing_weight, cw_of. rewrite crossing_ind_first.
  destruct (first_index_of_spec ci _ Hci 0) as [j [Hj _]]. rewrite crossing_ind_first in Hj.
  destruct (Compile.crossing_ind ci (fl_crossings fb)); [reflexivity | discriminate].
Qed.

Lemma f0_preamble_size i : Compile.preamble_size fb i = 0.
Proof.
  unfold Compile.preamble_size. rewrite (f0_post_preamble fb HF).
  destruct (fl_alignment fb); try reflexivity;
    (destruct (Nat.lt_ge_cases i (length (fl_preambles fb))) as [Hi | Hi];
     [apply (f0_preambles fb (f0_unpack fb HF)), nth_In; exact Hi | apply nth_overflow; exact Hi]).
Qed.

(** every crossing of the block, as the reference semantics reads it *)
Lemma f0_code_crossing i ci : In ci (fl_crossings fb) ->
  CodeSem.code_crossing fb i ci =
  {| c_factors := ci; c_first := 0; c_chunk := nth i (fl_sizes fb) 0 * cw_of fb ci;
     c_mult := map (fun ls => (ls, combo_weight fb (combine ci ls) * sustain_of fb (hd 0 ci) * cw_of fb ci)) (allowed_combos2 fb ci) |}.
Proof.
  intros Hci. unfold CodeSem.code_crossing. rewrite (f0_crossing_weight_of ci Hci), f0_preamble_size.
  f_equal. rewrite f0_compile_combos_of. rewrite map_map. apply map_ext_in. intros ls Hls.
  rewrite f0_compile_combination_weight.
  rewrite map_snd_combine; [reflexivity | symmetry; exact (allowed_combos2_length fb ci ls Hls)].
Qed.

(** the crossings, numbered; all but the sampled one *)
Definition f0_icrossings : list (nat * list nat) := combine (seq 0 (length (fl_crossings fb))) (fl_crossings fb).
Definition f0_ocrossings : list dcrossing :=
  flat_map (fun ic => if fst ic =? main_idx fb then [] else [CodeSem.code_crossing fb (fst ic) (snd ic)]) f0_icrossings.

Lemma code_crossings_combine cs : forall i0,
  CodeSem.code_crossings fb i0 cs = map (fun ic => CodeSem.code_crossing fb (fst ic) (snd ic)) (combine (seq i0 (length cs)) cs).
Proof.
  induction cs as [|ci t IH]; intros i0; [reflexivity|]. cbn [CodeSem.code_crossings length seq combine map fst snd].
  rewrite IH. reflexivity.
Qed.

Lemma f0_sem_crossings_all : s_crossings S0 = map (fun ic => CodeSem.code_crossing fb (fst ic) (snd ic)) f0_icrossings.
Proof. unfold code_sem, CodeSem.code_sem. cbn [s_crossings]. apply code_crossings_combine. Qed.

Lemma forallb_split_key {A B} (P : B -> bool) (g : nat * A -> B) (l : list (nat * A)) i x :
  NoDup (map fst l) -> In (i, x) l ->
  forallb P (map g l) = P (g (i, x)) && forallb P (flat_map (fun ic => if fst ic =? i then [] else [g ic]) l).
Proof.
  induction l as [|[j y] t IH]; intros Hnd Hin; [destruct Hin|]. cbn [map fst] in Hnd. inversion Hnd as [|? ? Hj Hnd']; subst.
  cbn [map forallb flat_map fst]. destruct Hin as [E | Hin].
  - inversion E; subst. rewrite Nat.eqb_refl. cbn [app]. f_equal.
    assert (G : forall l', ~ In i (map fst l') -> flat_map (fun ic : nat * A => if fst ic =? i then [] else [g ic]) l' = map g l').
    { induction l' as [|[k z] t' IH']; intros Hn; [reflexivity|]. cbn [flat_map map fst] in *.
      replace (k =? i) with false by (symmetry; apply Nat.eqb_neq; intros E'; apply Hn; left; exact E').
      cbn [app]. f_equal. apply IH'. intros H. apply Hn. right. exact H. }
    rewrite (G t Hj). reflexivity.
  - assert (Hne : j <> i). { intros E. subst. apply Hj. apply in_map_iff. exists (i, x). split; [reflexivity | exact Hin]. }
    replace (j =? i) with false by (symmetry; apply Nat.eqb_neq; exact Hne). cbn [app forallb].
    rewrite (IH Hnd' Hin). destruct (P (g (j, y))), (P (g (i, x))); reflexivity.
Qed.

Lemma f0_icrossings_keys : map fst f0_icrossings = seq 0 (length (fl_crossings fb)).
Proof. unfold f0_icrossings. apply map_fst_combine. rewrite seq_length. reflexivity. Qed.

Lemma f0_icrossings_In i ci : In (i, ci) f0_icrossings <-> nth_error (fl_crossings fb) i = Some ci.
Proof.
  unfold f0_icrossings. rewrite in_combine_seq, Nat.sub_0_r. split; [intros [_ H]; exact H | intros H; split; [apply Nat.le_0_l | exact H]].
Qed.

(** the coded form of the sampled crossing *)
Lemma f0_code_main : CodeSem.code_crossing fb (main_idx fb) c = f0_crossing.
Proof.
  rewrite f0_code_crossing by apply (f0_c_in fb HF). unfold f0_crossing. rewrite (f0_cw_of_main fb HF).
  rewrite (nth_error_nth _ _ 0 (f0_sizes fb (f0_unpack fb HF))). f_equal.
  apply map_ext_in. intros ls Hls.
  destruct (f0_size_ok fb (f0_unpack fb HF) _ _ _ _ (f0_crossings fb (f0_unpack fb HF)) (f0_sizes fb (f0_unpack fb HF))
              (f0_main_sustain fb (f0_unpack fb HF))) as (_ & _ & _ & Hsu).
  rewrite Hsu, Nat.mul_1_r. reflexivity.
Qed.

(** a check over all crossings: the sampled one and the others *)
Lemma f0_crossings_split (P : dcrossing -> bool) :
  forallb P (s_crossings S0) = P f0_crossing && forallb P f0_ocrossings.
Proof.
  rewrite f0_sem_crossings_all.
  rewrite (forallb_split_key P (fun ic => CodeSem.code_crossing fb (fst ic) (snd ic)) f0_icrossings (main_idx fb) c).
  - cbn [fst snd]. rewrite f0_code_main. reflexivity.
  - rewrite f0_icrossings_keys. apply seq_NoDup.
  - apply f0_icrossings_In. apply (f0_crossings fb (f0_unpack fb HF)).
Qed.

Lemma f0_ocrossings_In cr : In cr f0_ocrossings ->
  exists i ci, nth_error (fl_crossings fb) i = Some ci /\ i <> main_idx fb /\ cr = CodeSem.code_crossing fb i ci.
Proof.
  unfold f0_ocrossings. intros H. apply in_flat_map in H. destruct H as [[i ci] [Hin H]]. cbn [fst snd] in H.
  destruct (i =? main_idx fb) eqn:E; [destruct H|]. destruct H as [H | []]. apply Nat.eqb_neq in E.
  exists i, ci. split; [apply f0_icrossings_In; exact Hin|]. split; [exact E | symmetry; exact H].
Qed.

(** one crossing only: there is no other *)
Lemma f0_ocrossings_single : length (fl_crossings fb) = 1 -> f0_ocrossings = [].
Proof.
  intros Hone. pose proof (f0_main_lt fb (f0_unpack fb HF)) as Hlt. rewrite Hone in Hlt.
  unfold f0_ocrossings, f0_icrossings. rewrite Hone. destruct (fl_crossings fb) as [|c0 [|? ?]]; try discriminate.
  cbn [seq combine flat_map fst]. replace (main_idx fb) with 0 by lia. reflexivity.
Qed.

End F0S.

Fixpoint nlist_eqb (a b : list nat) : bool :=
  match a, b with
  | [], [] => true
  | x :: a', y :: b' => (x =? y) && nlist_eqb a' b'
  | _, _ => false
  end.

Lemma combo_eqb_map_some a b : Sem.combo_eqb a (map Some b) = nlist_eqb a b.
Proof.
  unfold Sem.combo_eqb. revert b. induction a as [|x a IH]; intros [|y b]; cbn; try reflexivity.
  rewrite IH. reflexivity.
Qed.

Lemma nlist_eqb_eq a b : nlist_eqb a b = true <-> a = b.
Proof.
  revert b. induction a as [|x a IH]; intros [|y b]; cbn; split; intros H; try discriminate; try reflexivity.
  - apply andb_prop in H. destruct H as [H1 H2]. apply Nat.eqb_eq in H1. apply IH in H2. subst. reflexivity.
  - inversion H; subst. rewrite Nat.eqb_refl. apply IH. reflexivity.
Qed.

Definition count_in (ls : list nat) (blk : list (list nat)) : nat := length (filter (nlist_eqb ls) blk).

Lemma count_in_cons x y blk : count_in x (y :: blk) = (if nlist_eqb x y then 1 else 0) + count_in x blk.
Proof. unfold count_in. cbn [filter]. destruct (nlist_eqb x y); reflexivity. Qed.

Lemma count_in_pos x blk : In x blk -> 1 <= count_in x blk.
Proof.
  induction blk as [|y t IH]; intros H; [destruct H|]. rewrite count_in_cons. destruct H as [H | H].
  - subst. rewrite (proj2 (nlist_eqb_eq x x) eq_refl). lia.
  - specialize (IH H). lia.
Qed.

(** [cs] lists the combination (levels of the crossed factors) of every trial;
    it is cut into consecutive blocks of the chunk length (the last one possibly
    shorter).  The crossing check of the reference semantics succeeds iff every
    full block contains each admitted combination exactly its multiplicity, the
    short one at most that, and nothing else occurs. *)
Section Chunks.
Variable S0 : sem.
Variable s : tseq.
Variable cr : dcrossing.
Variable cs : list (list nat).
Hypothesis Hlen : length cs = s_trials S0.
Hypothesis Hcombo : forall t, t < s_trials S0 -> combo_at s (c_factors cr) t = map Some (nth t cs []).

Lemma count_combo_block ls a len : a + len <= s_trials S0 ->
  count_combo s (c_factors cr) ls a (a + len) = count_in ls (firstn len (skipn a cs)).
Proof.
  intros Hb. unfold count_combo, count_in. replace (a + len - a) with len by lia.
  revert a Hb. induction len as [|len IH]; intros a Hb; [reflexivity|].
  cbn [seq filter]. rewrite Hcombo by lia. rewrite combo_eqb_map_some.
  assert (Hsk : skipn a cs = nth a cs [] :: skipn (S a) cs) by (apply skipn_nth_cons; lia).
  rewrite Hsk. cbn [firstn filter]. specialize (IH (S a) ltac:(lia)).
  replace (S a + len - S a) with len in IH by lia.
  destruct (nlist_eqb ls (nth a cs [])); cbn [length]; rewrite IH; reflexivity.
Qed.

Definition block_ok (full : bool) (blk : list (list nat)) : Prop :=
  (forall cm, In cm (c_mult cr) ->
     if full then count_in (fst cm) blk = snd cm else count_in (fst cm) blk <= snd cm) /\
  (forall combo, In combo blk -> exists cm, In cm (c_mult cr) /\ fst cm = combo).

(** what [chunks_ok] tests on the trials from [a] to [a + len] *)
Lemma block_ok_check (full : bool) a len : a + len <= s_trials S0 ->
  forallb (fun cm => let n := count_combo s (c_factors cr) (fst cm) a (a + len) in
                     if full then n =? snd cm else n <=? snd cm) (c_mult cr) &&
  forallb (fun t => existsb (fun cm => Sem.combo_eqb (fst cm) (combo_at s (c_factors cr) t)) (c_mult cr))
          (seq a len) = true <->
  block_ok full (firstn len (skipn a cs)).
Proof.
  intros Hb.
  assert (Hcnt : forall cm,
    (let n := count_combo s (c_factors cr) (fst cm) a (a + len) in if full then n =? snd cm else n <=? snd cm) = true <->
    if full then count_in (fst cm) (firstn len (skipn a cs)) = snd cm
    else count_in (fst cm) (firstn len (skipn a cs)) <= snd cm).
  { intros cm. cbv zeta. rewrite count_combo_block by exact Hb. destruct full; [apply Nat.eqb_eq | apply Nat.leb_le]. }
  assert (Hmem : forall t, t < s_trials S0 ->
    existsb (fun cm => Sem.combo_eqb (fst cm) (combo_at s (c_factors cr) t)) (c_mult cr) = true <->
    exists cm, In cm (c_mult cr) /\ fst cm = nth t cs []).
  { intros t Ht. rewrite existsb_exists, Hcombo by exact Ht.
    split; intros [cm [Hcm H]]; exists cm; (split; [exact Hcm|]);
      rewrite combo_eqb_map_some in *; apply nlist_eqb_eq; exact H. }
  assert (E : firstn len (skipn a cs) = map (fun t => nth t cs []) (seq a len)).
  { rewrite <- (firstn_skipn_map_seq (fun t => nth t cs []) (s_trials S0)) by exact Hb.
    rewrite <- Hlen, map_nth_seq. reflexivity. }
  unfold block_ok. rewrite andb_true_iff, !forallb_forall. split; intros [Hc Hm]; split.
  - intros cm Hcm. apply Hcnt, Hc, Hcm.
  - intros combo Hin. rewrite E in Hin. apply in_map_iff in Hin. destruct Hin as (t & <- & Ht).
    apply Hmem; [apply in_seq in Ht; lia | apply Hm, Ht].
  - intros cm Hcm. apply Hcnt, Hc, Hcm.
  - intros t Ht. apply Hmem; [apply in_seq in Ht; lia|]. apply Hm. rewrite E. apply (in_map (fun t => nth t cs [])), Ht.
Qed.

(** [chunks_ok] from trial [a] on: the blocks start at [a], [a + c_chunk cr], ... *)
Lemma chunks_ok_iff : 0 < c_chunk cr -> forall fuel a, s_trials S0 - a < fuel ->
  chunks_ok fuel S0 s cr a = true <->
  forall j, a + j * c_chunk cr < s_trials S0 ->
    block_ok (a + j * c_chunk cr + c_chunk cr <=? s_trials S0)
      (firstn (Nat.min (c_chunk cr) (s_trials S0 - (a + j * c_chunk cr))) (skipn (a + j * c_chunk cr) cs)).
Proof.
  intros Hch. induction fuel as [|fuel IH]; intros a Hfuel; [lia|].
  cbn [chunks_ok]. destruct (s_trials S0 <=? a) eqn:E.
  - apply Nat.leb_le in E. split; [intros _ j Hj; lia | reflexivity].
  - apply Nat.leb_gt in E.
    replace (Nat.min (a + c_chunk cr) (s_trials S0)) with (a + Nat.min (c_chunk cr) (s_trials S0 - a)) by lia.
    replace (a + Nat.min (c_chunk cr) (s_trials S0 - a) - a) with (Nat.min (c_chunk cr) (s_trials S0 - a)) by lia.
    rewrite andb_true_iff, block_ok_check, IH by lia. split.
    + intros [H0 Hrec] [|j] Hj.
      * rewrite Nat.mul_0_l, Nat.add_0_r. exact H0.
      * replace (a + S j * c_chunk cr) with (a + c_chunk cr + j * c_chunk cr) in * by lia. apply Hrec, Hj.
    + intros H. split.
      * specialize (H 0). rewrite Nat.mul_0_l, Nat.add_0_r in H. apply H, E.
      * intros j Hj. replace (a + c_chunk cr + j * c_chunk cr) with (a + S j * c_chunk cr) in * by lia. apply H, Hj.
Qed.

(** block [r] of a list cut into blocks of [ch] elements and a shorter rest *)
Lemma block_of_concat {A} (bs : list (list A)) (tl : list A) ch :
  (forall blk, In blk bs -> length blk = ch) -> length tl < ch -> forall r, r <= length bs ->
  firstn (Nat.min ch (length bs * ch + length tl - r * ch)) (skipn (r * ch) (concat bs ++ tl)) = nth r bs tl.
Proof.
  intros Hl Htl. induction bs as [|b t IH]; intros r Hr.
  - assert (r = 0) by (cbn in Hr; lia). subst. cbn. rewrite Nat.sub_0_r, Nat.min_r by lia. apply firstn_all.
  - pose proof (Hl b (or_introl eq_refl)) as Hb. cbn [concat length]. rewrite <- app_assoc. destruct r as [|r].
    + cbn [Nat.mul skipn nth]. rewrite Nat.sub_0_r, Nat.min_l by lia. rewrite <- Hb.
      rewrite firstn_app, firstn_all, Nat.sub_diag. cbn [firstn]. apply app_nil_r.
    + replace (S r * ch) with (length b + r * ch) by lia. rewrite skipn_app, skipn_all2 by lia. cbn [app nth].
      replace (length b + r * ch - length b) with (r * ch) by lia.
      replace (S (length t) * ch + length tl - (length b + r * ch)) with (length t * ch + length tl - r * ch) by lia.
      apply IH; [intros blk Hblk; apply Hl; right; exact Hblk | cbn in Hr; lia].
Qed.

Lemma concat_length_uniform {A} (bs : list (list A)) ch :
  (forall blk, In blk bs -> length blk = ch) -> length (concat bs) = length bs * ch.
Proof.
  induction bs as [|b t IH]; intros Hl; [reflexivity|].
  cbn [concat length]. rewrite app_length, IH by (intros blk Hb; apply Hl; right; exact Hb).
  rewrite (Hl b (or_introl eq_refl)). lia.
Qed.

Lemma chunks_ok_rounds (fulls : list (list (list nat))) (lo : list (list nat)) :
  0 < c_chunk cr ->
  cs = concat fulls ++ lo ->
  (forall blk, In blk fulls -> length blk = c_chunk cr /\ block_ok true blk) ->
  length lo < c_chunk cr -> (lo <> [] -> block_ok false lo) ->
  chunks_ok (S (s_trials S0)) S0 s cr 0 = true.
Proof.
  intros Hch Hcs Hfulls Hlo Hlook.
  assert (Hul : forall blk, In blk fulls -> length blk = c_chunk cr) by (intros blk Hb; apply Hfulls; exact Hb).
  assert (HT : s_trials S0 = length fulls * c_chunk cr + length lo).
  { rewrite <- Hlen, Hcs, app_length, (concat_length_uniform fulls (c_chunk cr) Hul). reflexivity. }
  apply chunks_ok_iff; [exact Hch | lia|]. intros r Hb. cbn [Nat.add] in Hb |- *.
  assert (Hrle : r <= length fulls).
  { destruct (Nat.le_gt_cases r (length fulls)) as [H | H]; [exact H|]. exfalso.
    assert (S (length fulls) * c_chunk cr <= r * c_chunk cr) by (apply Nat.mul_le_mono_r; lia). lia. }
  rewrite Hcs, HT, (block_of_concat fulls lo (c_chunk cr) Hul Hlo r Hrle).
  destruct (Nat.eq_dec r (length fulls)) as [-> | Hne].
  - rewrite nth_overflow by apply le_n.
    replace (length fulls * c_chunk cr + c_chunk cr <=? _) with false by (symmetry; apply Nat.leb_gt; lia).
    apply Hlook. intros E. subst lo. cbn in HT. lia.
  - assert (Hin : In (nth r fulls lo) fulls) by (apply nth_In; lia).
    assert (Hge : (S r) * c_chunk cr <= length fulls * c_chunk cr) by (apply Nat.mul_le_mono_r; lia).
    replace (r * c_chunk cr + c_chunk cr <=? _) with true by (symmetry; apply Nat.leb_le; lia).
    apply Hfulls, Hin.
Qed.

End Chunks.
