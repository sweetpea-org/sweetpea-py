(** The crossing test of RandomGen's rejection step
    ([__are_constraints_violated]: [combinations_mismatched_weights] on every
    repetition of a crossing) decides the crossing clause of the reference
    semantics ([Sem.crossing_ok]), for a crossing without preamble whose factors
    all carry a level in every trial of the candidate and whose level
    combinations are all admitted (the [Exclude] constraints were checked
    before).  Stated over an abstract crossing so that it can be instantiated for
    the additional crossings of a MultiCrossBlock.  Proof file. *)
From Coq Require Import ZArith List Bool Arith Lia.
From SP Require Import Design.Flat Design.Layout Design.Sem Comb.CombModel Comb.CombSpec Comb.BinomFacts Random.Enum Random.Frag
  Random.RunLemmas Random.ListFacts Random.Frag0Enum Random.Frag0Sem Base.Lists.
Import ListNotations.
Open Scope nat_scope.

Lemma count_in_app x a b : count_in x (a ++ b) = count_in x a + count_in x b.
Proof. unfold count_in. rewrite filter_app, app_length. reflexivity. Qed.

Lemma count_in_zero x blk : ~ In x blk -> count_in x blk = 0.
Proof.
  induction blk as [|y t IH]; intros H; [reflexivity|]. rewrite count_in_cons.
  destruct (nlist_eqb x y) eqn:E; [apply nlist_eqb_eq in E; subst; exfalso; apply H; left; reflexivity|].
  rewrite IH; [reflexivity|]. intros Hin. apply H. right. exact Hin.
Qed.

Lemma count_in_pos' x blk : In x blk -> 0 < count_in x blk.
Proof. apply count_in_pos. Qed.

Lemma count_total (A blk : list (list nat)) : NoDup A -> (forall x, In x blk -> In x A) ->
  list_sum (map (fun ls => count_in ls blk) A) = length blk.
Proof.
  intros Hnd. induction blk as [|y t IH]; intros Hin.
  - cbn [length]. clear. induction A as [|a A' IHA]; [reflexivity|]. cbn [map]. rewrite list_sum_cons, IHA. reflexivity.
  - assert (Hy : In y A) by (apply Hin; left; reflexivity).
    specialize (IH (fun x Hx => Hin x (or_intror Hx))). cbn [length]. rewrite <- IH.
    assert (G : forall A0, NoDup A0 ->
              list_sum (map (fun ls => count_in ls (y :: t)) A0) =
              (if existsb (fun ls => nlist_eqb ls y) A0 then 1 else 0) + list_sum (map (fun ls => count_in ls t) A0)).
    { induction A0 as [|a A' IHA]; intros Hnd0; [reflexivity|]. inversion Hnd0; subst.
      cbn [map existsb]. rewrite !list_sum_cons, count_in_cons, (IHA H2).
      destruct (nlist_eqb a y) eqn:E; cbn [orb].
      - apply nlist_eqb_eq in E. subst a.
        replace (existsb (fun ls => nlist_eqb ls y) A') with false; [lia|].
        symmetry. apply not_true_is_false. intros Hex. apply existsb_exists in Hex. destruct Hex as [z [Hz Ez]].
        apply nlist_eqb_eq in Ez. subst z. contradiction.
      - lia. }
    rewrite (G A Hnd). replace (existsb (fun ls => nlist_eqb ls y) A) with true; [lia|].
    symmetry. apply existsb_exists. exists y. split; [exact Hy | apply nlist_eqb_eq; reflexivity].
Qed.

Lemma rmap_map_ok {A B C} (f : B -> rres C) (h : A -> B) (g : A -> C) l :
  (forall x, In x l -> f (h x) = ROk (g x)) -> rmap f (map h l) = ROk (map g l).
Proof.
  induction l as [|x t IH]; intros H; [reflexivity|]. cbn [map rmap]. rewrite (H x (or_introl eq_refl)). cbn [rbind].
  rewrite IH by (intros y Hy; apply H; right; exact Hy). reflexivity.
Qed.

Lemma zsum_zero_iff l : Forall (fun x => (0 <= x)%Z) l -> (zsum l = 0%Z <-> Forall (fun x => x = 0%Z) l).
Proof.
  induction 1 as [|x t Hx Ht IH]; cbn [zsum]; [split; constructor|]. pose proof (zsum_nonneg t Ht) as Hs. split.
  - intros E. constructor; [lia | apply IH; lia].
  - intros E. inversion E as [|? ? Ex Et]. apply IH in Et. lia.
Qed.

Definition rows_at (r : run) (T : nat) (L : nat -> nat -> nat) (fs : list nat) : Prop :=
  forall f, In f fs -> exists row, rlookup r f = Some row /\ length row = T /\
                                   forall t, t < T -> nth_error row t = Some (Some (L f t)).

Section Chunk.
Variable fb : flat.
Variable c : list nat.                      (* the crossing *)
Variable r : run.                           (* the candidate *)
Variable T : nat.
Variable L : nat -> nat -> nat.             (* level of a factor in a trial *)
Hypothesis Hrows : rows_at r T L c.
Variable weight : nat.                      (* crossing weight (x sustain) *)

Definition K (t : nat) : list nat := map (fun f => L f t) c.
Definition cwn (ls : list nat) : nat := combo_weight fb (combine c ls).

Lemma combo_eqb_some a b : combo_eqb (map Some a) (map Some b) = nlist_eqb a b.
Proof.
  unfold combo_eqb. revert b. induction a as [|x a IH]; intros [|y b]; cbn; try reflexivity.
  rewrite IH. reflexivity.
Qed.

(** what the model checks on a repetition: every combination that occurs does so as often as its weight says *)
Definition Bok (or_less : bool) (blk : list (list nat)) : Prop :=
  forall ls, In ls blk -> if or_less then count_in ls blk <= cwn ls * weight else count_in ls blk = cwn ls * weight.

(** the contribution of one combination of the repetition *)
Definition delta_of (or_less : bool) (blk : list (list nat)) (ls : list nat) : Z :=
  let d := (Z.of_nat (count_in ls blk) - Z.of_nat (cwn ls) * Z.of_nat weight)%Z in
  if or_less && (d <? 0)%Z then 0%Z else Z.abs d.

Lemma delta_nonneg or_less blk ls : (0 <= delta_of or_less blk ls)%Z.
Proof. unfold delta_of. destruct (or_less && _); lia. Qed.

Lemma delta_zero or_less blk ls : delta_of or_less blk ls = 0%Z <->
  (if or_less then count_in ls blk <= cwn ls * weight else count_in ls blk = cwn ls * weight).
Proof.
  unfold delta_of. destruct or_less; cbn [andb].
  - destruct (Z.of_nat (count_in ls blk) - Z.of_nat (cwn ls) * Z.of_nat weight <? 0)%Z eqn:E.
    + apply Z.ltb_lt in E. split; [intros _; nia | reflexivity].
    + apply Z.ltb_ge in E. split; intros H; nia.
  - split; intros H; nia.
Qed.

Definition dedupe (keys : list (list (option nat))) : list (list (option nat)) :=
  fold_left (fun acc k => if existsb (combo_eqb k) acc then acc else acc ++ [k]) keys [].

Lemma dedupe_spec (ks : list (list nat)) :
  exists ds : list (list nat), dedupe (map (map Some) ks) = map (map Some) ds /\ (forall x, In x ds <-> In x ks).
Proof.
  unfold dedupe. induction ks as [|k ks IH] using rev_ind; [exists []; split; reflexivity|].
  destruct IH as (ds & E & Hds). rewrite map_app, fold_left_app, E. cbn [map fold_left].
  replace (existsb (combo_eqb (map Some k)) (map (map Some) ds)) with (existsb (nlist_eqb k) ds)
    by (rewrite existsb_map; apply existsb_ext; intros a; symmetry; apply combo_eqb_some).
  destruct (existsb (nlist_eqb k) ds) eqn:Ex.
  - exists ds. split; [reflexivity|]. intros x. rewrite in_app_iff, <- Hds. cbn [In].
    apply existsb_exists in Ex. destruct Ex as [y [Hy Ey]]. apply nlist_eqb_eq in Ey. subst y.
    split; [tauto|]. intros [H | [<- | []]]; assumption.
  - exists (ds ++ [k]). split; [rewrite map_app; reflexivity|]. intros x. rewrite !in_app_iff, Hds. reflexivity.
Qed.

(** [combinations_mismatched_weights] on the trials [start, start + len), called as [crossing_violated] calls it *)
Lemma cmw_spec start len or_less : start + len <= T ->
  exists b, combinations_mismatched_weights fb (Z.to_nat (Z.of_nat start)) (Z.to_nat (Z.of_nat start + Z.of_nat len))
              (Z.of_nat weight) c r or_less = ROk b /\
            (0 <= b)%Z /\ (b = 0%Z <-> Bok or_less (map K (seq start len))).
Proof.
  intros Hb. set (blk := map K (seq start len)). rewrite <- Nat2Z.inj_add, !Nat2Z.id. unfold combinations_mismatched_weights.
  assert (Hrm : rmap (row_of r) c = ROk (map (row_of_run r) c)).
  { apply rmap_ok_map. intros f Hf. destruct (Hrows f Hf) as (row & Hl & _). unfold row_of, row_of_run. rewrite Hl. reflexivity. }
  rewrite Hrm. cbn [rbind]. replace (start + len - start) with len by lia.
  assert (Hk : rmap (fun t => rmap (fun row => of_opt IndexError (nth_error row t)) (map (row_of_run r) c)) (seq start len) =
               ROk (map (map Some) blk)).
  { unfold blk. rewrite map_map. apply rmap_ok_map. intros t Ht. apply in_seq in Ht. unfold K. rewrite map_map.
    apply rmap_map_ok. intros f Hf. destruct (Hrows f Hf) as (row & Hl & _ & Hc).
    unfold row_of_run. rewrite Hl, (Hc t) by lia. reflexivity. }
  rewrite Hk. cbn [rbind].
  destruct (dedupe_spec blk) as (ds & Hd & Hds). fold (dedupe (map (map Some) blk)). rewrite Hd.
  match goal with |- exists b, (_ <-- rmap ?F (map (map Some) ds) ;;; _) = _ /\ _ =>
    assert (Hdl : rmap F (map (map Some) ds) = ROk (map (delta_of or_less blk) ds)) end.
  { apply rmap_map_ok. intros ls _.
    rewrite (rmap_map_ok (fun x : option nat => of_opt AttributeError x) Some (fun x => x)) by reflexivity.
    rewrite map_id. cbn [rbind]. unfold delta_of, cwn. rewrite <- combo_weight_Z.
    rewrite filter_map_comm, map_length, (filter_ext _ (nlist_eqb ls)) by (intros y; apply combo_eqb_some). reflexivity. }
  rewrite Hdl. cbn [rbind]. eexists. split; [reflexivity|].
  rewrite sumZ_acc, Z.add_0_l.
  assert (Hnn : Forall (fun x => (0 <= x)%Z) (map (delta_of or_less blk) ds))
    by (apply Forall_map, Forall_forall; intros; apply delta_nonneg).
  split; [apply zsum_nonneg, Hnn|]. rewrite (zsum_zero_iff _ Hnn), Forall_map, Forall_forall.
  split; intros Hall ls Hls; apply delta_zero, Hall, Hds, Hls.
Qed.

End Chunk.

Section Crossing.
Variable fb : flat.
Variable en : enumerator.
Variable r : run.
Variable i : nat.
Variable c : list nat.
Variable L : nat -> nat -> nat.
Variables wi si su : nat.
Variable A : list (list nat).                (* the admitted combinations *)
Local Notation T := (fl_trials fb).
Local Notation eb := (en_base en).
Local Notation Kt := (K c L).
Local Notation cw := (cwn fb c).
Local Notation wm := (wi * su).     (* copies of a combination of weight 1 in a repetition *)

Hypothesis Hrows : rows_at r T L c.
Hypothesis Hpre : nth_error (eb_preamble_sizes eb) i = Some 0%Z.
Hypothesis Hcw : nth_error (eb_crossing_weights eb) i = Some (Z.of_nat wi).
Hypothesis Hsz : nth_error (eb_crossing_sizes eb) i = Some (Z.of_nat si).
Hypothesis Hsu : match c with [] => 1 | f :: _ => sustain fb f end = su.
Hypothesis Hrun : (eb_preamble eb + rounds_per_run fb en * eb_csize eb + en_leftover en)%Z = Z.of_nat T.
Hypothesis Hpos : 0 < si * wi.
Hypothesis HA : NoDup A.
Hypothesis Hin : forall t, t < T -> In (Kt t) A.
Hypothesis Hsi : si = list_sum (map cw A) * su.

Definition the_cr : dcrossing :=
  {| c_factors := c; c_first := 0; c_chunk := si * wi; c_mult := map (fun ls => (ls, cw ls * wm)) A |}.

Variable S0 : sem.
Variable s : tseq.
Hypothesis HT : s_trials S0 = T.
Hypothesis Hcombo : forall t, t < T -> combo_at s c t = map Some (Kt t).

Local Notation csz := (si * wi).
Local Notation cs := (map Kt (seq 0 T)).

Local Notation Bok := (Bok fb c wm).

Lemma mult_sum : list_sum (map (fun ls => cw ls * wm) A) = csz.
Proof. rewrite Hsi. rewrite (list_sum_scale cw wm A). lia. Qed.

Lemma Bok_block_ok b len : b + len <= T -> len <= csz ->
  let blk := map Kt (seq b len) in
  Bok (negb (len =? csz)) blk <-> block_ok the_cr (len =? csz) blk.
Proof.
  intros Hb Hlen blk.
  assert (HinA : forall x, In x blk -> In x A).
  { intros x Hx. apply in_map_iff in Hx. destruct Hx as [t [E Ht]]. apply in_seq in Ht. subst x. apply Hin. lia. }
  unfold Bok, block_ok. cbn [the_cr c_mult]. split.
  - intros HB. split.
    + intros cm Hcm. apply in_map_iff in Hcm. destruct Hcm as [ls [E Hls]]. subst cm. cbn [fst snd].
      assert (Hle : forall x, count_in x blk <= cw x * wm).
      { intros x. destruct (in_dec (list_eq_dec Nat.eq_dec) x blk) as [Hi | Hn]; [|rewrite (count_in_zero x blk Hn); lia].
        specialize (HB x Hi). destruct (len =? csz); cbn [negb] in HB; lia. }
      destruct (len =? csz) eqn:El; [|apply Hle]. apply Nat.eqb_eq in El.
      (* no count exceeds its multiplicity and the totals agree, so every count is exact *)
      refine (list_sum_eq_pointwise (fun ls => count_in ls blk) (fun ls => cw ls * wm) A (fun x _ => Hle x) _ ls Hls).
      rewrite (count_total A blk HA HinA), mult_sum. unfold blk. rewrite map_length, seq_length. exact El.
    + intros combo Hc. exists (combo, cw combo * wm). split; [|reflexivity].
      apply in_map_iff. exists combo. split; [reflexivity | apply HinA; exact Hc].
  - intros [Hcnt _] ls Hls. specialize (Hcnt (ls, cw ls * wm)). cbn [fst snd] in Hcnt.
    assert (Hm : In (ls, cw ls * wm) (map (fun ls0 => (ls0, cw ls0 * wm)) A)).
    { apply in_map_iff. exists ls. split; [reflexivity | apply HinA; exact Hls]. }
    specialize (Hcnt Hm). destruct (len =? csz); exact Hcnt.
Qed.

Local Notation R := (T / csz).
Local Notation lo := (T mod csz).

Lemma T_split' : T = R * csz + lo.
Proof. pose proof (Nat.div_mod_eq T csz). lia. Qed.

Lemma lo_lt : lo < csz.
Proof. apply Nat.mod_upper_bound. lia. Qed.

(** all repetitions pass the model's test *)
Definition all_Bok : Prop :=
  (forall j, j < R -> Bok false (map Kt (seq (j * csz) csz))) /\
  (0 < lo -> Bok true (map Kt (seq (R * csz) lo))).

Lemma cs_len : length cs = s_trials S0.
Proof. rewrite map_length, seq_length, HT. reflexivity. Qed.

Lemma cs_combo' : forall t, t < s_trials S0 -> combo_at s (c_factors the_cr) t = map Some (nth t cs []).
Proof.
  intros t Ht. rewrite HT in Ht. cbn [the_cr c_factors]. rewrite (Hcombo t Ht). f_equal.
  symmetry. apply (nth_map_seq Kt), Ht.
Qed.

(** the blocks [chunks_ok] cuts out of the candidate: full repetitions, then the leftover *)
Lemma block_full j : j < R ->
  block_ok the_cr (j * csz + csz <=? T) (firstn (Nat.min csz (T - j * csz)) (skipn (j * csz) cs)) <->
  Bok false (map Kt (seq (j * csz) csz)).
Proof.
  intros Hj. pose proof T_split' as HTs. assert (Hge : S j * csz <= R * csz) by (apply Nat.mul_le_mono_r; lia).
  replace (Nat.min csz (T - j * csz)) with csz by lia. rewrite (firstn_skipn_map_seq Kt T (j * csz) csz) by lia.
  rewrite (proj2 (Nat.leb_le (j * csz + csz) T)) by lia. rewrite <- (Nat.eqb_refl csz) at 1.
  symmetry. rewrite <- (Bok_block_ok (j * csz) csz ltac:(lia) (le_n _)). rewrite Nat.eqb_refl. reflexivity.
Qed.

Lemma block_left :
  block_ok the_cr (R * csz + csz <=? T) (firstn (Nat.min csz (T - R * csz)) (skipn (R * csz) cs)) <->
  Bok true (map Kt (seq (R * csz) lo)).
Proof.
  pose proof T_split' as HTs. pose proof lo_lt as Hlo.
  replace (Nat.min csz (T - R * csz)) with lo by lia. rewrite (firstn_skipn_map_seq Kt T (R * csz) lo) by lia.
  rewrite (proj2 (Nat.leb_gt (R * csz + csz) T)) by lia. rewrite <- (proj2 (Nat.eqb_neq lo csz)) at 1 by lia.
  symmetry. rewrite <- (Bok_block_ok (R * csz) lo ltac:(lia) ltac:(lia)). rewrite (proj2 (Nat.eqb_neq lo csz)) by lia. reflexivity.
Qed.

Lemma all_Bok_crossing_ok : all_Bok <-> crossing_ok S0 s the_cr = true.
Proof.
  pose proof T_split' as HTs. unfold crossing_ok. cbn [the_cr c_chunk c_first].
  replace (0 <? csz) with true by (symmetry; apply Nat.ltb_lt; exact Hpos). cbn [andb].
  fold the_cr. split.
  - intros [Hfull Hleft].
    apply (chunks_ok_iff S0 s the_cr cs cs_len cs_combo' Hpos (S (s_trials S0)) 0); [lia|].
    intros j Hb. rewrite HT in Hb |- *. cbn [the_cr c_chunk Nat.add] in Hb |- *.
    destruct (Nat.lt_trichotomy j R) as [Hlt | [-> | Hgt]].
    + apply (block_full j Hlt), Hfull, Hlt.
    + apply block_left, Hleft. lia.
    + exfalso. assert (S R * csz <= j * csz) by (apply Nat.mul_le_mono_r; lia). pose proof lo_lt. lia.
  - intros Hok.
    pose proof (proj1 (chunks_ok_iff S0 s the_cr cs cs_len cs_combo' Hpos (S (s_trials S0)) 0 ltac:(lia)) Hok) as Hat.
    cbn [the_cr c_chunk Nat.add] in Hat. rewrite HT in Hat.
    split.
    + intros j Hj. apply (block_full j Hj), Hat. assert (S j * csz <= R * csz) by (apply Nat.mul_le_mono_r; lia). lia.
    + intros Hl. apply block_left, Hat. lia.
Qed.

(** the model's crossing test returns a verdict, which is the negation of the reference check *)
Theorem crossing_violated_spec : crossing_violated fb en r i c = ROk (negb (crossing_ok S0 s the_cr)).
Proof.
  pose proof T_split' as HTs. pose proof lo_lt as Hlo.
  unfold crossing_violated. rewrite Hrun, Hpre, Hcw, Hsz. cbn [of_opt rbind]. rewrite Hsu.
  replace (Z.of_nat si * Z.of_nat wi =? 0)%Z with false by (symmetry; apply Z.eqb_neq; nia).
  rewrite Z.sub_0_r. replace (Z.of_nat wi * Z.of_nat su)%Z with (Z.of_nat wm) by lia.
  replace (Z.of_nat si * Z.of_nat wi)%Z with (Z.of_nat csz) by lia.
  rewrite <- Nat2Z.inj_div, <- Nat2Z.inj_mod, Nat2Z.id.
  match goal with |- ?g R 0%Z 0%Z = _ => set (go := g) end.
  assert (Hgo : forall cnt k, k + cnt = R -> exists v, go cnt (Z.of_nat (k * csz)) 0%Z = ROk v /\
            (v = false <-> (forall j, k <= j < R -> Bok false (map Kt (seq (j * csz) csz))) /\
                           (0 < lo -> Bok true (map Kt (seq (R * csz) lo))))).
  { induction cnt as [|cnt IH]; intros k Hk.
    - assert (k = R) by lia. subst k. cbn [go].
      destruct (0 <? Z.of_nat lo)%Z eqn:El.
      + apply Z.ltb_lt in El.
        destruct (cmw_spec fb c r T L Hrows wm (R * csz) lo true ltac:(lia)) as (b & Hb & Hb0 & Hbz).
        rewrite Hb. cbn [rbind]. eexists. split; [reflexivity|]. split.
        * intros Hv. apply Z.ltb_ge in Hv. split; [intros j Hj; lia|]. intros _. apply (proj1 Hbz). lia.
        * intros [_ Hq]. apply Z.ltb_ge. assert (b = 0%Z) by (apply (proj2 Hbz); apply Hq; lia). lia.
      + apply Z.ltb_ge in El. exists false. split; [reflexivity|]. split; [|reflexivity].
        intros _. split; [intros j Hj; lia | intros Hl; lia].
    - cbn [go].
      assert (Hklt : k < R) by lia.
      assert (Hge : S k * csz <= R * csz) by (apply Nat.mul_le_mono_r; lia).
      destruct (cmw_spec fb c r T L Hrows wm (k * csz) csz false ltac:(lia)) as (b & Hb & Hb0 & Hbz).
      rewrite Hb. cbn [rbind].
      destruct (0 <? 0 + b)%Z eqn:Eb.
      + apply Z.ltb_lt in Eb. exists true. split; [reflexivity|]. split; [discriminate|].
        intros [Hp _]. exfalso. assert (b = 0%Z) by (apply (proj2 Hbz); apply (Hp k); lia). lia.
      + apply Z.ltb_ge in Eb. assert (Eb0 : b = 0%Z) by lia. subst b.
        replace (Z.of_nat (k * csz) + Z.of_nat csz)%Z with (Z.of_nat (S k * csz)) by lia.
        cbn [Z.add]. destruct (IH (S k) ltac:(lia)) as (v & Hv & Hiff). exists v. split; [exact Hv|].
        rewrite Hiff. split.
        * intros [Hp Hq]. split; [|exact Hq]. intros j Hj. destruct (Nat.eq_dec j k) as [-> | Hne]; [apply (proj1 Hbz); reflexivity | apply Hp; lia].
        * intros [Hp Hq]. split; [|exact Hq]. intros j Hj. apply Hp. lia. }
  destruct (Hgo R 0 ltac:(lia)) as (v & Hv & Hiff). cbn [Nat.mul Z.of_nat] in Hv. rewrite Hv. f_equal.
  assert (Hall : v = false <-> crossing_ok S0 s the_cr = true).
  { rewrite Hiff, <- all_Bok_crossing_ok. unfold all_Bok. split; intros [Hp Hq]; (split; [|exact Hq]); intros j Hj; apply Hp; lia. }
  destruct v, (crossing_ok S0 s the_cr); cbn [negb]; try reflexivity; apply Hall; reflexivity.
Qed.

End Crossing.
