(** The last step of decoding a key of a design of fragment F2: the derived factors of
    [act_design] outside the sampled crossing are filled in from the drawn rows
    ([fill_in_nonpreamble_uncrossed_derived] = [Enum.fill_in_derived] over the factors sorted
    by depth); the candidate of a key in closed form ([Frag0Decode.cand_row]).  Proof file. *)
From Coq Require Import ZArith List Bool Arith Lia.
From SP Require Import Design.Flat Design.Layout Comb.CombModel Comb.CombSpec Random.Enum Random.Frag
  Random.FragSem Random.RunLemmas Random.FragPerm Random.Frag0Enum Random.Frag0Decode Random.Frag0Valid.
Import ListNotations.
Open Scope nat_scope.
Set Default Proof Using "All".

Lemma insert_by_In key a l x : In x (insert_by key a l) <-> x = a \/ In x l.
Proof.
  induction l as [|y t IH]; cbn [insert_by]; [cbn; intuition|].
  destruct (key a <=? key y); cbn [In]; [intuition|]. rewrite IH. intuition.
Qed.

Lemma stable_sort_In key l x : In x (stable_sort key l) <-> In x l.
Proof.
  unfold stable_sort. induction l as [|y t IH]; cbn [fold_right]; [reflexivity|].
  rewrite insert_by_In, IH. cbn [In]. intuition.
Qed.

Lemma insert_by_NoDup key a l : ~ In a l -> NoDup l -> NoDup (insert_by key a l).
Proof.
  induction l as [|y t IH]; intros Ha Hnd; cbn [insert_by]; [constructor; [intros [] | constructor]|].
  destruct (key a <=? key y); [constructor; assumption|].
  inversion Hnd as [|? ? Hy Hnd']; subst. constructor.
  - intros H. apply insert_by_In in H. destruct H as [H | H]; [subst; apply Ha; left; reflexivity | contradiction].
  - apply IH; [intros H; apply Ha; right; exact H | exact Hnd'].
Qed.

Lemma stable_sort_NoDup key l : NoDup l -> NoDup (stable_sort key l).
Proof.
  unfold stable_sort. induction 1 as [|y t Hy Hnd IH]; cbn [fold_right]; [constructor|].
  apply insert_by_NoDup; [|exact IH]. intros H. apply (stable_sort_In key t y) in H. contradiction.
Qed.

(** the arguments of a window of one trial: the cells of the trial, when each row read has a level there *)
Lemma trial_arguments_within w (r : run) i su : win_width w = 1 ->
  (forall x, In x (win_deps w) -> exists l, nth_error (row_of_run r x) i = Some (Some l)) ->
  trial_arguments w r i su = ROk (map (fun x => [nth i (row_of_run r x) None]) (win_deps w)).
Proof.
  intros Hwd Hcells. unfold trial_arguments. apply rmap_ok_map. intros x Hx. destruct (Hcells x Hx) as [l El].
  unfold row_of_run in *. destruct (rlookup r x) as [row|]; [|destruct i; discriminate El].
  cbn [of_opt rbind]. rewrite Hwd. cbn [seq rmap].
  replace (Z.of_nat i + (Z.of_nat 0 - (Z.of_nat 1 - 1)) * Z.of_nat su)%Z with (Z.of_nat i) by lia.
  replace (0 <=? Z.of_nat i)%Z with true by (symmetry; apply Z.leb_le; lia).
  rewrite zindex_nat, El. cbn [of_opt rbind]. rewrite (nth_error_nth _ _ None El). reflexivity.
Qed.

Section F0F.
Variable fb : flat.
Hypothesis HF : frag2 fb = true.

Local Notation c := (the_crossing fb).
Local Notation T := (fl_trials fb).
Local Notation K := (the_crossing fb ++ f0_ubs fb ++ f0_ubi fb).
Local Notation ucdl := (f0_ucdl fb).

Variable k : key.
Hypothesis Hk : key_ok fb k.

(** the row of one derived factor, computed from a run that has the drawn rows *)
Lemma fill_step r df : In df ucdl -> (forall d, In d K -> row_of_run r d = decoded_row fb k d) ->
  rmap (fun i => if applies_to_trial fb df (i + 1)
                 then l <-- select_level_for_sample fb df i r (sustain fb df) ;;; ROk (Some l)
                 else ROk None) (seq 0 (T - 0)) = ROk (cand_row fb k df).
Proof.
  intros Hu Hrows. rewrite (cand_row_ucd fb HF k df Hu). rewrite Nat.sub_0_r. apply rmap_ok_map. intros i Hi. apply in_seq in Hi.
  pose proof Hu as Hu'. apply (ucdl_In fb HF) in Hu'. destruct Hu' as (Hact & Hnc & Hdf).
  destruct (f0_act_kind fb HF df Hact) as [H | [[H _] | (_ & d & w & Hfa & Hw & Hwd & Hsd & Hst & Hdeps & Hex)]]; [congruence | contradiction|].
  assert (Happ : applies_to_trial fb df (i + 1) = true).
  { unfold applies_to_trial. rewrite Hfa, Hw, Hst, Hsd. rewrite Nat.mod_1_r.
    replace (0 + 1 <=? i + 1) with true by (symmetry; apply Nat.leb_le; lia). reflexivity. }
  rewrite Happ. unfold select_level_for_sample, window_of. rewrite Hfa, Hw. cbn [of_opt rbind].
  assert (HdepsK : forall x, In x (win_deps w) -> In x K).
  { intros x Hx. apply (K_In fb HF). destruct (Hdeps x Hx) as [H1 [H2 | H2]]; auto. }
  assert (Hargs : trial_arguments w r i (sustain fb df) =
                  ROk (map (fun x => [nth i (decoded_row fb k x) None]) (win_deps w))).
  { rewrite (trial_arguments_within w r i _ Hwd).
    - f_equal. apply map_ext_in. intros x Hx. rewrite (Hrows x (HdepsK x Hx)). reflexivity.
    - intros x Hx. rewrite (Hrows x (HdepsK x Hx)).
      destruct (K_cell fb HF k x i Hk (HdepsK x Hx) ltac:(lia)) as (l & El & _). exists l. rewrite <- El.
      apply nth_error_nth'. rewrite (decoded_row_length fb HF k x Hk (HdepsK x Hx)). lia. }
  rewrite Hargs. cbn [rbind].
  destruct (ucd_pick_spec fb HF k df i Hk Hu ltac:(lia)) as (l0 & Epick & _). rewrite Epick.
  unfold ucd_pick, window_of in Epick. rewrite Hfa, Hw in Epick. rewrite Epick. reflexivity.
Qed.

(** all of them, in any order without repetition *)
Lemma fill_all : forall (dfs : list nat) (r : run), (forall df, In df dfs -> In df ucdl) -> NoDup dfs ->
  (forall d, In d K -> row_of_run r d = decoded_row fb k d) ->
  exists r', fill_in_derived fb r dfs 0 T = ROk r' /\
             forall g, rlookup r' g = if memb g dfs then Some (cand_row fb k g) else rlookup r g.
Proof.
  unfold fill_in_derived. induction dfs as [|df t IH]; intros r Hall Hnd Hrows.
  - exists r. split; [reflexivity | intros g; reflexivity].
  - cbn [fold_left rbind Nat.ltb Nat.leb]. rewrite (fill_step r df (Hall df (or_introl eq_refl)) Hrows). cbn [rbind app].
    inversion Hnd as [|? ? Hdf Hnd']; subst.
    destruct (IH (rset r df (cand_row fb k df))) as (r' & Hf & Hl).
    + intros x Hx. apply Hall. right. exact Hx.
    + exact Hnd'.
    + intros d Hd. unfold row_of_run. rewrite rlookup_rset.
      destruct (d =? df) eqn:E; [|apply Hrows; exact Hd]. apply Nat.eqb_eq in E. subst d. exfalso.
      apply (K_not_ucd fb HF df Hd). apply Hall. left. reflexivity.
    + exists r'. split; [exact Hf|]. intros g. rewrite Hl. rewrite rlookup_rset.
      change (memb g (df :: t)) with ((g =? df) || memb g t).
      destruct (memb g t); destruct (g =? df) eqn:E; cbn [orb]; try reflexivity.
      apply Nat.eqb_eq in E. subst. reflexivity.
Qed.

End F0F.

Section F0FM.
Variable fb : flat.
Hypothesis HF : frag2 fb = true.
Variables m lm : memo_t.
Variables cn lcn : Z.
Hypothesis HM : memos_ok fb m lm.


Lemma decode_full k : key_ok fb k ->
  exists r, decode_with fb (f0_enum fb m lm cn lcn) k = ROk r /\ forall g, row_of_run r g = cand_row fb k g.
Proof.
  intros Hk. destruct (decode_f0 fb HF m lm cn lcn HM k Hk) as [r2 [Hd Hrow]].
  destruct (fill_all fb HF k Hk (stable_sort (fdepth fb) (f0_ucdl fb)) r2) as (r & Hf & Hl).
  - intros df Hdf. apply stable_sort_In in Hdf. exact Hdf.
  - apply stable_sort_NoDup. unfold f0_ucdl, f0_ub. apply NoDup_filter. apply NoDup_filter. apply (act_nodup fb HF).
  - intros d _. apply Hrow.
  - exists r. split; [rewrite Hd; exact Hf|]. intros g. unfold row_of_run at 1. rewrite Hl.
    destruct (memb g (stable_sort (fdepth fb) (f0_ucdl fb))) eqn:Em; [reflexivity|].
    apply memb_false in Em. fold (row_of_run r2 g). rewrite Hrow. symmetry. apply (cand_row_K fb HF).
    intros H. apply Em. apply stable_sort_In. exact H.
Qed.

End F0FM.
