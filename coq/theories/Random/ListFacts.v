(** Facts about lists, the result monad and the small arithmetic helpers of
    Random/Enum.v that do not depend on a fragment; the crossing and the weight
    the enumerator samples with.  Proof file. *)
From Coq Require Import ZArith List Bool Arith Lia.
From SP Require Import Design.Flat Design.Layout Comb.CombModel Comb.CombSpec Random.Enum Random.Frag Random.RunLemmas.
Import ListNotations.
Open Scope nat_scope.

Definition the_crossing (fb : flat) : list nat := main_crossing_of fb.

Lemma nodupb_NoDup xs : nodupb xs = true -> NoDup xs.
Proof. exact (nodup_b_sound Nat.eqb nodupb Nat.eqb_refl (fun _ _ => eq_refl) xs). Qed.

Lemma nat_list_eqb_eq a b : nat_list_eqb a b = true -> a = b.
Proof.
  revert b. induction a as [|x a IH]; intros [|y b] H; cbn in H; try discriminate; [reflexivity|].
  apply andb_prop in H. destruct H as [H1 H2]. apply Nat.eqb_eq in H1. subst. f_equal. apply IH. exact H2.
Qed.

Lemma nat_list_eqb_refl a : nat_list_eqb a a = true.
Proof. induction a; cbn; [reflexivity | rewrite Nat.eqb_refl; exact IHa]. Qed.

Lemma prodZl_ones l : (forall x, In x l -> x = 1%Z) -> prodZl l = 1%Z.
Proof.
  unfold prodZl. intros H. assert (G : forall acc, fold_left Z.mul l acc = acc).
  { induction l as [|x t IH]; intros acc; cbn; [reflexivity|].
    rewrite (H x (or_introl eq_refl)). rewrite Z.mul_1_r. apply IH. intros y Hy. apply H. right. exact Hy. }
  apply G.
Qed.

Lemma in_combine_fst {A B} (xs : list A) (ys : list B) p : In p (combine xs ys) -> In (fst p) xs.
Proof. destruct p. intros H. eapply in_combine_l. exact H. Qed.

Lemma fold_add_ones {A} (l : list A) acc : fold_left Z.add (map (fun _ => 1%Z) l) acc = (acc + Z.of_nat (length l))%Z.
Proof.
  revert acc. induction l as [|x t IH]; intros acc; cbn [map fold_left length]; [lia|].
  rewrite IH. lia.
Qed.

Lemma forallb_ones {A} (l : list A) : forallb (Z.eqb 1) (map (fun _ => 1%Z) l) = true.
Proof. induction l; cbn; [reflexivity | exact IHl]. Qed.

Lemma all_equal_ones {A} (l : list A) : all_equal_Z (map (fun _ => 1%Z) l) = true.
Proof. destruct l; cbn; [reflexivity|]. apply forallb_ones. Qed.

Lemma product_nonempty {A} (lss : list (list A)) : (forall l, In l lss -> l <> []) -> product lss <> [].
Proof.
  induction lss as [|l t IH]; intros H; cbn [product]; [discriminate|].
  assert (Hl : l <> []) by (apply H; left; reflexivity).
  assert (Ht : product t <> []) by (apply IH; intros l' Hl'; apply H; right; exact Hl').
  destruct l as [|x l']; [contradiction|]. cbn [flat_map]. destruct (product t); [contradiction|]. discriminate.
Qed.

Lemma pairs_eqb_eq a b : pairs_eqb a b = true -> a = b.
Proof.
  revert b. induction a as [|[x1 x2] a IH]; intros [|[y1 y2] b] H; cbn in H; try discriminate; [reflexivity|].
  apply andb_prop in H. destruct H as [H H3]. apply andb_prop in H. destruct H as [H1 H2].
  apply Nat.eqb_eq in H1. apply Nat.eqb_eq in H2. subst. f_equal. apply IH. exact H3.
Qed.

Lemma no_derived_act fb f : has_derived fb = false -> In f (fl_act fb) -> is_derived fb f = false.
Proof.
  intros H Hf. destruct (is_derived fb f) eqn:E; [|reflexivity]. unfold has_derived in H.
  rewrite (proj2 (existsb_exists _ _) (ex_intro _ f (conj Hf E))) in H. discriminate H.
Qed.

Definition the_weight (fb : flat) : nat := nth (main_idx fb) (fl_weights fb) 0.

Lemma forallb_eqb_all a l : forallb (Nat.eqb a) l = true -> forall x, In x l -> x = a.
Proof. intros H x Hx. rewrite forallb_forall in H. specialize (H x Hx). apply Nat.eqb_eq in H. congruence. Qed.

Lemma first_index_of_spec c cs : In c cs -> forall a, exists j, first_index_of c cs a = Some (a + j) /\ j < length cs.
Proof.
  induction cs as [|d t IH]; intros H a; [destruct H|]. cbn [first_index_of].
  destruct (nat_list_eqb d c) eqn:E.
  - exists 0. split; [f_equal; lia | cbn; lia].
  - destruct H as [H | H]; [subst; rewrite nat_list_eqb_refl in E; discriminate|].
    destruct (IH H (S a)) as [j [Hj Hl]]. exists (S j). split; [rewrite Hj; f_equal; lia | cbn; lia].
Qed.

(** the weight the block attaches to a crossing: that of the first crossing equal to it *)
Definition cw_of (fb : flat) (ci : list nat) : nat :=
  match first_index_of ci (fl_crossings fb) 0 with
  | Some j => nth j (fl_weights fb) 0
  | None => nth 0 (rev (fl_weights fb)) 0
  end.

Lemma prodZl_fold_right l : prodZl l = fold_right Z.mul 1%Z l.
Proof.
  unfold prodZl. apply fold_symmetric; intros; lia.
Qed.

Lemma combo_weight_Z fb di : Z.of_nat (combo_weight fb di) = combination_weight fb di.
Proof.
  unfold combination_weight. rewrite prodZl_fold_right. induction di as [|p t IH]; [reflexivity|].
  cbn [combo_weight fold_right map]. fold (combo_weight fb t). rewrite Nat2Z.inj_mul, IH. f_equal.
  unfold level_weight_nat, level_weight. destruct (nth_error (levels_of fb (fst p)) (snd p)); reflexivity.
Qed.

Lemma count_sym_In w x : (0 < count_sym w x)%Z -> In x w.
Proof. unfold count_sym. intros H. apply (count_occ_In Z.eq_dec). lia. Qed.

Lemma zsum_map_of_nat {A} (g : A -> nat) l : CombSpec.zsum (map (fun x => Z.of_nat (g x)) l) = Z.of_nat (list_sum (map g l)).
Proof. induction l as [|x t IH]; [reflexivity|]. cbn [map CombSpec.zsum]. rewrite IH. unfold list_sum. cbn [fold_right]. lia. Qed.

Lemma rmap_zindex_ones {A} (l : list A) w ss :
  rmap (zindex (map (fun _ => 1%Z) l)) w = ROk ss -> forall x, In x ss -> x = 1%Z.
Proof.
  intros H. apply rmap_ok_inv in H. induction H as [|p y w' ss' Hy Hrest IH]; intros x Hx; [destruct Hx|].
  destruct Hx as [Hx | Hx]; [|apply IH; exact Hx]. subst y.
  apply zindex_ok in Hy. destruct Hy as [_ Hy]. apply nth_error_In in Hy. apply in_map_iff in Hy.
  destruct Hy as [? [E _]]. congruence.
Qed.

Definition zeros (k : nat) : list Z := repeat 0%Z k.

(** [rmap] over an enumerated list, position by position *)
Lemma rmap_enumerate {A B} (f : Z * A -> rres B) (xs : list A) : forall (g : nat -> B) (i0 : Z),
  (forall k x, nth_error xs k = Some x -> f ((i0 + Z.of_nat k)%Z, x) = ROk (g k)) ->
  rmap f (enumerate_from i0 xs) = ROk (map g (seq 0 (length xs))).
Proof.
  induction xs as [|x t IH]; intros g i0 H; [reflexivity|].
  pose proof (H 0 x eq_refl) as H0. cbn [Z.of_nat] in H0. rewrite Z.add_0_r in H0.
  cbn [enumerate_from rmap length seq map]. rewrite H0. cbn [rbind].
  rewrite (IH (fun k => g (S k)) (i0 + 1)%Z), <- seq_shift, map_map; [reflexivity|].
  intros k y Hk. rewrite <- (H (S k) y Hk). do 2 f_equal. lia.
Qed.

Lemma map_combine_seq {A B C} (F : A -> B -> C) (l : list A) (m : list B) da db : length l = length m ->
  map (fun p => F (fst p) (snd p)) (combine l m) = map (fun j => F (nth j l da) (nth j m db)) (seq 0 (length l)).
Proof.
  revert m. induction l as [|x l IH]; intros [|y m] H; try discriminate H; [reflexivity|].
  cbn [combine map length seq nth fst snd]. rewrite <- seq_shift, map_map. f_equal. apply IH. injection H as H. exact H.
Qed.

Lemma zindex_nth_ok (l : list nat) d : (0 <= d < Z.of_nat (length l))%Z -> zindex l d = ROk (nth (Z.to_nat d) l 0).
Proof. intros H. apply zindex_some; [lia|]. apply nth_error_nth'. lia. Qed.

Lemma zindex_seq nl d : (0 <= d < Z.of_nat nl)%Z -> zindex (seq 0 nl) d = ROk (Z.to_nat d).
Proof.
  intros H. apply zindex_some; [lia|]. rewrite nth_error_nth' with (d := 0) by (rewrite seq_length; lia).
  rewrite seq_nth by lia. reflexivity.
Qed.

Lemma Forall_nth' {A} (P : A -> Prop) xs k d : Forall P xs -> k < length xs -> P (nth k xs d).
Proof. intros H Hk. rewrite Forall_forall in H. apply H. apply nth_In. exact Hk. Qed.

Lemma in_zeros x k : In x (zeros k) -> x = 0%Z.
Proof. unfold zeros. intros H. apply repeat_spec in H. exact H. Qed.

Lemma nth_zeros k i : nth i (zeros k) 0%Z = 0%Z.
Proof. apply nth_repeat. Qed.

Lemma zeros_length k : length (zeros k) = k.
Proof. apply repeat_length. Qed.

Lemma cells_for_map {A} (h : A -> asg) (xs : list A) g (lv : A -> nat) :
  (forall x, In x xs -> alookup (h x) g = Some (lv x)) ->
  cells_for (map h xs) g = map (fun x => Some (lv x)) xs.
Proof.
  induction xs as [|x t IH]; intros H; [reflexivity|].
  cbn [map cells_for flat_map]. rewrite (H x (or_introl eq_refl)). cbn [app]. f_equal.
  apply IH. intros y Hy. apply H. right. exact Hy.
Qed.

Lemma cells_for_none {A} (h : A -> asg) (xs : list A) g :
  (forall x, In x xs -> alookup (h x) g = None) -> cells_for (map h xs) g = [].
Proof.
  induction xs as [|x t IH]; intros H; [reflexivity|].
  cbn [map cells_for flat_map]. rewrite (H x (or_introl eq_refl)). cbn [app].
  apply IH. intros y Hy. apply H. right. exact Hy.
Qed.

Lemma flat_map_length_const {A B} (h : A -> list B) m l :
  (forall x, In x l -> length (h x) = m) -> length (flat_map h l) = length l * m.
Proof. intros H. rewrite flat_map_len. apply (list_sum_const (fun x => length (h x))), H. Qed.

Lemma zrange_In (s x : Z) : In x (map Z.of_nat (seq 0 (Z.to_nat s))) <-> (0 <= x < s)%Z.
Proof.
  rewrite in_map_iff. split.
  - intros [i [E Hi]]. apply in_seq in Hi. lia.
  - intros H. exists (Z.to_nat x). split; [lia | apply in_seq; lia].
Qed.

Lemma zrange_NoDup (s : Z) : NoDup (map Z.of_nat (seq 0 (Z.to_nat s))).
Proof.
  apply NoDup_map_inj_in; [intros a b _ _ H; lia | apply seq_NoDup].
Qed.

Lemma ranges_product_In sizes xs :
  In xs (ranges_product sizes) <-> Forall2 (fun s x => (0 <= x < s)%Z) sizes xs.
Proof.
  unfold ranges_product. rewrite product_In, Forall2_map_l.
  split; apply Forall2_imp; intros s x; apply zrange_In.
Qed.

Lemma ranges_product_NoDup sizes : NoDup (ranges_product sizes).
Proof.
  unfold ranges_product. apply product_NoDup. intros l Hl. apply in_map_iff in Hl.
  destruct Hl as [s [E _]]. subst l. apply zrange_NoDup.
Qed.

Lemma ranges_product_length sizes : Forall (fun s => (0 <= s)%Z) sizes ->
  Z.of_nat (length (ranges_product sizes)) = prodZl sizes.
Proof.
  intros H. unfold ranges_product. rewrite product_length. unfold prodZl.
  assert (G : forall acc, fold_left Z.mul sizes acc =
              (acc * Z.of_nat (fold_right (fun l a => (length l * a)%nat) 1%nat (map (fun s => map Z.of_nat (seq 0 (Z.to_nat s))) sizes)))%Z).
  { induction H as [|s t Hs Hrest IH]; intros acc; cbn [fold_left map fold_right]; [lia|].
    rewrite IH. rewrite map_length, seq_length. rewrite Nat2Z.inj_mul. rewrite Z2Nat.id by exact Hs. ring. }
  rewrite G. lia.
Qed.

Lemma ranges_product_ones {A} (l : list A) : ranges_product (map (fun _ => 1%Z) l) = [zeros (length l)].
Proof.
  unfold ranges_product, zeros. induction l as [|x t IH]; [reflexivity|].
  cbn [map product length repeat]. rewrite IH. reflexivity.
Qed.

Lemma words_In {A} (xs : list A) m w :
  In w (words m xs) <-> length w = m /\ Forall (fun x => In x xs) w.
Proof.
  revert w. induction m as [|m IH]; intros w; cbn [words].
  - split.
    + intros [H | []]. subst. split; [reflexivity | constructor].
    + intros [H _]. destruct w; [left; reflexivity | discriminate].
  - rewrite in_flat_map. split.
    + intros [x [Hx Hin]]. apply in_map_iff in Hin. destruct Hin as [w' [E Hw']]. subst w.
      apply IH in Hw'. destruct Hw' as [Hl Hf]. split; [cbn; lia | constructor; assumption].
    + intros [Hl Hf]. destruct w as [|x w']; [discriminate|]. inversion Hf; subst.
      exists x. split; [assumption|]. apply in_map_iff. exists w'. split; [reflexivity|].
      apply IH. split; [cbn in Hl; lia | assumption].
Qed.

Lemma words_NoDup {A} (xs : list A) m : NoDup xs -> NoDup (words m xs).
Proof.
  intros Hnd. induction m as [|m IH]; cbn [words]; [constructor; [intros [] | constructor]|].
  apply cons_product_NoDup; assumption.
Qed.

Lemma words_length {A} (xs : list A) m : length (words m xs) = length xs ^ m.
Proof.
  induction m as [|m IH]; [reflexivity|]. cbn [words Nat.pow]. rewrite cons_product_length, IH. reflexivity.
Qed.

