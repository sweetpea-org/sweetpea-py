(** Injectivity for fragment F2: distinct in-range keys decode to distinct trial
    sequences (the product of the C13 bijections [perm_prefix_bij] and
    [comb_bij]).  Proof file. *)
From Coq Require Import ZArith List Bool Arith Lia.
From SP Require Import Design.Flat Design.Layout Design.Sem Comb.CombModel Comb.CombSpec Random.Enum Random.Frag
  Random.RunLemmas Random.FragPerm Random.KeysCount Random.Frag0Enum Random.Frag0Decode Random.Frag0Valid.
From SP Require Comb.PrefixProofs.
Import ListNotations.
Open Scope nat_scope.
Set Default Proof Using "All".

Lemma app_inj_length {A} (a1 a2 b1 b2 : list A) :
  a1 ++ b1 = a2 ++ b2 -> length a1 = length a2 -> a1 = a2 /\ b1 = b2.
Proof.
  revert a2. induction a1 as [|x a1 IH]; intros [|y a2] H Hl; cbn in *; try discriminate; [auto|].
  inversion H; subst. destruct (IH a2 H2 ltac:(lia)) as [E1 E2]. subst. auto.
Qed.

Lemma map_some_seq_inj {B} (f g : nat -> B) m :
  map (fun t => Some (f t)) (seq 0 m) = map (fun t => Some (g t)) (seq 0 m) -> forall t, t < m -> f t = g t.
Proof.
  intros H t Ht. assert (E : Some (f t) = Some (g t)); [|injection E as E; exact E].
  rewrite <- (nth_map_seq (fun t => Some (f t)) m t None Ht), H. exact (nth_map_seq (fun t => Some (g t)) m t None Ht).
Qed.

Section F0I.
Variable fb : flat.
Hypothesis HF : frag2 fb = true.

Local Notation c := (the_crossing fb).
Local Notation q := (f0_q fb).
Local Notation C := (f0_C fb).
Local Notation lo := (f0_leftover fb).
Local Notation prod := (f0_cprod fb).
Local Notation ubi := (f0_ubi fb).
Local Notation K := (the_crossing fb ++ f0_ubs fb ++ f0_ubi fb).

Lemma srcs_nodup : NoDup (f0_srcs fb).
Proof.
  unfold f0_srcs, instances_of. apply NoDup_map_inj_in.
  - intros x y Hx Hy E. pose proof (product_length_elem _ _ Hx) as Lx. pose proof (product_length_elem _ _ Hy) as Ly.
    rewrite map_length in Lx, Ly.
    rewrite <- (map_snd_combine (f0_ubs fb) x), <- (map_snd_combine (f0_ubs fb) y) by lia. rewrite E. reflexivity.
  - apply levels_product_NoDup.
Qed.

Lemma valid_nodup ci : NoDup (f0_valid fb ci).
Proof. unfold f0_valid. apply NoDup_filter. apply seq_NoDup. Qed.

(** equal rows of a drawn factor give equal levels in every trial *)
Lemma rows_level tc cp1 cp2 g (l1 l2 : nat -> nat) :
  round_row fb tc cp1 g = map (fun t => Some (l1 t)) (seq 0 tc) ->
  round_row fb tc cp2 g = map (fun t => Some (l2 t)) (seq 0 tc) ->
  round_row fb tc cp1 g = round_row fb tc cp2 g -> forall t, t < tc -> l1 t = l2 t.
Proof. intros E1 E2 E. rewrite E1, E2 in E. exact (map_some_seq_inj _ _ tc E). Qed.

(** the crossed rows determine the word, hence ([p_R]) the first component *)
Lemma round_inj_perm tc cp1 cp2 : tc <= C -> comp_ok fb tc cp1 -> comp_ok fb tc cp2 ->
  (forall g, In g c -> round_row fb tc cp1 g = round_row fb tc cp2 g) -> fst (fst cp1) = fst (fst cp2).
Proof.
  intros Hle Hok1 Hok2 Hrows. destruct cp1 as [[a0 a1] a2], cp2 as [[b0 b1] b2]. cbn [fst].
  pose proof Hok1 as (Ha0 & Had & _). pose proof Hok2 as (Hb0 & Hbd & _).
  destruct (perm_of_spec fb HF tc a0 Hle Ha0 Had) as (_ & Hpl1 & Hpb1 & Hr1).
  destruct (perm_of_spec fb HF tc b0 Hle Hb0 Hbd) as (_ & Hpl2 & Hpb2 & Hr2).
  rewrite <- Hr1, <- Hr2. f_equal.
  apply (nth_ext _ _ 0%Z 0%Z); [lia|]. intros t Ht. rewrite Hpl1 in Ht.
  pose proof (Forall_nth' _ _ t 0%Z Hpb1 ltac:(lia)) as H1. pose proof (Forall_nth' _ _ t 0%Z Hpb2 ltac:(lia)) as H2.
  cbv beta in H1, H2.
  assert (Hj : Z.to_nat (nth t (perm_of fb tc a0) 0%Z) = Z.to_nat (nth t (perm_of fb tc b0) 0%Z)); [|lia].
  apply (proj1 (NoDup_nth prod []) (prod_nodup fb HF)); [fold q; lia | fold q; lia|].
  apply (nth_ext _ _ 0 0); [rewrite !(prod_elem_length fb HF) by lia; reflexivity|].
  intros i Hi. rewrite (prod_elem_length fb HF) in Hi by lia.
  pose proof (nth_error_nth' c 0 Hi) as Hg.
  exact (rows_level tc _ _ _ _ _ (round_row_crossed fb HF tc (a0, a1, a2) i _ Hle Hok1 Hg)
           (round_row_crossed fb HF tc (b0, b1, b2) i _ Hle Hok2 Hg) (Hrows _ (nth_In c 0 Hi)) t Ht).
Qed.

(** every position of the second component is the source position of some trial *)
Lemma src_pos_onto tc c0 pos : tc <= C -> (0 <= c0 < f0_N fb tc)%Z -> p_U (f0_cws fb) tc c0 <> None ->
  pos < length (src_shapes fb tc c0) -> exists t, t < tc /\ src_pos fb tc (perm_of fb tc c0) t = pos.
Proof.
  intros Hle Hc0 Hd Hpos. destruct (perm_of_spec fb HF tc c0 Hle Hc0 Hd) as (Hbw & Hpl & _).
  unfold src_pos. unfold src_shapes in Hpos. destruct (full fb tc) eqn:Ef.
  - unfold full in Ef. apply andb_prop in Ef. destruct Ef as [Etc Hu]. apply Nat.eqb_eq in Etc.
    rewrite (combs_length fb HF) in Hpos.
    assert (Hbw' : bounded_word (f0_cws fb) (Z.of_nat (p_C (f0_cws fb))) (perm_of fb tc c0)).
    { rewrite (f0_p_C fb HF), (f0_unw_C fb HF Hu), <- Etc. exact Hbw. }
    pose proof (bw_full (f0_cws fb) (f0_cws_nonneg fb HF) _ Hbw' pos ltac:(rewrite (f0_cws_length fb HF); lia)) as Hcnt.
    rewrite (unw_nth (f0_cws fb) pos Hu ltac:(rewrite (f0_cws_length fb HF); lia)) in Hcnt.
    assert (Hin : In (Z.of_nat pos) (perm_of fb tc c0)) by (apply count_sym_In; lia).
    apply (In_nth _ _ 0%Z) in Hin. destruct Hin as [t [Ht Et]]. exists t. split; [lia|]. rewrite Et. apply Nat2Z.id.
  - rewrite map_length in Hpos. exists pos. split; [lia | reflexivity].
Qed.

(** under one word, the source rows determine the second component *)
Lemma round_inj_src tc c0 a1 a2 b1 b2 : tc <= C -> comp_ok fb tc (c0, a1, a2) -> comp_ok fb tc (c0, b1, b2) ->
  (forall g, In g (f0_ubs fb) -> round_row fb tc (c0, a1, a2) g = round_row fb tc (c0, b1, b2) g) -> a1 = b1.
Proof.
  intros Hle Hok1 Hok2 Hrows. pose proof Hok1 as (Hc0 & Hd & Ha1 & _). pose proof Hok2 as (_ & _ & Hb1 & _).
  pose proof (Forall2_length _ _ _ Ha1) as La. pose proof (Forall2_length _ _ _ Hb1) as Lb.
  apply (nth_ext _ _ 0%Z 0%Z); [lia|]. intros pos Hpos.
  destruct (src_pos_onto tc c0 pos Hle Hc0 Hd ltac:(lia)) as (t & Ht & Epos).
  destruct (src_idx_ok fb HF tc c0 a1 t Hle Hc0 Hd Ha1 Ht) as (Hp & _ & Hia).
  destruct (src_idx_ok fb HF tc c0 b1 t Hle Hc0 Hd Hb1 Ht) as (_ & _ & Hib).
  cbv zeta in Hp, Hia, Hib. rewrite Epos in Hia, Hib.
  set (perm := perm_of fb tc c0) in *. set (V := f0_valid fb (nth (Z.to_nat (nth t perm 0%Z)) (f0_instances fb) [])) in *.
  (* the source combinations of the trial agree *)
  assert (Hsrc : src_at fb tc perm a1 t = src_at fb tc perm b1 t).
  { destruct (src_at_keys fb HF tc (c0, a1, a2) t Hle Hok1 Ht) as (la & Ea & Hla).
    destruct (src_at_keys fb HF tc (c0, b1, b2) t Hle Hok2 Ht) as (lb & Eb & Hlb). fold perm in Ea, Eb.
    rewrite Ea, Eb. f_equal. apply (nth_ext _ _ 0 0); [lia|]. intros j Hj. rewrite Hla in Hj.
    pose proof (nth_error_nth' (f0_ubs fb) 0 Hj) as Hg.
    pose proof (rows_level tc _ _ _ _ _ (round_row_src fb HF tc (c0, a1, a2) j _ Hle Hok1 Hg)
                  (round_row_src fb HF tc (c0, b1, b2) j _ Hle Hok2 Hg) (Hrows _ (nth_In _ 0 Hj)) t Ht) as E.
    unfold src_level in E. cbn [fst snd] in E. fold perm in E. rewrite Ea, Eb in E.
    rewrite (alookup_combine (f0_ubs fb) la j _ (f0_ubs_nodup fb HF) Hla Hg) in E.
    rewrite (alookup_combine (f0_ubs fb) lb j _ (f0_ubs_nodup fb HF) Hlb Hg) in E.
    rewrite (nth_error_nth' la 0) in E by lia. rewrite (nth_error_nth' lb 0) in E by lia. exact E. }
  unfold src_at in Hsrc.
  assert (Hina : In (src_num fb tc perm a1 t) V) by (unfold src_num; rewrite Epos; apply nth_In; lia).
  assert (Hinb : In (src_num fb tc perm b1 t) V) by (unfold src_num; rewrite Epos; apply nth_In; lia).
  pose proof (proj1 (valid_In fb HF _ _) Hina) as [Hlta _]. pose proof (proj1 (valid_In fb HF _ _) Hinb) as [Hltb _].
  apply (proj1 (NoDup_nth (f0_srcs fb) []) srcs_nodup) in Hsrc; [|exact Hlta | exact Hltb].
  unfold src_num in Hsrc. rewrite Epos in Hsrc. fold V in Hsrc.
  apply (proj1 (NoDup_nth V 0) (valid_nodup _)) in Hsrc; lia.
Qed.

(** the independent rows determine the digits, hence ([comb_rank]) the third component *)
Lemma round_inj_ind tc cp1 cp2 : tc <= C -> comp_ok fb tc cp1 -> comp_ok fb tc cp2 ->
  (forall g, In g ubi -> round_row fb tc cp1 g = round_row fb tc cp2 g) -> snd cp1 = snd cp2.
Proof.
  intros Hle Hok1 Hok2 Hrows. destruct cp1 as [[a0 a1] a2], cp2 as [[b0 b1] b2]. cbn [snd].
  pose proof Hok1 as (_ & _ & _ & Ha2). pose proof Hok2 as (_ & _ & _ & Hb2).
  pose proof (Forall2_length _ _ _ Ha2) as Hl1. pose proof (Forall2_length _ _ _ Hb2) as Hl2.
  apply (nth_ext _ _ 0%Z 0%Z); [lia|]. intros j Hj. rewrite <- Hl1 in Hj.
  pose proof (Forall2_nth _ _ _ j 0 0%Z Ha2 Hj) as Hia. pose proof (Forall2_nth _ _ _ j 0 0%Z Hb2 Hj) as Hib.
  cbv beta in Hia, Hib.
  destruct (combo_of_spec fb HF tc _ _ Hia) as (_ & Hcl1 & Hcd1 & Hk1).
  destruct (combo_of_spec fb HF tc _ _ Hib) as (_ & Hcl2 & Hcd2 & Hk2).
  rewrite <- Hk1, <- Hk2. f_equal.
  apply (nth_ext _ _ 0%Z 0%Z); [lia|]. intros t Ht. rewrite Hcl1 in Ht.
  pose proof (nth_error_nth' ubi 0 Hj) as Hg.
  pose proof (rows_level tc _ _ _ _ _ (round_row_ind fb HF tc (a0, a1, a2) j _ Hle Hok1 Hg)
                (round_row_ind fb HF tc (b0, b1, b2) j _ Hle Hok2 Hg) (Hrows _ (nth_In ubi 0 Hj)) t Ht) as E.
  unfold ind_level, lv_of in E. cbn [snd] in E.
  pose proof (Forall_nth' _ _ t 0%Z Hcd1 ltac:(lia)) as H1. pose proof (Forall_nth' _ _ t 0%Z Hcd2 ltac:(lia)) as H2.
  cbv beta in H1, H2.
  apply (proj1 (NoDup_nth (f0_L fb (nth j ubi 0)) 0) (f0_L_nodup fb HF (nth j ubi 0))) in E; lia.
Qed.

(** one round: equal rows for every factor force equal components *)
Lemma round_inj tc cp1 cp2 : tc <= C -> comp_ok fb tc cp1 -> comp_ok fb tc cp2 ->
  (forall g, In g K -> round_row fb tc cp1 g = round_row fb tc cp2 g) -> cp1 = cp2.
Proof.
  intros Hle Hok1 Hok2 Hrows.
  pose proof (round_inj_perm tc cp1 cp2 Hle Hok1 Hok2 (fun g Hg => Hrows g (in_or_app _ _ _ (or_introl Hg)))) as E0.
  pose proof (round_inj_ind tc cp1 cp2 Hle Hok1 Hok2
                (fun g Hg => Hrows g (in_or_app _ _ _ (or_intror (in_or_app _ _ _ (or_intror Hg)))))) as E2.
  destruct cp1 as [[a0 a1] a2], cp2 as [[b0 b1] b2]. cbn [fst snd] in E0, E2. subst b0 b2.
  rewrite (round_inj_src tc a0 a1 a2 b1 a2 Hle Hok1 Hok2
             (fun g Hg => Hrows g (in_or_app _ _ _ (or_intror (in_or_app _ _ _ (or_introl Hg)))))). reflexivity.
Qed.

Definition rounds_row (rcs : list (nat * comp)) (g : nat) : list (option nat) :=
  flat_map (fun rc => round_row fb (fst rc) (snd rc) g) rcs.

Lemma rounds_inj (rcs1 rcs2 : list (nat * comp)) :
  map fst rcs1 = map fst rcs2 ->
  (forall rc, In rc rcs1 -> fst rc <= C /\ comp_ok fb (fst rc) (snd rc)) ->
  (forall rc, In rc rcs2 -> fst rc <= C /\ comp_ok fb (fst rc) (snd rc)) ->
  (forall g, In g K -> rounds_row rcs1 g = rounds_row rcs2 g) -> rcs1 = rcs2.
Proof.
  revert rcs2. induction rcs1 as [|[tc cp1] t1 IH]; intros [|[tc2 cp2] t2] Hfst H1 H2 Hrows; try discriminate; [reflexivity|].
  cbn [map fst] in Hfst. inversion Hfst as [[Htc Hrest]]. subst tc2.
  destruct (H1 (tc, cp1) (or_introl eq_refl)) as [Hle Hok1]. destruct (H2 (tc, cp2) (or_introl eq_refl)) as [_ Hok2].
  cbn [fst snd] in *.
  assert (Hsplit : forall g, In g K -> round_row fb tc cp1 g = round_row fb tc cp2 g /\ rounds_row t1 g = rounds_row t2 g).
  { intros g Hg. specialize (Hrows g Hg). unfold rounds_row in Hrows. cbn [flat_map fst snd] in Hrows.
    apply app_inj_length; [exact Hrows|].
    rewrite !(round_row_length fb HF) by assumption. reflexivity. }
  assert (cp1 = cp2) by (apply (round_inj tc); [exact Hle | exact Hok1 | exact Hok2 | intros g Hg; apply Hsplit; exact Hg]).
  subst cp2. f_equal. apply IH; [exact Hrest | | |].
  - intros rc Hrc. apply H1. right. exact Hrc.
  - intros rc Hrc. apply H2. right. exact Hrc.
  - intros g Hg. apply Hsplit. exact Hg.
Qed.

Lemma all_rounds_fst k : key_ok fb k ->
  map fst (all_rounds fb k) = repeat C (f0_rounds fb) ++ (if lo =? 0 then [] else [lo]).
Proof.
  intros (_ & Hlen & _ & Hleft). unfold all_rounds. rewrite map_app, map_map. cbn [fst]. f_equal.
  - rewrite <- Hlen. clear. induction (k_rounds k) as [|x t IH]; [reflexivity|]. cbn [map length repeat]. f_equal. exact IH.
  - destruct (k_left k) as [cp|].
    + destruct Hleft as [Hne _]. replace (lo =? 0) with false by (symmetry; apply Nat.eqb_neq; exact Hne). reflexivity.
    + rewrite Hleft. reflexivity.
Qed.

Lemma all_rounds_inj k1 k2 : key_ok fb k1 -> key_ok fb k2 -> all_rounds fb k1 = all_rounds fb k2 -> k1 = k2.
Proof.
  intros Hk1 Hk2 E. pose proof Hk1 as (Hp1 & Hl1 & _ & Hle1). pose proof Hk2 as (Hp2 & Hl2 & _ & Hle2).
  unfold all_rounds in E. apply app_inj_length in E; [|rewrite !map_length; lia].
  destruct E as [Er El].
  assert (Hr : k_rounds k1 = k_rounds k2).
  { clear - Er. revert Er. generalize (k_rounds k2). induction (k_rounds k1) as [|x t IH]; intros [|y t2] H; try discriminate; [reflexivity|].
    cbn in H. inversion H; subst. f_equal. apply IH. assumption. }
  assert (Hlf : k_left k1 = k_left k2).
  { destruct (k_left k1) as [cp1|], (k_left k2) as [cp2|]; try discriminate; [inversion El; reflexivity | reflexivity]. }
  destruct k1, k2. cbn in *. subst. reflexivity.
Qed.

(** distinct keys give distinct sequences *)
Theorem f0_decode_inj k1 k2 : key_ok fb k1 -> key_ok fb k2 ->
  (forall g, In g K -> decoded_row fb k1 g = decoded_row fb k2 g) -> k1 = k2.
Proof.
  intros Hk1 Hk2 Hrows. apply all_rounds_inj; [exact Hk1 | exact Hk2|].
  apply rounds_inj.
  - rewrite (all_rounds_fst k1 Hk1), (all_rounds_fst k2 Hk2). reflexivity.
  - intros rc Hrc. destruct (all_rounds_ok fb HF k1 Hk1 rc Hrc) as (H1 & _ & H3). auto.
  - intros rc Hrc. destruct (all_rounds_ok fb HF k2 Hk2 rc Hrc) as (H1 & _ & H3). auto.
  - intros g Hg. unfold rounds_row. rewrite <- !(decoded_row_rounds fb HF). apply Hrows. exact Hg.
Qed.

End F0I.
