(** Decoding of an in-range key of a design of fragment F2 in closed form.
    Proof file. *)
From Coq Require Import ZArith List Bool Arith Lia.
From SP Require Import Design.Flat Design.Layout Comb.CombModel Comb.CombSpec Random.Enum Random.Frag
  Random.RunLemmas Random.FragPerm Random.Frag0Enum.
From SP Require Comb.PermProofs Comb.RadixProofs Comb.StackProofs Comb.TotalProofs.
From SP Require Export Random.ListFacts.
Import ListNotations.
Open Scope nat_scope.
Set Default Proof Using "All".

Section F0D.
Variable fb : flat.
Hypothesis HF : frag2 fb = true.

Local Notation c := (the_crossing fb).
Local Notation n := (length (fl_design fb)).
Local Notation q := (f0_q fb).
Local Notation C := (f0_C fb).
Local Notation cws := (f0_cws fb).
Local Notation inst := (f0_instances fb).
Local Notation ubi := (f0_ubi fb).

(** the unrankers, unwrapped *)
Definition perm_of (tc : nat) (c0 : Z) : list Z :=
  match p_U (f0_cws fb) tc c0 with Some p => p | None => [] end.
Definition combo_of (tc nl : nat) (idx : Z) : list Z :=
  match compute_jth_combination (Z.of_nat tc) (Z.of_nat nl) idx with Ok p => p | Err _ => [] end.

(** the word of an index at which the unranker is defined: a word over the
    crossing instances that uses none more often than its multiplicity *)
Lemma perm_of_spec tc c0 : tc <= C -> (0 <= c0 < f0_N fb tc)%Z -> p_U cws tc c0 <> None ->
  bounded_word cws (Z.of_nat tc) (perm_of tc c0) /\
  length (perm_of tc c0) = tc /\ Forall (fun x => (0 <= x < Z.of_nat q)%Z) (perm_of tc c0) /\
  p_R cws (perm_of tc c0) = c0.
Proof.
  intros Hle Hr Hd. unfold perm_of. destruct (p_U cws tc c0) as [p|] eqn:E; [|contradiction].
  destruct (p_U_spec cws (f0_cws_nonneg fb HF) tc c0 p ltac:(rewrite (f0_p_C fb HF); exact Hle) Hr E) as [Hb HR].
  split; [exact Hb|]. destruct (bw_parts cws tc p Hb) as (Hl & Hs & _).
  rewrite (f0_cws_length fb HF) in Hs. auto.
Qed.

Lemma perm_of_pos tc c0 t : tc <= C -> (0 <= c0 < f0_N fb tc)%Z -> p_U cws tc c0 <> None -> t < tc ->
  Z.to_nat (nth t (perm_of tc c0) 0%Z) < q.
Proof.
  intros Hle Hc0 Hdef Ht. destruct (perm_of_spec tc c0 Hle Hc0 Hdef) as (_ & Hpl & Hpb & _).
  pose proof (Forall_nth' _ _ t 0%Z Hpb ltac:(lia)) as H. cbv beta in H. lia.
Qed.

Lemma combo_of_spec tc nl idx : (0 <= idx < Z.of_nat nl ^ Z.of_nat tc)%Z ->
  compute_jth_combination (Z.of_nat tc) (Z.of_nat nl) idx = Ok (combo_of tc nl idx) /\
  length (combo_of tc nl idx) = tc /\ Forall (fun d => (0 <= d < Z.of_nat nl)%Z) (combo_of tc nl idx) /\
  comb_rank (Z.of_nat nl) (combo_of tc nl idx) = idx.
Proof.
  intros Hr. destruct nl as [|nl'].
  - destruct tc as [|tc'].
    + cbn in Hr. assert (idx = 0%Z) by lia. subst. unfold combo_of. cbn. repeat split; constructor.
    + rewrite Z.pow_0_l in Hr by lia. lia.
  - destruct (RadixProofs.comb_bij tc (Z.of_nat (S nl')) ltac:(lia)) as [H1 _].
    destruct (H1 idx Hr) as (ds & Hc & Hl & Hd & Hk). unfold combo_of. rewrite Hc. auto.
Qed.

Local Notation ubs := (f0_ubs fb).
Local Notation srcs := (f0_srcs fb).
Local Notation combs := (f0_combs fb).

(** a round over all instances of an unweighted crossing: the source indices are listed by instance *)
Definition full (tc : nat) : bool := (tc =? q) && f0_unw fb.

(** the number of admitted source combinations per position of the second component *)
Definition src_shapes (tc : nat) (c0 : Z) : list Z :=
  if full tc then combs else map (fun p => nth (Z.to_nat p) combs 0%Z) (perm_of tc c0).

Definition comp_ok (tc : nat) (cp : comp) : Prop :=
  let '(c0, c1, c2) := cp in
  (0 <= c0 < f0_N fb tc)%Z /\ p_U cws tc c0 <> None /\
  Forall2 (fun s x => (0 <= x < s)%Z) (src_shapes tc c0) c1 /\
  Forall2 (fun f idx => (0 <= idx < Z.of_nat (length (f0_L fb f)) ^ Z.of_nat tc)%Z) ubi c2.

(** level number [d] (an index into the admitted levels) of factor [g] *)
Definition lv_of (g : nat) (d : Z) : nat := nth (Z.to_nat d) (f0_L fb g) 0.

(** the independent rows of a round *)
Definition ind_rows (tc : nat) (c2 : list Z) : list (nat * list nat) :=
  map (fun fi => (fst fi, map (lv_of (fst fi)) (combo_of tc (length (f0_L fb (fst fi))) (snd fi)))) (combine ubi c2).

(** where the source index of trial [t] stands in the second component *)
Definition src_pos (tc : nat) (perm : list Z) (t : nat) : nat :=
  if full tc then Z.to_nat (nth t perm 0%Z) else t.

(** the number (in [srcs]) of the source combination of trial [t] *)
Definition src_num (tc : nat) (perm c1 : list Z) (t : nat) : nat :=
  nth (Z.to_nat (nth (src_pos tc perm t) c1 0%Z)) (f0_valid fb (nth (Z.to_nat (nth t perm 0%Z)) inst [])) 0.

Definition src_at (tc : nat) (perm c1 : list Z) (t : nat) : asg := nth (src_num tc perm c1 t) srcs [].

Definition spec_tv (perm : list Z) (src : nat -> asg) (rows : list (nat * list nat)) (t : nat) : asg :=
  nth (Z.to_nat (nth t perm 0%Z)) inst [] ++ src t ++ map (fun fr => (fst fr, nth t (snd fr) 0)) rows.

Definition spec_tvs (tc : nat) (cp : comp) : list asg :=
  let '(c0, c1, c2) := cp in
  map (spec_tv (perm_of tc c0) (src_at tc (perm_of tc c0) c1) (ind_rows tc c2)) (seq 0 tc).

Local Notation prod := (f0_cprod fb).
Local Notation K := (c ++ ubs ++ ubi).

Lemma inst_eq : inst = map (fun ls => combine c ls) prod.
Proof. reflexivity. Qed.

Lemma nth_inst j : j < q -> nth j inst [] = combine c (nth j prod []).
Proof.
  intros Hj. rewrite inst_eq.
  apply (nth_map_lt (fun ls => combine c ls)). exact Hj.
Qed.

Lemma prod_elem_length j : j < q -> length (nth j prod []) = length c.
Proof.
  intros Hj. apply (allowed_combos2_length fb c), nth_In, Hj.
Qed.

Lemma ubi_nodup : NoDup ubi.
Proof. unfold f0_ubi, f0_ubb, f0_ub. apply NoDup_filter. apply NoDup_filter. apply NoDup_filter. apply (act_nodup fb HF). Qed.

(** the factors the sampler draws: those of [act_design] that are plain or in the sampled crossing *)
Lemma K_In g : In g K <-> In g (fl_act fb) /\ (In g c \/ is_derived fb g = false).
Proof.
  rewrite !in_app_iff, (ubi_In fb HF), (ubs_In fb HF). split.
  - intros [H | [(H & _ & _ & Hd) | (H & _ & _ & Hd)]]; [split; [apply (f0_cact_main fb HF); exact H | left; exact H] | auto | auto].
  - intros [H [Hc | Hd]]; [left; exact Hc|]. destruct (in_dec Nat.eq_dec g c); [left; assumption | right].
    destruct (in_dec Nat.eq_dec g (f0_sf fb)); [left | right]; repeat split; assumption.
Qed.

Lemma K_not_ucd g : In g K -> ~ In g (f0_ucdl fb).
Proof.
  intros H Hu. apply K_In in H. apply (ucdl_In fb HF) in Hu. destruct H as [_ [H | H]], Hu as (_ & H1 & H2); [contradiction | congruence].
Qed.

(** the other factors of [act_design] are filled in afterwards *)
Lemma K_or_ucd g : In g (fl_act fb) -> In g K \/ In g (f0_ucdl fb).
Proof.
  intros H. destruct (in_dec Nat.eq_dec g c) as [Hc | Hc]; [left; apply K_In; auto|].
  destruct (is_derived fb g) eqn:E; [right; apply (ucdl_In fb HF); auto | left; apply K_In; auto].
Qed.

Lemma K_nodup : NoDup K.
Proof.
  apply NoDup_app_intro; [apply (f0_nodup fb (f0_unpack fb HF)) | |].
  - apply NoDup_app_intro; [apply (f0_ubs_nodup fb HF) | apply ubi_nodup|].
    intros g Hg Hu. apply (ubs_In fb HF) in Hg. apply (ubi_In fb HF) in Hu. tauto.
  - intros g Hg Hu. apply in_app_iff in Hu. rewrite (ubs_In fb HF), (ubi_In fb HF) in Hu. tauto.
Qed.

Lemma ind_rows_keys tc c2 : length c2 = length ubi -> map fst (ind_rows tc c2) = ubi.
Proof.
  intros H. unfold ind_rows. rewrite map_map. cbn [fst].
  rewrite <- (map_fst_combine ubi c2) at 2 by lia. reflexivity.
Qed.

Lemma combs_length : length combs = q.
Proof. unfold f0_combs. rewrite map_length. apply (f0_vs_length fb HF). Qed.

Lemma combs_nth p : p < q -> nth p combs 0%Z = Z.of_nat (length (f0_valid fb (nth p inst []))).
Proof.
  intros Hp. unfold f0_combs, f0_vs. rewrite map_map.
  apply (nth_map_lt (fun ci => Z.of_nat (length (f0_valid fb ci)))). rewrite (f0_instances_length fb HF). exact Hp.
Qed.

(** the source index of a trial is an index into the admitted source combinations of its instance *)
Lemma src_idx_ok tc c0 c1 t : tc <= C -> (0 <= c0 < f0_N fb tc)%Z -> p_U cws tc c0 <> None ->
  Forall2 (fun s x => (0 <= x < s)%Z) (src_shapes tc c0) c1 -> t < tc ->
  let perm := perm_of tc c0 in
  let p := Z.to_nat (nth t perm 0%Z) in
  p < q /\ src_pos tc perm t < length c1 /\
  (0 <= nth (src_pos tc perm t) c1 0%Z < Z.of_nat (length (f0_valid fb (nth p inst []))))%Z.
Proof.
  intros Hle Hc0 Hdef Hc1 Ht perm p.
  destruct (perm_of_spec tc c0 Hle Hc0 Hdef) as (_ & Hpl & _ & _).
  pose proof (perm_of_pos tc c0 t Hle Hc0 Hdef Ht) as Hp. fold perm p in Hp.
  split; [exact Hp|]. pose proof (Forall2_length _ _ _ Hc1) as Hlen.
  unfold src_pos, src_shapes in *. fold perm in Hc1, Hlen. destruct (full tc).
  - rewrite combs_length in Hlen. fold p. split; [lia|].
    assert (Hp' : p < length combs) by (rewrite combs_length; exact Hp).
    pose proof (Forall2_nth _ _ _ p 0%Z 0%Z Hc1 Hp') as H. cbv beta in H.
    rewrite (combs_nth p Hp) in H. exact H.
  - rewrite map_length in Hlen. fold perm in Hpl. split; [lia|].
    assert (Ht' : t < length (map (fun p0 => nth (Z.to_nat p0) combs 0%Z) perm)) by (rewrite map_length; lia).
    pose proof (Forall2_nth _ _ _ t 0%Z 0%Z Hc1 Ht') as H. cbv beta in H.
    rewrite (nth_map_lt (fun p0 => nth (Z.to_nat p0) combs 0%Z) perm t 0%Z 0%Z) in H by lia. fold p in H.
    rewrite (combs_nth p Hp) in H. exact H.
Qed.

Lemma valid_In ci j : In j (f0_valid fb ci) <-> j < length srcs /\ src_ok fb ci (nth j srcs []) = true.
Proof. unfold f0_valid. rewrite filter_In, in_seq. split; intros [H1 H2]; (split; [lia | exact H2]). Qed.

(** the source combination of a trial: admitted for the instance of the trial *)
Lemma src_at_spec tc cp t : tc <= C -> comp_ok tc cp -> t < tc ->
  let '(c0, c1, _) := cp in
  let perm := perm_of tc c0 in
  In (src_num tc perm c1 t) (f0_valid fb (nth (Z.to_nat (nth t perm 0%Z)) inst [])) /\
  In (src_at tc perm c1 t) srcs.
Proof.
  intros Hle Hok Ht. destruct cp as [[c0 c1] c2]. destruct Hok as (Hc0 & Hdef & Hc1 & _). intros perm.
  destruct (src_idx_ok tc c0 c1 t Hle Hc0 Hdef Hc1 Ht) as (Hp & Hpos & Hidx). fold perm in Hpos, Hidx.
  assert (Hin : In (src_num tc perm c1 t) (f0_valid fb (nth (Z.to_nat (nth t perm 0%Z)) inst []))).
  { unfold src_num. apply nth_In. lia. }
  split; [exact Hin|]. apply valid_In in Hin. unfold src_at. apply nth_In. apply Hin.
Qed.

Lemma src_at_keys tc cp t : tc <= C -> comp_ok tc cp -> t < tc ->
  let '(c0, c1, _) := cp in
  exists ls, src_at tc (perm_of tc c0) c1 t = combine ubs ls /\ length ls = length ubs.
Proof.
  intros Hle Hok Ht. pose proof (src_at_spec tc cp t Hle Hok Ht) as H. destruct cp as [[c0 c1] c2].
  destruct H as [_ H]. destruct (f0_src_shape fb HF _ H) as (ls & E & Hl & _). exists ls. split; assumption.
Qed.

Lemma spec_tv_keys tc cp t : tc <= C -> comp_ok tc cp -> t < tc ->
  let '(c0, c1, c2) := cp in
  map fst (spec_tv (perm_of tc c0) (src_at tc (perm_of tc c0) c1) (ind_rows tc c2) t) = K.
Proof.
  intros Hle Hok Ht. pose proof (src_at_keys tc cp t Hle Hok Ht) as Hsrc.
  destruct cp as [[c0 c1] c2]. destruct Hsrc as (ls & Es & Hls). destruct Hok as (Hc0 & Hdef & _ & Hc2).
  unfold spec_tv. rewrite !map_app.
  pose proof (perm_of_pos tc c0 t Hle Hc0 Hdef Ht) as Hj.
  rewrite nth_inst by exact Hj. rewrite map_fst_combine by (rewrite prod_elem_length by exact Hj; reflexivity).
  f_equal. rewrite Es. rewrite map_fst_combine by (symmetry; exact Hls). f_equal.
  rewrite map_map. cbn [fst]. change (map (fun x : nat * list nat => fst x) (ind_rows tc c2)) with (map fst (ind_rows tc c2)).
  apply ind_rows_keys. symmetry. eapply Forall2_length. exact Hc2.
Qed.

(** the level of factor [g] in trial [t] of a round *)
Definition crossed_level (perm : list Z) (i t : nat) : nat :=
  nth i (nth (Z.to_nat (nth t perm 0%Z)) prod []) 0.

(** the level of the [j]-th source factor in trial [t] *)
Definition src_level (tc : nat) (perm c1 : list Z) (j t : nat) : nat :=
  match alookup (src_at tc perm c1 t) (nth j ubs 0) with Some l => l | None => 0 end.

Definition ind_level (tc : nat) (c2 : list Z) (j t : nat) : nat :=
  lv_of (nth j ubi 0) (nth t (combo_of tc (length (f0_L fb (nth j ubi 0))) (nth j c2 0%Z)) 0%Z).

Definition round_row (tc : nat) (cp : comp) (g : nat) : list (option nat) := cells_for (spec_tvs tc cp) g.

(** the row of a drawn factor in a round, for each kind of factor *)
Lemma round_row_crossed tc cp i g : tc <= C -> comp_ok tc cp -> nth_error c i = Some g ->
  round_row tc cp g = map (fun t => Some (crossed_level (perm_of tc (fst (fst cp))) i t)) (seq 0 tc).
Proof.
  intros Hle Hok Hi. unfold round_row. destruct cp as [[c0 c1] c2]. cbn [fst spec_tvs].
  apply cells_for_map. intros t Ht. apply in_seq in Ht. destruct Ht as [_ Ht]. cbn [Nat.add] in Ht.
  destruct Hok as (Hc0 & Hdef & _ & Hc2).
  pose proof (perm_of_pos tc c0 t Hle Hc0 Hdef Ht) as Hj.
  unfold spec_tv. rewrite alookup_app. rewrite nth_inst by exact Hj.
  rewrite (alookup_combine c _ i g (f0_nodup fb (f0_unpack fb HF)) (prod_elem_length _ Hj) Hi).
  assert (Hil : i < length c) by (apply nth_error_Some; congruence).
  rewrite nth_error_nth' with (d := 0) by (rewrite prod_elem_length by exact Hj; exact Hil).
  reflexivity.
Qed.

Lemma round_row_src tc cp j g : tc <= C -> comp_ok tc cp -> nth_error ubs j = Some g ->
  round_row tc cp g = map (fun t => Some (src_level tc (perm_of tc (fst (fst cp))) (snd (fst cp)) j t)) (seq 0 tc).
Proof.
  intros Hle Hok Hj. unfold round_row. destruct cp as [[c0 c1] c2]. cbn [fst snd spec_tvs].
  apply cells_for_map. intros t Ht. apply in_seq in Ht. destruct Ht as [_ Ht]. cbn [Nat.add] in Ht.
  destruct (src_at_keys tc (c0, c1, c2) t Hle Hok Ht) as (ls & Es & Hls). destruct Hok as (Hc0 & Hdef & _ & Hc2).
  pose proof (perm_of_pos tc c0 t Hle Hc0 Hdef Ht) as Hjq.
  assert (Hgu : In g ubs) by (eapply nth_error_In; exact Hj).
  assert (Hgc : ~ In g c) by (apply (ubs_In fb HF) in Hgu; apply Hgu).
  unfold spec_tv. rewrite alookup_app. rewrite nth_inst by exact Hjq.
  rewrite alookup_combine_none by exact Hgc. rewrite alookup_app. unfold src_level.
  rewrite (nth_error_nth _ _ 0 Hj). rewrite Es.
  destruct (alookup_combine_in fb HF ubs ls g (f0_ubs_nodup fb HF) Hls Hgu) as [a Ha]. rewrite Ha. reflexivity.
Qed.

Lemma round_row_ind tc cp j g : tc <= C -> comp_ok tc cp -> nth_error ubi j = Some g ->
  round_row tc cp g = map (fun t => Some (ind_level tc (snd cp) j t)) (seq 0 tc).
Proof.
  intros Hle Hok Hj. unfold round_row. destruct cp as [[c0 c1] c2]. cbn [snd spec_tvs].
  apply cells_for_map. intros t Ht. apply in_seq in Ht. destruct Ht as [_ Ht]. cbn [Nat.add] in Ht.
  destruct (src_at_keys tc (c0, c1, c2) t Hle Hok Ht) as (ls & Es & Hls). destruct Hok as (Hc0 & Hdef & _ & Hc2).
  pose proof (perm_of_pos tc c0 t Hle Hc0 Hdef Ht) as Hjq.
  pose proof (Forall2_length _ _ _ Hc2) as Hlen.
  assert (Hgu : In g ubi) by (eapply nth_error_In; exact Hj).
  assert (Hgc : ~ In g c) by (apply (ubi_In fb HF) in Hgu; apply Hgu).
  assert (Hgs : ~ In g ubs) by (apply (ubi_In fb HF) in Hgu; rewrite (ubs_In fb HF); tauto).
  unfold spec_tv. rewrite alookup_app. rewrite nth_inst by exact Hjq.
  rewrite alookup_combine_none by exact Hgc. rewrite alookup_app, Es. rewrite alookup_combine_none by exact Hgs.
  rewrite map_pair_combine, ind_rows_keys by lia.
  assert (Hjl : j < length ubi) by (apply nth_error_Some; congruence). assert (Hjc : j < length c2) by lia.
  rewrite (alookup_combine ubi _ j g ubi_nodup) by (exact Hj || (unfold ind_rows; rewrite !map_length, combine_length; lia)).
  unfold ind_rows. rewrite !nth_error_map.
  rewrite (nth_error_combine ubi c2 j g (nth j c2 0%Z) Hj (nth_error_nth' c2 0%Z Hjc)). cbn [option_map fst snd].
  unfold ind_level. rewrite (nth_error_nth _ _ 0 Hj). f_equal.
  pose proof (Forall2_nth _ _ _ j 0 0%Z Hc2 Hjl) as Hidx. cbv beta in Hidx. rewrite (nth_error_nth _ _ 0 Hj) in Hidx.
  destruct (combo_of_spec tc _ _ Hidx) as (_ & Hcl & _).
  apply (nth_map_lt (lv_of g)). rewrite Hcl. exact Ht.
Qed.

Lemma spec_tvs_length tc cp : length (spec_tvs tc cp) = tc.
Proof. destruct cp as [[c0 c1] c2]. cbn [spec_tvs]. rewrite map_length, seq_length. reflexivity. Qed.

Lemma spec_tvs_keys tc cp tv : tc <= C -> comp_ok tc cp -> In tv (spec_tvs tc cp) -> map fst tv = K.
Proof.
  intros Hle Hok Hin. destruct cp as [[c0 c1] c2]. cbn [spec_tvs] in Hin.
  apply in_map_iff in Hin. destruct Hin as [t [<- Ht]]. apply in_seq in Ht.
  apply (spec_tv_keys tc (c0, c1, c2) t Hle Hok ltac:(lia)).
Qed.

Lemma spec_tvs_nodup tc cp tv : tc <= C -> comp_ok tc cp -> In tv (spec_tvs tc cp) -> NoDup (map fst tv).
Proof. intros Hle Hok Hin. rewrite (spec_tvs_keys tc cp tv Hle Hok Hin). apply K_nodup. Qed.

Lemma round_row_outside tc cp g : tc <= C -> comp_ok tc cp -> ~ In g K -> round_row tc cp g = [].
Proof.
  intros Hle Hok Hg. unfold round_row. rewrite <- (map_id (spec_tvs tc cp)). apply cells_for_none. intros tv Htv.
  apply alookup_none. rewrite (spec_tvs_keys tc cp tv Hle Hok Htv). exact Hg.
Qed.

(** every dictionary of the round has an entry for a drawn factor *)
Lemma round_row_alookup tc cp g : tc <= C -> comp_ok tc cp -> In g K ->
  round_row tc cp g = map (fun tv => alookup tv g) (spec_tvs tc cp).
Proof.
  intros Hle Hok Hg. apply cells_for_all. intros tv Htv. apply alookup_key.
  rewrite (spec_tvs_keys tc cp tv Hle Hok Htv). exact Hg.
Qed.

Lemma round_row_length tc cp g : tc <= C -> comp_ok tc cp -> In g K -> length (round_row tc cp g) = tc.
Proof. intros Hle Hok Hg. rewrite round_row_alookup by assumption. rewrite map_length. apply spec_tvs_length. Qed.

Lemma round_run tc cp : tc <= C -> 0 < tc -> comp_ok tc cp ->
  let rnd := experiment_of (spec_tvs tc cp) in
  NoDup (map fst rnd) /\ (forall g, row_of_run rnd g = round_row tc cp g) /\
  (forall g, rlookup rnd g <> None <-> In g K).
Proof.
  intros Hle Hpos Hok rnd. split; [apply experiment_of_keys_nodup|]. split.
  - intros g. apply row_of_experiment. intros tv Htv. eapply spec_tvs_nodup; eassumption.
  - intros g. unfold rnd. rewrite experiment_of_lookup by (intros tv Htv; eapply spec_tvs_nodup; eassumption).
    fold (round_row tc cp g). destruct (in_dec Nat.eq_dec g K) as [Hin | Hout].
    + pose proof (round_row_length tc cp g Hle Hok Hin) as Hl.
      destruct (round_row tc cp g); [cbn in Hl; lia|]. split; [intros _; exact Hin | intros _; discriminate].
    + rewrite (round_row_outside tc cp g Hle Hok Hout). split; [intros H; congruence | intros H; contradiction].
Qed.

Definition key_ok (k : key) : Prop :=
  k_pre k = 0%Z /\ length (k_rounds k) = f0_rounds fb /\ Forall (comp_ok C) (k_rounds k) /\
  match k_left k with
  | None => f0_leftover fb = 0
  | Some cp => f0_leftover fb <> 0 /\ comp_ok (f0_leftover fb) cp
  end.

Definition decoded_row (k : key) (g : nat) : list (option nat) :=
  flat_map (fun cp => round_row C cp g) (k_rounds k) ++
  match k_left k with Some cp => round_row (f0_leftover fb) cp g | None => [] end.

(** all rounds of a key, each with its number of trials *)
Definition all_rounds (k : key) : list (nat * comp) :=
  map (fun cp => (C, cp)) (k_rounds k) ++ match k_left k with Some cp => [(f0_leftover fb, cp)] | None => [] end.

Lemma all_rounds_full k cp : In cp (k_rounds k) -> In (C, cp) (all_rounds k).
Proof. intros H. apply in_app_iff. left. apply (in_map (fun cp => (C, cp))), H. Qed.

Lemma all_rounds_left k cp : k_left k = Some cp -> In (f0_leftover fb, cp) (all_rounds k).
Proof. intros E. unfold all_rounds. rewrite E. apply in_app_iff. right. left. reflexivity. Qed.

Lemma decoded_row_rounds k g :
  decoded_row k g = flat_map (fun rc => round_row (fst rc) (snd rc) g) (all_rounds k).
Proof.
  unfold decoded_row, all_rounds. rewrite flat_map_app. f_equal.
  - rewrite flat_map_map. reflexivity.
  - destruct (k_left k); [cbn; rewrite app_nil_r|]; reflexivity.
Qed.

Lemma all_rounds_ok k : key_ok k -> forall rc, In rc (all_rounds k) ->
  fst rc <= C /\ 0 < fst rc /\ comp_ok (fst rc) (snd rc).
Proof.
  intros (_ & _ & Hrounds & Hleft) rc Hin. unfold all_rounds in Hin. apply in_app_iff in Hin.
  pose proof (f0_C_pos fb HF) as HC.
  destruct Hin as [Hin | Hin].
  - apply in_map_iff in Hin. destruct Hin as [cp [E Hcp]]. subst rc. cbn [fst snd].
    rewrite Forall_forall in Hrounds. split; [lia|]. split; [lia | apply Hrounds; exact Hcp].
  - destruct (k_left k) as [cp|]; [|destruct Hin]. destruct Hin as [E | []]. subst rc. cbn [fst snd].
    destruct Hleft as [Hne Hok]. pose proof (f0_leftover_lt fb HF). split; [lia|]. split; [lia | exact Hok].
Qed.

(** the level of a derived factor outside the sampled crossing in trial [t]: the first level whose predicate accepts
    the levels the window reads ([select_level_for_sample]); the whole row of a factor of [act_design] *)
Definition ucd_pick (rows : nat -> list (option nat)) (g t : nat) : option nat :=
  match window_of fb g with
  | Some w => find (fun l => predicate fb g l (map (fun d => [nth t (rows d) None]) (win_deps w))) (all_levels fb g)
  | None => None
  end.
Definition cand_row (k : key) (g : nat) : list (option nat) :=
  if memb g (f0_ucdl fb) then map (fun t => ucd_pick (decoded_row k) g t) (seq 0 (fl_trials fb)) else decoded_row k g.

Lemma cand_row_K k g : ~ In g (f0_ucdl fb) -> cand_row k g = decoded_row k g.
Proof. intros H. unfold cand_row. apply memb_false in H. rewrite H. reflexivity. Qed.

Lemma fold_combine (rnds : list run) : forall r0 : run,
  (forall rnd, In rnd rnds -> NoDup (map fst rnd) /\ (forall g, rlookup rnd g <> None <-> In g K)) ->
  (r0 = [] \/ forall g, In g K -> rlookup r0 g <> None) ->
  exists r, fold_left (fun acc rnd => r <-- acc ;;; combine_round r rnd) rnds (ROk r0) = ROk r /\
            forall g, row_of_run r g = row_of_run r0 g ++ flat_map (fun rnd => row_of_run rnd g) rnds.
Proof.
  induction rnds as [|rnd rest IH]; intros r0 Hr Hinv.
  - exists r0. split; [reflexivity|]. intros g. cbn. rewrite app_nil_r. reflexivity.
  - destruct (Hr rnd (or_introl eq_refl)) as [Hnd Hk].
    destruct (combine_round_rows r0 rnd Hnd) as [r1 [Hc [Hrows Hkeys]]].
    { destruct Hinv as [H | H]; [left; exact H|]. right. intros f Hf. apply H. apply Hk.
      apply rlookup_in_keys. exact Hf. }
    cbn [fold_left rbind]. rewrite Hc.
    destruct (IH r1) as [r [Hf Hrow]].
    { intros x Hx. apply Hr. right. exact Hx. }
    { right. intros g Hg. apply Hkeys. right. apply Hk. exact Hg. }
    exists r. split; [exact Hf|]. intros g. rewrite Hrow, Hrows. cbn [flat_map]. rewrite app_assoc. reflexivity.
Qed.

End F0D.

(** [perm_def]: the permutation unranker of the model returns the word of the
    index (without weights always; with weights whenever the memoised unranker
    returns at all, see [jth_link]).  [memos_ok m lm]: the two memo tables of an
    enumerator are valid and the unranker is defined on them for every index
    [all_keys] draws from. *)
Definition perm_def (fb : flat) (tc : nat) (memo : memo_t) (j : Z) : Prop :=
  jth_permutation_indices (f0_base fb) (Z.of_nat (f0_q fb)) (Z.of_nat tc) j memo = ROk (perm_of fb tc j).

Record memos_ok (fb : flat) (m lm : memo_t) : Prop := {
  mo_m : f0_memo_ok fb m;
  mo_lm : f0_memo_ok fb lm;
  mo_full : forall j, (0 <= j < f0_N fb (f0_C fb))%Z -> perm_def fb (f0_C fb) m j;
  mo_left : f0_leftover fb <> 0 -> forall j, (0 <= j < f0_N fb (f0_leftover fb))%Z -> perm_def fb (f0_leftover fb) lm j
}.

Section F0J.
Variable fb : flat.
Hypothesis HF : frag2 fb = true.

Local Notation q := (f0_q fb).
Local Notation C := (f0_C fb).
Local Notation cws := (f0_cws fb).

(** what the model's unranker returns is the word of the reference unranker *)
Lemma jth_link tc memo j p : f0_memo_ok fb memo -> (0 <= j < f0_N fb tc)%Z ->
  jth_permutation_indices (f0_base fb) (Z.of_nat q) (Z.of_nat tc) j memo = ROk p -> p_U cws tc j = Some p.
Proof.
  intros Hm Hj Hrun. unfold jth_permutation_indices in Hrun. cbn [eb_m eb_unweighted eb_moc f0_base] in Hrun.
  cbn [Z.eqb Pos.eqb andb] in Hrun. unfold p_U. fold (f0_unw fb). rewrite (f0_cws_length fb HF).
  destruct (f0_unw fb) eqn:Hu.
  - destruct (compute_jth_permutation_prefix (Z.of_nat q) (Z.of_nat tc) j) as [p'|e]; [|discriminate].
    cbn [lift] in Hrun. inversion Hrun. reflexivity.
  - assert (Emoc : f0_moc fb = Counters cws) by (unfold f0_moc; rewrite Hu; reflexivity).
    pose proof (f0_params_ok fb HF) as Hpar. unfold f0_memo_ok in Hm. rewrite Emoc in Hrun, Hm, Hpar.
    cbn [compute_jth_prefix_of_permutations_with_copies] in Hrun.
    destruct (k_prefixes_of_permutations_with_copies (Z.of_nat q) (Counters cws) (Z.of_nat tc) j memo) as [[v memo']|e] eqn:Ek;
      [|discriminate]. cbn [lift rbind] in Hrun.
    rewrite (f0_N_w fb HF tc Hu) in Hj.
    destruct (TotalProofs.k_prefixes_unrank_refines (Z.of_nat q) (Counters cws) (Z.of_nat tc) memo j v memo'
                Hpar ltac:(lia) Hm Hj Ek) as [(wd & Hv & Hun) _].
    subst v. cbn [kperm fst] in Hrun. inversion Hrun; subst p. exact Hun.
Qed.

Lemma perm_def_U tc memo j : f0_memo_ok fb memo -> (0 <= j < f0_N fb tc)%Z -> perm_def fb tc memo j ->
  p_U cws tc j <> None.
Proof. intros Hm Hj Hd. rewrite (jth_link tc memo j _ Hm Hj Hd). discriminate. Qed.

(** without weights the unranker is total *)
Lemma perm_def_unw tc memo j : f0_unw fb = true -> tc <= C -> (0 <= j < f0_N fb tc)%Z -> perm_def fb tc memo j.
Proof.
  intros Hu Hle Hj. unfold perm_def, jth_permutation_indices. cbn [eb_m eb_unweighted f0_base Z.eqb Pos.eqb andb].
  rewrite Hu. destruct (p_U_total cws tc j Hu ltac:(rewrite (f0_p_C fb HF); exact Hle) Hj) as [p Hp].
  unfold perm_of. rewrite Hp. unfold p_U in Hp. fold (f0_unw fb) in Hp. rewrite Hu, (f0_cws_length fb HF) in Hp.
  destruct (compute_jth_permutation_prefix (Z.of_nat q) (Z.of_nat tc) j) as [p'|e]; [|discriminate].
  inversion Hp. reflexivity.
Qed.

(** with weights the memoised unranker returns (C13 totality) *)
Lemma perm_def_total tc memo j : tc <= C -> f0_memo_ok fb memo -> (0 <= j < f0_N fb tc)%Z -> perm_def fb tc memo j.
Proof.
  intros Hle Hm Hj. destruct (f0_unw fb) eqn:Hu; [apply (perm_def_unw tc memo j Hu Hle Hj)|].
  unfold perm_def, jth_permutation_indices. cbn [eb_m eb_unweighted eb_moc f0_base Z.eqb Pos.eqb andb].
  rewrite Hu. assert (Emoc : f0_moc fb = Counters cws) by (unfold f0_moc; rewrite Hu; reflexivity).
  pose proof (f0_params_ok fb HF) as Hpar. unfold f0_memo_ok in Hm. rewrite Emoc in Hm, Hpar. rewrite Emoc.
  cbn [compute_jth_prefix_of_permutations_with_copies].
  rewrite (f0_N_w fb HF tc Hu) in Hj.
  destruct (TotalProofs.k_prefixes_unrank_total (Z.of_nat q) (Counters cws) (Z.of_nat tc) memo j
              Hpar ltac:(lia) Hm Hj) as (wd & memo' & Hrun & Hun & _).
  rewrite Hrun. cbn [lift rbind kperm fst]. f_equal. unfold perm_of, p_U. fold (f0_unw fb). rewrite Hu.
  cbn [StackProofs.cs_of] in Hun. rewrite Hun. reflexivity.
Qed.

Lemma memos_ok_total m lm : f0_memo_ok fb m -> f0_memo_ok fb lm -> memos_ok fb m lm.
Proof.
  intros Hm Hlm. constructor; [exact Hm | exact Hlm | |].
  - intros j Hj. apply perm_def_total; [apply le_n | exact Hm | exact Hj].
  - intros _ j Hj. apply perm_def_total; [apply Nat.lt_le_incl, (f0_leftover_lt fb HF) | exact Hlm | exact Hj].
Qed.

End F0J.

(** the levels that the digits of a combination name *)
Lemma rmap_digits (levels : list nat) (combo : list Z) : Forall (fun d => (0 <= d < Z.of_nat (length levels))%Z) combo ->
  rmap (fun i => d <-- zindex combo (Z.of_nat i) ;;; zindex levels d) (seq 0 (length combo)) =
  ROk (map (fun d => nth (Z.to_nat d) levels 0) combo).
Proof.
  intros Hcd. rewrite (map_via_seq (fun d => nth (Z.to_nat d) levels 0) combo 0%Z).
  apply rmap_ok_map. intros i Hi. apply in_seq in Hi.
  rewrite zindex_nat. rewrite nth_error_nth' with (d := 0%Z) by lia. cbn [of_opt rbind].
  apply zindex_nth_ok. apply Forall_nth'; [exact Hcd | lia].
Qed.

Section F0M.
Variable fb : flat.
Hypothesis HF : frag2 fb = true.
Variables m lm : memo_t.
Variables cn lcn : Z.
Hypothesis HM : memos_ok fb m lm.

Local Notation c := (the_crossing fb).
Local Notation n := (length (fl_design fb)).
Local Notation q := (f0_q fb).
Local Notation C := (f0_C fb).
Local Notation cws := (f0_cws fb).
Local Notation inst := (f0_instances fb).
Local Notation ubi := (f0_ubi fb).
Local Notation en := (f0_enum fb m lm cn lcn).
Local Notation K := (the_crossing fb ++ f0_ubs fb ++ f0_ubi fb).
Local Notation srcs := (f0_srcs fb).

Lemma full_round_f0 tc : full_round en (Z.of_nat tc) = full fb tc.
Proof.
  unfold full_round, q_instances, full. cbn [en_base f0_enum eb_instances f0_base eb_unweighted].
  rewrite f0_instances_length by exact HF. f_equal.
  destruct (tc =? q) eqn:E.
  - apply Nat.eqb_eq in E. subst. apply Z.eqb_refl.
  - apply Nat.eqb_neq in E. apply Z.eqb_neq. lia.
Qed.

(** two stages of [generate_trial_values]: the source combination of each trial, the row of each independent factor *)
Lemma gtv_sources tc c0 c1 : tc <= C -> (0 <= c0 < f0_N fb tc)%Z -> p_U cws tc c0 <> None ->
  Forall2 (fun s x => (0 <= x < s)%Z) (src_shapes fb tc c0) c1 ->
  rmap (fun ip : Z * Z => let '(i, p) := ip in
          cp <-- zindex c1 (if full_round en (Z.of_nat tc) then p else i) ;;;
          vp <-- zindex (en_valid en) p ;;;
          si <-- zindex vp cp ;;;
          of_opt IndexError (nth_error (eb_sources (f0_base fb)) si))
       (enumerate_from 0 (perm_of fb tc c0)) = ROk (map (src_at fb tc (perm_of fb tc c0) c1) (seq 0 tc)).
Proof.
  intros Hle Hc0 HU Hc1. destruct (perm_of_spec fb HF tc c0 Hle Hc0 HU) as (_ & Hpl & Hpb & _).
  set (perm := perm_of fb tc c0) in *.
  rewrite <- Hpl. apply rmap_enumerate. intros k p Hn. rewrite Z.add_0_l, Hpl. cbv beta iota.
  assert (Hk : k < tc) by (rewrite <- Hpl; apply nth_error_Some; congruence).
  assert (Hpin : In p perm) by (eapply nth_error_In; exact Hn).
  rewrite Forall_forall in Hpb. specialize (Hpb p Hpin).
  rewrite full_round_f0.
  destruct (src_idx_ok fb HF tc c0 c1 k Hle Hc0 HU Hc1 Hk) as (Hp & Hpos & Hidx). fold perm in Hp, Hpos, Hidx.
  assert (Enp : nth k perm 0%Z = p) by (apply nth_error_nth; exact Hn). rewrite Enp in Hp, Hidx.
  assert (Epos : Z.to_nat (if full fb tc then p else Z.of_nat k) = src_pos fb tc perm k).
  { unfold src_pos. rewrite Enp. destruct (full fb tc); [reflexivity | apply Nat2Z.id]. }
  assert (Hz : zindex c1 (if full fb tc then p else Z.of_nat k) = ROk (nth (src_pos fb tc perm k) c1 0%Z)).
  { apply zindex_some; [destruct (full fb tc); lia|]. rewrite Epos. apply nth_error_nth'. exact Hpos. }
  rewrite Hz. cbn [rbind]. cbn [en_valid f0_enum].
  assert (Hv : zindex (f0_vs fb) p = ROk (f0_valid fb (nth (Z.to_nat p) inst []))).
  { apply zindex_some; [lia|]. unfold f0_vs.
    apply (map_nth_error (f0_valid fb) (Z.to_nat p) inst (d := nth (Z.to_nat p) inst [])).
    apply nth_error_nth'. rewrite f0_instances_length by exact HF. exact Hp. }
  rewrite Hv. cbn [rbind].
  rewrite (zindex_nth_ok (f0_valid fb (nth (Z.to_nat p) inst [])) _ Hidx). cbn [rbind eb_sources f0_base fst].
  assert (Hin : In (nth (Z.to_nat (nth (src_pos fb tc perm k) c1 0%Z)) (f0_valid fb (nth (Z.to_nat p) inst [])) 0)
                   (f0_valid fb (nth (Z.to_nat p) inst []))) by (apply nth_In; lia).
  apply (valid_In fb HF) in Hin. destruct Hin as [Hlt _].
  rewrite nth_error_nth' with (d := ([] : asg)) by exact Hlt. cbn [of_opt].
  unfold src_at, src_num. rewrite Enp. reflexivity.
Qed.

Lemma gtv_ind_rows tc c2 :
  Forall2 (fun f idx => (0 <= idx < Z.of_nat (length (f0_L fb f)) ^ Z.of_nat tc)%Z) ubi c2 ->
  rmap (fun jf : Z * (nat * list nat) => let '(j, (fi, levels)) := jf in
          idx <-- zindex c2 j ;;;
          combo <-- lift (compute_jth_combination (Z.of_nat tc) (Z.of_nat (length levels)) idx) ;;;
          row <-- rmap (fun i => d <-- zindex combo (Z.of_nat i) ;;; zindex levels d) (seq 0 tc) ;;;
          ROk (fi, row))
       (enumerate_from 0 (map (fun f => (f, f0_L fb f)) ubi)) = ROk (ind_rows fb tc c2).
Proof.
  intros Hc2. pose proof (Forall2_length _ _ _ Hc2) as Hlen.
  transitivity (ROk (map (fun j => (nth j ubi 0, map (lv_of fb (nth j ubi 0))
                                      (combo_of tc (length (f0_L fb (nth j ubi 0))) (nth j c2 0%Z)))) (seq 0 (length ubi))));
    [|f_equal; symmetry;
      apply (map_combine_seq (fun f idx => (f, map (lv_of fb f) (combo_of tc (length (f0_L fb f)) idx))) ubi c2 0 0%Z Hlen)].
  rewrite <- (map_length (fun f => (f, f0_L fb f)) ubi). apply rmap_enumerate. intros j [f lv] Hn. rewrite Z.add_0_l. cbv beta iota.
  rewrite nth_error_map in Hn. destruct (nth_error ubi j) as [g|] eqn:Ej; [|discriminate Hn]. injection Hn as <- <-.
  assert (Hj : j < length ubi) by (apply nth_error_Some; congruence).
  pose proof (Forall2_nth _ _ _ j 0 0%Z Hc2 Hj) as Hidx. cbv beta in Hidx. rewrite (nth_error_nth _ _ 0 Ej) in Hidx |- *.
  rewrite zindex_nat, (nth_error_nth' c2 0%Z) by lia. cbn [of_opt rbind].
  destruct (combo_of_spec fb HF tc (length (f0_L fb g)) _ Hidx) as (Hc & Hcl & Hcd & _).
  rewrite Hc. cbn [lift rbind]. rewrite <- Hcl at 1. rewrite (rmap_digits _ _ Hcd). reflexivity.
Qed.

Lemma gtv_f0 tc memo cp : tc <= C -> comp_ok fb tc cp -> perm_def fb tc memo (fst (fst cp)) ->
  generate_trial_values en cp (Z.of_nat tc) memo = ROk (spec_tvs fb tc cp).
Proof.
  intros Hle Hok Hdef. destruct cp as [[c0 c1] c2]. destruct Hok as (Hc0 & HU & Hc1 & Hc2). cbn [fst] in Hdef.
  destruct (perm_of_spec fb HF tc c0 Hle Hc0 HU) as (_ & Hpl & Hpb & _).
  unfold generate_trial_values. unfold q_instances.
  cbn [en_base f0_enum eb_instances f0_base].
  rewrite f0_instances_length by exact HF. unfold perm_def in Hdef. rewrite Hdef. cbn [rbind].
  rewrite (rmap_zindex inst [] _ ltac:(rewrite (f0_instances_length fb HF); exact Hpb)). cbn [rbind].
  rewrite (gtv_sources tc c0 c1 Hle Hc0 HU Hc1). cbn [rbind].
  cbn [en_ind_levels f0_enum]. rewrite Nat2Z.id.
  rewrite (gtv_ind_rows tc c2 Hc2). cbn [rbind].
  unfold spec_tvs. apply rmap_ok_map. intros t Ht. apply in_seq in Ht.
  rewrite !nth_error_map. rewrite nth_error_nth' with (d := 0%Z) by lia.
  rewrite (nth_error_nth' (seq 0 tc) 0) by (rewrite seq_length; lia). rewrite seq_nth by lia. reflexivity.
Qed.

(** the candidate before the derived factors outside the crossing are filled in *)
Lemma decode_f0 k : key_ok fb k ->
  exists r, decode_with fb en k = fill_in_derived fb r (stable_sort (fdepth fb) (f0_ucdl fb)) 0 (fl_trials fb) /\
            forall g, row_of_run r g = decoded_row fb k g.
Proof.
  intros Hk. pose proof Hk as (Hpre & Hlen & Hrounds & Hleft). unfold decode_with.
  unfold generate_preamble_sample. cbn [en_base f0_enum eb_preamble f0_base Z.eqb]. rewrite Hpre. cbn [Z.eqb rbind].
  cbn [en_base f0_enum eb_csize f0_base en_memo en_leftover en_lmemo eb_sorted_ucd].
  assert (Hrs : rmap (fun c0 : comp => tvs <-- generate_trial_values en c0 (Z.of_nat C) m ;;; ROk (experiment_of tvs))
                     (k_rounds k) = ROk (map (fun cp => experiment_of (spec_tvs fb C cp)) (k_rounds k))).
  { apply rmap_ok_map. intros cp Hcp. rewrite Forall_forall in Hrounds.
    rewrite (gtv_f0 C m cp (le_n _) (Hrounds cp Hcp)); [reflexivity|].
    apply (mo_full fb m lm HM). destruct cp as [[c0 c1] c2]. apply (Hrounds _ Hcp). }
  rewrite Hrs. cbn [rbind].
  set (ls := match k_left k with Some cp => [experiment_of (spec_tvs fb (f0_leftover fb) cp)] | None => [] end).
  assert (Hls : match k_left k with
                | Some c0 => tvs <-- generate_trial_values en c0 (Z.of_nat (f0_leftover fb)) lm ;;; ROk [experiment_of tvs]
                | None => ROk []
                end = ROk ls).
  { unfold ls. destruct (k_left k) as [cp|]; [|reflexivity]. destruct Hleft as [Hne Hok].
    rewrite (gtv_f0 _ lm cp (Nat.lt_le_incl _ _ (f0_leftover_lt fb HF)) Hok); [reflexivity|].
    apply (mo_left fb m lm HM Hne). destruct cp as [[c0 c1] c2]. apply Hok. }
  rewrite Hls. cbn [rbind].
  (* the rounds, uniformly *)
  set (rnd_of := fun rc : nat * comp => experiment_of (spec_tvs fb (fst rc) (snd rc))).
  assert (Erounds : map (fun cp => experiment_of (spec_tvs fb C cp)) (k_rounds k) ++ ls = map rnd_of (all_rounds fb k)).
  { unfold all_rounds, ls. rewrite map_app, map_map. destruct (k_left k); reflexivity. }
  rewrite Erounds.
  assert (Hrun : forall rc, In rc (all_rounds fb k) ->
            NoDup (map fst (rnd_of rc)) /\ (forall g, row_of_run (rnd_of rc) g = round_row fb (fst rc) (snd rc) g) /\
            (forall g, rlookup (rnd_of rc) g <> None <-> In g K)).
  { intros rc Hrc. destruct (all_rounds_ok fb HF k Hk rc Hrc) as (Hle & Hpos & Hok). apply (round_run fb HF _ _ Hle Hpos Hok). }
  destruct (fold_combine fb HF (map rnd_of (all_rounds fb k)) []) as [r [Hf Hrow]].
  { intros rnd Hin. apply in_map_iff in Hin. destruct Hin as [rc [<- Hrc]]. destruct (Hrun rc Hrc) as (H1 & _ & H3). split; assumption. }
  { left. reflexivity. }
  exists r. split; [rewrite Hf; reflexivity|].
  intros g. rewrite Hrow, (decoded_row_rounds fb HF), flat_map_map. unfold row_of_run at 1. cbn [rlookup find app].
  apply flat_map_ext_in. intros rc Hrc. apply (Hrun rc Hrc).
Qed.

End F0M.
