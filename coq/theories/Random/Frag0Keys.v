(** The candidate keys of a design of fragment F2: [all_keys] enumerates exactly
    the in-range keys ([key_ok]), without repetition, [possible_keys] of them.
    Proof file. *)
From Coq Require Import ZArith List Bool Arith Lia.
From SP Require Import Design.Flat Design.Layout Comb.CombModel Comb.CombSpec Random.Enum Random.Frag
  Random.RunLemmas Random.FragPerm Random.KeysCount Random.Frag0Enum Random.Frag0Decode.
From SP Require Comb.PermProofs.
From SP Require Export Random.ListFacts.
Import ListNotations.
Open Scope nat_scope.
Set Default Proof Using "All".

Section F0K.
Variable fb : flat.
Hypothesis HF : frag2 fb = true.
Variables m lm : memo_t.
Variables cn lcn : Z.
Hypothesis HM : memos_ok fb m lm.

Local Notation q := (f0_q fb).
Local Notation C := (f0_C fb).
Local Notation cws := (f0_cws fb).
Local Notation T := (fl_trials fb).
Local Notation lo := (f0_leftover fb).
Local Notation inst := (f0_instances fb).
Local Notation ubi := (f0_ubi fb).
Local Notation en := (f0_enum fb m lm cn lcn).

Definition f0_comps (tc : nat) : list comp :=
  flat_map (fun pi => flat_map (fun src => map (fun ind => (Z.of_nat pi, src, ind))
                                               (ranges_product (f0_inds fb (Z.of_nat tc))))
                               (ranges_product (src_shapes fb tc (Z.of_nat pi))))
           (seq 0 (Z.to_nat (f0_N fb tc))).

Lemma f0_N_nonneg tc : tc <= C -> (0 <= f0_N fb tc)%Z.
Proof. intros H. apply (p_N_nonneg cws). rewrite (f0_p_C fb HF). exact H. Qed.

(** a round size with its memo table, as [all_keys] and [decode_with] use them *)
Definition round_ok (tc : nat) (memo : memo_t) : Prop :=
  tc <= C /\ f0_memo_ok fb memo /\ forall j, (0 <= j < f0_N fb tc)%Z -> perm_def fb tc memo j.

Lemma round_ok_full : round_ok C m.
Proof. split; [apply le_n|]. split; [apply (mo_m fb m lm HM) | apply (mo_full fb m lm HM)]. Qed.

Lemma round_ok_left : lo <> 0 -> round_ok lo lm.
Proof.
  intros Hne. split; [apply Nat.lt_le_incl, (f0_leftover_lt fb HF)|].
  split; [apply (mo_lm fb m lm HM) | apply (mo_left fb m lm HM Hne)].
Qed.

Lemma components_f0 tc memo : round_ok tc memo ->
  components_for en (f0_shape fb tc) (Z.of_nat tc) memo = ROk (f0_comps tc).
Proof.
  intros (Hle & Hmemo & Hdef). unfold components_for. cbn [sh_cross f0_shape sh_combs sh_inds].
  assert (H : rmap (fun pi : nat =>
                      src_shapes <-- (if full_round en (Z.of_nat tc) then ROk (f0_combs fb)
                                      else perm <-- jth_permutation_indices (en_base en) (q_instances (en_base en)) (Z.of_nat tc) (Z.of_nat pi) memo ;;;
                                           rmap (zindex (f0_combs fb)) perm) ;;;
                      ROk (flat_map (fun src => map (fun ind => (Z.of_nat pi, src, ind)) (ranges_product (f0_inds fb (Z.of_nat tc))))
                                    (ranges_product src_shapes)))
                   (seq 0 (Z.to_nat (f0_N fb tc))) =
              ROk (map (fun pi => flat_map (fun src => map (fun ind => (Z.of_nat pi, src, ind))
                                                           (ranges_product (f0_inds fb (Z.of_nat tc))))
                                           (ranges_product (src_shapes fb tc (Z.of_nat pi))))
                       (seq 0 (Z.to_nat (f0_N fb tc))))).
  { apply rmap_ok_map. intros pi Hpi. apply in_seq in Hpi.
    rewrite (full_round_f0 fb HF m lm cn lcn HM). unfold src_shapes. destruct (full fb tc) eqn:E.
    - cbn [rbind]. reflexivity.
    - unfold q_instances. cbn [en_base f0_enum eb_instances f0_base].
      rewrite (f0_instances_length fb HF).
      assert (Hr : (0 <= Z.of_nat pi < f0_N fb tc)%Z) by (pose proof (f0_N_nonneg tc Hle); lia).
      pose proof (Hdef _ Hr) as Hd. unfold perm_def in Hd. rewrite Hd. cbn [rbind].
      destruct (perm_of_spec fb HF tc (Z.of_nat pi) Hle Hr (perm_def_U fb HF tc memo _ Hmemo Hr (Hdef _ Hr)))
        as (_ & Hpl & Hpb & _).
      rewrite (rmap_zindex (f0_combs fb) 0%Z _ ltac:(rewrite (combs_length fb HF); exact Hpb)). cbn [rbind]. reflexivity. }
  rewrite H. cbn [rbind]. unfold f0_comps. rewrite flat_map_concat_map. reflexivity.
Qed.

Lemma f0_inds_nonneg tc : Forall (fun s => (0 <= s)%Z) (f0_inds fb (Z.of_nat tc)).
Proof.
  unfold f0_inds. apply Forall_forall. intros s Hs. apply in_map_iff in Hs. destruct Hs as [f [E _]]. subst s.
  apply Z.pow_nonneg. lia.
Qed.

Lemma inds_Forall2 tc c2 :
  Forall2 (fun s x => (0 <= x < s)%Z) (f0_inds fb (Z.of_nat tc)) c2 <->
  Forall2 (fun f idx => (0 <= idx < Z.of_nat (length (f0_L fb f)) ^ Z.of_nat tc)%Z) ubi c2.
Proof. apply Forall2_map_l. Qed.

Lemma f0_comps_In tc memo cp : round_ok tc memo -> In cp (f0_comps tc) <-> comp_ok fb tc cp.
Proof.
  intros (Hle & Hmemo & Hdef). unfold f0_comps, comp_ok. destruct cp as [[c0 c1] c2]. rewrite in_flat_map. split.
  - intros [pi [Hpi Hin]]. apply in_seq in Hpi. apply in_flat_map in Hin. destruct Hin as [src [Hsrc Hin]].
    apply in_map_iff in Hin. destruct Hin as [ind [E Hind]].
    inversion E; subst. apply ranges_product_In in Hind. apply ranges_product_In in Hsrc.
    assert (Hr : (0 <= Z.of_nat pi < f0_N fb tc)%Z) by lia.
    split; [exact Hr|]. split; [apply (perm_def_U fb HF tc memo _ Hmemo Hr (Hdef _ Hr))|]. split; [exact Hsrc|].
    apply inds_Forall2. exact Hind.
  - intros (Hc0 & _ & Hc1 & Hc2). exists (Z.to_nat c0). split; [apply in_seq; lia|].
    rewrite Z2Nat.id by lia. apply in_flat_map. exists c1. split; [apply ranges_product_In; exact Hc1|].
    apply in_map_iff. exists c2. split; [reflexivity|].
    apply ranges_product_In. apply inds_Forall2. exact Hc2.
Qed.

Definition f0_lefts : list (option comp) := if lo =? 0 then [None] else map Some (f0_comps lo).
Definition f0_keys : list key :=
  flat_map (fun rs => map (fun l => {| k_pre := 0%Z; k_rounds := rs; k_left := l |}) f0_lefts)
           (words (f0_rounds fb) (f0_comps C)).

Lemma f0_rounds_per_run : rounds_per_run fb en = Z.of_nat (f0_rounds fb).
Proof.
  unfold rounds_per_run, trials_Z. cbn [en_base f0_enum eb_preamble eb_csize f0_base].
  rewrite Z.sub_0_r. unfold f0_rounds. rewrite Nat2Z.inj_div. reflexivity.
Qed.

Lemma all_keys_f0 : all_keys fb en = ROk f0_keys.
Proof.
  unfold all_keys. cbn [en_base en_shape en_memo f0_enum eb_csize f0_base].
  rewrite (components_f0 C m round_ok_full). cbn [rbind]. cbn [en_leftover en_lshape en_lmemo f0_enum].
  rewrite f0_rounds_per_run, Nat2Z.id. cbn [en_pcount f0_enum Z.to_nat].
  change (Pos.to_nat 1) with 1. cbn [seq flat_map Z.of_nat].
  unfold f0_keys, f0_lefts.
  destruct (lo =? 0) eqn:E.
  - apply Nat.eqb_eq in E. rewrite E. cbn [Z.of_nat Z.eqb rbind]. rewrite app_nil_r. reflexivity.
  - apply Nat.eqb_neq in E. replace (Z.of_nat lo =? 0)%Z with false by (symmetry; apply Z.eqb_neq; lia).
    rewrite (components_f0 lo lm (round_ok_left E)). cbn [rbind]. rewrite app_nil_r. reflexivity.
Qed.

Lemma f0_keys_In k : In k f0_keys <-> key_ok fb k.
Proof.
  unfold f0_keys, key_ok. rewrite in_flat_map. split.
  - intros [rs [Hrs Hin]]. apply in_map_iff in Hin. destruct Hin as [l [E Hl]]. subst k. cbn [k_pre k_rounds k_left].
    apply words_In in Hrs. destruct Hrs as [Hlen Hall]. split; [reflexivity|]. split; [exact Hlen|]. split.
    + apply Forall_forall. intros cp Hcp. rewrite Forall_forall in Hall. apply (f0_comps_In C m cp round_ok_full). apply Hall. exact Hcp.
    + unfold f0_lefts in Hl. destruct (lo =? 0) eqn:E.
      * destruct Hl as [Hl | []]. subst l. apply Nat.eqb_eq. exact E.
      * apply in_map_iff in Hl. destruct Hl as [cp [E2 Hcp]]. subst l. apply Nat.eqb_neq in E. split; [exact E|].
        apply (f0_comps_In lo lm cp (round_ok_left E)). exact Hcp.
  - intros (Hpre & Hlen & Hrounds & Hleft). exists (k_rounds k). split.
    + apply words_In. split; [exact Hlen|]. apply Forall_forall. intros cp Hcp. rewrite Forall_forall in Hrounds.
      apply (f0_comps_In C m cp round_ok_full). apply Hrounds. exact Hcp.
    + apply in_map_iff. exists (k_left k). split; [destruct k; cbn in *; subst; reflexivity|].
      unfold f0_lefts. destruct (k_left k) as [cp|].
      * destruct Hleft as [Hne Hok]. replace (lo =? 0) with false by (symmetry; apply Nat.eqb_neq; exact Hne).
        apply in_map. apply (f0_comps_In lo lm cp (round_ok_left Hne)). exact Hok.
      * rewrite Hleft. cbn. left. reflexivity.
Qed.

(** without repetition, [possible_keys] of them (the general count, KeysCount.v) *)
Lemma f0_rounds_nonneg : (0 <= rounds_per_run fb en)%Z.
Proof. rewrite f0_rounds_per_run. lia. Qed.

Lemma f0_keys_NoDup : make_enumerator fb = ROk en -> NoDup f0_keys.
Proof. intros Hen. apply (keys_count_general fb en f0_keys Hen all_keys_f0 f0_rounds_nonneg). Qed.

Lemma f0_keys_length : make_enumerator fb = ROk en -> Z.of_nat (length f0_keys) = possible_keys fb en.
Proof. intros Hen. apply (keys_count_general fb en f0_keys Hen all_keys_f0 f0_rounds_nonneg). Qed.

(** the keys [RandomGen.__sample] draws from *)
Lemma sample_keys_f0 : make_enumerator fb = ROk en ->
  sample_keys fb = ROk (if fl_errors_fail fb || (en_count en =? 0)%Z then [] else f0_keys).
Proof.
  intros Hen. unfold sample_keys. destruct (fl_errors_fail fb); [reflexivity|].
  rewrite Hen. cbn [rbind orb].
  destruct (en_count en =? 0)%Z; [reflexivity|]. apply all_keys_f0.
Qed.

End F0K.
