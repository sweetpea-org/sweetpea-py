(** Fragment F0 ([Frag.frag0]) is contained in fragment F1 ([Frag.frag1]); the
    theorems about F0 (used by Encode/SatRandom.v and Properties/C04, C06) are
    corollaries of those about F1 (Random/Frag1Thms.v).  Proof file. *)
From Coq Require Import ZArith List Bool Arith Lia.
From SP Require Import Design.Flat Design.Layout Design.Sem Comb.CombModel Random.Enum Random.Frag
  Random.FragSem Random.RunLemmas Random.Frag0Enum Random.Frag1Thms.
Import ListNotations.
Open Scope nat_scope.

Section F0T.
Variable fb : flat.
Hypothesis HF : frag0 fb = true.

Lemma frag0_parts :
  single_plain_crossing fb = true /\ no_rejecting_constraints fb = true /\ no_exclusions fb = true /\
  all_active fb = true /\ all_basic fb = true /\ unit_weights fb = true /\ plain_geometry fb = true /\
  size_matches fb = true /\ nonempty_levels fb = true.
Proof.
  pose proof HF as H. unfold frag0 in H. repeat (apply andb_prop in H; destruct H as [H ?]). repeat split; assumption.
Qed.

Lemma frag0_no_excluded di : is_excluded_combination fb di = false.
Proof.
  destruct frag0_parts as (_ & _ & Hex & _). unfold no_exclusions in Hex. unfold is_excluded_combination.
  destruct (fl_exclude fb); [|discriminate]. destruct (fl_excluded_derived fb); [reflexivity | discriminate].
Qed.

Lemma frag0_no_exclude_constraint :
  flat_map (fun k => match k with FExclude f l => [(f, l)] | _ => [] end) (fl_constraints fb) = [].
Proof.
  destruct frag0_parts as (_ & Hc & _). unfold no_rejecting_constraints in Hc. rewrite forallb_forall in Hc.
  induction (fl_constraints fb) as [|k t IH]; [reflexivity|]. cbn [flat_map].
  rewrite IH by (intros x Hx; apply Hc; right; exact Hx).
  specialize (Hc k (or_introl eq_refl)). destruct k; try discriminate; reflexivity.
Qed.

Lemma frag0_nlevels_pos f : f < length (fl_design fb) -> 0 < nlevels fb f.
Proof.
  destruct frag0_parts as (_ & _ & _ & _ & _ & _ & _ & _ & H9). intros Hf. unfold nlevels, factor_at.
  destruct (nth_error (fl_design fb) f) as [fd|] eqn:Ef.
  - unfold nonempty_levels in H9. rewrite forallb_forall in H9. apply Nat.ltb_lt. apply H9. eapply nth_error_In. exact Ef.
  - apply nth_error_None in Ef. destruct (proj1 (Nat.lt_nge _ _) Hf Ef).
Qed.

Theorem frag0_frag1 : frag1 fb = true.
Proof.
  destruct frag0_parts as (H1 & H2 & H3 & H4 & H5 & H6 & H7 & H8 & _).
  unfold frag1. rewrite H1, H4, H5, H6, H7, H2. rewrite orb_true_r. cbn [andb]. rewrite !andb_true_r.
  apply andb_true_intro. split; [apply andb_true_intro; split; [apply andb_true_intro; split|]|].
  - apply forallb_forall. intros k Hk. unfold no_rejecting_constraints in H2. rewrite forallb_forall in H2.
    specialize (H2 k Hk). destruct k; try discriminate; reflexivity.
  - unfold exclude_consistent. rewrite frag0_no_exclude_constraint. unfold no_exclusions in H3.
    destruct (fl_exclude fb); [|discriminate]. destruct (fl_excluded_derived fb); [reflexivity | discriminate].
  - unfold size_matches1. unfold size_matches in H8. unfold single_plain_crossing in H1.
    destruct (fl_crossings fb) as [|c [|? ?]]; try discriminate. destruct (fl_sizes fb) as [|s0 [|? ?]]; try discriminate.
    apply Nat.eqb_eq in H8. subst s0.
    assert (Hall : allowed_combos fb c = product (map (all_levels fb) c)).
    { unfold allowed_combos. apply filter_all. intros ls _. rewrite frag0_no_excluded. reflexivity. }
    rewrite Hall, Nat.eqb_refl. cbn [andb]. apply Nat.ltb_lt.
    destruct (fl_sustains fb) as [|[|[|?]] [|? ?]]; try discriminate.
    apply andb_prop in H1. destruct H1 as [_ Hr]. rewrite forallb_forall in Hr.
    assert (Hne : product (map (all_levels fb) c) <> []).
    { apply product_nonempty. intros l Hl. apply in_map_iff in Hl. destruct Hl as [f [E Hf]]. subst l.
      pose proof (frag0_nlevels_pos f (proj1 (Nat.ltb_lt _ _) (Hr f Hf))) as Hp. unfold all_levels.
      destruct (nlevels fb f); [inversion Hp | discriminate]. }
    destruct (product (map (all_levels fb) c)); [contradiction | apply Nat.lt_0_succ].
  - unfold free_levels_nonempty. apply forallb_forall. intros f Hf. apply in_seq in Hf. apply Nat.ltb_lt.
    assert (Hl : nonexcluded_levels fb f = all_levels fb f).
    { unfold nonexcluded_levels. apply filter_all. intros l _. rewrite frag0_no_excluded. reflexivity. }
    rewrite Hl. unfold all_levels. rewrite seq_length. apply frag0_nlevels_pos. exact (proj2 Hf).
Qed.

Lemma frag0_rejection_free : rejection_free fb = true.
Proof.
  destruct frag0_parts as (H1 & Hc & _). unfold no_rejecting_constraints in Hc. unfold rejection_free.
  apply andb_true_intro. split; [apply andb_true_intro; split|].
  - rewrite forallb_forall in *. intros k Hk. specialize (Hc k Hk). destruct k; try discriminate; reflexivity.
  - unfold single_plain_crossing in H1. destruct (fl_crossings fb) as [|c [|? ?]]; try discriminate. reflexivity.
  - rewrite (frag1_no_derived fb frag0_frag1). reflexivity.
Qed.

Local Notation HF1 := frag0_frag1.

Theorem f0_accept_sound k cand :
  In k (keys_of fb) -> decode_key fb k = Some cand -> accepts fb cand = true ->
  valid_b (code_sem fb) (tseq_of_run fb cand) = true.
Proof. exact (f1_accept_sound fb HF1 k cand). Qed.

Theorem f0_cand_inj k1 k2 c1 c2 :
  In k1 (keys_of fb) -> In k2 (keys_of fb) ->
  decode_key fb k1 = Some c1 -> decode_key fb k2 = Some c2 ->
  tseq_of_run fb c1 = tseq_of_run fb c2 -> k1 = k2.
Proof. exact (f1_cand_inj fb HF1 k1 k2 c1 c2). Qed.

Theorem f0_keys_nodup : NoDup (keys_of fb).
Proof. exact (f1_keys_nodup fb HF1). Qed.

Theorem f0_accept_complete s :
  fl_errors_fail fb = false -> valid_b (code_sem fb) s = true ->
  exists k cand, In k (keys_of fb) /\ decode_key fb k = Some cand /\ accepts fb cand = true /\
                 tseq_of_run fb cand = s.
Proof. exact (f1_accept_complete fb HF1 s). Qed.

Theorem f0_count_exact :
  fl_errors_fail fb = false ->
  make_enumerator fb = ROk (f0_enum_plain fb) /\
  NoDup (map (cand_tseq fb) (keys_of fb)) /\
  (forall s, In s (map (cand_tseq fb) (keys_of fb)) <-> valid_b (code_sem fb) s = true) /\
  Z.of_nat (length (map (cand_tseq fb) (keys_of fb))) = possible_keys fb (f0_enum_plain fb).
Proof. intros He. exact (f1_count_exact fb HF1 He frag0_rejection_free). Qed.

End F0T.
