(** The termination condition of [RandomGen.__sample] in the model, for EVERY
    design the enumerator accepts: the keys [all_keys] lists are pairwise distinct
    and there are exactly [possible_keys] of them
    (= preamble_solution_count * solution_count ^ rounds_per_run * leftover_solution_count).

    The counting side ([__count_solutions]: closed forms, or the loop
    [sum_combination_products] over the memoised unranker) and the listing side
    ([components_for]: the per-permutation source shapes) use different code
    paths - in the unweighted case even different unrankers; they agree because
    both unrankers enumerate the same set of words (C13).  Proof file. *)
From Coq Require Import ZArith List Bool Sumbool Arith Lia Permutation.
From SP Require Import Design.Flat Design.Layout Comb.CombModel Comb.CombSpec Comb.BinomFacts Random.Enum Random.Frag
  Random.RunLemmas Random.FragPerm Random.ListFacts Base.Lists.
From SP Require Comb.PermProofs Comb.RadixProofs Comb.PrefixProofs Comb.StackProofs
  Comb.SessionProofs Comb.DispatchProofs Comb.TotalProofs.
Import ListNotations.
Local Open Scope Z_scope.

Section Dispatch.
Variables (q : Z) (mc : moc).
Hypothesis Hp : StackProofs.params_ok q mc.
Local Notation cs := (StackProofs.cs_of q mc).

Lemma small_spec n : SessionProofs.small_branch mc n = true -> 0 <= n ->
  cnt cs n = q ^ n /\
  forall w, bounded_word cs n w <-> Z.of_nat (length w) = n /\ Forall (fun d => 0 <= d < q) w.
Proof.
  intros Hs Hn. destruct mc as [m|cl]; [|discriminate]. cbn [SessionProofs.small_branch] in Hs.
  apply Z.leb_le in Hs. cbn [StackProofs.cs_of].
  pose proof (SessionProofs.params_ok_q_nonneg _ _ Hp) as Hq. split.
  - rewrite (SessionProofs.cnt_uniform_small (Z.to_nat q) m n ltac:(lia)). rewrite Z2Nat.id by lia. reflexivity.
  - intros w. rewrite (DispatchProofs.uniform_small_words (Z.to_nat q) m n w Hs). rewrite Z2Nat.id by lia. reflexivity.
Qed.

Lemma dr_spec n w : 0 <= n -> bounded_word cs n w ->
  0 <= SessionProofs.dispatch_rank q mc n w < cnt cs n /\
  forall w', bounded_word cs n w' -> SessionProofs.dispatch_rank q mc n w' = SessionProofs.dispatch_rank q mc n w -> w' = w.
Proof.
  intros Hn Hb. unfold SessionProofs.dispatch_rank. destruct (SessionProofs.small_branch mc n) eqn:Es.
  - destruct (small_spec n Es Hn) as [Ec Hw]. rewrite Ec. apply Hw in Hb. destruct Hb as [Hl Hd].
    pose proof (SessionProofs.params_ok_q_nonneg _ _ Hp) as Hq.
    destruct (Z.eq_dec q 0) as [Hq0 | Hq0].
    + assert (w = []) by (destruct w as [|x t]; [reflexivity | inversion Hd; lia]). subst w.
      cbn in Hl. subst n. cbn. split; [lia|]. intros w' Hb' _. apply Hw in Hb'.
      destruct w'; [reflexivity | cbn in Hb'; lia].
    + destruct (RadixProofs.comb_bij (Z.to_nat n) q ltac:(lia)) as [_ H2]. rewrite Z2Nat.id in H2 by lia.
      destruct (H2 w ltac:(lia) Hd) as [Hr Hc]. split; [exact Hr|].
      intros w' Hb' E. apply Hw in Hb'. destruct Hb' as [Hl' Hd'].
      destruct (H2 w' ltac:(lia) Hd') as [_ Hc']. rewrite E, Hc in Hc'. inversion Hc'. reflexivity.
  - destruct (PrefixProofs.prefix_copies_bij cs n (proj2 Hp) Hn) as [_ H2].
    destruct (H2 w Hb) as [Hr Hu]. split; [exact Hr|]. intros w' Hb' E.
    destruct (H2 w' Hb') as [_ Hu']. rewrite E, Hu in Hu'. inversion Hu'. reflexivity.
Qed.

Lemma unrank_det n j memo1 memo2 v1 v2 m1 m2 : 0 <= n ->
  StackProofs.memo_valid q mc memo1 -> StackProofs.memo_valid q mc memo2 -> 0 <= j < cnt cs n ->
  compute_jth_prefix_of_permutations_with_copies q mc n j memo1 = Ok (v1, m1) ->
  compute_jth_prefix_of_permutations_with_copies q mc n j memo2 = Ok (v2, m2) -> v1 = v2.
Proof.
  intros Hn V1 V2 Hj R1 R2.
  destruct (TotalProofs.unrank_dispatch_refines q mc n memo1 j v1 m1 Hp Hn V1 Hj R1) as [(w1 & E1 & B1 & K1) _].
  destruct (TotalProofs.unrank_dispatch_refines q mc n memo2 j v2 m2 Hp Hn V2 Hj R2) as [(w2 & E2 & B2 & K2) _].
  subst v1 v2. f_equal. destruct (dr_spec n w2 Hn B2) as [_ Hinj]. apply Hinj; [exact B1 | congruence].
Qed.

End Dispatch.

Lemma zlist_bounded_length (l : list Z) c : 0 <= c -> NoDup l -> (forall x, In x l -> 0 <= x < c) -> Z.of_nat (length l) <= c.
Proof.
  intros Hc Hnd Hb.
  assert (Hnd' : NoDup (map Z.to_nat l)).
  { apply NoDup_map_inj_in; [|exact Hnd]. intros x y Hx Hy E. specialize (Hb x Hx) as H1. specialize (Hb y Hy) as H2. lia. }
  assert (Hincl : incl (map Z.to_nat l) (seq 0 (Z.to_nat c))).
  { intros k Hk. apply in_map_iff in Hk. destruct Hk as [x [E Hx]]. subst k. apply in_seq. specialize (Hb x Hx). lia. }
  pose proof (NoDup_incl_length Hnd' Hincl) as H. rewrite map_length, seq_length in H. lia.
Qed.

Definition zsuml (l : list Z) : Z := fold_right Z.add 0 l.

Lemma zsum_perm l l' : Permutation l l' -> zsum l = zsum l'.
Proof. induction 1; cbn [zsum]; lia. Qed.

Lemma zsuml_app a b : zsuml (a ++ b) = zsuml a + zsuml b.
Proof. unfold zsuml. induction a as [|x t IH]; cbn [app fold_right] in *; [lia|]. rewrite IH. lia. Qed.

Lemma concat_length_sum {A} (ls : list (list A)) : Z.of_nat (length (concat ls)) = zsum (map (fun l => Z.of_nat (length l)) ls).
Proof. induction ls as [|l t IH]; [reflexivity|]. cbn [concat map zsum]. rewrite app_length, Nat2Z.inj_add, IH. reflexivity. Qed.

Lemma zsum_map_const {A} (g : A -> Z) c l : (forall x, In x l -> g x = c) -> zsum (map g l) = Z.of_nat (length l) * c.
Proof.
  induction l as [|x t IH]; intros H; cbn [map zsum length]; [lia|].
  rewrite (H x (or_introl eq_refl)), IH by (intros y Hy; apply H; right; exact Hy). lia.
Qed.

Lemma Forall2_map_r {A B C} (R : A -> C -> Prop) (g : B -> C) xs ys :
  Forall2 (fun x y => R x (g y)) xs ys -> Forall2 R xs (map g ys).
Proof. apply Base.Lists.Forall2_map_r. Qed.

Lemma Forall2_eq_r {A B} (R : A -> B -> Prop) xs ys zs :
  (forall x y z, R x y -> R x z -> y = z) -> Forall2 R xs ys -> Forall2 R xs zs -> ys = zs.
Proof.
  intros Hdet H. revert zs. induction H as [|x y xs' ys' Hxy Hrest IH]; intros zs Hz; inversion Hz; subst; [reflexivity|].
  f_equal; [eapply Hdet; eassumption | apply IH; assumption].
Qed.

Lemma Forall2_seq_In {B} (R : nat -> B -> Prop) a k ys y : Forall2 R (seq a k) ys -> In y ys -> exists i, (a <= i < a + k)%nat /\ R i y.
Proof. intros H Hin. destruct (Forall2_in_r R _ _ y H Hin) as [i [Hi HR]]. exists i. split; [apply in_seq, Hi | exact HR]. Qed.

Lemma Forall2_seq_NoDup {B} (R : nat -> B -> Prop) a k ys :
  (forall i j y, R i y -> R j y -> i = j) -> Forall2 R (seq a k) ys -> NoDup ys.
Proof.
  intros Hinj. revert a ys. induction k as [|k IH]; intros a ys H; cbn [seq] in H; inversion H; subst; constructor.
  - intros Hin. destruct (Forall2_seq_In R (S a) k _ _ H4 Hin) as [i [Hi HR]].
    assert (i = a) by (eapply Hinj; eassumption). lia.
  - eapply IH. eassumption.
Qed.

Lemma Forall2_witnesses {A B C} (Q : A -> C -> Prop) (F : A -> C -> B) xs ys :
  Forall2 (fun x y => exists w, Q x w /\ y = F x w) xs ys ->
  exists ws, Forall2 Q xs ws /\ ys = map (fun xw => F (fst xw) (snd xw)) (combine xs ws).
Proof.
  induction 1 as [|x y xs ys (w & Hq & ->) _ (ws & Hws & ->)]; [exists [] | exists (w :: ws)];
    (split; [constructor; assumption | reflexivity]).
Qed.

Lemma rmap_total {A B} (f : A -> rres B) xs : (forall x, In x xs -> exists y, f x = ROk y) -> exists ys, rmap f xs = ROk ys.
Proof.
  induction xs as [|x t IH]; intros H; [exists []; reflexivity|].
  destruct (H x (or_introl eq_refl)) as [y Hy]. destruct (IH (fun z Hz => H z (or_intror Hz))) as [ys Hys].
  exists (y :: ys). cbn [rmap]. rewrite Hy. cbn [rbind]. rewrite Hys. reflexivity.
Qed.

Lemma rmap_zindex_nth shapes w ss : rmap (zindex shapes) w = ROk ss ->
  ss = map (fun p => nth (Z.to_nat p) shapes 0) w /\ forall x, In x ss -> In x shapes.
Proof.
  intros H. apply rmap_ok_inv in H. induction H as [|p y w' ss' Hy Hrest IH]; [split; [reflexivity | intros x []]|].
  apply zindex_ok in Hy. destruct Hy as [_ Hy]. destruct IH as [IH1 IH2]. split.
  - cbn [map]. f_equal; [symmetry; apply nth_error_nth; exact Hy | exact IH1].
  - intros x [E | Hx]; [subst; eapply nth_error_In; exact Hy | apply IH2; exact Hx].
Qed.

Definition wordF (shapes : list Z) (w : list Z) : Z := prodZl (map (fun p => nth (Z.to_nat p) shapes 0) w).

Lemma forallb_repeat1 k : forallb (Z.eqb 1) (repeat 1 k) = true.
Proof. induction k; cbn; [reflexivity | exact IHk]. Qed.

Lemma prodZl_const l s0 : (forall x, In x l -> x = s0) -> prodZl l = s0 ^ Z.of_nat (length l).
Proof.
  intros H. rewrite prodZl_fold_right. induction l as [|x t IH]; [reflexivity|].
  cbn [fold_right length]. rewrite IH by (intros y Hy; apply H; right; exact Hy).
  rewrite (H x (or_introl eq_refl)). rewrite Nat2Z.inj_succ, Z.pow_succ_r by lia. reflexivity.
Qed.

Lemma prodZl_pos' l : (forall x, In x l -> 0 < x) -> 0 < prodZl l.
Proof.
  intros H. rewrite prodZl_fold_right. induction l as [|x t IH]; cbn [fold_right]; [lia|].
  pose proof (H x (or_introl eq_refl)). pose proof (IH (fun y Hy => H y (or_intror Hy))). nia.
Qed.

Lemma prodZl_nonneg l : Forall (fun x => 0 <= x) l -> 0 <= prodZl l.
Proof.
  intros H. rewrite prodZl_fold_right. induction H as [|x t Hx Ht IH]; cbn [fold_right]; [lia | nia].
Qed.

Lemma fold_add_nonneg l acc : 0 <= acc -> Forall (fun x => 0 <= x) l -> 0 <= fold_left Z.add l acc.
Proof. intros Ha H. rewrite sumZ_acc. pose proof (zsum_nonneg l H). lia. Qed.

Lemma fact_div (k j : nat) : (j <= k)%nat -> fact_nat k / fact_nat (k - j) = ffact (Z.of_nat k) j.
Proof.
  intros H. pose proof (BinomFacts.ffact_fact k j H) as E. rewrite <- E. apply Z.div_mul.
  pose proof (fact_nat_pos (k - j)). lia.
Qed.

Lemma all_equal_spec l s0 : all_equal_Z l = true -> zindex l 0 = ROk s0 -> forall x, In x l -> x = s0.
Proof.
  intros Ha Hz x Hx. destruct l as [|y t]; [destruct Hx|]. cbn in Hz. inversion Hz; subst y.
  cbn [all_equal_Z] in Ha. rewrite forallb_forall in Ha.
  specialize (Ha x Hx). apply Z.eqb_eq in Ha. congruence.
Qed.

Lemma inds_nonneg (fb : flat) n (fs : list nat) : 0 <= n ->
  Forall (fun x => 0 <= x) (map (fun f : nat => Z.of_nat (length (nonexcluded_levels fb f)) ^ n) fs).
Proof. intros Hn. apply Forall_map, Forall_forall. intros f _. apply Z.pow_nonneg. lia. Qed.

(** the components one permutation index contributes: every source shape with every independent-factor shape *)
Definition block (inds : list Z) (ps : nat * list Z) : list comp :=
  flat_map (fun src => map (fun ind => (Z.of_nat (fst ps), src, ind)) (ranges_product inds)) (ranges_product (snd ps)).

Local Notation nonneg l := (Forall (fun x => 0 <= x) l).

Lemma block_length inds ps : nonneg inds -> nonneg (snd ps) ->
  Z.of_nat (length (block inds ps)) = prodZl (snd ps) * prodZl inds.
Proof.
  intros Hi Hs. unfold block. rewrite (flat_map_length_const _ (length (ranges_product inds))) by (intros; apply map_length).
  rewrite Nat2Z.inj_mul, !ranges_product_length by assumption. reflexivity.
Qed.

Lemma block_fst inds ps c : In c (block inds ps) -> fst (fst c) = Z.of_nat (fst ps).
Proof.
  unfold block. intros H. apply in_flat_map in H. destruct H as [src [_ H]]. apply in_map_iff in H.
  destruct H as [ind [E _]]. subst c. reflexivity.
Qed.

Lemma block_NoDup inds ps : NoDup (block inds ps).
Proof.
  unfold block. apply NoDup_flat_map; [apply ranges_product_NoDup | |].
  - intros src _. apply NoDup_map_inj_in; [|apply ranges_product_NoDup]. intros x y _ _ E. inversion E. reflexivity.
  - intros x y c _ _ Hx Hy. apply in_map_iff in Hx, Hy. destruct Hx as [i [<- _]]. destruct Hy as [j [E _]]. inversion E. reflexivity.
Qed.

Lemma blocks_NoDup inds (pss : list (nat * list Z)) : NoDup (map fst pss) -> NoDup (concat (map (block inds) pss)).
Proof.
  induction pss as [|ps t IH]; intros Hnd; [constructor|]. cbn [map concat]. cbn [map] in Hnd. inversion Hnd; subst.
  apply NoDup_app_intro; [apply block_NoDup | apply IH; assumption|].
  intros c Hc Hin. apply block_fst in Hc. apply in_concat in Hin. destruct Hin as [b [Hb Hin]].
  apply in_map_iff in Hb. destruct Hb as [ps' [E Hps']]. subst b. apply block_fst in Hin.
  apply H1. apply in_map_iff. exists ps'. split; [|exact Hps']. rewrite Hc in Hin. lia.
Qed.

Lemma blocks_length inds (pss : list (nat * list Z)) : nonneg inds -> (forall ps, In ps pss -> nonneg (snd ps)) ->
  Z.of_nat (length (concat (map (block inds) pss))) = zsum (map (fun ps => prodZl (snd ps)) pss) * prodZl inds.
Proof.
  intros Hi Hs. rewrite concat_length_sum, map_map, Z.mul_comm, <- SessionProofs.zsum_map_scale. f_equal. apply map_ext_in.
  intros ps Hps. rewrite Z.mul_comm. apply block_length; [exact Hi | apply Hs; exact Hps].
Qed.

Section KC.
Variable eb : enum_base.
Local Notation qz := (q_instances eb).
Local Notation qn := (length (eb_instances eb)).
Local Notation mc := (eb_moc eb).
Local Notation cs := (StackProofs.cs_of qz mc).
Local Notation valid := (StackProofs.memo_valid qz mc).
Local Notation rank := (SessionProofs.dispatch_rank qz mc).
Hypothesis Hp : StackProofs.params_ok qz mc.
Definition plain : bool := (eb_m eb =? 1) && eb_unweighted eb.
(* named, so that [lia] (with [ZifyBool] loaded by Comb) does not pull it into proofs that do not use it *)
Definition plain_uniform : Prop := plain = true -> mc = Uniform 1.
Hypothesis Hplain : plain_uniform.

Lemma qz_nat : qz = Z.of_nat qn.
Proof. reflexivity. Qed.

Lemma scp_loop_spec n shapes : 0 <= n -> forall cntn a memo s r,
  valid memo -> Z.of_nat a + Z.of_nat cntn <= cnt cs n ->
  scp_loop eb cntn (Z.of_nat a) n shapes memo s = ROk r ->
  exists ws, Forall2 (fun k w => bounded_word cs n w /\ rank n w = Z.of_nat k) (seq a cntn) ws /\
             fst r = s + zsum (map (wordF shapes) ws) /\ valid (snd r).
Proof.
  intros Hn. induction cntn as [|c IH]; intros a memo s r Hval Hb Hrun.
  - cbn [scp_loop] in Hrun. inversion Hrun; subst r. exists []. cbn. split; [constructor|]. split; [lia | exact Hval].
  - cbn [scp_loop] in Hrun.
    destruct (compute_jth_prefix_of_permutations_with_copies qz mc n (Z.of_nat a) memo) as [[v memo']|e] eqn:Ec;
      [|discriminate]. cbn [lift rbind] in Hrun.
    destruct (TotalProofs.unrank_dispatch_refines qz mc n memo (Z.of_nat a) v memo' Hp Hn Hval ltac:(lia) Ec)
      as [(w0 & Hv & Hbw & Hrk) Hval'].
    subst v. cbn [kperm fst rbind snd] in Hrun.
    destruct (rmap (zindex shapes) w0) as [ss|e] eqn:Ess; [|discriminate]. cbn [rbind] in Hrun.
    destruct (rmap_zindex_nth shapes w0 ss Ess) as [Ess' _].
    replace (Z.of_nat a + 1) with (Z.of_nat (S a)) in Hrun by lia.
    destruct (IH (S a) memo' (s + prodZl ss) r Hval' ltac:(lia) Hrun) as (ws & Hws & Hsum & Hv').
    exists (w0 :: ws). split; [|split; [|exact Hv']].
    + cbn [seq]. constructor; [split; assumption | exact Hws].
    + rewrite Hsum. cbn [map zsum].
      change (wordF shapes w0) with (prodZl (map (fun p => nth (Z.to_nat p) shapes 0) w0)). rewrite <- Ess'. lia.
Qed.

(** ** what the listing side computes for one permutation index *)
Definition RB (n : Z) (pi : nat) (w : list Z) : Prop :=
  if plain then compute_jth_permutation_prefix qz n (Z.of_nat pi) = Ok w
  else bounded_word cs n w /\ rank n w = Z.of_nat pi.

Definition Ncount (n : Z) : Z := if plain then ffact qz (Z.to_nat n) else cnt cs n.

Lemma bounded_in_range n wd : bounded_word cs n wd -> Forall (fun x => 0 <= x < qz) wd.
Proof. intros (_ & Hs & _). destruct Hp as [Hq _]. unfold symbols_below in Hs. rewrite <- Hq in Hs. exact Hs. Qed.

Lemma jth_spec n pi memo : 0 <= n -> valid memo -> (plain = true -> (Z.to_nat n <= qn)%nat) -> Z.of_nat pi < Ncount n ->
  exists w, jth_permutation_indices eb qz n (Z.of_nat pi) memo = ROk w /\ RB n pi w /\
            Z.of_nat (length w) = n /\ Forall (fun x => 0 <= x < qz) w.
Proof.
  intros Hn Hval Hple Hpi. unfold jth_permutation_indices, RB. fold plain. unfold Ncount in Hpi.
  destruct (sumbool_of_bool plain) as [Hpl | Hpl]; rewrite Hpl in Hpi; rewrite Hpl.
  - destruct (PermProofs.perm_prefix_bij qn (Z.to_nat n) (Hple Hpl)) as [H1 _]. rewrite <- qz_nat in H1.
    destruct (H1 (Z.of_nat pi) ltac:(lia)) as (p & Hcp & Hl & [_ Hin] & _). rewrite Z2Nat.id in Hcp by exact Hn.
    rewrite Hcp. exists p. split; [reflexivity|]. split; [reflexivity|]. split; [lia | exact Hin].
  - destruct (TotalProofs.unrank_dispatch_total qz mc n memo (Z.of_nat pi) Hp Hn Hval ltac:(lia)) as (wd & memo' & Hc & Hbw & Hrk & _).
    rewrite Hc. exists wd. split; [reflexivity|]. split; [split; assumption|]. split; [apply Hbw | apply (bounded_in_range n wd Hbw)].
Qed.

(** ** without weights: both unrankers enumerate the injective words *)
Lemma plain_words (n : nat) w : plain = true ->
  (bounded_word cs (Z.of_nat n) w <-> length w = n /\ injective_below qz w).
Proof.
  intros Hpl. rewrite (Hplain Hpl). cbn [StackProofs.cs_of]. rewrite qz_nat, Nat2Z.id.
  rewrite (bw_ones (repeat 1 qn) n w (forallb_repeat1 qn)). rewrite repeat_length. reflexivity.
Qed.

Lemma plain_cnt (n : nat) : plain = true -> (n <= qn)%nat -> ffact qz n <= cnt cs (Z.of_nat n).
Proof.
  intros Hpl Hle. destruct (PermProofs.perm_prefix_bij qn n Hle) as [H1 _]. rewrite <- qz_nat in H1.
  set (f := fun j : nat => match compute_jth_permutation_prefix qz (Z.of_nat n) (Z.of_nat j) with
                           | Ok p => rank (Z.of_nat n) p | Err _ => 0 end).
  assert (Hnn : 0 <= ffact qz n) by (apply Z.lt_le_incl, ffact_pos, Hle).
  (* [f] sends the ranks of the injective words into the ranks of the bounded words, one to one *)
  assert (Hf : forall x, In x (seq 0 (Z.to_nat (ffact qz n))) -> exists p, f x = rank (Z.of_nat n) p /\
                 bounded_word cs (Z.of_nat n) p /\ perm_rank qz p = Z.of_nat x).
  { intros x Hx. apply in_seq in Hx. destruct (H1 (Z.of_nat x) ltac:(lia)) as (p & Ep & Lp & Ip & Rp).
    exists p. unfold f. rewrite Ep. split; [reflexivity|]. split; [apply (plain_words n p Hpl); split; assumption | exact Rp]. }
  pose proof (zlist_bounded_length (map f (seq 0 (Z.to_nat (ffact qz n)))) (cnt cs (Z.of_nat n))
                (PrefixProofs.cnt_nonneg _ _)) as Hlen.
  rewrite map_length, seq_length, Z2Nat.id in Hlen by exact Hnn. apply Hlen.
  - apply NoDup_map_inj_in; [|apply seq_NoDup]. intros x y Hx Hy E.
    destruct (Hf x Hx) as (px & Ex & Bx & Rx). destruct (Hf y Hy) as (py & Ey & By & Ry). rewrite Ex, Ey in E.
    destruct (dr_spec qz mc Hp (Z.of_nat n) py ltac:(lia) By) as [_ Hinj].
    assert (px = py) by (apply Hinj; assumption). subst py. rewrite Rx in Ry. lia.
  - intros z Hz. apply in_map_iff in Hz. destruct Hz as [x [<- Hx]]. destruct (Hf x Hx) as (px & -> & Bx & _).
    apply (dr_spec qz mc Hp (Z.of_nat n) px ltac:(lia) Bx).
Qed.

Lemma sums_agree n shapes (P : nat) wsA wsB : 0 <= n -> (plain = true -> (Z.to_nat n <= qn)%nat) ->
  Z.of_nat P = Ncount n ->
  Forall2 (fun k w => bounded_word cs n w /\ rank n w = Z.of_nat k) (seq 0 P) wsA ->
  Forall2 (RB n) (seq 0 P) wsB ->
  zsum (map (wordF shapes) wsA) = zsum (map (wordF shapes) wsB).
Proof.
  intros Hn Hle HP HA HB. unfold RB in HB. unfold Ncount in HP.
  destruct (sumbool_of_bool plain) as [Hpl | Hpl]; rewrite Hpl in HB, HP.
  - specialize (Hle Hpl). set (n' := Z.to_nat n) in *. assert (En : n = Z.of_nat n') by (unfold n'; lia).
    rewrite En in HA, HB.
    destruct (PermProofs.perm_prefix_bij qn n' Hle) as [H1 H2]. rewrite <- qz_nat in H1, H2.
    apply zsum_perm. apply Permutation_map. apply NoDup_Permutation_bis.
    + apply (Forall2_seq_NoDup _ 0 P wsA) in HA; [exact HA|]. intros i j y [_ Ri] [_ Rj]. lia.
    + rewrite <- (Forall2_length _ _ _ HA), <- (Forall2_length _ _ _ HB). apply le_n.
    + intros w Hw. destruct (Forall2_seq_In _ 0 P wsA w HA Hw) as [i [Hi [Hbw _]]].
      apply (plain_words n' w Hpl) in Hbw. destruct Hbw as [Hl Hinj].
      destruct (H2 w Hl Hinj) as [Hr Hc].
      destruct (Forall2_in_l _ _ _ (Z.to_nat (perm_rank qz w)) HB) as [y [Hy Ey]]; [apply in_seq; lia|].
      cbv beta in Ey. rewrite Z2Nat.id in Ey by lia. rewrite Hc in Ey. inversion Ey; subst y. exact Hy.
  - f_equal. f_equal.
    apply (Forall2_eq_r (fun (k : nat) (w : list Z) => bounded_word cs n w /\ rank n w = Z.of_nat k) (seq 0 P) wsA wsB); [|exact HA | exact HB].
    intros k y z [By Ry] [Bz Rz]. destruct (dr_spec qz mc Hp n z Hn Bz) as [_ Hinj]. apply Hinj; [exact By | congruence].
Qed.

Definition full (n : Z) : bool := (n =? qz) && eb_unweighted eb.

Definition Arel (n : Z) (k : nat) (w : list Z) : Prop := bounded_word cs n w /\ rank n w = Z.of_nat k.

(** what [__count_solutions] returns as the number of (permutation, source shapes) pairs *)
Definition count1_ok (n : Z) (combs : list Z) (count1 : Z) : Prop :=
  if full n then count1 = Ncount n * prodZl combs
  else (exists s0, (forall x, In x combs -> x = s0) /\ count1 = Ncount n * s0 ^ n) \/
       (exists wsA, Forall2 (Arel n) (seq 0 (Z.to_nat (Ncount n))) wsA /\ count1 = zsum (map (wordF combs) wsA)).

(** the number of permutations, as [__count_solutions] computes it first *)
Definition perm_count (n : Z) (memo0 : memo_t) : rres (Z * memo_t) :=
  if plain
  then fn <-- lift (factorial (qz * eb_m eb)) ;;;
       (if n =? qz * eb_m eb then ROk (fn, memo0)
        else fd <-- lift (factorial (qz * eb_m eb - n)) ;;;
             (if fd =? 0 then RErr ZeroDivisionError else ROk (fn / fd, memo0)))
  else r <-- lift (count_prefixes_of_permutations_with_copies qz mc n memo0) ;;;
       c <-- kcount r ;;; ROk (c, snd r).

Lemma plain_m : plain = true -> eb_m eb = 1.
Proof. intros Hpl. apply andb_prop in Hpl. apply Z.eqb_eq, Hpl. Qed.

Lemma perm_count_total n memo0 : 0 <= n -> valid memo0 -> (plain = true -> (Z.to_nat n <= qn)%nat) ->
  exists memo1, valid memo1 /\ perm_count n memo0 = ROk (Ncount n, memo1).
Proof.
  intros Hn Hval Hple. unfold perm_count, Ncount. destruct (sumbool_of_bool plain) as [Hpl | Hpl]; rewrite Hpl.
  - specialize (Hple Hpl). rewrite (plain_m Hpl), Z.mul_1_r. exists memo0. split; [exact Hval|]. unfold factorial.
    replace (qz <? 0) with false by (symmetry; apply Z.ltb_ge; rewrite qz_nat; lia).
    cbn [lift rbind]. rewrite qz_nat, Nat2Z.id.
    destruct (n =? Z.of_nat qn) eqn:E.
    + apply Z.eqb_eq in E. rewrite E, Nat2Z.id.
      rewrite <- (fact_div qn qn (le_n _)), Nat.sub_diag. cbn [fact_nat]. rewrite Z.div_1_r. reflexivity.
    + apply Z.eqb_neq in E. replace (Z.of_nat qn - n <? 0) with false by (symmetry; apply Z.ltb_ge; lia).
      cbn [lift rbind]. replace (Z.to_nat (Z.of_nat qn - n)) with (qn - Z.to_nat n)%nat by lia.
      pose proof (fact_nat_pos (qn - Z.to_nat n)) as Hpos.
      replace (fact_nat (qn - Z.to_nat n) =? 0) with false by (symmetry; apply Z.eqb_neq; lia).
      rewrite fact_div by lia. reflexivity.
  - destruct (TotalProofs.count_dispatch_total qz mc n memo0 Hp Hn Hval) as (memo1 & Hc & Hval1).
    exists memo1. split; [exact Hval1|]. rewrite Hc. reflexivity.
Qed.

(** a plain count that returns has divided by the factorial of a number that is not negative *)
Lemma perm_count_inv n memo0 r : perm_count n memo0 = ROk r -> plain = true -> (Z.to_nat n <= qn)%nat.
Proof.
  unfold perm_count. intros H Hpl. rewrite Hpl, (plain_m Hpl), Z.mul_1_r in H. revert H. unfold factorial.
  replace (qz <? 0) with false by (symmetry; apply Z.ltb_ge; rewrite qz_nat; lia).
  cbn [lift rbind]. rewrite qz_nat. destruct (n =? Z.of_nat qn) eqn:E; [apply Z.eqb_eq in E; lia|].
  destruct (Z.of_nat qn - n <? 0) eqn:E2; [discriminate|]. apply Z.ltb_ge in E2. lia.
Qed.

(** the second bound in the form [scp_loop_spec] and [scp_loop_total'] take it: the loop starts at rank 0 *)
Lemma Ncount_range n : 0 <= n -> (plain = true -> (Z.to_nat n <= qn)%nat) ->
  0 <= Ncount n /\ Z.of_nat 0 + Z.of_nat (Z.to_nat (Ncount n)) <= cnt cs n.
Proof.
  intros Hn Hple. assert (HN : 0 <= Ncount n <= cnt cs n); [|split; [|rewrite Z2Nat.id]; apply HN].
  unfold Ncount. destruct (sumbool_of_bool plain) as [Hpl | Hpl]; rewrite Hpl.
  - split; [apply Z.lt_le_incl, ffact_pos, Hple, Hpl|].
    pose proof (plain_cnt (Z.to_nat n) Hpl (Hple Hpl)) as H. rewrite Z2Nat.id in H by exact Hn. exact H.
  - split; [apply PrefixProofs.cnt_nonneg | apply Z.le_refl].
Qed.

Variable fb : flat.

Lemma count_solutions_spec n memo0 vs cntv sh memoF : 0 <= n -> valid memo0 ->
  count_solutions fb eb n memo0 vs = ROk (cntv, sh, memoF) ->
  let combs := map (fun l : list nat => Z.of_nat (length l)) vs in
  sh_cross sh = Ncount n /\ sh_combs sh = combs /\ valid memoF /\ 0 <= Ncount n /\
  (plain = true -> (Z.to_nat n <= qn)%nat) /\
  sh_inds sh = map (fun f : nat => Z.of_nat (length (nonexcluded_levels fb f)) ^ n) (uncrossed_basic_independent fb (eb_mf eb)) /\
  exists count1, count1_ok n combs count1 /\ cntv = count1 * prodZl (sh_inds sh).
Proof.
  intros Hn Hval Hrun combs. unfold count_solutions in Hrun. fold plain in Hrun. fold combs in Hrun.
  apply rbind_ok in Hrun. destruct Hrun as [[perms memo1] [Hpm Hrun]].
  pose proof (perm_count_inv n memo0 _ Hpm) as Hple. destruct (Ncount_range n Hn Hple) as [HN Hrange].
  destruct (perm_count_total n memo0 Hn Hval Hple) as (memo1' & Hval1 & Hpm').
  change (perm_count n memo0 = ROk (perms, memo1)) in Hpm. rewrite Hpm' in Hpm. injection Hpm as <- <-.
  fold (full n) in Hrun.
  apply rbind_ok in Hrun. destruct Hrun as [[count1 memo2] [Hsc Hrun]]. injection Hrun as <- <- <-.
  cbn [sh_cross sh_combs sh_inds].
  assert (Hsc' : valid memo2 /\ count1_ok n combs count1).
  { unfold count1_ok. destruct (full n).
    - injection Hsc as <- <-. split; [exact Hval1 | reflexivity].
    - unfold sum_combination_products in Hsc.
      destruct (all_equal_Z combs && match mc with Uniform _ => true | Counters cs0 => all_equal_Z cs0 end) eqn:Eq.
      + destruct (zindex combs 0) as [s0|e] eqn:Ez; [|discriminate]. injection Hsc as <- <-. split; [exact Hval1|].
        left. exists s0. split; [|reflexivity].
        apply andb_prop in Eq. destruct Eq as [Eq _]. apply all_equal_spec; assumption.
      + destruct (scp_loop_spec n combs Hn (Z.to_nat (Ncount n)) 0%nat memo1' 0 (count1, memo2) Hval1 Hrange Hsc)
          as (wsA & HA & Hsum & Hval2). cbn [fst snd] in Hsum, Hval2.
        split; [exact Hval2|]. right. exists wsA. split; [exact HA | lia]. }
  split; [reflexivity|]. split; [reflexivity|]. split; [apply Hsc'|]. split; [exact HN|]. split; [exact Hple|]. split; [reflexivity|].
  exists count1. split; [apply Hsc' | reflexivity].
Qed.

Variable en : enumerator.
Hypothesis Hen : en_base en = eb.

Lemma full_round_eq n : full_round en n = full n.
Proof. unfold full_round, full. rewrite Hen. reflexivity. Qed.

Definition nthc (combs : list Z) (w : list Z) : list Z := map (fun p => nth (Z.to_nat p) combs 0) w.

Lemma src_shapes_at combs n memoF pi srcs : 0 <= n -> valid memoF -> (plain = true -> (Z.to_nat n <= qn)%nat) ->
  Z.of_nat pi < Ncount n ->
  (perm <-- jth_permutation_indices eb qz n (Z.of_nat pi) memoF ;;; rmap (zindex combs) perm) = ROk srcs ->
  exists w, (RB n pi w /\ Z.of_nat (length w) = n /\ forall x, In x (nthc combs w) -> In x combs) /\ srcs = nthc combs w.
Proof.
  intros Hn Hval Hple Hpi H. destruct (jth_spec n pi memoF Hn Hval Hple Hpi) as (w & Hw & HR & Hl & _).
  rewrite Hw in H. cbn [rbind] in H. destruct (rmap_zindex_nth _ _ _ H) as [-> Hins]. exists w.
  split; [split; [exact HR | split; [exact Hl | exact Hins]] | reflexivity].
Qed.

Lemma components_spec sh n memoF cs0 : 0 <= n -> valid memoF -> (plain = true -> (Z.to_nat n <= qn)%nat) ->
  sh_cross sh = Ncount n -> 0 <= Ncount n ->
  nonneg (sh_combs sh) -> nonneg (sh_inds sh) ->
  components_for en sh n memoF = ROk cs0 ->
  NoDup cs0 /\
  if full n then Z.of_nat (length cs0) = Ncount n * prodZl (sh_combs sh) * prodZl (sh_inds sh)
  else exists wsB, Forall2 (RB n) (seq 0 (Z.to_nat (Ncount n))) wsB /\
         (forall w, In w wsB -> Z.of_nat (length w) = n /\ forall x, In x (nthc (sh_combs sh) w) -> In x (sh_combs sh)) /\
         Z.of_nat (length cs0) = zsum (map (wordF (sh_combs sh)) wsB) * prodZl (sh_inds sh).
Proof.
  intros Hn Hval Hple Hsh HN Hcn Hin Hrun. unfold components_for in Hrun. rewrite full_round_eq, Hen, Hsh in Hrun.
  apply rbind_ok in Hrun. destruct Hrun as [r [Hr Hrun]]. injection Hrun as <-.
  set (P := Z.to_nat (Ncount n)) in *.
  destruct (full n).
  - (* every permutation index gets all source shapes *)
    rewrite (rmap_ok_map _ (fun pi => block (sh_inds sh) (pi, sh_combs sh))) in Hr by reflexivity. injection Hr as <-.
    rewrite <- (map_map (fun pi => (pi, sh_combs sh)) (block (sh_inds sh))). split.
    + apply blocks_NoDup. rewrite map_map. cbn [fst]. rewrite map_id. apply seq_NoDup.
    + rewrite blocks_length; [|exact Hin|].
      * rewrite map_map. cbn [snd]. f_equal.
        rewrite zsum_map_const with (c := prodZl (sh_combs sh)) by reflexivity. rewrite seq_length. unfold P. rewrite Z2Nat.id by exact HN. reflexivity.
      * intros ps Hps. apply in_map_iff in Hps. destruct Hps as [pi [E _]]. subst ps. exact Hcn.
  - (* the source shapes follow the permutation: [wsB] lists the permutations *)
    apply rmap_ok_inv in Hr.
    apply (Forall2_imp_Forall (fun pi => Z.of_nat pi < Ncount n) _
             (fun pi y => exists w, (RB n pi w /\ Z.of_nat (length w) = n /\
                                                       forall x, In x (nthc (sh_combs sh) w) -> In x (sh_combs sh)) /\
                                    y = block (sh_inds sh) (pi, nthc (sh_combs sh) w))) in Hr.
    2:{ apply Forall_forall. intros pi Hpi. apply in_seq in Hpi. unfold P in Hpi. lia. }
    2:{ intros pi y Hpi H. apply rbind_ok in H. destruct H as [srcs [Hsrc Hy]]. injection Hy as <-.
        destruct (src_shapes_at _ n memoF pi srcs Hn Hval Hple Hpi Hsrc) as (w & HQ & ->). exists w. split; [exact HQ | reflexivity]. }
    apply Forall2_witnesses in Hr. destruct Hr as (wsB & HQ & ->).
    pose proof (Forall2_length _ _ _ HQ) as Hlen.
    assert (Hrng : forall w, In w wsB -> Z.of_nat (length w) = n /\ forall x, In x (nthc (sh_combs sh) w) -> In x (sh_combs sh)).
    { intros w Hw. destruct (Forall2_in_r _ _ _ w HQ Hw) as (pi & _ & _ & Hx). exact Hx. }
    rewrite <- (map_map (fun xw => (fst xw, nthc (sh_combs sh) (snd xw))) (block (sh_inds sh))). split.
    + apply blocks_NoDup. rewrite map_map. pose proof (seq_NoDup P 0) as Hnd. rewrite <- (map_fst_combine _ _ Hlen) in Hnd. exact Hnd.
    + exists wsB. split; [exact (Forall2_imp _ _ _ _ (fun pi w H => proj1 H) HQ)|]. split; [exact Hrng|].
      rewrite blocks_length; [|exact Hin|].
      * f_equal. f_equal. rewrite <- (map_snd_combine _ _ Hlen) at 2. rewrite !map_map. reflexivity.
      * intros ps Hps. apply in_map_iff in Hps. destruct Hps as [[pi w] [<- Hw]]. apply in_combine_r in Hw. cbn [snd].
        apply Forall_forall. intros x Hx. rewrite Forall_forall in Hcn. apply Hcn. exact (proj2 (Hrng w Hw) x Hx).
Qed.

Theorem comps_count n memo0 vs cntv sh memoF cs0 : 0 <= n -> valid memo0 ->
  count_solutions fb eb n memo0 vs = ROk (cntv, sh, memoF) ->
  components_for en sh n memoF = ROk cs0 ->
  NoDup cs0 /\ Z.of_nat (length cs0) = cntv /\ valid memoF.
Proof.
  intros Hn Hval Hc Hl.
  destruct (count_solutions_spec n memo0 vs cntv sh memoF Hn Hval Hc) as (Hcross & Hcombs & HvalF & HN & Hple & Einds & count1 & Hok & ->).
  assert (Hinds : Forall (fun x => 0 <= x) (sh_inds sh)) by (rewrite Einds; apply inds_nonneg; exact Hn).
  assert (Hcn : Forall (fun x => 0 <= x) (sh_combs sh)).
  { rewrite Hcombs. apply Forall_map, Forall_forall. intros l _. lia. }
  destruct (components_spec sh n memoF cs0 Hn HvalF Hple Hcross HN Hcn Hinds Hl) as [Hnd Hlen].
  split; [exact Hnd|]. split; [|exact HvalF]. rewrite <- Hcombs in Hok.
  unfold count1_ok in Hok. destruct (full n); [rewrite Hlen, Hok; reflexivity|].
  destruct Hlen as (wsB & HB & Hrng & ->). f_equal. destruct Hok as [(s0 & Hs0 & ->) | (wsA & HA & ->)].
  - assert (G : forall w, In w wsB -> wordF (sh_combs sh) w = s0 ^ n).
    { intros w Hw. destruct (Hrng w Hw) as [Hlw Hxs]. rewrite <- Hlw. unfold wordF. fold (nthc (sh_combs sh) w).
      replace (length w) with (length (nthc (sh_combs sh) w)) by (unfold nthc; apply map_length).
      apply prodZl_const. intros x Hx. apply Hs0, Hxs, Hx. }
    pose proof (Forall2_length _ _ _ HB) as HlB. rewrite seq_length in HlB.
    rewrite (zsum_map_const _ _ wsB G), <- HlB. rewrite Z2Nat.id by exact HN. reflexivity.
  - symmetry. apply (sums_agree n (sh_combs sh) (Z.to_nat (Ncount n)) wsA wsB Hn Hple); [|exact HA | exact HB].
    apply Z2Nat.id. exact HN.
Qed.

Lemma words_index (shapes : list Z) (wd : list Z) : length shapes = qn ->
  Forall (fun x => 0 <= x < qz) wd -> exists ss, rmap (zindex shapes) wd = ROk ss.
Proof.
  intros Hl Hw. apply rmap_total. intros x Hx. rewrite Forall_forall in Hw. specialize (Hw x Hx).
  destruct (nth_error shapes (Z.to_nat x)) as [v|] eqn:E.
  - exists v. apply zindex_some; [lia | exact E].
  - apply nth_error_None in E. rewrite Hl in E. rewrite qz_nat in Hw. lia.
Qed.

Lemma scp_loop_total' n shapes : 0 <= n -> length shapes = qn -> forall cntn a memo s,
  valid memo -> Z.of_nat a + Z.of_nat cntn <= cnt cs n ->
  exists r, scp_loop eb cntn (Z.of_nat a) n shapes memo s = ROk r.
Proof.
  intros Hn Hl. induction cntn as [|c IH]; intros a memo s Hval Hb; [eexists; reflexivity|].
  cbn [scp_loop].
  destruct (TotalProofs.unrank_dispatch_total qz mc n memo (Z.of_nat a) Hp Hn Hval ltac:(lia)) as (wd & memo' & Hc & Hbw & _ & Hval').
  rewrite Hc. cbn [lift rbind kperm fst snd].
  destruct (words_index shapes wd Hl (bounded_in_range n wd Hbw)) as [ss Hss]. rewrite Hss. cbn [rbind].
  replace (Z.of_nat a + 1) with (Z.of_nat (S a)) by lia. apply (IH (S a) memo' _ Hval'). lia.
Qed.

Lemma count_solutions_total n memo0 vs : 0 <= n -> valid memo0 -> (plain = true -> (Z.to_nat n <= qn)%nat) ->
  length vs = qn -> (0 < qn)%nat -> exists r, count_solutions fb eb n memo0 vs = ROk r.
Proof.
  intros Hn Hval Hple Hlv Hq. unfold count_solutions. fold plain.
  set (combs := map (fun l : list nat => Z.of_nat (length l)) vs).
  assert (Hlc : length combs = qn) by (unfold combs; rewrite map_length; exact Hlv).
  destruct (perm_count_total n memo0 Hn Hval Hple) as (memo1 & Hval1 & Hpm).
  unfold perm_count in Hpm. rewrite Hpm. cbn [rbind]. fold (full n).
  destruct (full n); [eexists; reflexivity|].
  unfold sum_combination_products.
  destruct (all_equal_Z combs && match mc with Uniform _ => true | Counters cs0 => all_equal_Z cs0 end).
  - destruct combs as [|s0 rest] eqn:Ec; [cbn in Hlc; lia|]. cbn [zindex Z.ltb Z.compare Z.to_nat nth_error of_opt rbind].
    eexists. reflexivity.
  - destruct (scp_loop_total' n combs Hn Hlc (Z.to_nat (Ncount n)) 0%nat memo1 0 Hval1 (proj2 (Ncount_range n Hn Hple)))
      as [[s' memo2] Hrun].
    cbn [Z.of_nat] in Hrun. rewrite Hrun. cbn [rbind]. eexists. reflexivity.
Qed.

Lemma components_total sh n memoF : 0 <= n -> valid memoF -> (plain = true -> (Z.to_nat n <= qn)%nat) ->
  sh_cross sh = Ncount n -> length (sh_combs sh) = qn ->
  exists cs0, components_for en sh n memoF = ROk cs0.
Proof.
  intros Hn Hval Hple Hsh Hlc. unfold components_for. rewrite full_round_eq, Hen, Hsh.
  match goal with |- exists _, rbind (rmap ?f ?xs) _ = _ => destruct (rmap_total f xs) as [r Hr] end.
  2:{ rewrite Hr. cbn [rbind]. eexists. reflexivity. }
  intros pi Hpi. apply in_seq in Hpi. cbv beta zeta. destruct (full n); [eexists; reflexivity|].
  destruct (jth_spec n pi memoF Hn Hval Hple ltac:(lia)) as (wd & Hj & _ & _ & Hin). rewrite Hj. cbn [rbind].
  destruct (words_index (sh_combs sh) wd Hlc Hin) as [ss Hss]. rewrite Hss. eexists. reflexivity.
Qed.

Lemma count1_pos n combs count1 : 0 <= n -> length combs = qn -> (0 < qn)%nat -> (forall x, In x combs -> 0 < x) -> 0 < Ncount n ->
  count1_ok n combs count1 -> 0 < count1.
Proof.
  intros Hn Hlc Hq Hpos HN Hok. unfold count1_ok in Hok.
  destruct (full n); [|destruct Hok as [(s0 & Hs0 & Hok) | (wsA & HA & Hok)]]; rewrite Hok.
  - pose proof (prodZl_pos' combs Hpos). nia.
  - destruct combs as [|x t] eqn:Ec; [cbn in Hlc; lia|].
    + assert (0 < s0) by (rewrite <- (Hs0 x (or_introl eq_refl)); apply Hpos; left; reflexivity).
      pose proof (Z.pow_pos_nonneg s0 n ltac:(lia) Hn). nia.
  - assert (Hlen : length wsA = Z.to_nat (Ncount n)) by (apply Forall2_length in HA; rewrite seq_length in HA; lia).
    assert (Hterm : forall w, In w wsA -> 0 < wordF combs w).
    { intros w Hw. destruct (Forall2_seq_In _ 0 _ wsA w HA Hw) as [k [_ [Hbw _]]].
      unfold wordF. apply prodZl_pos'. intros x Hx. apply in_map_iff in Hx. destruct Hx as [p [E' Hp']]. subst x.
      pose proof (bounded_in_range n w Hbw) as Hr. rewrite Forall_forall in Hr. specialize (Hr p Hp').
      apply Hpos. apply nth_In. rewrite Hlc. rewrite qz_nat in Hr. lia. }
    destruct wsA as [|w0 rest]; [cbn in Hlen; lia|]. cbn [map zsum].
    assert (0 <= zsum (map (wordF combs) rest))
      by (apply zsum_nonneg, Forall_map, Forall_forall; intros w Hw; apply Z.lt_le_incl, Hterm; right; exact Hw).
    pose proof (Hterm w0 (or_introl eq_refl)). lia.
Qed.

End KC.

Section General.
Variable fb : flat.

Lemma combination_weight_nonneg di : 0 <= combination_weight fb di.
Proof. rewrite <- combo_weight_Z. lia. Qed.

(** the parameters the combinatorics module is called with are in order *)
Lemma enum_base_params eb : enum_base_of fb = ROk eb ->
  StackProofs.params_ok (q_instances eb) (eb_moc eb) /\ (plain eb = true -> eb_moc eb = Uniform 1) /\ 0 <= eb_csize eb /\
  (plain eb = true -> eb_csize eb = q_instances eb) /\ (eb_csize eb <> 0 -> (0 < length (eb_instances eb))%nat).
Proof.
  unfold enum_base_of. intros H.
  apply rbind_ok in H. destruct H as [mcr [_ H]].
  apply rbind_ok in H. destruct H as [mf [_ H]].
  apply rbind_ok in H. destruct H as [cwt [Hcw H]].
  apply rbind_ok in H. destruct H as [pres [_ H]].
  apply rbind_ok in H. destruct H as [cwl [_ H]].
  apply rbind_ok in H. destruct H as [u [_ H]].
  apply rbind_ok in H. destruct H as [pre [_ H]].
  injection H as <-. unfold plain, q_instances. cbn [eb_instances eb_moc eb_m eb_unweighted eb_csize].
  set (inst := crossing_instances fb (crossed_noncomplex fb mf)) in *.
  set (m := count_complex_crossing_instances fb (crossed_complex fb mf)) in *.
  set (cws := map (fun c => combination_weight fb c * cwt) inst) in *.
  assert (Hcwt : 0 <= cwt).
  { destruct (no_crossings fb); [inversion Hcw; lia|]. unfold block_crossing_weight in Hcw.
    destruct (first_index_of mf (fl_crossings fb) 0).
    - apply of_opt_ok in Hcw. destruct (nth_error (fl_weights fb) n); cbn in Hcw; inversion Hcw; lia.
    - apply of_opt_ok in Hcw. destruct (nth_error (rev (fl_weights fb)) 0); cbn in Hcw; inversion Hcw; lia. }
  assert (Hm : 0 <= m).
  { unfold m, count_complex_crossing_instances. destruct (crossed_complex fb mf); [lia|].
    apply fold_add_nonneg; [lia|]. apply Forall_map, Forall_forall. intros c _.
    destruct (is_excluded_combination fb c); [lia | apply combination_weight_nonneg]. }
  assert (Hcws : Forall (fun x => 0 <= x) cws).
  { apply Forall_map, Forall_forall. intros c _.
    pose proof (combination_weight_nonneg c). nia. }
  split; [|split; [|split; [|split]]].
  - destruct (forallb (Z.eqb 1) cws).
    + split; cbn [StackProofs.cs_of]; [rewrite repeat_length, Nat2Z.id; reflexivity|].
      apply Forall_forall. intros x Hx. apply repeat_spec in Hx. lia.
    + split; cbn [StackProofs.cs_of]; [unfold cws; rewrite !map_length; reflexivity|].
      apply Forall_forall. intros x Hx. apply in_map_iff in Hx. destruct Hx as [y [E Hy]]. subst x.
      rewrite Forall_forall in Hcws. specialize (Hcws y Hy). nia.
  - intros Hpl. apply andb_prop in Hpl. destruct Hpl as [H1 H2]. apply Z.eqb_eq in H1. rewrite H2, H1. reflexivity.
  - pose proof (fold_add_nonneg cws 0 ltac:(lia) Hcws). nia.
  - intros Hpl. apply andb_prop in Hpl. destruct Hpl as [H1 H2]. apply Z.eqb_eq in H1. rewrite H1, Z.mul_1_r.
    rewrite (forallb_eqb1_repeat cws H2). rewrite sumZ_acc, BinomFacts.zsum_repeat. unfold cws. rewrite !map_length. lia.
  - intros Hne. destruct inst as [|i0 rest]; [|cbn; lia]. exfalso. apply Hne. cbn. lia.
Qed.

Lemma keys_structure (P R : nat) (cs : list comp) (ls : list (option comp)) :
  NoDup cs -> NoDup ls ->
  let ks := flat_map (fun p => flat_map (fun rs => map (fun l => {| k_pre := Z.of_nat p; k_rounds := rs; k_left := l |}) ls)
                                        (words R cs)) (seq 0 P) in
  NoDup ks /\ length ks = (P * (length cs ^ R * length ls))%nat.
Proof.
  intros Hcs Hls ks. split.
  - unfold ks. apply NoDup_flat_map; [apply seq_NoDup | |].
    + intros p _. apply NoDup_flat_map; [apply words_NoDup, Hcs | |].
      * intros rs _. apply NoDup_map_inj_in; [|exact Hls]. intros x y _ _ E. inversion E. reflexivity.
      * intros x y k _ _ Hx Hy. apply in_map_iff in Hx, Hy. destruct Hx as [l [<- _]]. destruct Hy as [l' [E _]].
        inversion E. reflexivity.
    + intros p p' k _ _ Hx Hy. apply in_flat_map in Hx, Hy. destruct Hx as [rs [_ Hx]]. destruct Hy as [rs' [_ Hy]].
      apply in_map_iff in Hx, Hy. destruct Hx as [l [<- _]]. destruct Hy as [l' [E _]]. inversion E. lia.
  - unfold ks. rewrite (flat_map_length_const _ (length cs ^ R * length ls)).
    + rewrite seq_length. reflexivity.
    + intros p _. rewrite (flat_map_length_const _ (length ls)) by (intros; apply map_length).
      rewrite words_length. reflexivity.
Qed.

(** C06, the termination condition: for every enumerator the model builds and
    every key list it lists *)
Theorem keys_count_general en ks :
  make_enumerator fb = ROk en -> all_keys fb en = ROk ks -> 0 <= rounds_per_run fb en ->
  NoDup ks /\ Z.of_nat (length ks) = possible_keys fb en.
Proof.
  intros Hen Hks Hrounds. unfold make_enumerator in Hen.
  apply rbind_ok in Hen. destruct Hen as [eb [Heb Hen]].
  destruct (enum_base_params eb Heb) as (Hp & Hplain & Hcs & _).
  apply rbind_ok in Hen. destruct Hen as [vs [_ Hen]].
  apply rbind_ok in Hen. destruct Hen as [[[cntv sh] memo] [Hc1 Hen]].
  apply rbind_ok in Hen. destruct Hen as [u [Hz Hen]].
  assert (Hcpos : 0 < eb_csize eb) by (destruct (eb_csize eb =? 0) eqn:E; [discriminate | apply Z.eqb_neq in E; lia]).
  apply rbind_ok in Hen. destruct Hen as [[[lcnt lsh] lmemo] [Hc2 Hen]].
  injection Hen as <-.
  set (lo := (trials_Z fb - eb_preamble eb) mod eb_csize eb) in *.
  assert (Hlo : 0 <= lo) by (apply Z.mod_pos_bound; exact Hcpos).
  unfold all_keys in Hks. cbn [en_base en_shape en_memo en_leftover en_lshape en_lmemo en_pcount] in Hks.
  apply rbind_ok in Hks. destruct Hks as [cs0 [Hcs0 Hks]].
  apply rbind_ok in Hks. destruct Hks as [ls [Hls Hks]]. injection Hks as <-.
  match type of Hcs0 with components_for ?e _ _ _ = _ => set (en := e) in * end.
  destruct (comps_count eb Hp Hplain fb en eq_refl (eb_csize eb) [] vs cntv sh memo cs0 Hcs
              (StackProofs.memo_valid_nil _ _) Hc1 Hcs0) as (Hnd1 & Hlen1 & _).
  assert (Hleft : NoDup ls /\ Z.of_nat (length ls) = lcnt).
  { destruct (lo =? 0) eqn:E.
    - injection Hc2 as <- _ _. injection Hls as <-. split; [constructor; [intros [] | constructor] | reflexivity].
    - apply rbind_ok in Hls. destruct Hls as [l [Hl Hls]]. injection Hls as <-.
      destruct (comps_count eb Hp Hplain fb en eq_refl lo [] vs lcnt lsh lmemo l Hlo
                  (StackProofs.memo_valid_nil _ _) Hc2 Hl) as (Hnd2 & Hlen2 & _).
      split; [|rewrite map_length; exact Hlen2].
      apply NoDup_map_inj_in; [|exact Hnd2]. intros x y _ _ Exy. inversion Exy. reflexivity. }
  destruct Hleft as [Hnd2 Hlen2].
  set (pc := en_pcount en).
  assert (Hpc : 0 <= pc).
  { unfold pc, en. cbn [en_pcount]. destruct (eb_preamble eb =? 0); [lia|]. apply Z.pow_nonneg. apply prodZl_nonneg.
    apply Forall_map, Forall_forall. intros l _. lia. }
  destruct (keys_structure (Z.to_nat pc) (Z.to_nat (rounds_per_run fb en)) cs0 ls Hnd1 Hnd2) as [HND HLEN].
  split; [exact HND|]. etransitivity; [apply (f_equal Z.of_nat); exact HLEN|]. unfold possible_keys. fold pc. replace (en_count en) with cntv by reflexivity.
  replace (en_lcount en) with lcnt by reflexivity. rewrite !Nat2Z.inj_mul, Nat2Z.inj_pow, Hlen1, Hlen2. rewrite !Z2Nat.id by assumption. ring.
Qed.

Lemma round_total eb vs n :
  enum_base_of fb = ROk eb -> length vs = length (eb_instances eb) -> eb_csize eb <> 0 -> 0 <= n <= eb_csize eb ->
  exists cntv sh memoF, count_solutions fb eb n [] vs = ROk (cntv, sh, memoF) /\
    forall en, en_base en = eb -> exists cs0, components_for en sh n memoF = ROk cs0.
Proof.
  intros Heb Hlv Hne [Hn Hle]. destruct (enum_base_params eb Heb) as (Hp & Hplain & _ & Hpcs & Hq). specialize (Hq Hne).
  pose proof (StackProofs.memo_valid_nil (q_instances eb) (eb_moc eb)) as Hnil.
  assert (Hple : plain eb = true -> (Z.to_nat n <= length (eb_instances eb))%nat)
    by (intros Hpl; rewrite (Hpcs Hpl) in Hle; unfold q_instances in Hle; lia).
  destruct (count_solutions_total eb Hp Hplain fb n [] vs Hn Hnil Hple Hlv Hq) as [[[cntv sh] memoF] Hc].
  destruct (count_solutions_spec eb Hp Hplain fb n [] vs cntv sh memoF Hn Hnil Hc) as (Hcross & Hcombs & HvalF & _).
  exists cntv, sh, memoF. split; [exact Hc|]. intros en Hen.
  apply (components_total eb Hp en Hen sh n memoF Hn HvalF Hple Hcross). rewrite Hcombs, map_length. exact Hlv.
Qed.

(** the enumerator and its key list are built whenever the partition of the design and the filter of the source
    combinations succeed (the known KeyError of the derived-source chain arises in that filter) and the crossing is
    not empty: no error value afterwards, in particular no fuel exhaustion *)
Theorem enumerator_total eb vs :
  enum_base_of fb = ROk eb -> valid_sources fb eb = ROk vs -> eb_csize eb <> 0 ->
  exists en ks, make_enumerator fb = ROk en /\ all_keys fb en = ROk ks /\ en_base en = eb /\ en_valid en = vs.
Proof.
  intros Heb Hvs Hne. destruct (enum_base_params eb Heb) as (_ & _ & Hcs & _).
  assert (Hlv : length vs = length (eb_instances eb)) by (unfold valid_sources in Hvs; apply rmap_length in Hvs; exact Hvs).
  set (lo := (trials_Z fb - eb_preamble eb) mod eb_csize eb).
  assert (Hlo : 0 <= lo < eb_csize eb) by (apply Z.mod_pos_bound; lia).
  unfold make_enumerator. rewrite Heb. cbn [rbind]. rewrite Hvs. cbn [rbind].
  destruct (round_total eb vs (eb_csize eb) Heb Hlv Hne ltac:(lia)) as (cntv & sh & memo & Hc1 & Hk1). rewrite Hc1. cbn [rbind].
  replace (eb_csize eb =? 0) with false by (symmetry; apply Z.eqb_neq; exact Hne). cbn [rbind]. fold lo.
  assert (Hleft : exists lcnt lsh lmemo,
            (if lo =? 0 then ROk (1, {| sh_cross := 0; sh_combs := []; sh_inds := [] |}, [])
             else count_solutions fb eb lo [] vs) = ROk (lcnt, lsh, lmemo) /\
            forall en, en_base en = eb ->
              exists ls, (if lo =? 0 then ROk [None] else l <-- components_for en lsh lo lmemo ;;; ROk (map Some l)) = ROk ls).
  { destruct (lo =? 0); [do 3 eexists; split; [reflexivity | intros; eexists; reflexivity]|].
    destruct (round_total eb vs lo Heb Hlv Hne ltac:(lia)) as (lcnt & lsh & lmemo & Hc2 & Hk2). exists lcnt, lsh, lmemo. split; [exact Hc2|].
    intros en Hen. destruct (Hk2 en Hen) as [l Hl]. rewrite Hl. eexists. reflexivity. }
  destruct Hleft as (lcnt & lsh & lmemo & Hc2 & Hk2). rewrite Hc2. cbn [rbind].
  eexists. match goal with |- exists ks, ROk ?e = ROk _ /\ _ => set (en := e) end.
  destruct (Hk1 en eq_refl) as [cs0 Hcs0]. destruct (Hk2 en eq_refl) as [ls Hls].
  eexists. split; [reflexivity|]. split; [|split; reflexivity].
  unfold all_keys. cbn [en_base en_shape en_memo en_leftover en_lshape en_lmemo en]. fold en lo. rewrite Hcs0. cbn [rbind].
  rewrite Hls. reflexivity.
Qed.

End General.
