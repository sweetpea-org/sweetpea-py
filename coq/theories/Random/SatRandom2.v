(** C07 on the intersection of the compile fragment [CodeSem.in_f1] and the
    RandomGen fragment [Frag.frag2] (weights included): the sequences the SAT
    pipeline can return are exactly the candidates RandomGen accepts - both are
    the sequences valid for [code_sem fb] (Encode/CompileCorollaries.v and
    Random/Frag2Thms.v).  Random/SatRandom1.v is the part without implied factors ([frag1]).  Proof file. *)
From Coq Require Import ZArith List Bool Arith Lia.
From SP Require Import Base.Sat Design.Flat Design.Layout Design.Sem.
From SP Require Import Encode.Compile Encode.CodeSem Encode.LayoutF1 Encode.F1Sem
     Encode.CompileProofs Encode.CompileCorollaries Encode.Totality Encode.SatRandom.
From SP Require Import Random.Enum Random.Frag Random.FragSem Random.Frag2Thms Random.Frag0Example.
Import ListNotations.
Close Scope Z_scope.
Open Scope nat_scope.

Theorem sat_eq_random2 (fb : flat) (b : backend) (ok : bool) (n' : Z) (final : cnf) :
  in_f1 fb = true -> frag2 fb = true -> 0 < T fb -> fl_errors_fail fb = false ->
  compile fb = COk b -> full_cnf b = (ok, n', final) ->
  forall q : tseq,
    (exists t, sat t final = true /\ onehot fb t q) <->
    (exists k cand, In k (keys_of fb) /\ decode_key fb k = Some cand /\ accepts fb cand = true /\
                    cand_seq fb cand = q).
Proof.
  intros HF1 HR2 HT He Hc Ef.
  exact (sat_eq_accepted fb _ b ok n' final HF1 HT Hc Ef (f2_accept_sound fb HR2) (fun s => f2_accept_complete fb HR2 s He)).
Qed.

(** jointly satisfiable outside [frag1]: a weighted level, AtMostKInARow, a leftover round *)
Lemma sat_eq_random2_example :
  in_f1 ex3_flat = true /\ frag2 ex3_flat = true /\ frag1 ex3_flat = false /\ 0 < T ex3_flat /\
  fl_errors_fail ex3_flat = false /\ (exists b, compile ex3_flat = COk b) /\
  length (keys_of ex3_flat) = 96 /\ length (accepted_keys ex3_flat) = 32.
Proof.
  assert (HF : in_f1 ex3_flat = true) by (vm_compute; reflexivity).
  assert (HT : 0 < T ex3_flat) by (vm_compute; lia).
  split; [exact HF|]. split; [exact ex3_frag2|]. split; [exact ex3_frag1|]. split; [exact HT|]. split; [reflexivity|].
  split; [apply (compile_total_f1 _ HF HT) | split; [exact ex3_nkeys | exact ex3_nacc]].
Qed.
