(** Concrete designs of the fragments F0, F1 and F2 (flat records extracted from
    the real blocks by harness/flat.py) and the executable statements of the
    theorems evaluated on them. *)
From Coq Require Import ZArith List Bool String.
From SP Require Import Base.Lists Design.Flat Design.Sem Design.SemFacts Random.Enum Random.Frag Random.FragSem.
Import ListNotations.

(** The executable statements read the keys of a design through one list: per key whether its candidate is
    accepted, and its sequence.  For every design below this list and the list of the valid sequences are
    evaluated once ([exN_decoded], [exN_valid]: the value with its equation); the Examples rewrite with the
    equations and evaluate what is left, which is over these two lists. *)
Definition decoded (fb : flat) : list (option (bool * tseq)) :=
  map (fun k => option_map (fun c => (accepts fb c, cand_seq fb c)) (decode_key fb k)) (keys_of fb).
Definition kept (D : list (option (bool * tseq))) : list tseq :=
  flat_map (fun d => match d with Some (true, s) => [s] | _ => [] end) D.

Section Evaluated.
Variable fb : flat.
Variable DD : {D | decoded fb = D}.
Variable VV : {V | all_valid (code_sem fb) = V}.
Local Notation D := (proj1_sig DD).
Local Notation V := (proj1_sig VV).
Local Notation ED := (proj2_sig DD).
Local Notation EV := (proj2_sig VV).

Lemma accepted_tseqs_kept : accepted_tseqs fb = kept D.
Proof.
  rewrite <- ED. unfold accepted_tseqs, kept, decoded. rewrite flat_map_map. apply flat_map_ext. intros k.
  destruct (decode_key fb k) as [c|]; [cbn; destruct (accepts fb c)|]; reflexivity.
Qed.

Lemma nkeys_of : List.length (keys_of fb) = List.length D.
Proof. rewrite <- ED. symmetry. apply map_length. Qed.

Lemma nacc_of : List.length (accepted_keys fb) = List.length (kept D).
Proof.
  rewrite <- ED. unfold accepted_keys, kept, decoded, key_accepted. induction (keys_of fb) as [|k l IH]; [reflexivity|].
  cbn [filter map flat_map]. rewrite app_length, <- IH.
  destruct (decode_key fb k) as [c|]; [cbn; destruct (accepts fb c)|]; reflexivity.
Qed.

Lemma sound_of : check_sound fb =
  forallb (fun d => match d with Some (a, s) => implb a (valid_b (code_sem fb) s) | None => false end) D.
Proof.
  rewrite <- ED. unfold check_sound, decoded. rewrite forallb_map. apply forallb_ext. intros k.
  destruct (decode_key fb k); reflexivity.
Qed.

Lemma inj_of : check_inj fb = tseq_nodupb (kept D).
Proof. unfold check_inj. rewrite accepted_tseqs_kept. reflexivity. Qed.

Lemma complete_of : check_complete fb = forallb (fun s => existsb (tseq_eqb s) (kept D)) V.
Proof. unfold check_complete. rewrite accepted_tseqs_kept, <- EV. reflexivity. Qed.

Lemma acount_of : check_accepted_count fb = Nat.eqb (List.length (kept D)) (List.length V).
Proof. unfold check_accepted_count, accepted_count_of. rewrite accepted_tseqs_kept, <- EV. reflexivity. Qed.

Lemma count_of : check_count fb =
  match make_enumerator fb with ROk en => Z.eqb (possible_keys fb en) (Z.of_nat (List.length V)) | RErr _ => false end.
Proof. unfold check_count. rewrite <- EV. reflexivity. Qed.
End Evaluated.

Open Scope string_scope.
Open Scope list_scope.

(** A design of fragment F0: Repeat(CrossBlock([f0, f1], [f0], []), [MinimumTrials(3)])
    with f0 = {a, b} crossed and f1 = {x, y, z} free: 3 trials = one full round of
    the 2-combination crossing plus a leftover trial, 2!*3^2 * 2*3 = 108 keys. *)
Definition ex_flat : flat :=
{| fl_design := [{| ff_name := "f0"; ff_hidden := false; ff_levels := [{| lv_name := "a"; lv_weight := 1; lv_accepts := [] |}; {| lv_name := "b"; lv_weight := 1; lv_accepts := [] |}]; ff_window := None; ff_complex := false |};
      {| ff_name := "f1"; ff_hidden := false; ff_levels := [{| lv_name := "x"; lv_weight := 1; lv_accepts := [] |}; {| lv_name := "y"; lv_weight := 1; lv_accepts := [] |}; {| lv_name := "z"; lv_weight := 1; lv_accepts := [] |}]; ff_window := None; ff_complex := false |}];
   fl_act := [0; 1]; fl_crossings := [[0]]; fl_sustains := [1]; fl_weights := [1]; fl_sizes := [2];
   fl_preambles := [0]; fl_alignment := EqualPreamble; fl_alignment_preamble := 0; fl_min_trials := 3; fl_trials := 3;
   fl_rcc := true; fl_exclude := []; fl_excluded_derived := [];
   fl_constraints := [(FCross);
      (FConsistency);
      (FMinimumTrials (3)%Z)];
   fl_errors_fail := false |}.

Close Scope string_scope.

Lemma ex_decoded : {D | decoded ex_flat = D}. Proof. eexists. vm_compute. reflexivity. Defined.
Lemma ex_valid : {V | all_valid (code_sem ex_flat) = V}. Proof. eexists. rewrite all_valid_fast. vm_compute. reflexivity. Defined.

Example ex_frag0 : frag0 ex_flat = true.
Proof. vm_compute. reflexivity. Qed.
Example ex_keys : List.length (keys_of ex_flat) = 108.
Proof. rewrite (nkeys_of _ ex_decoded). reflexivity. Qed.
Example ex_counts : solution_count ex_flat = ROk 18%Z /\ leftover_solution_count ex_flat = ROk 6%Z /\
                    preamble_solution_count ex_flat = ROk 1%Z.
Proof. vm_compute. repeat split. Qed.
Example ex_valid_count : List.length (all_valid (code_sem ex_flat)) = 108.
Proof. rewrite (proj2_sig ex_valid). reflexivity. Qed.
Example ex_checks : check_sound ex_flat = true /\ check_inj ex_flat = true /\ check_complete ex_flat = true /\ check_count ex_flat = true.
Proof.
  rewrite (sound_of _ ex_decoded), (inj_of _ ex_decoded),
    (complete_of _ ex_decoded ex_valid), (count_of _ ex_valid).
  vm_compute. repeat split.
Qed.
(** one key and its candidate: rounds [(1, [0;0], [5])] (permutation b,a; f1 = y,z), leftover (0, [0], [2]) (a; z) *)
Example ex_decode :
  option_map (tseq_of_run ex_flat)
    (decode_key ex_flat {| k_pre := 0%Z; k_rounds := [(1%Z, [0%Z; 0%Z], [5%Z])]; k_left := Some (0%Z, [0%Z], [2%Z]) |})
  = Some [[Some 1; Some 0; Some 0]; [Some 1; Some 2; Some 2]].
Proof. vm_compute. reflexivity. Qed.

(** A design of fragment F1 outside F0:
    Repeat(CrossBlock([f0, f1], [f0], [Exclude(f0=c), Exclude(f1=z), AtMostKInARow(1, f1=x)], rcc=False),
           [MinimumTrials(3), Pin(-1, f1=y)])
    f0 = {a, b, (c)} crossed, f1 = {x, y, (z)} free: 3 trials, 2!*2^2 * 2*2 = 32 keys, of which the
    rejection test (AtMostKInARow per repetition, Pin of the last trial) keeps 12. *)
Open Scope string_scope.
Definition ex1_flat : flat :=
{| fl_design := [{| ff_name := "f0"; ff_hidden := false; ff_levels := [{| lv_name := "a"; lv_weight := 1; lv_accepts := [] |}; {| lv_name := "b"; lv_weight := 1; lv_accepts := [] |}; {| lv_name := "c"; lv_weight := 1; lv_accepts := [] |}]; ff_window := None; ff_complex := false |};
      {| ff_name := "f1"; ff_hidden := false; ff_levels := [{| lv_name := "x"; lv_weight := 1; lv_accepts := [] |}; {| lv_name := "y"; lv_weight := 1; lv_accepts := [] |}; {| lv_name := "z"; lv_weight := 1; lv_accepts := [] |}]; ff_window := None; ff_complex := false |}];
   fl_act := [0; 1]; fl_crossings := [[0]]; fl_sustains := [1]; fl_weights := [1]; fl_sizes := [2];
   fl_preambles := [0]; fl_alignment := EqualPreamble; fl_alignment_preamble := 0; fl_min_trials := 3; fl_trials := 3;
   fl_rcc := false; fl_exclude := [(0, 2); (1, 2)]; fl_excluded_derived := [];
   fl_constraints := [(FCross);
      (FConsistency);
      (FExclude 0 2);
      (FExclude 1 2);
      (FAtMost 1 1 0 (Some {| g_trials := 2; g_preamble := 0; g_sustain := [(0, 1)] |}));
      (FMinimumTrials (3)%Z);
      (FPin (-1)%Z 1 1 (Some {| g_trials := 3; g_preamble := 0; g_sustain := [(0, 1)] |}))];
   fl_errors_fail := false |}.
Close Scope string_scope.

Lemma ex1_decoded : {D | decoded ex1_flat = D}. Proof. eexists. vm_compute. reflexivity. Defined.
Lemma ex1_valid : {V | all_valid (code_sem ex1_flat) = V}. Proof. eexists. rewrite all_valid_fast. vm_compute. reflexivity. Defined.

Example ex1_frag : frag1 ex1_flat = true /\ frag0 ex1_flat = false /\ rejection_free ex1_flat = false.
Proof. vm_compute. repeat split. Qed.
Example ex1_keys : List.length (keys_of ex1_flat) = 32 /\ List.length (accepted_keys ex1_flat) = 12 /\
                   List.length (all_valid (code_sem ex1_flat)) = 12.
Proof.
  rewrite (nkeys_of _ ex1_decoded), (nacc_of _ ex1_decoded), (proj2_sig ex1_valid).
  repeat split.
Qed.
Example ex1_checks : check_sound ex1_flat = true /\ check_inj ex1_flat = true /\ check_complete ex1_flat = true /\
                     check_accepted_count ex1_flat = true.
Proof.
  rewrite (sound_of _ ex1_decoded), (inj_of _ ex1_decoded),
    (complete_of _ ex1_decoded ex1_valid),
    (acount_of _ ex1_decoded ex1_valid).
  vm_compute. repeat split.
Qed.

(** a design in F1 and in the compile fragment [CodeSem.in_f1]: free-factor Exclude and AtMostKInARow *)
Open Scope string_scope.
Definition ex2_flat : flat :=
{| fl_design := [{| ff_name := "f0"; ff_hidden := false; ff_levels := [{| lv_name := "a"; lv_weight := 1; lv_accepts := [] |}; {| lv_name := "b"; lv_weight := 1; lv_accepts := [] |}]; ff_window := None; ff_complex := false |};
      {| ff_name := "f1"; ff_hidden := false; ff_levels := [{| lv_name := "x"; lv_weight := 1; lv_accepts := [] |}; {| lv_name := "y"; lv_weight := 1; lv_accepts := [] |}; {| lv_name := "z"; lv_weight := 1; lv_accepts := [] |}]; ff_window := None; ff_complex := false |}];
   fl_act := [0; 1]; fl_crossings := [[0]]; fl_sustains := [1]; fl_weights := [1]; fl_sizes := [2];
   fl_preambles := [0]; fl_alignment := EqualPreamble; fl_alignment_preamble := 0; fl_min_trials := 3; fl_trials := 3;
   fl_rcc := true; fl_exclude := [(1, 2)]; fl_excluded_derived := [];
   fl_constraints := [(FCross);
      (FConsistency);
      (FExclude 1 2);
      (FAtMost 1 1 0 (Some {| g_trials := 2; g_preamble := 0; g_sustain := [(0, 1)] |}));
      (FMinimumTrials (3)%Z)];
   fl_errors_fail := false |}.
Close Scope string_scope.
Example ex2_frag : frag1 ex2_flat = true /\ frag0 ex2_flat = false.
Proof. vm_compute. repeat split. Qed.

(** A design of fragment F2 outside F1 (a weighted level):
    Repeat(CrossBlock([f0, f1], [f0], [AtMostKInARow(1, f0=a)]), [MinimumTrials(4)])
    f0 = {a (weight 2), b} crossed, f1 = {x, y} free: a round is a permutation of the multiset {a, a, b}
    (3 of them) with 2^3 choices for f1, the leftover trial has 2*2 choices: 3*8 * 4 = 96 keys; the rejection
    test (AtMostKInARow per repetition) keeps the round a,b,a only: 8 * 4 = 32. *)
Open Scope string_scope.
Definition ex3_flat : flat :=
{| fl_design := [{| ff_name := "f0"; ff_hidden := false; ff_levels := [{| lv_name := "a"; lv_weight := 2; lv_accepts := [] |}; {| lv_name := "b"; lv_weight := 1; lv_accepts := [] |}]; ff_window := None; ff_complex := false |};
      {| ff_name := "f1"; ff_hidden := false; ff_levels := [{| lv_name := "x"; lv_weight := 1; lv_accepts := [] |}; {| lv_name := "y"; lv_weight := 1; lv_accepts := [] |}]; ff_window := None; ff_complex := false |}];
   fl_act := [0; 1]; fl_crossings := [[0]]; fl_sustains := [1]; fl_weights := [1]; fl_sizes := [3];
   fl_preambles := [0]; fl_alignment := EqualPreamble; fl_alignment_preamble := 0; fl_min_trials := 4; fl_trials := 4;
   fl_rcc := true; fl_exclude := []; fl_excluded_derived := [];
   fl_constraints := [(FCross);
      (FConsistency);
      (FAtMost 1 0 0 (Some {| g_trials := 3; g_preamble := 0; g_sustain := [(0, 1)] |}));
      (FMinimumTrials (4)%Z)];
   fl_errors_fail := false |}.
Close Scope string_scope.

Lemma ex3_decoded : {D | decoded ex3_flat = D}. Proof. eexists. vm_compute. reflexivity. Defined.
Lemma ex3_valid : {V | all_valid (code_sem ex3_flat) = V}. Proof. eexists. rewrite all_valid_fast. vm_compute. reflexivity. Defined.

Example ex3_frag2 : frag2 ex3_flat = true. Proof. vm_compute. reflexivity. Qed.
Example ex3_frag1 : frag1 ex3_flat = false. Proof. vm_compute. reflexivity. Qed.
Example ex3_enum : enumerates_b ex3_flat = true. Proof. vm_compute. reflexivity. Qed.
Example ex3_nkeys : List.length (keys_of ex3_flat) = 96. Proof. rewrite (nkeys_of _ ex3_decoded). reflexivity. Qed.
Example ex3_nacc : List.length (accepted_keys ex3_flat) = 32. Proof. rewrite (nacc_of _ ex3_decoded). reflexivity. Qed.
Example ex3_nvalid : List.length (all_valid (code_sem ex3_flat)) = 32. Proof. rewrite (proj2_sig ex3_valid). reflexivity. Qed.
Example ex3_sound : check_sound ex3_flat = true. Proof. rewrite (sound_of _ ex3_decoded). vm_compute. reflexivity. Qed.
Example ex3_inj : check_inj ex3_flat = true. Proof. rewrite (inj_of _ ex3_decoded). vm_compute. reflexivity. Qed.
Example ex3_complete : check_complete ex3_flat = true. Proof. rewrite (complete_of _ ex3_decoded ex3_valid). vm_compute. reflexivity. Qed.
Example ex3_acount : check_accepted_count ex3_flat = true. Proof. rewrite (acount_of _ ex3_decoded ex3_valid). reflexivity. Qed.

(** A design of fragment F2 with a second crossing (enforced by rejection):
    MultiCrossBlock([f0, f1], crossings [[f0], [f1]], mode weight, parallel start)
    f0 = {a, b} (crossing weight 2), f1 = {x, y, z}: 3 trials = a leftover of the first crossing's round of 4
    (6 words over {a, b} with each level at most twice) x 3^3 free choices for f1 = 162 keys; the second crossing
    keeps the 3! arrangements of f1: 6 * 6 = 36. *)
Open Scope string_scope.
Definition ex4_flat : flat :=
{| fl_design := [{| ff_name := "f0"; ff_hidden := false; ff_levels := [{| lv_name := "a"; lv_weight := 1; lv_accepts := [] |}; {| lv_name := "b"; lv_weight := 1; lv_accepts := [] |}]; ff_window := None; ff_complex := false |};
      {| ff_name := "f1"; ff_hidden := false; ff_levels := [{| lv_name := "x"; lv_weight := 1; lv_accepts := [] |}; {| lv_name := "y"; lv_weight := 1; lv_accepts := [] |}; {| lv_name := "z"; lv_weight := 1; lv_accepts := [] |}]; ff_window := None; ff_complex := false |}];
   fl_act := [0; 1]; fl_crossings := [[0]; [1]]; fl_sustains := [1; 1]; fl_weights := [2; 1]; fl_sizes := [2; 3];
   fl_preambles := [0; 0]; fl_alignment := ParallelStart; fl_alignment_preamble := 0; fl_min_trials := 0; fl_trials := 3;
   fl_rcc := true; fl_exclude := []; fl_excluded_derived := [];
   fl_constraints := [(FCross);
      (FConsistency)];
   fl_errors_fail := false |}.
Close Scope string_scope.

Lemma ex4_decoded : {D | decoded ex4_flat = D}. Proof. eexists. vm_compute. reflexivity. Defined.
Lemma ex4_valid : {V | all_valid (code_sem ex4_flat) = V}. Proof. eexists. rewrite all_valid_fast. vm_compute. reflexivity. Defined.

Example ex4_frag2 : frag2 ex4_flat = true. Proof. vm_compute. reflexivity. Qed.
Example ex4_frag1 : frag1 ex4_flat = false. Proof. vm_compute. reflexivity. Qed.
Example ex4_enum : enumerates_b ex4_flat = true. Proof. vm_compute. reflexivity. Qed.
Example ex4_nkeys : List.length (keys_of ex4_flat) = 162. Proof. rewrite (nkeys_of _ ex4_decoded). reflexivity. Qed.
Example ex4_nacc : List.length (accepted_keys ex4_flat) = 36. Proof. rewrite (nacc_of _ ex4_decoded). reflexivity. Qed.
Example ex4_nvalid : List.length (all_valid (code_sem ex4_flat)) = 36. Proof. rewrite (proj2_sig ex4_valid). reflexivity. Qed.
Example ex4_sound : check_sound ex4_flat = true. Proof. rewrite (sound_of _ ex4_decoded). vm_compute. reflexivity. Qed.
Example ex4_inj : check_inj ex4_flat = true. Proof. rewrite (inj_of _ ex4_decoded). vm_compute. reflexivity. Qed.
Example ex4_complete : check_complete ex4_flat = true. Proof. rewrite (complete_of _ ex4_decoded ex4_valid). vm_compute. reflexivity. Qed.
Example ex4_acount : check_accepted_count ex4_flat = true. Proof. rewrite (acount_of _ ex4_decoded ex4_valid). reflexivity. Qed.

(** A design of fragment F2 with an implied factor (outside [act_design]):
    CrossBlock([f0, d1], [f0], [MinimumTrials(3)]) with d1 = "is f0 b / is f0 a" a within-trial derived factor
    nobody uses.  RandomGen samples f0 only (3 trials of a round of 4: 6 words with each level at most twice);
    the row of d1 is added afterwards ([cand_seq]). *)
Open Scope string_scope.
Definition ex5_flat : flat :=
{| fl_design := [{| ff_name := "f0"; ff_hidden := false; ff_levels := [{| lv_name := "a"; lv_weight := 1; lv_accepts := [] |}; {| lv_name := "b"; lv_weight := 1; lv_accepts := [] |}]; ff_window := None; ff_complex := false |};
      {| ff_name := "d1"; ff_hidden := false; ff_levels := [{| lv_name := "isb"; lv_weight := 1; lv_accepts := [[[Some 1]]] |}; {| lv_name := "isa"; lv_weight := 1; lv_accepts := [[[Some 0]]] |}]; ff_window := Some {| win_deps := [0]; win_width := 1; win_stride := 1; win_start := 0; win_start_delta := (0)%Z |}; ff_complex := false |}];
   fl_act := [0]; fl_crossings := [[0]]; fl_sustains := [1]; fl_weights := [2]; fl_sizes := [2];
   fl_preambles := [0]; fl_alignment := EqualPreamble; fl_alignment_preamble := 0; fl_min_trials := 3; fl_trials := 3;
   fl_rcc := true; fl_exclude := []; fl_excluded_derived := [];
   fl_constraints := [(FCross);
      (FConsistency);
      (FMinimumTrials (3)%Z)];
   fl_errors_fail := false |}.
Close Scope string_scope.

Lemma ex5_decoded : {D | decoded ex5_flat = D}. Proof. eexists. vm_compute. reflexivity. Defined.
Lemma ex5_valid : {V | all_valid (code_sem ex5_flat) = V}. Proof. eexists. rewrite all_valid_fast. vm_compute. reflexivity. Defined.

Example ex5_frag2 : frag2 ex5_flat = true. Proof. vm_compute. reflexivity. Qed.
Example ex5_frag1 : frag1 ex5_flat = false. Proof. vm_compute. reflexivity. Qed.
Example ex5_enum : enumerates_b ex5_flat = true. Proof. vm_compute. reflexivity. Qed.
Example ex5_nkeys : List.length (keys_of ex5_flat) = 6. Proof. rewrite (nkeys_of _ ex5_decoded). reflexivity. Qed.
Example ex5_nvalid : List.length (all_valid (code_sem ex5_flat)) = 6. Proof. rewrite (proj2_sig ex5_valid). reflexivity. Qed.
Example ex5_sound : check_sound ex5_flat = true. Proof. rewrite (sound_of _ ex5_decoded). vm_compute. reflexivity. Qed.
Example ex5_inj : check_inj ex5_flat = true. Proof. rewrite (inj_of _ ex5_decoded). vm_compute. reflexivity. Qed.
Example ex5_complete : check_complete ex5_flat = true. Proof. rewrite (complete_of _ ex5_decoded ex5_valid). vm_compute. reflexivity. Qed.
(** a key (word a,b,a) and its whole sequence: f0 = a,b,a and d1 = isa,isb,isa *)
Example ex5_decode :
  option_map (cand_seq ex5_flat)
    (decode_key ex5_flat {| k_pre := 0%Z; k_rounds := []; k_left := Some (4%Z, [0%Z; 0%Z; 0%Z], []) |})
  = Some [[Some 0; Some 1; Some 0]; [Some 1; Some 0; Some 1]].
Proof. vm_compute. reflexivity. Qed.

(** A design of fragment F2 with a derived factor in the sampled crossing (the Stroop design):
    CrossBlock([color, word, congruent], [color, congruent], []) with congruent = "color = word" a within-trial
    factor.  RandomGen permutes the 4 (color, congruent) instances and draws for every trial one of the words
    the instance admits (1 for a congruent instance, 2 for an incongruent one): 4! * (1*1*2*2) = 96 keys,
    every one accepted, 96 valid sequences. *)
Open Scope string_scope.
Definition ex6_flat : flat :=
{| fl_design := [{| ff_name := "color"; ff_hidden := false; ff_levels := [{| lv_name := "red"; lv_weight := 1; lv_accepts := [] |}; {| lv_name := "blue"; lv_weight := 1; lv_accepts := [] |}]; ff_window := None; ff_complex := false |};
      {| ff_name := "word"; ff_hidden := false; ff_levels := [{| lv_name := "red"; lv_weight := 1; lv_accepts := [] |}; {| lv_name := "blue"; lv_weight := 1; lv_accepts := [] |}; {| lv_name := "green"; lv_weight := 1; lv_accepts := [] |}]; ff_window := None; ff_complex := false |};
      {| ff_name := "congruent"; ff_hidden := false; ff_levels := [{| lv_name := "con"; lv_weight := 1; lv_accepts := [[[Some 0]; [Some 0]]; [[Some 1]; [Some 1]]] |}; {| lv_name := "inc"; lv_weight := 1; lv_accepts := [[[Some 0]; [Some 1]]; [[Some 0]; [Some 2]]; [[Some 1]; [Some 0]]; [[Some 1]; [Some 2]]] |}]; ff_window := Some {| win_deps := [0; 1]; win_width := 1; win_stride := 1; win_start := 0; win_start_delta := (0)%Z |}; ff_complex := false |}];
   fl_act := [0; 1; 2]; fl_crossings := [[0; 2]]; fl_sustains := [1]; fl_weights := [1]; fl_sizes := [4];
   fl_preambles := [0]; fl_alignment := EqualPreamble; fl_alignment_preamble := 0; fl_min_trials := 0; fl_trials := 4;
   fl_rcc := true; fl_exclude := []; fl_excluded_derived := [];
   fl_constraints := [(FCross);
      (FConsistency);
      (FDerivation 5 [[DIdx 0; DIdx 2]; [DIdx 1; DIdx 3]] 2);
      (FDerivation 6 [[DIdx 0; DIdx 3]; [DIdx 0; DIdx 4]; [DIdx 1; DIdx 2]; [DIdx 1; DIdx 4]] 2)];
   fl_errors_fail := false |}.
Close Scope string_scope.

Lemma ex6_decoded : {D | decoded ex6_flat = D}. Proof. eexists. vm_compute. reflexivity. Defined.
Lemma ex6_valid : {V | all_valid (code_sem ex6_flat) = V}. Proof. eexists. rewrite all_valid_fast. vm_compute. reflexivity. Defined.

Example ex6_frag2 : frag2 ex6_flat = true. Proof. vm_compute. reflexivity. Qed.
Example ex6_frag1 : frag1 ex6_flat = false. Proof. vm_compute. reflexivity. Qed.
Example ex6_derived : has_derived ex6_flat = true. Proof. vm_compute. reflexivity. Qed.
Example ex6_enum : enumerates_b ex6_flat = true. Proof. vm_compute. reflexivity. Qed.
Example ex6_nkeys : List.length (keys_of ex6_flat) = 96. Proof. rewrite (nkeys_of _ ex6_decoded). reflexivity. Qed.
Example ex6_nacc : List.length (accepted_keys ex6_flat) = 96. Proof. rewrite (nacc_of _ ex6_decoded). reflexivity. Qed.
Example ex6_nvalid : List.length (all_valid (code_sem ex6_flat)) = 96. Proof. rewrite (proj2_sig ex6_valid). reflexivity. Qed.
Example ex6_sound : check_sound ex6_flat = true. Proof. rewrite (sound_of _ ex6_decoded). vm_compute. reflexivity. Qed.
Example ex6_inj : check_inj ex6_flat = true. Proof. rewrite (inj_of _ ex6_decoded). vm_compute. reflexivity. Qed.
Example ex6_complete : check_complete ex6_flat = true. Proof. rewrite (complete_of _ ex6_decoded ex6_valid). vm_compute. reflexivity. Qed.
Example ex6_rejection_free : rejection_free ex6_flat = true. Proof. vm_compute. reflexivity. Qed.
Example ex6_count : check_count ex6_flat = true. Proof. rewrite (count_of _ ex6_valid). vm_compute. reflexivity. Qed.

(** the same with Exclude(word, green): the word is still drawn among all three, the candidates with an excluded
    word are rejected ([__are_constraints_violated]): 96 keys, 24 accepted = 24 valid sequences *)
Open Scope string_scope.
Definition ex7_flat : flat :=
{| fl_design := [{| ff_name := "color"; ff_hidden := false; ff_levels := [{| lv_name := "red"; lv_weight := 1; lv_accepts := [] |}; {| lv_name := "blue"; lv_weight := 1; lv_accepts := [] |}]; ff_window := None; ff_complex := false |};
      {| ff_name := "word"; ff_hidden := false; ff_levels := [{| lv_name := "red"; lv_weight := 1; lv_accepts := [] |}; {| lv_name := "blue"; lv_weight := 1; lv_accepts := [] |}; {| lv_name := "green"; lv_weight := 1; lv_accepts := [] |}]; ff_window := None; ff_complex := false |};
      {| ff_name := "congruent"; ff_hidden := false; ff_levels := [{| lv_name := "con"; lv_weight := 1; lv_accepts := [[[Some 0]; [Some 0]]; [[Some 1]; [Some 1]]] |}; {| lv_name := "inc"; lv_weight := 1; lv_accepts := [[[Some 0]; [Some 1]]; [[Some 0]; [Some 2]]; [[Some 1]; [Some 0]]; [[Some 1]; [Some 2]]] |}]; ff_window := Some {| win_deps := [0; 1]; win_width := 1; win_stride := 1; win_start := 0; win_start_delta := (0)%Z |}; ff_complex := false |}];
   fl_act := [0; 1; 2]; fl_crossings := [[0; 2]]; fl_sustains := [1]; fl_weights := [1]; fl_sizes := [4];
   fl_preambles := [0]; fl_alignment := EqualPreamble; fl_alignment_preamble := 0; fl_min_trials := 0; fl_trials := 4;
   fl_rcc := true; fl_exclude := [(1, 2)]; fl_excluded_derived := [];
   fl_constraints := [(FCross);
      (FConsistency);
      (FExclude 1 2);
      (FDerivation 5 [[DIdx 0; DIdx 2]; [DIdx 1; DIdx 3]] 2);
      (FDerivation 6 [[DIdx 0; DIdx 3]; [DIdx 0; DIdx 4]; [DIdx 1; DIdx 2]; [DIdx 1; DIdx 4]] 2)];
   fl_errors_fail := false |}.
Close Scope string_scope.

Lemma ex7_decoded : {D | decoded ex7_flat = D}. Proof. eexists. vm_compute. reflexivity. Defined.
Lemma ex7_valid : {V | all_valid (code_sem ex7_flat) = V}.
Proof.
  eexists.
  rewrite (all_valid_staged _ (own_row_ok (code_sem ex7_flat) {| k_kind := KExclude; k_factor := 1; k_level := 2; k_windows := [] |}) 2).
  - vm_compute. reflexivity.
  - intros s s'. apply own_row_prefix; [vm_compute; now left|exact I].
Defined.

Example ex7_frag2 : frag2 ex7_flat = true. Proof. vm_compute. reflexivity. Qed.
Example ex7_rejection_free : rejection_free ex7_flat = false. Proof. vm_compute. reflexivity. Qed.
Example ex7_nkeys : List.length (keys_of ex7_flat) = 96. Proof. rewrite (nkeys_of _ ex7_decoded). reflexivity. Qed.
Example ex7_nacc : List.length (accepted_keys ex7_flat) = 24. Proof. rewrite (nacc_of _ ex7_decoded). reflexivity. Qed.
Example ex7_nvalid : List.length (all_valid (code_sem ex7_flat)) = 24. Proof. rewrite (proj2_sig ex7_valid). reflexivity. Qed.
Example ex7_sound : check_sound ex7_flat = true. Proof. rewrite (sound_of _ ex7_decoded). vm_compute. reflexivity. Qed.
Example ex7_complete : check_complete ex7_flat = true. Proof. rewrite (complete_of _ ex7_decoded ex7_valid). vm_compute. reflexivity. Qed.
Example ex7_acount : check_accepted_count ex7_flat = true. Proof. rewrite (acount_of _ ex7_decoded ex7_valid). reflexivity. Qed.

(** A nested design (fragment F2 with a sustained crossing): Nest(CrossBlock([task],[task]), CrossBlock([color],[color])).
    The block has the crossings [[task]; [color]] with sustain counts [2; 1]: RandomGen samples the second one (the first
    with sustain 1; a round = a permutation of the 2 colors, task is a free factor) and rejects the candidates in
    which task changes inside a group of 2 trials (Sustain) or is not balanced over the 4 trials (the task crossing):
    64 keys, 8 accepted = 8 valid sequences. *)
Open Scope string_scope.
Definition ex8_flat : flat :=
{| fl_design := [{| ff_name := "task"; ff_hidden := false; ff_levels := [{| lv_name := "naming"; lv_weight := 1; lv_accepts := [] |}; {| lv_name := "reading"; lv_weight := 1; lv_accepts := [] |}]; ff_window := None; ff_complex := false |};
      {| ff_name := "color"; ff_hidden := false; ff_levels := [{| lv_name := "red"; lv_weight := 1; lv_accepts := [] |}; {| lv_name := "blue"; lv_weight := 1; lv_accepts := [] |}]; ff_window := None; ff_complex := false |}];
   fl_act := [0; 1]; fl_crossings := [[0]; [1]]; fl_sustains := [2; 1]; fl_weights := [1; 1]; fl_sizes := [4; 2];
   fl_preambles := [0; 0]; fl_alignment := EqualPreamble; fl_alignment_preamble := 0; fl_min_trials := 0; fl_trials := 4;
   fl_rcc := true; fl_exclude := []; fl_excluded_derived := [];
   fl_constraints := [(FCross);
      (FConsistency);
      (FSustain)];
   fl_errors_fail := false |}.
Close Scope string_scope.

Lemma ex8_decoded : {D | decoded ex8_flat = D}. Proof. eexists. vm_compute. reflexivity. Defined.
Lemma ex8_valid : {V | all_valid (code_sem ex8_flat) = V}. Proof. eexists. rewrite all_valid_fast. vm_compute. reflexivity. Defined.

Example ex8_frag2 : frag2 ex8_flat = true. Proof. vm_compute. reflexivity. Qed.
Example ex8_main : main_idx ex8_flat = 1. Proof. reflexivity. Qed.
Example ex8_enum : enumerates_b ex8_flat = true. Proof. vm_compute. reflexivity. Qed.
Example ex8_nkeys : List.length (keys_of ex8_flat) = 64. Proof. rewrite (nkeys_of _ ex8_decoded). reflexivity. Qed.
Example ex8_nacc : List.length (accepted_keys ex8_flat) = 8. Proof. rewrite (nacc_of _ ex8_decoded). reflexivity. Qed.
Example ex8_nvalid : List.length (all_valid (code_sem ex8_flat)) = 8. Proof. rewrite (proj2_sig ex8_valid). reflexivity. Qed.
Example ex8_sound : check_sound ex8_flat = true. Proof. rewrite (sound_of _ ex8_decoded). vm_compute. reflexivity. Qed.
Example ex8_inj : check_inj ex8_flat = true. Proof. rewrite (inj_of _ ex8_decoded). vm_compute. reflexivity. Qed.
Example ex8_complete : check_complete ex8_flat = true. Proof. rewrite (complete_of _ ex8_decoded ex8_valid). vm_compute. reflexivity. Qed.
Example ex8_acount : check_accepted_count ex8_flat = true. Proof. rewrite (acount_of _ ex8_decoded ex8_valid). reflexivity. Qed.

(** A design of fragment F2 with a derived factor of [act_design] outside the sampled crossing:
    CrossBlock([color, word, congruent], [color, word], [AtMostKInARow(1, congruent = con)]).  RandomGen permutes the 4
    (color, word) combinations; the congruent row is filled in afterwards ([fill_in_nonpreamble_uncrossed_derived]) and the
    constraint on it is enforced by rejection: 24 keys, 12 accepted = 12 valid sequences. *)
Open Scope string_scope.
Definition ex9_flat : flat :=
{| fl_design := [{| ff_name := "color"; ff_hidden := false; ff_levels := [{| lv_name := "red"; lv_weight := 1; lv_accepts := [] |}; {| lv_name := "blue"; lv_weight := 1; lv_accepts := [] |}]; ff_window := None; ff_complex := false |};
      {| ff_name := "word"; ff_hidden := false; ff_levels := [{| lv_name := "red"; lv_weight := 1; lv_accepts := [] |}; {| lv_name := "blue"; lv_weight := 1; lv_accepts := [] |}]; ff_window := None; ff_complex := false |};
      {| ff_name := "congruent"; ff_hidden := false; ff_levels := [{| lv_name := "con"; lv_weight := 1; lv_accepts := [[[Some 0]; [Some 0]]; [[Some 1]; [Some 1]]] |}; {| lv_name := "inc"; lv_weight := 1; lv_accepts := [[[Some 0]; [Some 1]]; [[Some 1]; [Some 0]]] |}]; ff_window := Some {| win_deps := [0; 1]; win_width := 1; win_stride := 1; win_start := 0; win_start_delta := (0)%Z |}; ff_complex := false |}];
   fl_act := [0; 1; 2]; fl_crossings := [[0; 1]]; fl_sustains := [1]; fl_weights := [1]; fl_sizes := [4];
   fl_preambles := [0]; fl_alignment := EqualPreamble; fl_alignment_preamble := 0; fl_min_trials := 0; fl_trials := 4;
   fl_rcc := true; fl_exclude := []; fl_excluded_derived := [];
   fl_constraints := [(FCross);
      (FConsistency);
      (FAtMost 1 2 0 (Some {| g_trials := 4; g_preamble := 0; g_sustain := [(0, 1); (1, 1)] |}));
      (FDerivation 4 [[DIdx 0; DIdx 2]; [DIdx 1; DIdx 3]] 2);
      (FDerivation 5 [[DIdx 0; DIdx 3]; [DIdx 1; DIdx 2]] 2)];
   fl_errors_fail := false |}.
Close Scope string_scope.

Lemma ex9_decoded : {D | decoded ex9_flat = D}. Proof. eexists. vm_compute. reflexivity. Defined.
Lemma ex9_valid : {V | all_valid (code_sem ex9_flat) = V}. Proof. eexists. rewrite all_valid_fast. vm_compute. reflexivity. Defined.

Example ex9_frag2 : frag2 ex9_flat = true. Proof. vm_compute. reflexivity. Qed.
Example ex9_derived : has_derived ex9_flat = true. Proof. vm_compute. reflexivity. Qed.
Example ex9_enum : enumerates_b ex9_flat = true. Proof. vm_compute. reflexivity. Qed.
Example ex9_nkeys : List.length (keys_of ex9_flat) = 24. Proof. rewrite (nkeys_of _ ex9_decoded). reflexivity. Qed.
Example ex9_nacc : List.length (accepted_keys ex9_flat) = 12. Proof. rewrite (nacc_of _ ex9_decoded). reflexivity. Qed.
Example ex9_nvalid : List.length (all_valid (code_sem ex9_flat)) = 12. Proof. rewrite (proj2_sig ex9_valid). reflexivity. Qed.
Example ex9_sound : check_sound ex9_flat = true. Proof. rewrite (sound_of _ ex9_decoded). vm_compute. reflexivity. Qed.
Example ex9_inj : check_inj ex9_flat = true. Proof. rewrite (inj_of _ ex9_decoded). vm_compute. reflexivity. Qed.
Example ex9_complete : check_complete ex9_flat = true. Proof. rewrite (complete_of _ ex9_decoded ex9_valid). vm_compute. reflexivity. Qed.
Example ex9_acount : check_accepted_count ex9_flat = true. Proof. rewrite (acount_of _ ex9_decoded ex9_valid). reflexivity. Qed.
