(** Facts of the reference semantics (Design/Sem.v) about rows that a check
    does not read, and about the row [Sem.derive_row] computes for a within-trial
    derived factor: used for the factors outside [act_design] (implied factors),
    whose rows [FragSem.fill_implied] adds to a candidate.  Proof file. *)
From Coq Require Import ZArith List Bool Arith Lia.
From SP Require Import Design.Flat Design.Layout Design.Sem Design.SemFacts Random.Enum Random.Frag Random.FragSem Random.RunLemmas Base.Lists.
Import ListNotations.
Open Scope nat_scope.

(** * Checks only read the rows of their own factors *)
Definition not_latin (c : dconstraint) : bool :=
  match k_kind c with KLatin _ _ _ _ => false | _ => true end.

Lemma constraint_ok_ext S s1 s2 c : not_latin c = true -> nth (k_factor c) s1 [] = nth (k_factor c) s2 [] ->
  constraint_ok S s1 c = constraint_ok S s2 c.
Proof.
  intros Hk H. unfold constraint_ok. rewrite H. unfold not_latin in Hk. destruct (k_kind c); try reflexivity. discriminate.
Qed.

Lemma factor_ok_ext S s1 s2 f fd : nth f s1 [] = nth f s2 [] ->
  (forall w d, f_derived fd = Some w -> In d (w_deps w) -> nth d s1 [] = nth d s2 []) ->
  factor_ok S s1 f fd = factor_ok S s2 f fd.
Proof.
  intros H Hd. unfold factor_ok, get_cell. rewrite H. f_equal. apply forallb_ext. intros t.
  destruct (nth t (nth f s2 []) None); [|reflexivity]. f_equal.
  destruct (f_derived fd) as [w|] eqn:E; [|reflexivity]. f_equal. unfold window_args.
  apply map_ext_in. intros d Hin. apply map_ext. intros j. unfold get_cell. rewrite (Hd w d eq_refl Hin). reflexivity.
Qed.

Lemma factor_ok_ext_basic S s1 s2 f fd : f_derived fd = None -> nth f s1 [] = nth f s2 [] ->
  factor_ok S s1 f fd = factor_ok S s2 f fd.
Proof. intros Hd H. apply factor_ok_ext; [exact H|]. intros w d E. congruence. Qed.

(** * The row of a within-trial derived factor *)
Section Within.
Variable S : sem.
Variable f : nat.
Variable fd : dfactor.
Variable w : dwindow.
Hypothesis Hder : f_derived fd = Some w.
Hypothesis Hwidth : w_width w = 1.
Hypothesis Hstride : w_stride w = 1.
Hypothesis Hstart : w_start w = 0.
Hypothesis Hsu : f_sustain fd = 1.

Lemma applies_within t : applies fd t = true.
Proof. unfold applies. rewrite Hder, Hstart, Hstride, Hsu. rewrite Nat.div_1_r, Nat.sub_0_r. cbn. reflexivity. Qed.

Lemma window_args_within s t : window_args s fd w t = map (fun d => [get_cell s d t]) (w_deps w).
Proof.
  unfold window_args. rewrite Hsu, Hwidth, Nat.div_1_r, Nat.mul_1_r. cbn [seq map Nat.sub Nat.mul Nat.leb].
  apply map_ext. intros d. rewrite Nat.sub_0_r. reflexivity.
Qed.

(** the level [derive_row] picks in a trial *)
Definition pick (s : tseq) (t : nat) : option nat :=
  find (fun l => Sem.accepts w l (window_args s fd w t)) (seq 0 (f_nlevels fd)).

Lemma derive_row_spec s : (forall t, t < s_trials S -> pick s t <> None) ->
  derive_row S s f fd w = Some (map (fun t => pick s t) (seq 0 (s_trials S))).
Proof.
  intros H. unfold derive_row.
  assert (Hts : forall t, In t (seq 0 (s_trials S)) -> pick s t <> None) by (intros t Ht; apply in_seq in Ht; apply H; lia).
  clear H. induction (seq 0 (s_trials S)) as [|t ts IH]; [reflexivity|].
  rewrite IH by (intros x Hx; apply Hts; right; exact Hx).
  rewrite applies_within. cbn [map]. specialize (Hts t (or_introl eq_refl)). unfold pick in *.
  destruct (find _ _); [reflexivity | contradiction].
Qed.

Lemma pick_ext s1 s2 t : (forall d, In d (w_deps w) -> get_cell s1 d t = get_cell s2 d t) -> pick s1 t = pick s2 t.
Proof.
  intros H. unfold pick. rewrite !window_args_within.
  rewrite (map_ext_in _ (fun d => [get_cell s2 d t])) by (intros d Hd; rewrite (H d Hd); reflexivity). reflexivity.
Qed.

Lemma pick_spec s t l : pick s t = Some l -> l < f_nlevels fd /\ Sem.accepts w l (window_args s fd w t) = true.
Proof. unfold pick. intros H. apply find_some in H. destruct H as [H1 H2]. apply in_seq in H1. split; [lia | exact H2]. Qed.

Lemma pick_accepted s t l : l < f_nlevels fd -> Sem.accepts w l (window_args s fd w t) = true -> pick s t <> None.
Proof.
  intros Hl Ha Hnone. pose proof (find_none _ _ Hnone l (proj2 (in_seq _ _ _) (conj (Nat.le_0_l l) Hl))) as Hn.
  cbv beta in Hn. congruence.
Qed.

(** the check of [f], without the parts that hold of every factor derived within the trial *)
Lemma factor_ok_within s :
  factor_ok S s f fd =
  (length (nth f s []) =? s_trials S) &&
  forallb (fun t => match get_cell s f t with
                    | Some l => (l <? f_nlevels fd) && Sem.accepts w l (map (fun d => [get_cell s d t]) (w_deps w))
                    | None => false
                    end) (seq 0 (s_trials S)).
Proof.
  unfold factor_ok. f_equal. apply forallb_ext. intros t.
  rewrite (applies_within t), Hsu, Nat.div_1_r, Nat.mul_1_r.
  destruct (get_cell s f t) as [l|]; [|reflexivity].
  cbn [cell_eqb andb negb]. rewrite Nat.eqb_refl, andb_true_r, Hder, (window_args_within s t). reflexivity.
Qed.

(** a sequence whose row of [f] is the derived one passes the factor check *)
Lemma factor_ok_derived s s' :
  (forall t, t < s_trials S -> pick s t <> None) ->
  (forall d t, In d (w_deps w) -> get_cell s' d t = get_cell s d t) ->
  nth f s' [] = map (fun t => pick s t) (seq 0 (s_trials S)) ->
  factor_ok S s' f fd = true.
Proof.
  intros Hp Hdeps Hrow. rewrite factor_ok_within, Hrow, map_length, seq_length, Nat.eqb_refl. cbn [andb].
  apply forallb_forall. intros t Ht. apply in_seq in Ht.
  assert (Hc : get_cell s' f t = pick s t).
  { unfold get_cell. rewrite Hrow. apply (nth_map_seq (pick s)). lia. }
  rewrite Hc. destruct (pick s t) as [l|] eqn:El; [|exfalso; apply (Hp t ltac:(lia)); exact El].
  destruct (pick_spec s t l El) as [Hl Ha]. apply andb_true_intro. split; [apply Nat.ltb_lt, Hl|].
  rewrite <- Ha, window_args_within. f_equal. apply map_ext_in. intros d Hd. rewrite (Hdeps d t Hd). reflexivity.
Qed.

(** with an unambiguous table the factor check leaves no other row *)
Lemma factor_ok_unique s' :
  (forall t l1 l2, t < s_trials S -> l1 < f_nlevels fd -> l2 < f_nlevels fd ->
     Sem.accepts w l1 (window_args s' fd w t) = true -> Sem.accepts w l2 (window_args s' fd w t) = true -> l1 = l2) ->
  factor_ok S s' f fd = true ->
  nth f s' [] = map (fun t => pick s' t) (seq 0 (s_trials S)).
Proof.
  intros Hun Hok. rewrite factor_ok_within in Hok. apply andb_prop in Hok. destruct Hok as [Hl Hcells].
  apply Nat.eqb_eq in Hl. rewrite forallb_forall in Hcells.
  rewrite <- (map_nth_seq (nth f s' []) None) at 1. rewrite Hl. apply map_ext_in. intros t Ht.
  generalize (Hcells t Ht). fold (get_cell s' f t). destruct (get_cell s' f t) as [l|]; [|discriminate].
  intros Hc. apply andb_prop in Hc. destruct Hc as [Hlt Hacc]. apply Nat.ltb_lt in Hlt. apply in_seq in Ht.
  rewrite <- window_args_within in Hacc.
  destruct (pick s' t) as [l'|] eqn:Ef; [|destruct (pick_accepted s' t l Hlt Hacc Ef)].
  destruct (pick_spec s' t l' Ef) as [Hl' Ha]. f_equal. apply (Hun t l l' ltac:(lia) Hlt Hl' Hacc Ha).
Qed.

End Within.
