(** C07 on the intersection of the compile fragment [CodeSem.in_f1] and the
    RandomGen fragment [Frag.frag1]: the sequences the SAT pipeline can return
    are exactly the candidates RandomGen accepts - both are the sequences valid
    for [code_sem fb].  The part of Random/SatRandom2.v ([frag2]) without
    implied factors; generalises Encode/SatRandom.v ([frag0]).  Proof file. *)
From Coq Require Import ZArith List Bool Arith Lia.
From SP Require Import Base.Sat Design.Flat Design.Layout Design.Sem.
From SP Require Import Encode.Compile Encode.CodeSem Encode.LayoutF1 Encode.F1Sem
     Encode.CompileProofs Encode.CompileCorollaries Encode.Totality Encode.SatRandom.
From SP Require Import Random.Enum Random.Frag Random.FragSem Random.Frag1Thms Random.Frag0Example Random.SatRandom2.
Import ListNotations.
Close Scope Z_scope.
Open Scope nat_scope.

Theorem sat_eq_random1 (fb : flat) (b : backend) (ok : bool) (n' : Z) (final : cnf) :
  in_f1 fb = true -> frag1 fb = true -> 0 < T fb -> fl_errors_fail fb = false ->
  compile fb = COk b -> full_cnf b = (ok, n', final) ->
  forall q : tseq,
    (exists t, sat t final = true /\ onehot fb t q) <->
    (exists k cand, In k (keys_of fb) /\ decode_key fb k = Some cand /\ accepts fb cand = true /\
                    tseq_of_run fb cand = q).
Proof.
  intros HF1 HR1 HT He Hc Ef q. rewrite (sat_eq_random2 fb b ok n' final HF1 (frag1_frag2 fb HR1) HT He Hc Ef q).
  split; intros (k & cand & H); exists k, cand; [rewrite <- (frag1_cand_seq fb HR1) | rewrite (frag1_cand_seq fb HR1)]; exact H.
Qed.

(** jointly satisfiable outside [frag0]: exclusions, AtMostKInARow, Pin, a leftover round *)
Lemma sat_eq_random1_example :
  in_f1 ex1_flat = true /\ frag1 ex1_flat = true /\ frag0 ex1_flat = false /\ 0 < T ex1_flat /\
  fl_errors_fail ex1_flat = false /\ (exists b, compile ex1_flat = COk b) /\
  length (keys_of ex1_flat) = 32 /\ length (accepted_keys ex1_flat) = 12.
Proof.
  assert (HF : in_f1 ex1_flat = true) by (vm_compute; reflexivity).
  assert (HT : 0 < T ex1_flat) by (vm_compute; lia).
  split; [exact HF|]. split; [apply ex1_frag|]. split; [apply ex1_frag|]. split; [exact HT|]. split; [reflexivity|].
  split; [apply (compile_total_f1 _ HF HT) | split; apply ex1_keys].
Qed.
