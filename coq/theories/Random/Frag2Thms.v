(** The RandomGen theorems for fragment F2 ([Frag.frag2]: F1 plus weighted
    crossed levels and a crossing weight, further crossings enforced by rejection, and
    sustained crossings; see Random/Frag.v), stated on the interface functions
    [keys_of] / [decode_key] / [accepts] / [cand_fseq] / [key_accepted] of
    Random/Enum.v and Random/FragSem.v.

    With weights the model runs the memoised counter / unranker for
    permutations with copies, whose explicit stack carries fuel; the C13 totality
    theorems (Comb/TotalProofs.v) show that it returns, so the enumerator and
    its key list are always defined ([f2_enumerates]) and the model returns no
    error value at all ([f2_total]).  Proof file. *)
From Coq Require Import ZArith List Bool Arith Lia.
From SP Require Import Design.Flat Design.Layout Design.Sem Comb.CombModel Comb.CombSpec Random.Enum Random.Frag
  Random.FragSem Random.RunLemmas Random.FragPerm Random.Frag0Enum Random.Frag0Decode Random.Frag0Sem Random.Frag0Valid
  Random.Frag0Fill Random.Frag0Keys Random.Frag0Inj Random.Frag0Complete Random.Frag1Cons Random.Frag2Cross Random.Implied Base.Lists.
From SP Require Encode.CodeSem.
Import ListNotations.
Open Scope nat_scope.

Lemma prodZl_pos l : (forall x, In x l -> (0 < x)%Z) -> (0 < prodZl l)%Z.
Proof. exact (KeysCount.prodZl_pos' l). Qed.

Lemma Forall2_seq_nth {B} (R : nat -> B -> Prop) k ys : Forall2 R (seq 0 k) ys ->
  forall i, i < k -> exists y, R i y.
Proof.
  intros H i Hi. destruct (Forall2_in_l R _ _ i H) as [y [_ Hy]]; [apply in_seq; split; [apply Nat.le_0_l | exact Hi]|].
  exists y. exact Hy.
Qed.

Section F2T.
Variable fb : flat.
Hypothesis HF : frag2 fb = true.

Local Notation nfac := (length (fl_design fb)).
Local Notation S0 := (code_sem fb).

(** the enumerator is always built, its memo tables in order (C13 totality of the memoised counter / unranker) *)
Lemma f2_memos_total : exists m lm cn lcn, memos_ok fb m lm /\ make_enumerator fb = ROk (f0_enum fb m lm cn lcn) /\ (0 < cn)%Z.
Proof.
  destruct (f0_make_enumerator_total fb HF) as (m & lm & cn & lcn & Hen & Hm & Hlm & Hcn).
  exists m, lm, cn, lcn. split; [apply (memos_ok_total fb HF m lm Hm Hlm)|]. split; [exact Hen | exact Hcn].
Qed.

Theorem f2_enumerates : enumerates fb.
Proof.
  destruct f2_memos_total as (m & lm & cn & lcn & HM & Hen & _). exists (f0_enum fb m lm cn lcn), (f0_keys fb).
  split; [exact Hen | apply (all_keys_f0 fb HF m lm cn lcn HM)].
Qed.

(** the keys drawn from are the in-range keys, each once, [possible_keys] many *)
Lemma f2_keys : exists en, make_enumerator fb = ROk en /\
  keys_of fb = (if fl_errors_fail fb then [] else f0_keys fb) /\
  NoDup (f0_keys fb) /\ Z.of_nat (length (f0_keys fb)) = possible_keys fb en /\
  forall k, In k (f0_keys fb) <-> key_ok fb k.
Proof.
  destruct f2_memos_total as (m & lm & cn & lcn & HM & Hen & Hcn). exists (f0_enum fb m lm cn lcn).
  split; [exact Hen|]. split; [|split; [apply (f0_keys_NoDup fb HF m lm cn lcn HM Hen)|]].
  - unfold keys_of. rewrite (sample_keys_f0 fb HF m lm cn lcn HM Hen). cbn [en_count f0_enum].
    rewrite (proj2 (Z.eqb_neq cn 0) (Z.neq_sym _ _ (Z.lt_neq _ _ Hcn))), orb_false_r. reflexivity.
  - split; [apply (f0_keys_length fb HF m lm cn lcn HM Hen) | apply (f0_keys_In fb HF m lm cn lcn HM)].
Qed.

Lemma f2_keys_of_ok k : In k (keys_of fb) -> key_ok fb k.
Proof.
  destruct f2_keys as (en & _ & E & _ & _ & Hin). rewrite E. destruct (fl_errors_fail fb); [intros [] | apply Hin].
Qed.

Lemma f2_keys_of_full k : fl_errors_fail fb = false -> key_ok fb k -> In k (keys_of fb).
Proof. intros He. destruct f2_keys as (en & _ & E & _ & _ & Hin). rewrite E, He. apply Hin. Qed.

Lemma f2_decode_key k : key_ok fb k ->
  exists r, decode_key fb k = Some r /\ forall g, row_of_run r g = cand_row fb k g.
Proof.
  intros Hk. destruct f2_memos_total as (m & lm & cn & lcn & HM & Hen & _).
  destruct (decode_full fb HF m lm cn lcn HM k Hk) as [r [Hd Hrow]].
  exists r. split; [|exact Hrow]. unfold decode_key. rewrite Hen, Hd. reflexivity.
Qed.

Lemma cand_act_row k r g : key_ok fb k -> (forall g, row_of_run r g = cand_row fb k g) -> In g (fl_act fb) ->
  nth g (cand_seq fb r) [] = cand_row fb k g.
Proof.
  intros Hk Hrow Ha. unfold cand_seq. rewrite (fill_act_row fb HF k Hk r Hrow g Ha).
  rewrite tseq_nth by (apply (act_lt fb HF); exact Ha). apply Hrow.
Qed.

(** with one crossing nothing is sustained and no crossing is left to the rejection test *)
Lemma single_crossing_base s : length (fl_crossings fb) = 1 ->
  sustain_held fb s && forallb (crossing_ok S0 s) (f0_ocrossings fb) = true.
Proof.
  intros Hone. rewrite (f0_ocrossings_single fb HF Hone). cbn [forallb]. rewrite andb_true_r.
  unfold sustain_held. apply forallb_forall. intros f _. rewrite (f0_sustain_single fb HF f Hone). reflexivity.
Qed.

(** the rejection test on the candidate of an in-range key returns, and decides validity *)
Lemma f2_violated_eq m lm cn lcn k r : key_ok fb k -> (forall g, row_of_run r g = cand_row fb k g) ->
  are_constraints_violated fb (f0_enum fb m lm cn lcn) r = ROk (negb (valid_b S0 (cand_seq fb r))).
Proof.
  intros Hk Hrow. unfold cand_seq. rewrite (f0_valid_base fb HF k Hk r Hrow).
  destruct (f0_trials fb (f0_unpack fb HF)) as [HT | [Hnr Hone]].
  - apply (f2_violated fb HF m lm cn lcn r).
    + intros g Hg. pose proof (cand_row_length fb HF k g Hk Hg) as Hl.
      pose proof (cand_row_cells fb HF k g Hk Hg) as Hc. rewrite <- Hrow in Hl, Hc.
      unfold row_of_run in Hl, Hc. destruct (rlookup r g) as [row|]; [exists row; auto|].
      rewrite <- Hl in HT. inversion HT.
    + intros Hk1. destruct (has_derived fb) eqn:Ehd; [|reflexivity].
      destruct (f0_derived_single fb (f0_unpack fb HF) Ehd) as [Hone _]. rewrite Hone in Hk1. inversion Hk1 as [|? H1]. inversion H1.
  - (* no trials: the rows may be missing, but no constraint is ever evaluated on a row *)
    rewrite (single_crossing_base _ Hone). cbn [andb].
    unfold no_rejecting_constraints in Hnr. rewrite forallb_forall in Hnr.
    assert (Hs : s_constraints S0 = []).
    { rewrite (f0_sem_constraints fb HF). induction (fl_constraints fb) as [|x t IH]; [reflexivity|].
      cbn [flat_map]. rewrite IH by (intros y Hy; apply Hnr; right; exact Hy).
      specialize (Hnr x (or_introl eq_refl)). destruct x; try discriminate; reflexivity. }
    rewrite Hs. cbn [forallb]. unfold are_constraints_violated.
    rewrite (constraints_loop_spec fb r (fun _ => true))
      by (intros x Hx; specialize (Hnr x Hx); destruct x; try discriminate Hnr; reflexivity).
    rewrite (proj2 (forallb_forall _ _) (fun _ _ => eq_refl)). cbn [negb rbind]. cbn [en_base f0_enum eb_has_cc f0_base orb].
    rewrite Hone. reflexivity.
Qed.

Lemma f2_accepts_valid k r : key_ok fb k -> (forall g, row_of_run r g = cand_row fb k g) ->
  accepts fb r = valid_b S0 (cand_seq fb r).
Proof.
  intros Hk Hrow. destruct f2_memos_total as (m & lm & cn & lcn & _ & Hen & _).
  unfold accepts. rewrite Hen, (f2_violated_eq m lm cn lcn k r Hk Hrow). apply negb_involutive.
Qed.

(** the model returns no error value: enumerator, key list, the candidate of every key, the rejection test *)
Theorem f2_total : exists en ks, make_enumerator fb = ROk en /\ all_keys fb en = ROk ks /\
  forall k, In k ks -> exists r v, decode_with fb en k = ROk r /\ are_constraints_violated fb en r = ROk v.
Proof.
  destruct f2_memos_total as (m & lm & cn & lcn & HM & Hen & Hcn). exists (f0_enum fb m lm cn lcn), (f0_keys fb).
  split; [exact Hen|]. split; [apply (all_keys_f0 fb HF m lm cn lcn HM)|].
  intros k Hk. apply (f0_keys_In fb HF m lm cn lcn HM) in Hk.
  destruct (decode_full fb HF m lm cn lcn HM k Hk) as [r [Hd Hrow]].
  exists r. eexists. split; [exact Hd | apply (f2_violated_eq m lm cn lcn k r Hk Hrow)].
Qed.

Theorem f2_accept_sound k cand :
  In k (keys_of fb) -> decode_key fb k = Some cand -> accepts fb cand = true ->
  valid_b S0 (cand_seq fb cand) = true.
Proof.
  intros Hin Hdec Hacc. pose proof (f2_keys_of_ok k Hin) as Hk.
  destruct (f2_decode_key k Hk) as [r [Hd Hrow]]. rewrite Hd in Hdec. inversion Hdec; subst cand.
  rewrite <- (f2_accepts_valid k r Hk Hrow). exact Hacc.
Qed.

Theorem f2_cand_inj k1 k2 c1 c2 :
  In k1 (keys_of fb) -> In k2 (keys_of fb) ->
  decode_key fb k1 = Some c1 -> decode_key fb k2 = Some c2 ->
  cand_seq fb c1 = cand_seq fb c2 -> k1 = k2.
Proof.
  intros H1 H2 D1 D2 E. pose proof (f2_keys_of_ok k1 H1) as Hk1. pose proof (f2_keys_of_ok k2 H2) as Hk2.
  destruct (f2_decode_key k1 Hk1) as [r1 [Hd1 Hr1]]. destruct (f2_decode_key k2 Hk2) as [r2 [Hd2 Hr2]].
  rewrite Hd1 in D1. rewrite Hd2 in D2. inversion D1; inversion D2; subst c1 c2.
  apply (f0_decode_inj fb HF k1 k2 Hk1 Hk2). intros g Hg.
  pose proof (proj1 (proj1 (K_In fb HF g) Hg)) as Ha.
  rewrite <- (cand_row_K fb HF k1 g (K_not_ucd fb HF g Hg)), <- (cand_row_K fb HF k2 g (K_not_ucd fb HF g Hg)).
  rewrite <- (cand_act_row k1 r1 g Hk1 Hr1 Ha), <- (cand_act_row k2 r2 g Hk2 Hr2 Ha), E. reflexivity.
Qed.

Lemma f2_cand_fseq_inj k1 k2 : In k1 (keys_of fb) -> In k2 (keys_of fb) -> cand_fseq fb k1 = cand_fseq fb k2 -> k1 = k2.
Proof.
  intros H1 H2 E. unfold cand_fseq in E.
  destruct (f2_decode_key k1 (f2_keys_of_ok k1 H1)) as [r1 [Hd1 _]].
  destruct (f2_decode_key k2 (f2_keys_of_ok k2 H2)) as [r2 [Hd2 _]].
  rewrite Hd1, Hd2 in E. apply (f2_cand_inj k1 k2 r1 r2 H1 H2 Hd1 Hd2 E).
Qed.

Theorem f2_keys_nodup : NoDup (keys_of fb).
Proof. destruct f2_keys as (en & _ & E & Hnd & _). rewrite E. destruct (fl_errors_fail fb); [constructor | exact Hnd]. Qed.

Theorem f2_keys_count en :
  make_enumerator fb = ROk en -> fl_errors_fail fb = false ->
  NoDup (keys_of fb) /\ Z.of_nat (length (keys_of fb)) = possible_keys fb en.
Proof.
  intros Hen He. split; [apply f2_keys_nodup|]. destruct f2_keys as (en' & Hen' & E & _ & Hl & _).
  rewrite Hen' in Hen. inversion Hen; subst en'. rewrite E, He. exact Hl.
Qed.

(** the rows of the implied factors of a valid sequence are what [fill_implied] computes *)
Lemma implied_rows_of_valid s r g : valid_b S0 s = true ->
  (forall x, In x (fl_act fb) -> nth x (tseq_of_run fb r) [] = nth x s []) ->
  g < nfac -> ~ In g (fl_act fb) -> implied_row fb (tseq_of_run fb r) g = nth g s [].
Proof.
  intros Hv Hrows Hg Hna. destruct (f0_sem_factor_some fb HF g Hg) as [fd Hfd].
  destruct (f0_sem_implied fb HF g fd Hna Hfd) as (d & w & Hd & Hw & Hnl & Hsu & Hder & Hdeps & Hex).
  set (dw := within_win w d) in *.
  (* exactly one level is accepted in every trial of [s] *)
  assert (Hexact : forall t, t < s_trials S0 -> exists l0, l0 < f_nlevels fd /\ Sem.accepts dw l0 (window_args s fd dw t) = true /\
             forall l, l < f_nlevels fd -> Sem.accepts dw l (window_args s fd dw t) = true -> l = l0).
  { intros t Ht. rewrite (f0_sem_trials fb HF) in Ht. apply (f0_table_exact fb HF g fd d w s t Hd Hnl Hsu Hex).
    intros x Hx. destruct (lvl_cell fb HF s Hv x t (Hdeps x Hx) Ht) as [Hc Hl]. eexists. split; [exact Hc | exact Hl]. }
  assert (Hpick_eq : forall t, pick fd dw (tseq_of_run fb r) t = pick fd dw s t).
  { intros t. apply (pick_ext fd dw eq_refl Hsu). intros x Hx. unfold get_cell. rewrite (Hrows x (Hdeps x Hx)). reflexivity. }
  destruct (v_parts fb HF s Hv) as (_ & Hfac & _).
  unfold implied_row. fold S0. rewrite Hfd, Hder.
  rewrite (derive_row_spec S0 g fd dw Hder eq_refl eq_refl eq_refl Hsu (tseq_of_run fb r))
    by (intros t Ht; rewrite Hpick_eq; destruct (Hexact t Ht) as (l0 & Hl0 & Ha & _); exact (pick_accepted fd dw s t l0 Hl0 Ha)).
  rewrite (factor_ok_unique S0 g fd dw Hder eq_refl eq_refl eq_refl Hsu s).
  - apply map_ext. intros t. apply Hpick_eq.
  - intros t l1 l2 Ht Hl1 Hl2 A1 A2. destruct (Hexact t Ht) as (l0 & _ & _ & Hun). rewrite (Hun l1 Hl1 A1), (Hun l2 Hl2 A2). reflexivity.
  - apply Hfac. exact Hfd.
Qed.

Theorem f2_accept_complete s :
  fl_errors_fail fb = false -> valid_b S0 s = true ->
  exists k cand, In k (keys_of fb) /\ decode_key fb k = Some cand /\ accepts fb cand = true /\
                 cand_seq fb cand = s.
Proof.
  intros He Hv. pose proof (the_key_ok fb HF s Hv) as Hk.
  destruct (f2_decode_key _ Hk) as [r [Hd Hrow]].
  assert (Hact_rows : forall x, In x (fl_act fb) -> nth x (tseq_of_run fb r) [] = nth x s []).
  { intros x Hx. rewrite tseq_nth by (apply (act_lt fb HF); exact Hx). rewrite Hrow. apply (the_key_rows fb HF s Hv x Hx). }
  assert (Hs : cand_seq fb r = s).
  { apply (nth_ext _ _ [] []).
    - unfold cand_seq, fill_implied. rewrite map_length, seq_length. symmetry. apply (v_length fb HF s Hv).
    - intros g Hg. unfold cand_seq, fill_implied in Hg. rewrite map_length, seq_length in Hg.
      destruct (in_dec Nat.eq_dec g (fl_act fb)) as [Ha | Hna].
      + rewrite (cand_act_row _ r g Hk Hrow Ha). apply (the_key_rows fb HF s Hv g Ha).
      + unfold cand_seq. rewrite (fill_nth fb HF _ Hk r Hrow g Hg).
        destruct (isact fb g) eqn:Ea; [apply (isact_In fb HF) in Ea; contradiction|].
        apply (implied_rows_of_valid s r g Hv Hact_rows Hg Hna). }
  exists (the_key fb s), r. split; [apply (f2_keys_of_full _ He Hk)|].
  split; [exact Hd|]. split; [|exact Hs].
  rewrite (f2_accepts_valid _ r Hk Hrow), Hs. exact Hv.
Qed.

Theorem f2_key_accepted_spec k : In k (keys_of fb) -> key_accepted fb k = valid_b S0 (cand_fseq fb k).
Proof.
  intros Hin. pose proof (f2_keys_of_ok k Hin) as Hk. destruct (f2_decode_key k Hk) as [r [Hd Hrow]].
  unfold key_accepted, cand_fseq. rewrite Hd. apply (f2_accepts_valid k r Hk Hrow).
Qed.

Theorem f2_accepted_exact :
  fl_errors_fail fb = false ->
  NoDup (map (cand_fseq fb) (accepted_keys fb)) /\
  (forall s, In s (map (cand_fseq fb) (accepted_keys fb)) <-> valid_b S0 s = true).
Proof.
  intros He. split.
  - apply NoDup_map_inj_in; [|apply NoDup_filter, f2_keys_nodup].
    intros k1 k2 H1 H2. apply filter_In in H1. apply filter_In in H2. apply f2_cand_fseq_inj; [apply H1 | apply H2].
  - intros s. split.
    + intros Hin. apply in_map_iff in Hin. destruct Hin as [k [E Hk]]. apply filter_In in Hk. destruct Hk as [Hk Ha].
      rewrite (f2_key_accepted_spec k Hk) in Ha. rewrite E in Ha. exact Ha.
    + intros Hv. destruct (f2_accept_complete s He Hv) as (k & cand & Hk & Hd & Ha & E).
      apply in_map_iff. exists k. split; [unfold cand_fseq; rewrite Hd; exact E|].
      apply filter_In. split; [exact Hk|]. unfold key_accepted. rewrite Hd. exact Ha.
Qed.

Theorem f2_rejection_free_accepts k : rejection_free fb = true -> In k (keys_of fb) -> key_accepted fb k = true.
Proof.
  intros Hrf Hin. rewrite (f2_key_accepted_spec k Hin).
  pose proof (f2_keys_of_ok k Hin) as Hk. destruct (f2_decode_key k Hk) as [r [Hd Hrow]].
  unfold cand_fseq. rewrite Hd. unfold cand_seq. rewrite (f0_valid_base fb HF k Hk r Hrow).
  unfold rejection_free in Hrf. apply andb_prop in Hrf. destruct Hrf as [Hrf Hnd].
  apply andb_prop in Hrf. destruct Hrf as [Hrf Hone]. apply Nat.leb_le in Hone.
  assert (Hone' : length (fl_crossings fb) = 1) by (pose proof (f0_main_lt fb (f0_unpack fb HF)); lia).
  rewrite (single_crossing_base _ Hone'). cbn [andb].
  rewrite (f0_sem_constraints fb HF). apply forallb_forall. intros dc Hdc.
  apply in_flat_map in Hdc. destruct Hdc as [x [Hx Hdc]].
  rewrite forallb_forall in Hrf. pose proof (Hrf x Hx) as Hk'.
  destruct x; try discriminate; try (destruct Hdc; fail).
  destruct Hdc as [E | []]. subst dc.
  pose proof (f0_constraints fb (f0_unpack fb HF) _ Hx) as Hc. cbn [constraint_f2] in Hc.
  apply andb_prop in Hc. destruct Hc as [Hf _]. apply (isact_In fb HF) in Hf.
  unfold constraint_ok, CodeSem.mk_c. cbn [k_kind k_factor k_level].
  rewrite tseq_nth by (apply (act_lt fb HF); exact Hf). rewrite Hrow. apply Nat.eqb_eq.
  apply orb_true_iff in Hnd. destruct Hnd as [Hnd | Hnx].
  - apply negb_true_iff in Hnd.
    assert (HK : In f (the_crossing fb ++ f0_ubs fb ++ f0_ubi fb)).
    { apply (K_In fb HF). split; [exact Hf|]. right. rewrite (no_derived_act fb f Hnd Hf). reflexivity. }
    rewrite (cand_row_K fb HF k f (K_not_ucd fb HF f HK)).
    apply (decoded_row_not_excluded fb HF k f l Hk HK); [|exact Hx].
    destruct (f0_no_derived_sf fb HF Hnd) as (_ & _ & Hubs & _). rewrite Hubs. intros [].
  - rewrite forallb_forall in Hnx. specialize (Hnx _ Hx). discriminate.
Qed.

Theorem f2_count_exact en :
  make_enumerator fb = ROk en ->
  fl_errors_fail fb = false -> rejection_free fb = true ->
  NoDup (map (cand_fseq fb) (keys_of fb)) /\
  (forall s, In s (map (cand_fseq fb) (keys_of fb)) <-> valid_b S0 s = true) /\
  Z.of_nat (length (map (cand_fseq fb) (keys_of fb))) = possible_keys fb en.
Proof.
  intros Hen He Hrf.
  assert (Hall : accepted_keys fb = keys_of fb).
  { unfold accepted_keys. apply filter_all. intros k Hk. apply f2_rejection_free_accepts; assumption. }
  destruct (f2_accepted_exact He) as [Hnd Hiff]. rewrite Hall in Hnd, Hiff.
  split; [exact Hnd|]. split; [exact Hiff|].
  rewrite map_length. apply (f2_keys_count en Hen He).
Qed.

End F2T.

(** the executable form of [enumerates] *)
Lemma enumerates_b_spec fb : enumerates_b fb = true -> enumerates fb.
Proof.
  unfold enumerates_b, enumerates. destruct (make_enumerator fb) as [en|] eqn:E1; [|discriminate].
  destruct (all_keys fb en) as [ks|] eqn:E2; [|discriminate]. intros _. exists en, ks. split; [reflexivity | exact E2].
Qed.
