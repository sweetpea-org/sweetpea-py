(** Completeness for fragment F2 (the key of a valid sequence; its acceptance is in Frag1Cons.v): every valid trial sequence of the reference
    semantics is the candidate of an in-range key (constructed with the rank
    functions of the C13 bijections).  Proof file. *)
From Coq Require Import ZArith List Bool Arith Lia.
From SP Require Import Design.Flat Design.Layout Design.Sem Design.SemFacts Comb.CombModel Comb.CombSpec Random.Enum Random.Frag
  Random.FragSem Random.RunLemmas Random.FragPerm Random.Frag0Enum Random.Frag0Decode Random.Frag0Sem Random.Frag0Valid Random.Implied.
From SP Require Comb.PermProofs Comb.RadixProofs Comb.PrefixProofs.
Import ListNotations.
Open Scope nat_scope.
Set Default Proof Using "All".

Fixpoint gindex {A} (dec : forall x y : A, {x = y} + {x <> y}) (x : A) (l : list A) : nat :=
  match l with
  | [] => 0
  | y :: t => if dec x y then 0 else S (gindex dec x t)
  end.

Lemma gindex_spec {A} dec (x : A) l d : In x l -> gindex dec x l < length l /\ nth (gindex dec x l) l d = x.
Proof.
  induction l as [|y t IH]; intros H; [destruct H|]. cbn [gindex].
  destruct (dec x y) as [E | E].
  - subst. cbn. split; [lia | reflexivity].
  - destruct H as [H | H]; [subst; contradiction|].
    destruct (IH H) as [H1 H2]. cbn. split; [lia | exact H2].
Qed.

Lemma gindex_nth {A} dec (l : list A) d i : NoDup l -> i < length l -> gindex dec (nth i l d) l = i.
Proof.
  intros Hnd Hi. destruct (gindex_spec dec (nth i l d) l d (nth_In l d Hi)) as [H1 H2].
  apply (proj1 (NoDup_nth l d) Hnd); assumption.
Qed.

Local Notation index_of := (gindex (list_eq_dec Nat.eq_dec)).
Local Notation nindex := (gindex Nat.eq_dec).

Lemma nodup_of_counts blk : (forall x, In x blk -> count_in x blk <= 1) -> NoDup blk.
Proof.
  induction blk as [|y t IH]; intros H; [constructor|]. constructor.
  - intros Hin. specialize (H y (or_introl eq_refl)). rewrite count_in_cons in H.
    rewrite (proj2 (nlist_eqb_eq y y) eq_refl) in H. pose proof (count_in_pos y t Hin). lia.
  - apply IH. intros x Hx. specialize (H x (or_intror Hx)). rewrite count_in_cons in H. lia.
Qed.

Lemma seq_blocks {B} (F : nat -> B) (w : nat) : forall R a,
  map F (seq a (R * w)) = flat_map (fun r => map (fun t' => F (a + r * w + t')) (seq 0 w)) (seq 0 R).
Proof.
  induction R as [|R IH]; intros a; [reflexivity|].
  replace (S R * w) with (w + R * w) by lia. rewrite seq_app, map_app. cbn [seq flat_map].
  f_equal.
  - rewrite (map_seq_shift0 F a w). apply map_ext. intros t'. f_equal. lia.
  - rewrite IH. rewrite <- (seq_shift R 0), flat_map_map. apply flat_map_ext. intros r. apply map_ext. intros t'. f_equal. lia.
Qed.

Lemma alookup_combine_map (L : nat -> nat) (fs : list nat) f :
  alookup (combine fs (map L fs)) f = if memb f fs then Some (L f) else None.
Proof.
  induction fs as [|g t IH]; [reflexivity|]. cbn [map combine memb existsb]. rewrite alookup_cons, IH.
  rewrite (Nat.eqb_sym f g). destruct (g =? f) eqn:E; [apply Nat.eqb_eq in E; subst; reflexivity|]. reflexivity.
Qed.

Definition asg_dec (x y : asg) : {x = y} + {x <> y}.
Proof. repeat decide equality. Defined.

Section F0C.
Variable fb : flat.
Hypothesis HF : frag2 fb = true.

Local Notation c := (the_crossing fb).
Local Notation n := (length (fl_design fb)).
Local Notation q := (f0_q fb).
Local Notation C := (f0_C fb).
Local Notation cws := (f0_cws fb).
Local Notation T := (fl_trials fb).
Local Notation lo := (f0_leftover fb).
Local Notation R := (f0_rounds fb).
Local Notation prod := (f0_cprod fb).
Local Notation ubi := (f0_ubi fb).
Local Notation S0 := (code_sem fb).
Local Notation K := (the_crossing fb ++ f0_ubs fb ++ f0_ubi fb).

Lemma T_split : T = R * C + lo.
Proof. unfold f0_rounds, f0_leftover. pose proof (Nat.div_mod_eq T C). lia. Qed.

Variable s : tseq.
Hypothesis Hv : valid_b S0 s = true.

Lemma v_parts : length s = n /\
  (forall f fd, nth_error (s_factors S0) f = Some fd -> factor_ok S0 s f fd = true) /\
  crossing_ok S0 s (f0_crossing fb) = true /\
  forallb (constraint_ok S0 s) (s_constraints S0) = true.
Proof.
  destruct (proj1 (valid_b_conj S0 s) Hv) as (Hl & Hf & Hc & Hk).
  rewrite (f0_sem_factors_length fb HF) in Hl. rewrite (f0_crossings_split fb HF) in Hc. apply andb_prop in Hc.
  split; [exact Hl|]. split; [|split; [exact (proj1 Hc)|exact Hk]].
  apply (forallb_index_list (fun f fd => factor_ok S0 s f fd)), Hf.
Qed.

Lemma v_length : length s = n.
Proof. apply v_parts. Qed.

(** every factor of [act_design] applies in every trial *)
Lemma f0_applies f fd t : In f (fl_act fb) -> nth_error (s_factors S0) f = Some fd -> applies fd t = true.
Proof.
  intros Hact E. destruct (f0_sem_factor fb HF f fd Hact E) as (_ & _ & Hsu & Hder).
  destruct (is_derived fb f) eqn:Ed.
  - destruct (in_dec Nat.eq_dec f c) as [Hfc0 | Hnc].
    + destruct (f0_sem_crossed_derived fb HF f fd Hfc0 Ed E) as (Hfc & d & w & _ & _ & Hd & _).
      rewrite (f0_sustain_main fb HF f Hfc) in Hsu.
      apply (applies_within fd _ Hd eq_refl eq_refl Hsu t).
    + destruct (f0_sem_ucd fb HF f fd Hact Hnc Ed E) as (d & w & _ & _ & _ & Hsu1 & Hd & _).
      apply (applies_within fd _ Hd eq_refl eq_refl Hsu1 t).
  - unfold applies. rewrite (Hder eq_refl). reflexivity.
Qed.

Lemma v_factor f : In f (fl_act fb) -> length (nth f s []) = T /\
  forall t, t < T -> exists l, get_cell s f t = Some l /\ l < nlevels fb f.
Proof.
  intros Hact. pose proof (act_lt fb HF f Hact) as Hf. destruct v_parts as (_ & Hfac & _ & _).
  assert (Hlt : f < length (s_factors S0)) by (rewrite (f0_sem_factors_length fb HF); exact Hf).
  destruct (nth_error (s_factors S0) f) as [fd|] eqn:E; [|apply nth_error_None in E; lia].
  specialize (Hfac f fd E). destruct (f0_sem_factor fb HF f fd Hact E) as (_ & Hnl & Hsu & Hder).
  unfold factor_ok in Hfac. apply andb_prop in Hfac. destruct Hfac as [Hl Hcells].
  apply Nat.eqb_eq in Hl. split; [exact Hl|]. intros t Ht. rewrite forallb_forall in Hcells.
  specialize (Hcells t ltac:(apply in_seq; rewrite (f0_sem_trials fb HF); lia)).
  destruct (get_cell s f t) as [l|] eqn:Ec.
  - exists l. split; [reflexivity|]. apply andb_prop in Hcells. destruct Hcells as [Hcells _].
    apply andb_prop in Hcells. destruct Hcells as [Hcells _]. apply andb_prop in Hcells. destruct Hcells as [_ Hlt'].
    apply Nat.ltb_lt in Hlt'. rewrite Hnl in Hlt'. exact Hlt'.
  - rewrite (f0_applies f fd t Hact E) in Hcells. discriminate.
Qed.

Definition lvl (f t : nat) : nat := match get_cell s f t with Some l => l | None => 0 end.

Lemma lvl_cell f t : In f (fl_act fb) -> t < T -> get_cell s f t = Some (lvl f t) /\ lvl f t < nlevels fb f.
Proof.
  intros Hf Ht. destruct (v_factor f Hf) as [_ H]. destruct (H t Ht) as [l [E Hl]]. unfold lvl. rewrite E. auto.
Qed.

Definition cs : list (list nat) := map (fun t => map (fun f => lvl f t) c) (seq 0 T).

Lemma cs_length : length cs = T.
Proof. unfold cs. rewrite map_length, seq_length. reflexivity. Qed.

Lemma cs_nth t : t < T -> nth t cs [] = map (fun f => lvl f t) c.
Proof.
  intros Ht. unfold cs. rewrite nth_map_seq by exact Ht. reflexivity.
Qed.

Lemma cs_combo t : t < s_trials S0 -> combo_at s (c_factors (f0_crossing fb)) t = map Some (nth t cs []).
Proof.
  rewrite (f0_sem_trials fb HF). intros Ht. rewrite cs_nth by exact Ht. unfold combo_at. cbn [f0_crossing c_factors].
  rewrite map_map. apply map_ext_in. intros f Hf. apply lvl_cell; [apply (f0_cact_main fb HF); exact Hf | exact Ht].
Qed.

Lemma v_exclude f l : In (FExclude f l) (fl_constraints fb) -> count_level l (nth f s []) = 0.
Proof.
  intros Hin. destruct v_parts as (_ & _ & _ & Hk). rewrite forallb_forall in Hk.
  specialize (Hk (CodeSem.mk_c Sem.KExclude f l [])). apply Nat.eqb_eq. apply Hk.
  rewrite (f0_sem_constraints fb HF). apply in_flat_map. exists (FExclude f l). split; [exact Hin | left; reflexivity].
Qed.

Lemma lvl_in_L g t : In g (fl_act fb) -> t < T -> In (lvl g t) (f0_L fb g).
Proof.
  intros Hg Ht. apply (f0_L_spec fb HF). destruct (lvl_cell g t Hg Ht) as [Hc Hl]. split; [exact Hl|].
  intros Hin. apply (count_level_zero _ _ t (v_exclude g _ Hin)). exact Hc.
Qed.

(** a derived factor of the crossing: its level is accepted for the levels of the factors it reads *)
Lemma v_derived f t : In f c -> is_derived fb f = true -> t < T ->
  exists w, window_of fb f = Some w /\ (forall d, In d (win_deps w) -> In d (fl_act fb) /\ is_derived fb d = false) /\
            predicate fb f (lvl f t) (map (fun a => [Some a]) (map (fun d => lvl d t) (win_deps w))) = true.
Proof.
  intros Hfc0 Hd Ht. pose proof (f0_cact_main fb HF f Hfc0) as Hact.
  pose proof (act_lt fb HF f Hact) as Hf. destruct v_parts as (_ & Hfac & _ & _).
  assert (Hlt : f < length (s_factors S0)) by (rewrite (f0_sem_factors_length fb HF); exact Hf).
  destruct (nth_error (s_factors S0) f) as [fd|] eqn:E; [|apply nth_error_None in E; lia].
  specialize (Hfac f fd E). destruct (f0_sem_factor fb HF f fd Hact E) as (_ & Hnl & Hsu & _).
  destruct (f0_sem_crossed_derived fb HF f fd Hfc0 Hd E) as (Hfc & d & w & Hfa & Hw & Hder & Hdeps).
  rewrite (f0_sustain_main fb HF f Hfc) in Hsu.
  exists w. split; [unfold window_of; rewrite Hfa; exact Hw|]. split; [exact Hdeps|].
  rewrite (factor_ok_within S0 f fd _ Hder eq_refl eq_refl eq_refl Hsu s) in Hfac.
  apply andb_prop in Hfac. destruct Hfac as [_ Hcells]. rewrite forallb_forall in Hcells.
  specialize (Hcells t ltac:(apply in_seq; rewrite (f0_sem_trials fb HF); lia)).
  destruct (lvl_cell f t Hact Ht) as [Ec _]. rewrite Ec in Hcells.
  apply andb_prop in Hcells. destruct Hcells as [_ Hacc]. cbn [w_deps within_win] in Hacc.
  rewrite (sem_accepts_predicate fb HF f d w _ _ Hfa) in Hacc. rewrite <- Hacc. f_equal.
  rewrite map_map. apply map_ext_in. intros x Hx. destruct (lvl_cell x t (proj1 (Hdeps x Hx)) Ht) as [Ex _]. rewrite Ex. reflexivity.
Qed.

Lemma cs_in_prod t : t < T -> In (nth t cs []) prod.
Proof.
  intros Ht. rewrite cs_nth by exact Ht. apply (f0_cprod_spec2 fb HF). split.
  - apply product_In. apply Forall2_map_l, Forall2_map_r, Forall2_diag.
    intros f Hf. unfold all_levels. apply in_seq.
    destruct (lvl_cell f t (f0_cact_main fb HF f Hf) Ht) as [_ H]. lia.
  - unfold is_excluded_or_inconsistent_combination.
    assert (Hex : is_excluded_combination fb (combine c (map (fun f => lvl f t) c)) = false).
    { apply not_true_is_false. intros E. apply (f0_excluded_spec fb HF) in E. destruct E as (f & l & Hk & Hl).
      rewrite alookup_combine_map in Hl. destruct (memb f (the_crossing fb)) eqn:Em; [|discriminate].
      inversion Hl as [Hl']. apply memb_In in Em.
      assert (Hf : In f (fl_act fb)) by (apply (f0_cact_main fb HF); exact Em).
      destruct (lvl_cell f t Hf Ht) as [Hc _].
      apply (count_level_zero _ _ t (v_exclude f l Hk)). rewrite <- Hl'. exact Hc. }
    rewrite Hex. apply not_true_is_false. intros E. apply existsb_exists in E. destruct E as [[f l] [Hin E]]. cbn [fst snd] in E.
    apply in_combine_map in Hin. destruct Hin as [Hfc ->].
    assert (Hact : In f (fl_act fb)) by (apply (f0_cact_main fb HF); exact Hfc).
    destruct (is_derived fb f) eqn:Ed; [|discriminate]. cbn [andb] in E.
    destruct (v_derived f t Hfc Ed Ht) as (w & Hw & Hdeps & Hp). rewrite Hw in E.
    destruct (negb (is_complex fb f)); [|discriminate].
    apply negb_true_iff in E. apply not_true_iff_false in E. apply E. apply existsb_exists.
    exists (map (fun d => lvl d t) (win_deps w)). split; [|exact Hp].
    apply product_In. apply Forall2_map_l, Forall2_map_r, Forall2_diag. intros x Hx. rewrite alookup_combine_map.
    destruct (memb x (the_crossing fb)); [left; reflexivity|]. unfold all_levels. apply in_seq.
    destruct (lvl_cell x t (proj1 (Hdeps x Hx)) Ht) as [_ H]. split; [apply Nat.le_0_l | exact H].
Qed.

Local Notation ubs := (f0_ubs fb).
Local Notation srcs := (f0_srcs fb).
Local Notation inst := (f0_instances fb).

Definition src_of (t : nat) : asg := combine ubs (map (fun f => lvl f t) ubs).
Definition src_num_of (t : nat) : nat := gindex asg_dec (src_of t) srcs.

Lemma src_of_in t : t < T -> In (src_of t) srcs.
Proof.
  intros Ht. unfold f0_srcs, instances_of, src_of. apply in_map_iff. exists (map (fun f => lvl f t) ubs). split; [reflexivity|].
  apply product_In. apply Forall2_map_l, Forall2_map_r, Forall2_diag. intros f Hf. unfold all_levels. apply in_seq.
  destruct (lvl_cell f t (proj1 (proj1 (ubs_In fb HF f) Hf)) Ht) as [_ H]. lia.
Qed.

Lemma src_num_of_spec t : t < T -> src_num_of t < length srcs /\ nth (src_num_of t) srcs [] = src_of t.
Proof. intros Ht. apply gindex_spec. apply src_of_in. exact Ht. Qed.

Lemma merged_lookup t x : In x c \/ In x ubs ->
  alookup (combine c (map (fun f => lvl f t) c) ++ src_of t) x = Some (lvl x t).
Proof.
  intros H. rewrite alookup_app, alookup_combine_map. destruct (memb x (the_crossing fb)) eqn:Em; [reflexivity|].
  destruct H as [H | H]; [apply memb_In in H; congruence|]. unfold src_of. rewrite alookup_combine_map.
  apply memb_In in H. rewrite H. reflexivity.
Qed.

(** the source combination of a trial of a valid sequence is admitted for the instance of the trial *)
Lemma v_src_ok t : t < T -> src_ok fb (combine c (nth t cs [])) (src_of t) = true.
Proof.
  intros Ht.
  assert (Hci : In (combine c (nth t cs [])) inst).
  { unfold f0_instances. apply in_map_iff. exists (nth t cs []). split; [reflexivity | apply cs_in_prod; exact Ht]. }
  pose proof (f0_merged_ok fb HF _ _ Hci (src_of_in t Ht)) as Hm.
  destruct (source_allowed_spec fb HF _ _ Hm) as [_ Hspec]. apply Hspec. rewrite cs_nth by exact Ht.
  intros df l w0 Hdf Hl Hw0. unfold f0_cd in Hdf. apply filter_In in Hdf. destruct Hdf as [Hdfc Hdd].
  assert (Hact : In df (fl_act fb)) by (apply (f0_cact_main fb HF); exact Hdfc).
  rewrite (merged_lookup t df (or_introl Hdfc)) in Hl. inversion Hl; subst l.
  destruct (v_derived df t Hdfc Hdd Ht) as (w & Hw & Hdeps & Hp). rewrite Hw in Hw0. inversion Hw0; subst w0.
  rewrite <- Hp. f_equal. rewrite map_map. apply map_ext_in. intros x Hx. f_equal. apply merged_lookup.
  destruct (Hdeps x Hx) as [Hxa Hxd]. destruct (in_dec Nat.eq_dec x c) as [Hc | Hnc]; [left; exact Hc | right].
  apply (ubs_In fb HF). split; [exact Hxa|]. split; [exact Hnc|]. split; [|exact Hxd].
  apply (f0_sf_In fb HF df w x); [unfold f0_cd; apply filter_In; split; assumption | exact Hw | exact Hx].
Qed.

Definition slice (a tc : nat) : list (list nat) := firstn tc (skipn a cs).

Lemma slice_length a tc : a + tc <= T -> length (slice a tc) = tc.
Proof. intros H. unfold slice. rewrite firstn_length, skipn_length, cs_length. lia. Qed.

Lemma slice_nth a tc t' : t' < tc -> nth t' (slice a tc) [] = nth (a + t') cs [].
Proof. intros H. unfold slice. rewrite nth_firstn_lt by exact H. apply nth_skipn_add. Qed.

Lemma slice_in_prod a tc x : a + tc <= T -> In x (slice a tc) -> In x prod.
Proof.
  intros Hb Hx. apply In_nth with (d := []) in Hx. destruct Hx as [t' [Ht' E]]. rewrite slice_length in Ht' by exact Hb.
  rewrite slice_nth in E by exact Ht'. subst x. apply cs_in_prod. lia.
Qed.

Definition slice_perm (a tc : nat) : list Z := map (fun combo => Z.of_nat (index_of combo prod)) (slice a tc).
Definition zlevels (g a tc : nat) : list Z := map (fun t' => Z.of_nat (nindex (lvl g (a + t')) (f0_L fb g))) (seq 0 tc).

(** the multiplicity of a combination in a round *)
Definition mult_of (j : nat) : nat := f0_cw fb (nth j prod []) * the_weight fb.

(** the index of the source combination of trial [a + t'] among those its instance admits *)
Definition src_idx (a tc t' : nat) : Z :=
  Z.of_nat (nindex (src_num_of (a + t')) (f0_valid fb (nth (Z.to_nat (nth t' (slice_perm a tc) 0%Z)) inst []))).
(** the trial of a round in which instance [p] stands *)
Definition trial_of (a tc p : nat) : nat := gindex Z.eq_dec (Z.of_nat p) (slice_perm a tc).
Definition src_comp (a tc : nat) : list Z :=
  if full fb tc then map (fun p => src_idx a tc (trial_of a tc p)) (seq 0 q) else map (src_idx a tc) (seq 0 tc).

Definition round_comp (a tc : nat) : comp :=
  (p_R cws (slice_perm a tc),
   src_comp a tc,
   map (fun g => comb_rank (Z.of_nat (length (f0_L fb g))) (zlevels g a tc)) ubi).

Lemma count_sym_index (blk : list (list nat)) j : j < q -> (forall x, In x blk -> In x prod) ->
  count_sym (map (fun combo => Z.of_nat (index_of combo prod)) blk) (Z.of_nat j) = Z.of_nat (count_in (nth j prod []) blk).
Proof.
  intros Hj. induction blk as [|x t IH]; intros Hin; [reflexivity|].
  cbn [map]. rewrite MultiProofs.count_sym_cons, count_in_cons. rewrite IH by (intros y Hy; apply Hin; right; exact Hy).
  destruct (gindex_spec (list_eq_dec Nat.eq_dec) x prod [] (Hin x (or_introl eq_refl))) as [H1 H2]. fold q in H1.
  destruct (nlist_eqb (nth j prod []) x) eqn:E.
  - apply nlist_eqb_eq in E.
    assert (index_of x prod = j).
    { apply (proj1 (NoDup_nth prod []) (prod_nodup fb HF)); [exact H1 | exact Hj | rewrite H2; symmetry; exact E]. }
    replace (Z.of_nat (index_of x prod) =? Z.of_nat j)%Z with true by (symmetry; apply Z.eqb_eq; lia). lia.
  - replace (Z.of_nat (index_of x prod) =? Z.of_nat j)%Z with false; [lia|].
    symmetry. apply Z.eqb_neq. intros Ex. apply Nat2Z.inj in Ex. rewrite Ex in H2. rewrite H2 in E.
    rewrite (proj2 (nlist_eqb_eq x x) eq_refl) in E. discriminate.
Qed.

Lemma slice_perm_spec a tc : a + tc <= T ->
  (forall j, j < q -> count_in (nth j prod []) (slice a tc) <= mult_of j) ->
  bounded_word cws (Z.of_nat tc) (slice_perm a tc) /\
  forall t', t' < tc -> nth (Z.to_nat (nth t' (slice_perm a tc) 0%Z)) prod [] = nth (a + t') cs [].
Proof.
  intros Hb Hcnt. unfold slice_perm. split; [split; [|split]|].
  - rewrite map_length, slice_length by exact Hb. reflexivity.
  - unfold symbols_below. rewrite (f0_cws_length fb HF).
    apply Forall_forall. intros z Hz. apply in_map_iff in Hz. destruct Hz as [x [E Hx]]. subst z.
    destruct (gindex_spec (list_eq_dec Nat.eq_dec) x prod [] (slice_in_prod a tc x Hb Hx)) as [H1 _]. fold q in H1. lia.
  - intros j Hj. rewrite (f0_cws_length fb HF) in Hj.
    rewrite (count_sym_index _ j Hj (fun x Hx => slice_in_prod a tc x Hb Hx)).
    rewrite (f0_cws_nth fb HF j Hj). specialize (Hcnt j Hj). unfold mult_of in Hcnt. lia.
  - intros t' Ht'. rewrite (nth_map_lt _ _ _ _ []) by (rewrite slice_length by exact Hb; exact Ht'). rewrite Nat2Z.id.
    assert (Hin : In (nth t' (slice a tc) []) prod).
    { apply (slice_in_prod a tc _ Hb). apply nth_In. rewrite slice_length by exact Hb. exact Ht'. }
    destruct (gindex_spec (list_eq_dec Nat.eq_dec) _ prod [] Hin) as [_ E]. rewrite E. apply slice_nth. exact Ht'.
Qed.

Section Round.
Variables a tc : nat.
Hypothesis Hb : a + tc <= T.
Hypothesis Hle : tc <= C.
Hypothesis Hcnt : forall j, j < q -> count_in (nth j prod []) (slice a tc) <= mult_of j.
Local Notation perm := (slice_perm a tc).

Lemma perm_parts : bounded_word cws (Z.of_nat tc) perm /\ length perm = tc /\
  (forall t', t' < tc -> Z.to_nat (nth t' perm 0%Z) < q /\ (0 <= nth t' perm 0)%Z /\
                         nth (Z.to_nat (nth t' perm 0%Z)) inst [] = combine c (nth (a + t') cs [])).
Proof.
  destruct (slice_perm_spec a tc Hb Hcnt) as (Hbw & Hpn). split; [exact Hbw|].
  destruct (bw_parts cws tc perm Hbw) as (Hl & Hs & _). rewrite (f0_cws_length fb HF) in Hs. split; [exact Hl|].
  intros t' Ht'. pose proof (Forall_nth' _ _ t' 0%Z Hs ltac:(lia)) as H. cbv beta in H.
  split; [lia|]. split; [lia|]. rewrite (nth_inst fb HF) by lia. rewrite Hpn by exact Ht'. reflexivity.
Qed.

Lemma perm_of_round : ((0 <= p_R cws perm < f0_N fb tc)%Z /\ p_U cws tc (p_R cws perm) <> None) /\
  perm_of fb tc (p_R cws perm) = perm.
Proof.
  destruct perm_parts as (Hbw & _).
  destruct (p_R_spec cws (f0_cws_nonneg fb HF) tc perm ltac:(rewrite (f0_p_C fb HF); exact Hle) Hbw) as [Hrange Hcomp].
  unfold perm_of. rewrite Hcomp. split; [split; [exact Hrange | discriminate] | reflexivity].
Qed.

(** the source combination of a trial is among those of its instance *)
Lemma src_num_valid t' : t' < tc ->
  In (src_num_of (a + t')) (f0_valid fb (nth (Z.to_nat (nth t' perm 0%Z)) inst [])).
Proof.
  intros Ht'. destruct perm_parts as (_ & _ & Hp). destruct (Hp t' Ht') as (_ & _ & Ei). rewrite Ei.
  destruct (src_num_of_spec (a + t') ltac:(lia)) as [H1 H2].
  apply (valid_In fb HF). split; [exact H1|]. rewrite H2. apply v_src_ok. lia.
Qed.

Lemma src_idx_spec t' : t' < tc ->
  (0 <= src_idx a tc t' < Z.of_nat (length (f0_valid fb (nth (Z.to_nat (nth t' perm 0%Z)) inst []))))%Z /\
  nth (Z.to_nat (src_idx a tc t')) (f0_valid fb (nth (Z.to_nat (nth t' perm 0%Z)) inst [])) 0 = src_num_of (a + t').
Proof.
  intros Ht'. unfold src_idx. destruct (gindex_spec Nat.eq_dec _ _ 0 (src_num_valid t' Ht')) as [H1 H2]. rewrite Nat2Z.id. split; [lia | exact H2].
Qed.

(** a round over all instances of an unweighted crossing lists every instance once *)
Lemma full_perm : full fb tc = true ->
  (forall p, p < q -> trial_of a tc p < tc /\ nth (trial_of a tc p) perm 0%Z = Z.of_nat p) /\
  (forall t', t' < tc -> trial_of a tc (Z.to_nat (nth t' perm 0%Z)) = t').
Proof.
  intros Hf. unfold full in Hf. apply andb_prop in Hf. destruct Hf as [Etc Hu]. apply Nat.eqb_eq in Etc.
  destruct perm_parts as (Hbw & Hl & Hp). split.
  - intros p Hpq.
    assert (Hbw' : bounded_word cws (Z.of_nat (p_C cws)) perm).
    { rewrite (f0_p_C fb HF), (f0_unw_C fb HF Hu), <- Etc. exact Hbw. }
    pose proof (bw_full cws (f0_cws_nonneg fb HF) _ Hbw' p ltac:(rewrite (f0_cws_length fb HF); exact Hpq)) as Hc.
    rewrite (unw_nth cws p Hu ltac:(rewrite (f0_cws_length fb HF); exact Hpq)) in Hc.
    assert (Hin : In (Z.of_nat p) perm) by (apply count_sym_In; lia).
    destruct (gindex_spec Z.eq_dec (Z.of_nat p) perm 0%Z Hin) as [H1 H2]. unfold trial_of. split; [lia | exact H2].
  - intros t' Ht'. destruct (Hp t' Ht') as (_ & Hnn & _). unfold trial_of. rewrite Z2Nat.id by exact Hnn.
    apply gindex_nth; [|lia]. apply (bw_ones cws tc perm Hu) in Hbw. apply Hbw.
Qed.

Lemma src_comp_pos t' : t' < tc -> nth (src_pos fb tc perm t') (src_comp a tc) 0%Z = src_idx a tc t'.
Proof.
  intros Ht'. unfold src_pos, src_comp. destruct perm_parts as (_ & _ & Hp). destruct (Hp t' Ht') as (Hpq & _ & _).
  destruct (full fb tc) eqn:Ef.
  - rewrite nth_map_seq by exact Hpq. destruct (full_perm Ef) as [_ H]. rewrite (H t' Ht'). reflexivity.
  - apply nth_map_seq. exact Ht'.
Qed.

Lemma src_comp_ok : Forall2 (fun s0 x => (0 <= x < s0)%Z) (src_shapes fb tc (p_R cws perm)) (src_comp a tc).
Proof.
  destruct perm_parts as (Hbw & Hl & Hp).
  unfold src_shapes, src_comp. rewrite (proj2 perm_of_round). destruct (full fb tc) eqn:Ef.
  - apply (Forall2_nth_intro _ _ _ 0%Z 0%Z); [rewrite (combs_length fb HF), map_length, seq_length; reflexivity|].
    intros p Hpq. rewrite (combs_length fb HF) in Hpq. rewrite nth_map_seq by exact Hpq.
    destruct (full_perm Ef) as [H _]. destruct (H p Hpq) as [Ht' Ep].
    destruct (src_idx_spec _ Ht') as [Hr _]. rewrite Ep, Nat2Z.id in Hr. rewrite (combs_nth fb HF p Hpq). exact Hr.
  - apply (Forall2_nth_intro _ _ _ 0%Z 0%Z); [rewrite !map_length, seq_length; exact Hl|].
    intros t' Ht'. rewrite map_length, Hl in Ht'. rewrite nth_map_seq by exact Ht'.
    rewrite (nth_map_lt _ _ _ _ 0%Z) by lia.
    destruct (Hp t' Ht') as (Hpq & _ & _). rewrite (combs_nth fb HF _ Hpq). apply src_idx_spec. exact Ht'.
Qed.

(** the digits of an independent factor's levels are those of their rank *)
Lemma zlevels_rank g : In g ubi ->
  (0 <= comb_rank (Z.of_nat (length (f0_L fb g))) (zlevels g a tc) < Z.of_nat (length (f0_L fb g)) ^ Z.of_nat tc)%Z /\
  combo_of tc (length (f0_L fb g)) (comb_rank (Z.of_nat (length (f0_L fb g))) (zlevels g a tc)) = zlevels g a tc.
Proof.
  intros Hg. assert (Hgn : In g (fl_act fb)) by (apply (ubi_In fb HF) in Hg; apply Hg).
  pose proof (f0_nonempty fb (f0_unpack fb HF) g Hgn) as Hnl.
  destruct (RadixProofs.comb_bij tc (Z.of_nat (length (f0_L fb g))) ltac:(lia)) as [_ Hb2].
  assert (Hlen : length (zlevels g a tc) = tc) by (unfold zlevels; rewrite map_length, seq_length; reflexivity).
  assert (Hdig : Forall (fun d => (0 <= d < Z.of_nat (length (f0_L fb g)))%Z) (zlevels g a tc)).
  { apply Forall_forall. intros d Hd. unfold zlevels in Hd. apply in_map_iff in Hd. destruct Hd as [t' [E Ht']].
    apply in_seq in Ht'. subst d. destruct (gindex_spec Nat.eq_dec _ _ 0 (lvl_in_L g (a + t') Hgn ltac:(lia))) as [H _]. lia. }
  destruct (Hb2 _ Hlen Hdig) as [Hr Hc]. split; [exact Hr|]. unfold combo_of. rewrite Hc. reflexivity.
Qed.

Lemma round_comp_ok : comp_ok fb tc (round_comp a tc).
Proof.
  destruct perm_of_round as [[Hr Hd] _]. unfold round_comp, comp_ok. split; [exact Hr|]. split; [exact Hd|].
  split; [apply src_comp_ok|].
  apply Forall2_map_r, Forall2_diag. intros g Hg. apply zlevels_rank. exact Hg.
Qed.

(** the level that the components of the round give a drawn factor in trial [t'] is its level in the sequence:
    one statement for each kind of factor *)
Lemma round_comp_crossed i g t' : nth_error c i = Some g -> t' < tc ->
  Some (crossed_level fb perm i t') = get_cell s g (a + t').
Proof.
  intros Hi Ht'. destruct (slice_perm_spec a tc Hb Hcnt) as (_ & Hpn).
  unfold crossed_level. rewrite Hpn by exact Ht'. rewrite cs_nth by lia.
  assert (Hil : i < length c) by (apply nth_error_Some; congruence).
  rewrite (nth_map_lt (fun f => lvl f (a + t')) _ _ _ 0) by exact Hil. rewrite (nth_error_nth _ _ 0 Hi).
  symmetry. apply lvl_cell; [apply (f0_cact_main fb HF); eapply nth_error_In; exact Hi | lia].
Qed.

Lemma round_comp_src j g t' : nth_error ubs j = Some g -> t' < tc ->
  Some (src_level fb tc perm (src_comp a tc) j t') = get_cell s g (a + t').
Proof.
  intros Hj Ht'. pose proof (nth_error_In _ _ Hj) as Hgs. unfold src_level, src_at, src_num.
  rewrite (src_comp_pos t' Ht').
  destruct (src_idx_spec t' Ht') as [_ Es]. rewrite Es.
  destruct (src_num_of_spec (a + t') ltac:(lia)) as [_ E2]. rewrite E2.
  rewrite (nth_error_nth _ _ 0 Hj). unfold src_of. rewrite alookup_combine_map.
  rewrite (proj2 (memb_In g (f0_ubs fb)) Hgs). symmetry.
  apply lvl_cell; [apply (proj1 (ubs_In fb HF g) Hgs) | lia].
Qed.

Lemma round_comp_ind j g t' : nth_error ubi j = Some g -> t' < tc ->
  Some (ind_level fb tc (map (fun g => comb_rank (Z.of_nat (length (f0_L fb g))) (zlevels g a tc)) ubi) j t') =
  get_cell s g (a + t').
Proof.
  intros Hj Ht'. pose proof (nth_error_In _ _ Hj) as Hgu.
  assert (Hjl : j < length ubi) by (apply nth_error_Some; congruence).
  assert (Hgn : In g (fl_act fb)) by (apply (ubi_In fb HF) in Hgu; apply Hgu).
  unfold ind_level.
  rewrite (nth_map_lt (fun g => comb_rank (Z.of_nat (length (f0_L fb g))) (zlevels g a tc)) _ _ _ 0) by exact Hjl.
  rewrite (nth_error_nth _ _ 0 Hj), (proj2 (zlevels_rank g Hgu)).
  unfold zlevels. rewrite nth_map_seq by exact Ht'. unfold lv_of. rewrite Nat2Z.id.
  destruct (gindex_spec Nat.eq_dec _ _ 0 (lvl_in_L g (a + t') Hgn ltac:(lia))) as [_ E]. rewrite E.
  symmetry. apply lvl_cell; [exact Hgn | lia].
Qed.

End Round.

Lemma round_comp_spec a tc : a + tc <= T -> tc <= C ->
  (forall j, j < q -> count_in (nth j prod []) (slice a tc) <= mult_of j) ->
  comp_ok fb tc (round_comp a tc) /\
  forall g, In g K -> round_row fb tc (round_comp a tc) g = map (fun t' => get_cell s g (a + t')) (seq 0 tc).
Proof.
  intros Hb Hle Hcnt. pose proof (round_comp_ok a tc Hb Hle Hcnt) as Hok. split; [exact Hok|].
  pose proof (proj2 (perm_of_round a tc Hb Hle Hcnt)) as Hperm.
  intros g Hg. apply in_app_iff in Hg. destruct Hg as [Hg | Hg]; [|apply in_app_iff in Hg; destruct Hg as [Hg | Hg]];
    apply In_nth_error in Hg; destruct Hg as [i Hi].
  - rewrite (round_row_crossed fb HF tc _ i g Hle Hok Hi). unfold round_comp at 1. cbn [fst]. rewrite Hperm.
    apply map_ext_in. intros t' Ht'. apply in_seq in Ht'. apply (round_comp_crossed a tc Hb Hle Hcnt i g t' Hi). lia.
  - rewrite (round_row_src fb HF tc _ i g Hle Hok Hi). unfold round_comp at 1 2. cbn [fst snd]. rewrite Hperm.
    apply map_ext_in. intros t' Ht'. apply in_seq in Ht'. apply (round_comp_src a tc Hb Hle Hcnt i g t' Hi). lia.
  - rewrite (round_row_ind fb HF tc _ i g Hle Hok Hi). unfold round_comp at 1. cbn [snd].
    apply map_ext_in. intros t' Ht'. apply in_seq in Ht'. apply (round_comp_ind a tc Hb Hle Hcnt i g t' Hi). lia.
Qed.

Lemma v_chunks : chunks_ok (S (s_trials S0)) S0 s (f0_crossing fb) 0 = true.
Proof.
  destruct v_parts as (_ & _ & Hc & _). unfold crossing_ok in Hc. apply andb_prop in Hc. apply Hc.
Qed.

Lemma block_counts r : r * C < T ->
  forall j, j < q -> count_in (nth j prod []) (slice (r * C) (Nat.min C (T - r * C))) <= mult_of j.
Proof.
  intros Hb j Hj.
  destruct (proj1 (chunks_ok_iff S0 s (f0_crossing fb) cs ltac:(rewrite cs_length; reflexivity) cs_combo (f0_C_pos fb HF)
                     (S (s_trials S0)) 0 ltac:(lia)) v_chunks r ltac:(rewrite (f0_sem_trials fb HF); exact Hb)) as [Hcnt _].
  cbn [f0_crossing c_chunk c_mult Nat.add] in Hcnt. rewrite (f0_sem_trials fb HF) in Hcnt.
  fold (slice (r * C) (Nat.min C (T - r * C))) in Hcnt.
  specialize (Hcnt (nth j prod [], mult_of j)
                   ltac:(apply in_map_iff; exists (nth j prod []); split; [reflexivity | apply nth_In; exact Hj])).
  cbn [fst snd] in Hcnt. destruct (r * C + C <=? T); lia.
Qed.

Definition the_key : key :=
  {| k_pre := 0%Z;
     k_rounds := map (fun r => round_comp (r * C) C) (seq 0 R);
     k_left := if lo =? 0 then None else Some (round_comp (R * C) lo) |}.

Lemma full_round_counts r : r < R -> forall j, j < q -> count_in (nth j prod []) (slice (r * C) C) <= mult_of j.
Proof.
  intros Hr. pose proof T_split as HT. pose proof (f0_C_pos fb HF) as HC.
  assert (Hb : r * C + C <= R * C) by nia.
  pose proof (block_counts r ltac:(lia)) as H.
  replace (Nat.min C (T - r * C)) with C in H by lia. exact H.
Qed.

Lemma leftover_counts : lo <> 0 -> forall j, j < q -> count_in (nth j prod []) (slice (R * C) lo) <= mult_of j.
Proof.
  intros Hne. pose proof T_split as HT. pose proof (f0_leftover_lt fb HF) as Hlt. pose proof (f0_C_pos fb HF) as HC.
  pose proof (block_counts R ltac:(lia)) as H.
  replace (Nat.min C (T - R * C)) with lo in H by lia. exact H.
Qed.

Lemma the_key_ok : key_ok fb the_key.
Proof.
  pose proof T_split as HT. unfold key_ok, the_key. cbn [k_pre k_rounds k_left].
  split; [reflexivity|]. split; [rewrite map_length, seq_length; reflexivity|]. split.
  - apply Forall_forall. intros cp Hcp. apply in_map_iff in Hcp. destruct Hcp as [r [E Hr]]. apply in_seq in Hr. subst cp.
    apply round_comp_spec; [nia | lia | apply full_round_counts; lia].
  - destruct (lo =? 0) eqn:E; [apply Nat.eqb_eq; exact E|]. apply Nat.eqb_neq in E. split; [exact E|].
    apply round_comp_spec; [lia | apply Nat.lt_le_incl, (f0_leftover_lt fb HF) | apply leftover_counts; exact E].
Qed.

Lemma the_key_rows_K g : In g K -> decoded_row fb the_key g = nth g s [].
Proof.
  intros Hg. pose proof T_split as HT. destruct (v_factor g (proj1 (proj1 (K_In fb HF g) Hg))) as [Hlen _].
  unfold decoded_row, the_key. cbn [k_rounds k_left].
  assert (Hrow : nth g s [] = map (fun t => get_cell s g t) (seq 0 T)).
  { unfold get_cell. rewrite <- Hlen. symmetry. apply map_nth_seq. }
  rewrite Hrow. assert (Hseq : seq 0 T = seq 0 (R * C) ++ seq (0 + R * C) lo) by (rewrite <- seq_app; f_equal; exact HT).
  rewrite Hseq, map_app. f_equal.
  - rewrite (seq_blocks (fun t => get_cell s g t) C R 0). rewrite flat_map_map.
    apply flat_map_ext_in. intros r Hr. apply in_seq in Hr.
    destruct (round_comp_spec (r * C) C ltac:(nia) (le_n _) (full_round_counts r ltac:(lia))) as [_ H].
    rewrite (H g Hg). apply map_ext. intros t'. reflexivity.
  - destruct (lo =? 0) eqn:E.
    + apply Nat.eqb_eq in E. rewrite E. reflexivity.
    + apply Nat.eqb_neq in E.
      destruct (round_comp_spec (R * C) lo ltac:(lia) (Nat.lt_le_incl _ _ (f0_leftover_lt fb HF)) (leftover_counts E)) as [_ H].
      rewrite (H g Hg). symmetry. apply map_seq_shift0.
Qed.

(** the rows of the derived factors outside the crossing are determined by the drawn rows *)
Lemma the_key_rows g : In g (fl_act fb) -> cand_row fb the_key g = nth g s [].
Proof.
  intros Hg. destruct (K_or_ucd fb HF g Hg) as [HK | Hu].
  - rewrite (cand_row_K fb HF); [apply the_key_rows_K; exact HK | apply (K_not_ucd fb HF); exact HK].
  - unfold cand_row. rewrite (proj2 (memb_In g (f0_ucdl fb)) Hu).
    pose proof Hu as Hu'. apply (ucdl_In fb HF) in Hu'. destruct Hu' as (_ & Hnc & Hdf).
    pose proof (act_lt fb HF g Hg) as Hgn. destruct (f0_sem_factor_some fb HF g Hgn) as [fd Hfd].
    destruct (f0_sem_ucd fb HF g fd Hg Hnc Hdf Hfd) as (d & w & Hd & Hw & Hnl & Hsu & Hder & Hdeps & Hex).
    set (dw := within_win w d) in *.
    assert (HdepsK : forall x, In x (win_deps w) -> In x K).
    { intros x Hx. apply (K_In fb HF). destruct (Hdeps x Hx) as [H1 [H2 | H2]]; auto. }
    destruct v_parts as (_ & Hfac & _ & _).
    rewrite (factor_ok_unique S0 g fd dw Hder eq_refl eq_refl eq_refl Hsu s).
    + rewrite (f0_sem_trials fb HF). apply map_ext_in. intros t Ht. apply in_seq in Ht.
      unfold ucd_pick, pick, window_of. rewrite Hd, Hw, Hnl. rewrite (window_args_within fd dw eq_refl Hsu s t). cbn [w_deps dw within_win].
      unfold all_levels. apply find_ext_in. intros l _. unfold dw. rewrite (sem_accepts_predicate fb HF g d w l _ Hd). f_equal.
      apply map_ext_in. intros x Hx. rewrite (the_key_rows_K x (HdepsK x Hx)). reflexivity.
    + intros t l1 l2 Ht Hl1 Hl2 A1 A2. rewrite (f0_sem_trials fb HF) in Ht.
      destruct (f0_table_exact fb HF g fd d w s t Hd Hnl Hsu Hex) as (l0 & _ & _ & Hun).
      { intros x Hx. destruct (lvl_cell x t (proj1 (Hdeps x Hx)) Ht) as [Hc Hl]. eexists. split; [exact Hc | exact Hl]. }
      fold dw in Hun. rewrite (Hun l1 Hl1 A1), (Hun l2 Hl2 A2). reflexivity.
    + apply Hfac. exact Hfd.
Qed.

End F0C.
