(** The constraint loop of RandomGen's rejection test on a candidate of fragment
    F2 ([Frag.constraint_f2]: the constraints F1 admits, and Sustain) computes the
    constraint clauses of the reference semantics:
      [are_constraints_violated] = not (all [Sem.constraint_ok]).
    Reuses the lemmas of Check/MismatchProofs.v (C17) about run counting, window
    ranges and pinned trials.  Proof file. *)
From Coq Require Import ZArith List Bool Arith Lia.
From SP Require Import Design.Flat Design.Layout Design.Sem Design.SemFacts Comb.CombModel Random.Enum Random.Frag
  Random.FragSem Random.RunLemmas Random.Frag0Enum Random.Frag0Sem Base.Lists.
From SP Require Encode.Compile Encode.CodeSem Check.Mismatch Check.MismatchProofs.
Import ListNotations.
Open Scope nat_scope.

Lemma count_runs_counts row l : forall len a cnt, a + len <= length row ->
  count_runs row l a len cnt = ROk (Mismatch.counts_loop l (firstn len (skipn a row)) cnt).
Proof.
  induction len as [|len IH]; intros a cnt Hb; [reflexivity|].
  cbn [count_runs]. rewrite (skipn_nth_cons row a None) by lia. cbn [firstn Mismatch.counts_loop].
  rewrite nth_error_nth' with (d := None) by lia. cbn [of_opt rbind].
  change (Mismatch.cell_is l (nth a row None)) with (is_level (nth a row None) l).
  destruct ((0 <? cnt) && negb (is_level (nth a row None) l)).
  - rewrite IH by lia. reflexivity.
  - destruct (is_level (nth a row None) l); apply IH; lia.
Qed.

Lemma count_runs_runs row l a b : b <= length row ->
  count_runs row l a (b - a) 0 = ROk (Sem.runs l (Sem.slice row a b)).
Proof.
  intros Hb. destruct (Nat.le_gt_cases a b) as [Hab | Hab].
  - rewrite count_runs_counts by lia. unfold Sem.slice. f_equal. apply MismatchProofs.counts_runs.
  - unfold Sem.slice. replace (b - a) with 0 by lia. reflexivity.
Qed.

Lemma all_ok_map {A} (f : A -> rres bool) (g : A -> bool) xs :
  (forall x, In x xs -> f x = ROk (g x)) -> all_ok (map f xs) = ROk (forallb g xs).
Proof.
  intros H. unfold all_ok. rewrite (rmap_ok_map (fun r => r) (fun r => match r with ROk b => b | RErr _ => false end)).
  - cbn [rbind]. f_equal. rewrite map_map. induction xs as [|x t IH]; [reflexivity|].
    cbn [map forallb]. rewrite (H x (or_introl eq_refl)). f_equal. apply IH. intros y Hy. apply H. right. exact Hy.
  - intros r Hr. apply in_map_iff in Hr. destruct Hr as [x [E Hx]]. subst r. rewrite (H x Hx). reflexivity.
Qed.

Lemma ocell_eqb_cell a b : ocell_eqb a b = cell_eqb a b.
Proof. destruct a, b; reflexivity. Qed.

Lemma is_level_cell c l : is_level c l = cell_eqb c (Some l).
Proof. destruct c; reflexivity. Qed.

Lemma cell_eqb_eq a b : cell_eqb a b = true <-> a = b.
Proof. apply SemFacts.cell_eqb_eq. Qed.

(** the loops of the model that read a value per element and stop at the first failing test *)
Lemma andloop_spec {A B} (step : A -> rres B) (p : B -> bool) (val : A -> B) xs :
  (forall x, In x xs -> step x = ROk (val x)) ->
  (fix go (xs : list A) : rres bool :=
     match xs with
     | [] => ROk true
     | x :: t => v <-- step x ;;; if p v then go t else ROk false
     end) xs = ROk (forallb (fun x => p (val x)) xs).
Proof.
  induction xs as [|x t IH]; intros H; [reflexivity|]. rewrite (H x (or_introl eq_refl)). cbn [rbind forallb].
  destruct (p (val x)); [|reflexivity]. apply IH. intros y Hy. apply H. right. exact Hy.
Qed.

Lemma chk_spec (levels : list (option nat)) i x js : (forall j, In j js -> i + j < length levels) ->
  (fix chk (js : list nat) : rres bool :=
     match js with
     | [] => ROk true
     | j :: t' => y <-- of_opt IndexError (nth_error levels (i + j)) ;;; if ocell_eqb y x then chk t' else ROk false
     end) js = ROk (forallb (fun j => ocell_eqb (nth (i + j) levels None) x) js).
Proof.
  intros H. apply (andloop_spec (fun j => of_opt IndexError (nth_error levels (i + j))) (fun y => ocell_eqb y x)
                                (fun j => nth (i + j) levels None)).
  intros j Hj. rewrite (nth_error_nth' levels None (H j Hj)). reflexivity.
Qed.

Lemma sustain_groups (levels : list (option nat)) su G : 0 < su ->
  forallb (fun g => forallb (fun j => ocell_eqb (nth (g * su + j) levels None) (nth (g * su) levels None)) (seq 1 (su - 1))) (seq 0 G)
  = forallb (fun t => cell_eqb (nth (t / su * su) levels None) (nth t levels None)) (seq 0 (G * su)).
Proof.
  intros Hsu. apply Bool.eq_iff_eq_true. rewrite !forallb_forall. split.
  - intros H t Ht. apply in_seq in Ht.
    pose proof (Nat.div_mod_eq t su) as Hdm. pose proof (Nat.mod_upper_bound t su ltac:(lia)) as Hm.
    assert (Hg : t / su < G).
    { apply Nat.div_lt_upper_bound; [lia|]. rewrite Nat.mul_comm. lia. }
    specialize (H (t / su) ltac:(apply in_seq; lia)). rewrite forallb_forall in H.
    destruct (t mod su) as [|j'] eqn:Ej.
    + replace (t / su * su) with t by lia. destruct (nth t levels None); cbn; [apply Nat.eqb_refl | reflexivity].
    + specialize (H (S j') ltac:(apply in_seq; lia)). rewrite ocell_eqb_cell, cell_eqb_sym in H.
      replace (t / su * su + S j') with t in H by lia. exact H.
  - intros H g Hg. apply in_seq in Hg. apply forallb_forall. intros j Hj. apply in_seq in Hj.
    assert (Ht : g * su + j < G * su) by nia.
    specialize (H (g * su + j) ltac:(apply in_seq; lia)).
    assert (Ediv : (g * su + j) / su = g).
    { rewrite Nat.add_comm, Nat.div_add by lia. rewrite Nat.div_small by lia. reflexivity. }
    rewrite Ediv in H. rewrite ocell_eqb_cell, cell_eqb_sym. exact H.
Qed.

Lemma tseq_nth fb (r : run) g : g < length (fl_design fb) -> nth g (tseq_of_run fb r) [] = row_of_run r g.
Proof. intros Hg. unfold tseq_of_run. apply (nth_map_seq (row_of_run r)), Hg. Qed.

(** the constraint loop of the rejection test stops at the first constraint that does not conform *)
Lemma constraints_loop_spec fb r (g : fconstraint -> bool) cs :
  (forall c, In c cs -> constraint_conforms fb r c = ROk (g c)) ->
  (fix go (cs : list fconstraint) : rres bool :=
     match cs with
     | [] => ROk false
     | c0 :: t => ok <-- constraint_conforms fb r c0 ;;; if ok then go t else ROk true
     end) cs = ROk (negb (forallb g cs)).
Proof.
  induction cs as [|k t IH]; intros H; [reflexivity|]. rewrite (H k (or_introl eq_refl)). cbn [rbind forallb].
  destruct (g k); [|reflexivity]. apply IH. intros x Hx. apply H. right. exact Hx.
Qed.

Section F1C.
Variable fb : flat.
Hypothesis HF : frag2 fb = true.

Local Notation c := (the_crossing fb).
Local Notation nfac := (length (fl_design fb)).
Local Notation T := (fl_trials fb).
Local Notation S0 := (code_sem fb).

Variable r : run.
Hypothesis Hwf : forall g, In g (fl_act fb) -> exists row, rlookup r g = Some row /\ length row = T.
Local Notation s := (tseq_of_run fb r).

Lemma wf_nth g row : g < nfac -> rlookup r g = Some row -> nth g s [] = row.
Proof. intros Hg Hr. rewrite tseq_nth by exact Hg. unfold row_of_run. rewrite Hr. reflexivity. Qed.

Lemma act_row f : In f (fl_act fb) -> exists row, row_of r f = ROk row /\ length row = T /\ nth f s [] = row.
Proof.
  intros Ha. destruct (Hwf f Ha) as [row [Hr Hlen]]. exists row. unfold row_of. rewrite Hr.
  split; [reflexivity|]. split; [exact Hlen | exact (wf_nth f row (act_lt fb HF f Ha) Hr)].
Qed.

Lemma f1_factor_preamble f : Enum.factor_preamble_size fb f = ROk 0%Z.
Proof.
  unfold Enum.factor_preamble_size.
  set (idxs := filter (fun i => memb f (nth i (fl_crossings fb) [])) (seq 0 (length (fl_crossings fb)))).
  assert (Hidx : forall i, In i idxs -> i < length (fl_crossings fb)).
  { intros i Hi. unfold idxs in Hi. apply filter_In in Hi. destruct Hi as [Hi _]. apply in_seq in Hi. lia. }
  destruct idxs as [|i rest]; [reflexivity|].
  rewrite (f0_block_preamble_at fb HF i (Hidx i (or_introl eq_refl))). cbn [rbind].
  assert (Hrest : forall j, In j rest -> j < length (fl_crossings fb)) by (intros j Hj; apply Hidx; right; exact Hj).
  clear Hidx. induction rest as [|j t IH]; [reflexivity|].
  rewrite (f0_block_preamble_at fb HF j (Hrest j (or_introl eq_refl))). cbn [rbind Z.eqb].
  apply IH. intros x Hx. apply Hrest. right. exact Hx.
Qed.

Lemma f1_pre_of f : CodeSem.pre_of fb f = 0.
Proof.
  unfold CodeSem.pre_of, Compile.factor_preamble_size.
  assert (G : forall cs i x, In x (Compile.preambles_of fb f i cs) -> x = 0).
  { induction cs as [|ci t IH]; intros i x Hx; [destruct Hx|]. cbn [Compile.preambles_of] in Hx.
    apply in_app_iff in Hx. destruct Hx as [Hx | Hx]; [|eapply IH; exact Hx].
    destruct (existsb (Nat.eqb f) ci); [|destruct Hx]. destruct Hx as [E | []]. rewrite <- E. apply (f0_preamble_size fb HF). }
  destruct (Compile.preambles_of fb f 0 (fl_crossings fb)) as [|p rest] eqn:E; [reflexivity|].
  assert (Hp : p = 0) by (apply (G (fl_crossings fb) 0); rewrite E; left; reflexivity). subst p.
  (* [pre_of] reads a failed comparison as 0 too *)
  destruct (forallb (Nat.eqb 0) rest); reflexivity.
Qed.

(** the k-in-a-row family: [conform] of the runs in every window *)
Lemma f1_kinarow (conform : list nat -> bool) (ck : ckind) f l wb :
  isact fb f && (l <? nlevels fb f) && geom_ok fb wb = true ->
  (forall ws, constraint_ok S0 s (CodeSem.mk_c ck f l ws) =
              forallb (fun w => conform (Sem.runs l (Sem.slice (nth f s []) (fst w) (snd w)))) ws) ->
  k_in_a_row fb conform f l wb r = ROk (forallb (constraint_ok S0 s) [CodeSem.mk_c ck f l (CodeSem.windows_of fb wb)]).
Proof.
  intros Hk Hall. apply andb_prop in Hk. destruct Hk as [Hk Hg]. apply andb_prop in Hk. destruct Hk as [Ha _].
  apply (isact_In fb HF) in Ha. destruct (act_row f Ha) as (row & Hr & Hlen & Hs).
  cbn [forallb]. rewrite andb_true_r, Hall. unfold k_in_a_row. rewrite Hr. cbn [rbind].
  unfold geom_ok in Hg. unfold CodeSem.windows_of.
  destruct (map_block_trial_ranges fb wb) as [rs|] eqn:Ers; [|discriminate]. cbn [of_opt rbind].
  apply all_ok_map. intros w Hw.
  rewrite count_runs_runs by (rewrite Hlen; eapply MismatchProofs.ranges_within_trials; eassumption).
  cbn [rbind]. rewrite Hs. reflexivity.
Qed.

Lemma f1_pin index f l wb : In f (fl_act fb) -> geom_ok fb wb = true -> geometry_sustain fb wb f = 1 ->
  constraint_conforms fb r (FPin index f l wb) =
  ROk (constraint_ok S0 s (CodeSem.mk_c (KPin index 1) f l (CodeSem.windows_of fb wb))).
Proof.
  intros Ha Hg Hsu. destruct (act_row f Ha) as (row & Hr & Hlen & Hs).
  cbn [constraint_conforms]. rewrite Hr. cbn [rbind].
  unfold geom_ok in Hg. unfold CodeSem.windows_of.
  destruct (map_block_trial_ranges fb wb) as [rs|] eqn:Ers; [|discriminate].
  rewrite (MismatchProofs.get_trial_numbers_spec fb f index wb rs Ers). rewrite Hsu. cbn [of_opt rbind].
  set (tn := flat_map (MismatchProofs.pin_trials index 1) rs).
  set (g := fun t => is_level (nth t row None) l).
  assert (Hlt : forall t, In t tn -> t < length row).
  { intros t Ht. rewrite Hlen. exact (MismatchProofs.pin_trials_within fb wb rs index t Ers Ht). }
  transitivity (ROk (MismatchProofs.nonempty_all g tn)).
  { destruct tn as [|t0 tn0]; [reflexivity|].
    refine (andloop_spec (fun t => of_opt IndexError (nth_error row t)) (fun x => is_level x l) (fun t => nth t row None)
                         (t0 :: tn0) _).
    intros t Ht. rewrite (nth_error_nth' row None (Hlt t Ht)). reflexivity. }
  f_equal. unfold tn. rewrite (MismatchProofs.pin_bool g index 1 rs (le_n _)).
  unfold constraint_ok, CodeSem.mk_c. cbn [k_kind k_factor k_level k_windows].
  rewrite Hs. reflexivity.
Qed.

Lemma f1_sequential f : In f (fl_act fb) -> 0 < nlevels fb f -> sustain_of fb f = 1 ->
  constraint_conforms fb r (FSequential f) =
  ROk (constraint_ok S0 s (CodeSem.mk_c (KSequential (CodeSem.pre_of fb f) (sustain_of fb f)) f 0 [])).
Proof.
  intros Ha Hnl Hs1. destruct (act_row f Ha) as (row & Hr & Hlen & Hs).
  cbn [constraint_conforms]. rewrite f1_factor_preamble. cbn [rbind]. rewrite Hr. cbn [rbind].
  rewrite f1_pre_of. unfold sustain. rewrite Hs1. cbn [Z.to_nat].
  unfold constraint_ok, CodeSem.mk_c. cbn [k_kind k_factor k_level k_windows].
  rewrite Hs.
  destruct (f0_sem_factor_some fb HF f (act_lt fb HF f Ha)) as [fd Hfd].
  destruct (f0_sem_factor fb HF f fd Ha Hfd) as (_ & Hnfd & _). rewrite Hfd, Hnfd. rewrite (f0_sem_trials fb HF).
  set (nl := nlevels fb f) in *.
  assert (G : forall fuel i, T - i < fuel -> i <= T ->
              sequential_loop fb fuel row nl 0 1 i =
              ROk (forallb (fun t => Sem.cell_eqb (nth t row None) (Some (((t - 0) / 1) mod nl))) (seq i (T - i)))).
  { induction fuel as [|fuel IH]; intros i Hfu Hi; [lia|].
    cbn [sequential_loop]. destruct (i <? T) eqn:E.
    - apply Nat.ltb_lt in E. replace (nl =? 0) with false by (symmetry; apply Nat.eqb_neq; lia).
      rewrite nth_error_nth' with (d := None) by lia. cbn [of_opt rbind Nat.eqb].
      replace (T - i) with (S (T - S i)) by lia. cbn [seq forallb].
      rewrite is_level_cell. destruct (cell_eqb (nth i row None) (Some ((i - 0) / 1 mod nl))); [|reflexivity].
      cbn [andb]. replace (i + 1) with (S i) by lia. apply IH; lia.
    - apply Nat.ltb_ge in E. replace (T - i) with 0 by lia. reflexivity. }
  rewrite (G (S T) 0) by lia. rewrite Nat.sub_0_r. f_equal; try (apply forallb_ext; intros t; reflexivity).
Qed.

Lemma f1_exclude f l : In f (fl_act fb) ->
  constraint_conforms fb r (FExclude f l) = ROk (constraint_ok S0 s (CodeSem.mk_c KExclude f l [])).
Proof.
  intros Ha. destruct (act_row f Ha) as (row & Hr & Hlen & Hs).
  cbn [constraint_conforms]. rewrite Hr. cbn [rbind]. f_equal.
  unfold constraint_ok, CodeSem.mk_c. cbn [k_kind k_factor k_level]. rewrite Hs.
  rewrite <- MismatchProofs.existsb_count_level. reflexivity.
Qed.

(** the Sustain check decides that the sustained factors keep their levels *)
Lemma grp_spec f su (levels : list (option nat)) G : 0 < su -> length levels = G * su ->
  (forall t, applies_to_trial fb f t = true) ->
  forall cnt g i0, i0 = g * su -> G - g < cnt -> g <= G ->
  (fix grp (cnt : nat) (i : nat) : rres bool :=
     match cnt with
     | O => ROk true
     | S c' =>
       if i <? length levels then
         if applies_to_trial fb f (i / su + 1) then
           x <-- of_opt IndexError (nth_error levels i) ;;;
           same <-- (fix chk (js : list nat) : rres bool :=
                       match js with
                       | [] => ROk true
                       | j :: t' => y <-- of_opt IndexError (nth_error levels (i + j)) ;;;
                                    if ocell_eqb y x then chk t' else ROk false
                       end) (seq 1 (su - 1)) ;;;
           if same then grp c' (i + su) else ROk false
         else grp c' (i + su)
       else ROk true
     end) cnt i0 =
  ROk (forallb (fun g' => forallb (fun j => ocell_eqb (nth (g' * su + j) levels None) (nth (g' * su) levels None)) (seq 1 (su - 1)))
               (seq g (G - g))).
Proof.
  intros Hsu Hlen Happ. induction cnt as [|cnt IH]; intros g i0 -> Hc Hg; [lia|].
  destruct (g * su <? length levels) eqn:E.
  - apply Nat.ltb_lt in E. rewrite Hlen in E. assert (HgG : g < G) by nia.
    rewrite Happ. rewrite (nth_error_nth' levels None) by (rewrite Hlen; exact E). cbn [of_opt rbind].
    rewrite (chk_spec levels (g * su) (nth (g * su) levels None) (seq 1 (su - 1)))
      by (intros j Hj; apply in_seq in Hj; rewrite Hlen; nia).
    cbn [rbind]. replace (G - g) with (S (G - S g)) by lia. cbn [seq forallb].
    destruct (forallb (fun j => ocell_eqb (nth (g * su + j) levels None) (nth (g * su) levels None)) (seq 1 (su - 1))); [|reflexivity].
    cbn [andb]. apply (IH (S g)); lia.
  - apply Nat.ltb_ge in E. rewrite Hlen in E. assert (g = G) by nia. subst g. rewrite Nat.sub_diag. reflexivity.
Qed.

Lemma f1_applies_basic f : is_derived fb f = false -> forall t, applies_to_trial fb f t = true.
Proof.
  intros Hd t. unfold applies_to_trial. unfold is_derived in Hd. destruct (factor_at fb f) as [fd|]; [|reflexivity].
  destruct (ff_window fd); [discriminate | reflexivity].
Qed.

Lemma f1_sustain : constraint_conforms fb r FSustain = ROk (sustain_held fb s).
Proof.
  cbn [constraint_conforms]. unfold sustain_held.
  induction (seq 0 nfac) as [|f t IH]; [reflexivity|]. cbn [forallb]. unfold sustain.
  destruct (1 <? sustain_of fb f) eqn:E1.
  - apply Nat.ltb_lt in E1.
    destruct (f0_sustain_cases fb HF f) as [E | (ci & su & Hin & Hfc & Esu)]; [lia|].
    assert (Ha : In f (fl_act fb)) by (apply (f0_cact fb (f0_unpack fb HF) ci f); [eapply in_combine_l; exact Hin | exact Hfc]).
    assert (Hnd : is_derived fb f = false).
    { destruct (is_derived fb f) eqn:Ed; [|reflexivity]. rewrite (f0_sustain_derived fb HF f Ha Ed) in E1. lia. }
    destruct (act_row f Ha) as (row & Hr & Hlen & Hs). rewrite Hr. cbn [rbind].
    pose proof (f0_sustain_div fb HF f) as Hdiv. apply Nat.mod_divides in Hdiv; [|lia]. destruct Hdiv as [G HG].
    rewrite Nat.mul_comm in HG.
    rewrite (grp_spec f (sustain_of fb f) row G ltac:(lia) ltac:(lia) (f1_applies_basic f Hnd) (S (length row)) 0 0 eq_refl)
      by (try lia; rewrite Hlen, HG; nia).
    cbn [rbind]. rewrite Nat.sub_0_r. rewrite (sustain_groups row (sustain_of fb f) G ltac:(lia)).
    assert (Eh : forallb (fun t0 => cell_eqb (nth (t0 / sustain_of fb f * sustain_of fb f) row None) (nth t0 row None)) (seq 0 (G * sustain_of fb f))
                 = held fb s f).
    { unfold held, get_cell. rewrite Hs, <- HG. reflexivity. }
    rewrite Eh. destruct (held fb s f); [cbn [andb]; exact IH | reflexivity].
  - cbn [andb]. exact IH.
Qed.

(** what a constraint of the block means for the candidate *)
Definition conform_b (k : fconstraint) : bool :=
  match k with
  | FSustain => sustain_held fb s
  | _ => forallb (constraint_ok S0 s) (CodeSem.code_constraint fb k)
  end.

Lemma f1_conform k : constraint_f2 fb k = true ->
  constraint_conforms fb r k = ROk (conform_b k).
Proof.
  intros Hk. destruct k; cbn [constraint_f2] in Hk; try discriminate; try reflexivity; try apply f1_sustain; unfold conform_b.
  - exact (f1_kinarow _ (KAtMost k) f l wb Hk (fun ws => eq_refl)).
  - exact (f1_kinarow _ (KAtLeast k) f l wb Hk (fun ws => eq_refl)).
  - apply (f1_kinarow _ (KExactlyK k) f l wb Hk). intros ws. apply forallb_ext. intros w. rewrite MismatchProofs.sum_runs. reflexivity.
  - exact (f1_kinarow _ (KExactlyInARow k) f l wb Hk (fun ws => eq_refl)).
  - (* Exclude *)
    apply andb_prop in Hk. destruct Hk as [Hf _]. apply (isact_In fb HF) in Hf.
    cbn [CodeSem.code_constraint forallb]. rewrite andb_true_r. apply f1_exclude. exact Hf.
  - (* Pin *)
    apply andb_prop in Hk. destruct Hk as [Hk Hsu]. apply andb_prop in Hk. destruct Hk as [Hk Hg].
    apply andb_prop in Hk. destruct Hk as [Hf _]. apply (isact_In fb HF) in Hf. apply Nat.eqb_eq in Hsu.
    cbn [CodeSem.code_constraint forallb]. rewrite andb_true_r. rewrite Hsu. apply f1_pin; assumption.
  - (* Sequential *)
    apply andb_prop in Hk. destruct Hk as [Hk Hs1]. apply andb_prop in Hk. destruct Hk as [Hf Hnl].
    apply (isact_In fb HF) in Hf. apply Nat.ltb_lt in Hnl. apply Nat.eqb_eq in Hs1.
    cbn [CodeSem.code_constraint forallb]. rewrite andb_true_r. apply f1_sequential; assumption.
Qed.

Lemma conform_b_all (cs : list fconstraint) :
  forallb conform_b cs =
  forallb (constraint_ok S0 s) (flat_map (CodeSem.code_constraint fb) cs) &&
  (if existsb (fun k => match k with FSustain => true | _ => false end) cs then sustain_held fb s else true).
Proof.
  induction cs as [|k t IH]; [reflexivity|]. cbn [forallb flat_map existsb]. rewrite forallb_app, IH.
  destruct k; cbn [conform_b CodeSem.code_constraint forallb orb andb]; try reflexivity; try apply andb_assoc.
  (* Sustain: checked now, whatever the rest says *)
  destruct (sustain_held fb s), (forallb (constraint_ok S0 s) (flat_map (CodeSem.code_constraint fb) t)),
    (existsb (fun k => match k with FSustain => true | _ => false end) t); reflexivity.
Qed.

(** whether or not a Sustain constraint is listed: the sustained factors are checked whenever there are any *)
Lemma conform_b_constraints :
  forallb conform_b (fl_constraints fb) = sustain_held fb s && forallb (constraint_ok S0 s) (s_constraints S0).
Proof.
  rewrite conform_b_all, (f0_sem_constraints fb HF).
  destruct (existsb (fun k => match k with FSustain => true | _ => false end) (fl_constraints fb)) eqn:Ex.
  - apply andb_comm.
  - destruct (f0_sustain_checked fb (f0_unpack fb HF)) as [H1 | Hin].
    + rewrite (f0_sustain_held_trivial fb HF s H1). rewrite andb_true_r. reflexivity.
    + exfalso. assert (existsb (fun k => match k with FSustain => true | _ => false end) (fl_constraints fb) = true)
        by (apply existsb_exists; exists FSustain; split; [exact Hin | reflexivity]). congruence.
Qed.

Theorem f1_constraints_loop :
  (fix go (cs : list fconstraint) : rres bool :=
     match cs with
     | [] => ROk false
     | c0 :: t => ok <-- constraint_conforms fb r c0 ;;; if ok then go t else ROk true
     end) (fl_constraints fb) = ROk (negb (sustain_held fb s && forallb (constraint_ok S0 s) (s_constraints S0))).
Proof.
  rewrite <- conform_b_constraints. apply constraints_loop_spec.
  intros k Hk. apply f1_conform, (f0_constraints fb (f0_unpack fb HF)), Hk.
Qed.

(** the whole rejection test when there is one crossing only *)
Theorem f1_violated (en : enumerator) : eb_has_cc (en_base en) = false -> length (fl_crossings fb) = 1 ->
  are_constraints_violated fb en r = ROk (negb (sustain_held fb s && forallb (constraint_ok S0 s) (s_constraints S0))).
Proof.
  intros Hcc Hone. unfold are_constraints_violated. rewrite f1_constraints_loop.
  cbn [rbind]. rewrite Hcc. rewrite Hone. cbn [Nat.ltb Nat.leb orb].
  destruct (negb (sustain_held fb s && forallb (constraint_ok S0 s) (s_constraints S0))); reflexivity.
Qed.

End F1C.
