(** The whole rejection test of RandomGen on a candidate of fragment F2 with
    several crossings: the constraint loop (Frag1Cons.v) followed by the crossing
    test on every crossing but the sampled one (CrossReject.v) computes
      not (other crossings ok && constraints ok)
    of the reference semantics.  Proof file. *)
From Coq Require Import ZArith List Bool Arith Lia.
From SP Require Import Design.Flat Design.Layout Design.Sem Comb.CombModel Random.Enum Random.Frag
  Random.FragSem Random.RunLemmas Random.Frag0Enum Random.Frag0Sem Random.Frag0Complete Random.Frag1Cons Random.CrossReject.
From SP Require Encode.Compile Encode.CodeSem.
Import ListNotations.
Open Scope nat_scope.

Section F2X.
Variable fb : flat.
Hypothesis HF : frag2 fb = true.
Variables m lm : memo_t.
Variables cn lcn : Z.

Local Notation n := (length (fl_design fb)).
Local Notation T := (fl_trials fb).
Local Notation S0 := (code_sem fb).
Local Notation en := (f0_enum fb m lm cn lcn).
Local Notation k := (length (fl_crossings fb)).

Variable r : run.
(** the candidate has a level of every factor in every trial; without derived factors an admitted one *)
Hypothesis Hcells : forall g, In g (fl_act fb) -> exists row, rlookup r g = Some row /\ length row = T /\
  Forall (fun cell => exists l, cell = Some l /\ l < nlevels fb g /\
                                (has_derived fb = false -> ~ In (FExclude g l) (fl_constraints fb))) row.
Local Notation s := (tseq_of_run fb r).

Definition lev (f t : nat) : nat :=
  match rlookup r f with
  | Some row => match nth t row None with Some l => l | None => 0 end
  | None => 0
  end.

Lemma lev_cell g t : In g (fl_act fb) -> t < T ->
  exists row, rlookup r g = Some row /\ length row = T /\ nth_error row t = Some (Some (lev g t)) /\
              lev g t < nlevels fb g /\ (has_derived fb = false -> ~ In (FExclude g (lev g t)) (fl_constraints fb)).
Proof.
  intros Hg Ht. destruct (Hcells g Hg) as (row & Hr & Hl & Hc). exists row. split; [exact Hr|]. split; [exact Hl|].
  rewrite Forall_forall in Hc. assert (Hin : In (nth t row None) row) by (apply nth_In; lia).
  destruct (Hc _ Hin) as (l & El & Hlt & Hne). unfold lev. rewrite Hr, El.
  split; [rewrite (nth_error_nth' row None) by lia; rewrite El; reflexivity | split; assumption].
Qed.

Lemma cells_rows : forall g, In g (fl_act fb) -> exists row, rlookup r g = Some row /\ length row = T.
Proof. intros g Hg. destruct (Hcells g Hg) as (row & Hr & Hl & _). exists row. auto. Qed.

Lemma rounds_eq : (eb_preamble (en_base en) + rounds_per_run fb en * eb_csize (en_base en) + en_leftover en)%Z = Z.of_nat T.
Proof.
  unfold rounds_per_run, trials_Z. cbn [en_base f0_enum eb_preamble eb_csize f0_base en_leftover].
  rewrite Z.sub_0_r, Z.add_0_l. unfold f0_leftover. rewrite <- Nat2Z.inj_div, <- Nat2Z.inj_mul, <- Nat2Z.inj_add.
  f_equal. pose proof (Nat.div_mod_eq T (f0_C fb)). lia.
Qed.

Lemma lev_rows : rows_at r T lev (fl_act fb).
Proof.
  intros g Hg. destruct (Hcells g Hg) as (row & Hr & Hl & _). exists row. split; [exact Hr|]. split; [exact Hl|].
  intros t Ht. destruct (lev_cell g t Hg Ht) as (row' & Hr' & _ & Hn & _). congruence.
Qed.

Lemma combo_at_lev ci t : (forall f, In f ci -> In f (fl_act fb)) -> t < T -> combo_at s ci t = map Some (K ci lev t).
Proof.
  intros Hact Ht. unfold combo_at, K. rewrite map_map. apply map_ext_in. intros f Hf.
  destruct (lev_rows f (Hact f Hf)) as (row & Hr & _ & Hn).
  unfold get_cell. rewrite (wf_nth fb r f row (act_lt fb HF f (Hact f Hf)) Hr). apply nth_error_nth, Hn, Ht.
Qed.

(** with several crossings no factor is derived *)
Section F2N.
Hypothesis Hnoder : has_derived fb = false.

(** the levels the candidate gives the factors of a crossing are an admitted combination: each is a level of its
    factor, and no [Exclude] constraint names one of them *)
Lemma lev_allowed ci t : (forall f, In f ci -> In f (fl_act fb)) -> t < T -> In (K ci lev t) (allowed_combos2 fb ci).
Proof.
  intros Hact Ht. unfold K, allowed_combos2. apply filter_In. split.
  - apply product_In. apply Forall2_map_l, Forall2_map_r, Forall2_diag. intros f Hf. unfold all_levels. apply in_seq.
    destruct (lev_cell f t (Hact f Hf) Ht) as (_ & _ & _ & _ & Hlt & _). lia.
  - apply negb_true_iff. rewrite (f0_inconsistent_eq fb HF).
    2:{ intros [pf pl] Hp. apply in_combine_l in Hp. apply (no_derived_act fb pf Hnoder), Hact, Hp. }
    apply not_true_is_false. intros E. apply (f0_excluded_spec fb HF) in E.
    destruct E as (f & l & Hk & Hl). rewrite alookup_combine_map in Hl. destruct (memb f ci) eqn:Em; [|discriminate].
    injection Hl as <-. apply memb_In in Em.
    destruct (lev_cell f t (Hact f Em) Ht) as (_ & _ & _ & _ & _ & Hne). exact (Hne Hnoder Hk).
Qed.

Lemma crossing_at i ci : nth_error (fl_crossings fb) i = Some ci ->
  crossing_violated fb en r i ci = ROk (negb (crossing_ok S0 s (CodeSem.code_crossing fb i ci))).
Proof.
  intros Hi. assert (Hci : In ci (fl_crossings fb)) by (eapply nth_error_In; exact Hi).
  assert (Hik : i < k) by (apply nth_error_Some; congruence).
  pose proof (fun f Hf => f0_cact fb (f0_unpack fb HF) ci f Hci Hf) as Hact.
  set (si := nth i (fl_sizes fb) 0). set (su := nth i (fl_sustains fb) 0).
  assert (Esi : nth_error (fl_sizes fb) i = Some si)
    by (apply nth_error_nth'; rewrite (f0_sizes_len fb (f0_unpack fb HF)); exact Hik).
  assert (Esu : nth_error (fl_sustains fb) i = Some su)
    by (apply nth_error_nth'; rewrite (f0_sustains_len fb (f0_unpack fb HF)); exact Hik).
  destruct (f0_size_ok fb (f0_unpack fb HF) i ci si su Hi Esi Esu) as (Esz & Hsipos & Hne & Hsuof).
  assert (Hcwpos : 0 < cw_of fb ci).
  { unfold cw_of. destruct (first_index_of_spec ci _ Hci 0) as [j [Hj Hl]]. rewrite Hj. cbn [Nat.add].
    apply (f0_weights_pos fb (f0_unpack fb HF)). apply nth_In. rewrite (f0_weights_len fb (f0_unpack fb HF)). exact Hl. }
  rewrite (f0_code_crossing fb HF i ci Hci). fold si. rewrite Hsuof.
  rewrite (map_ext (fun ls => (ls, combo_weight fb (combine ci ls) * su * cw_of fb ci))
                   (fun ls => (ls, cwn fb ci ls * (cw_of fb ci * su)))) by (intros ls; unfold cwn; f_equal; lia).
  apply (crossing_violated_spec fb en r i ci lev (cw_of fb ci) si su (allowed_combos2 fb ci)).
  - intros f Hf. apply lev_rows, Hact, Hf.
  - apply (f0_base_preamble_nth fb HF), Hik.
  - apply (f0_base_weight_nth fb HF), Hi.
  - apply (f0_base_size_nth fb HF), Esi.
  - exact Hne.
  - apply rounds_eq.
  - nia.
  - apply allowed_combos2_NoDup.
  - intros t Ht. apply (lev_allowed ci t Hact Ht).
  - exact Esz.
  - reflexivity.
  - intros t Ht. apply (combo_at_lev ci t Hact Ht).
Qed.

(** the crossing loop over all crossings but the sampled one *)
Lemma crossings_loop : forall (ics : list (nat * list nat)),
  (forall i ci, In (i, ci) ics -> nth_error (fl_crossings fb) i = Some ci) ->
  (fix go (ics : list (nat * list nat)) : rres bool :=
     match ics with
     | [] => ROk false
     | (i, c) :: t =>
       if eb_has_cc (en_base en) || negb (i =? eb_main (en_base en)) then
         v <-- crossing_violated fb en r i c ;;; if v then ROk true else go t
       else go t
     end) ics =
  ROk (negb (forallb (crossing_ok S0 s)
               (flat_map (fun ic => if fst ic =? main_idx fb then [] else [CodeSem.code_crossing fb (fst ic) (snd ic)]) ics))).
Proof.
  induction ics as [|[i ci] t IH]; intros Hnth; [reflexivity|].
  cbn [flat_map fst snd]. cbn [en_base f0_enum eb_has_cc eb_main f0_base orb].
  destruct (i =? main_idx fb) eqn:E; cbn [negb app].
  - apply IH. intros j cj Hj. apply Hnth. right. exact Hj.
  - rewrite (crossing_at i ci (Hnth i ci (or_introl eq_refl))). cbn [rbind forallb].
    destruct (crossing_ok S0 s (CodeSem.code_crossing fb i ci)); cbn [negb andb]; [|reflexivity].
    apply IH. intros j cj Hj. apply Hnth. right. exact Hj.
Qed.

End F2N.

(** the whole rejection test *)
Theorem f2_violated : (1 < k -> has_derived fb = false) ->
  are_constraints_violated fb en r =
  ROk (negb (sustain_held fb s && forallb (crossing_ok S0 s) (f0_ocrossings fb) && forallb (constraint_ok S0 s) (s_constraints S0))).
Proof.
  intros Hnoder. unfold are_constraints_violated. rewrite (f1_constraints_loop fb HF r cells_rows). cbn [rbind].
  destruct (sustain_held fb s && forallb (constraint_ok S0 s) (s_constraints S0)) eqn:E1; cbn [negb].
  2:{ apply andb_false_iff in E1. destruct E1 as [E1 | E1]; rewrite E1; [reflexivity|]. rewrite andb_false_r. reflexivity. }
  apply andb_prop in E1. destruct E1 as [E1 E2]. rewrite E1, E2. cbn [andb]. rewrite andb_true_r.
  cbn [en_base f0_enum eb_has_cc f0_base orb].
  destruct (1 <? k) eqn:Ek.
  - apply Nat.ltb_lt in Ek. apply (crossings_loop (Hnoder Ek) (f0_icrossings fb)).
    intros i ci Hin. apply (f0_icrossings_In fb HF). exact Hin.
  - apply Nat.ltb_ge in Ek. pose proof (f0_main_lt fb (f0_unpack fb HF)) as Hlt.
    rewrite (f0_ocrossings_single fb HF) by lia. reflexivity.
Qed.

End F2X.
