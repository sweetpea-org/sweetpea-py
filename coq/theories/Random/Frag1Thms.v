(** The RandomGen theorems for fragment F1 ([Frag.frag1]: no weights), stated on
    the interface functions [keys_of] / [decode_key] / [accepts] / [cand_tseq] /
    [key_accepted] of Random/Enum.v and Random/FragSem.v.  F1 is the part of F2
    ([Frag.frag2], Random/Frag2Thms.v) without weights; there the enumerator is
    total, so the theorems carry no side condition on the model.  Proof file. *)
From Coq Require Import ZArith List Bool Arith Lia.
From SP Require Import Design.Flat Design.Layout Design.Sem Comb.CombModel Comb.CombSpec Random.Enum Random.Frag
  Random.FragSem Random.RunLemmas Random.FragPerm Random.Frag0Enum Random.Frag0Decode Random.Frag0Keys Random.Frag1Cons Random.Frag2Thms.
Import ListNotations.
Open Scope nat_scope.

Section F1T.
Variable fb : flat.
Hypothesis HF : frag1 fb = true.

Lemma frag1_parts :
  single_plain_crossing fb = true /\ forallb (constraint_f1 fb) (fl_constraints fb) = true /\
  exclude_consistent fb = true /\ all_active fb = true /\ all_basic fb = true /\ unit_weights fb = true /\
  plain_geometry fb = true /\ size_matches1 fb = true /\ free_levels_nonempty fb = true /\
  (0 <? fl_trials fb) || no_rejecting_constraints fb = true.
Proof.
  pose proof HF as H. unfold frag1 in H. repeat (apply andb_prop in H; destruct H as [H ?]). repeat split; assumption.
Qed.

Lemma frag1_combo_weight c ls : fl_crossings fb = [c] -> combo_weight fb (combine c ls) = 1.
Proof.
  intros Ec. destruct frag1_parts as (_ & _ & _ & _ & _ & Hu & _). unfold unit_weights in Hu.
  apply andb_prop in Hu. destruct Hu as [_ Hu]. rewrite Ec in Hu. cbn [forallb] in Hu. rewrite andb_true_r in Hu.
  rewrite forallb_forall in Hu.
  assert (G : forall di : asg, (forall p, In p di -> In (fst p) c) -> combo_weight fb di = 1).
  { induction di as [|p t IH]; intros H; [reflexivity|]. cbn [combo_weight fold_right]. fold (combo_weight fb t).
    rewrite IH by (intros x Hx; apply H; right; exact Hx).
    unfold level_weight_nat. destruct (nth_error (levels_of fb (fst p)) (snd p)) as [lv|] eqn:E; [|reflexivity].
    specialize (Hu (fst p) (H p (or_introl eq_refl))). rewrite forallb_forall in Hu.
    specialize (Hu lv (nth_error_In _ _ E)). apply Nat.eqb_eq in Hu. lia. }
  apply G. intros p Hp. eapply in_combine_fst. exact Hp.
Qed.

Lemma frag1_act : fl_act fb = seq 0 (length (fl_design fb)).
Proof. destruct frag1_parts as (_ & _ & _ & H4 & _). apply nat_list_eqb_eq. exact H4. Qed.

Lemma frag1_isact f : f < length (fl_design fb) -> isact fb f = true.
Proof. intros Hf. unfold isact. apply memb_In. rewrite frag1_act. apply in_seq. lia. Qed.

Lemma frag1_isact_lt f : isact fb f = true -> f < length (fl_design fb).
Proof. unfold isact. intros H. apply memb_In in H. rewrite frag1_act in H. apply in_seq in H. lia. Qed.

Lemma frag1_not_derived f : is_derived fb f = false.
Proof.
  destruct frag1_parts as (_ & _ & _ & _ & H5 & _). unfold is_derived.
  destruct (factor_at fb f) as [fd|] eqn:E; [|reflexivity]. unfold all_basic in H5. rewrite forallb_forall in H5.
  specialize (H5 fd (nth_error_In _ _ E)). destruct (ff_window fd); congruence.
Qed.

Lemma frag1_no_derived : has_derived fb = false.
Proof.
  unfold has_derived. apply not_true_is_false. intros H. apply existsb_exists in H. destruct H as [f [_ Hd]].
  rewrite frag1_not_derived in Hd. discriminate.
Qed.

(** without derived factors every combination is consistent *)
Lemma frag1_allowed_combos c : allowed_combos2 fb c = allowed_combos fb c.
Proof.
  unfold allowed_combos2, allowed_combos. apply filter_ext. intros ls. f_equal.
  unfold is_excluded_or_inconsistent_combination. destruct (is_excluded_combination fb (combine c ls)); [reflexivity|].
  apply not_true_is_false. intros H. apply existsb_exists in H. destruct H as [p [_ H]].
  rewrite frag1_not_derived in H. discriminate.
Qed.

(** the one crossing and the lists that go with it *)
Lemma frag1_shape : exists c s0,
  fl_crossings fb = [c] /\ fl_sustains fb = [1] /\ fl_weights fb = [1] /\ fl_preambles fb = [0] /\ fl_sizes fb = [s0] /\
  nodupb c = true /\ forallb (fun f => f <? length (fl_design fb)) c = true /\
  (fl_alignment_preamble fb =? 0) = true /\ (s0 =? length (allowed_combos fb c)) && (0 <? s0) = true.
Proof.
  destruct frag1_parts as (H1 & _ & _ & _ & _ & H6 & H7 & H8 & _).
  unfold single_plain_crossing in H1. unfold size_matches1 in H8. unfold plain_geometry in H7.
  unfold unit_weights in H6. apply andb_prop in H6. destruct H6 as [H6 _].
  destruct (fl_crossings fb) as [|c [|? ?]]; try discriminate H1.
  destruct (fl_sustains fb) as [|[|[|?]] [|? ?]]; try discriminate H1.
  destruct (fl_weights fb) as [|[|[|?]] [|? ?]]; try discriminate H6.
  destruct (fl_preambles fb) as [|[|?] [|? ?]]; try discriminate H7.
  destruct (fl_sizes fb) as [|s0 [|? ?]]; try discriminate H8.
  apply andb_prop in H1. destruct H1 as [H1a H1b]. exists c, s0. repeat split; assumption.
Qed.

Lemma frag1_sustain_of f : sustain_of fb f = 1.
Proof.
  destruct frag1_shape as (c & s0 & Ec & Es & _). unfold sustain_of. rewrite Ec, Es.
  cbn. destruct (existsb (Nat.eqb f) c); reflexivity.
Qed.

Lemma frag1_isact_and f b : (f <? length (fl_design fb)) && b = true -> isact fb f && b = true.
Proof.
  intros H. apply andb_prop in H. destruct H as [Hf Hb]. rewrite (frag1_isact f (proj1 (Nat.ltb_lt _ _) Hf)). exact Hb.
Qed.

(** an F1 constraint is an F2 constraint: the factor is of [act_design] and has sustain 1 *)
Lemma frag1_constraint k : constraint_f1 fb k = true -> constraint_f2 fb k = true.
Proof.
  destruct k; cbn [constraint_f1 constraint_f2]; try (intros H; first [exact H | discriminate H]);
    rewrite <- ?andb_assoc, ?frag1_sustain_of, ?Nat.eqb_refl, ?andb_true_r; apply frag1_isact_and.
Qed.

Lemma frag1_act_sorted : act_sorted fb = true.
Proof.
  unfold act_sorted. rewrite frag1_act, filter_all; [apply nat_list_eqb_refl|].
  intros f Hf. apply in_seq in Hf. apply frag1_isact, Hf.
Qed.

Lemma frag1_factors_ok : factors_ok fb = true.
Proof.
  destruct frag1_parts as (_ & _ & _ & _ & H5 & _). unfold all_basic in H5. rewrite forallb_forall in H5.
  unfold factors_ok. apply forallb_forall. intros [f fd] Hin. cbn [fst snd].
  rewrite frag1_isact by (apply in_combine_l, in_seq in Hin; apply Hin).
  unfold basic_fd. rewrite (H5 fd (in_combine_r _ _ _ _ Hin)). reflexivity.
Qed.

Lemma frag1_plain_crossings : plain_crossings fb = true.
Proof.
  destruct frag1_shape as (c & s0 & Ec & Es & Ew & Ep & Ez & Hnd & Hlt & Hal & Hsz).
  unfold plain_crossings, main_crossing_of, main_idx. rewrite Ec, Es, Ew, Ep, Ez.
  cbn [length forallb existsb combine Nat.ltb Nat.leb Nat.eqb andb orb main_idx_of nth first_index_of].
  unfold crossing_plain. rewrite Hnd, Hal. cbn [andb].
  replace (forallb (isact fb) c) with true
    by (symmetry; apply forallb_forall; intros f Hf; apply frag1_isact; rewrite forallb_forall in Hlt; apply Nat.ltb_lt, Hlt, Hf).
  replace (forallb (fun f => sustain_of fb f =? 1) c) with true
    by (symmetry; apply forallb_forall; intros f _; apply Nat.eqb_eq, frag1_sustain_of).
  rewrite nat_list_eqb_refl, Nat.mod_1_r. cbn [andb Nat.eqb]. unfold crossing_size_ok.
  rewrite (list_sum_const (fun ls => combo_weight fb (combine c ls)) 1), Nat.mul_1_r by (intros ls _; apply (frag1_combo_weight c ls Ec)).
  rewrite frag1_allowed_combos, Nat.mul_1_r, Hsz. cbn [andb]. rewrite frag1_sustain_of.
  destruct c as [|f0 c']; [reflexivity | rewrite frag1_sustain_of; reflexivity].
Qed.

(** F1 is the part of F2 without weights, with one crossing and without implied factors *)
Theorem frag1_frag2 : frag2 fb = true.
Proof.
  destruct frag1_parts as (_ & H2 & H3 & _ & _ & _ & _ & _ & H9 & H10).
  unfold frag2. rewrite frag1_plain_crossings, H3, frag1_act_sorted, frag1_factors_ok, frag1_no_derived.
  rewrite (proj2 (forallb_forall _ _) (fun k Hk => frag1_constraint k (proj1 (forallb_forall _ _) H2 k Hk))).
  unfold act_levels_nonempty. rewrite frag1_act. unfold free_levels_nonempty in H9. rewrite H9.
  destruct frag1_shape as (c & s0 & Ec & _). rewrite Ec. cbn [andb negb orb length Nat.eqb]. rewrite !andb_true_r. exact H10.
Qed.

(** without implied factors nothing is added to the candidate *)
Lemma frag1_cand_seq r : cand_seq fb r = tseq_of_run fb r.
Proof.
  unfold cand_seq, fill_implied. unfold tseq_of_run at 2.
  apply map_ext_in. intros f Hf. apply in_seq in Hf. rewrite (frag1_isact f (proj2 Hf)). apply tseq_nth, Hf.
Qed.

Lemma frag1_cand_fseq k : cand_fseq fb k = cand_tseq fb k.
Proof. unfold cand_fseq, cand_tseq. destruct (decode_key fb k); [apply frag1_cand_seq | reflexivity]. Qed.

Lemma frag1_main_idx : main_idx fb = 0.
Proof. destruct frag1_shape as (c & s0 & _ & Es & _). unfold main_idx. rewrite Es. reflexivity. Qed.

Lemma frag1_weight : the_weight fb = 1.
Proof. destruct frag1_shape as (c & s0 & _ & _ & Ew & _). unfold the_weight. rewrite frag1_main_idx, Ew. reflexivity. Qed.

Lemma frag1_unw : f0_unw fb = true.
Proof.
  unfold f0_unw, p_unw. rewrite (f0_cws_eq fb frag1_frag2). apply forallb_forall. intros x Hx.
  apply in_map_iff in Hx. destruct Hx as [ls [E _]]. subst x. unfold f0_cw.
  rewrite frag1_combo_weight; [rewrite frag1_weight; reflexivity|].
  destruct frag1_shape as (c & s0 & Ec & _). unfold the_crossing, main_crossing_of. rewrite frag1_main_idx, Ec. reflexivity.
Qed.

Local Notation H2 := frag1_frag2.
Local Notation en := (f0_enum_plain fb).
Local Notation S0 := (code_sem fb).

Lemma f1_make_enumerator : make_enumerator fb = ROk en.
Proof. apply (f0_make_enumerator_plain fb H2 frag1_unw frag1_no_derived). Qed.

Lemma f1_enumerates : enumerates fb.
Proof. apply (f2_enumerates fb H2). Qed.

Lemma f1_keys_of_ok k : In k (keys_of fb) -> key_ok fb k.
Proof. apply (f2_keys_of_ok fb H2). Qed.

Lemma f1_decode_key k : key_ok fb k ->
  exists r, decode_key fb k = Some r /\ forall g, row_of_run r g = decoded_row fb k g.
Proof.
  intros Hk. destruct (f2_decode_key fb H2 k Hk) as [r [Hd Hr]].
  exists r. split; [exact Hd|]. intros g. rewrite Hr. unfold cand_row. rewrite (f0_no_derived_ucd fb H2 frag1_no_derived). reflexivity.
Qed.

Theorem f1_accept_sound k cand :
  In k (keys_of fb) -> decode_key fb k = Some cand -> accepts fb cand = true ->
  valid_b S0 (tseq_of_run fb cand) = true.
Proof. rewrite <- frag1_cand_seq. apply (f2_accept_sound fb H2). Qed.

Theorem f1_cand_inj k1 k2 c1 c2 :
  In k1 (keys_of fb) -> In k2 (keys_of fb) ->
  decode_key fb k1 = Some c1 -> decode_key fb k2 = Some c2 ->
  tseq_of_run fb c1 = tseq_of_run fb c2 -> k1 = k2.
Proof. rewrite <- !frag1_cand_seq. apply (f2_cand_inj fb H2). Qed.

Theorem f1_keys_nodup : NoDup (keys_of fb).
Proof. apply (f2_keys_nodup fb H2). Qed.

(** the number of keys RandomGen draws from is [possible_keys] *)
Theorem f1_keys_count : fl_errors_fail fb = false ->
  make_enumerator fb = ROk en /\ Z.of_nat (length (keys_of fb)) = possible_keys fb en.
Proof.
  intros He. split; [apply f1_make_enumerator | apply (f2_keys_count fb H2 en f1_make_enumerator He)].
Qed.

Theorem f1_accept_complete s :
  fl_errors_fail fb = false -> valid_b S0 s = true ->
  exists k cand, In k (keys_of fb) /\ decode_key fb k = Some cand /\ accepts fb cand = true /\
                 tseq_of_run fb cand = s.
Proof.
  intros He Hv. destruct (f2_accept_complete fb H2 s He Hv) as (k & cand & H).
  exists k, cand. rewrite <- frag1_cand_seq. exact H.
Qed.

Lemma key_accepted_spec k : In k (keys_of fb) ->
  key_accepted fb k = valid_b S0 (cand_tseq fb k).
Proof. rewrite <- frag1_cand_fseq. apply (f2_key_accepted_spec fb H2). Qed.

(** the valid sequences are exactly the candidates of the accepted keys, one key each *)
Theorem f1_accepted_exact :
  fl_errors_fail fb = false ->
  NoDup (map (cand_tseq fb) (accepted_keys fb)) /\
  (forall s, In s (map (cand_tseq fb) (accepted_keys fb)) <-> valid_b S0 s = true).
Proof.
  rewrite <- (map_ext _ _ frag1_cand_fseq). apply (f2_accepted_exact fb H2).
Qed.

Lemma f1_rejection_free_accepts k : rejection_free fb = true -> In k (keys_of fb) -> key_accepted fb k = true.
Proof. apply (f2_rejection_free_accepts fb H2). Qed.

Theorem f1_count_exact :
  fl_errors_fail fb = false -> rejection_free fb = true ->
  make_enumerator fb = ROk en /\
  NoDup (map (cand_tseq fb) (keys_of fb)) /\
  (forall s, In s (map (cand_tseq fb) (keys_of fb)) <-> valid_b S0 s = true) /\
  Z.of_nat (length (map (cand_tseq fb) (keys_of fb))) = possible_keys fb en.
Proof.
  intros He Hrf. split; [apply f1_make_enumerator|].
  rewrite <- (map_ext _ _ frag1_cand_fseq). apply (f2_count_exact fb H2 en f1_make_enumerator He Hrf).
Qed.

End F1T.
