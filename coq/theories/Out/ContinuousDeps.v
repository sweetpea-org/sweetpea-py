(** Proofs about Out/Continuous.v (property C22): what the constructor's
    [__check_dependency] accepts, exactly, and what that buys.

    The check (of /repo after the commits 91e3c5c and 97de4ab) walks the
    continuous factors in design order
    with the set of the names seen so far; every ContinuousFactor a factor
    depends on - directly, or as a factor of a ContinuousFactorWindow
    ([needed]) - must be in that set.

    - [dependency_check_exact]: acceptance <-> every needed continuous factor is
      an earlier continuous factor of the design;
    - [dependency_check_complete]: the <- direction on its own;
    - [dependency_check_sound]: an accepted design never raises while sampling
      and yields [T] values per factor.  The hypotheses are each necessary: distinct names (a second factor of the same name hides the
      first), no window over an EMPTY list of factors ([get_window_val] reads
      [outlist[0]]: [dependency_check_empty_window_refuted]), discrete
      dependents that are columns of the sample (not the business of this check:
      the block's design is), no string result in cumulative mode. *)
From Coq Require Import ZArith List Bool String Lia.
From SP Require Import Out.Continuous Out.ContinuousProofs Out.ContinuousLive.
Import ListNotations.
Open Scope Z_scope.

Lemma check_needed_spec : forall ns allf,
  check_needed ns allf = true <-> forall n, In n ns -> In n allf.
Proof.
  intros ns allf.
  assert (E : check_needed ns allf = forallb (fun n => mem n allf) ns).
  { induction ns as [|n tl IH]; cbn; [reflexivity|]. now destruct (mem n allf). }
  rewrite E, forallb_forall. split; intros H n Hn; apply mem_In, H, Hn.
Qed.

Lemma check_deps_of_spec : forall deps allf,
  check_deps_of deps allf = true <-> forall d n, In d deps -> In n (needed d) -> In n allf.
Proof.
  intros deps allf.
  assert (E : check_deps_of deps allf = forallb (fun d => check_needed (needed d) allf) deps).
  { induction deps as [|d tl IH]; cbn; [reflexivity|]. now destruct (check_needed (needed d) allf). }
  rewrite E, forallb_forall. split.
  - intros H d n Hd. apply check_needed_spec, H, Hd.
  - intros H d Hd. apply check_needed_spec. intros n. apply H, Hd.
Qed.

Lemma check_dependency_from_spec : forall fs allf,
  check_dependency_from fs allf = true <->
  forall pre f post d n, fs = pre ++ f :: post -> In d (cf_deps f) -> In n (needed d) ->
    In n allf \/ In n (map cf_name pre).
Proof.
  induction fs as [|f0 tl IH]; intros allf; cbn [check_dependency_from].
  - split; auto. intros _ pre f post d n Heq. destruct pre; discriminate.
  - destruct (check_deps_of (cf_deps f0) allf) eqn:Ed.
    + pose proof (proj1 (check_deps_of_spec _ _) Ed) as H0. rewrite IH. split.
      * intros H pre f post d n Heq Hd Hn. destruct pre as [|p pre']; cbn in Heq.
        -- injection Heq as <- _. left. eapply H0; eauto.
        -- injection Heq as <- Heq. destruct (H pre' f post d n Heq Hd Hn) as [[<-|Hi]|Hi]; cbn; auto.
      * intros H pre f post d n Heq Hd Hn.
        destruct (H (f0 :: pre) f post d n) as [Hi|[<-|Hi]]; cbn; auto. now rewrite Heq.
    + split; [discriminate|]. intros H.
      assert (Ht : check_deps_of (cf_deps f0) allf = true).
      { apply check_deps_of_spec. intros d n Hd Hn.
        destruct (H [] f0 tl d n eq_refl Hd Hn) as [Hi|[]]. exact Hi. }
      congruence.
Qed.

(** ** Exactly what [__check_dependency] accepts *)
Theorem dependency_check_exact : forall fs,
  check_dependency fs = true <->
  forall pre f post d n, fs = pre ++ f :: post -> In d (cf_deps f) -> In n (needed d) ->
    In n (map cf_name pre).
Proof.
  intros fs. unfold check_dependency. rewrite check_dependency_from_spec. split; intros H pre f post d n Heq Hd Hn.
  - destruct (H pre f post d n Heq Hd Hn) as [[]|Hi]. exact Hi.
  - right. eauto.
Qed.

(** ** Completeness: continuous dependents, direct or through windows, that are
    earlier continuous factors of the design are accepted *)
Theorem dependency_check_complete : forall fs,
  (forall pre f post n, fs = pre ++ f :: post -> In (DCont n) (cf_deps f) -> In n (map cf_name pre)) ->
  (forall pre f post w g, fs = pre ++ f :: post -> In (DWin w) (cf_deps f) -> In g (w_factors w) ->
     In g (map cf_name pre)) ->
  check_dependency fs = true.
Proof.
  intros fs Hc Hw. apply dependency_check_exact. intros pre f post d n Heq Hd Hn.
  destruct d as [z|m|m|w]; cbn in Hn; try contradiction.
  - destruct Hn as [<-|[]]. eapply Hc; eauto.
  - eapply Hw; eauto.
Qed.

(** The second alternative never occurs: it is what the check before 91e3c5c
    allowed, and the form Properties/C22.v states. *)
Lemma dependency_check_partial : forall fs pre f post n,
  check_dependency fs = true -> fs = pre ++ f :: post -> In (DCont n) (cf_deps f) ->
  In n (map cf_name pre) \/ n = cf_name f.
Proof.
  intros fs pre f post n H Heq Hn. left.
  apply (proj1 (dependency_check_exact fs) H pre f post (DCont n) n Heq Hn). left. reflexivity.
Qed.

(** ** Soundness *)

(** An accepted design whose windows are non-empty and whose discrete
    dependents are columns of the sampled trials is well ordered. *)
Lemma check_dependency_well_ordered : forall T trial fs,
  check_dependency fs = true ->
  (forall f w, In f fs -> In (DWin w) (cf_deps f) -> w_factors w <> []) ->
  (forall f n, In f fs -> In (DDisc n) (cf_deps f) -> exists l, get trial n = Some l /\ (T <= List.length l)%nat) ->
  well_ordered T trial fs.
Proof.
  intros T trial fs Hchk Hwin Hdisc pre f post d Heq Hd.
  pose proof (proj1 (dependency_check_exact fs) Hchk) as Hex.
  assert (Hf : In f fs) by (rewrite Heq; apply in_or_app; right; left; reflexivity).
  destruct d as [z|n|n|w]; cbn.
  - exact I.
  - eapply Hdisc; eauto.
  - apply (Hex pre f post (DCont n) n Heq Hd). left. reflexivity.
  - split; [eapply Hwin; eauto|]. intros g Hg. apply (Hex pre f post (DWin w) g Heq Hd). exact Hg.
Qed.

Section Sound.
Variable gen : string -> nat -> nat -> list input -> val.

Theorem dependency_check_sound : forall T trial fs a log,
  NoDup (map cf_name fs) -> check_dependency fs = true ->
  (* a window has at least one factor *)
  (forall f w, In f fs -> In (DWin w) (cf_deps f) -> w_factors w <> []) ->
  (* discrete dependents are columns of the sampled trials *)
  (forall f n, In f fs -> In (DDisc n) (cf_deps f) -> exists l, get trial n = Some l /\ (T <= List.length l)%nat) ->
  (* cumulative mode adds the result to a float *)
  (forall f, In f fs -> cf_cumulative f = true -> forall a i inp t, gen (cf_name f) a i inp <> VStr t) ->
  exists out log', _sample_continuous gen T trial fs a log = Ok (out, log') /\
    forall f, In f fs -> exists vs, get out (cf_name f) = Some vs /\ List.length vs = T.
Proof.
  intros T trial fs a log Hnd Hchk Hwin Hdisc Hgen.
  destruct (sample_total gen T trial fs a log Hnd) as (out & log' & E);
    eauto using check_dependency_well_ordered.
  exists out, log'. split; auto.
  apply _sample_continuous_inv in E; auto. tauto.
Qed.

(** ... hence, with well-formed constraints, no attempt of the resample loop
    raises on an accepted design. *)
Theorem accepted_attempt_total : forall T trial fs cs a,
  NoDup (map cf_name fs) -> check_dependency fs = true ->
  (forall f w, In f fs -> In (DWin w) (cf_deps f) -> w_factors w <> []) ->
  (forall f n, In f fs -> In (DDisc n) (cf_deps f) -> exists l, get trial n = Some l /\ (T <= List.length l)%nat) ->
  (forall f, In f fs -> cf_cumulative f = true -> forall a i inp t, gen (cf_name f) a i inp <> VStr t) ->
  constraints_wf fs cs ->
  forall e, attempt gen T trial fs cs a <> Raise e.
Proof.
  intros T trial fs cs a Hnd Hchk Hwin Hdisc Hgen Hcw.
  apply attempt_total; eauto using check_dependency_well_ordered.
Qed.

End Sound.

(** The hypothesis on windows cannot be dropped: a window over no factor is
    accepted, and sampling raises IndexError ([outlist[0]]). *)
Local Open Scope string_scope.
Definition empty_window_design : list cfactor :=
  [ {| cf_name := "c0"; cf_deps := [DWin (window_post_init [] 2 1 None)]; cf_cumulative := false |} ].

Lemma dependency_check_empty_window_refuted :
  exists fs T trial, NoDup (map cf_name fs) /\ check_dependency fs = true /\
    forall gen a, _sample_continuous gen T trial fs a [] = Err IndexError.
Proof.
  exists empty_window_design, 2%nat, []. split; [|split].
  - repeat constructor; cbn; intuition.
  - reflexivity.
  - intros gen a. reflexivity.
Qed.
Local Close Scope string_scope.

(** * The concrete design of Out/ContinuousProofs.v satisfies the hypotheses *)
Local Open Scope string_scope.

Lemma ex_gen_nostr : forall name a i inp t, ex_gen name a i inp <> VStr t.
Proof.
  intros name a i inp t. unfold ex_gen. destruct (String.eqb name "rt"); [discriminate|].
  repeat match goal with |- context[match ?x with _ => _ end] => destruct x end; discriminate.
Qed.

Lemma ex_check_dependency : check_dependency ex_fs = true.
Proof. reflexivity. Qed.

Lemma ex_well_ordered : forall tr, In tr ex_trials -> well_ordered 3 tr ex_fs.
Proof.
  intros tr Htr. apply check_dependency_well_ordered; [exact ex_check_dependency| |]; intros f x Hf Hd.
  all: cbn in Hf; repeat destruct Hf as [<-|Hf]; try contradiction.
  all: cbn in Hd; repeat destruct Hd as [Hd|Hd]; try discriminate; try contradiction; injection Hd as <-.
  - discriminate.
  - destruct Htr as [<-|[<-|[]]]; eexists; (split; [reflexivity|cbn; lia]).
Qed.

Lemma ex_constraints_wf : constraints_wf ex_fs ex_cs.
Proof.
  intros c [<-|[]]. split; [discriminate|]. intros n [<-|[]]. cbn. auto.
Qed.

(** the first attempt on the first sampled sequence is rejected, the second accepted *)
Lemma ex_attempts :
  attempt ex_gen 3 (hd [] ex_trials) ex_fs ex_cs 0 = Reject /\
  attempt ex_gen 3 (hd [] ex_trials) ex_fs ex_cs 1
  = Accept [("rt", [VNum 4; VNum 5; VNum 6]); ("diff", [VNaN; VNum 1; VNum 1]);
            ("total", [VNum 4; VNum 9; VNum 15]); ("mix", [VNum 7; VNum 13; VNum 18])].
Proof. split; vm_compute; reflexivity. Qed.

Local Close Scope string_scope.
