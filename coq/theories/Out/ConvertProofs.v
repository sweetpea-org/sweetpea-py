(** Proofs about Out/Convert.v: the three conversions transpose rectangular
    experiments for exactly the user-declared factor names, and no hidden
    (library-introduced) factor name is exposed. *)
From Coq Require Import ZArith List Bool String Lia.
From SP Require Import Base.Lists Out.Convert.
Import ListNotations.
Local Open Scope nat_scope.

Lemma fname_eqb_spec : forall a b, reflect (a = b) (fname_eqb a b).
Proof.
  intros [x|x] [y|y]; cbn; try (constructor; discriminate);
    (destruct (String.eqb_spec x y) as [->|N]; constructor; congruence).
Qed.

Lemma lookup_In : forall {A} k (d : dict A) v, lookup k d = Some v -> In (k, v) d.
Proof.
  induction d as [|[k' v'] tl IH]; cbn; intros v H; [discriminate|].
  destruct (fname_eqb_spec k k') as [->|N]; [inversion H; now left | right; apply IH; exact H].
Qed.

Lemma lookup_None_notin : forall {A} k (d : dict A), lookup k d = None -> ~ In k (map fst d).
Proof.
  induction d as [|[k' v'] tl IH]; cbn; intros H; [tauto|].
  destruct (fname_eqb_spec k k') as [->|N]; [discriminate|].
  intros [H1|H1]; [congruence | apply IH; assumption].
Qed.

Lemma lookup_in_keys : forall {A} k (d : dict A), In k (map fst d) -> lookup k d <> None.
Proof. intros A k d H E. apply lookup_None_notin in E. contradiction. Qed.

Lemma lookup_app : forall {A} k (d1 d2 : dict A),
  lookup k (d1 ++ d2) = match lookup k d1 with Some v => Some v | None => lookup k d2 end.
Proof.
  induction d1 as [|[k' v'] tl IH]; cbn; intros d2; [reflexivity|].
  destruct (fname_eqb k k'); [reflexivity | apply IH].
Qed.

Lemma lookup_dict_set : forall {A} k k' (v : A) d,
  lookup k (dict_set k' v d) = if fname_eqb k k' then Some v else lookup k d.
Proof.
  induction d as [|[k2 v2] tl IH]; cbn.
  - reflexivity.
  - destruct (fname_eqb_spec k' k2) as [->|N2]; cbn.
    + destruct (fname_eqb k k2); reflexivity.
    + destruct (fname_eqb_spec k k2) as [->|N3]; [|exact IH].
      destruct (fname_eqb_spec k2 k') as [->|N4]; [contradiction|reflexivity].
Qed.

Lemma dict_set_keys : forall {A} k (v : A) d k2,
  In k2 (map fst (dict_set k v d)) -> k2 = k \/ In k2 (map fst d).
Proof.
  induction d as [|[k' v'] tl IH]; cbn; intros k2 H.
  - destruct H as [H|[]]. left. congruence.
  - destruct (fname_eqb k k'); cbn in H.
    + right. exact H.
    + destruct H as [H|H]; [right; left; exact H|].
      apply IH in H. destruct H; [left | right; right]; assumption.
Qed.

Lemma dict_set_NoDup : forall {A} k (v : A) d, NoDup (map fst d) -> NoDup (map fst (dict_set k v d)).
Proof.
  induction d as [|[k' v'] tl IH]; cbn; intros H.
  - constructor; [tauto | constructor].
  - destruct (fname_eqb_spec k k') as [->|N]; cbn; [exact H|].
    inversion H as [|x l H1 H2]; subst. constructor; [|apply IH; exact H2].
    intros Hin. apply dict_set_keys in Hin. destruct Hin as [Hin|Hin]; [|contradiction].
    now subst k'.
Qed.

Definition set_all {A} (ps : list (fname * A)) (d : dict A) : dict A :=
  fold_left (fun d kv => dict_set (fst kv) (snd kv) d) ps d.

Lemma lookup_set_all : forall {A} k (ps : list (fname * A)) d,
  lookup k (set_all ps d) = match lookup k (rev ps) with Some v => Some v | None => lookup k d end.
Proof.
  unfold set_all. induction ps as [|[k' v'] tl IH]; cbn; intros d; [reflexivity|].
  rewrite IH, lookup_app, lookup_dict_set. cbn.
  destruct (lookup k (rev tl)); [reflexivity|]. destruct (fname_eqb k k'); reflexivity.
Qed.

Lemma set_all_keys : forall {A} (ps : list (fname * A)) d k,
  In k (map fst (set_all ps d)) -> In k (map fst ps) \/ In k (map fst d).
Proof.
  unfold set_all. induction ps as [|[k' v'] tl IH]; cbn; intros d k H; [right; exact H|].
  apply IH in H. destruct H as [H|H]; [left; right; exact H|].
  apply dict_set_keys in H. destruct H; [left; left; congruence | right; assumption].
Qed.

Lemma set_all_NoDup : forall {A} (ps : list (fname * A)) d, NoDup (map fst d) -> NoDup (map fst (set_all ps d)).
Proof.
  unfold set_all. induction ps as [|[k' v'] tl IH]; cbn; intros d H; [exact H|].
  apply IH. apply dict_set_NoDup. exact H.
Qed.

Lemma mapM_Ok : forall {A B} (f : A -> res B) l ys,
  mapM f l = Ok ys <-> Forall2 (fun x y => f x = Ok y) l ys.
Proof.
  induction l as [|x tl IH]; cbn; intros ys.
  - split; [intros H; inversion H; constructor | intros H; inversion H; reflexivity].
  - split.
    + destruct (f x) eqn:E; [|discriminate]. destruct (mapM f tl) eqn:E2; [|discriminate].
      intros H. inversion H. subst. constructor; [exact E | apply IH; reflexivity].
    + intros H. inversion H as [|x0 y l0 l' H1 H2]; subst. rewrite H1.
      apply IH in H2. rewrite H2. reflexivity.
Qed.

Lemma mapM_total : forall {A B} (f : A -> res B) l,
  (forall x, In x l -> exists y, f x = Ok y) -> exists ys, mapM f l = Ok ys.
Proof.
  induction l as [|x tl IH]; cbn; intros H; [eexists; reflexivity|].
  destruct (H x (or_introl eq_refl)) as [y Hy]. rewrite Hy.
  destruct IH as [ys Hys]; [intros z Hz; apply H; right; exact Hz|]. rewrite Hys. eexists; reflexivity.
Qed.

Lemma mapM_map : forall {A B} (f : A -> res B) (g : A -> B) l,
  (forall x, In x l -> f x = Ok (g x)) -> mapM f l = Ok (map g l).
Proof.
  induction l as [|x tl IH]; cbn; intros H; [reflexivity|].
  rewrite (H x (or_introl eq_refl)), IH; [reflexivity | intros y Hy; apply H; right; exact Hy].
Qed.

(** * Rectangular experiments and the cell relation *)

Definition rectangular (n : nat) (e : experiment) : Prop :=
  Forall (fun kv => List.length (snd kv) = n) e.

(** [v] is [e[k][t]]. *)
Definition cell (e : experiment) (k : fname) (t : nat) (v : value) : Prop :=
  exists col, lookup k e = Some col /\ nth_error col t = Some v.

Lemma cell_fun : forall e k t v v', cell e k t v -> cell e k t v' -> v = v'.
Proof. intros e k t v v' [c [H1 H2]] [c' [H3 H4]]. congruence. Qed.

Lemma rectangular_lookup : forall n e k col, rectangular n e -> lookup k e = Some col -> List.length col = n.
Proof.
  intros n e k col H L. apply lookup_In in L. unfold rectangular in H. rewrite Forall_forall in H.
  apply (H (k, col)). exact L.
Qed.

Lemma getitem_Ok : forall {A} k (d : dict A) v, getitem k d = Ok v <-> lookup k d = Some v.
Proof. intros A k d v. unfold getitem. destruct (lookup k d); split; congruence. Qed.

Lemma columns_spec : forall keys e cols,
  columns keys e = Ok cols -> Forall2 (fun k c => lookup k e = Some c) keys cols.
Proof.
  unfold columns. intros keys e cols H. apply mapM_Ok in H. eapply Forall2_imp; [|exact H].
  intros k c. apply getitem_Ok.
Qed.

Lemma columns_total : forall keys e,
  (forall k, In k keys -> lookup k e <> None) -> exists cols, columns keys e = Ok cols.
Proof.
  intros keys e H. apply mapM_total. intros k Hk.
  destruct (lookup k e) as [c|] eqn:E; [exists c; now apply getitem_Ok | exfalso; apply (H k Hk E)].
Qed.

(** * [zip( *cols )] *)

Lemma heads_spec : forall m cols,
  Forall (fun c => List.length c = S m) cols ->
  exists h, heads cols = Some h /\ Forall2 (fun c v => nth_error c 0 = Some v) cols h
            /\ Forall (fun c => List.length c = m) (map (@tl value) cols).
Proof.
  induction cols as [|c tl IH]; cbn; intros H.
  - exists []. repeat split; constructor.
  - inversion H as [|x l H1 H2]; subst. destruct c as [|x c']; [discriminate|].
    destruct (IH H2) as [h [E [F G]]]. rewrite E. exists (x :: h). repeat split.
    + constructor; [reflexivity | exact F].
    + constructor; [cbn in H1; cbn; lia | exact G].
Qed.

Lemma zip_star_aux_spec : forall n c0 cols,
  List.length c0 = n -> Forall (fun c => List.length c = n) cols ->
  List.length (zip_star_aux c0 cols) = n /\
  forall t row, nth_error (zip_star_aux c0 cols) t = Some row ->
                Forall2 (fun c v => nth_error c t = Some v) cols row.
Proof.
  induction n as [|n IH]; intros c0 cols L F.
  - destruct c0; [|discriminate]. cbn. split; [reflexivity|]. intros [|t] row H; discriminate.
  - destruct c0 as [|x c0']; [discriminate|]. cbn.
    destruct (heads_spec n cols F) as [h [E [F1 F2]]]. rewrite E.
    destruct (IH c0' (map (@tl value) cols)) as [L2 R2]; [cbn in L; lia | exact F2 |].
    split; [cbn; rewrite L2; reflexivity|].
    intros [|t] row H; cbn in H.
    + inversion H; subst. exact F1.
    + apply R2, Forall2_map_l in H. eapply Forall2_imp; [|exact H].
      intros c v Hc. destruct c; [destruct t; discriminate | exact Hc].
Qed.

Lemma zip_star_spec : forall n cols,
  cols <> [] -> Forall (fun c => List.length c = n) cols ->
  List.length (zip_star cols) = n /\
  forall t row, nth_error (zip_star cols) t = Some row ->
                Forall2 (fun c v => nth_error c t = Some v) cols row.
Proof.
  intros n cols NE F. destruct cols as [|c cols']; [contradiction|]. unfold zip_star.
  apply zip_star_aux_spec; [inversion F; assumption | exact F].
Qed.

(** One experiment: the rows of [zip( *[e[k] for k in keys] )]. *)
Definition transposed (keys : list fname) (e : experiment) (n : nat) (rows : list (list value)) : Prop :=
  List.length rows = n /\
  forall t row, nth_error rows t = Some row -> Forall2 (fun k v => cell e k t v) keys row.

Lemma rows_of_columns : forall keys e n cols,
  keys <> [] -> rectangular n e -> columns keys e = Ok cols -> transposed keys e n (zip_star cols).
Proof.
  intros keys e n cols NE R C. apply columns_spec in C.
  assert (F : Forall (fun c => List.length c = n) cols).
  { clear NE. induction C as [|k c l l' H1 H2 IH]; constructor; [|exact IH].
    eapply rectangular_lookup; eassumption. }
  assert (NE' : cols <> []). { intros ->. inversion C. subst. contradiction. }
  destruct (zip_star_spec n cols NE' F) as [L Hr]. split; [exact L|].
  intros t row Ht. apply Hr in Ht. clear - C Ht.
  revert row Ht. induction C as [|k c l l' H1 H2 IH]; intros row Ht; inversion Ht; subst; constructor.
  - exists c. split; assumption.
  - apply IH. assumption.
Qed.

Theorem tuples_transpose : forall keys exps out,
  tuples_of keys exps = Ok out ->
  Forall2 (fun e rows => forall n, keys <> [] -> rectangular n e -> transposed keys e n rows) exps out.
Proof.
  unfold tuples_of. intros keys exps out H. apply mapM_Ok in H. eapply Forall2_imp; [|exact H].
  intros e rows H1 n NE R. cbv beta in H1. destruct (columns keys e) as [cols|] eqn:C; [|discriminate]. inversion H1; subst.
  eapply rows_of_columns; eassumption.
Qed.

(** [tuples_of] and [dicts_of] apply a total function to the columns of each experiment. *)
Lemma rows_total : forall {B} (g : list (list value) -> B) keys exps,
  (forall e k, In e exps -> In k keys -> lookup k e <> None) ->
  exists out, mapM (fun e => match columns keys e with Err x => Err x | Ok cols => Ok (g cols) end) exps = Ok out.
Proof.
  intros B g keys exps H. apply mapM_total. intros e He.
  destruct (columns_total keys e) as [cols C]; [intros k Hk; apply (H e k He Hk)|].
  rewrite C. eexists; reflexivity.
Qed.

(** [d] is the dict [{k: e[k][t] for k in keys}]. *)
Definition row_dict (keys : list fname) (e : experiment) (t : nat) (d : dict value) : Prop :=
  (forall k, In k keys -> exists v, lookup k d = Some v /\ cell e k t v) /\
  (forall k, In k (map fst d) -> In k keys) /\ NoDup (map fst d).

Lemma combine_In_Forall2 : forall {A B} (R : A -> B -> Prop) l l' a b,
  Forall2 R l l' -> In (a, b) (combine l l') -> R a b.
Proof.
  intros A B R l l' a b H. induction H as [|x y l l' H1 H2 IH]; cbn; [tauto|].
  intros [E|E]; [inversion E; subst; exact H1 | apply IH; exact E].
Qed.

Lemma dict_of_row : forall keys e t row,
  Forall2 (fun k v => cell e k t v) keys row -> row_dict keys e t (dict_of_pairs (combine keys row)).
Proof.
  intros keys e t row F. unfold dict_of_pairs. change (fold_left _ ?ps []) with (set_all ps (@nil (fname * value))).
  assert (Hk : map fst (combine keys row) = keys) by (apply map_fst_combine; eapply Forall2_length; exact F).
  repeat split.
  - intros k Hin. rewrite lookup_set_all. cbn.
    destruct (lookup k (rev (combine keys row))) as [v|] eqn:L.
    + exists v. split; [reflexivity|]. apply lookup_In in L. apply in_rev in L.
      eapply (combine_In_Forall2 (fun k v => cell e k t v)); eassumption.
    + exfalso. apply lookup_None_notin in L. apply L. rewrite map_rev, <- in_rev, Hk. exact Hin.
  - intros k Hin. apply set_all_keys in Hin. destruct Hin as [Hin|[]]. rewrite Hk in Hin. exact Hin.
  - apply set_all_NoDup. constructor.
Qed.

Theorem dicts_transpose : forall keys exps out,
  dicts_of keys exps = Ok out ->
  Forall2 (fun e rows => forall n, keys <> [] -> rectangular n e ->
             List.length rows = n /\ forall t d, nth_error rows t = Some d -> row_dict keys e t d) exps out.
Proof.
  unfold dicts_of. intros keys exps out H. apply mapM_Ok in H. eapply Forall2_imp; [|exact H].
  intros e rows H1 n NE R. cbv beta in H1. destruct (columns keys e) as [cols|] eqn:C; [|discriminate]. inversion H1; subst.
  destruct (rows_of_columns keys e n cols NE R C) as [L Hr]. split; [rewrite map_length; exact L|].
  intros t d Hd. rewrite nth_error_map in Hd. destruct (nth_error (zip_star cols) t) as [row|] eqn:E; [|discriminate].
  inversion Hd; subst. apply dict_of_row. apply Hr. exact E.
Qed.

Lemma seq_nth_error : forall n s t, t < n -> nth_error (seq s n) t = Some (s + t).
Proof.
  induction n as [|n IH]; intros s t H; [lia|]. destruct t as [|t]; cbn; [f_equal; lia|].
  rewrite IH by lia. f_equal. lia.
Qed.

Theorem csv_one_rows : forall cols e hdr rows n,
  csv_one cols e = Ok (hdr, rows) -> rectangular n e ->
  hdr = cols /\ cols <> [] /\ transposed cols e n rows.
Proof.
  unfold csv_one. intros cols e hdr rows n H R. destruct cols as [|c0 cols']; [discriminate|].
  remember (c0 :: cols') as cols eqn:Ec.
  destruct (getitem c0 e) as [col0|] eqn:G; [|discriminate].
  match type of H with context [mapM ?f ?l] => destruct (mapM f l) as [rs|] eqn:M; [|discriminate] end.
  inversion H; subst hdr rows. split; [reflexivity|]. split; [subst cols; discriminate|].
  apply mapM_Ok in M.
  assert (L0 : List.length col0 = n).
  { apply getitem_Ok in G. eapply rectangular_lookup; eassumption. }
  split.
  - apply Forall2_length in M. rewrite seq_length in M. lia.
  - intros t row Ht. destruct (Forall2_nth_error_r _ _ _ _ _ M Ht) as [idx [Hi Hrow]].
    assert (t < n).
    { apply Forall2_length in M. rewrite seq_length in M.
      assert (t < List.length rs) by (apply nth_error_Some; congruence). lia. }
    rewrite seq_nth_error in Hi by lia. inversion Hi; subst idx. cbn in Hrow.
    apply mapM_Ok in Hrow. clear - Hrow.
    induction Hrow as [|k v l l' H1 H2 IH]; constructor; [|exact IH].
    unfold getitem, index_nat in H1. destruct (lookup k e) as [col|] eqn:L; [|discriminate].
    destruct (nth_error col t) eqn:N; inversion H1; subst. exists col. split; assumption.
Qed.

Theorem csv_rows : forall cols exps out,
  csv_of cols exps = Ok out ->
  Forall2 (fun e file => forall n, rectangular n e ->
             fst file = cols /\ transposed cols e n (snd file)) exps out.
Proof.
  unfold csv_of. intros cols exps out H. apply mapM_Ok in H. eapply Forall2_imp; [|exact H].
  intros e [hdr rows] H1 n R. destruct (csv_one_rows _ _ _ _ _ H1 R) as [A [_ B]]. split; assumption.
Qed.

Theorem csv_total : forall cols exps n,
  cols <> [] -> (forall e, In e exps -> rectangular n e) ->
  (forall e k, In e exps -> In k cols -> lookup k e <> None) -> exists out, csv_of cols exps = Ok out.
Proof.
  intros cols exps n NE R H. apply mapM_total. intros e He. unfold csv_one.
  destruct cols as [|c0 cols']; [contradiction|]. remember (c0 :: cols') as cols eqn:Ec.
  assert (H0 : lookup c0 e <> None) by (apply (H e c0 He); subst cols; left; reflexivity).
  unfold getitem at 1. destruct (lookup c0 e) as [col0|] eqn:L0; [|contradiction].
  assert (Ln : List.length col0 = n) by (eapply rectangular_lookup; [apply R; exact He | exact L0]).
  match goal with |- context [mapM ?f ?l] => destruct (mapM_total f l) as [rs M] end.
  - intros idx Hidx. apply in_seq in Hidx. apply mapM_total. intros k Hk. unfold getitem.
    destruct (lookup k e) as [col|] eqn:L; [|exfalso; apply (H e k He Hk L)].
    assert (List.length col = n) by (eapply rectangular_lookup; [apply R; exact He | exact L]).
    unfold index_nat. destruct (nth_error col idx) eqn:N; [eexists; reflexivity|].
    apply nth_error_None in N. lia.
  - rewrite M. eexists; reflexivity.
Qed.

(** * Which keys the conversions use; hidden names *)

Lemma filter_hidden_spec : forall design k, In k (filter_hidden design) <-> In k design /\ is_hidden k = false.
Proof.
  intros design k. unfold filter_hidden. rewrite filter_In. destruct (is_hidden k); cbn; intuition congruence.
Qed.

(** The conversions use exactly the user-declared factor names, in declaration order. *)
Theorem conv_keys_user_declared : forall d, conv_keys d = user_names d.
Proof.
  intros d. unfold conv_keys, filter_hidden, user_names. induction d as [|f tl IH]; cbn; [reflexivity|].
  f_equal. exact IH.
Qed.

Lemma In_user_names : forall k d, In k (user_names d) <-> exists f, In f d /\ k = Plain (uname f).
Proof.
  intros k d. unfold user_names. rewrite in_map_iff. split; intros [f [A B]]; exists f; auto.
Qed.

Lemma user_names_not_hidden : forall d, Forall (fun k => is_hidden k = false) (user_names d).
Proof. intros d. apply Forall_forall. intros k H. apply In_user_names in H. destruct H as [f [_ ->]]. reflexivity. Qed.

(** [block.design] names are user-declared names, possibly hidden-wrapped. *)
Lemma block_design_names : forall cr d k, In k (block_design cr d) ->
  exists f, In f d /\ (k = Plain (uname f) \/ k = Hidden (uname f)).
Proof.
  intros cr d k H. unfold block_design in H. apply in_map_iff in H. destruct H as [[k' f] [E H]]. cbn in E. subst k'.
  apply filter_In in H. destruct H as [H _]. unfold desugar_design in H. apply in_flat_map in H.
  destruct H as [g [Hg H]]. exists g. split; [exact Hg|].
  destruct (is_weighted cr g); cbn in H; intuition (try congruence); inversion H0; auto.
Qed.

Lemma filter_hidden_keys_lookup : forall {A} k (d : dict A),
  lookup k (filter_hidden_keys d) = if is_hidden k then None else lookup k d.
Proof.
  unfold filter_hidden_keys. induction d as [|[k' v'] tl IH]; cbn; [destruct (is_hidden k); reflexivity|].
  destruct (is_hidden k') eqn:Hk'; cbn.
  - rewrite IH. destruct (fname_eqb_spec k k') as [->|N]; [now rewrite Hk'|reflexivity].
  - destruct (fname_eqb_spec k k') as [->|N]; [now rewrite Hk'|exact IH].
Qed.

Lemma filter_hidden_keys_plain : forall {A} (d : dict A), Forall (fun kv => is_hidden (fst kv) = false) (filter_hidden_keys d).
Proof.
  intros A d. unfold filter_hidden_keys. apply Forall_forall. intros kv H. apply filter_In in H.
  destruct H as [_ H]. destruct (is_hidden (fst kv)); [discriminate | reflexivity].
Qed.

(** What [synthesize_trials] returns has no hidden key, and for a [str] key it
    is the continuous sample if there is one, else the sampled / implied column. *)
Theorem synth_post_spec : forall with_implied cont,
  Forall (fun kv => is_hidden (fst kv) = false) cont ->
  Forall (fun kv => is_hidden (fst kv) = false) (synth_post with_implied cont) /\
  forall s, lookup (Plain s) (synth_post with_implied cont) =
            match lookup (Plain s) (rev cont) with Some v => Some v | None => lookup (Plain s) with_implied end.
Proof.
  intros wi cont Hc. unfold synth_post. change (fold_left _ ?ps ?d) with (set_all ps d). split.
  - apply Forall_forall. intros [k v] Hin. cbn.
    assert (Hk : In k (map fst (set_all cont (filter_hidden_keys wi)))) by (apply in_map_iff; exists (k, v); auto).
    apply set_all_keys in Hk. destruct Hk as [Hk|Hk]; apply in_map_iff in Hk; destruct Hk as [[k' v'] [E Hin']]; cbn in E; subst k'.
    + rewrite Forall_forall in Hc. apply (Hc (k, v')). exact Hin'.
    + pose proof (filter_hidden_keys_plain wi) as F. rewrite Forall_forall in F. apply (F (k, v')). exact Hin'.
  - intros s. rewrite lookup_set_all, filter_hidden_keys_lookup. reflexivity.
Qed.

(** * The public functions, entry by entry *)

(** [rows] holds, for every trial [t < n] and every position [i], the value
    [exp[name of the i-th user-declared factor][t]]. *)
Definition entries (d : list ufactor) (exp : experiment) (n : nat) (rows : list (list value)) : Prop :=
  List.length rows = n /\
  forall t row, nth_error rows t = Some row ->
    List.length row = List.length d /\
    forall i f, nth_error d i = Some f ->
      exists v, nth_error row i = Some v /\ cell exp (Plain (uname f)) t v.

Lemma transposed_entries : forall d exp n rows,
  transposed (user_names d) exp n rows -> entries d exp n rows.
Proof.
  intros d exp n rows [L H]. split; [exact L|]. intros t row Ht. specialize (H t row Ht). split.
  - apply Forall2_length in H. unfold user_names in H. rewrite map_length in H. lia.
  - intros i f Hf.
    assert (Hk : nth_error (user_names d) i = Some (Plain (uname f))).
    { unfold user_names. rewrite nth_error_map, Hf. reflexivity. }
    destruct (Forall2_nth_error_l _ _ _ _ _ H Hk) as [v [Hv Hc]]. exists v. split; assumption.
Qed.

Lemma user_names_nil : forall d, d <> [] -> user_names d <> [].
Proof. intros [|f tl] H; [contradiction | discriminate]. Qed.

Theorem tuples_entry : forall d exps out,
  experiments_to_tuples d exps = Ok out ->
  List.length out = List.length exps /\
  forall e exp n, nth_error exps e = Some exp -> rectangular n exp -> d <> [] ->
    exists rows, nth_error out e = Some rows /\ entries d exp n rows.
Proof.
  unfold experiments_to_tuples. intros d exps out H. rewrite conv_keys_user_declared in H.
  apply tuples_transpose in H. split; [symmetry; eapply Forall2_length; exact H|].
  intros e exp n He R NE. destruct (Forall2_nth_error_l _ _ _ _ _ H He) as [rows [Hr Ht]].
  exists rows. split; [exact Hr|]. apply transposed_entries. apply Ht; [apply user_names_nil; exact NE | exact R].
Qed.

(** [dc] is [{name: exp[name][t]}] over exactly the user-declared names. *)
Definition dict_entries (d : list ufactor) (exp : experiment) (t : nat) (dc : dict value) : Prop :=
  (forall f, In f d -> exists v, lookup (Plain (uname f)) dc = Some v /\ cell exp (Plain (uname f)) t v) /\
  (forall k, In k (map fst dc) -> exists f, In f d /\ k = Plain (uname f)) /\
  NoDup (map fst dc).

Theorem dicts_entry : forall d exps out,
  experiments_to_dicts d exps = Ok out ->
  List.length out = List.length exps /\
  forall e exp n, nth_error exps e = Some exp -> rectangular n exp -> d <> [] ->
    exists rows, nth_error out e = Some rows /\ List.length rows = n /\
      forall t dc, nth_error rows t = Some dc -> dict_entries d exp t dc.
Proof.
  unfold experiments_to_dicts. intros d exps out H. rewrite conv_keys_user_declared in H.
  apply dicts_transpose in H. split; [symmetry; eapply Forall2_length; exact H|].
  intros e exp n He R NE. destruct (Forall2_nth_error_l _ _ _ _ _ H He) as [rows [Hr Ht]].
  exists rows. split; [exact Hr|]. destruct (Ht n (user_names_nil d NE) R) as [L Hd]. split; [exact L|].
  intros t dc Hdc. destruct (Hd t dc Hdc) as [A [B C]]. repeat split.
  - intros f Hf. apply A, In_user_names. exists f. auto.
  - intros k Hk. apply In_user_names, B, Hk.
  - exact C.
Qed.

Theorem csv_entry : forall d exps out,
  save_experiments_csv d exps = Ok out ->
  List.length out = List.length exps /\
  forall e exp n, nth_error exps e = Some exp -> rectangular n exp ->
    exists file, nth_error out e = Some file /\ fst file = user_names d /\ entries d exp n (snd file).
Proof.
  unfold save_experiments_csv. intros d exps out H. rewrite conv_keys_user_declared in H.
  apply csv_rows in H. split; [symmetry; eapply Forall2_length; exact H|].
  intros e exp n He R. destruct (Forall2_nth_error_l _ _ _ _ _ H He) as [file [Hf Ht]].
  exists file. split; [exact Hf|]. destruct (Ht n R) as [A B]. split; [exact A|].
  apply transposed_entries. exact B.
Qed.

(** The conversions succeed on every well-formed input. *)
Definition well_formed (d : list ufactor) (n : nat) (exps : list experiment) : Prop :=
  forall exp, In exp exps -> rectangular n exp /\ forall f, In f d -> lookup (Plain (uname f)) exp <> None.

Theorem conversions_total : forall d n exps,
  d <> [] -> well_formed d n exps ->
  (exists o, experiments_to_tuples d exps = Ok o) /\ (exists o, experiments_to_dicts d exps = Ok o) /\
  (exists o, save_experiments_csv d exps = Ok o).
Proof.
  intros d n exps NE W. unfold experiments_to_tuples, experiments_to_dicts, save_experiments_csv.
  rewrite conv_keys_user_declared.
  assert (K : forall e k, In e exps -> In k (user_names d) -> lookup k e <> None).
  { intros e k He Hk. apply In_user_names in Hk. destruct Hk as [f [Hf ->]]. apply (W e He). exact Hf. }
  repeat split.
  - apply rows_total. exact K.
  - apply rows_total. exact K.
  - apply (csv_total _ _ n); [apply user_names_nil; exact NE | intros e He; apply (W e He) | exact K].
Qed.

(** Hidden names: every key that can be seen from outside is a user-declared
    [str] name, although [block.design] (the keys of the sampled experiment)
    contains a hidden factor for every desugared weighted factor. *)
Theorem hidden_never_exposed :
  (forall d, conv_keys d = user_names d /\ Forall (fun k => is_hidden k = false) (conv_keys d)) /\
  (forall with_implied cont,
     Forall (fun kv => is_hidden (fst kv) = false) cont ->
     Forall (fun kv => is_hidden (fst kv) = false) (synth_post with_implied cont) /\
     forall s, lookup (Plain s) (synth_post with_implied cont) =
               match lookup (Plain s) (rev cont) with Some v => Some v | None => lookup (Plain s) with_implied end) /\
  (forall cr d f, In f d -> is_weighted cr f = true ->
     In (Hidden (uname f)) (block_design cr d) /\ ~ In (Hidden (uname f)) (conv_keys d)).
Proof.
  split; [|split].
  - intros d. rewrite conv_keys_user_declared. split; [reflexivity | apply user_names_not_hidden].
  - exact synth_post_spec.
  - intros cr d f Hf W. split.
    + unfold block_design. apply in_map_iff. exists (Hidden (uname f), f). split; [reflexivity|].
      apply filter_In. split.
      * unfold desugar_design. apply in_flat_map. exists f. split; [exact Hf|]. rewrite W. left. reflexivity.
      * cbn. destruct f; cbn in *; try discriminate. reflexivity.
    + intros Hin. apply filter_hidden_spec in Hin. destruct Hin as [_ Hin]. discriminate.
Qed.
