(** Proofs about Out/Tabulate.v against the reference semantics Out/TabulateSpec.v. *)
From Coq Require Import ZArith List Bool String Lia.
From SP Require Import Base.Lists Design.ListSums Out.Convert Out.ConvertProofs Out.Tabulate Out.TabulateSpec.
Import ListNotations.
Local Open Scope Z_scope.

Lemma value_eqb_eq : forall a b, value_eqb a b = true <-> a = b.
Proof.
  intros [x|x] [y|y]; cbn; try (split; [discriminate | intros H; inversion H]).
  - rewrite String.eqb_eq. split; [intros ->; reflexivity | intros H; inversion H; reflexivity].
  - rewrite Z.eqb_eq. split; [intros ->; reflexivity | intros H; inversion H; reflexivity].
Qed.

Lemma py_index_pyget : forall {A} (col : list A) t,
  py_index col t = match pyget col t with Some v => Ok v | None => Err IndexError end.
Proof.
  intros A col t. unfold py_index, pyget. set (n := Z.of_nat (List.length col)).
  destruct (t <? 0) eqn:E1, (0 <=? t) eqn:E2; try lia.
  - destruct (0 <=? t + n) eqn:E3.
    + now replace ((t + n <? 0) || (n <=? t + n)) with false by lia.
    + now replace ((t + n <? 0) || (n <=? t + n)) with true by lia.
  - (* past the end [nth_error] finds nothing either *)
    rewrite E1. destruct (n <=? t) eqn:E3; cbn [orb]; [|reflexivity].
    now rewrite (proj2 (nth_error_None col (Z.to_nat t))) by lia.
Qed.

(** The test of [has_combo], as the conjunction the loop of [row_matches] computes. *)
Definition combo_eqb (r c : list value) : bool := if combo_eq_dec r c then true else false.

Lemma combo_eqb_eq r c : combo_eqb r c = true <-> r = c.
Proof. unfold combo_eqb. destruct (combo_eq_dec r c); split; congruence. Qed.

Lemma combo_eqb_cons v r x xs : combo_eqb (v :: r) (x :: xs) = value_eqb v x && combo_eqb r xs.
Proof.
  apply eq_true_iff_eq. rewrite andb_true_iff, value_eqb_eq, !combo_eqb_eq.
  split; [intros [= -> ->]; auto | intros [-> ->]; reflexivity].
Qed.

Lemma row_matches_spec : forall e keys t r c,
  sel_row e keys t = Some r -> List.length c = List.length keys ->
  row_matches keys c e t = Ok (combo_eqb r c).
Proof.
  induction keys as [|k ks IH]; cbn; intros t r c S L.
  - inversion S; subst. now destruct c.
  - unfold getitem. destruct (lookup k e) as [col|]; [|discriminate].
    rewrite py_index_pyget. destruct (pyget col t) as [v|]; [|discriminate].
    destruct (sel_row e ks t) as [r'|] eqn:S'; [|discriminate]. inversion S; subst r.
    destruct c as [|x xs]; [discriminate|]. cbn in L. rewrite combo_eqb_cons.
    destruct (value_eqb v x); [apply IH; [exact S'|lia] | reflexivity].
Qed.

Lemma frequency_spec : forall e keys c trials,
  (forall t, In t trials -> sel_row e keys t <> None) -> List.length c = List.length keys ->
  frequency keys c e trials = Ok (count e keys trials c).
Proof.
  intros e keys c trials. unfold count. induction trials as [|t ts IH]; intros V L; [reflexivity|].
  cbn [frequency filter].
  destruct (sel_row e keys t) as [r|] eqn:S; [|exfalso; apply (V t); [left; reflexivity | exact S]].
  rewrite (row_matches_spec e keys t r c S L). rewrite IH; [|intros u Hu; apply V; right; exact Hu | exact L].
  unfold has_combo at 2, combo_eqb. rewrite S. destruct (combo_eq_dec r c); cbn [List.length]; f_equal; lia.
Qed.

Theorem tabulate_one_spec : forall factors e trials,
  (forall t, In t trials -> sel_row e (map fst factors) t <> None) ->
  tabulate_one factors e trials = Ok (spec_table factors e trials).
Proof.
  intros factors e trials V. unfold tabulate_one, spec_table. apply mapM_map.
  intros c Hc. rewrite frequency_spec; [reflexivity | exact V|].
  apply in_product_length in Hc. rewrite !map_length in *. exact Hc.
Qed.

Lemma default_trials_spec : forall e trials,
  (trials = None -> e <> []) -> default_trials e trials = Ok (eff_trials e trials).
Proof.
  intros e [t|] H; cbn; [reflexivity|]. destruct e as [|[k col] tl]; [exfalso; apply H; reflexivity | reflexivity].
Qed.

Theorem tabulate_loop_spec : forall factors exps trials,
  (forall e, In e exps -> valid (map fst factors) trials e) ->
  tabulate_loop factors exps trials = (map (fun e => spec_table factors e (eff_trials e trials)) exps, None).
Proof.
  induction exps as [|e rest IH]; cbn; intros trials V; [reflexivity|].
  destruct (V e (or_introl eq_refl)) as [V1 V2].
  rewrite default_trials_spec by exact V1. rewrite tabulate_one_spec by exact V2.
  rewrite IH; [reflexivity | intros e' He'; apply V; right; exact He'].
Qed.

Theorem tabulate_counts : forall crossings exps factors trials,
  (forall e, In e exps -> valid (map fst factors) trials e) ->
  tabulate_experiments crossings (Some exps) (Some factors) trials =
  (map (fun e => spec_table factors e (eff_trials e trials)) exps, None).
Proof. intros. cbn. apply tabulate_loop_spec. assumption. Qed.

Theorem tabulate_counts_default_factors : forall c exps trials,
  (forall e, In e exps -> valid (map fst c) trials e) ->
  tabulate_experiments (Some [c]) (Some exps) None trials =
  (map (fun e => spec_table c e (eff_trials e trials)) exps, None).
Proof. intros. cbn. apply tabulate_loop_spec. assumption. Qed.

(** * Rows, percentages, totals of the reference table *)

Theorem spec_table_rows : forall factors e trials,
  map fst (spec_table factors e trials) = product (map snd factors) /\
  forall c, In c (product (map snd factors)) <-> Forall2 (fun x l => In x l) c (map snd factors).
Proof.
  intros. split; [|intros c; apply in_product_iff].
  unfold spec_table. rewrite map_map. cbn. apply map_id.
Qed.

Theorem spec_table_row : forall factors e trials c f num den,
  In (c, (f, (num, den))) (spec_table factors e trials) ->
  let n := Z.of_nat (List.length trials) in
  f = count e (map fst factors) trials c /\ 0 <= f <= n /\
  (0 < n -> num = 100 * f /\ den = n) /\ (n = 0 -> f = 0 /\ num = 0 /\ den = 1).
Proof.
  intros factors e trials c f num den H n. unfold spec_table in H. apply in_map_iff in H.
  destruct H as [c' [E _]]. inversion E; subst c' f. clear E.
  assert (B : 0 <= count e (map fst factors) trials c <= n).
  { unfold count, n. pose proof (filter_length_le (has_combo e (map fst factors) c) trials). lia. }
  split; [reflexivity|]. split; [exact B|]. fold n in H2. split.
  - intros Hn. assert (E : (0 <? n) = true) by lia. rewrite E in H2. inversion H2. split; reflexivity.
  - intros Hn. assert (E : (0 <? n) = false) by lia. rewrite E in H2. inversion H2. repeat split; lia.
Qed.

Lemma sumZ_map_add : forall {A} (f g : A -> Z) l,
  sumZ (map (fun x => f x + g x) l) = sumZ (map f l) + sumZ (map g l).
Proof. induction l as [|x tl IH]; cbn; [reflexivity|]. unfold sumZ in *. cbn. lia. Qed.

Lemma sumZ_map_ext : forall {A} (f g : A -> Z) l, (forall x, f x = g x) -> sumZ (map f l) = sumZ (map g l).
Proof. intros A f g l H. induction l as [|x tl IH]; cbn; [reflexivity|]. unfold sumZ in *. cbn. rewrite H, IH. reflexivity. Qed.

Lemma sumZ_map_zero : forall {A} (f : A -> Z) l, (forall x, In x l -> f x = 0) -> sumZ (map f l) = 0.
Proof.
  induction l as [|x tl IH]; intros H; [reflexivity|]. unfold sumZ in *. cbn.
  rewrite (H x (or_introl eq_refl)), IH; [reflexivity | intros y Hy; apply H; right; exact Hy].
Qed.

Lemma sum_indicator : forall (P : list (list value)) r,
  NoDup P -> In r P -> sumZ (map (fun c => if combo_eq_dec r c then 1 else 0) P) = 1.
Proof.
  induction P as [|c P IH]; intros r ND Hin; [contradiction|]. inversion ND as [|x l Hn ND']; subst.
  change (sumZ (map ?f (c :: P))) with (f c + sumZ (map f P)). cbv beta.
  destruct (combo_eq_dec r c) as [->|N].
  - rewrite sumZ_map_zero; [reflexivity|].
    intros d Hd. destruct (combo_eq_dec c d) as [->|]; [contradiction | reflexivity].
  - destruct Hin as [->|Hin]; [contradiction|]. rewrite IH by assumption. reflexivity.
Qed.

Lemma sum_counts : forall e keys trials (P : list (list value)),
  NoDup P -> (forall t, In t trials -> exists r, sel_row e keys t = Some r /\ In r P) ->
  sumZ (map (count e keys trials) P) = Z.of_nat (List.length trials).
Proof.
  intros e keys trials P ND. induction trials as [|t ts IH]; intros H.
  - apply sumZ_map_zero. reflexivity.
  - destruct (H t (or_introl eq_refl)) as [r [S Hr]].
    rewrite (sumZ_map_ext (count e keys (t :: ts)) (fun c => (if combo_eq_dec r c then 1 else 0) + count e keys ts c)).
    + rewrite sumZ_map_add, sum_indicator by assumption. rewrite IH; [cbn [List.length]; lia|].
      intros u Hu. apply H. right. exact Hu.
    + intros c. unfold count. cbn [filter]. unfold has_combo at 1. rewrite S.
      destruct (combo_eq_dec r c); cbn [List.length]; lia.
Qed.

Theorem tabulate_total : forall factors e trials,
  Forall (@NoDup value) (map snd factors) ->
  (forall t, In t trials -> exists r, sel_row e (map fst factors) t = Some r /\
                                      Forall2 (fun x l => In x l) r (map snd factors)) ->
  sumZ (map (fun r => fst (snd r)) (spec_table factors e trials)) = Z.of_nat (List.length trials).
Proof.
  intros factors e trials ND H. unfold spec_table. rewrite map_map. cbn.
  apply sum_counts; [apply NoDup_product; exact ND|].
  intros t Ht. destruct (H t Ht) as [r [S F]]. exists r. split; [exact S | apply in_product_iff; exact F].
Qed.
