(** Proofs about Out/Continuous.v (property C22): liveness of the resample loop
    relative to the stream of draws.

    The Python loop of [Block.sample_continuous] is

        while not meet_constraints:
            if continue_counter >= max_attempts:      # 10000000
                # raise RuntimeError(...)               <- commented out in the code
                print('... exceeds max attempts ...')
            ...
            continuous_samples = self._sample_continuous(trial_num, trial)
            meet_constraints = self._check_constraints(continuous_samples)
            continue_counter += 1

    i.e. it has NO bound: past [max_attempts] it only prints a message and goes
    on; it never raises and never gives up.  It ends only when an attempt is
    accepted or when an attempt raises.  The model's [fuel] is therefore not a
    feature of the code but the bound of whoever runs it (the harness); the
    result [Err OutOfFuel] stands for "still looping after [fuel] attempts", a
    genuinely unbounded run is a runtime behaviour the model cannot exhibit.

    The draws are the parameter [gen name a i inputs], indexed by the attempt
    number [a]: the stream of attempts is [fun a => attempt ... a]. *)
From Coq Require Import ZArith List Bool String Lia.
From SP Require Import Out.Continuous Out.ContinuousProofs.
Import ListNotations.
Open Scope Z_scope.

(** * The log is write-only: the sampled values do not depend on it *)

Definition with_log {A : Type} (pre : list call) (r : res (A * list call)) : res (A * list call) :=
  match r with Ok (x, l) => Ok (x, pre ++ l) | Err e => Err e end.

Section Log.
Variable gen : string -> nat -> nat -> list input -> val.

Lemma sample_trials_log : forall trial f a is sum vs st pre log,
  sample_trials gen trial f a is sum vs st (pre ++ log)
  = with_log pre (sample_trials gen trial f a is sum vs st log).
Proof.
  intros trial f a. induction is as [|i rest IH]; intros sum vs st pre log; cbn.
  - reflexivity.
  - destruct (mapM (dep_input trial st i) (cf_deps f)) as [inputs|e]; [|reflexivity].
    destruct (if cf_cumulative f then add_val sum (gen (cf_name f) a i inputs)
              else Ok (gen (cf_name f) a i inputs)) as [v|e]; [|reflexivity].
    rewrite <- app_assoc. apply IH.
Qed.

Lemma sample_factors_log : forall T trial a fs st pre log,
  sample_factors gen T trial a fs st (pre ++ log)
  = with_log pre (sample_factors gen T trial a fs st log).
Proof.
  intros T trial a. induction fs as [|f tl IH]; intros st pre log; cbn.
  - reflexivity.
  - rewrite sample_trials_log.
    destruct (sample_trials gen trial f a (seq 0 T) (VNum 0) [] (set st (cf_name f) []) log)
      as [[st1 log1]|e]; cbn; [|reflexivity].
    apply IH.
Qed.

Lemma _sample_continuous_log : forall T trial fs a log,
  _sample_continuous gen T trial fs a log = with_log log (_sample_continuous gen T trial fs a []).
Proof.
  intros. unfold _sample_continuous.
  rewrite <- (app_nil_r log) at 1. apply sample_factors_log.
Qed.

End Log.

(** What one pass of the loop body does with the draws of attempt [a]. *)
Inductive verdict :=
| Accept (out : dict)    (* sampled [out], every ContinuousConstraint holds: returned *)
| Reject                 (* sampled, some ContinuousConstraint fails: resample *)
| Raise (e : err).       (* the sampling or a constraint raised: propagates *)

Definition attempt (gen : string -> nat -> nat -> list input -> val)
           (T : nat) (trial : dict) (fs : list cfactor) (cs : list bconstraint) (a : nat) : verdict :=
  match _sample_continuous gen T trial fs a [] with
  | Err e => Raise e
  | Ok (out, _) =>
    match check_constraints cs out with
    | Err e => Raise e
    | Ok true => Accept out
    | Ok false => Reject
    end
  end.

(** The loop as a function of the stream of verdicts alone: the first attempt
    that is not rejected decides. *)
Fixpoint scan (v : nat -> verdict) (fuel a : nat) : res (dict * nat) :=
  match fuel with
  | O => Err OutOfFuel
  | S fuel' =>
    match v a with
    | Accept out => Ok (out, S a)
    | Raise e => Err e
    | Reject => scan v fuel' (S a)
    end
  end.

Definition drop_log (r : res (dict * nat * list call)) : res (dict * nat) :=
  match r with Ok (out, a', _) => Ok (out, a') | Err e => Err e end.

Section Scan.
Variable v : nat -> verdict.

(** Rejected attempts are skipped, one unit of fuel each. *)
Lemma scan_skip : forall n fuel a,
  (forall m, (m < n)%nat -> v (a + m) = Reject) -> scan v (n + fuel) a = scan v fuel (a + n).
Proof.
  induction n as [|n IH]; intros fuel a Hrej; [now rewrite Nat.add_0_r|].
  pose proof (Hrej O ltac:(lia)) as H0. rewrite Nat.add_0_r in H0.
  cbn [Nat.add scan]. rewrite H0, <- Nat.add_succ_comm. apply IH.
  intros m Hm. rewrite Nat.add_succ_comm. apply Hrej. lia.
Qed.

(** After [n < fuel] rejections the attempt [a + n] decides, or is skipped too. *)
Lemma scan_at : forall n fuel a, (n < fuel)%nat ->
  (forall m, (m < n)%nat -> v (a + m) = Reject) ->
  scan v fuel a = match v (a + n) with
                  | Accept out => Ok (out, S (a + n))
                  | Raise e => Err e
                  | Reject => scan v (fuel - S n) (S (a + n))
                  end.
Proof.
  intros n fuel a Hn Hrej. replace fuel with (n + S (fuel - S n))%nat at 1 by lia.
  now rewrite scan_skip.
Qed.

(** Below [fuel] there is a first attempt that is not rejected, or none. *)
Lemma first_nonreject : forall fuel a,
  (exists n, (n < fuel)%nat /\ (forall m, (m < n)%nat -> v (a + m) = Reject) /\ v (a + n) <> Reject)
  \/ (forall m, (m < fuel)%nat -> v (a + m) = Reject).
Proof.
  induction fuel as [|fuel IH]; intros a; [right; lia|].
  destruct (IH a) as [(n & Hn & H)|Hrej]; [left; exists n; split; [lia|exact H]|].
  assert (D : v (a + fuel) = Reject \/ v (a + fuel) <> Reject)
    by (destruct (v (a + fuel)); [right|left|right]; congruence).
  destruct D as [E|E]; [right|left; exists fuel; auto].
  intros m Hm. destruct (Nat.eq_dec m fuel) as [->|]; [exact E|apply Hrej; lia].
Qed.

Lemma scan_first : forall fuel a n out, (n < fuel)%nat ->
  (forall m, (m < n)%nat -> v (a + m) = Reject) -> v (a + n) = Accept out ->
  scan v fuel a = Ok (out, S (a + n)).
Proof. intros fuel a n out Hn Hrej Hacc. now rewrite (scan_at n), Hacc. Qed.

Lemma scan_raise : forall fuel a n e, (n < fuel)%nat ->
  (forall m, (m < n)%nat -> v (a + m) = Reject) -> v (a + n) = Raise e ->
  scan v fuel a = Err e.
Proof. intros fuel a n e Hn Hrej Hr. now rewrite (scan_at n), Hr. Qed.

Lemma scan_all_rejected : forall fuel a,
  (forall m, (m < fuel)%nat -> v (a + m) = Reject) -> scan v fuel a = Err OutOfFuel.
Proof. intros fuel a Hrej. rewrite <- (Nat.add_0_r fuel). now rewrite scan_skip. Qed.

Lemma scan_ok_inv : forall fuel a out a', scan v fuel a = Ok (out, a') ->
  exists n, (n < fuel)%nat /\ a' = S (a + n) /\ v (a + n) = Accept out /\
            forall m, (m < n)%nat -> v (a + m) = Reject.
Proof.
  intros fuel a out a' H. destruct (first_nonreject fuel a) as [(n & Hn & Hrej & Hnr)|Hrej].
  - exists n. rewrite (scan_at n) in H by assumption.
    destruct (v (a + n)); [|congruence|discriminate]. injection H as <- <-. auto.
  - rewrite scan_all_rejected in H by exact Hrej. discriminate.
Qed.

Lemma scan_err_inv : forall fuel a e, scan v fuel a = Err e ->
  (exists n, (n < fuel)%nat /\ v (a + n) = Raise e /\ forall m, (m < n)%nat -> v (a + m) = Reject)
  \/ (e = OutOfFuel /\ forall m, (m < fuel)%nat -> v (a + m) = Reject).
Proof.
  intros fuel a e H. destruct (first_nonreject fuel a) as [(n & Hn & Hrej & Hnr)|Hrej].
  - left. exists n. rewrite (scan_at n) in H by assumption.
    destruct (v (a + n)); [discriminate|congruence|]. injection H as <-. auto.
  - right. rewrite scan_all_rejected in H by exact Hrej. injection H as <-. auto.
Qed.

(** Some attempt below the fuel is accepted and nothing raises before it:
    there is a FIRST accepted attempt, nothing but rejections before it. *)
Lemma first_accept : forall n a out,
  v (a + n) = Accept out -> (forall m, (m < n)%nat -> forall e, v (a + m) <> Raise e) ->
  exists n0 out0, (n0 <= n)%nat /\ v (a + n0) = Accept out0 /\ forall m, (m < n0)%nat -> v (a + m) = Reject.
Proof.
  intros n a out Hacc Hnr. destruct (first_nonreject (S n) a) as [(n0 & Hn0 & Hrej & Hn0r)|Hrej].
  - destruct (v (a + n0)) as [o| |e] eqn:E; [|congruence|].
    + exists n0, o. repeat split; [lia|exact E|exact Hrej].
    + exfalso. destruct (Nat.eq_dec n0 n) as [->|]; [congruence|]. apply (Hnr n0 ltac:(lia) e E).
  - rewrite Hrej in Hacc by lia. discriminate.
Qed.

End Scan.

(** * The model's loop is [scan] over the stream of attempts *)

Section Resample.
Variable gen : string -> nat -> nat -> list input -> val.

Theorem resample_scan : forall T trial fs cs fuel a log,
  drop_log (sample_continuous gen T trial fs cs fuel a log) = scan (attempt gen T trial fs cs) fuel a.
Proof.
  intros T trial fs cs. induction fuel as [|fuel IH]; intros a log; cbn; [reflexivity|].
  rewrite _sample_continuous_log. unfold attempt at 1.
  destruct (_sample_continuous gen T trial fs a []) as [[o l]|e]; cbn; [|reflexivity].
  destruct (check_constraints cs o) as [[|]|e]; cbn; auto.
Qed.

Lemma drop_log_ok : forall r out a', drop_log r = Ok (out, a') -> exists log', r = Ok (out, a', log').
Proof.
  intros [[[o a0] l]|e] out a' H; cbn in H; [|discriminate]. injection H as <- <-. now exists l.
Qed.

Lemma drop_log_err : forall r e, drop_log r = Err e <-> r = Err e.
Proof.
  intros [[[o a0] l]|e0] e; cbn; split; intros H; try discriminate; congruence.
Qed.

Theorem resample_first : forall T trial fs cs fuel a log n out, (n < fuel)%nat ->
  (forall m, (m < n)%nat -> attempt gen T trial fs cs (a + m) = Reject) ->
  attempt gen T trial fs cs (a + n) = Accept out ->
  exists log', sample_continuous gen T trial fs cs fuel a log = Ok (out, S (a + n), log').
Proof.
  intros T trial fs cs fuel a log n out Hn Hrej Hacc.
  apply drop_log_ok. rewrite resample_scan. now apply scan_first.
Qed.

Theorem resample_ok_inv : forall T trial fs cs fuel a log out a' log',
  sample_continuous gen T trial fs cs fuel a log = Ok (out, a', log') ->
  exists n, (n < fuel)%nat /\ a' = S (a + n) /\ attempt gen T trial fs cs (a + n) = Accept out /\
            forall m, (m < n)%nat -> attempt gen T trial fs cs (a + m) = Reject.
Proof.
  intros T trial fs cs fuel a log out a' log' H.
  apply scan_ok_inv with (fuel := fuel). rewrite <- resample_scan with (log := log). now rewrite H.
Qed.

Theorem resample_raise : forall T trial fs cs fuel a log n e, (n < fuel)%nat ->
  (forall m, (m < n)%nat -> attempt gen T trial fs cs (a + m) = Reject) ->
  attempt gen T trial fs cs (a + n) = Raise e ->
  sample_continuous gen T trial fs cs fuel a log = Err e.
Proof.
  intros T trial fs cs fuel a log n e Hn Hrej Hr.
  apply drop_log_err. rewrite resample_scan. now apply scan_raise with (n := n).
Qed.

Theorem resample_live : forall T trial fs cs fuel a log,
  (exists n, (n < fuel)%nat /\ (exists out, attempt gen T trial fs cs (a + n) = Accept out) /\
             forall m, (m < n)%nat -> forall e, attempt gen T trial fs cs (a + m) <> Raise e) ->
  exists n0 out log', (n0 < fuel)%nat /\
    attempt gen T trial fs cs (a + n0) = Accept out /\
    (forall m, (m < n0)%nat -> attempt gen T trial fs cs (a + m) = Reject) /\
    sample_continuous gen T trial fs cs fuel a log = Ok (out, S (a + n0), log').
Proof.
  intros T trial fs cs fuel a log (n & Hn & (out & Hacc) & Hnr).
  destruct (first_accept _ n a out Hacc Hnr) as (n0 & out0 & Hle & Hacc0 & Hrej).
  destruct (resample_first T trial fs cs fuel a log n0 out0 ltac:(lia) Hrej Hacc0) as (log' & H).
  exists n0, out0, log'. repeat split; auto. lia.
Qed.

End Resample.

(** * [OutOfFuel] comes from the fuel only: no attempt produces it *)

Definition err_of {A : Type} (r : res A) : option err := match r with Ok _ => None | Err e => Some e end.
Definition nofuel {A : Type} (r : res A) : Prop := err_of r <> Some OutOfFuel.
(** closes a goal [nofuel r] in which [r] evaluates to [Ok _] or to [Err e] with [e] other than [OutOfFuel] *)
Ltac nofuel_case := unfold nofuel; cbn; congruence.

(** Every propagation of an exception in the model is this [match]. *)
Lemma nofuel_bind {A B : Type} (r : res A) (k : A -> res B) :
  nofuel r -> (forall x, nofuel (k x)) -> nofuel (match r with Ok x => k x | Err e => Err e end).
Proof. intros Hr Hk. destruct r; [apply Hk|exact Hr]. Qed.

Lemma mapM_nofuel : forall (A B : Type) (f : A -> res B) l,
  (forall x, nofuel (f x)) -> nofuel (mapM f l).
Proof.
  intros A B f l Hf. induction l as [|x tl IH]; cbn; [nofuel_case|].
  apply nofuel_bind; [apply Hf|intros y]. apply nofuel_bind; [exact IH|intros ys; nofuel_case].
Qed.

Lemma py_index_nofuel : forall l i, nofuel (py_index l i).
Proof.
  intros l i. unfold py_index, nofuel.
  destruct ((_ <? 0) || _); [nofuel_case|]. destruct (nth_error l _); nofuel_case.
Qed.

Lemma dict_at_nofuel : forall d f j, nofuel (dict_at d f j).
Proof.
  intros d f j. unfold dict_at, getitem. destruct (get d f); [apply py_index_nofuel|nofuel_case].
Qed.

Lemma window_factor_nofuel : forall w idx d f, nofuel (window_factor w idx d f).
Proof.
  intros w idx d f. unfold window_factor.
  destruct (idx <? w_start w); [nofuel_case|].
  destruct ((1 <? w_stride w) && _); [nofuel_case|].
  destruct (idx <? w_width w - 1); apply mapM_nofuel; intros k; [destruct (idx - k <? 0); [nofuel_case|]|];
    (apply nofuel_bind; [apply dict_at_nofuel|intros x; nofuel_case]).
Qed.

Lemma get_window_val_nofuel : forall w idx d, nofuel (get_window_val w idx d).
Proof.
  intros w idx d. unfold get_window_val.
  apply nofuel_bind; [apply mapM_nofuel, window_factor_nofuel|intros ol].
  destruct (Nat.ltb (List.length ol) 2); [|nofuel_case]. destruct ol; nofuel_case.
Qed.

Lemma dep_input_nofuel : forall trial st i d, nofuel (dep_input trial st i d).
Proof.
  intros trial st i [z|n|n|w]; cbn.
  - nofuel_case.
  - destruct (get trial n) as [l|]; [|nofuel_case]. apply nofuel_bind; [apply py_index_nofuel|intros x; nofuel_case].
  - apply nofuel_bind; [apply dict_at_nofuel|intros x; nofuel_case].
  - apply get_window_val_nofuel.
Qed.

Lemma add_val_nofuel : forall a b, nofuel (add_val a b).
Proof. intros [x| |s] [y| |t]; cbn; nofuel_case. Qed.

Section NoFuel.
Variable gen : string -> nat -> nat -> list input -> val.

Lemma sample_trials_nofuel : forall trial f a is sum vs st log,
  nofuel (sample_trials gen trial f a is sum vs st log).
Proof.
  intros trial f a. induction is as [|i rest IH]; intros sum vs st log; cbn; [nofuel_case|].
  apply nofuel_bind; [apply mapM_nofuel, dep_input_nofuel|intros inputs].
  apply nofuel_bind; [destruct (cf_cumulative f); [apply add_val_nofuel|nofuel_case]|intros v; apply IH].
Qed.

Lemma sample_factors_nofuel : forall T trial a fs st log,
  nofuel (sample_factors gen T trial a fs st log).
Proof.
  intros T trial a. induction fs as [|f tl IH]; intros st log; cbn; [nofuel_case|].
  apply nofuel_bind; [apply sample_trials_nofuel|intros [st1 log1]; apply IH].
Qed.

Lemma check_trials_nofuel : forall out c is, nofuel (check_trials out c is).
Proof.
  intros out c. induction is as [|i rest IH]; cbn; [nofuel_case|].
  apply nofuel_bind; [apply mapM_nofuel; intros n; apply dict_at_nofuel|intros inputs].
  destruct (cc_pred c inputs); [exact IH|nofuel_case].
Qed.

Lemma check_each_nofuel : forall out cs, nofuel (check_each out cs).
Proof.
  intros out. induction cs as [|c tl IH]; cbn; [nofuel_case|].
  destruct (cc_factors c) as [|n0 ns]; [nofuel_case|].
  unfold getitem. destruct (get out n0) as [l0|]; [|nofuel_case].
  apply nofuel_bind; [apply check_trials_nofuel|intros [|]; [exact IH|nofuel_case]].
Qed.

Lemma attempt_nofuel : forall T trial fs cs a, attempt gen T trial fs cs a <> Raise OutOfFuel.
Proof.
  intros T trial fs cs a. unfold attempt, _sample_continuous.
  pose proof (sample_factors_nofuel T trial a fs [] []) as H.
  destruct (sample_factors gen T trial a fs [] []) as [[out l]|e]; [|intros H1; injection H1 as ->; apply H; reflexivity].
  unfold check_constraints.
  pose proof (check_each_nofuel out (continuous_constraints cs)) as Hc.
  destruct (check_each out (continuous_constraints cs)) as [[|]|e]; try discriminate.
  intros H1; injection H1 as ->; apply Hc; reflexivity.
Qed.

(** The model gives up ([Err OutOfFuel]) exactly when every attempt below
    the fuel was rejected: nothing acceptable was ever discarded. *)
Theorem resample_none : forall T trial fs cs fuel a log,
  sample_continuous gen T trial fs cs fuel a log = Err OutOfFuel <->
  forall m, (m < fuel)%nat -> attempt gen T trial fs cs (a + m) = Reject.
Proof.
  intros T trial fs cs fuel a log. split.
  - intros H. apply drop_log_err in H. rewrite resample_scan in H.
    apply scan_err_inv in H. destruct H as [(n & _ & Hr & _)|(_ & Hrej)]; [|exact Hrej].
    exfalso. eapply attempt_nofuel; eauto.
  - intros Hrej. apply drop_log_err. rewrite resample_scan. now apply scan_all_rejected.
Qed.

(** A rejected attempt really violates a constraint: some predicate is false
    on the sampled values of some trial. *)
Theorem reject_sound : forall T trial fs cs a, NoDup (map cf_name fs) ->
  attempt gen T trial fs cs a = Reject ->
  exists out log c i, _sample_continuous gen T trial fs a [] = Ok (out, log) /\
    In c (continuous_constraints cs) /\ (i < T)%nat /\
    cc_pred c (map (fun n => nth i (getd out n) VNaN) (cc_factors c)) = false.
Proof.
  intros T trial fs cs a Hnd H. unfold attempt in H.
  destruct (_sample_continuous gen T trial fs a []) as [[out l]|e] eqn:Es; [|discriminate].
  destruct (check_constraints cs out) as [[|]|e] eqn:Ec; try discriminate.
  unfold check_constraints in Ec.
  apply (check_each_char T _ out) in Ec; [|apply ext_refl|eapply _sample_continuous_cols; eauto].
  symmetry in Ec. apply forallb_false_ex in Ec. destruct Ec as (c & Hin & Ec).
  apply forallb_false_ex in Ec. destruct Ec as (i & Hi & Hp). apply in_seq in Hi.
  exists out, l, c, i. repeat split; auto. lia.
Qed.

End NoFuel.

(** * Designs on which no attempt raises *)

(** The dependents of [f] can be read when [f] is sampled after the factors
    [pre]: discrete ones are columns of the sampled trials, continuous ones
    (directly or inside a non-empty window) are EARLIER factors of the design. *)
Definition dep_available (T : nat) (trial : dict) (pre : list cfactor) (d : dependent) : Prop :=
  match d with
  | DNum _ => True
  | DDisc n => exists l, get trial n = Some l /\ (T <= List.length l)%nat
  | DCont n => In n (map cf_name pre)
  | DWin w => w_factors w <> [] /\ forall g, In g (w_factors w) -> In g (map cf_name pre)
  end.

Definition well_ordered (T : nat) (trial : dict) (fs : list cfactor) : Prop :=
  forall pre f post d, fs = pre ++ f :: post -> In d (cf_deps f) -> dep_available T trial pre d.

(** ContinuousConstraints name at least one factor, all of them continuous factors of the design. *)
Definition constraints_wf (fs : list cfactor) (cs : list bconstraint) : Prop :=
  forall c, In c (continuous_constraints cs) ->
    cc_factors c <> [] /\ forall n, In n (cc_factors c) -> In n (map cf_name fs).

Section Total.
Variable gen : string -> nat -> nat -> list input -> val.

(** every factor of [pre] has its [T] values in [st] *)
Definition filled (T : nat) (pre : list cfactor) (st : dict) : Prop :=
  forall n, In n (map cf_name pre) -> exists l, get st n = Some l /\ List.length l = T.

Lemma filled_set_other : forall T pre st k l,
  ~ In k (map cf_name pre) -> filled T pre st -> filled T pre (set st k l).
Proof. intros T pre st k l Hk Hf n Hn. rewrite get_set_other; [apply Hf, Hn|]. intros ->. tauto. Qed.

Lemma dep_input_total : forall T trial pre st i d, filled T pre st -> (i < T)%nat ->
  dep_available T trial pre d -> exists x, dep_input trial st i d = Ok x.
Proof.
  intros T trial pre st i d Hfill Hi Hav. destruct d as [z|n|n|w]; cbn in *.
  - eexists; reflexivity.
  - destruct Hav as (l & -> & Hl).
    destruct (nth_error l i) as [v|] eqn:E; [|apply nth_error_None in E; lia].
    rewrite (nth_error_py_index l (Z.of_nat i) v); [eexists; reflexivity|lia|now rewrite Nat2Z.id].
  - destruct (Hfill n Hav) as (l & Hg & Hl).
    destruct (nth_error l i) as [v|] eqn:E; [|apply nth_error_None in E; lia].
    rewrite (dict_at_intro st n (Z.of_nat i) v l); [eexists; reflexivity|lia|auto|now rewrite Nat2Z.id].
  - destruct Hav as (Hne & Hin). rewrite window_val_shape; [|lia|].
    + destruct (w_factors w) as [|g [|g' tl]]; [congruence|eexists; reflexivity..].
    + intros g Hg. destruct (Hfill g (Hin g Hg)) as (l & Hgl & Hl). exists l. split; [exact Hgl|lia].
Qed.

Lemma add_val_total : forall s r, (forall t, s <> VStr t) -> (forall t, r <> VStr t) ->
  exists v, add_val s r = Ok v /\ forall t, v <> VStr t.
Proof.
  intros [x| |t0] [y| |t1] Hs Hr; cbn; try (exfalso; eapply Hs; reflexivity); try (exfalso; eapply Hr; reflexivity);
    eexists; (split; [reflexivity|intros t; discriminate]).
Qed.

Lemma sample_trials_total : forall T trial pre f a,
  ~ In (cf_name f) (map cf_name pre) ->
  (forall d, In d (cf_deps f) -> dep_available T trial pre d) ->
  (cf_cumulative f = true -> forall a i inp t, gen (cf_name f) a i inp <> VStr t) ->
  forall is sum vs st log, (forall i, In i is -> (i < T)%nat) -> filled T pre st ->
  (forall t, sum <> VStr t) ->
  exists st' log', sample_trials gen trial f a is sum vs st log = Ok (st', log').
Proof.
  intros T trial pre f a Hnotin Hav Hgen.
  induction is as [|i rest IH]; intros sum vs st log His Hfill Hsum; cbn; [eexists; eexists; reflexivity|].
  destruct (mapM_total _ _ (dep_input trial st i) (cf_deps f)) as (inputs & ->).
  { intros d Hd. eapply dep_input_total; eauto. apply His. left; auto. }
  destruct (cf_cumulative f) eqn:Ec.
  - destruct (add_val_total sum (gen (cf_name f) a i inputs) Hsum (Hgen eq_refl a i inputs)) as (v & -> & Hv).
    apply IH; auto using filled_set_other. intros j Hj. apply His. right; auto.
  - apply IH; auto using filled_set_other. intros j Hj. apply His. right; auto.
Qed.

Lemma sample_factors_total : forall T trial a fs pre st log,
  NoDup (map cf_name (pre ++ fs)) ->
  (forall pre' f post d, fs = pre' ++ f :: post -> In d (cf_deps f) -> dep_available T trial (pre ++ pre') d) ->
  (forall f, In f fs -> cf_cumulative f = true -> forall a i inp t, gen (cf_name f) a i inp <> VStr t) ->
  filled T pre st ->
  exists st' log', sample_factors gen T trial a fs st log = Ok (st', log').
Proof.
  intros T trial a. induction fs as [|f tl IH]; intros pre st log Hnd Hav Hgen Hfill; cbn;
    [eexists; eexists; reflexivity|].
  assert (Hnotin : ~ In (cf_name f) (map cf_name pre)).
  { rewrite map_app in Hnd. cbn in Hnd. apply NoDup_remove_2 in Hnd. rewrite in_app_iff in Hnd. tauto. }
  pose proof (filled_set_other T pre st (cf_name f) [] Hnotin Hfill) as Hfill0.
  destruct (sample_trials_total T trial pre f a Hnotin) with (is := seq 0 T) (sum := VNum 0)
    (vs := @nil val) (st := set st (cf_name f) []) (log := log) as (st1 & log1 & E1); auto.
  { intros d Hd. specialize (Hav [] f tl d eq_refl Hd). now rewrite app_nil_r in Hav. }
  { intros Hc. apply Hgen; auto. left; auto. }
  { intros i Hi. apply in_seq in Hi. lia. }
  { intros t; discriminate. }
  rewrite E1.
  change 0%nat with (@List.length val []) in E1.
  apply sample_trials_inv in E1; [|apply get_set_same|reflexivity].
  destruct E1 as (new & Hlen & -> & _). cbn [app].
  apply (IH (pre ++ [f])).
  - now rewrite <- app_assoc.
  - intros pre' g post d Heq Hd. rewrite <- app_assoc. cbn. apply (Hav (f :: pre') g post d); auto.
    cbn. now rewrite Heq.
  - intros g Hg. apply Hgen. right; auto.
  - intros n Hn. rewrite map_app, in_app_iff in Hn. cbn in Hn.
    destruct (string_dec n (cf_name f)) as [->|Hne].
    + exists new. split; [apply get_set_same|exact Hlen].
    + rewrite get_set_other by auto. apply Hfill0. destruct Hn as [Hn|[Hn|[]]]; [auto|congruence].
Qed.

(** On a well-ordered design [_sample_continuous] does not raise (for
    cumulative distributions: as long as the function returns no string). *)
Theorem sample_total : forall T trial fs a log,
  NoDup (map cf_name fs) -> well_ordered T trial fs ->
  (forall f, In f fs -> cf_cumulative f = true -> forall a i inp t, gen (cf_name f) a i inp <> VStr t) ->
  exists out log', _sample_continuous gen T trial fs a log = Ok (out, log').
Proof.
  intros T trial fs a log Hnd Hwo Hgen. unfold _sample_continuous.
  apply (sample_factors_total T trial a fs [] [] log); auto.
  intros n [].
Qed.

Lemma check_trials_total : forall T out c is,
  (forall n, In n (cc_factors c) -> exists l, get out n = Some l /\ List.length l = T) ->
  (forall i, In i is -> (i < T)%nat) -> exists b, check_trials out c is = Ok b.
Proof.
  intros T out c. induction is as [|i rest IH]; intros Hf His; cbn; [eexists; reflexivity|].
  unfold constraint_inputs.
  destruct (mapM_total _ _ (fun n => dict_at out n (Z.of_nat i)) (cc_factors c)) as (inputs & ->).
  { intros n Hn. destruct (Hf n Hn) as (l & Hg & Hl).
    assert (Hi : (i < T)%nat) by (apply His; left; auto).
    destruct (nth_error l i) as [v|] eqn:E; [|apply nth_error_None in E; lia].
    exists v. apply dict_at_intro with (l := l); auto; [lia|now rewrite Nat2Z.id]. }
  destruct (cc_pred c inputs); [|eexists; reflexivity].
  apply IH; auto. intros j Hj. apply His. right; auto.
Qed.

Lemma check_each_total : forall T out cs,
  (forall c, In c cs -> cc_factors c <> [] /\
     forall n, In n (cc_factors c) -> exists l, get out n = Some l /\ List.length l = T) ->
  exists b, check_each out cs = Ok b.
Proof.
  intros T out. induction cs as [|c tl IH]; intros H; cbn; [eexists; reflexivity|].
  destruct (H c (or_introl eq_refl)) as (Hne & Hf).
  destruct (cc_factors c) as [|n0 ns] eqn:Ef; [congruence|].
  destruct (Hf n0 (or_introl eq_refl)) as (l0 & Hg & Hl). unfold getitem. rewrite Hg.
  destruct (check_trials_total T out c (seq 0 (List.length l0))) as (b & Hb).
  { rewrite Ef. exact Hf. }
  { intros i Hi. apply in_seq in Hi. lia. }
  rewrite Hb. destruct b; [|eexists; reflexivity].
  apply IH. intros c' Hc'. apply H. right; auto.
Qed.

(** On a well-ordered design with well-formed constraints every attempt is
    either accepted or rejected. *)
Theorem attempt_total : forall T trial fs cs a,
  NoDup (map cf_name fs) -> well_ordered T trial fs -> constraints_wf fs cs ->
  (forall f, In f fs -> cf_cumulative f = true -> forall a i inp t, gen (cf_name f) a i inp <> VStr t) ->
  forall e, attempt gen T trial fs cs a <> Raise e.
Proof.
  intros T trial fs cs a Hnd Hwo Hcw Hgen e. unfold attempt.
  destruct (sample_total T trial fs a [] Hnd Hwo Hgen) as (out & l & Es). rewrite Es.
  apply _sample_continuous_inv in Es; auto. destruct Es as (_ & Hall & _).
  destruct (check_each_total T out (continuous_constraints cs)) as (b & Hb).
  { intros c Hc. destruct (Hcw c Hc) as (Hne & Hin). split; auto.
    intros n Hn. apply Hin in Hn. apply in_map_iff in Hn. destruct Hn as (f & <- & Hf). now apply Hall. }
  unfold check_constraints. rewrite Hb. destruct b; discriminate.
Qed.

(** Liveness on such designs: if some attempt below the fuel is acceptable the
    loop returns, and it returns the first acceptable one. *)
Theorem resample_live_wf : forall T trial fs cs fuel a log,
  NoDup (map cf_name fs) -> well_ordered T trial fs -> constraints_wf fs cs ->
  (forall f, In f fs -> cf_cumulative f = true -> forall a i inp t, gen (cf_name f) a i inp <> VStr t) ->
  (exists n out, (n < fuel)%nat /\ attempt gen T trial fs cs (a + n) = Accept out) ->
  exists n0 out log', (n0 < fuel)%nat /\
    attempt gen T trial fs cs (a + n0) = Accept out /\
    (forall m, (m < n0)%nat -> attempt gen T trial fs cs (a + m) = Reject) /\
    sample_continuous gen T trial fs cs fuel a log = Ok (out, S (a + n0), log').
Proof.
  intros T trial fs cs fuel a log Hnd Hwo Hcw Hgen (n & out & Hn & Hacc).
  apply resample_live. exists n. repeat split; eauto.
  intros m _ e. now apply attempt_total.
Qed.

(** The whole of [synthesize_trials]' continuous part returns when, for every
    sampled sequence, every run of [fuel] consecutive attempts holds an
    accepted one with no raising attempt before it. *)
Theorem synth_live : forall T fs cs fuel trialss,
  (forall tr a0, In tr trialss ->
     exists n, (n < fuel)%nat /\ (exists out, attempt gen T tr fs cs (a0 + n) = Accept out) /\
               forall m, (m < n)%nat -> forall e, attempt gen T tr fs cs (a0 + m) <> Raise e) ->
  exists res log, synthesize_post gen T fs cs fuel trialss = Ok (res, log).
Proof.
  intros T fs cs fuel trialss H. unfold synthesize_post.
  destruct fs as [|f0 fs'] eqn:Efs; [eexists; eexists; reflexivity|]. rewrite <- Efs in *. clear Efs f0 fs'.
  generalize (@nil call) as log. generalize O as a.
  induction trialss as [|tr rest IH]; intros a log; cbn; [eexists; eexists; reflexivity|].
  destruct (resample_live gen T tr fs cs fuel a log (H tr a (or_introl eq_refl)))
    as (n0 & out & log' & _ & _ & _ & ->).
  destruct (IH (fun tr' a0 Hin => H tr' a0 (or_intror Hin)) (S (a + n0)) log') as (ms & log'' & ->).
  eexists; eexists; reflexivity.
Qed.

End Total.
