(** Proofs about Out/Continuous.v (property C22, safety part).

    The specification side (written from docs/_source/api/derivations.rst,
    distributions.rst, constraints.rst and the guide, not from the code):
    [skipped], [doc_window], [doc_dep_input], [value_spec].

    Every theorem here is of the form "if the model returns, then ...".
    Liveness of the resample loop relative to the stream of draws is in
    Out/ContinuousLive.v, the exact reading of [__check_dependency] (and the
    designs on which sampling cannot raise) in Out/ContinuousDeps.v. *)
From Coq Require Import ZArith List Bool String Lia ZifyBool.
From SP Require Import Base.Lists Out.Continuous.
Import ListNotations.
Open Scope Z_scope.

(** [d.get(k, [])] *)
Definition getd (d : dict) (k : string) : list val :=
  match get d k with Some l => l | None => [] end.

(** The window is not defined at trial [idx]: before [start], or skipped by
    the stride. *)
Definition skipped (w : cwindow) (idx : Z) : bool :=
  (idx <? w_start w) || ((1 <? w_stride w) && negb ((idx - w_start w) mod (w_stride w) =? 0)).

(** Entry [-k] of a defined window: the value [k] trials before [idx] of the
    same sequence, NaN before the first trial. *)
Definition win_entry (l : list val) (idx k : Z) : val :=
  if idx - k <? 0 then VNaN else nth (Z.to_nat (idx - k)) l VNaN.

Definition doc_window (w : cwindow) (idx : Z) (l : list val) : wdict :=
  map (fun k => (- k, if skipped w idx then VNaN else win_entry l idx k)) (py_range (w_width w)).

(** The documented argument for one dependent at trial [i]: discrete factors
    are read from the trial sequence [trial], continuous ones (directly or
    through a window) from the sequence [m] itself. *)
Definition doc_dep_input (trial m : dict) (i : nat) (d : dependent) : input :=
  match d with
  | DNum z => IVal (VNum z)
  | DDisc n => IVal (nth i (getd trial n) VNaN)
  | DCont n => IVal (nth i (getd m n) VNaN)
  | DWin w =>
    match map (fun f => doc_window w (Z.of_nat i) (getd m f)) (w_factors w) with
    | [x] => IWin x
    | xs => IWins xs
    end
  end.

(** The running sum before trial [i] (cumulative mode; reset to 0 per factor
    and per sampling attempt). *)
Definition prev_sum (vs : list val) (i : nat) : val :=
  match i with O => VNum 0 | S j => nth j vs VNaN end.

Section Spec.
Variable gen : string -> nat -> nat -> list input -> val.

Definition value_spec_l (trial m : dict) (a : nat) (f : cfactor) (i : nat) (l : list val) : Prop :=
  let r := gen (cf_name f) a i (map (doc_dep_input trial m i) (cf_deps f)) in
  if cf_cumulative f then add_val (prev_sum l i) r = Ok (nth i l VNaN)
  else nth i l VNaN = r.

(** The value of factor [f] at trial [i] of the sequence [m] is what its
    distribution function returned in attempt [a] for the documented inputs of
    the same sequence (added to the running sum in cumulative mode). *)
Definition value_spec (trial m : dict) (a : nat) (f : cfactor) (i : nat) : Prop :=
  value_spec_l trial m a f i (getd m (cf_name f)).

(** What C22 demands of one returned experiment [m] (sampler output [tr]). *)
Definition experiment_ok (T : nat) (fs : list cfactor) (cs : list bconstraint)
           (tr : dict) (ma : dict * nat) : Prop :=
  let m := fst ma in
  exists att, snd ma = S att /\
    (forall f, In f fs -> exists vs, get m (cf_name f) = Some vs /\ List.length vs = T) /\
    (forall c, In c (continuous_constraints cs) -> forall i, (i < T)%nat ->
       cc_pred c (map (fun n => nth i (getd m n) VNaN) (cc_factors c)) = true) /\
    (forall f, In f fs -> forall i, (i < T)%nat -> value_spec tr m att f i).
End Spec.

Lemma get_set_same : forall d k v, get (set d k v) k = Some v.
Proof.
  induction d as [|[k' v'] tl IH]; intros k v; cbn.
  - now rewrite String.eqb_refl.
  - destruct (String.eqb k k') eqn:E; cbn; rewrite E; auto.
Qed.

Lemma get_set_other : forall d k v k', k' <> k -> get (set d k v) k' = get d k'.
Proof.
  induction d as [|[k0 v0] tl IH]; intros k v k' Hne; cbn.
  - apply String.eqb_neq in Hne. now rewrite Hne.
  - destruct (String.eqb k k0) eqn:E; cbn.
    + apply String.eqb_eq in E. subst k0.
      apply String.eqb_neq in Hne. now rewrite Hne.
    + destruct (String.eqb k' k0); auto.
Qed.

Lemma set_set_same : forall d k a b, set (set d k a) k b = set d k b.
Proof.
  induction d as [|[k0 v0] tl IH]; intros k a b; cbn.
  - now rewrite String.eqb_refl.
  - destruct (String.eqb k k0) eqn:E; cbn; rewrite E; [reflexivity|now rewrite IH].
Qed.

Lemma get_None_iff : forall d k, get d k = None <-> ~ In k (map fst d).
Proof.
  induction d as [|[k0 v0] tl IH]; intros k; cbn.
  - tauto.
  - destruct (String.eqb k k0) eqn:E.
    + apply String.eqb_eq in E. subst. split; [discriminate | intros H; exfalso; apply H; auto].
    + apply String.eqb_neq in E. rewrite IH. split; intros H.
      * intros [H1|H1]; [congruence | tauto].
      * intros H1. apply H. auto.
Qed.

Lemma get_Some_in : forall d k l, get d k = Some l -> In k (map fst d).
Proof.
  intros d k l H. destruct (in_dec string_dec k (map fst d)) as [Hi|Hn]; auto.
  apply get_None_iff in Hn. congruence.
Qed.

Lemma keys_set_in : forall d k v, get d k <> None -> map fst (set d k v) = map fst d.
Proof.
  induction d as [|[k0 v0] tl IH]; intros k v H; cbn in *.
  - congruence.
  - destruct (String.eqb k k0) eqn:E; cbn; auto. f_equal. auto.
Qed.

Lemma set_absent : forall d k v, get d k = None -> set d k v = d ++ [(k, v)].
Proof.
  induction d as [|[k0 v0] tl IH]; intros k v H; cbn in *; auto.
  destruct (String.eqb k k0) eqn:E; [discriminate|]. f_equal. auto.
Qed.

Lemma keys_set_absent : forall d k v, get d k = None -> map fst (set d k v) = map fst d ++ [k].
Proof. intros. rewrite set_absent by auto. now rewrite map_app. Qed.

Lemma py_index_nonneg : forall l j v, 0 <= j ->
  py_index l j = Ok v -> nth_error l (Z.to_nat j) = Some v.
Proof.
  intros l j v Hj. unfold py_index.
  destruct (j <? 0) eqn:E; [lia|].
  destruct ((j <? 0) || (Z.of_nat (List.length l) <=? j)); [discriminate|].
  destruct (nth_error l (Z.to_nat j)); congruence.
Qed.

Lemma nth_error_py_index : forall l j v, 0 <= j ->
  nth_error l (Z.to_nat j) = Some v -> py_index l j = Ok v.
Proof.
  intros l j v Hj H. unfold py_index.
  assert (Hlt : (Z.to_nat j < List.length l)%nat) by (apply nth_error_Some; congruence).
  destruct (j <? 0) eqn:E; [lia|].
  destruct ((j <? 0) || (Z.of_nat (List.length l) <=? j)) eqn:E2; [lia|].
  now rewrite H.
Qed.

Lemma dict_at_inv : forall d f j v, 0 <= j -> dict_at d f j = Ok v ->
  exists l, get d f = Some l /\ nth_error l (Z.to_nat j) = Some v.
Proof.
  intros d f j v Hj H. unfold dict_at, getitem in H.
  destruct (get d f) as [l|] eqn:E; [|discriminate].
  exists l. split; auto. now apply py_index_nonneg.
Qed.

Lemma dict_at_intro : forall d f j v l, 0 <= j -> get d f = Some l ->
  nth_error l (Z.to_nat j) = Some v -> dict_at d f j = Ok v.
Proof.
  intros. unfold dict_at, getitem. rewrite H0. now apply nth_error_py_index.
Qed.

Lemma dict_at_nth : forall d f j v, 0 <= j -> dict_at d f j = Ok v ->
  nth (Z.to_nat j) (getd d f) VNaN = v.
Proof.
  intros d f j v Hj H. destruct (dict_at_inv _ _ _ _ Hj H) as (l & Hg & Hn).
  unfold getd. rewrite Hg. now apply nth_error_nth.
Qed.

(** * Extension of a dict: successful lookups at non-negative indices persist *)

Definition ext (d d' : dict) : Prop :=
  forall f j v, 0 <= j -> dict_at d f j = Ok v -> dict_at d' f j = Ok v.

Lemma ext_refl : forall d, ext d d.
Proof. intros d f j v _ H. exact H. Qed.

Lemma ext_trans : forall a b c, ext a b -> ext b c -> ext a c.
Proof. intros a b c H1 H2 f j v Hj H. apply H2; auto. Qed.

Lemma ext_set_new : forall d k l, get d k = None -> ext d (set d k l).
Proof.
  intros d k l Hn f j v Hj H.
  destruct (dict_at_inv _ _ _ _ Hj H) as (l0 & Hg & Hnth).
  assert (f <> k) by congruence.
  apply dict_at_intro with (l := l0); auto. now rewrite get_set_other.
Qed.

Lemma ext_set_app : forall d k vs l, get d k = Some vs -> ext d (set d k (vs ++ l)).
Proof.
  intros d k vs l Hs f j v Hj H.
  destruct (dict_at_inv _ _ _ _ Hj H) as (l0 & Hg & Hnth).
  destruct (string_dec f k) as [->|Hne].
  - rewrite Hs in Hg. injection Hg as <-.
    apply dict_at_intro with (l := vs ++ l); auto; [apply get_set_same|].
    rewrite nth_error_app1; auto. apply nth_error_Some. congruence.
  - apply dict_at_intro with (l := l0); auto. now rewrite get_set_other.
Qed.

Lemma ext_nth : forall d m k l j, ext d m -> get d k = Some l -> (j < List.length l)%nat ->
  nth j (getd m k) VNaN = nth j l VNaN.
Proof.
  intros d m k l j He Hg Hj.
  destruct (nth_error l j) as [v|] eqn:E; [|apply nth_error_None in E; lia].
  assert (H : dict_at d k (Z.of_nat j) = Ok v).
  { apply dict_at_intro with (l := l); auto; [lia|]. now rewrite Nat2Z.id. }
  apply He in H; [|lia]. apply dict_at_nth in H; [|lia].
  rewrite Nat2Z.id in H. rewrite H. symmetry. now apply nth_error_nth.
Qed.

Lemma mapM_ok_mono : forall (A B : Type) (f g : A -> res B) l ys,
  (forall x y, In x l -> f x = Ok y -> g x = Ok y) ->
  mapM f l = Ok ys -> mapM g l = Ok ys.
Proof.
  intros A B f g. induction l as [|x tl IH]; intros ys Hfg H; cbn in *; auto.
  destruct (f x) as [y|] eqn:E; [|discriminate].
  rewrite (Hfg x y (or_introl eq_refl) E).
  destruct (mapM f tl) as [ys'|] eqn:E2; [|discriminate].
  rewrite (IH ys'); auto.
Qed.

Lemma mapM_ok_map : forall (A B : Type) (f : A -> res B) (h : A -> B) l ys,
  (forall x y, In x l -> f x = Ok y -> y = h x) ->
  mapM f l = Ok ys -> ys = map h l.
Proof.
  intros A B f h. induction l as [|x tl IH]; intros ys Hfh H; cbn in *.
  - congruence.
  - destruct (f x) as [y|] eqn:E; [|discriminate].
    destruct (mapM f tl) as [ys'|] eqn:E2; [|discriminate].
    injection H as <-. f_equal; auto.
Qed.

Lemma mapM_map : forall (A B : Type) (f : A -> res B) (h : A -> B) l,
  (forall x, In x l -> f x = Ok (h x)) -> mapM f l = Ok (map h l).
Proof.
  intros A B f h. induction l as [|x tl IH]; intros H; cbn; auto.
  rewrite H by (left; auto). rewrite IH; auto. intros; apply H; right; auto.
Qed.

Lemma mapM_total : forall (A B : Type) (f : A -> res B) l,
  (forall x, In x l -> exists y, f x = Ok y) -> exists ys, mapM f l = Ok ys.
Proof.
  intros A B f. induction l as [|x tl IH]; intros H; cbn; [eexists; reflexivity|].
  destruct (H x (or_introl eq_refl)) as (y & ->).
  destruct IH as (ys & ->); [intros; apply H; right; auto|]. eexists; reflexivity.
Qed.

Lemma mapM_ext_in : forall (A B : Type) (f g : A -> res B) l,
  (forall x, In x l -> f x = g x) -> mapM f l = mapM g l.
Proof.
  intros A B f g. induction l as [|x tl IH]; intros H; cbn; auto.
  rewrite H by (left; auto). rewrite IH; auto. intros; apply H; right; auto.
Qed.

Lemma in_py_range : forall n k, In k (py_range n) <-> 0 <= k < n.
Proof.
  intros n k. unfold py_range. rewrite in_map_iff. split.
  - intros (i & <- & Hi). apply in_seq in Hi. lia.
  - intros H. exists (Z.to_nat k). split; [lia|]. apply in_seq. lia.
Qed.

Lemma skipped_true_iff : forall w idx,
  skipped w idx = true <->
  idx < w_start w \/ (1 < w_stride w /\ (idx - w_start w) mod (w_stride w) <> 0).
Proof. intros. unfold skipped. lia. Qed.

Lemma window_factor_skipped : forall w idx d f,
  skipped w idx = true -> window_factor w idx d f = Ok (return_nan w).
Proof.
  intros w idx d f H. unfold skipped in H. unfold window_factor.
  destruct (idx <? w_start w); auto. cbn in H. now rewrite H.
Qed.

Lemma doc_window_skipped : forall w idx l,
  skipped w idx = true -> doc_window w idx l = return_nan w.
Proof. intros w idx l H. unfold doc_window, return_nan. now rewrite H. Qed.

Lemma window_factor_unskipped : forall w idx d f,
  skipped w idx = false ->
  window_factor w idx d f =
  mapM (fun k => if idx - k <? 0 then Ok (- k, VNaN)
                 else match dict_at d f (idx - k) with
                      | Err e => Err e
                      | Ok v => Ok (- k, v)
                      end) (py_range (w_width w)).
Proof.
  intros w idx d f H. unfold skipped in H. unfold window_factor.
  destruct (idx <? w_start w) eqn:E1; [discriminate|]. cbn in H. rewrite H.
  destruct (idx <? w_width w - 1) eqn:E2; auto.
  (* the last branch never meets a negative index *)
  apply mapM_ext_in. intros k Hk. apply in_py_range in Hk.
  destruct (idx - k <? 0) eqn:E3; [lia|]. reflexivity.
Qed.

(** Whenever the window of one factor is returned it is the documented window
    of that factor's current values. *)
Lemma window_factor_char : forall w idx d f x, 0 <= idx ->
  window_factor w idx d f = Ok x -> x = doc_window w idx (getd d f).
Proof.
  intros w idx d f x Hidx H. destruct (skipped w idx) eqn:Es.
  - rewrite window_factor_skipped in H by auto. rewrite doc_window_skipped by auto. congruence.
  - rewrite window_factor_unskipped in H by auto. unfold doc_window. rewrite Es.
    eapply mapM_ok_map; [|exact H]. cbn beta. intros k y Hk Hy. apply in_py_range in Hk.
    unfold win_entry. destruct (idx - k <? 0) eqn:E; [congruence|].
    destruct (dict_at d f (idx - k)) as [v|] eqn:E2; [|discriminate].
    apply dict_at_nth in E2; [|lia]. congruence.
Qed.

Lemma window_factor_mono : forall w idx d d' f x, 0 <= idx -> ext d d' ->
  window_factor w idx d f = Ok x -> window_factor w idx d' f = Ok x.
Proof.
  intros w idx d d' f x Hidx He H. destruct (skipped w idx) eqn:Es.
  - rewrite window_factor_skipped in * by auto. exact H.
  - rewrite window_factor_unskipped in * by auto.
    eapply mapM_ok_mono; [|exact H]. cbn beta. intros k y Hk Hy. apply in_py_range in Hk.
    destruct (idx - k <? 0) eqn:E; [exact Hy|].
    destruct (dict_at d f (idx - k)) as [v|] eqn:E2; [|discriminate].
    assert (Hj : 0 <= idx - k) by lia.
    rewrite (He _ _ _ Hj E2). exact Hy.
Qed.

(** When the factor has a value at trial [idx], the window is returned. *)
Lemma window_factor_total : forall w idx d f l, 0 <= idx ->
  get d f = Some l -> idx < Z.of_nat (List.length l) ->
  window_factor w idx d f = Ok (doc_window w idx l).
Proof.
  intros w idx d f l Hidx Hg Hlt. destruct (skipped w idx) eqn:Es.
  - rewrite window_factor_skipped, doc_window_skipped by auto. reflexivity.
  - rewrite window_factor_unskipped by auto. unfold doc_window. rewrite Es.
    apply mapM_map. intros k Hk. apply in_py_range in Hk.
    unfold win_entry. destruct (idx - k <? 0) eqn:E; auto.
    assert (Hn : (Z.to_nat (idx - k) < List.length l)%nat) by lia.
    destruct (nth_error l (Z.to_nat (idx - k))) as [v|] eqn:E2; [|apply nth_error_None in E2; lia].
    rewrite (dict_at_intro d f (idx - k) v l) by (auto; lia).
    now rewrite (nth_error_nth _ _ _ E2).
Qed.

Lemma doc_window_length : forall w idx l, List.length (doc_window w idx l) = Z.to_nat (w_width w).
Proof. intros. unfold doc_window, py_range. now rewrite !map_length, seq_length. Qed.

Lemma doc_window_nth : forall w idx l k, 0 <= k < w_width w ->
  nth_error (doc_window w idx l) (Z.to_nat k)
  = Some (- k, if skipped w idx then VNaN else win_entry l idx k).
Proof.
  intros w idx l k Hk. unfold doc_window, py_range. rewrite map_map.
  rewrite nth_error_map.
  assert (Hs : nth_error (seq 0 (Z.to_nat (w_width w))) (Z.to_nat k) = Some (Z.to_nat k)).
  { rewrite (List.nth_error_nth' _ O) by (rewrite seq_length; lia). now rewrite seq_nth by lia. }
  rewrite Hs. cbn. now rewrite Z2Nat.id by lia.
Qed.

(** A defined window holds no NaN of its own iff it does not reach before trial 0. *)
Lemma partial_iff : forall w idx, 0 <= idx ->
  (exists k, 0 <= k < w_width w /\ idx - k < 0) <-> idx < w_width w - 1.
Proof.
  intros w idx Hidx. split.
  - intros (k & Hk & Hn). lia.
  - intros H. exists (w_width w - 1). lia.
Qed.

Lemma get_window_val_char : forall w i d x,
  get_window_val w (Z.of_nat i) d = Ok x -> x = doc_dep_input [] d i (DWin w).
Proof.
  intros w i d x H. unfold get_window_val in H. cbn.
  destruct (mapM (window_factor w (Z.of_nat i) d) (w_factors w)) as [outlist|] eqn:E; [|discriminate].
  assert (Ho : outlist = map (fun f => doc_window w (Z.of_nat i) (getd d f)) (w_factors w)).
  { eapply mapM_ok_map; [|exact E]. intros f y _ Hy. eapply window_factor_char; eauto. lia. }
  rewrite <- Ho. destruct outlist as [|a [|b tl]]; cbn in H; congruence.
Qed.

Lemma get_window_val_mono : forall w i d d' x, ext d d' ->
  get_window_val w (Z.of_nat i) d = Ok x -> get_window_val w (Z.of_nat i) d' = Ok x.
Proof.
  intros w i d d' x He H. unfold get_window_val in *.
  destruct (mapM (window_factor w (Z.of_nat i) d) (w_factors w)) as [outlist|] eqn:E; [|discriminate].
  erewrite mapM_ok_mono; [exact H| |exact E].
  intros f y _ Hy. eapply window_factor_mono; eauto. lia.
Qed.

Section Sampling.
Variable gen : string -> nat -> nat -> list input -> val.

Lemma dep_input_char : forall trial d i dep x,
  dep_input trial d i dep = Ok x -> x = doc_dep_input trial d i dep.
Proof.
  intros trial d i dep x H. destruct dep as [z|n|n|w]; cbn in H.
  - cbn. congruence.
  - cbn. unfold getd. destruct (get trial n) as [l|]; [|discriminate].
    destruct (py_index l (Z.of_nat i)) as [v|] eqn:E; [|discriminate].
    apply py_index_nonneg in E; [|lia]. rewrite Nat2Z.id in E.
    rewrite (nth_error_nth _ _ _ E). congruence.
  - cbn. destruct (dict_at d n (Z.of_nat i)) as [v|] eqn:E; [|discriminate].
    apply dict_at_nth in E; [|lia]. rewrite Nat2Z.id in E. congruence.
  - apply get_window_val_char in H. exact H.
Qed.

Lemma dep_input_mono : forall trial d d' i dep x, ext d d' ->
  dep_input trial d i dep = Ok x -> dep_input trial d' i dep = Ok x.
Proof.
  intros trial d d' i dep x He H. destruct dep as [z|n|n|w]; cbn in *; auto.
  - destruct (dict_at d n (Z.of_nat i)) as [v|] eqn:E; [|discriminate].
    rewrite (He _ _ _ (Nat2Z.is_nonneg i) E). exact H.
  - eapply get_window_val_mono; eauto.
Qed.

Lemma inputs_char : forall trial d m i deps inputs, ext d m ->
  mapM (dep_input trial d i) deps = Ok inputs ->
  inputs = map (doc_dep_input trial m i) deps.
Proof.
  intros trial d m i deps inputs He H.
  eapply mapM_ok_map; [|exact H]. intros dep y _ Hy.
  eapply dep_input_char. eapply dep_input_mono; eauto.
Qed.

Lemma prev_sum_app : forall vs new,
  prev_sum (vs ++ new) (List.length vs) = prev_sum vs (List.length vs).
Proof.
  intros vs new. unfold prev_sum. destruct (List.length vs) as [|j] eqn:E; auto.
  rewrite app_nth1 by lia. reflexivity.
Qed.

Lemma sample_trials_inv : forall trial f a n vs sum st log st' log',
  sample_trials gen trial f a (seq (List.length vs) n) sum vs st log = Ok (st', log') ->
  get st (cf_name f) = Some vs ->
  (cf_cumulative f = true -> sum = prev_sum vs (List.length vs)) ->
  exists new,
    List.length new = n /\
    st' = set st (cf_name f) (vs ++ new) /\
    forall m, ext st' m -> forall i, (List.length vs <= i < List.length vs + n)%nat ->
      value_spec_l gen trial m a f i (vs ++ new).
Proof.
  intros trial f a. induction n as [|n IH]; intros vs sum st log st' log' H Hg Hsum; cbn in H.
  - injection H as <- <-. exists []. rewrite app_nil_r. repeat split. intros m _ i Hi. lia.
  - destruct (mapM (dep_input trial st (List.length vs)) (cf_deps f)) as [inputs|] eqn:Ein; [|discriminate].
    set (r := gen (cf_name f) a (List.length vs) inputs) in *.
    destruct (if cf_cumulative f then add_val sum r else Ok r) as [v|] eqn:Ev; [|discriminate].
    rewrite <- (last_length vs v) in H. apply IH in H.
    + destruct H as (new & Hn & -> & Hspec).
      rewrite set_set_same, <- app_assoc in Hspec |- *. cbn [app] in *.
      exists (v :: new). repeat split; [cbn; lia|]. intros m Hm i Hi.
      destruct (Nat.eq_dec i (List.length vs)) as [->|Hne]; [|apply Hspec; [exact Hm|rewrite last_length; lia]].
      (* the dict only grows, so the inputs read from [st] are those of [m] *)
      unfold value_spec_l.
      rewrite <- (inputs_char _ _ m _ _ _ (ext_trans _ _ _ (ext_set_app st _ vs (v :: new) Hg) Hm) Ein).
      fold r. rewrite nth_middle. destruct (cf_cumulative f); [|congruence].
      rewrite prev_sum_app, <- Hsum by reflexivity. exact Ev.
    + apply get_set_same.
    + intros Hc. rewrite Hc, last_length. symmetry. apply nth_middle.
Qed.

Lemma value_spec_l_agree : forall trial m a f i l l',
  (forall j, (j <= i)%nat -> nth j l VNaN = nth j l' VNaN) ->
  value_spec_l gen trial m a f i l -> value_spec_l gen trial m a f i l'.
Proof.
  intros trial m a f i l l' Hag H. unfold value_spec_l in *.
  rewrite <- (Hag i) by lia.
  assert (Hp : prev_sum l' i = prev_sum l i).
  { unfold prev_sum. destruct i; auto. symmetry. apply Hag. lia. }
  rewrite Hp. exact H.
Qed.

Lemma sample_factors_inv : forall T trial a fs st log st' log',
  sample_factors gen T trial a fs st log = Ok (st', log') ->
  NoDup (map cf_name fs) ->
  (forall f, In f fs -> get st (cf_name f) = None) ->
  ext st st' /\
  (forall k, ~ In k (map cf_name fs) -> get st' k = get st k) /\
  map fst st' = map fst st ++ map cf_name fs /\
  (forall f, In f fs -> exists vs, get st' (cf_name f) = Some vs /\ List.length vs = T) /\
  (forall m, ext st' m -> forall f, In f fs -> forall i, (i < T)%nat -> value_spec gen trial m a f i).
Proof.
  intros T trial a. induction fs as [|f tl IH]; intros st log st' log' H Hnd Hnone; cbn in H.
  - injection H as <- <-. repeat split; auto using ext_refl; try tauto.
    + cbn. now rewrite app_nil_r.
    + intros f [].
    + intros m _ f [].
  - destruct (sample_trials gen trial f a (seq 0 T) (VNum 0) [] (set st (cf_name f) []) log)
      as [[st1 log1]|] eqn:E1; [|discriminate].
    inversion Hnd as [|? ? Hnotin Hnd']; subst.
    assert (Hn0 : get st (cf_name f) = None) by (apply Hnone; left; auto).
    change 0%nat with (@List.length val []) in E1.
    apply sample_trials_inv in E1; [|apply get_set_same|reflexivity].
    destruct E1 as (new & Hlen & -> & Hspec1). cbn [app] in *. rewrite set_set_same in *.
    assert (Hne : forall g, In g tl -> cf_name g <> cf_name f).
    { intros g Hg Heq. apply Hnotin. rewrite <- Heq. now apply in_map. }
    apply IH in H; auto.
    + destruct H as (Hext & Hkeep & Hkeys & Hall & Hspec).
      assert (Hgf : get st' (cf_name f) = Some new) by (rewrite Hkeep by auto; apply get_set_same).
      repeat split.
      * apply ext_trans with (2 := Hext). now apply ext_set_new.
      * intros k Hk. cbn in Hk. rewrite Hkeep by tauto. apply get_set_other. intros ->. tauto.
      * rewrite Hkeys, keys_set_absent by auto. cbn. now rewrite <- app_assoc.
      * intros g [<-|Hg]; [exists new; auto|]. apply Hall; auto.
      * intros m Hm g [<-|Hg] i Hi; [|apply Hspec; auto].
        unfold value_spec. eapply value_spec_l_agree; [|apply (Hspec1 m); [eapply ext_trans; eauto|cbn; lia]].
        intros j Hj. symmetry. eapply ext_nth; eauto. lia.
    + intros g Hg. rewrite get_set_other by (apply Hne, Hg). apply Hnone. now right.
Qed.

Lemma _sample_continuous_inv : forall T trial fs a log out log',
  _sample_continuous gen T trial fs a log = Ok (out, log') ->
  NoDup (map cf_name fs) ->
  map fst out = map cf_name fs /\
  (forall f, In f fs -> exists vs, get out (cf_name f) = Some vs /\ List.length vs = T) /\
  (forall m, ext out m -> forall f, In f fs -> forall i, (i < T)%nat -> value_spec gen trial m a f i).
Proof.
  intros T trial fs a log out log' H Hnd. unfold _sample_continuous in H.
  apply sample_factors_inv in H; auto.
  destruct H as (_ & _ & Hkeys & Hall & Hspec). repeat split; auto.
Qed.

Lemma _sample_continuous_cols : forall T trial fs a log out log',
  _sample_continuous gen T trial fs a log = Ok (out, log') ->
  NoDup (map cf_name fs) ->
  forall n l, get out n = Some l -> List.length l = T.
Proof.
  intros T trial fs a log out log' H Hnd n l Hg.
  apply _sample_continuous_inv in H; auto. destruct H as (Hkeys & Hall & _).
  apply get_Some_in in Hg as Hin. rewrite Hkeys in Hin. apply in_map_iff in Hin.
  destruct Hin as (f & <- & Hf). destruct (Hall f Hf) as (vs & Hgv & Hlen). congruence.
Qed.

End Sampling.

Lemma constraint_inputs_char : forall out m names i inputs, ext out m ->
  constraint_inputs out names i = Ok inputs ->
  inputs = map (fun n => nth i (getd m n) VNaN) names.
Proof.
  intros out m names i inputs He H. unfold constraint_inputs in H.
  eapply mapM_ok_map; [|exact H]. cbn beta. intros n v _ Hv.
  apply He in Hv; [|lia]. apply dict_at_nth in Hv; [|lia]. rewrite Nat2Z.id in Hv. congruence.
Qed.

Lemma check_trials_char : forall out m c is b, ext out m ->
  check_trials out c is = Ok b ->
  b = forallb (fun i => cc_pred c (map (fun n => nth i (getd m n) VNaN) (cc_factors c))) is.
Proof.
  intros out m c is b He. induction is as [|i rest IH]; cbn; [congruence|].
  destruct (constraint_inputs out (cc_factors c) i) as [inputs|] eqn:E; [|discriminate].
  rewrite <- (constraint_inputs_char _ _ _ _ _ He E). destruct (cc_pred c inputs); [exact IH|now intros [= <-]].
Qed.

(** When every column of [out] has [T] entries, a returned [_check_constraints]
    is the conjunction of every predicate at every trial (the loops stop at the
    first that fails, so nothing after it is read). *)
Lemma check_each_char : forall T out m cs b, ext out m ->
  (forall n l, get out n = Some l -> List.length l = T) ->
  check_each out cs = Ok b ->
  b = forallb (fun c => forallb (fun i => cc_pred c (map (fun n => nth i (getd m n) VNaN) (cc_factors c)))
                                (seq 0 T)) cs.
Proof.
  intros T out m cs b He HT. induction cs as [|c tl IH]; cbn; [congruence|].
  destruct (cc_factors c) as [|n0 ns] eqn:Ef; [discriminate|].
  unfold getitem. destruct (get out n0) as [l0|] eqn:Eg; [|discriminate]. rewrite (HT _ _ Eg).
  destruct (check_trials out c (seq 0 T)) as [b0|] eqn:Et; [|discriminate].
  apply (check_trials_char _ m) in Et; [|exact He]. rewrite Ef in Et. rewrite <- Et.
  destruct b0; [exact IH|now intros [= <-]].
Qed.

Lemma forallb_false_ex {A} (p : A -> bool) l : forallb p l = false -> exists x, In x l /\ p x = false.
Proof.
  induction l as [|x l IH]; cbn; [discriminate|]. destruct (p x) eqn:E; [|exists x; auto].
  intros H. destruct (IH H) as (y & Hy & Hp). exists y. auto.
Qed.

Section Resample.
Variable gen : string -> nat -> nat -> list input -> val.

Lemma sample_continuous_inv : forall T trial fs cs fuel a log out a' log',
  sample_continuous gen T trial fs cs fuel a log = Ok (out, a', log') ->
  exists att logx, a' = S att /\ (a <= att)%nat /\
    _sample_continuous gen T trial fs att logx = Ok (out, log') /\
    check_constraints cs out = Ok true.
Proof.
  intros T trial fs cs. induction fuel as [|fuel IH]; intros a log out a' log' H; cbn in H; [discriminate|].
  destruct (_sample_continuous gen T trial fs a log) as [[o l]|] eqn:E; [|discriminate].
  destruct (check_constraints cs o) as [[|]|] eqn:Ec; try discriminate.
  - injection H as <- <- <-. exists a, log. repeat split; auto.
  - apply IH in H. destruct H as (att & logx & -> & Hle & Hs & Hc).
    exists att, logx. repeat split; auto. lia.
Qed.

(** One accepted sampling, seen through any dict [m] that extends it. *)
Lemma accepted_ok : forall T trial fs cs fuel a log out a' log' m,
  NoDup (map cf_name fs) ->
  sample_continuous gen T trial fs cs fuel a log = Ok (out, a', log') ->
  ext out m ->
  (forall f, In f fs -> get m (cf_name f) = get out (cf_name f)) ->
  experiment_ok gen T fs cs trial (m, a').
Proof.
  intros T trial fs cs fuel a log out a' log' m Hnd H He Hsame.
  apply sample_continuous_inv in H. destruct H as (att & logx & -> & _ & Hs & Hc).
  pose proof (_sample_continuous_cols _ _ _ _ _ _ _ _ Hs Hnd) as HT.
  apply _sample_continuous_inv in Hs; auto. destruct Hs as (Hkeys & Hall & Hspec).
  exists att. cbn [fst snd]. repeat split.
  - intros f Hf. rewrite Hsame by auto. now apply Hall.
  - intros c Hcin i Hi. apply (check_each_char T _ m) in Hc; [|exact He|exact HT].
    symmetry in Hc. rewrite forallb_forall in Hc. specialize (Hc c Hcin). rewrite forallb_forall in Hc.
    apply Hc, in_seq. lia.
  - intros f Hf i Hi. now apply Hspec.
Qed.

Lemma merge_cons : forall tr k v out, merge tr ((k, v) :: out) = merge (set tr k v) out.
Proof. reflexivity. Qed.

Lemma merge_get_other : forall out tr k, ~ In k (map fst out) -> get (merge tr out) k = get tr k.
Proof.
  induction out as [|[k0 v0] tl IH]; intros tr k Hk; [reflexivity|].
  rewrite merge_cons. cbn in Hk. rewrite IH by tauto. apply get_set_other. intros ->. tauto.
Qed.

Lemma merge_get_out : forall out tr k, NoDup (map fst out) -> In k (map fst out) ->
  get (merge tr out) k = get out k.
Proof.
  induction out as [|[k0 v0] tl IH]; intros tr k Hnd Hk; [destruct Hk|].
  rewrite merge_cons. cbn in Hnd, Hk. inversion Hnd as [|? ? Hnotin Hnd']; subst. cbn [get].
  destruct (String.eqb k k0) eqn:E.
  - apply String.eqb_eq in E. subst k0. rewrite merge_get_other by auto. apply get_set_same.
  - apply String.eqb_neq in E. apply IH; auto. destruct Hk; congruence.
Qed.

Lemma merge_disjoint : forall out tr, NoDup (map fst out) ->
  (forall k, In k (map fst out) -> get tr k = None) -> merge tr out = tr ++ out.
Proof.
  induction out as [|[k0 v0] tl IH]; intros tr Hnd Hdis; [now rewrite app_nil_r|].
  rewrite merge_cons. cbn in Hnd. inversion Hnd as [|? ? Hnotin Hnd']; subst.
  rewrite set_absent by (apply Hdis; left; auto).
  rewrite IH; auto.
  - now rewrite <- app_assoc.
  - intros k Hk. apply get_None_iff. rewrite map_app, in_app_iff. cbn.
    intros [H|[H|[]]].
    + apply get_None_iff in H; auto. apply Hdis. right; auto.
    + congruence.
Qed.

Lemma ext_merge : forall tr out, NoDup (map fst out) -> ext out (merge tr out).
Proof.
  intros tr out Hnd f j v Hj H. destruct (dict_at_inv _ _ _ _ Hj H) as (l & Hg & Hn).
  apply dict_at_intro with (l := l); auto.
  rewrite merge_get_out; auto. eapply get_Some_in; eauto.
Qed.

Lemma synth_loop_inv : forall T fs cs fuel trialss a log res log',
  NoDup (map cf_name fs) ->
  synth_loop gen T fs cs fuel a trialss log = Ok (res, log') ->
  Forall2 (fun tr ma =>
             exists out a0 lg lg', sample_continuous gen T tr fs cs fuel a0 lg = Ok (out, snd ma, lg')
                                   /\ fst ma = merge tr out) trialss res.
Proof.
  intros T fs cs fuel. induction trialss as [|tr rest IH]; intros a log res log' Hnd H; cbn in H.
  - injection H as <- <-. constructor.
  - destruct (sample_continuous gen T tr fs cs fuel a log) as [[[out a'] lg']|] eqn:E; [|discriminate].
    destruct (synth_loop gen T fs cs fuel a' rest lg') as [[ms lg'']|] eqn:E2; [|discriminate].
    injection H as <- <-. constructor.
    + exists out, a, log, lg'. cbn. auto.
    + eapply IH; eauto.
Qed.

Lemma sample_continuous_keys : forall T trial fs cs fuel a log out a' log',
  NoDup (map cf_name fs) ->
  sample_continuous gen T trial fs cs fuel a log = Ok (out, a', log') ->
  map fst out = map cf_name fs.
Proof.
  intros T trial fs cs fuel a log out a' log' Hnd H.
  apply sample_continuous_inv in H. destruct H as (att & logx & _ & _ & Hs & _).
  now apply _sample_continuous_inv in Hs.
Qed.

(** ** C22, safety: every returned experiment is as documented *)
Theorem continuous_spec : forall T fs cs fuel trialss res log,
  fs <> [] -> NoDup (map cf_name fs) ->
  synthesize_post gen T fs cs fuel trialss = Ok (res, log) ->
  Forall2 (experiment_ok gen T fs cs) trialss res.
Proof.
  intros T fs cs fuel trialss res log Hne Hnd H. unfold synthesize_post in H.
  destruct fs as [|f0 fs'] eqn:Efs; [congruence|]. rewrite <- Efs in *. clear Efs Hne f0 fs'.
  apply synth_loop_inv in H; auto.
  eapply Forall2_imp; [|exact H]. cbn beta.
  intros tr [m a'] (out & a0 & lg & lg' & Hs & Hm). cbn [fst snd] in *. subst m.
  pose proof (sample_continuous_keys _ _ _ _ _ _ _ _ _ _ Hnd Hs) as Hkeys.
  assert (Hndo : NoDup (map fst out)) by (rewrite Hkeys; exact Hnd).
  eapply accepted_ok; eauto.
  - now apply ext_merge.
  - intros f Hf. apply merge_get_out; auto. rewrite Hkeys. now apply in_map.
Qed.

(** ** C22: the merge changes no discrete column *)
Theorem discrete_untouched : forall T fs cs fuel trialss res log,
  NoDup (map cf_name fs) ->
  synthesize_post gen T fs cs fuel trialss = Ok (res, log) ->
  Forall2 (fun tr ma =>
             (forall k, ~ In k (map cf_name fs) -> get (fst ma) k = get tr k) /\
             ((forall k, In k (map cf_name fs) -> get tr k = None) ->
              exists out, fst ma = tr ++ out /\ map fst out = map cf_name fs)) trialss res.
Proof.
  intros T fs cs fuel trialss res log Hnd H. unfold synthesize_post in H.
  destruct fs as [|f0 fs'] eqn:Efs.
  - injection H as <- <-. clear. induction trialss as [|tr rest IH]; cbn; constructor; auto.
    cbn. split; auto. intros _. exists []. now rewrite app_nil_r.
  - rewrite <- Efs in *. clear Efs f0 fs'.
    apply synth_loop_inv in H; auto.
    eapply Forall2_imp; [|exact H]. cbn beta.
    intros tr [m a'] (out & a0 & lg & lg' & Hs & Hm). cbn [fst snd] in *. subst m.
    pose proof (sample_continuous_keys _ _ _ _ _ _ _ _ _ _ Hnd Hs) as Hkeys.
    split.
    + intros k Hk. apply merge_get_other. now rewrite Hkeys.
    + intros Hdis. exists out. split; auto. apply merge_disjoint.
      * rewrite Hkeys. exact Hnd.
      * intros k Hk. apply Hdis. now rewrite <- Hkeys.
Qed.

End Resample.

(** ** C22: characterisation of [get_window_val] *)

Theorem window_val_shape : forall w idx d,
  0 <= idx ->
  (forall f, In f (w_factors w) -> exists l, get d f = Some l /\ idx < Z.of_nat (List.length l)) ->
  get_window_val w idx d =
  match w_factors w with
  | [] => Err IndexError
  | [f] => Ok (IWin (doc_window w idx (getd d f)))
  | fs => Ok (IWins (map (fun f => doc_window w idx (getd d f)) fs))
  end.
Proof.
  intros w idx d Hidx Hall. unfold get_window_val.
  rewrite (mapM_map _ _ (window_factor w idx d) (fun f => doc_window w idx (getd d f))).
  - destruct (w_factors w) as [|f1 [|f2 tl]]; reflexivity.
  - intros f Hf. destruct (Hall f Hf) as (l & Hg & Hlt). unfold getd. rewrite Hg.
    now apply window_factor_total.
Qed.

(** * The dependency check of the constructor

    Two designs that the check of /repo got wrong before the commits 91e3c5c
    and 97de4ab (both reproduced on the real code; the statements about the
    check the model follows are in Out/ContinuousDeps.v):
    [later_window_design] - a window over a factor declared later: accepted,
    KeyError while sampling; [chain_design] - a factor depending on one that is
    derived from a discrete factor only: rejected although sampling it is well
    defined. *)
Local Open Scope string_scope.

Definition later_window_design : list cfactor :=
  [ {| cf_name := "c1"; cf_deps := [DWin (window_post_init ["c0"] 2 1 None)]; cf_cumulative := false |};
    {| cf_name := "c0"; cf_deps := []; cf_cumulative := false |} ].

Definition chain_design : list cfactor :=
  [ {| cf_name := "c0"; cf_deps := [DDisc "color"]; cf_cumulative := false |};
    {| cf_name := "c1"; cf_deps := [DCont "c0"]; cf_cumulative := false |} ].

(** the first raises while sampling, and is rejected by the constructor *)
Lemma later_window_design_rejected :
  NoDup (map cf_name later_window_design) /\ check_dependency later_window_design = false /\
  forall gen a, _sample_continuous gen 2 [] later_window_design a [] = Err KeyError.
Proof.
  split; [|split].
  - repeat constructor; cbn; intuition discriminate.
  - reflexivity.
  - intros gen a. reflexivity.
Qed.

(** the second is accepted, and sampled *)
Lemma chain_design_accepted :
  NoDup (map cf_name chain_design) /\ check_dependency chain_design = true /\
  exists out log, _sample_continuous (fun _ _ _ _ => VNum 1) 2 [("color", [VStr "r"; VStr "b"])] chain_design O []
                  = Ok (out, log).
Proof.
  split; [|split].
  - repeat constructor; cbn; intuition discriminate.
  - reflexivity.
  - eexists; eexists; reflexivity.
Qed.

Local Close Scope string_scope.

Lemma mem_In : forall k l, mem k l = true <-> In k l.
Proof.
  intros k. induction l as [|x tl IH]; cbn; [split; [discriminate|tauto]|].
  rewrite orb_true_iff, IH, String.eqb_eq. intuition.
Qed.

(** * A concrete design (used by the [Example]s of Properties/C22.v)

    rt: independent; diff: window of width 2 over rt; total: cumulative sum of
    rt; mix: a discrete factor and total.  The ContinuousConstraint rt <= 6
    rejects the first attempt (rt = 7, 8, 9) and accepts the second. *)
Local Open Scope string_scope.

Definition ex_gen (name : string) (a i : nat) (inputs : list input) : val :=
  if String.eqb name "rt" then VNum (Z.of_nat (7 - 3 * a + i))
  else match inputs with
       | [IWin [(_, VNum x); (_, VNum y)]] => VNum (x - y)
       | [IWin _] => VNaN
       | [IVal (VNum x)] => VNum x
       | [IVal (VStr s); IVal (VNum x)] => VNum (x + Z.of_nat (String.length s))
       | _ => VNaN
       end.

Definition ex_fs : list cfactor :=
  [ {| cf_name := "rt"; cf_deps := []; cf_cumulative := false |};
    {| cf_name := "diff"; cf_deps := [DWin (window_post_init ["rt"] 2 1 None)]; cf_cumulative := false |};
    {| cf_name := "total"; cf_deps := [DCont "rt"]; cf_cumulative := true |};
    {| cf_name := "mix"; cf_deps := [DDisc "color"; DCont "total"]; cf_cumulative := false |} ].

Definition ex_cs : list bconstraint :=
  [ BOther;
    BCont {| cc_factors := ["rt"];
             cc_pred := fun vs => match vs with [VNum x] => Z.leb x 6 | _ => false end |} ].

Definition ex_trials : list dict :=
  [ [("color", [VStr "red"; VStr "blue"; VStr "red"])];
    [("color", [VStr "blue"; VStr "red"; VStr "red"])] ].

Definition ex_result : list (dict * nat) :=
  [ ([("color", [VStr "red"; VStr "blue"; VStr "red"]);
      ("rt", [VNum 4; VNum 5; VNum 6]);
      ("diff", [VNaN; VNum 1; VNum 1]);
      ("total", [VNum 4; VNum 9; VNum 15]);
      ("mix", [VNum 7; VNum 13; VNum 18])], 2%nat);
    ([("color", [VStr "blue"; VStr "red"; VStr "red"]);
      ("rt", [VNum 1; VNum 2; VNum 3]);
      ("diff", [VNaN; VNum 1; VNum 1]);
      ("total", [VNum 1; VNum 3; VNum 6]);
      ("mix", [VNum 5; VNum 6; VNum 9])], 3%nat) ].

Lemma ex_names_nodup : NoDup (map cf_name ex_fs).
Proof. repeat constructor; cbn; intuition discriminate. Qed.

Lemma ex_runs : exists log, synthesize_post ex_gen 3 ex_fs ex_cs 5 ex_trials = Ok (ex_result, log).
Proof. eexists. vm_compute. reflexivity. Qed.

Definition ex_window : cwindow := window_post_init ["rt"] 3 2 (Some 1%Z).
Definition ex_dict : dict := [("rt", [VNum 10; VNum 11; VNum 12; VNum 13])].
